(* C02 - Writing preserves every cue's start and end instant.
   Only statements closed by `exact`, with Print Assumptions; Examples show non-vacuity.
   Times are exact rationals t (microseconds); rhe = round half even to a whole microsecond
   (what datetime.timedelta does to a float; the identity on integers). *)
From Coq Require Import List ZArith QArith Qround Bool.
From PV Require Import lib.Sx lib.Str lib.Result lib.Dec.
From PV Require Import model.Base spec.SpecBase model.TimeWrite spec.SpecTimeW proofs.TimeWriteFacts.
From PV Require model.Langs spec.SpecTimeSamiDoc proofs.TimeSamiDocFacts proofs.TimeFloatFacts.
From PV Require model.DfxpWriteDoc model.XmlRead spec.SpecXmlDocT proofs.DfxpWriteDocFacts.
From PV Require model.SamiText model.SamiWriteDoc spec.SpecSamiText model.Chain spec.SpecChain proofs.ChainFacts proofs.ChainDocFacts proofs.SamiWriteDocFacts.
Import ListNotations.
Open Scope Z_scope.

(* rounding: identity on integers; otherwise the floor or - only when the fraction is >= 1/2 - the next integer *)
Theorem C02_rhe_int : forall z, rhe (inject_Z z) = z.
Proof. exact rhe_int. Qed.
Print Assumptions C02_rhe_int.
Theorem C02_rhe_cases : forall q, rhe q = Qfloor q \/ (rhe q = Qfloor q + 1 /\ up_ok q = true).
Proof. exact rhe_cases. Qed.
Print Assumptions C02_rhe_cases.

(* the accepted value is unique on integer times: floor(t/1000) ms, floor(t*25/10^6) frames *)
Theorem C02_acc_ms_int : forall z v, acc_ms (inject_Z z) v = true <-> v = z / 1000.
Proof. exact acc_ms_int. Qed.
Print Assumptions C02_acc_ms_int.
Theorem C02_acc_frames_int : forall z v, acc_frames (inject_Z z) v = true <-> v = z * 25 / 1000000.
Proof. exact acc_frames_int. Qed.
Print Assumptions C02_acc_frames_int.

(* shared formatter (SRT ',' / DFXP '.'): format, then parse with the independent clock parser
   (2/2/2/3 digit fields, MM < 60, SS < 60): floor(rhe t / 1000) ms, for all times below 24 h *)
Theorem C02_fmt_hms_denotes : forall sep t, 0 <= rhe t < 86400000000 ->
  parse_hms sep (format_ts sep t) = Some (rhe t / 1000).
Proof. exact fmt_hms_denotes. Qed.
Print Assumptions C02_fmt_hms_denotes.
Theorem C02_fmt_hms_int : forall sep z, 0 <= z < 86400000000 ->
  parse_hms sep (format_ts sep (inject_Z z)) = Some (z / 1000).
Proof. exact fmt_hms_int. Qed.
Print Assumptions C02_fmt_hms_int.
Theorem C02_fmt_hms_ok : forall sep t, 0 <= rhe t < 86400000000 -> ok_hms sep t (format_ts sep t) = true.
Proof. exact fmt_hms_ok. Qed.
Print Assumptions C02_fmt_hms_ok.
(* the SRT slice [:12] keeps the whole stamp *)
Theorem C02_srt_slice : forall t, 0 <= rhe t < 86400000000 -> srt_ts t = format_ts 44 t.
Proof. exact srt_ts_full. Qed.
Print Assumptions C02_srt_slice.

(* WebVTT formatter; the hour field is written exactly when it is non-zero *)
Theorem C02_vtt_ts_denotes : forall t, 0 <= rhe t < 86400000000 -> parse_vtt (vtt_ts t) = Some (rhe t / 1000).
Proof. exact vtt_ts_denotes. Qed.
Print Assumptions C02_vtt_ts_denotes.
Theorem C02_vtt_ts_int : forall z, 0 <= z < 86400000000 -> parse_vtt (vtt_ts (inject_Z z)) = Some (z / 1000).
Proof. exact vtt_ts_int. Qed.
Print Assumptions C02_vtt_ts_int.
Theorem C02_vtt_ts_ok : forall t, 0 <= rhe t < 86400000000 -> ok_vtt t (vtt_ts t) = true.
Proof. exact vtt_ts_ok. Qed.
Print Assumptions C02_vtt_ts_ok.
Theorem C02_vtt_hours_iff_nonzero : forall t, 0 <= rhe t < 86400000000 ->
  length (vtt_ts t) = if rhe t <? 3600000000 then 9%nat else 12%nat.
Proof. exact vtt_ts_hours_iff. Qed.
Print Assumptions C02_vtt_hours_iff_nonzero.

(* MicroDVD: the token is a decimal integer literal for floor(t*25/10^6); frame n covers [40000 n, 40000 (n+1)).
   _partial: the model computes the floor exactly; the writer's binary64 int(t*25.0/10**6) is not modelled (decided
   by execution: every integer time of the generators, thorough sweep) - the theorem is about printing and parsing *)
Theorem C02_mdvd_frames_floor_partial : forall t, (0 <= t)%Q -> ok_frames t (mdvd_token t) = true.
Proof. exact mdvd_token_ok. Qed.
Print Assumptions C02_mdvd_frames_floor_partial.
Theorem C02_mdvd_frames_int : forall z, 0 <= z ->
  parse_int (mdvd_token (inject_Z z)) = Some (z * 25 / 1000000) /\
  (z * 25 / 1000000) * 40000 <= z < (z * 25 / 1000000 + 1) * 40000.
Proof. exact mdvd_frame_int. Qed.
Print Assumptions C02_mdvd_frames_int.

(* SAMI: start= is a decimal integer literal for floor(t/1000). _partial: the Python type of `t // 1000` (float for a
   float t, the repaired defect) is invisible in Q; the theorem is about printing and parsing *)
Theorem C02_sami_start_integer_partial : forall t, (0 <= t)%Q ->
  match parse_int (sami_token (sami_ms t)) with Some v => v = floor_ms t | None => False end.
Proof. exact sami_token_ok. Qed.
Print Assumptions C02_sami_start_integer_partial.

(* SAMI sync rule, for ALL caption lists: a sync at each start ms; a blank sync at the end ms unless the next
   cue starts at that ms; nothing after the last cue; and the written syncs satisfy the oracle *)
Theorem C02_sami_sync_rule : forall caps, map sev_obs (sami_write caps) = sami_rule caps.
Proof. exact sami_sync_rule. Qed.
Print Assumptions C02_sami_sync_rule.
Theorem C02_sami_write_ok : forall caps, ok_sami_ms caps (map sev_obs (sami_write caps)) = true.
Proof. exact sami_write_ok. Qed.
Print Assumptions C02_sami_write_ok.

(* SRT: one cue per maximal run of consecutive captions with equal (start, end) - the runs of C19
   (partition, equal spans inside, distinct neighbours: the C19_runs theorems) - carrying the run's span *)
Theorem C02_srt_cues_are_runs : forall caps,
  map span (srt_merge caps) = map (fun r => span (run_last r)) (runs caps).
Proof. exact srt_cues_are_runs. Qed.
Print Assumptions C02_srt_cues_are_runs.
Theorem C02_run_last_same_span : forall caps r, In r (runs caps) -> span_eqb (run_last r) (fst r) = true.
Proof. exact run_last_span. Qed.
Print Assumptions C02_run_last_same_span.
(* legacy / single-position DFXP: merge_concurrent_captions first *)
Theorem C02_merged_cues_are_runs : forall caps, nodes_nonempty caps = true ->
  exists l, merge_lang caps = Ok l /\ map span l = map (fun r => span (fst r)) (runs caps).
Proof. exact merged_cues_are_runs. Qed.
Print Assumptions C02_merged_cues_are_runs.

(* ---- THE WRITER MODELS MEET THE DOCUMENT ORACLE (cue structure + tokens), for every caption list in the domain ----
   SRT: merge loop then [:12] stamps; accepted by "may merge" (ok_cues WSrt) *)
Theorem C02_srt_model_meets_oracle : forall caps, caps_time_ok caps = true ->
  ok_cues WSrt caps (map (fun c => (srt_ts (c_start c), srt_ts (c_end c))) (srt_merge caps)) = true.
Proof. exact srt_model_meets_oracle. Qed.
Print Assumptions C02_srt_model_meets_oracle.
(* legacy / single-position DFXP: merge_concurrent_captions, then one <p> per merged caption *)
Theorem C02_merged_model_meets_oracle : forall caps, caps_time_ok caps = true -> nodes_nonempty caps = true ->
  exists l, merge_lang caps = Ok l /\ ok_cues WMerged caps (map (hms_tok 46) l) = true.
Proof. exact merged_model_meets_oracle. Qed.
Print Assumptions C02_merged_model_meets_oracle.
(* DFXP one <p> per caption; MicroDVD one line per caption *)
Theorem C02_dfxp_model_meets_oracle : forall caps, caps_time_ok caps = true -> ok_cues WDfxp caps (dfxp_tokens caps) = true.
Proof. exact dfxp_model_meets_oracle. Qed.
Print Assumptions C02_dfxp_model_meets_oracle.
Theorem C02_mdvd_model_meets_oracle : forall caps, caps_time_ok caps = true -> ok_cues WMdvd caps (mdvd_tokens caps) = true.
Proof. exact mdvd_model_meets_oracle. Qed.
Print Assumptions C02_mdvd_model_meets_oracle.
(* WebVTT: one cue per layout group of the grouping loop, all with the caption's times; accepted by "may split" *)
Theorem C02_vtt_model_meets_oracle : forall caps : list (caption * list vnode), caps_time_ok (map fst caps) = true ->
  forallb (fun cn => shows_something (snd cn)) caps = true ->
  ok_cues WVtt (map fst caps) (vtt_tokens caps) = true.
Proof. exact vtt_model_meets_oracle. Qed.
Print Assumptions C02_vtt_model_meets_oracle.
(* a description of the MODEL's grouping loop (not demanded by the statement, which says "may split"):
   1 + the number of layout changes between text nodes *)
Theorem C02_vtt_group_count : forall nodes, vtt_group_count nodes = spec_groups nodes.
Proof. exact vtt_group_count_spec. Qed.
Print Assumptions C02_vtt_group_count.
(* the accepted values of a time do not depend on the representation of the rational (2000000 and 2000000.0) *)
Theorem C02_acc_ms_respects_equality : forall t t' v, (t == t')%Q -> acc_ms t v = acc_ms t' v.
Proof. exact acc_ms_comp. Qed.
Print Assumptions C02_acc_ms_respects_equality.

(* on the SCC lattice (thirds of a microsecond) both admissible readings of "truncated" coincide *)
Theorem C02_lattice_no_ms_crossing : forall k c, c = 100100 \/ c = 100000 ->
  rhe ((k * c) # 3) / 1000 = floor_ms ((k * c) # 3).
Proof. exact lattice_no_ms_crossing. Qed.
Print Assumptions C02_lattice_no_ms_crossing.

(* ---- the two repaired SAMI defects, on record (pre-fix variants of the model) ------------------- *)
Theorem C02_sami_float_start_refuted : exists t, (0 <= t)%Q /\ parse_int (sami_token_unfixed t) = None.
Proof. exact sami_float_start_refuted. Qed.
Print Assumptions C02_sami_float_start_refuted.
Theorem C02_sami_blank_after_ms0_refuted :
  exists caps, ok_sami_ms caps (map sev_obs (sami_events_unfixed caps None 0)) = false.
Proof. exact sami_blank_after_ms0_refuted. Qed.
Print Assumptions C02_sami_blank_after_ms0_refuted.

(* ---- non-vacuity ------------------------------------------------------------------------------ *)
Example C02_ex_fmt : format_ts 44 (inject_Z 86399999999) = lit "23:59:59,999" /\ format_ts 46 (inject_Z 3600000000) = lit "01:00:00.000".
Proof. vm_compute. split; reflexivity. Qed.
Example C02_ex_fmt_float : format_ts 46 (5004999999999999 # 1000000000) = lit "00:00:05.005" /\ rhe (5004999999999999 # 1000000000) = 5005000.
Proof. vm_compute. split; reflexivity. Qed.
Example C02_ex_vtt : vtt_ts (inject_Z 59999999) = lit "00:59.999" /\ vtt_ts (inject_Z 3600000000) = lit "01:00:00.000".
Proof. vm_compute. split; reflexivity. Qed.
Example C02_ex_mdvd : mdvd_token (inject_Z 8039999) = lit "200" /\ mdvd_token (inject_Z 8040000) = lit "201".
Proof. vm_compute. split; reflexivity. Qed.
Example C02_ex_sami :
  sami_write [(inject_Z 0, inject_Z 900); (inject_Z 5000000, inject_Z 6000000); (inject_Z 6000500, inject_Z 7000000)]
  = [SCue 0 0; SBlank 0; SCue 5000 1; SCue 6000 2].
Proof. vm_compute. reflexivity. Qed.
Example C02_ex_srt_runs :
  let c s e n := mkCap (inject_Z s) (inject_Z e) [n] in
  map span (srt_merge [c 0 1 1; c 2 3 2; c 2 3 3; c 2 4 4]) = [span (c 0 1 1); span (c 2 3 3); span (c 2 4 4)].
Proof. vm_compute. reflexivity. Qed.
Example C02_ex_vtt_groups :
  vtt_group_count [VText (Some 1); VBreak; VText (Some 1); VBreak; VText (Some 2); VText None; VText (Some 3)] = 3%nat
  /\ vtt_group_count [VBreak; VText None; VStyle true; VText (Some 1)] = 1%nat.
Proof. vm_compute. split; reflexivity. Qed.
Example C02_ex_srt_oracle :
  let c s e n := mkCap (inject_Z s) (inject_Z e) [n] in
  let caps := [c 0 1000000 1; c 2000000 3000000 2; c 2000000 3000000 3; mkCap (4000000 # 2) (6000000 # 2) [4]] in
  caps_time_ok caps = true /\
  (* merged (the model), not merged, and partly merged outputs are all accepted; a wrong time is not *)
  ok_cues WSrt caps [(lit "00:00:00,000", lit "00:00:01,000"); (lit "00:00:02,000", lit "00:00:03,000")] = true /\
  ok_cues WSrt caps [(lit "00:00:00,000", lit "00:00:01,000"); (lit "00:00:02,000", lit "00:00:03,000");
                     (lit "00:00:02,000", lit "00:00:03,000"); (lit "00:00:02,000", lit "00:00:03,000")] = true /\
  ok_cues WSrt caps [(lit "00:00:00,000", lit "00:00:01,000"); (lit "00:00:02,000", lit "00:00:03,001")] = false.
Proof. vm_compute. repeat split; reflexivity. Qed.
Example C02_ex_merged_oracle :
  let c s e n := mkCap (inject_Z s) (inject_Z e) [n] in
  let caps := [c 0 1000000 1; c 0 1000000 2; c 5000000 6000000 3] in
  caps_time_ok caps = true /\ nodes_nonempty caps = true /\
  match merge_lang caps with Ok l => ok_cues WMerged caps (map (hms_tok 46) l) | Err _ => false end = true.
Proof. vm_compute. repeat split; reflexivity. Qed.
Example C02_ex_vtt_oracle :
  let c := mkCap (inject_Z 1000000) (5004999999999999 # 1000000000) [1] in
  caps_time_ok [c] = true /\
  ok_cues WVtt [c] (vtt_tokens [(c, [VText (Some 1); VBreak; VText (Some 2)])]) = true /\
  vtt_tokens [(c, [VText (Some 1); VBreak; VText (Some 2)])] = [(lit "00:01.000", lit "00:05.005"); (lit "00:01.000", lit "00:05.005")] /\
  ok_cues WVtt [c] [(lit "00:01.000", lit "00:05.004")] = true /\ ok_cues WVtt [c] [] = false.
Proof. vm_compute. repeat split; reflexivity. Qed.
Example C02_ex_dfxp_mdvd_oracle :
  let caps := [mkCap (inject_Z 8039999) (inject_Z 8040000) [1]; mkCap (1 # 3) (999999 # 2) [2]] in
  caps_time_ok caps = true /\ dfxp_tokens caps = [(lit "00:00:08.039", lit "00:00:08.040"); (lit "00:00:00.000", lit "00:00:00.500")]
  /\ mdvd_tokens caps = [(lit "200", lit "201"); (lit "0", lit "12")].
Proof. vm_compute. repeat split; reflexivity. Qed.
Example C02_ex_lattice : rhe ((7 * 100100) # 3) / 1000 = floor_ms ((7 * 100100) # 3) /\ rhe ((7 * 100100) # 3) = 233567.
Proof. vm_compute. split; reflexivity. Qed.

(* ---- the SAMI DOCUMENT with several languages (placement of the syncs of further languages) ------------
   Langs.sami_write is the model of SAMIWriter's body construction over ALL languages of a set (_recreate_sync,
   _find_closest_sync); doc_obs l body = the paragraphs of language l in document order as (sync start ms, is blank). *)
Section SamiDocument.
Import Langs SpecTimeSamiDoc TimeSamiDocFacts.

(* the first language obeys the statement's sync rule whatever its shape (overlapping, nested, unsorted, repeated
   cues) and whatever languages follow *)
Theorem C02_sami_first_language_rule : forall l0 caps0 rest, ~ In l0 (map fst rest) -> texts_ok caps0 ->
  doc_obs l0 (Langs.sami_write ((l0, caps0) :: rest)) = sami_rule (wspans caps0).
Proof. exact sami_first_language_rule. Qed.
Print Assumptions C02_sami_first_language_rule.

(* every language of a set of timelines (sorted, non-overlapping per language; touching and zero-length cues allowed),
   for ANY number of languages: the syncs of a further language, inserted by time, stand in the rule's order *)
Theorem C02_sami_every_language_rule : forall cs, NoDup (map fst cs) ->
  (forall l caps, In (l, caps) cs -> timeline_us 0 caps /\ texts_ok caps) ->
  forall l caps, In (l, caps) cs -> doc_obs l (Langs.sami_write cs) = sami_rule (wspans caps).
Proof. exact sami_every_language_rule. Qed.
Print Assumptions C02_sami_every_language_rule.

(* model meets oracle at document level, every language *)
Theorem C02_sami_document_meets_oracle : forall cs, NoDup (map fst cs) ->
  (forall l caps, In (l, caps) cs -> timeline_us 0 caps /\ texts_ok caps) ->
  forall l caps, In (l, caps) cs -> ok_sami_ms (wspans caps) (doc_obs l (Langs.sami_write cs)) = true.
Proof. exact sami_document_meets_oracle. Qed.
Print Assumptions C02_sami_document_meets_oracle.

Theorem C02_sami_first_language_meets_oracle : forall l0 caps0 rest, ~ In l0 (map fst rest) -> texts_ok caps0 ->
  ok_sami_ms (wspans caps0) (doc_obs l0 (Langs.sami_write ((l0, caps0) :: rest))) = true.
Proof. exact sami_first_language_meets_oracle. Qed.
Print Assumptions C02_sami_first_language_meets_oracle.

(* known finding C02-sami-later-language-sync-order at model level: a further language that is no timeline
   ([(0,1s),(0,1s),(3s,4s)]) is written with exactly the rule's syncs in another document order; the oracle refuses;
   the same language written FIRST obeys the rule *)
Theorem C02_sami_later_language_order_refuted :
  let cs := [(lit "en", ex_en); (lit "fr", ex_fr)] in
  sami_rule (wspans ex_fr) = [(0, false); (1000, true); (0, false); (1000, true); (3000, false)]
  /\ doc_obs (lit "fr") (Langs.sami_write cs) = [(0, false); (0, false); (1000, true); (1000, true); (3000, false)]
  /\ ok_sami_ms (wspans ex_fr) (doc_obs (lit "fr") (Langs.sami_write cs)) = false
  /\ doc_obs (lit "fr") (Langs.sami_write [(lit "fr", ex_fr); (lit "en", ex_en)]) = sami_rule (wspans ex_fr).
Proof. exact sami_later_language_order_refuted. Qed.
Print Assumptions C02_sami_later_language_order_refuted.

(* non-vacuity: three timelines sharing starts and ends, a title cue of a later language before the first sync *)
Example C02_ex_sami_three_languages :
  let en := [mkWcue 1000000 2000000 (lit "a"); mkWcue 2000000 2000000 (lit "z"); mkWcue 5000500 6000000 (lit "b")] in
  let fr := [mkWcue 0 1000000 (lit "t"); mkWcue 1000000 2500000 (lit "c"); mkWcue 5000000 6000999 (lit "d")] in
  let de := [mkWcue 2500000 5000000 (lit "e")] in
  let cs := [(lit "en", en); (lit "fr", fr); (lit "de", de)] in
  map fst (Langs.sami_write cs) = [0; 1000; 2000; 2000; 2500; 5000] /\
  doc_obs (lit "fr") (Langs.sami_write cs) = [(0, false); (1000, false); (2500, true); (5000, false)] /\
  doc_obs (lit "fr") (Langs.sami_write cs) = sami_rule (wspans fr) /\
  doc_obs (lit "en") (Langs.sami_write cs) = [(1000, false); (2000, false); (2000, true); (5000, false)].
Proof. vm_compute. repeat split; reflexivity. Qed.
End SamiDocument.

(* ---- the binary64 computation int(micro * 25.0 / 10**6) of the real MicroDVD writer ----------------------
   For integer microseconds below 24 h it equals the exact floor that model and spec use.  Interval argument, the
   rounding function abstract: micro*25 < 2^53 is exact; the one rounded operation (the division) returns an integer
   quotient unchanged and is otherwise off by at most 2^-31 below 2^22 (binary64: 2^-32), while a non-integer quotient
   is at least 10^-6 away from the neighbouring integers.  (floor_frames (inject_Z t) = t * 25 / 1000000:
   C02_mdvd_frames_int.) *)
Theorem C02_mdvd_frames_binary64 : forall (rnd : Q -> Q) (t : Z),
  TimeFloatFacts.rounds_like_binary64_below_2p22 rnd -> (0 <= t < 86400000000)%Z ->
  Qfloor (rnd ((t * 25) # 1000000)) = (t * 25 / 1000000)%Z.
Proof. exact TimeFloatFacts.mdvd_frames_binary64. Qed.
Print Assumptions C02_mdvd_frames_binary64.
Example C02_ex_rounding_premise : TimeFloatFacts.rounds_like_binary64_below_2p22 (fun y => y).
Proof. exact TimeFloatFacts.rounds_like_id. Qed.

(* ---- the DFXP DOCUMENT at string level (C02 o C01 on whole documents) -------------------------------------
   DfxpWriteDoc.dfxp_write_doc lang cs = the writer MODEL's document for one language of captions given as text lines; it IS
   the text DFXPWriter prints when the lines are clean (non-empty, no blank at either end) and the language name holds no
   double quote (compared with the real writer on every run, harness request 207); outside that domain the theorems below
   speak about the model document only.  XmlRead.dfxp_read_string = the string-level model of DFXPReader (C01_dfxp_string_exact).  floor_cue c = (start, end) floored to the millisecond. *)
Module DfxpDocument.
Import model.DfxpWriteDoc model.XmlRead spec.SpecXmlDocT proofs.DfxpWriteDocFacts.
Open Scope Z_scope.

(* the written document is a well-formed rendering of an abstract document (hence parses: C01_dfxp_text_to_tree) *)
Theorem C02_dfxp_document_wellformed_unfold : forall lang cs, forallb wcap_ok cs = true -> xdoc_ok (wdoc lang cs) = true.
Proof. exact wdoc_ok. Qed.
Print Assumptions C02_dfxp_document_wellformed_unfold.

(* its begin / end attributes are the tokens of the C02 writer model (the shared formatter), followed by region / style *)
Theorem C02_dfxp_document_tokens : forall c : wcap, 0 <= fst (fst c) < day -> 0 <= snd (fst c) < day ->
  pattrs_list (wp_attrs c)
  = [mkRa f1 (lit "begin") (dfxp_ts (inject_Z (fst (fst c)))); mkRa f1 (lit "end") (dfxp_ts (inject_Z (snd (fst c))));
     at1 (lit "region") (lit "bottom"); at1 (lit "style") (lit "default")].
Proof. exact dfxp_document_tokens. Qed.
Print Assumptions C02_dfxp_document_tokens.

(* for EVERY list of captions (any number, any order, overlapping, equal spans) with integer times below 24 h and visible
   text, in any language name: reading the written text back yields exactly one caption per caption, in order, under
   that language, with start and end truncated to the millisecond *)
Theorem C02_dfxp_document_string : forall default lang cs, cs <> [] -> forallb wcap_ok cs = true ->
  dfxp_read_string default (dfxp_write_doc lang cs) = Ok [(lang, map floor_cue cs)].
Proof. exact dfxp_document_string. Qed.
Print Assumptions C02_dfxp_document_string.

Example C02_ex_dfxp_document :
  let cs := [(1000999, 2500000, [lit "hello"; lit "a & <b>"]); (3600000000, 3600040999, [lit "42"])] in
  forallb wcap_ok cs = true /\
  dfxp_write_doc (lit "en-US") cs = lit "<?xml version=""1.0"" encoding=""utf-8""?>
<tt xml:lang=""en"" xmlns=""http://www.w3.org/ns/ttml"" xmlns:tts=""http://www.w3.org/ns/ttml#styling"">
 <head>
  <styling>
   <style tts:color=""white"" tts:fontFamily=""monospace"" tts:fontSize=""1c"" xml:id=""default""/>
  </styling>
  <layout>
   <region tts:displayAlign=""after"" tts:textAlign=""start"" xml:id=""bottom""/>
  </layout>
 </head>
 <body>
  <div region=""bottom"" xml:lang=""en-US"">
   <p begin=""00:00:01.000"" end=""00:00:02.500"" region=""bottom"" style=""default"">
    hello<br/>
    a &amp; &lt;b&gt;
   </p>
   <p begin=""01:00:00.000"" end=""01:00:00.040"" region=""bottom"" style=""default"">
    42
   </p>
  </div>
 </body>
</tt>
" /\
  dfxp_read_string (lit "und") (dfxp_write_doc (lit "en-US") cs)
  = Ok [(lit "en-US", [(1000000, 2500000); (3600000000, 3600040000)])].
Proof. vm_compute. repeat split; reflexivity. Qed.
End DfxpDocument.

(* ---- the SAMI DOCUMENT at string level (C02 o C01 on whole documents) -------------------------------------
   SamiWriteDoc.sami_write_doc lang cs = head ++ sami_body_text lang cs = the text SAMIWriter prints for one language of
   captions given as text lines: one <sync start=ms> per event of the sync rule (TimeWrite.sami_write, C02_sami_sync_rule),
   compared with the real writer character by character on every run (harness request 208).  SamiText.sami_read_string = the
   string-level model of SAMIReader from <body> on (C01_sami_string_exact), given the stylesheet's class -> lang table. *)
Module SamiDocumentText.
Import model.SamiText model.SamiWriteDoc model.Chain spec.SpecChain proofs.ChainFacts proofs.ChainDocFacts proofs.SamiWriteDocFacts.
Open Scope Z_scope.

(* for EVERY timeline (sorted, non-overlapping cues, each at least 1 ms long, below 24 h - 4 s) with visible text, in any
   language name: reading the written text back yields one caption per caption, in order, under that language, every start
   and every non-final end truncated to the millisecond, the final cue lasting four seconds (its end is not written) *)
Theorem C02_sami_document_string : forall default lang cs lo, cs <> [] -> 0 <= lo ->
  dom_u 1000 lo (times_of_caps cs) -> lines_visible cs = true ->
  sami_read_string default (sstyles lang) (sami_body_text lang cs)
  = Ok [(lang, set_last_end (map (pi_pt 1000) (times_of_caps cs)))].
Proof. exact sami_document_string. Qed.
Print Assumptions C02_sami_document_string.

Example C02_ex_sami_document :
  let cs := [(1000999, 2500000, [lit "hello"; lit "a & <b>"]); (2500000, 3600040999, [lit "42"]); (3600050000, 3600060000, [lit "x"])] in
  dom_u 1000 0 (times_of_caps cs) /\ lines_visible cs = true /\
  sami_write_doc (lit "en-US") cs = lit "<sami>
 <head>
  <style type=""text/css"">
   <!--
    .en-US {
     lang: en-US;
    }
   -->
  </style>
 </head>
 <body>
  <sync start=""1000"">
   <p class=""en-US"">
    hello<br/>
    a &amp; &lt;b&gt;
   </p>
  </sync>
  <sync start=""2500"">
   <p class=""en-US"">
    42
   </p>
  </sync>
  <sync start=""3600040"">
   <p class=""en-US"">
    &nbsp;
   </p>
  </sync>
  <sync start=""3600050"">
   <p class=""en-US"">
    x
   </p>
  </sync>
 </body>
</sami>
" /\
  sami_read_string (lit "und") (sstyles (lit "en-US")) (sami_body_text (lit "en-US") cs)
  = Ok [(lit "en-US", [(1000000, 2500000); (2500000, 3600040000); (3600050000, 3604050000)])].
Proof. vm_compute. repeat split; try reflexivity; try discriminate. Qed.
End SamiDocumentText.
