(* C13 - Absolute sizes are relativized exactly or refused; fit-to-screen stays safe.
   Only statements closed by `exact`, each followed by Print Assumptions; Examples show non-vacuity. *)
From Coq Require Import List ZArith QArith Qabs Bool.
From PV Require Import proofs.Pos13VttFacts.
From PV Require Import lib.Sx lib.Str lib.Result model.Geometry model.Positioning spec.SpecGeom spec.SpecPos.
From PV Require Import proofs.GeomPrint proofs.GeomFacts proofs.PosFacts proofs.Pos12Facts.
Import ListNotations.
Open Scope Z_scope.

(* ---- one length on one axis: exact, or refused ------------------------------------------------------------ *)
(* spec_pct is the statement: px*100/dim, 1em = 16px, 1pt = 4/3 px, cells 32 columns / 15 rows, % unchanged;
   None = the needed dimension is absent (None or 0) *)
Theorem C13_as_percentage_exact : forall a hz d,
  match spec_pct a hz (given d) with
  | Some v => exists z, axis_call a hz d = Ok z /\ s_unit z = PCT /\ (s_val z == v)%Q
  | None => axis_call a hz d = Err ERelativization
  end.
Proof. exact size_as_pct_exact. Qed.
Print Assumptions C13_as_percentage_exact.

(* the five units spelled out, for both axes *)
Theorem C13_as_percentage_formulas : forall v d, ~ (d == 0)%Q ->
  let conv u hz := axis_call (mkSize v u) hz (Some d) in
  (forall hz, exists z, conv PX hz = Ok z /\ s_unit z = PCT /\ (s_val z == v * 100 / d)%Q)
  /\ (forall hz, exists z, conv EM hz = Ok z /\ s_unit z = PCT /\ (s_val z == v * 16 * 100 / d)%Q)
  /\ (forall hz, exists z, conv PT hz = Ok z /\ s_unit z = PCT /\ (s_val z == v * (4 # 3) * 100 / d)%Q)
  /\ (exists z, conv CELL true = Ok z /\ s_unit z = PCT /\ (s_val z == v * 100 / 32)%Q)
  /\ (exists z, conv CELL false = Ok z /\ s_unit z = PCT /\ (s_val z == v * 100 / 15)%Q)
  /\ (forall hz, conv PCT hz = Ok (mkSize v PCT)).
Proof. exact as_percentage_formulas. Qed.
Print Assumptions C13_as_percentage_formulas.

Theorem C13_missing_dimension_refused : forall a hz d,
  (exists e, axis_call a hz d = Err e) <-> (s_unit a <> PCT /\ given d = None).
Proof. exact size_refused_iff. Qed.
Print Assumptions C13_missing_dimension_refused.

Theorem C13_size_meets_oracle : forall a hz d, ok_size_pct a hz d (axis_call a hz d) = true.
Proof. exact ok_size_pct_model. Qed.
Print Assumptions C13_size_meets_oracle.

(* ---- a whole layout: every length on its own axis (origin x / extent width / start, end padding: width;
        origin y / extent height / before, after padding: height), shape and alignment kept - or refused ------ *)
Theorem C13_layout_relativized_exactly : forall l w h, ok_layout_pct l w h (layout_as_pct l w h) = true.
Proof. exact ok_layout_pct_model. Qed.
Print Assumptions C13_layout_relativized_exactly.

Theorem C13_layout_refused_iff_missing_dimension : forall l w h,
  ((exists e, layout_as_pct l w h = Err e) <-> needs_missing w h l = true)
  /\ (forall e, layout_as_pct l w h = Err e -> e = ERelativization).
Proof. exact layout_refused_iff. Qed.
Print Assumptions C13_layout_refused_iff_missing_dimension.

(* ---- rounded to two decimals when written (the C18 printing theorem) ------------------------------------- *)
Theorem C13_print_two_decimals : forall v u, (0 <= v)%Q -> ok_print v u (size_str (mkSize v u)) = true.
Proof. exact ok_print_model. Qed.
Print Assumptions C13_print_two_decimals.

(* ---- fit to screen: origin in the safe area, extent absent or in percent ----------------------------------- *)
Theorem C13_fit_safe : forall l o, l_origin l = Some o -> in_safe_area o = true ->
  match l_extent l with Some e => s_unit (st_h e) = PCT /\ s_unit (st_v e) = PCT | None => True end ->
  exists e', layout_fit l = Ok (mkLayout (Some o) (Some e') (l_padding l) (l_alignment l) None)
    /\ s_unit (st_h e') = PCT /\ s_unit (st_v e') = PCT
    (* right edge <= 90, bottom edge <= 95 *)
    /\ (s_val (p_x o) + s_val (st_h e') <= 90)%Q /\ (s_val (p_y o) + s_val (st_v e') <= 95)%Q
    /\ match l_extent l with
       (* a missing extent reaches exactly the edges *)
       | None => (s_val (p_x o) + s_val (st_h e') == 90)%Q /\ (s_val (p_y o) + s_val (st_v e') == 95)%Q
       (* an extent that fits is unchanged (per axis); one that does not reaches the edge *)
       | Some e =>
           ((s_val (p_x o) + s_val (st_h e) <= 90)%Q -> st_h e' = st_h e)
           /\ (~ (s_val (p_x o) + s_val (st_h e) <= 90)%Q -> (s_val (p_x o) + s_val (st_h e') == 90)%Q)
           /\ ((s_val (p_y o) + s_val (st_v e) <= 95)%Q -> st_v e' = st_v e)
           /\ (~ (s_val (p_y o) + s_val (st_v e) <= 95)%Q -> (s_val (p_y o) + s_val (st_v e') == 95)%Q)
       end.
Proof. exact fit_safe. Qed.
Print Assumptions C13_fit_safe.

Theorem C13_fit_meets_oracle : forall l, ok_fit l (layout_fit l) = true.
Proof. exact ok_fit_model. Qed.
Print Assumptions C13_fit_meets_oracle.

(* ---- BaseWriter._relativize_and_fit_to_screen with relativization on: percentages only, or RelativizationError
        exactly for a missing dimension ------------------------------------------------------------------------ *)
Theorem C13_relativize_and_fit_percent : forall fit w h l r,
  relativize_and_fit true fit w h l = Ok r -> all_pct r = true.
Proof. exact relativize_and_fit_pct. Qed.
Print Assumptions C13_relativize_and_fit_percent.

Theorem C13_relativize_and_fit_refusal : forall fit w h l e,
  relativize_and_fit true fit w h l = Err e -> e = ERelativization /\ needs_missing w h l = true.
Proof. exact relativize_and_fit_err. Qed.
Print Assumptions C13_relativize_and_fit_refusal.

(* ---- the writers ---------------------------------------------------------------------------------------------- *)
(* DFXP after `fix: DFXPWriter left a language-level layout ... unrelativized`: every level that reaches the document *)
Theorem C13_dfxp_writes_percentages : forall c s s', w_rel c = true -> dfxp_transform c s = Ok s' ->
  forallb opt_all_pct (written_layouts s') = true.
Proof. exact dfxp_writes_percentages. Qed.
Print Assumptions C13_dfxp_writes_percentages.

Theorem C13_dfxp_refuses_with_relativization_error : forall c s e,
  w_rel c = true -> dfxp_transform c s = Err e -> e = ERelativization.
Proof. exact dfxp_refuses_with_relativization_error. Qed.
Print Assumptions C13_dfxp_refuses_with_relativization_error.

(* record of the pre-fix behaviour (about dfxp_transform_prefix, a definition no run ties to any code): the statement is
   false of it (witness: language-level origin 64px 36px, video 640x360).  Not part of the claim. *)
Theorem C13_dfxp_lang_level_px_refuted : exists c s s',
  w_rel c = true /\ dfxp_transform_prefix c s = Ok s' /\ forallb opt_all_pct (written_layouts s') = false.
Proof. exact dfxp_lang_level_px_refuted. Qed.
Print Assumptions C13_dfxp_lang_level_px_refuted.

Theorem C13_sami_writes_percentages : forall c s s', w_rel c = true -> sami_transform c s = Ok s' ->
  opt_all_pct (ns_layout s') = true /\ forallb opt_all_pct (written_layouts s') = true.
Proof. exact sami_writes_percentages. Qed.
Print Assumptions C13_sami_writes_percentages.

(* WebVTT, one layout: whatever the configuration, COMPUTED cue settings carry percentages only (vtt_out_pct says nothing
   about raw settings, VRaw: see C13_vtt_writer_cues for what is true of them) *)
Theorem C13_vtt_only_percent : forall c lo out, vtt_convert_positioning c lo = Ok out -> vtt_out_pct out = true.
Proof. exact vtt_only_percent. Qed.
Print Assumptions C13_vtt_only_percent.

(* WebVTT at WRITER level (WebVTTWriter.write = vtt_language: every caption of the written language, every layout group of a
   caption, effective layout `group or caption or language`): each cue of the document either carries exactly the raw cue
   settings of its effective layout (verbatim: C12's clause; nothing is claimed about their units), or no settings, or
   computed settings whose position / line / size are all percentages.  Any configuration (relativize / fit on or off). *)
Theorem C13_vtt_writer_cues : forall c lg outs, vtt_language c lg = Ok outs ->
  Forall2 (fun cp cues => Forall2 cue_ok (vtt_cue_layouts (nl_layout lg) cp) cues) (nl_caps lg) outs.
Proof. exact vtt_language_cues. Qed.
Print Assumptions C13_vtt_writer_cues.

(* ... and with relativization on the writer refuses exactly when the effective layout of some cue (truthy, without raw
   settings) has a length that needs an absent video dimension *)
Theorem C13_vtt_writer_refused_iff : forall c lg, w_rel c = true ->
  ((exists e, vtt_language c lg = Err e)
   <-> existsb (vtt_needs c) (flat_map (vtt_cue_layouts (nl_layout lg)) (nl_caps lg)) = true).
Proof. exact vtt_language_refused_iff. Qed.
Print Assumptions C13_vtt_writer_refused_iff.

(* ---- the traversal of each writer, level by level (these two restate the model's definition as Forall2: definitional,
        used by the fit theorem below), and refusal as an equivalence ------------------------------------------------- *)
(* DFXPWriter (repaired): set level untouched; language level as_percentage_of only; caption and node level through
   _relativize_and_fit_to_screen; structure and node kinds kept *)
Theorem C13_dfxp_transform_levels : forall c s s', dfxp_transform c s = Ok s' ->
  ns_layout s' = ns_layout s
  /\ Forall2 (fun lg lg' => rel_only c (nl_layout lg) = Ok (nl_layout lg') /\ Forall2 (cap_step c) (nl_caps lg) (nl_caps lg'))
             (ns_langs s) (ns_langs s').
Proof. exact dfxp_transform_levels. Qed.
Print Assumptions C13_dfxp_transform_levels.

Theorem C13_sami_transform_levels : forall c s s', sami_transform c s = Ok s' ->
  raf c (ns_layout s) = Ok (ns_layout s')
  /\ Forall2 (fun lg lg' => raf c (nl_layout lg) = Ok (nl_layout lg') /\ Forall2 (cap_step c) (nl_caps lg) (nl_caps lg'))
             (ns_langs s) (ns_langs s').
Proof. exact sami_transform_levels. Qed.
Print Assumptions C13_sami_transform_levels.

(* with relativization on the writer refuses (RelativizationError, by C13_dfxp_refuses_with_relativization_error)
   EXACTLY when some layout it positions with - language, caption or node level (SAMI: also the set level) - has an
   absolute length on an axis whose video dimension is missing *)
Theorem C13_dfxp_refused_iff : forall c s, w_rel c = true ->
  ((exists e, dfxp_transform c s = Err e) <-> existsb (opt_needs c) (written_layouts s) = true).
Proof. exact dfxp_refused_iff. Qed.
Print Assumptions C13_dfxp_refused_iff.

Theorem C13_sami_refused_iff : forall c s, w_rel c = true ->
  ((exists e, sami_transform c s = Err e) <-> existsb (opt_needs c) (ns_layout s :: written_layouts s) = true).
Proof. exact sami_refused_iff. Qed.
Print Assumptions C13_sami_refused_iff.

(* the fit clause at WRITER level (composition of the traversal with C13_fit_safe): with relativization and fit on, every
   caption- and node-level layout of the transformed set whose origin lies in the safe area has an extent in percent,
   right edge <= 90, bottom edge <= 95 *)
Theorem C13_dfxp_fit_levels : forall c s s', w_rel c = true -> w_fit c = true -> dfxp_transform c s = Ok s' ->
  Forall opt_fitted (cap_node_layouts s').
Proof. exact dfxp_fit_levels. Qed.
Print Assumptions C13_dfxp_fit_levels.

(* WebVTT with fit on: a percentage layout with its origin in the safe area gives position + size <= 90 - right padding *)
Theorem C13_vtt_fit_right_edge : forall c l org, layout_truthy l = true -> (l_webvtt l = None \/ l_webvtt l = Some []) ->
  all_pct l = true -> w_fit c = true -> l_origin l = Some org -> in_safe_area org = true ->
  exists s ps ss, vtt_convert_positioning c (Some l) = Ok (VSet s)
    /\ vs_position s = Some ps /\ vs_size s = Some ss /\ s_unit ps = PCT /\ s_unit ss = PCT
    /\ (s_val ps + s_val ss <= 90 - pad_of pd_end l)%Q.
Proof. exact vtt_fit_right_edge. Qed.
Print Assumptions C13_vtt_fit_right_edge.

(* after `fix: fit_to_screen gave a negative extent ...`: a fitted extent is never negative, whatever the origin *)
Theorem C13_fit_extent_never_negative : forall l r e', layout_fit l = Ok r -> l_origin l <> None -> l_extent r = Some e' ->
  match l_extent l with Some e => (0 <= s_val (st_h e))%Q /\ (0 <= s_val (st_v e))%Q | None => True end ->
  (0 <= s_val (st_h e'))%Q /\ (0 <= s_val (st_v e'))%Q.
Proof. exact fit_extent_never_negative. Qed.
Print Assumptions C13_fit_extent_never_negative.

(* ---- non-vacuity ---------------------------------------------------------------------------------------------- *)
Example C13_ex_units :
  axis_call (mkSize (64 # 1) PX) true (Some (640 # 1)) = Ok (mkSize (10 # 1) PCT)
  /\ axis_call (mkSize (2 # 1) EM) false (Some (360 # 1)) = Ok (mkSize (80 # 9) PCT)
  /\ axis_call (mkSize (12 # 1) PT) true (Some (640 # 1)) = Ok (mkSize (5 # 2) PCT)
  /\ axis_call (mkSize (8 # 1) CELL) true (Some (640 # 1)) = Ok (mkSize (25 # 1) PCT)
  /\ axis_call (mkSize (3 # 1) CELL) false (Some (360 # 1)) = Ok (mkSize (20 # 1) PCT)
  /\ axis_call (mkSize (64 # 1) PX) true None = Err ERelativization
  /\ axis_call (mkSize (64 # 1) PX) true (Some 0%Q) = Err ERelativization.
Proof. vm_compute. repeat split. Qed.
Example C13_ex_fit :
  let s v := mkSize v PCT in
  layout_fit (mkLayout (Some (mkPoint (s (35 # 1)) (s (25 # 1)))) (Some (mkStretch (s (80 # 1)) (s (60 # 1)))) None None None)
  = Ok (mkLayout (Some (mkPoint (s (35 # 1)) (s (25 # 1)))) (Some (mkStretch (s (55 # 1)) (s (60 # 1)))) None None None).
Proof. vm_compute. reflexivity. Qed.
Example C13_ex_dfxp_fixed :
  dfxp_transform (mkCfg true true (Some (640 # 1)) (Some (360 # 1)))
    (mkNset None [mkNlang (Some (mkLayout (Some (mkPoint (mkSize (64 # 1) PX) (mkSize (36 # 1) PX))) None None None None))
                          [mkNcap None [mkNode 1 None]]])
  = Ok (mkNset None [mkNlang (Some (mkLayout (Some (mkPoint (mkSize (10 # 1) PCT) (mkSize (10 # 1) PCT))) None None None None))
                             [mkNcap None [mkNode 1 None]]]).
Proof. exact dfxp_lang_level_px_fixed. Qed.
Example C13_ex_fit_outside_safe_area :
  let s v := mkSize v PCT in
  layout_fit (mkLayout (Some (mkPoint (s (95 # 1)) (s (10 # 1)))) None None None None)
  = Ok (mkLayout (Some (mkPoint (s (95 # 1)) (s (10 # 1)))) (Some (mkStretch (s (0 # 1)) (s (85 # 1)))) None None None).
Proof. vm_compute. reflexivity. Qed.

(* instances of the hypotheses of the refusal / fit theorems *)
Example C13_ex_refusal :
  let l := mkLayout (Some (mkPoint (mkSize (64 # 1) PX) (mkSize (36 # 1) PX))) None None None None in
  let c := mkCfg true true None (Some (360 # 1)) in
  relativize_and_fit true true None (Some (360 # 1)) l = Err ERelativization
  /\ needs_missing None (Some (360 # 1)) l = true
  /\ dfxp_transform c (mkNset None [mkNlang None [mkNcap (Some l) [mkNode 1 None]]]) = Err ERelativization
  /\ existsb (opt_needs c) (written_layouts (mkNset None [mkNlang None [mkNcap (Some l) [mkNode 1 None]]])) = true.
Proof. vm_compute. repeat split. Qed.
Example C13_ex_fit_missing_extent :
  let s v := mkSize v PCT in
  let l := mkLayout (Some (mkPoint (s (10 # 1)) (s (20 # 1)))) None None None None in
  in_safe_area (mkPoint (s (10 # 1)) (s (20 # 1))) = true
  /\ layout_fit l = Ok (mkLayout (l_origin l) (Some (mkStretch (s (80 # 1)) (s (75 # 1)))) None None None).
Proof. vm_compute. split; reflexivity. Qed.
Example C13_ex_vtt_fit :
  let s v := mkSize v PCT in
  vtt_convert_positioning (mkCfg true true None None)
    (Some (mkLayout (Some (mkPoint (s (35 # 1)) (s (25 # 1)))) (Some (mkStretch (s (80 # 1)) (s (60 # 1)))) None None None))
  = Ok (VSet (mkVs (Some HStart) (Some (s (35 # 1))) (Some (s (25 # 1))) (Some (s (55 # 1))))).
Proof. vm_compute. reflexivity. Qed.

(* writer level: a caption with a raw-settings layout and a text node positioned in px; video 640x360 -> verbatim + percentages;
   without a video size the second cue makes the writer refuse *)
Example C13_ex_vtt_writer :
  let raw := mkLayout None None None None (Some (lit "line:10px")) in
  let px := mkLayout (Some (mkPoint (mkSize (64 # 1) PX) (mkSize (36 # 1) PX))) None None None None in
  let lg := mkNlang None [mkNcap (Some raw) [mkNode 1 None]; mkNcap None [mkNode 1 (Some px)]] in
  vtt_language (mkCfg true false (Some (640 # 1)) (Some (360 # 1))) lg
    = Ok [[VRaw (lit "line:10px")]; [VSet (mkVs (Some HStart) (Some (mkSize (10 # 1) PCT)) (Some (mkSize (10 # 1) PCT)) None)]]
  /\ vtt_language (mkCfg true false None None) lg = Err ERelativization
  /\ existsb (vtt_needs (mkCfg true false None None)) (flat_map (vtt_cue_layouts (nl_layout lg)) (nl_caps lg)) = true.
Proof. vm_compute. repeat split. Qed.

(* ==== DFXPWriter(write_inline_positioning=True) and the region table ======================================= *)
From PV Require Import spec.SpecPos7 proofs.Pos13InlineFacts.

(* the set-level layout, too, is in percentages after the transformation (after `fix: DFXPWriter(write_inline_positioning=
   True) wrote the absolute lengths of the set-level layout inline`) *)
Theorem C13_dfxp_inline_writes_percentages : forall c s s', w_rel c = true -> dfxp_transform_inline c s = Ok s' ->
  opt_all_pct (ns_layout s') = true /\ forallb opt_all_pct (written_layouts s') = true.
Proof. exact dfxp_inline_writes_percentages. Qed.
Print Assumptions C13_dfxp_inline_writes_percentages.

(* completeness of the traversal for what is written INLINE: the attributes on every <div>, every <p> and every <span>
   with a layout are those of the layout get_positioning_info picks (node, else caption, else language, else SET level);
   whichever it picks, it went through the transformation - no element carries an absolute length *)
Theorem C13_dfxp_inline_attributes_percent : forall c s s', w_rel c = true -> dfxp_transform_inline c s = Ok s' ->
  forallb opt_all_pct (inline_layouts s') = true.
Proof. exact dfxp_inline_attributes_percent. Qed.
Print Assumptions C13_dfxp_inline_attributes_percent.

Theorem C13_dfxp_inline_refused_iff : forall c s, w_rel c = true ->
  ((exists e, dfxp_transform_inline c s = Err e) <-> existsb (opt_needs c) (ns_layout s :: written_layouts s) = true).
Proof. exact dfxp_inline_refused_iff. Qed.
Print Assumptions C13_dfxp_inline_refused_iff.

Theorem C13_dfxp_inline_refuses_with_relativization_error : forall c s e, w_rel c = true ->
  dfxp_transform_inline c s = Err e -> e = ERelativization.
Proof. exact dfxp_inline_refuses_with_relativization_error. Qed.
Print Assumptions C13_dfxp_inline_refuses_with_relativization_error.

(* what is written as REGIONS, for the region table built from the WRITTEN languages (C12's region_map over the
   transformed set): every key is a percentage layout.  This is the whole table of the real RegionCreator only when every
   language of the set is written (no force=, or a set with one language): with force=lang the real table also holds
   regions made from the UNTRANSFORMED layouts of the other languages; they are unreferenced (and removed by
   cleanup_regions) except through the set-level fallback of get_positioning_info - the real writer then prints a px region
   with relativization on: known finding C13-dfxp-set-level-fallback-region (a defect of the code, recorded failure-keyed;
   the generator produces the force= shape on every run).  Both writer modes: *)
Theorem C13_dfxp_regions_percent : forall c s s', w_rel c = true -> dfxp_transform c s = Ok s' ->
  forall k id, In (k, id) (region_map (written_layouts s')) -> all_pct k = true.
Proof. exact dfxp_regions_percent. Qed.
Print Assumptions C13_dfxp_regions_percent.

Theorem C13_dfxp_inline_regions_percent : forall c s s', w_rel c = true -> dfxp_transform_inline c s = Ok s' ->
  forall k id, In (k, id) (region_map (written_layouts s')) -> all_pct k = true.
Proof. exact dfxp_inline_regions_percent. Qed.
Print Assumptions C13_dfxp_inline_regions_percent.

(* two captions with == px layouts (64/1 and 128/2) share ONE region, made from the relativized layout *)
Example C13_ex_regions_shared :
  let l n d := mkLayout (Some (mkPoint (mkSize (n # d) PX) (mkSize (36 # 1) PX))) None None None None in
  match dfxp_transform (mkCfg true false (Some (640 # 1)) (Some (360 # 1)))
          (mkNset None [mkNlang None [mkNcap (Some (l 64 1%positive)) []; mkNcap (Some (l 128 2%positive)) []]]) with
  | Ok s' => map (fun kv => (snd kv, all_pct (fst kv))) (region_map (written_layouts s')) = [(RId 0, true); (RDefault, true)]
  | Err _ => False
  end.
Proof. vm_compute. reflexivity. Qed.

(* set-level origin 64px 36px, nothing else: with inline positioning the div and the p carry it - as 10% 10% with a
   640x360 video, and the writer refuses without a video size *)
Example C13_ex_inline :
  let g := mkLayout (Some (mkPoint (mkSize (64 # 1) PX) (mkSize (36 # 1) PX))) None None None None in
  let g' := mkLayout (Some (mkPoint (mkSize (10 # 1) PCT) (mkSize (10 # 1) PCT))) None None None None in
  let s := mkNset (Some g) [mkNlang None [mkNcap None [mkNode 1 None]]] in
  match dfxp_transform_inline (mkCfg true false (Some (640 # 1)) (Some (360 # 1))) s with
  | Ok s' => inline_layouts s' = [Some g'; Some g'] | Err _ => False end
  /\ dfxp_transform_inline (mkCfg true false None None) s = Err ERelativization
  /\ existsb (opt_needs (mkCfg true false None None)) (ns_layout s :: written_layouts s) = true.
Proof. vm_compute. repeat split. Qed.

(* PARTIAL (hypothesis on the RESULT s', not on the input: that as_percentage_of and the repaired fit_to_screen keep
   lengths non-negative is not proved here; and, as above, the table of the written languages only).  With relativization
   on, the attribute values layout_attrs prints for every region of that table (tts:origin / tts:extent / tts:padding through
   the model of Size.__str__) are read by C12's MODEL of the reader's from_xml_attribute (read_region) as a layout whose
   lengths are all percentages.  (That the strings end in "%" is C18's shape of size_str; not restated here.) *)
From PV Require Import proofs.DfxpTreeFacts proofs.Pos13DocFacts.
Theorem C13_dfxp_document_regions_percent_partial : forall c s s', w_rel c = true -> dfxp_transform c s = Ok s' ->
  Forall opt_nonneg (written_layouts s') ->
  forall id a, In (id, a) (map (fun kv => (snd kv, layout_attrs (fst kv))) (region_map (written_layouts s'))) ->
  exists r, read_region a = Ok r /\ all_pct r = true.
Proof. exact dfxp_document_regions_percent. Qed.
Print Assumptions C13_dfxp_document_regions_percent_partial.

Example C13_ex_document_region :
  let c := mkCfg true true (Some (640 # 1)) (Some (360 # 1)) in
  let s := mkNset None [mkNlang (Some (mkLayout (Some (mkPoint (mkSize (64 # 1) PX) (mkSize (36 # 1) PX))) None None None None))
                                [mkNcap None [mkNode 1 None]]] in
  match dfxp_transform c s with
  | Ok s' => Forall opt_nonneg (written_layouts s')
             /\ map (fun kv => (snd kv, ra_origin (layout_attrs (fst kv)))) (region_map (written_layouts s'))
                = [(RId 0, Some (lit "10% 10%")); (RDefault, None)]
  | Err _ => False
  end.
Proof.
  vm_compute. split; [|reflexivity].
  repeat constructor; cbn; intros H; discriminate H.
Qed.

(* "WebVTT output never contains a non-percentage length" on the printed string (model/VttText.v vtt_settings_text = the
   string _convert_positioning returns, harness request 1321): for computed cue settings it is [" align:<name>"] followed by, for each
   of position / line / size, nothing (absent) or the key and a number (digits, optionally a point and one or two digits)
   followed by "%".  vs_nonneg constrains the OUTPUT settings (a padding wider than the cue gives a negative size, outside
   the size language; about a fifth of the stream's cases). *)
From PV Require Import model.DfxpAlign model.VttText proofs.GeomPrint proofs.Pos13VttTextFacts.
Theorem C13_vtt_text_percent : forall c lo v, vtt_convert_positioning c lo = Ok (VSet v) -> vs_nonneg v ->
  exists t1 t2 t3,
    vtt_settings_text (VSet v)
    = (match vs_align v with Some h => lit " align:" ++ halign_name h | None => [] end) ++ t1 ++ t2 ++ t3
    /\ setting_pct (lit " position:") (vs_position v) t1 /\ setting_pct (lit " line:") (vs_line v) t2
    /\ setting_pct (lit " size:") (vs_size v) t3.
Proof. exact vtt_settings_text_percent. Qed.
Print Assumptions C13_vtt_text_percent.

Example C13_ex_vtt_text :
  let s v := mkSize v PCT in
  let px v := mkSize v PX in
  match vtt_convert_positioning (mkCfg true true (Some (640 # 1)) (Some (360 # 1)))
          (Some (mkLayout (Some (mkPoint (px (64 # 1)) (px (36 # 1)))) (Some (mkStretch (px (333 # 1)) (px (36 # 1)))) None
                          (Some (mkAlign (Some HRight) None)) None)) with
  | Ok o => vtt_settings_text o = lit " align:right position:10% line:10% size:52.03%"
  | Err _ => False
  end.
Proof. vm_compute. reflexivity. Qed.

(* ==== SAMI and WebVTT down to the printed text ============================================================ *)
From PV Require Import model.Pos13Doc proofs.Pos13TextDocFacts.

(* SAMI: with relativization on, every margin the writer prints (margin-top / -right / -bottom / -left of the set-level
   block and of every language block: model/Pos13Doc.v, harness request 1322) is the print of a padding component of that level of
   the transformed set, is a number followed by "%", and Size.from_string reads it back as a percentage within 1/200 of
   the exact relativized value.  Paddings non-negative (the size language). *)
Theorem C13_sami_document_percent : forall c s s', w_rel c = true -> sami_transform c s = Ok s' ->
  Forall opt_pad_nonneg (ns_layout s' :: map nl_layout (ns_langs s')) ->
  Forall2 (fun block o => forall k t, In (k, t) block -> exists z, In z (padding_sizes o) /\ printed_pct_of t z)
          (sami_doc_margins s') (ns_layout s' :: map nl_layout (ns_langs s')).
Proof. exact sami_document_percent. Qed.
Print Assumptions C13_sami_document_percent.

(* WebVTT: every computed position / line / size of every cue of every caption of the written language - in every
   configuration - is printed as a percentage that re-parses within 1/200 of the exact value (non-negative lengths);
   raw settings are C12's verbatim clause *)
Theorem C13_vtt_document_percent : forall c lg outs, vtt_language c lg = Ok outs -> Forall (Forall cue_text_pct) outs.
Proof. exact vtt_document_percent. Qed.
Print Assumptions C13_vtt_document_percent.

Example C13_ex_sami_margins :
  let px v := mkSize v PX in
  let l := mkLayout None None (Some (mkPadding (px (36 # 1)) (px (18 # 1)) (px (64 # 1)) (px (32 # 1)))) None None in
  match sami_transform (mkCfg true false (Some (640 # 1)) (Some (360 # 1))) (mkNset None [mkNlang (Some l) []]) with
  | Ok s' => sami_doc_margins s' = [[]; [(lit "margin-top", lit "10%"); (lit "margin-right", lit "5%");
                                        (lit "margin-bottom", lit "5%"); (lit "margin-left", lit "10%")]]
             /\ Forall opt_pad_nonneg (ns_layout s' :: map nl_layout (ns_langs s'))
  | Err _ => False
  end.
Proof.
  vm_compute. split; [reflexivity|].
  repeat constructor; intros z Hz; cbn in Hz; repeat (destruct Hz as [<-|Hz]; [cbn; discriminate|]); destruct Hz.
Qed.
