(* C03 - written text survives a conformant parser: escaping and cue structure.
   Only statements closed by `exact`, each followed by Print Assumptions, plus non-vacuity Examples.
   Models: model/TextWrite.v.  Reference parsers: spec/SpecTextXml.v (strict XML content), spec/SpecTextVtt.v
   (WebVTT cue text and blocks), spec/SpecTextBlocks.v (SRT blocks, MicroDVD lines), spec/SpecTextLines.v
   (line comparison).  Document level for DFXP/SAMI (bs4 prettify, lxml, html.parser) is correspondence-only. *)
From Coq Require Import List ZArith Bool.
From PV Require Import lib.Sx lib.Str model.TextNodes model.TextWrite model.TextWriteVtt.
From PV Require Import spec.SpecTextXml spec.SpecTextVtt spec.SpecTextBlocks spec.SpecTextLines spec.SpecTextStyle.
From PV Require Import proofs.TextXmlFacts proofs.TextVttFacts proofs.TextBlocksFacts.
From PV Require Import proofs.TextReadFacts proofs.TextPayloadFacts proofs.TextRoundtripFacts.
From PV Require Import proofs.TextAttrFacts proofs.TextAttrRoundFacts proofs.TextVttGroupFacts proofs.TextVttDocFacts.
Import ListNotations.
Open Scope Z_scope.

(* ---- XML (DFXP, SAMI): every text over XML Char (no bare CR) is read back exactly by a strict parser ---- *)
Theorem C03_xml_escape_parses_back : forall s, forallb xml_text_char s = true ->
  content_parse (xml_escape s) = Some (text_nodes s).
Proof. exact escape_parses_back. Qed.
Print Assumptions C03_xml_escape_parses_back.

Theorem C03_xml_escape_displays : forall s, forallb xml_text_char s = true ->
  option_map xlines (content_parse (xml_escape s)) = Some [s].
Proof. exact escape_displays. Qed.
Print Assumptions C03_xml_escape_displays.

(* the replace chain of xml.sax.saxutils.escape is the per-character substitution & > < *)
Theorem C03_xml_escape_per_char : forall s, xml_escape s = flat_map xesc1 s.
Proof. exact xml_escape_flat. Qed.
Print Assumptions C03_xml_escape_per_char.

(* ---- the whole <p> payload (text, <br/>, spans, the writers' rstrip's and literal white space) ----
   nodes_ok plain_style: texts over XML Char without CR, style dictionaries without colour (italics/bold/underline).
   The strict parser reads the payload as the token list of the abstract, string-free writer (ANY such node list) ...
   (SIMULATION against a second writer model, an option equality that is None = None for unbalanced lists; the token-level
   statements with conclusion Some are C03_*_payload_tokens_color below, of which these are the colour-free tree-level form) *)
Theorem C03_dfxp_payload_parse : forall region ns, nodes_ok plain_style ns = true ->
  content_parse (dfxp_payload (extra_of region) ns) = xbuild (abs_tokens [] a_close (dfxp_atok region) ns) [] [].
Proof. exact dfxp_payload_parse. Qed.
Print Assumptions C03_dfxp_payload_parse.

Theorem C03_legacy_payload_parse : forall ns, nodes_ok plain_style ns = true ->
  content_parse (legacy_payload ns) = xbuild (abs_tokens [] a_close (dfxp_atok false) ns) [] [].
Proof. exact legacy_payload_parse. Qed.
Print Assumptions C03_legacy_payload_parse.

Theorem C03_sami_payload_tokens : forall ns, nodes_ok plain_style ns = true ->
  xtokens (sami_payload ns) = Some (sami_abs_tokens ns).
Proof. exact sami_payload_tokens. Qed.
Print Assumptions C03_sami_payload_tokens.

(* ... and for balanced flat spans it is well-formed and shows every visible character and every break, in order *)
Theorem C03_dfxp_payload_wellformed : forall region ns, nodes_ok plain_style ns = true -> flat_balanced ns = true ->
  exists t, content_parse (dfxp_payload (extra_of region) ns) = Some t /\
            vis (flat_map tree_flat t) = vis (node_flat ns).
Proof. exact dfxp_payload_wellformed. Qed.
Print Assumptions C03_dfxp_payload_wellformed.

Theorem C03_legacy_payload_wellformed : forall ns, nodes_ok plain_style ns = true -> flat_balanced ns = true ->
  exists t, content_parse (legacy_payload ns) = Some t /\ vis (flat_map tree_flat t) = vis (node_flat ns).
Proof. exact legacy_payload_wellformed. Qed.
Print Assumptions C03_legacy_payload_wellformed.

(* ---- WebVTT ---- *)
Theorem C03_vtt_encode_roundtrip : forall s, vtt_display (vtt_encode s) = s.
Proof. exact vtt_encode_roundtrip. Qed.
Print Assumptions C03_vtt_encode_roundtrip.

Theorem C03_vtt_encode_no_arrow : forall s, is_infix (lit "-->") (vtt_encode s) = false.
Proof. exact vtt_encode_no_arrow. Qed.
Print Assumptions C03_vtt_encode_no_arrow.

(* the whole cue text (all nodes, also across node boundaries) never contains the arrow ... *)
Theorem C03_vtt_cue_text_no_arrow : forall ns, is_infix (lit "-->") (vtt_cue_text ns) = false.
Proof. exact vtt_cue_text_no_arrow. Qed.
Print Assumptions C03_vtt_cue_text_no_arrow.

(* ... which the pinned writer did not guarantee (repaired: fix commit "WebVTT writer let --> form across ...").
   vtt_cue_text_prefix is a DEFINITIONAL model of the pre-fix writer: a record of why the repair was needed, tied to no code that runs *)
Theorem C03_vtt_arrow_across_nodes_refuted : exists ns, is_infix (lit "-->") (vtt_cue_text_prefix ns) = true.
Proof. exact vtt_arrow_across_nodes_refuted. Qed.
Print Assumptions C03_vtt_arrow_across_nodes_refuted.

(* no empty line inside the cue text: empty texts, leading and consecutive breaks become &nbsp; (removelast: the LAST line may
   be empty - a cue text ending in a line feed) *)
Theorem C03_vtt_cue_text_no_blank_line : forall ns, texts_no_nl ns = true ->
  forallb str_nonempty (removelast (split_ch 10 (vtt_cue_text ns))) = true.
Proof. exact vtt_cue_text_no_blank_line. Qed.
Print Assumptions C03_vtt_cue_text_no_blank_line.

(* ---- SRT (repaired writer) ---- *)
Theorem C03_srt_content_no_blank_line : forall ns, srt_content_lines ns <> [] ->
  forallb nonblank (split_ch 10 (srt_content ns)) = true.
Proof. exact srt_content_no_blank_line. Qed.
Print Assumptions C03_srt_content_no_blank_line.

Theorem C03_srt_content_authored_lines : forall ns, texts_no 10 ns = true ->
  norm_lines (srt_content_lines ns) = norm_lines (node_lines ns).
Proof. exact srt_content_authored_lines. Qed.
Print Assumptions C03_srt_content_authored_lines.

(* the reference block grammar reads the document back: one block per caption, in order, with its lines.
   srt_doc_merged = the writer after its merge of consecutive captions with equal timing (srt_merge) *)
Theorem C03_srt_blocks_roundtrip : forall caps, caps <> [] -> Forall srt_cap_ok caps ->
  srt_cues (srt_doc_merged caps) = Some (map (fun c => srt_content_lines (snd c)) caps).
Proof. exact srt_blocks_roundtrip. Qed.
Print Assumptions C03_srt_blocks_roundtrip.

(* MODEL MEETS ORACLE (SRT): the whole written document (merge included), read by the reference block grammar,
   satisfies the harness oracle ok_cues_strict against the authored lines (node_lines) of the merged captions:
   one cue per (merged) caption, in order, every line equal up to leading/trailing white space, empty lines dropped *)
Theorem C03_srt_doc_meets_oracle : forall caps, srt_merge caps <> [] -> Forall srt_cap_ok (srt_merge caps) ->
  exists cues, srt_cues (srt_doc caps) = Some cues /\
               ok_cues_strict (map (fun c => node_lines (snd c)) (srt_merge caps)) cues = true.
Proof. exact srt_doc_meets_oracle. Qed.
Print Assumptions C03_srt_doc_meets_oracle.

(* srt_content_prefix is a DEFINITIONAL model of the pinned writer before fix 5dc47d2: a record of why the repair was
   needed, tied to no code that runs *)
Theorem C03_srt_double_break_refuted : exists ns,
  texts_no 10 ns = true /\ forallb nonblank (split_ch 10 (srt_content_prefix ns)) = false.
Proof. exact srt_double_break_refuted. Qed.
Print Assumptions C03_srt_double_break_refuted.

(* ---- MicroDVD (texts without '|' and without CR / LF: the writer turns a line end inside a text node into '|') ---- *)
Theorem C03_mdvd_content_shape : forall ns, texts_no 10 ns = true -> texts_no 13 ns = true ->
  mdvd_content ns = mdvd_text ns ++ [10].
Proof. exact mdvd_content_shape. Qed.
Print Assumptions C03_mdvd_content_shape.

Theorem C03_mdvd_text_lines : forall ns, texts_no 124 ns = true -> texts_no 10 ns = true -> texts_no 13 ns = true ->
  norm_lines (split_ch 124 (mdvd_text ns)) = norm_lines (node_lines ns).
Proof. exact mdvd_text_lines. Qed.
Print Assumptions C03_mdvd_text_lines.

Theorem C03_mdvd_line_roundtrip : forall a b ns,
  forallb is_digit a = true -> a <> [] -> forallb is_digit b = true -> b <> [] ->
  mdvd_line (mdvd_prefix_of a b ++ mdvd_text ns) = Some (a, b, split_ch 124 (mdvd_text ns)).
Proof. exact mdvd_line_roundtrip. Qed.
Print Assumptions C03_mdvd_line_roundtrip.

Theorem C03_mdvd_doc_roundtrip : forall caps, Forall mdvd_cap_ok caps ->
  mdvd_cues (mdvd_doc caps) = Some (map (fun c => split_ch 124 (mdvd_text (snd c))) caps).
Proof. exact mdvd_doc_roundtrip. Qed.
Print Assumptions C03_mdvd_doc_roundtrip.

(* MODEL MEETS ORACLE (MicroDVD): the written document, read by the reference line grammar, satisfies the harness
   oracle against the authored lines; texts without '|' (the one character the format cannot express) *)
Theorem C03_mdvd_doc_meets_oracle : forall caps, Forall mdvd_cap_ok caps ->
  (forall c, In c caps -> texts_no 124 (snd c) = true) ->
  exists cues, mdvd_cues (mdvd_doc caps) = Some cues /\
               ok_cues_strict (map (fun c => node_lines (snd c)) caps) cues = true.
Proof. exact mdvd_doc_meets_oracle. Qed.
Print Assumptions C03_mdvd_doc_meets_oracle.

(* ---- attribute values (xml.sax.saxutils.quoteattr) and style dictionaries with a colour ----
   For EVERY string over XML Char (tab, line feed, carriage return, quotes of both kinds, & < > included) the strict
   parser reads the attribute value written by quoteattr back as exactly that string ... *)
Theorem C03_quoteattr_roundtrip : forall s, forallb xml_char s = true ->
  parse_tag (lit "a x=" ++ quoteattr s) = Some (TkOpen (lit "a") [(lit "x", s)]).
Proof. exact quoteattr_tag_roundtrip. Qed.
Print Assumptions C03_quoteattr_roundtrip.

(* ... also through the tokenizer (the quoted value hides neither the end of the tag nor a markup character) *)
Theorem C03_quoteattr_content_roundtrip : forall s, forallb xml_char s = true ->
  content_parse (lit "<a x=" ++ quoteattr s ++ lit "/>") = Some [XElem (lit "a") [(lit "x", s)] []].
Proof. exact quoteattr_content_roundtrip. Qed.
Print Assumptions C03_quoteattr_content_roundtrip.

(* the payload theorems above for style dictionaries WITH a colour (color_style: any colour string over XML Char):
   the span start tag carries tts:color with exactly the authored value (dfxp_atok_c), the text is untouched by it *)
(* stated on the TOKENS (conclusion Some ..., for ANY node list of the domain, balanced or not) - a SIMULATION against the
   abstract, string-free writer abs_tokens (a second hand-written writer in proofs/TextPayloadFacts.v, not a spec from the property
   text); the property-level consequences are the _wellformed_color theorems below *)
Theorem C03_dfxp_payload_tokens_color : forall region ns, nodes_ok color_style ns = true ->
  xtokens (dfxp_payload (extra_of region) ns) = Some (abs_tokens [] a_close (dfxp_atok_c region) ns).
Proof. exact dfxp_payload_tokens_c. Qed.
Print Assumptions C03_dfxp_payload_tokens_color.

Theorem C03_legacy_payload_tokens_color : forall ns, nodes_ok color_style ns = true ->
  xtokens (legacy_payload ns) = Some (abs_tokens [] a_close (dfxp_atok_c false) ns).
Proof. exact legacy_payload_tokens_c. Qed.
Print Assumptions C03_legacy_payload_tokens_color.

Theorem C03_dfxp_payload_wellformed_color : forall region ns, nodes_ok color_style ns = true -> flat_balanced ns = true ->
  exists t, content_parse (dfxp_payload (extra_of region) ns) = Some t /\
            vis (flat_map tree_flat t) = vis (node_flat ns).
Proof. exact dfxp_payload_wellformed_c. Qed.
Print Assumptions C03_dfxp_payload_wellformed_color.

Theorem C03_legacy_payload_wellformed_color : forall ns, nodes_ok color_style ns = true -> flat_balanced ns = true ->
  exists t, content_parse (legacy_payload ns) = Some t /\ vis (flat_map tree_flat t) = vis (node_flat ns).
Proof. exact legacy_payload_wellformed_c. Qed.
Print Assumptions C03_legacy_payload_wellformed_color.

(* ---- WebVTT captions written as several cues (node-level layouts, model/TextWriteVtt.v) ----
   whatever the node list and wherever the layout changes, NO cue text of ANY layout group contains the arrow
   (the re-scan of the buffer acts in every group, not only in the last one) ... *)
Theorem C03_vtt_groups_no_arrow : forall lns, Forall (fun g => is_infix (lit "-->") (fst g) = false) (vtt_groups lns).
Proof. exact vtt_groups_no_arrow. Qed.
Print Assumptions C03_vtt_groups_no_arrow.

(* model = model consistency (not a property theorem): with one layout (or none) on all nodes the groups of vtt_groups
   are the single cue text of vtt_cue_text *)
Theorem C03_vtt_groups_one_layout_unfold : forall l lns, same_layout l lns = true ->
  map fst (vtt_groups lns) = match vtt_cue_text (map snd lns) with [] => [] | s => [s] end.
Proof. exact vtt_groups_one_layout. Qed.
Print Assumptions C03_vtt_groups_one_layout_unfold.

(* ---- the WebVTT DOCUMENT (captions with node-level layouts, model/TextWriteVtt.v vtt_doc_g) ----
   texts without LF / CR (node_ok): every group's cue text has no empty line inside (only a trailing break leaves an
   empty LAST line) ... *)
Theorem C03_vtt_groups_no_blank_line : forall lns, Forall (fun ln => node_ok (snd ln)) lns ->
  Forall (fun g => forallb str_nonempty (removelast (split_ch 10 (fst g))) = true) (vtt_groups lns).
Proof. exact vtt_groups_no_blank_line. Qed.
Print Assumptions C03_vtt_groups_no_blank_line.

(* ... and the reference block grammar (spec/SpecTextVtt.v: signature, blocks separated by empty lines, a cue starts at
   every line containing the arrow) ACCEPTS the whole document and returns EXACTLY ONE CUE PER LAYOUT GROUP, in order,
   whose payload lines are the lines of that group's cue text (cue_payload: a final empty line dropped): no cue is
   created, lost, split, merged or truncated because of its text.  cap_ok: the timing line + cue settings contain the
   arrow and no line end, text nodes contain no LF / CR.  (The per-line DISPLAY of tags and references, i.e. the step
   from these raw lines to ok_cues_strict against the authored lines, is NOT part of this theorem: judged on real
   output, stream F; C03_vtt_encode_roundtrip covers a line that is one encoded text.) *)
Theorem C03_vtt_doc_cues_partial : forall settings caps, Forall (cap_ok settings) caps ->
  vtt_cues (vtt_doc_g settings caps) =
  Some (map (fun g => cue_payload (fst g)) (flat_map (fun c => vtt_groups (snd c)) caps)).
Proof. exact vtt_doc_cues. Qed.
Print Assumptions C03_vtt_doc_cues_partial.

Definition ex_settings (l : Z) : str := if l =? 0 then [] else lit " line:10%".
Definition ex_gcaps : list (str * list lnode) :=
  [(lit "00:01.000 --> 00:02.500", [(1, NText (lit "up --")); (1, NText (lit "> down")); (1, NBreak); (2, NText (lit "x")); (2, NBreak)]);
   (lit "00:03.000 --> 00:04.500", [(0, NText (lit "a & b"))])].
Example C03_example_cap_ok : Forall (cap_ok ex_settings) ex_gcaps.
Proof.
  assert (T : forall tl, has_arrow tl = true -> lc tl = true -> has_arrow (tl ++ lit " line:10%") = true -> lc (tl ++ lit " line:10%") = true ->
              forall l, has_arrow (tl ++ ex_settings l) = true /\ lc (tl ++ ex_settings l) = true).
  { intros tl A B C D l. unfold ex_settings. destruct (l =? 0); [rewrite app_nil_r|]; split; assumption. }
  constructor; [|constructor; [|constructor]]; (split; [apply T; vm_compute; reflexivity|]);
    repeat constructor; try exact I; try (split; vm_compute; reflexivity).
Qed.
Example C03_example_doc_cues :
  vtt_cues (vtt_doc_g ex_settings ex_gcaps) = Some [[lit "up --&gt; down"]; [lit "x"]; [lit "a &amp; b"]].
Proof. vm_compute. reflexivity. Qed.

(* ---- non-vacuity ---- *)
Example C03_example_quoteattr :
  quoteattr (lit "a""b'c<&" ++ [10]) = lit """a&quot;b'c&lt;&amp;&#10;""" /\
  forallb xml_char (lit "a""b'c<&" ++ [10]) = true.
Proof. split; vm_compute; reflexivity. Qed.

Example C03_example_color :
  let ns := [NStyle true (mkStyle true false false (Some (lit "a""<'&"))); NText (lit "x"); NStyle false (mkStyle true false false (Some (lit "a""<'&")))] in
  nodes_ok color_style ns = true /\ flat_balanced ns = true /\
  content_parse (dfxp_payload [] ns) =
  Some [XElem (lit "span") [(lit "tts:fontStyle", lit "italic"); (lit "tts:color", lit "a""<'&")] [XText (lit "x")]].
Proof. repeat split; vm_compute; reflexivity. Qed.

Example C03_example_groups :
  vtt_groups [(1, NText (lit "up --")); (1, NText (lit "> down")); (2, NText (lit "x -")); (2, NStyle true sty_i); (2, NText (lit "->"))] =
  [(lit "up --&gt; down", 1); (lit "x -<i>->", 2)].
Proof. vm_compute. reflexivity. Qed.

Example C03_example_escape : content_parse (xml_escape (lit "a<b & ]]> c")) = Some [XText (lit "a<b & ]]> c")].
Proof. vm_compute. reflexivity. Qed.

Example C03_example_vtt :
  vtt_cue_text [NText (lit "a--"); NText (lit ">b & <c>"); NBreak; NBreak; NText []] =
  lit "a--&gt;b &amp; &lt;c>" ++ [10] ++ lit "&nbsp;" ++ [10] ++ lit "&nbsp;".
Proof. vm_compute. reflexivity. Qed.

Example C03_example_srt_hyp : Forall srt_cap_ok ex_caps.
Proof. repeat constructor; try (vm_compute; reflexivity); vm_compute; discriminate. Qed.

Example C03_example_srt : srt_cues (srt_doc ex_caps) = Some [[lit "1"; lit "00:00:05,000 --> x"]; [lit "b"]].
Proof. vm_compute. reflexivity. Qed.

(* the merge: two captions with the same timing line become one cue with both lines *)
Example C03_example_srt_merge :
  srt_merge [(lit "T", [NText (lit "a")]); (lit "T", [NText (lit "b")]); (lit "U", [NText (lit "c")])] =
  [(lit "T", [NText (lit "a"); NBreak; NText (lit "b")]); (lit "U", [NText (lit "c")])].
Proof. vm_compute. reflexivity. Qed.

Example C03_example_mdvd_hyp :
  Forall mdvd_cap_ok [(lit "{25}{50}", [NBreak; NText (lit " a{1}{2}"); NBreak; NText (lit "b ")])].
Proof. exact mdvd_cap_ok_example. Qed.

Example C03_example_texts_no_nl : texts_no_nl [NText (lit "a b"); NBreak; NText []] = true.
Proof. vm_compute. reflexivity. Qed.

Example C03_example_mdvd :
  mdvd_cues (mdvd_doc [(lit "{25}{50}", [NBreak; NText (lit " a{1}{2}"); NBreak; NBreak; NText (lit "b "); NBreak])])
  = Some [[[]; lit " a{1}{2}"; []; lit "b "]].
Proof. vm_compute. reflexivity. Qed.

Example C03_example_payload :
  let ns := [NText (lit "a & b "); NBreak; NStyle true sty_i; NText (lit " <c> "); NStyle false sty_i; NText (lit "d")] in
  nodes_ok plain_style ns = true /\ flat_balanced ns = true /\
  content_parse (dfxp_payload [] ns) =
  Some [XText (lit "a & b"); XElem (lit "br") [] []; XText ([10] ++ lit "    ");
        XElem (lit "span") [(lit "tts:fontStyle", lit "italic")] [XText (lit " <c> ")]; XText (lit "d")].
Proof. repeat split; vm_compute; reflexivity. Qed.
