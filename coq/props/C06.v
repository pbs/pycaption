(* C06 - SCC captions appear and disappear at the frames their commands are sent.
   Models: model/SccTime.v (time translator), model/SccStash.v (timing-correcting caption list, 4 s default,
   flash scan), model/SccPopon.v (End-Of-Caption / Erase-Displayed-Memory handling on display events).
   Spec: spec/SpecSccTime.v. Theorems are closed by `exact` from coq/proofs; the Examples are
   evaluated. *)
From Coq Require Import List ZArith QArith Bool.
From PV Require Import lib.Sx lib.Str lib.Result model.SccTime model.SccStash model.SccPopon spec.SpecSccTime.
From PV Require Import model.SccDecoder spec.Spec608 spec.SpecScc05.
From PV Require Import proofs.SccTimeFacts proofs.SccStashFacts proofs.SccPoponFacts proofs.SccPoponStage1 proofs.SccPoponTimesFacts proofs.SccPoponStage4 proofs.SccPoponStage3 proofs.SccPoponStage6 proofs.SccPoponStage5 proofs.SccPoponStage7 proofs.SccPoponStage8 proofs.SccPoponStage9.
From PV Require Import spec.SpecSccTime2 proofs.SccTimesComposeFacts proofs.SccLineLayoutFacts.
From PV Require Import model.SccTokenise proofs.SccTokeniseFacts proofs.SccTextFacts.
Import ListNotations.

(* the string surgery of get_time (`_time[:-2] + str(int(_time[-2:]) + frames)`), the regex prefix match, the split
   and the int() conversions compute, for EVERY well-formed timecode, frame count and offset, the exact instant
   ((3600h + 60m + s) + (ff + k)/30) * rate * 10^6 - offset floored at 0 (ff + k >= 30 needs no carry) *)
Theorem C06_get_time_exact : forall tc k off, tc_wf tc = true -> (0 <= k)%Z ->
  exists t, get_time (render_tc tc) k off = Ok t /\ (t == spec_instant tc k off)%Q.
Proof. exact get_time_exact. Qed.
Print Assumptions C06_get_time_exact.

(* non-drop-frame timecode runs 1001/1000 slower than drop-frame *)
Theorem C06_ndf_is_1001_1000_of_df : forall h m s ff, (0 <= h)%Z -> (0 <= m)%Z -> (0 <= s)%Z -> (0 <= ff)%Z ->
  (time_formula h m s ff false 0 == time_formula h m s ff true 0 * (1001 # 1000))%Q.
Proof. exact ndf_is_1001_1000_of_df. Qed.
Print Assumptions C06_ndf_is_1001_1000_of_df.

(* every instant (whole-second offset) is a multiple of 1/3 microsecond ... *)
Theorem C06_scc_time_lattice : forall tc k (off_s : Z),
  exists n : Z, (spec_instant tc k (inject_Z off_s * inject_Z 1000000) == n # 3)%Q.
Proof. exact scc_time_lattice. Qed.
Print Assumptions C06_scc_time_lattice.

(* ... and a gap of n whole frames is at least half a microsecond away from the joining threshold
   5 * MICROSECONDS_PER_CODEWORD + 1 (constant regenerated from the source): <= 5 frames joins, >= 6 does not *)
Theorem C06_join_threshold_slack : forall (n : Z) (drop : bool),
  let gap := (inject_Z n * ((inject_Z 1000000 / inject_Z 30) * rate drop))%Q in
  (n <= 5 -> (gap + (1 # 2) < join_threshold)%Q)%Z /\ (6 <= n -> (join_threshold + (1 # 2) < gap)%Q)%Z.
Proof. exact join_threshold_slack. Qed.
Print Assumptions C06_join_threshold_slack.
Theorem C06_join_threshold_close : (thr_hi - (1 # 1000000) < join_threshold)%Q /\ (join_threshold <= thr_hi)%Q.
Proof. exact join_threshold_close. Qed.
Print Assumptions C06_join_threshold_close.

(* MAIN: the queue + caption-list logic of the reader, run on ANY sequence of display events with positive instants,
   yields exactly the spans of the statement: each caption from its End-Of-Caption to the next End-Of-Caption /
   Erase-Displayed-Memory, a gap below the threshold closed, a last caption never cleared lasts 4 s, a displayed
   duration in (0, 0.05 s) gives the timing error, nothing displayed gives the no-captions error *)
Theorem C06_popon_read_expected : forall evs, positive evs ->
  popon_read (map to_pev evs) = expected_with join_threshold evs.
Proof. exact popon_read_expected. Qed.
Print Assumptions C06_popon_read_expected.

(* invariants of the timing-correcting list under every history of extend / correct_last_timing operations:
   captions come out in the order stored, with the starts and nodes they were stored with ... *)
Theorem C06_order_kept : forall ops,
  map pc_start (st_caps (srun ops)) = map pc_start (stored ops) /\
  map pc_nodes (st_caps (srun ops)) = map pc_nodes (stored ops).
Proof. exact srun_order. Qed.
Print Assumptions C06_order_kept.
(* ... and start <= end (or end still 0 = not ended) whenever the history is timed: starts never decrease, corrections
   are not earlier than any start *)
Theorem C06_start_le_end : forall ops, timed ops -> Forall end_ok (st_caps (srun ops)).
Proof. exact srun_start_le_end. Qed.
Print Assumptions C06_start_le_end.

Theorem C06_five_frame_join : forall s c b, has_nodes c = true -> batch_ok s ->
  last (map Some (skipn (length (st_caps s) - st_batch s) (st_caps s))) None = Some b ->
  st_caps (stash_extend s [c]) =
    (if Qeq_bool (pc_end b) 0 || negb (Qle_bool join_threshold (pc_start c - pc_end b))
     then map_tail (st_batch s) (set_end (pc_start c)) (st_caps s) else st_caps s) ++ [c]
  /\ st_batch (stash_extend s [c]) = 1%nat.
Proof. exact five_frame_join. Qed.
Print Assumptions C06_five_frame_join.

Theorem C06_last_four_seconds : forall l c, Qeq_bool (pc_end c) 0 = true ->
   exists l', fix_last (l ++ [c]) = l' ++ [set_end (pc_start c + inject_Z 4000000) c] /\ length l' = length l.
Proof. exact last_four_seconds. Qed.
Print Assumptions C06_last_four_seconds.

(* whatever read returns contains no caption displayed for less than 0.05 s *)
Theorem C06_finish_read_unfold : forall s caps, finish_read s = ROk caps ->
   caps = fix_last (st_caps s) /\ forall c, In c caps -> is_flash c = false.
Proof. exact flash_rejected. Qed.
Print Assumptions C06_finish_read_unfold.

(* END TO END on the whole reader model, for the closed stage of the pop-on refinement (one load, one row of basic
   characters at any address, codes single or doubled, any well-formed timecodes, any offset): the caption starts at
   the exact instant its End-Of-Caption word is transmitted (line timecode + one frame per preceding code word) and
   ends at the exact instant of the Erase-Displayed-Memory word. Staged statement `popon_times` = the same for every
   well-formed pop-on program; the remaining stages are covered by the event-level theorem above + correspondence. *)
Theorem C06_popon_single_load_times_partial : forall d r off tcA tcB,
  basic_row r = true -> tc_wf tcA = true -> tc_wf tcB = true ->
  let k := (Z.of_nat (length (emit_load d [r])) - (if d then 2 else 1))%Z in
  exists t1 t2, (t1 == spec_instant tcA k off)%Q /\ (t2 == spec_instant tcB 0 off)%Q /\
    (Qeq_bool t2 0 = false -> is_flash (mkPre t1 t2 [] None) = false ->
     read off [(render_tc tcA, emit_load d [r]); (render_tc tcB, emit_clear d)] =
     ROk [mkPre t1 t2 [CText (row_text r) (row_pos r)] (Some (row_pos r))]).
Proof. exact popon_single_load_times. Qed.
Print Assumptions C06_popon_single_load_times_partial.

(* WELL-FORMED STREAM -> DISPLAY EVENTS -> SPANS, beyond one load (whole reader model): for every sequence of lines, each
   a load (ENM RCL PAC [TO] basic characters EOC, single or doubled) or an Erase-Displayed-Memory line, the captions'
   (start, end) are exactly the spans of the statement computed from the instants of the EOC / EDM words *)
Theorem C06_popon_stage4_spans_partial : forall d off segs evs,
  forallb seg_ok segs = true -> res_map (seg_event d off) segs = Ok evs -> positive evs ->
  spans_of (read off (map (seg_line d) segs)) = expected_with join_threshold evs.
Proof. exact popon_stage4_spans. Qed.
Print Assumptions C06_popon_stage4_spans_partial.

(* ... and for whole programs whose loads have SEVERAL rows (a load whose rows are not adjacent yields several captions
   with identical times): the span of the i-th load, repeated once per caption of that load, is the i-th span of the
   statement; in particular the screens (runs of identical spans) are exactly the expected spans *)
Theorem C06_popon_stage6_spans_partial : forall d off segs evs,
  forallb pseg_ok segs = true -> res_map (pseg_event d off) segs = Ok evs -> positive evs ->
  spans_of (read off (map (pseg_line d) segs))
  = rmap (fun spans => flat_map bspans (combine (ploads_of segs) spans)) (expected_with join_threshold evs).
Proof. exact popon_stage6_spans_mult. Qed.
Print Assumptions C06_popon_stage6_spans_partial.
Theorem C06_popon_stage6_screens_partial : forall d off segs evs,
  forallb pseg_ok segs = true -> res_map (pseg_event d off) segs = Ok evs -> positive evs ->
  rmap screens (spans_of (read off (map (pseg_line d) segs))) = rmap screens (expected_with join_threshold evs).
Proof. exact popon_stage6_spans. Qed.
Print Assumptions C06_popon_stage6_screens_partial.

(* the same for whole programs whose rows carry basic / special / extended characters, backspaces and any preamble style *)
Theorem C06_popon_stage7_spans_partial : forall d off segs evs,
  forallb pseg_ok7 segs = true -> res_map (pseg_event d off) segs = Ok evs -> positive evs ->
  spans_of (read off (map (pseg_line d) segs))
  = rmap (fun spans => flat_map bspans (combine (ploads_of segs) spans)) (expected_with join_threshold evs).
Proof. exact popon_stage7_spans_mult. Qed.
Print Assumptions C06_popon_stage7_spans_partial.

(* popon_times over the FULL item domain (all five item kinds incl. mid-row codes, every preamble style, any number of
   rows per load, any number of loads, one load per line, Erase-Displayed-Memory lines anywhere; domain load_wf per load, see C05):
   the captions of the i-th load all carry the i-th span of the statement computed from the EOC / EDM instants *)
Theorem C06_popon_times : forall d off segs evs,
  forallb pseg_ok8 segs = true -> res_map (pseg_event d off) segs = Ok evs -> positive evs ->
  spans_of (read off (map (pseg_line d) segs))
  = rmap (fun spans => flat_map bspans (combine (ploads_of segs) spans)) (expected_with join_threshold evs).
Proof. exact popon_times. Qed.
Print Assumptions C06_popon_times.
Theorem C06_popon_times_screens : forall d off segs evs,
  forallb pseg_ok8 segs = true -> res_map (pseg_event d off) segs = Ok evs -> positive evs ->
  rmap screens (spans_of (read off (map (pseg_line d) segs))) = rmap screens (expected_with join_threshold evs).
Proof. exact popon_times_screens. Qed.
Print Assumptions C06_popon_times_screens.

(* non-drop = 1001/1000 x drop for EVERY offset, before the flooring at 0 *)
Theorem C06_time_formula_raw : forall h m s ff drop off,
  (time_formula h m s ff drop off == floor0 (raw_us h m s ff drop - off))%Q.
Proof. exact time_formula_raw. Qed.
Print Assumptions C06_time_formula_raw.
Theorem C06_ndf_raw_is_1001_1000_of_df : forall h m s ff,
  (raw_us h m s ff false == raw_us h m s ff true * (1001 # 1000))%Q.
Proof. exact ndf_raw_is_1001_1000_of_df. Qed.
Print Assumptions C06_ndf_raw_is_1001_1000_of_df.

(* output level: start <= end and starts never decrease - for the statement's spans of nondecreasing instants (any
   threshold) and for the captions `read` returns on the pop-on domain *)
Theorem C06_expected_start_le_end : forall thr evs l, (0 <= thr)%Q -> nondecreasing 0 evs -> expected_with thr evs = Ok l ->
  Forall (fun p => (fst p <= snd p)%Q) l /\
  (forall i a b, nth_error l i = Some a -> nth_error l (S i) = Some b -> (fst a <= fst b)%Q).
Proof. exact expected_start_le_end. Qed.
Print Assumptions C06_expected_start_le_end.
Theorem C06_read_start_le_end : forall d off segs evs caps,
  forallb pseg_ok8 segs = true -> res_map (pseg_event d off) segs = Ok evs -> positive evs -> nondecreasing 0 evs ->
  read off (map (pseg_line d) segs) = ROk caps ->
  Forall (fun c => (pc_start c <= pc_end c)%Q) caps /\
  (forall i a b, nth_error caps i = Some a -> nth_error caps (S i) = Some b -> (pc_start a <= pc_start b)%Q).
Proof. exact read_start_le_end. Qed.
Print Assumptions C06_read_start_le_end.

(* composition: the events `read` works from are the statement's instants of the rendered timecodes; on whole-frame
   gaps the threshold "five frames + 1 us" and the harness's upper threshold give the same spans; together with
   popon_times: what `read` returns carries the statement's own spans (up to == of rationals) of the statement's own
   instants, for loads and clear lines stamped with well-formed timecodes of one rate and every instant positive *)
Theorem C06_events_are_spec_instants : forall d off segs, forallb tseg_wf segs = true ->
  exists evs, res_map (pseg_event d off) (map tseg_pseg segs) = Ok evs /\
              Forall2 ev_eq evs (map (tseg_spec_event d off) segs).
Proof. exact events_are_spec_instants. Qed.
Print Assumptions C06_events_are_spec_instants.
Theorem C06_expected_threshold_irrelevant : forall drop off evs,
  (forall e, In e evs -> on_lattice drop off (ev_time e)) ->
  expected_with join_threshold evs = expected_with thr_hi evs.
Proof. exact expected_threshold_irrelevant. Qed.
Print Assumptions C06_expected_threshold_irrelevant.
Theorem C06_read_is_statement_spans : forall d off drop segs,
  forallb tseg_wf segs = true ->
  (forall s, In s segs -> tc_drop (tseg_tc s) = drop) ->
  positive (map (tseg_spec_event d off) segs) ->
  exists r, spans_of (read off (map (pseg_line d) (map tseg_pseg segs)))
            = rmap (fun spans => flat_map bspans (combine (ploads_of (map tseg_pseg segs)) spans)) r /\
            res_span_eq r (expected_with thr_hi (map (tseg_spec_event d off) segs)).
Proof. exact read_is_statement_spans. Qed.
Print Assumptions C06_read_is_statement_spans.

(* ---- other stream layouts. The reader model is invariant under cutting / joining timecode lines when every word
   keeps its instant (relayout, see C05_read_layout_invariant), so popon_times holds for every such layout of the same word
   sequence: loads split over lines, several loads on one line, and the writer's inline layout in which the
   Erase-Displayed-Memory code stands on the same line as a load (a join of the clear line with the adjacent load line). *)
Theorem C06_popon_times_layout : forall d off segs evs ls',
  forallb pseg_ok8 segs = true -> res_map (pseg_event d off) segs = Ok evs -> positive evs ->
  relayout off (map (pseg_line d) segs) ls' ->
  spans_of (read off ls')
  = rmap (fun spans => flat_map bspans (combine (ploads_of segs) spans)) (expected_with join_threshold evs).
Proof. exact popon_times_layout. Qed.
Print Assumptions C06_popon_times_layout.
Theorem C06_popon_times_cuts : forall d off segs evs lss,
  forallb pseg_ok8 segs = true -> res_map (pseg_event d off) segs = Ok evs -> positive evs ->
  Forall2 (fun s pieces => cuts off (fst (pseg_line d s)) (snd (pseg_line d s)) pieces) segs lss ->
  spans_of (read off (concat lss))
  = rmap (fun spans => flat_map bspans (combine (ploads_of segs) spans)) (expected_with join_threshold evs).
Proof. exact popon_times_cuts. Qed.
Print Assumptions C06_popon_times_cuts.
Theorem C06_popon_times_merged : forall d off segs1 s1 s2 segs2 evs,
  let segs := segs1 ++ s1 :: s2 :: segs2 in
  forallb pseg_ok8 segs = true -> res_map (pseg_event d off) segs = Ok evs -> positive evs ->
  same_clock off (fst (pseg_line d s1)) (Z.of_nat (length (snd (pseg_line d s1)))) (fst (pseg_line d s2)) ->
  spans_of (read off (map (pseg_line d) segs1 ++ [(fst (pseg_line d s1), snd (pseg_line d s1) ++ snd (pseg_line d s2))]
                      ++ map (pseg_line d) segs2))
  = rmap (fun spans => flat_map bspans (combine (ploads_of segs) spans)) (expected_with join_threshold evs).
Proof. exact popon_times_merged. Qed.
Print Assumptions C06_popon_times_merged.
(* ... and at the level of the SCC TEXT (Coq tokeniser, lower- / upper-case hex, LF / CRLF / CR line ends) *)
Theorem C06_popon_times_text : forall d off segs evs ls' up eol,
  forallb pseg_ok8 segs = true -> res_map (pseg_event d off) segs = Ok evs -> positive evs ->
  relayout off (map (pseg_line d) segs) ls' -> Forall wf_sline ls' -> good_eol eol ->
  spans_of (read off (tokenise (render_gen up eol ls')))
  = rmap (fun spans => flat_map bspans (combine (ploads_of segs) spans)) (expected_with join_threshold evs).
Proof. exact popon_times_text. Qed.
Print Assumptions C06_popon_times_text.
(* non-vacuity: the load of 00:00:01:00 and the clear line written on ONE line / the load cut in two *)
Example C06_layout_instance : forall off,
  relayout off ex_one_line ex_split /\
  relayout off [(lit "00:00:01:00", ex_a ++ ex_b); (lit "00:00:01:07", [37932])] ex_merged.
Proof. intro off. split; [apply ex_relayout|apply ex_relayout_merged]. Qed.

(* known defect #20 (offset beyond the timecodes): instants floored to 0 collide with the end == 0 sentinel *)
Theorem C06_end_zero_sentinel_refuted :
  popon_read (map to_pev [Show 0; Clear 0]) = Ok [(0, 0 + inject_Z 4000000)]%Q /\
  expected_with join_threshold [Show 0; Clear 0] = Ok [(0%Q, 0%Q)].
Proof. exact end_zero_sentinel_refuted. Qed.
Print Assumptions C06_end_zero_sentinel_refuted.

(* non-vacuity *)
Example C06_example_time :
  get_time (lit "01:00:00:28") 5 (inject_Z 1000000) = Ok (time_formula 1 0 0 33 false (inject_Z 1000000)).
Proof. vm_compute. reflexivity. Qed.
Example C06_example_spans :
  let t := inject_Z in
  popon_read (map to_pev [Show (t 1000000%Z); Clear (t 3000000%Z); Show (t 3100000%Z); Show (t 5000000%Z)])
  = Ok [(t 1000000%Z, t 3100000%Z); (t 3100000%Z, t 5000000%Z); (t 5000000%Z, Qplus (t 5000000%Z) (t 4000000%Z))].
Proof. vm_compute. reflexivity. Qed.
(* the harness oracle (harness request 601) on the fully floored witness of the known defect: the statement's own answer and
   the answer with the two equal spans merged are accepted, the implementation's "+4 s" answer is not *)
Example C06_ok_on_floored_witness :
  ok_c06_gap [Show 0; Clear 0; Show 0; Clear 0] (Ok [(0, 0); (0, 0)])%Q = true /\
  ok_c06_gap [Show 0; Clear 0; Show 0; Clear 0] (Ok [(0, 0)])%Q = true /\
  ok_c06_gap [Show 0; Clear 0; Show 0; Clear 0] (Ok [(0, inject_Z 4000000); (0, inject_Z 4000000)])%Q = false.
Proof. exact ok_on_floored_witness. Qed.
(* the composition is not vacuous: a two-load program with rendered timecodes *)
Example C06_statement_spans_instance :
  exists r, spans_of (read 0 (map (pseg_line false) (map tseg_pseg ex_tsegs)))
            = rmap (fun spans => flat_map bspans (combine (ploads_of (map tseg_pseg ex_tsegs)) spans)) r /\
            res_span_eq r (expected_with thr_hi (map (tseg_spec_event false 0) ex_tsegs)).
Proof. exact (proj2 (proj2 ex_statement_spans)). Qed.

(* ---- timing for the layout of pycaption's own SCCWriter (Erase-Displayed-Memory inside the load line, before
   its End-Of-Caption; preamble codes in the indent-0 form). The display events of a writer-style line are Clear at the
   instant of its EDM word and Show at the instant of its EOC word (wexpand); what read returns carries the statement's
   spans of these events ------------------------------------------------------------------------------------------- *)
From PV Require Import spec.SpecScc05Inline proofs.SccInlineEdmFacts.
Theorem C06_popon_times_inline : forall d off ws evs,
  Forall (wseg_clock d off) ws -> forallb pseg_ok8 (wexpand ws) = true ->
  res_map (pseg_event d off) (wexpand ws) = Ok evs -> positive evs ->
  spans_of (read off (map (wseg_line d) ws))
  = rmap (fun spans => flat_map bspans (combine (ploads_of (wexpand ws)) spans)) (expected_with join_threshold evs).
Proof. exact popon_times_inline. Qed.
Print Assumptions C06_popon_times_inline.
(* non-vacuity: the instance of props/C05.v - the first caption ends at the EDM of the second line (one doubled pair
   before the second caption's EOC: the gap of two frames is closed), the second at the clear line *)
Example C06_inline_instance :
  spans_of (read 0 (map (wseg_line true) exw_ws))
  = rmap (fun spans => flat_map bspans (combine (ploads_of (wexpand exw_ws)) spans))
         (match res_map (pseg_event true 0) (wexpand exw_ws) with Ok evs => expected_with join_threshold evs | Err e => Err e end)
  /\ match spans_of (read 0 (map (wseg_line true) exw_ws)) with Ok [(s1, e1); (s2, e2)] => Qeq_bool e1 s2 | _ => false end = true.
Proof. vm_compute. split; reflexivity. Qed.
From PV Require Import proofs.SccInlineCorFacts.
Theorem C06_popon_times_inline_text : forall d off ws evs up eol,
  Forall (wseg_clock d off) ws -> forallb pseg_ok8 (wexpand ws) = true ->
  res_map (pseg_event d off) (wexpand ws) = Ok evs -> positive evs ->
  Forall wf_sline (map (wseg_line d) ws) -> good_eol eol ->
  spans_of (read off (tokenise (render_gen up eol (map (wseg_line d) ws))))
  = rmap (fun spans => flat_map bspans (combine (ploads_of (wexpand ws)) spans)) (expected_with join_threshold evs).
Proof. exact popon_times_inline_text. Qed.
Print Assumptions C06_popon_times_inline_text.

(* ---- timing for writer lines with MIXED doubling (special / extended characters single among doubled codes) ---- *)
From PV Require Import spec.SpecSccMixed proofs.SccMixedDoublingFacts.
Theorem C06_popon_times_mixed : forall d off ms evs,
  Forall (mseg_ok d off) ms -> forallb pseg_ok8 (mexpand ms) = true ->
  res_map (pseg_event d off) (mexpand ms) = Ok evs -> positive evs ->
  spans_of (read off (map (mseg_line d) ms))
  = rmap (fun spans => flat_map bspans (combine (ploads_of (mexpand ms)) spans)) (expected_with join_threshold evs).
Proof. exact popon_times_mixed. Qed.
Print Assumptions C06_popon_times_mixed.

(* ---- the display instants of a writer-style line are the STATEMENT's instants of its EDM / EOC words ---------
   (a step towards C06_read_is_statement_spans for the writer's layout, which is NOT proved: it would need == of rationals
   carried through expected_with / the spans, as C06_read_is_statement_spans does for the one-load-per-line layout) *)
Theorem C06_spec_instant_shift : forall t n k off, tc_wf t = true -> (0 <= n)%Z -> (0 <= k)%Z -> (tc_total t + n < 10800000)%Z ->
  (spec_instant (tc_shift t n) k off == spec_instant t (n + k) off)%Q.
Proof. exact spec_instant_shift. Qed.
Print Assumptions C06_spec_instant_shift.
Theorem C06_winline_events_spec : forall d t l off, tc_wf t = true ->
  (tc_total t + Z.of_nat (length (load_body d l)) + 2 < 10800000)%Z ->
  exists t1 t2,
    res_map (pseg_event d off) (wseg_expand (winline d t l)) = Ok [Clear t1; Show t2] /\
    (t1 == spec_instant t (Z.of_nat (length (load_body d l))) off)%Q /\
    (t2 == spec_instant t (Z.of_nat (length (emit_load_w d l)) - (if d then 2 else 1)) off)%Q.
Proof. exact winline_events_spec. Qed.
Print Assumptions C06_winline_events_spec.
