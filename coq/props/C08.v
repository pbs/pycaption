(* C08 - Any chain of conversions preserves the cue timeline (times to the coarsest resolution on
   the chain; SAMI: starts and non-final ends) and a second pass changes nothing.
   Only statements closed by `exact`, with Print Assumptions; Examples show non-vacuity.
   A hop of the model prints every timing token with the C02 writer models and parses it back
   with the C01 models of pycaption's own readers. *)
From Coq Require Import List ZArith QArith Bool.
From PV Require Import lib.Sx lib.Str lib.Result.
From PV Require Import model.TimeRead spec.SpecTime model.Chain spec.SpecChain proofs.ChainFacts proofs.ChainDocFacts proofs.ChainSrtDocFacts proofs.ChainVttDocFacts.
From PV Require model.TimeWrite model.TextWrite model.TextNodes.
From PV Require model.DfxpWriteDoc model.DfxpReadLines proofs.DfxpWriteDocFacts proofs.ChainDfxpDocFacts.
From PV Require model.SamiWriteDoc model.SamiReadLines proofs.ChainSamiDocFacts.
Import ListNotations.
Open Scope Z_scope.

(* ---- projection algebra -------------------------------------------------------------------- *)
Theorem C08_pi_idempotent : forall f cs, pi f (pi f cs) = pi f cs.
Proof. exact pi_idempotent. Qed.
Print Assumptions C08_pi_idempotent.

(* two hops: the coarser resolution; the four-second tail if either is SAMI; order irrelevant *)
Theorem C08_pi_compose : forall f g cs,
  pi g (pi f cs) = nf (Z.max (unit_of f) (unit_of g)) (is_sami f || is_sami g) cs.
Proof. exact pi_compose. Qed.
Print Assumptions C08_pi_compose.
Theorem C08_pi_commute : forall f g cs, pi g (pi f cs) = pi f (pi g cs).
Proof. exact pi_commute. Qed.
Print Assumptions C08_pi_commute.

(* any chain = every time floored to the coarsest resolution on the chain (+ SAMI tail) *)
Theorem C08_chain_closed_form : forall chain cs, run chain cs = expected chain cs.
Proof. exact run_closed_form. Qed.
Print Assumptions C08_chain_closed_form.
Theorem C08_chain_times_coarsest : forall chain cs i c,
  nth_error cs i = Some c ->
  exists c', nth_error (run chain cs) i = Some c' /\
             fst c' = fl (coarsest chain) (fst c) /\
             ((S i < length cs)%nat \/ existsb is_sami chain = false -> snd c' = fl (coarsest chain) (snd c)) /\
             (S i = length cs -> existsb is_sami chain = true -> snd c' = fl (coarsest chain) (fst c) + 4000000).
Proof. exact chain_times_coarsest. Qed.
Print Assumptions C08_chain_times_coarsest.

(* running the same chain a second time changes nothing: no drift *)
Theorem C08_chain_fixpoint : forall chain cs, run chain (run chain cs) = run chain cs.
Proof. exact chain_fixpoint. Qed.
Print Assumptions C08_chain_fixpoint.

(* ---- the hops of the model are these projections ------------------------------------------- *)
(* token level: format with the writer model, parse with pycaption's own reader model *)
Theorem C08_hop_time_srt : forall t, 0 <= t < 86400000000 -> hop_time_srt t = Ok (fl 1000 t).
Proof. exact hop_time_srt_exact. Qed.
Print Assumptions C08_hop_time_srt.
Theorem C08_hop_time_vtt : forall t, 0 <= t < 86400000000 -> hop_time_vtt t = Ok (fl 1000 t).
Proof. exact hop_time_vtt_exact. Qed.
Print Assumptions C08_hop_time_vtt.
Theorem C08_hop_time_dfxp : forall t, 0 <= t < 86400000000 -> hop_time_dfxp t = Ok (fl 1000 t).
Proof. exact hop_time_dfxp_exact. Qed.
Print Assumptions C08_hop_time_dfxp.
Theorem C08_hop_time_mdvd : forall t, 0 <= t -> hop_time_mdvd t = Ok (fl 40000 t).
Proof. exact hop_time_mdvd_exact. Qed.
Print Assumptions C08_hop_time_mdvd.

(* cue-list level, all five formats (SRT merge loop, SAMI sync rule + back-filling included):
   on sorted non-overlapping cues at least one unit long, one hop is pi_F and keeps the domain *)
Theorem C08_hop_exact : forall f u lo cs, big_unit u -> unit_of f <= u -> 0 <= lo -> dom_u u lo cs ->
  hop f cs = Ok (pi f cs) /\ dom_u u (fl (unit_of f) lo) (pi f cs).
Proof. exact hop_exact. Qed.
Print Assumptions C08_hop_exact.

(* without SAMI the cues may be shorter than the unit (down to length 0): they floor to zero-length cues
   that are kept, as long as neighbours start in different units *)
Theorem C08_hop_exact_short_cues : forall f u lo cs, big_unit u -> is_sami f = false -> unit_of f <= u -> 0 <= lo ->
  dom_s u lo cs ->
  hop f cs = Ok (pi f cs) /\ dom_s u (fl (unit_of f) lo) (pi f cs).
Proof. exact hop_exact_s. Qed.
Print Assumptions C08_hop_exact_short_cues.

(* a whole chain of model hops is the closed form, for every chain and every caption list of the domain *)
Theorem C08_chain_model_exact : forall chain cs, chain_dom chain cs = true ->
  run_model chain cs = Ok (expected chain cs).
Proof. exact run_model_exact. Qed.
Print Assumptions C08_chain_model_exact.
Theorem C08_chain_model_ok : forall chain cs, chain_dom chain cs = true ->
  exists o1, run_model chain cs = Ok o1 /\ o1 = expected chain cs /\ run chain o1 = o1.
Proof. exact run_model_ok. Qed.
Print Assumptions C08_chain_model_ok.

(* the model run twice: the second pass over its own output returns it unchanged; hence the property oracle (pass 1 within
   one unit of the original times - final end free with SAMI - and pass 2 = pass 1) holds of the model *)
Theorem C08_chain_model_second_pass : forall chain cs, chain_dom chain cs = true ->
  (do o1 <- run_model chain cs; run_model chain o1) = Ok (expected chain cs).
Proof. exact run_model_second_pass. Qed.
Print Assumptions C08_chain_model_second_pass.
Theorem C08_chain_model_meets_oracle : forall chain cs, chain_dom chain cs = true ->
  ok_chain chain cs (run_model chain cs) (do o1 <- run_model chain cs; run_model chain o1) = true.
Proof. exact run_model_meets_oracle. Qed.
Print Assumptions C08_chain_model_meets_oracle.

(* several languages through DFXP / SAMI: every language keeps its name and place and gets its own closed form *)
Theorem C08_chain_model_set_exact : forall chain cs, set_dom chain cs = true ->
  run_model_set chain cs = Ok (expected_set chain cs).
Proof. exact run_model_set_exact. Qed.
Print Assumptions C08_chain_model_set_exact.

(* string level, MicroDVD: the document printed by the writer model (frames, text lines joined by '|', the
   strip / replace clean-up loops), read back by the reader model: both frames floored, text lines unchanged *)
Theorem C08_mdvd_roundtrip_string : forall cs,
  dom_u 40000 0 (times_of_caps cs) -> text_dom cs = true ->
  mdvd_read (mdvd_write cs)
  = read_result (map (fun c => (fl 40000 (fst (fst c)), fl 40000 (snd (fst c)), snd c)) cs).
Proof. exact mdvd_roundtrip_string. Qed.
Print Assumptions C08_mdvd_roundtrip_string.

(* ---- the domain restriction is necessary: cues shorter than the resolution (known findings) ---- *)
Theorem C08_short_cues_srt_merge_refuted :
  exists chain cs, sorted_from 1 0 86396000000 cs = true /\ run_model chain cs <> Ok (expected chain cs).
Proof. exact short_cues_srt_merge_refuted. Qed.
Print Assumptions C08_short_cues_srt_merge_refuted.
Theorem C08_short_cue_sami_end_refuted :
  exists cs, sorted_from 1 0 86396000000 cs = true /\ hop FSami cs <> Ok (pi FSami cs).
Proof. exact short_cue_sami_end_refuted. Qed.
Print Assumptions C08_short_cue_sami_end_refuted.

(* ---- non-vacuity --------------------------------------------------------------------------- *)
Example C08_ex_chain :
  run_model [FDfxp; FMdvd; FSami; FSrt] [(1234567, 5004999); (8039999, 8120001)]
  = Ok [(1200000, 5000000); (8000000, 12000000)]
  /\ chain_dom [FDfxp; FMdvd; FSami; FSrt] [(1234567, 5004999); (8039999, 8120001)] = true.
Proof. vm_compute. split; reflexivity. Qed.
Example C08_ex_mdvd_no_drift :
  run_model [FMdvd; FMdvd; FMdvd] [(8040000, 8120000)] = Ok [(8040000, 8120000)].
Proof. vm_compute. reflexivity. Qed.
(* what the MicroDVD writer prints for a cue inside frame 0 is refused by the reader model *)
Example C08_ex_mdvd_frame0 :
  TimeRead.mdvd_read (Str.lit "{0}{0}first") = Err ETiming.
Proof. vm_compute. reflexivity. Qed.
Example C08_ex_mdvd_string :
  mdvd_write [(8039999, 8120001, [Str.lit "hello"; Str.lit "a b"])] = Str.lit "{200}{203}hello|a b
" /\ mdvd_read (mdvd_write [(8039999, 8120001, [Str.lit "hello"; Str.lit "a b"])])
     = Ok [(8000000, 8120000, [Str.lit "hello"; Str.lit "a b"])].
Proof. vm_compute. split; reflexivity. Qed.
(* a cue inside one MicroDVD frame (not frame 0) keeps its place: {100}{100} *)
Example C08_ex_subframe_cue :
  chain_dom [FSrt; FMdvd; FDfxp] [(4000000, 4030000); (6000000, 8000000)] = true /\
  run_model [FSrt; FMdvd; FDfxp] [(4000000, 4030000); (6000000, 8000000)] = Ok [(4000000, 4000000); (6000000, 8000000)].
Proof. vm_compute. split; reflexivity. Qed.
Example C08_ex_second_pass_late_sami :
  let cs := [(86394000000, 86395999000)] in
  chain_dom [FSami; FMdvd] cs = true /\
  run_model [FSami; FMdvd] cs = Ok [(86394000000, 86398000000)] /\
  (do o1 <- run_model [FSami; FMdvd] cs; run_model [FSami; FMdvd] o1) = Ok [(86394000000, 86398000000)].
Proof. vm_compute. repeat split; reflexivity. Qed.
Example C08_ex_set :
  let cs := [(Str.lit "en-US", [(1234567, 5004999)]); (Str.lit "fr", [(500000, 1234567); (1234567, 9000001)])] in
  set_dom [FDfxp; FSami] cs = true /\
  run_model_set [FDfxp; FSami] cs
  = Ok [(Str.lit "en-US", [(1234000, 5234000)]); (Str.lit "fr", [(500000, 1234000); (1234000, 5234000)])].
Proof. vm_compute. split; reflexivity. Qed.
Example C08_ex_oracle_resolution :
  (* floor, nearest and exact are all within resolution; one unit off is not; the SAMI final end is free *)
  ok_chain [FVtt] [(1234567, 2000999)] (Ok [(1234000, 2000000)]) (Ok [(1234000, 2000000)]) = true /\
  ok_chain [FVtt] [(1234567, 2000999)] (Ok [(1235000, 2001000)]) (Ok [(1235000, 2001000)]) = true /\
  ok_chain [FVtt] [(1234567, 2000999)] (Ok [(1236000, 2000000)]) (Ok [(1236000, 2000000)]) = false /\
  ok_chain [FVtt] [(1234567, 2000999)] (Ok [(1234000, 2000000)]) (Ok [(1234000, 2000001)]) = false /\
  ok_chain [FSami] [(1000000, 2000000)] (Ok [(1000000, 6000000)]) (Ok [(1000000, 6000000)]) = true.
Proof. vm_compute. repeat split; reflexivity. Qed.

(* ---- TEXT along a chain, at document (string) level, for SRT and MicroDVD ---------------------------------
   srt_write_doc / mdvd_write print the whole document (counter, timing line / frames, text lines, the writers' final
   clean-up); srt_read / mdvd_read are the C01 models of pycaption's readers.  (WebVTT, DFXP, SAMI: the sections
   below.) *)
Theorem C08_srt_roundtrip_string : forall cs,
  dom_u 1000 0 (times_of_caps cs) -> srt_text_dom cs = true ->
  srt_read (srt_write_doc cs)
  = read_result (map (fun c => (fl 1000 (fst (fst c)), fl 1000 (snd (fst c)), snd c)) cs).
Proof. exact srt_roundtrip_string. Qed.
Print Assumptions C08_srt_roundtrip_string.

(* every chain of SRT and MicroDVD hops, each hop = print the document, read it back: the cues come back with the
   times of the spec's run (= the closed form, C08_chain_closed_form) AND with their text lines unchanged *)
Theorem C08_chain_doc_text : forall chain cs lo, forallb line_fmt chain = true -> cs <> [] -> 0 <= lo ->
  dom_u 40000 lo (times_of_caps cs) -> text_dom cs = true -> srt_text_dom cs = true ->
  exists out, run_doc chain cs = Ok out /\ times_of_caps out = run chain (times_of_caps cs) /\ map snd out = map snd cs.
Proof. exact run_doc_text. Qed.
Print Assumptions C08_chain_doc_text.

Example C08_ex_srt_string :
  srt_write_doc [(1000999, 2500000, [Str.lit "hello"; Str.lit "a b"]); (3600000000, 3600040000, [Str.lit "42"])]
  = Str.lit "1
00:00:01,000 --> 00:00:02,500
hello
a b

2
01:00:00,000 --> 01:00:00,040
42
".
Proof. vm_compute. reflexivity. Qed.
Example C08_ex_chain_doc_text :
  let cs := [(1000999, 2500000, [Str.lit "hello"; Str.lit "a b"]); (3600000000, 3600040000, [Str.lit "42"])] in
  forallb line_fmt [FSrt; FMdvd; FSrt] = true /\ text_dom cs = true /\ srt_text_dom cs = true /\
  run_doc [FSrt; FMdvd; FSrt] cs
  = Ok [(1000000, 2480000, [Str.lit "hello"; Str.lit "a b"]); (3600000000, 3600040000, [Str.lit "42"])].
Proof. vm_compute. repeat split; reflexivity. Qed.

(* ---- WebVTT at document level, and chains over all three line formats ---------------------------------------
   vtt_write_doc prints header, timing lines and the text lines through the writer's escaping (TextWrite.vtt_encode);
   vtt_read_doc = the C01 model of WebVTTReader's line loop and, on every text line, the reader's decoding
   (TextRead.vtt_decode: strip, voice / tag substitution, entity chain).  Text domain: clean lines without & < >
   (on these the escaping and the decoding are proved to be the identity); other texts: correspondence only. *)
Theorem C08_vtt_roundtrip_string : forall cs,
  dom_u 1000 0 (times_of_caps cs) -> vtt_text_dom cs = true ->
  vtt_read_doc (vtt_write_doc cs) = read_result (floor_caps 1000 cs).
Proof. exact vtt_roundtrip_string. Qed.
Print Assumptions C08_vtt_roundtrip_string.

Theorem C08_chain_doc_text_three_formats : forall chain cs lo, forallb line_fmt3 chain = true -> cs <> [] -> 0 <= lo ->
  dom_u 40000 lo (times_of_caps cs) -> text_dom cs = true -> srt_text_dom cs = true -> vtt_text_dom cs = true ->
  exists out, run_doc chain cs = Ok out /\ times_of_caps out = run chain (times_of_caps cs) /\ map snd out = map snd cs.
Proof. exact run_doc_text3. Qed.
Print Assumptions C08_chain_doc_text_three_formats.

Example C08_ex_vtt_string :
  vtt_write_doc [(1000999, 2500000, [Str.lit "hello"; Str.lit "a b"]); (3600000000, 3600040000, [Str.lit "42"])]
  = Str.lit "WEBVTT

00:01.000 --> 00:02.500
hello
a b

01:00:00.000 --> 01:00:00.040
42
".
Proof. vm_compute. reflexivity. Qed.
Example C08_ex_chain_three_formats :
  let cs := [(1000999, 2500000, [Str.lit "hello"; Str.lit "a b"]); (3600000000, 3600040000, [Str.lit "42"])] in
  forallb line_fmt3 [FVtt; FMdvd; FSrt; FVtt] = true /\ text_dom cs = true /\ srt_text_dom cs = true /\ vtt_text_dom cs = true /\
  run_doc [FVtt; FMdvd; FSrt; FVtt] cs
  = Ok [(1000000, 2480000, [Str.lit "hello"; Str.lit "a b"]); (3600000000, 3600040000, [Str.lit "42"])].
Proof. vm_compute. repeat split; reflexivity. Qed.
(* outside the text domain the escaping is at work and still undone by the reader's decoding *)
Example C08_ex_vtt_escaping :
  vtt_read_doc (vtt_write_doc [(1000000, 2000000, [Str.lit "R&D <x> a --> b"])])
  = Ok [(1000000, 2000000, [Str.lit "R&D <x> a --> b"])].
Proof. vm_compute. reflexivity. Qed.

(* ---- machine-checked witnesses of the recorded known findings, where the models exhibit them ---------------------- *)
(* C08-multi-language-srt-text-growth: marker, counter, timing line and text of the next language become caption text *)
Example C08_multi_language_srt_text_growth_refuted :
  srt_read (srt_write_set [[(1000000, 2000000, [Str.lit "a"])]; [(1500000, 2500000, [Str.lit "b"])]])
  = Ok [(1000000, 2000000, [Str.lit "a"; Str.lit "MULTI-LANGUAGE SRT"; Str.lit "1";
                            Str.lit "00:00:01,500 --> 00:00:02,500"; Str.lit "b"])].
Proof. vm_compute. reflexivity. Qed.
(* C08-multi-language-mdvd-appended: one list with the cues of both languages *)
Example C08_multi_language_mdvd_appended_refuted :
  mdvd_read (mdvd_write_set [[(1000000, 2000000, [Str.lit "a"])]; [(1500000, 2500000, [Str.lit "b"])]])
  = Ok [(1000000, 2000000, [Str.lit "a"]); (1480000, 2480000, [Str.lit "b"])].
Proof. vm_compute. reflexivity. Qed.
(* C08-subresolution-cues-merged-by-srt: two cues inside one millisecond arrive as one after vtt -> srt *)
Example C08_subresolution_merge_refuted :
  run_model [FVtt; FSrt] [(1000100, 1000400); (1000500, 1000900); (1005000, 1009000)]
  = Ok [(1000000, 1000000); (1005000, 1009000)].
Proof. vm_compute. reflexivity. Qed.
(* C08-sami-submillisecond-cue-end: the cue ends at the next sync *)
Example C08_sami_submillisecond_end_refuted :
  run_model [FSami] [(1000, 1400); (3000, 4000)] = Ok [(1000, 3000); (3000, 4003000)].
Proof. vm_compute. reflexivity. Qed.
(* C08-sami-zero-length-cue-end: the first pass is right, the SECOND pass moves a non-final end *)
Example C08_sami_zero_length_second_pass_refuted :
  run_model [FSami; FMdvd] [(100000, 110000); (200000, 300000)] = Ok [(80000, 80000); (200000, 4200000)] /\
  run_model [FSami; FMdvd] [(80000, 80000); (200000, 4200000)] = Ok [(80000, 200000); (200000, 4200000)].
Proof. vm_compute. split; reflexivity. Qed.
(* C08-blank-line-in-text-node: the empty line ends the cue, the rest of the text is lost *)
Example C08_blank_line_in_text_node_refuted :
  vtt_read_doc (vtt_write_doc [(1000000, 2000000, [Str.lit "a" ++ [10; 10] ++ Str.lit "b"]); (3000000, 4000000, [Str.lit "w1"])])
  = Ok [(1000000, 2000000, [Str.lit "a"]); (3000000, 4000000, [Str.lit "w1"])].
Proof. vm_compute. reflexivity. Qed.
(* C08-vtt-layout-split: the WebVTT writer model (C02) prints one cue per layout group *)
Example C08_vtt_layout_split_refuted :
  let c := Base.mkCap (inject_Z 1000000) (inject_Z 2000000) [1] in
  length (TimeWrite.vtt_tokens [(c, [TimeWrite.VText (Some 1); TimeWrite.VBreak; TimeWrite.VText (Some 2)])]) = 2%nat.
Proof. vm_compute. reflexivity. Qed.
(* C08-sami-blank-at-node-boundary: the SAMI payload of 'Hel' + 'lo' (writer model of C03) *)
Example C08_sami_blank_at_node_boundary_refuted :
  TextWrite.sami_payload [TextNodes.NText (Str.lit "Hel"); TextNodes.NText (Str.lit "lo")] = Str.lit "Hel lo".
Proof. vm_compute. reflexivity. Qed.

(* ---- DFXP hops at DOCUMENT level (string level) -----------------------------------------------------------
   hop_doc FDfxp cs = the whole DFXP document DFXPWriter prints for the captions (DfxpWriteDoc.dfxp_write_doc, language
   en-US; compared with the real writer's text on every run), read back by the string-level model of DFXPReader
   (XmlRead.dfxp_read_string for the times: text -> tree -> the reader's queries; DfxpReadLines for the text of every
   paragraph: its NavigableStrings and <br/>). *)
Module DfxpHop.
Import proofs.DfxpWriteDocFacts proofs.ChainDfxpDocFacts.

(* one DFXP hop, whole document: every caption comes back, in order, with start and end floored to the millisecond
   and with its text lines unchanged - for ANY list of captions with times below 24 h (no order or length condition)
   whose text is clean lines *)
Theorem C08_dfxp_roundtrip_string : forall cs, cs <> [] -> in_day cs -> text_dom cs = true ->
  hop_doc FDfxp cs = Ok (floor_caps 1000 cs).
Proof. exact dfxp_roundtrip_string. Qed.
Print Assumptions C08_dfxp_roundtrip_string.

(* every chain of SRT / MicroDVD / WebVTT / DFXP document hops returns the closed-form times AND the unchanged text.
   _partial: hypotheses beyond the statement's quantifier whatever the chain - cues >= 40 ms (dom_u 40000), SRT's and WebVTT's
   clean-line domains (no & < >) - and one pass only *)
Theorem C08_chain_doc_text_four_formats_partial : forall chain cs lo, forallb line_fmt4 chain = true -> cs <> [] -> 0 <= lo ->
  dom_u 40000 lo (times_of_caps cs) -> text_dom cs = true -> srt_text_dom cs = true -> vtt_text_dom cs = true ->
  exists out, run_doc chain cs = Ok out /\ times_of_caps out = run chain (times_of_caps cs) /\ map snd out = map snd cs.
Proof. exact run_doc_text4. Qed.
Print Assumptions C08_chain_doc_text_four_formats_partial.

Example C08_ex_chain_with_dfxp :
  let cs := [(1000999, 2500000, [Str.lit "hello"; Str.lit "a b"]); (3600000000, 3600079999, [Str.lit "x y"])] in
  forallb line_fmt4 [FDfxp; FSrt; FDfxp; FMdvd; FVtt; FDfxp] = true /\
  dom_u 40000 0 (times_of_caps cs) /\ text_dom cs = true /\ srt_text_dom cs = true /\ vtt_text_dom cs = true /\
  run_doc [FDfxp; FSrt; FDfxp; FMdvd; FVtt; FDfxp] cs
  = Ok [(1000000, 2480000, [Str.lit "hello"; Str.lit "a b"]); (3600000000, 3600040000, [Str.lit "x y"])].
Proof. vm_compute. repeat split; try reflexivity; try discriminate. Qed.
End DfxpHop.

(* ---- SAMI hops at DOCUMENT level (string level); chains over all five formats ---------------------------------
   hop_doc FSami cs = the body of the SAMI document SAMIWriter prints for the captions (SamiWriteDoc, language en-US; the
   whole text is compared with the real writer's in C02's run), read back by the string-level model of SAMIReader
   (SamiText.sami_read_string for the times: tokens -> sync / paragraph machine -> back-filling; SamiReadLines for the
   text lines of every paragraph with visible text). *)
Module SamiHop.
Import proofs.ChainSamiDocFacts.

(* one SAMI hop, whole document: every caption comes back, in order, with the SAMI projection of its times (starts and
   non-final ends floored to the ms, the last cue four seconds) and its text lines unchanged *)
Theorem C08_sami_roundtrip_string : forall cs lo, cs <> [] -> 0 <= lo -> dom_u 1000 lo (times_of_caps cs) -> text_dom cs = true ->
  hop_doc FSami cs = Ok (retimed (pi FSami (times_of_caps cs)) cs).
Proof. exact sami_roundtrip_string. Qed.
Print Assumptions C08_sami_roundtrip_string.

(* EVERY chain of document hops over SRT / WebVTT / DFXP / SAMI / MicroDVD returns the spec's times (closed form:
   C08_chain_closed_form) AND the unchanged text lines.  _partial: same extra hypotheses as the four-format theorem *)
Theorem C08_chain_doc_text_five_formats_partial : forall chain cs lo, cs <> [] -> 0 <= lo ->
  dom_u 40000 lo (times_of_caps cs) -> text_dom cs = true -> srt_text_dom cs = true -> vtt_text_dom cs = true ->
  exists out, run_doc chain cs = Ok out /\ times_of_caps out = run chain (times_of_caps cs) /\ map snd out = map snd cs.
Proof. exact run_doc_text5. Qed.
Print Assumptions C08_chain_doc_text_five_formats_partial.

Example C08_ex_chain_with_sami :
  let cs := [(1000999, 2500000, [Str.lit "hello"; Str.lit "a b"]); (3600000000, 3600079999, [Str.lit "x y"])] in
  dom_u 40000 0 (times_of_caps cs) /\ text_dom cs = true /\ srt_text_dom cs = true /\ vtt_text_dom cs = true /\
  run_doc [FSami; FDfxp; FSrt; FSami; FMdvd; FVtt] cs
  = Ok [(1000000, 2480000, [Str.lit "hello"; Str.lit "a b"]); (3600000000, 3604000000, [Str.lit "x y"])].
Proof. vm_compute. repeat split; try reflexivity; try discriminate. Qed.
End SamiHop.
