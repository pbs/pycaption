(* C18 - Geometry values compare, hash, parse and print consistently.
   Only statements closed by `exact`, each followed by Print Assumptions; Examples show non-vacuity. *)
From Coq Require Import List ZArith QArith Qabs Bool.
From PV Require Import model.Store model.GeomStore proofs.StoreFacts proofs.GeomStoreFacts proofs.GeomStoreValue.
From PV Require Import lib.Sx lib.Str lib.Result model.Geometry model.GenGeom spec.SpecGeom.
From PV Require Import proofs.GeomStr proofs.GeomEq proofs.GeomParse proofs.GeomPrint proofs.GeomLang proofs.GeomFacts.
Import ListNotations.
Open Scope Z_scope.

(* ---- equality: exactly component-wise (value as a number, unit; origin, extent, padding, alignment) ------- *)
Theorem C18_eq_componentwise : forall a b, gval_eqb a b = true <-> gval_equiv a b.
Proof. exact gval_eqb_iff. Qed.
Print Assumptions C18_eq_componentwise.

Theorem C18_layout_eq_componentwise : forall a b, layout_eqb a b = true <-> layout_equiv a b.
Proof. exact layout_eqb_iff. Qed.
Print Assumptions C18_layout_eq_componentwise.

(* definitional link (spec_gval_eq is the same recursion written again): the check's oracle function is the model's *)
Theorem C18_eq_model_is_spec : forall a b, gval_eqb a b = spec_gval_eq a b.
Proof. exact gval_eqb_spec. Qed.
Print Assumptions C18_eq_model_is_spec.

(* an independent characterisation: two layouts are == exactly when their NORMAL FORMS are identical (every number in
   lowest terms, webvtt_positioning dropped) *)
Theorem C18_eq_iff_same_normal_form : forall a b, layout_eqb a b = true <-> norm_layout a = norm_layout b.
Proof. exact layout_eqb_norm. Qed.
Print Assumptions C18_eq_iff_same_normal_form.

(* reflexive (on geometry values), symmetric, transitive *)
Theorem C18_eq_equivalence :
  (forall a, a <> GOther -> gval_eqb a a = true)
  /\ (forall a b, gval_eqb a b = gval_eqb b a)
  /\ (forall a b c, gval_eqb a b = true -> gval_eqb b c = true -> gval_eqb a c = true).
Proof. exact gval_eqb_laws. Qed.
Print Assumptions C18_eq_equivalence.

(* equal values have equal hashes - for EVERY hash function on floats, units, alignment members, None and ints
   (CPython's are abstract: the section variables of proofs/GeomEq.v, discharged here) *)
Theorem C18_eq_implies_hash_eq :
  forall (hq : Q -> Z) (hu : unit_ -> Z) (hh : option halign -> Z) (hv : option valign -> Z) (hnone : Z) (hint : Z -> Z) a b,
  gval_eqb a b = true -> gval_hash hq hu hh hv hnone hint a = gval_hash hq hu hh hv hnone hint b.
Proof. exact gval_hash_eq. Qed.
Print Assumptions C18_eq_implies_hash_eq.

(* ---- Size.from_string: accepts exactly the size language, for ALL strings -------------------------------- *)
(* (after `fix: Size.from_string accepted a size followed by a newline` and `fix: ... non-ASCII decimal digits` there is
   no exception left: no trailing-newline case, ASCII digits only) accepted <-> in L; everything else is the syntax error *)
Theorem C18_parser_language : forall s,
  ((exists z, size_from_string s = Ok z) <-> size_lang s) /\ (~ size_lang s -> size_from_string s = Err ESyntax)
  /\ (forall e, size_from_string s = Err e -> e = ESyntax).
Proof. exact from_string_language. Qed.
Print Assumptions C18_parser_language.

(* and it returns the denoted value (positional decimal value of ip '.' fp) with the named unit *)
Theorem C18_parser_value : forall ip fp u, all_digits ip = true -> (fp = [] \/ all_digits fp = true) ->
  let s := ip ++ (match fp with [] => [] | _ => 46 :: fp end) ++ unit_str u in
  exists v, size_from_string s = Ok (mkSize v u) /\ (v == denoted ip fp)%Q /\ (0 <= v)%Q.
Proof. exact from_string_value. Qed.
Print Assumptions C18_parser_value.

(* the executable language test used by the check is the grammar, and the model passes the check's oracle *)
Theorem C18_language_decidable : forall s, in_size_lang s = true <-> size_lang s.
Proof. exact in_size_lang_iff. Qed.
Print Assumptions C18_language_decidable.

Theorem C18_parser_meets_oracle : forall s, ok_parse s (obs_of (size_from_string s)) = true.
Proof. exact ok_parse_model. Qed.
Print Assumptions C18_parser_meets_oracle.

(* ---- printing ------------------------------------------------------------------------------------------ *)
(* re-parsing a printed value gives the value rounded to two decimals (half-even hundredths), same unit *)
Theorem C18_print_parse : forall a, (0 <= s_val a)%Q ->
  exists z, size_from_string (size_str a) = Ok z
            /\ (s_val z == inject_Z (hundredths (s_val a)) / 100)%Q /\ s_unit z = s_unit a.
Proof. exact print_parse. Qed.
Print Assumptions C18_print_parse.

(* print o parse o print = print, and the re-parsed value is within 1/200 of the original *)
Theorem C18_print_stable : forall a, (0 <= s_val a)%Q ->
  exists z, size_from_string (size_str a) = Ok z /\ size_str z = size_str a
            /\ (Qabs (s_val z - s_val a) <= 1 # 200)%Q.
Proof. exact print_parse_print. Qed.
Print Assumptions C18_print_stable.

(* the printed string is canonical (no sign/exponent, <= 2 decimals, no trailing zero, no leading zeros), carries the
   unit, and denotes a number within 1/200 of the value: the check's print oracle holds of the model *)
Theorem C18_print_two_decimals : forall v u, (0 <= v)%Q -> ok_print v u (size_str (mkSize v u)) = true.
Proof. exact ok_print_model. Qed.
Print Assumptions C18_print_two_decimals.

(* what the statement fixes (<= 2 decimals, the unit, within 1/200; the check's print oracle) follows *)
Theorem C18_print_meets_statement_oracle : forall v u, (0 <= v)%Q -> ok_print_stmt v u (size_str (mkSize v u)) = true.
Proof. exact ok_print_stmt_model. Qed.
Print Assumptions C18_print_meets_statement_oracle.

(* printing depends on the value only, not on how the rational is represented *)
Theorem C18_print_function_of_value : forall a b, size_equiv a b -> size_str a = size_str b.
Proof. exact size_str_compat. Qed.
Print Assumptions C18_print_function_of_value.

(* ---- padding shorthand: TTML order before, end, after, start ------------------------------------------- *)
Theorem C18_padding_shorthand_ttml_order :
  (forall a, padding_of_sizes [a] = Ok (mkPadding a a a a))
  /\ (forall bv eh, padding_of_sizes [bv; eh] = Ok {| pd_before := bv; pd_after := bv; pd_start := eh; pd_end := eh |})
  /\ (forall b eh a, padding_of_sizes [b; eh; a] = Ok {| pd_before := b; pd_after := a; pd_start := eh; pd_end := eh |})
  /\ (forall b e a s, padding_of_sizes [b; e; a; s] = Ok {| pd_before := b; pd_end := e; pd_after := a; pd_start := s |})
  /\ (forall l, (length l = 0 \/ 5 <= length l)%nat -> padding_of_sizes l = Err ValueError).
Proof. exact padding_shorthand_order. Qed.
Print Assumptions C18_padding_shorthand_ttml_order.

Theorem C18_padding_model_is_spec : forall l,
  padding_of_sizes l = match ttml_padding l with Some p => Ok p | None => Err ValueError end.
Proof. exact padding_of_sizes_ttml. Qed.
Print Assumptions C18_padding_model_is_spec.

Theorem C18_padding_attribute : forall toks, toks <> [] -> Forall (free_of 32) toks ->
  padding_from_attr (join [32] toks) = (do sizes <- res_map size_from_string toks; padding_of_sizes sizes).
Proof. exact padding_from_attr_tokens. Qed.
Print Assumptions C18_padding_attribute.

(* ---- relativize / fit are functions on values: what they do not recompute is returned as it was.  Lemmas read off the
        model's definitions (the model is tied to the code by stream E of the check and by C13) ------------------- *)
(* identity up to webvtt_positioning, which as_percentage_of drops *)
Theorem C18_relativize_relative_is_identity : forall l w h, layout_relative l ->
  layout_as_pct l w h = Ok (mkLayout (l_origin l) (l_extent l) (l_padding l) (l_alignment l) None).
Proof. exact layout_as_pct_relative. Qed.
Print Assumptions C18_relativize_relative_is_identity.

Theorem C18_relativize_keeps_alignment_and_shape : forall l w h r, layout_as_pct l w h = Ok r ->
  l_alignment r = l_alignment l /\ l_webvtt r = None /\ shape r = shape l.
Proof. exact layout_as_pct_alignment. Qed.
Print Assumptions C18_relativize_keeps_alignment_and_shape.

Theorem C18_fit_recomputes_extent_only : forall l r, layout_fit l = Ok r ->
  l_origin r = l_origin l /\ l_padding r = l_padding l /\ l_alignment r = l_alignment l
  /\ (l_origin l = None -> r = l) /\ (l_origin l <> None -> l_extent r <> None /\ l_webvtt r = None).
Proof. exact layout_fit_keeps. Qed.
Print Assumptions C18_fit_recomputes_extent_only.

(* ---- the unit table of the working tree (regenerated every run) is the one model and spec use ------------ *)
Theorem C18_unit_table :
  map (fun nv => (unit_of_name (fst nv), snd nv)) unit_enum = map (fun u => (Some u, unit_str u)) spec_units.
Proof. exact unit_table_agrees. Qed.
Print Assumptions C18_unit_table.

(* ---- non-vacuity ------------------------------------------------------------------------------------------ *)
Example C18_ex_parse : size_from_string (lit "12.50%") = Ok (mkSize (25 # 2) PCT) /\ size_lang (lit "12.50%").
Proof.
  split; [vm_compute; reflexivity|].
  change (lit "12.50%") with (lit "12" ++ 46 :: lit "50" ++ unit_str PCT). apply SL_frac; reflexivity.
Qed.
Example C18_ex_reject : size_from_string (lit "1e3px") = Err ESyntax /\ size_from_string (lit "5.px") = Err ESyntax
                        /\ size_from_string (lit "-1px") = Err ESyntax /\ size_from_string (lit "7") = Err ESyntax.
Proof. vm_compute. repeat split. Qed.
Example C18_ex_print : size_str (mkSize (2675 # 1000) PX) = lit "2.68px" /\ size_str (mkSize (1 # 8) PCT) = lit "0.12%"
                       /\ size_str (mkSize (100 # 1) EM) = lit "100em" /\ size_str (mkSize (5 # 10) CELL) = lit "0.5c".
Proof. vm_compute. repeat split. Qed.
Example C18_ex_eq :
  let s v u := mkSize v u in
  let l1 := mkLayout (Some (mkPoint (s (1 # 2) PCT) (s (10 # 1) PCT))) None None None (Some (lit "line:5%")) in
  let l2 := mkLayout (Some (mkPoint (s (2 # 4) PCT) (s (10 # 1) PCT))) None None None None in
  let l3 := mkLayout (Some (mkPoint (s (1 # 2) PX) (s (10 # 1) PCT))) None None None None in
  layout_eqb l1 l2 = true /\ layout_eqb l1 l3 = false /\ gval_eqb (GSize (s (1 # 1) PX)) (GPoint (mkPoint (s (1 # 1) PX) (s (1 # 1) PX))) = false.
Proof. vm_compute. repeat split. Qed.
Example C18_ex_padding :
  padding_from_attr (lit "1px 2px 3px 4px")
  = Ok {| pd_before := mkSize (1 # 1) PX; pd_end := mkSize (2 # 1) PX; pd_after := mkSize (3 # 1) PX; pd_start := mkSize (4 # 1) PX |}.
Proof. vm_compute. reflexivity. Qed.

(* instances of the theorems with hypotheses *)
Example C18_ex_print_parse :
  let a := mkSize (2675 # 1000) PX in
  (0 <= s_val a)%Q /\ size_from_string (size_str a) = Ok (mkSize (67 # 25) PX) /\ hundredths (s_val a) = 268.
Proof. vm_compute. repeat split; discriminate. Qed.
Example C18_ex_padding_attribute :
  let toks := [lit "1px"; lit "2px"; lit "3px"] in
  toks <> [] /\ Forall (free_of 32) toks
  /\ padding_from_attr (join [32] toks)
     = Ok {| pd_before := mkSize (1 # 1) PX; pd_after := mkSize (3 # 1) PX; pd_start := mkSize (2 # 1) PX; pd_end := mkSize (2 # 1) PX |}.
Proof.
  split; [discriminate|]. split; [|vm_compute; reflexivity].
  repeat constructor; intros H; discriminate.
Qed.
Example C18_ex_relative_layout :
  let s v := mkSize v PCT in
  let l := mkLayout (Some (mkPoint (s (10 # 1)) (s (20 # 1)))) (Some (mkStretch (s (50 # 1)) (s (5 # 1)))) None None (Some (lit "line:1")) in
  layout_relative l /\ layout_as_pct l None None = Ok (mkLayout (l_origin l) (l_extent l) None None None)
  /\ layout_fit l = Ok (mkLayout (l_origin l) (l_extent l) None None None).
Proof. split; [repeat constructor|split; vm_compute; reflexivity]. Qed.
Example C18_ex_norm :
  let a := mkLayout (Some (mkPoint (mkSize (1 # 2) PCT) (mkSize (10 # 1) PCT))) None None None (Some (lit "line:5%")) in
  let b := mkLayout (Some (mkPoint (mkSize (2 # 4) PCT) (mkSize (20 # 2) PCT))) None None None None in
  a <> b /\ norm_layout a = norm_layout b /\ layout_eqb a b = true.
Proof. split; [intros H; discriminate|split; vm_compute; reflexivity]. Qed.

(* ---- heap level: relativizing or fitting returns a new value without modifying the receiver ----------------------
   model/GeomStore.v: the methods on objects in a store (which objects are allocated, which references of the receiver go
   into the result).  Geometry objects have no mutators; the precise statement is: the operations only allocate. *)
Theorem C18_store_ops_allocate_only : forall w h v,
  extends (size_pct_s v w h) /\ extends (point_pct_s v w h) /\ extends (stretch_pct_s v w h)
  /\ extends (padding_pct_s v w h) /\ extends (layout_pct_s v w h) /\ extends (layout_fit_s v).
Proof. exact geom_ops_allocate_only. Qed.
Print Assumptions C18_store_ops_allocate_only.

(* no location of the store the call starts in is assigned - whatever it is reachable from *)
Theorem C18_store_no_location_assigned : forall A (m : SM A), extends m -> forall st st' a, m st = Ok (st', a) ->
  forall l, (l < length st)%nat -> get st' l = get st l.
Proof. exact extends_untouched. Qed.
Print Assumptions C18_store_no_location_assigned.

(* hence the identity-insensitive snapshot of the receiver (of any value of the old store) is the same after the call *)
Theorem C18_store_receiver_snapshot_unchanged : forall v w h st st' r fuel x,
  (layout_pct_s v w h st = Ok (st', r) \/ layout_fit_s v st = Ok (st', r)) ->
  wf st -> below (length st) x -> snap fuel st' x = snap fuel st x.
Proof. exact receiver_snapshot_unchanged. Qed.
Print Assumptions C18_store_receiver_snapshot_unchanged.

(* the result: Size.as_percentage_of and Layout.fit_to_screen return the receiver itself (percentage / no origin) or a new
   object; Point / Stretch / Padding / Layout.as_percentage_of always return a new object *)
Theorem C18_store_size_pct_self_or_new : forall v w h st st' r, size_pct_s v w h st = Ok (st', r) ->
  (r = v /\ st' = st) \/ (exists l, r = VLoc l /\ (length st <= l)%nat).
Proof. exact size_pct_self_or_new. Qed.
Print Assumptions C18_store_size_pct_self_or_new.
Theorem C18_store_layout_fit_self_or_new : forall v st st' r, layout_fit_s v st = Ok (st', r) ->
  (r = v /\ st' = st) \/ (exists l, r = VLoc l /\ (length st <= l)%nat).
Proof. exact layout_fit_self_or_new. Qed.
Print Assumptions C18_store_layout_fit_self_or_new.
Theorem C18_store_as_percentage_new_object : forall v w h,
  fresh (point_pct_s v w h) /\ fresh (stretch_pct_s v w h) /\ fresh (padding_pct_s v w h) /\ fresh (layout_pct_s v w h).
Proof. exact as_percentage_new_object. Qed.
Print Assumptions C18_store_as_percentage_new_object.

(* the VALUE of the result, Size level: the heap operation returns an object that decodes to Size.as_percentage_of of the
   decoded receiver, and raises the same exception otherwise *)
Theorem C18_store_size_pct_value : forall v w h st a, dec_size st v = Some a ->
  match size_pct_s v w h st, size_as_pct a w h with
  | Ok (st', r), Ok a' => dec_size st' r = Some a'
  | Err e, Err e' => e = e'
  | _, _ => False
  end.
Proof. exact size_pct_value. Qed.
Print Assumptions C18_store_size_pct_value.

(* ... and Layout level: on a well-formed store, the result of Layout.as_percentage_of / fit_to_screen decodes to the
   value-level layout_as_pct / layout_fit of the decoded receiver (the functions C13's theorems are about); same exception
   otherwise.  So the heap model refines the value model, and adds only allocation and sharing. *)
Theorem C18_store_layout_pct_value : forall lv w h st l, wf st -> dec_layout st (VLoc lv) = Some l ->
  match layout_pct_s (VLoc lv) w h st, layout_as_pct l w h with
  | Ok (st', r), Ok l' => dec_layout st' r = Some l'
  | Err e, Err e' => e = e'
  | _, _ => False
  end.
Proof. exact layout_pct_value. Qed.
Print Assumptions C18_store_layout_pct_value.
Theorem C18_store_layout_fit_value : forall lv st l, wf st -> dec_layout st (VLoc lv) = Some l ->
  match layout_fit_s (VLoc lv) st, layout_fit l with
  | Ok (st', r), Ok l' => dec_layout st' r = Some l'
  | Err e, Err e' => e = e'
  | _, _ => False
  end.
Proof. exact layout_fit_value. Qed.
Print Assumptions C18_store_layout_fit_value.

(* which parts of the result are the receiver's own objects (1), other objects (0), None (2); paths: the layout, origin, x, y,
   extent, horizontal, vertical, padding, before, after, start, end, alignment.  The decoded result is the value-level one. *)
Example C18_ex_store_profile :
  let l := mkLayout (Some (mkPoint (mkSize (64 # 1) PX) (mkSize (10 # 1) PCT))) (Some (mkStretch (mkSize (50 # 1) PCT) (mkSize (99 # 1) PCT)))
                    None (Some (mkAlign (Some HLeft) None)) (Some (lit "line:1")) in
  layout_op_profile 0 (Some (640 # 1)) (Some (360 # 1)) l
    = Ok (Some (mkLayout (Some (mkPoint (mkSize (10 # 1) PCT) (mkSize (10 # 1) PCT))) (l_extent l) None (l_alignment l) None),
          [0; 0; 0; 1; 0; 1; 1; 2; 2; 2; 2; 2; 1])
  /\ match layout_as_pct l (Some (640 # 1)) (Some (360 # 1)), layout_op_profile 0 (Some (640 # 1)) (Some (360 # 1)) l with
     | Ok a, Ok (Some b, _) => a = b | _, _ => False end
  /\ layout_op_profile 1 None None (mkLayout (Some (mkPoint (mkSize (10 # 1) PCT) (mkSize (10 # 1) PCT))) (l_extent l) None (l_alignment l) None)
    = Ok (Some (mkLayout (Some (mkPoint (mkSize (10 # 1) PCT) (mkSize (10 # 1) PCT)))
                         (Some (mkStretch (mkSize (50 # 1) PCT) (mkSize (85 # 1) PCT))) None (l_alignment l) None),
          [0; 1; 1; 1; 0; 1; 0; 2; 2; 2; 2; 2; 1])
  /\ layout_op_profile 1 None None (mkLayout None (l_extent l) None None None) = Ok (Some (mkLayout None (l_extent l) None None None),
          [1; 2; 2; 2; 1; 1; 1; 2; 2; 2; 2; 2; 2]).
Proof. vm_compute. repeat split. Qed.

(* ==== to_xml_attribute / from_xml_attribute of Point, Stretch, Padding ====================================== *)
From PV Require Import model.Positioning spec.SpecPos proofs.Pos12Facts proofs.GeomAttrFacts.

(* TwoDimensionalObject.from_xml_attribute on "t1 t2 .. tk" (single spaces, tokens without spaces): exactly two tokens,
   each parsed as a size; any other number of tokens is a ValueError *)
Theorem C18_two_sizes_attribute : forall toks, toks <> [] -> Forall (free_of 32) toks ->
  two_sizes (join [32] toks)
  = match toks with
    | [a; b] => do x <- size_from_string a; do y <- size_from_string b; Ok (x, y)
    | _ => Err ValueError
    end.
Proof. exact two_sizes_tokens. Qed.
Print Assumptions C18_two_sizes_attribute.

(* "re-parsing a printed value reproduces it" for the composite values (non-negative lengths): the attribute printed by
   to_xml_attribute is accepted by from_xml_attribute, every component comes back in its own slot as its two-decimal
   rounding (so within 1/200: C18_print_stable), and printing the result gives the same attribute again *)
Theorem C18_point_attribute_roundtrip : forall p, (0 <= s_val (p_x p))%Q -> (0 <= s_val (p_y p))%Q ->
  exists p', point_of_attr (point_attr p) = Ok p'
    /\ size_equiv (p_x p') (round2 (p_x p)) /\ size_equiv (p_y p') (round2 (p_y p))
    /\ point_attr p' = point_attr p.
Proof. exact point_attr_roundtrip. Qed.
Print Assumptions C18_point_attribute_roundtrip.

Theorem C18_stretch_attribute_roundtrip : forall p, (0 <= s_val (st_h p))%Q -> (0 <= s_val (st_v p))%Q ->
  exists p', stretch_of_attr (stretch_attr p) = Ok p'
    /\ size_equiv (st_h p') (round2 (st_h p)) /\ size_equiv (st_v p') (round2 (st_v p))
    /\ stretch_attr p' = stretch_attr p.
Proof. exact stretch_attr_roundtrip. Qed.
Print Assumptions C18_stretch_attribute_roundtrip.

(* Padding prints before, end, after, start; the four-value branch of the shorthand puts each one back where it was *)
Theorem C18_padding_attribute_roundtrip : forall p, (0 <= s_val (pd_before p))%Q -> (0 <= s_val (pd_after p))%Q ->
  (0 <= s_val (pd_start p))%Q -> (0 <= s_val (pd_end p))%Q ->
  exists p', padding_from_attr (padding_attr p) = Ok p'
    /\ size_equiv (pd_before p') (round2 (pd_before p)) /\ size_equiv (pd_after p') (round2 (pd_after p))
    /\ size_equiv (pd_start p') (round2 (pd_start p)) /\ size_equiv (pd_end p') (round2 (pd_end p))
    /\ padding_attr p' = padding_attr p.
Proof. exact padding_attr_roundtrip. Qed.
Print Assumptions C18_padding_attribute_roundtrip.

Example C18_ex_point_stretch_roundtrip :
  let p := mkPoint (mkSize (2675 # 1000) PX) (mkSize (1 # 8) PCT) in
  let e := mkStretch (mkSize (5 # 10) CELL) (mkSize (100 # 1) EM) in
  point_attr p = lit "2.68px 0.12%" /\ point_of_attr (point_attr p) = Ok (mkPoint (mkSize (67 # 25) PX) (mkSize (3 # 25) PCT))
  /\ stretch_attr e = lit "0.5c 100em" /\ stretch_of_attr (stretch_attr e) = Ok (mkStretch (mkSize (1 # 2) CELL) (mkSize (100 # 1) EM)).
Proof. vm_compute. repeat split. Qed.
Example C18_ex_attribute_roundtrip :
  let p := {| pd_before := mkSize (2675 # 1000) PX; pd_after := mkSize (1 # 8) PCT; pd_start := mkSize (5 # 10) CELL; pd_end := mkSize (100 # 1) EM |} in
  padding_attr p = lit "2.68px 100em 0.12% 0.5c"
  /\ padding_from_attr (padding_attr p)
     = Ok {| pd_before := mkSize (67 # 25) PX; pd_after := mkSize (3 # 25) PCT; pd_start := mkSize (1 # 2) CELL; pd_end := mkSize (100 # 1) EM |}
  /\ two_sizes (lit "1px 2px 3px") = Err ValueError /\ two_sizes (lit "1px") = Err ValueError.
Proof. vm_compute. repeat split. Qed.

(* ==== the hash clause per class; printing =============================================================================== *)
From PV Require Import proofs.GeomHashPrintFacts.

(* the hash clause per class (instances of C18_eq_implies_hash_eq, spelled out): == values of Size / Point / Stretch /
   Padding / Alignment / Layout - Layout and Alignment components may be None - have equal hashes, for every hash function
   of floats, enum members, None and ints *)
Theorem C18_hash_eq_per_class :
  forall (hq : Q -> Z) (hu : unit_ -> Z) (hh : option halign -> Z) (hv : option valign -> Z) (hnone : Z) (hint : Z -> Z),
    (forall a b, size_eqb a b = true -> size_hash hq hu hint a = size_hash hq hu hint b)
    /\ (forall a b, point_eqb a b = true -> point_hash hq hu hint a = point_hash hq hu hint b)
    /\ (forall a b, stretch_eqb a b = true -> stretch_hash hq hu hint a = stretch_hash hq hu hint b)
    /\ (forall a b, padding_eqb a b = true -> padding_hash hq hu hint a = padding_hash hq hu hint b)
    /\ (forall a b, alignment_eqb a b = true -> alignment_hash hh hv hint a = alignment_hash hh hv hint b)
    /\ (forall a b, layout_eqb a b = true -> layout_hash hq hu hh hv hnone hint a = layout_hash hq hu hh hv hnone hint b).
Proof. exact hash_eq_per_class. Qed.
Print Assumptions C18_hash_eq_per_class.

(* Size printing on EVERY non-negative rational, as one Prop-level statement: the printed string is in canonical form
   (digits without a leading zero, optionally a point and one or two digits without a trailing zero, then the unit), and
   Size.from_string reads it back with the same unit and a value within 1/200 *)
Theorem C18_print_canonical_reparse : forall a, (0 <= s_val a)%Q ->
  exists ip fp z,
    size_str a = dotted ip fp ++ unit_str (s_unit a)
    /\ all_digits ip = true /\ (fp = [] \/ all_digits fp = true)
    /\ no_leading_zero ip /\ (length fp <= 2)%nat /\ no_trailing_zero fp
    /\ size_from_string (size_str a) = Ok z /\ s_unit z = s_unit a /\ (Qabs (s_val z - s_val a) <= 1 # 200)%Q.
Proof. exact print_canonical_reparse. Qed.
Print Assumptions C18_print_canonical_reparse.

Example C18_ex_layout_hash_none :
  let a := mkLayout None None None (Some (mkAlign None (Some VTop))) (Some (lit "line:1")) in
  let b := mkLayout None None None (Some (mkAlign None (Some VTop))) None in
  layout_eqb a b = true
  /\ layout_hash (fun q => Qnum q) (fun _ => 1) (fun _ => 2) (fun _ => 3) 7 (fun z => z) a
     = layout_hash (fun q => Qnum q) (fun _ => 1) (fun _ => 2) (fun _ => 3) 7 (fun z => z) b.
Proof. vm_compute. split; reflexivity. Qed.
