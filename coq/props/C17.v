(* C17 - SCC output is structurally valid and re-reads to the same words.
   Only statements closed by `exact`, with Print Assumptions, and non-vacuity examples. *)
From Coq Require Import List ZArith QArith Bool.
From PV Require Import lib.Sx lib.Str lib.Result model.GenSccw model.SccWrap model.SccWrite spec.SpecSccw.
From PV Require Import proofs.SccWriteFacts proofs.SccWrapFacts proofs.SccWordsFacts proofs.SccDecodeFacts
     proofs.SccLayoutFacts proofs.SccTimingFacts model.SccRoundTrip model.SccDecoder proofs.SccDocFacts proofs.SccComposeFacts
     proofs.SccRoundTripFacts proofs.SccwBridgeFacts.
From PV Require Import model.SccStash model.SccTime.
From PV Require proofs.SccRereadNodes proofs.SccRereadLines proofs.SccRereadLoad proofs.SccRereadTime proofs.SccRereadDoc model.SccRereadDom proofs.SccRereadDomFacts.
Import ListNotations.
Open Scope Q_scope.

(* ---- tables of the working tree (complete, re-proved on every run) ------------------------------- *)
(* every basic code, every special/extended code, the substitute for unknown characters, the filler, the
   four fixed control words have odd parity in each byte *)
Theorem C17_table_parity :
  forallb (fun kv => odd_parity (snd kv)) sccw_character_to_code = true /\
  forallb (fun kv => odd_word (snd kv)) sccw_special_or_extended_to_code = true /\
  odd_parity 145 && odd_parity 182 = true /\ odd_parity 128 = true /\
  forallb (fun w => odd_parity (fst w) && odd_parity (snd w)) [ENM; RCL; EDM; EOC] = true.
Proof. exact (conj tbl_basic_parity (conj tbl_special_parity (conj tbl_unknown_parity (conj tbl_filler_parity tbl_controls_parity)))). Qed.
Print Assumptions C17_table_parity.

(* for each row 1..15 the PAC the writer looks up exists, has odd parity, and is the CEA-608 preamble
   address code of exactly that row at column 0 *)
Theorem C17_table_pac_rows : forall row, (1 <= row <= 15)%Z -> pac_ok row = true.
Proof. exact pac_ok_row. Qed.
Print Assumptions C17_table_pac_rows.

(* the writer's basic table lies inside the CEA-608 basic character set and covers its codes 0x20..0x7e (the
   solid block 0x7f is a CEA-608 basic code the tree's table does not contain; the specification accepts it, so a
   tree that added it would still pass the first conjunct), and the reader's CHARACTERS table inverts it *)
Theorem C17_table_basic_set :
  forallb (fun kv => match cea_basic (snd kv mod 128) with Some c => (c =? fst kv)%Z | None => false end)
          sccw_character_to_code = true /\
  forallb (fun b => match cea_basic b with
                    | Some c => match assoc c sccw_character_to_code with Some b' => (b' mod 128 =? b)%Z | None => false end
                    | None => true end) (map Z.of_nat (seq 32 95)) = true /\
  forallb (fun kv => match assoc (snd kv) sccw_reader_characters with Some c => (c =? fst kv)%Z | None => false end)
          sccw_character_to_code = true.
Proof. exact (conj tbl_basic_is_cea (conj tbl_basic_covers_cea tbl_reader_inverts)). Qed.
Print Assumptions C17_table_basic_set.

(* HEADER is the Scenarist header.  The second conjunct is informational only: the tree's float
   MICROSECONDS_PER_CODEWORD is within 2^-30 us of the exact 1001000/30 the model computes with; no other theorem
   uses this bound (binary64 arithmetic is correspondence only) *)
Theorem C17_table_constants :
  sccw_header = scenarist_header /\
  Qle_bool (Qabs.Qabs ((sccw_mpc_num # Z.to_pos sccw_mpc_den) - mpc)) (1 # 1073741824) = true.
Proof. exact (conj tbl_header tbl_mpc_close). Qed.
Print Assumptions C17_table_constants.

(* ---- every byte has odd parity: any text at all (unknown characters included) laid out on at most 15
        rows is encoded, without error, into words whose bytes all have odd parity -------------------- *)
Theorem C17_all_bytes_odd_parity : forall text, (length (layout_rows text) <= 15)%nat ->
  exists ws, text_to_words text = Ok ws /\ forallb word_odd ws = true.
Proof. exact all_bytes_odd_parity. Qed.
Print Assumptions C17_all_bytes_odd_parity.

(* ---- word stream shape: the code string the writer builds (len(code) % 5 bookkeeping, "80 " padding) is
        exactly the rendering of the word stream: 2+2 lowercase hex digits and a space per word ------- *)
Theorem C17_word_stream_shape_unfold : forall text,
  text_to_code text = (do ws <- text_to_words text; Ok (render_words ws)).
Proof. exact word_stream_shape. Qed.
Print Assumptions C17_word_stream_shape_unfold.
Theorem C17_rendered_word_parses : forall hi lo, (0 <= hi < 256)%Z -> (0 <= lo < 256)%Z ->
  exists a b c d, render_word (hi, lo) = [a; b; c; d; 32%Z] /\ parse_word [a; b; c; d] = Some (hi, lo).
Proof. exact render_word_parses. Qed.
Print Assumptions C17_rendered_word_parses.

(* ---- rows addressed: 16-n .. 15 in order, all within 1..15 when 1 <= n <= 15 ----------------------- *)
Theorem C17_rows_1_15 : forall text, (length (layout_rows text) <= 15)%nat ->
  (1 <= length (layout_rows text))%nat /\
  map fst (layout_rows text)
  = map (fun i => (16 - Z.of_nat (length (layout_rows text)) + Z.of_nat i)%Z) (seq 0 (length (layout_rows text))) /\
  forall r, In r (layout_rows text) -> (1 <= fst r <= 15)%Z.
Proof.
  exact (fun text H => conj (layout_rows_count text)
                        (conj (layout_rows_fst text) (layout_rows_valid text H))).
Qed.
Print Assumptions C17_rows_1_15.

(* ---- rows of at most 32 columns (all texts) ------------------------------------------------------ *)
Theorem C17_rows_le_32 : forall text r, In r (map snd (layout_rows text)) -> (length r <= 32)%nat.
Proof. exact rows_le_32. Qed.
Print Assumptions C17_rows_le_32.
Theorem C17_wrap_rows_le_width : forall width text r, In r (wrap width text) -> (length r <= width)%nat.
Proof. exact wrap_rows_le. Qed.
Print Assumptions C17_wrap_rows_le_width.

(* ---- wrapping removes only whitespace (all texts, all widths >= 1) ----------------------------------- *)
Theorem C17_wrap_keeps_nonspace : forall width text, (1 <= width)%nat ->
  ns (concat (wrap width text)) = ns text.
Proof. exact wrap_keeps_nonspace. Qed.
Print Assumptions C17_wrap_keeps_nonspace.

(* ---- rows are broken only at spaces; only words longer than the width are split ------------------------
   `refines w ws ps` (spec/SpecSccw.v, the relation the check's oracle evaluates): every word of ws appears
   whole in ps, or - only when longer than w - as consecutive non-empty pieces; nothing else appears. *)
Theorem C17_wrap_refines_words : forall width text, (1 <= width)%nat -> plain text = true ->
  refines width (words text) (flat_map words (wrap width text)) = true.
Proof. exact wrap_refines_words. Qed.
Print Assumptions C17_wrap_refines_words.
(* the whole caption (lines separated by line breaks), for every text over the tree's basic character set *)
Theorem C17_layout_refines_words : forall text, basic_text text = true ->
  refines 32 (words text) (flat_map words (map snd (layout_rows text))) = true.
Proof. exact layout_refines_words_basic. Qed.
Print Assumptions C17_layout_refines_words.

(* ---- re-reading at the level of CEA-608: the specification's decoder, run on the writer's word stream for a
        text over the basic set laid out on <= 15 rows, returns exactly the rows (number, text) -------------- *)
Theorem C17_decode_rows : forall text, basic_text text = true -> (length (layout_rows text) <= 15)%nat ->
  exists ws, text_to_words text = Ok ws /\ decode_body ws None [] = Some (layout_rows text).
Proof. exact decode_rows_basic. Qed.
Print Assumptions C17_decode_rows.

(* ---- the writer model composed, through the document, with the full SCC reader model
        (model.SccDecoder.read). roundtrip_ok caps = the reader model returns one caption per cue, with the same words
        (over-long words in pieces) and a start within 3 frames. Complete-table statements over the working tree's basic
        character table, decided through BOTH models; arbitrary texts: C17_roundtrip_ok below, and the extracted composition on every
        generated case. ------------------------------------------------------------------------------------------ *)
(* the document itself: for cues with non-negative times on <= 15 rows the text the writer model produces is a
   Scenarist document that the specification's parser splits into lines whose frame numbers are those of the times
   written (load line and optional clear line per caption) and whose every byte has odd parity *)
Theorem C17_document_parses : forall caps doc, write caps = Ok doc ->
  (forall c, In c caps -> 0 <= w_start c /\ 0 <= w_end c /\ (length (layout_rows (w_text c)) <= 15)%nat) ->
  exists codes lines,
    res_map (fun c => do code <- text_to_code (w_text c); Ok (code, w_start c, w_end c)) caps = Ok codes /\
    parse_document doc = Some lines /\
    map fst lines = map tc_frames (emitted (pass2 [] codes)) /\
    forallb (fun l => forallb word_odd (snd l)) lines = true.
Proof. exact document_parses. Qed.
Print Assumptions C17_document_parses.
(* PARTIAL re-read statement: under the statement's hypotheses the writer model does not fail, its document satisfies
   the whole output oracle, and the reader model is run on exactly the lines the oracle judged.  What the reader model
   RETURNS is proved for the complete character tables below and, for arbitrary texts of the domain caps_ok, by C17_reread_store /
   C17_roundtrip_ok; it is also evaluated (harness request 1705) on generated cases *)
Theorem C17_reread_input_partial : forall caps, Forall cap_dom caps -> caps_spaced 0 caps ->
  exists doc lines, write caps = Ok doc /\ parse_document doc = Some lines
                    /\ ok_output (map to_cue caps) doc = 0%Z
                    /\ reread caps = RRRead (read 0 (map to_sline lines)).
Proof. exact reread_input_ok. Qed.
Print Assumptions C17_reread_input_partial.

Theorem C17_roundtrip_every_basic_char_partial :
  forallb (fun c => roundtrip_ok (one_cap (lit "a" ++ [c] ++ lit "b")) && roundtrip_ok (one_cap ([c] ++ lit "ab c")))
          (filter (fun c => negb (c =? 32)%Z) basic_cps) = true.
Proof. exact roundtrip_every_basic_char. Qed.
Print Assumptions C17_roundtrip_every_basic_char_partial.
Theorem C17_roundtrip_basic_pairs_partial :
  forallb (fun c1 => forallb (fun c2 => roundtrip_ok (one_cap ([c1; c2]))) neighbours)
          (filter (fun c => negb (c =? 32)%Z) basic_cps) = true.
Proof. exact roundtrip_basic_pairs. Qed.
Print Assumptions C17_roundtrip_basic_pairs_partial.

(* every number of rows 1..15 - hence every preamble address code the writer can emit -, as explicit lines and as
   rows produced by wrapping, alone and between other cues, through BOTH models (sample theorem) *)
Theorem C17_roundtrip_every_row_count_partial :
  forallb (fun n => roundtrip_ok (one_cap (n_lines n)) && roundtrip_ok (three_caps (n_lines n))
                    && roundtrip_ok (one_cap (n_wrapped n))) (seq 1 15) = true.
Proof. exact roundtrip_every_row_count. Qed.
Print Assumptions C17_roundtrip_every_row_count_partial.

(* the writer's word stream in closed form, and its relation to the pop-on programs of spec/SpecScc05.v.
   The stream of a text over the basic set on <= 15 rows is, row by row, PAC PAC followed by the row's bytes in pairs
   (filler 0x80 for an odd tail); the character words are exactly SpecScc05's `pack true` of the row's characters; the PACs are
   the INDENT form with indent 0 (attribute 16 = rw_style 16 of SpecScc05's `row`, not the style form 0..15).  Because of the
   EDM EDM in front of EOC EOC `C05_popon_refines_608` does not apply to the writer's documents as they are (the layout is that of
   C05_popon_refines_608_inline, which no theorem composes with the writer model); the re-read clause for arbitrary texts is proved
   directly on the reader model: C17_roundtrip_ok below *)
Theorem C17_word_stream_closed_form : forall text ws, (length (layout_rows text) <= 15)%nat -> basic_text text = true ->
  text_to_words text = Ok ws -> ws = flat_map roww (layout_rows text).
Proof. exact text_words_explicit. Qed.
Print Assumptions C17_word_stream_closed_form.
Theorem C17_row_characters_are_608_pack : forall line, forallb is_basic line = true ->
  map word_z (pair_up (map byte_of line))
  = SpecScc05.pack true (flat_map SpecScc05.toks_of_item (map SpecScc05.Ch line)) None.
Proof. exact row_chars_emit. Qed.
Print Assumptions C17_row_characters_are_608_pack.
Theorem C17_pac_is_indent_form :
  forallb (fun row => match py_index sccw_pac_high_byte_by_row row, py_index sccw_pac_low_byte_by_row_restricted row with
                      | Ok h, Ok l => ((h * 256 + l =? Spec608.pac_word row 16) && negb (h * 256 + l =? Spec608.pac_word row 0))%Z
                      | _, _ => false end) (map Z.of_nat (seq 1 15)) = true.
Proof. exact tbl_pac_is_indent_form. Qed.
Print Assumptions C17_pac_is_indent_form.

(* ---- timing ------------------------------------------------------------------------------------------ *)
(* under the spacing hypothesis the frame numbers written are non-negative and non-decreasing *)
Theorem C17_timecodes_monotone : forall codes, spaced 0 codes ->
  chainZ 0 (map tc_frames (emitted (pass2 [] codes))).
Proof. exact timecodes_monotone. Qed.
Print Assumptions C17_timecodes_monotone.
(* the timecode text parses back to the frame number *)
Theorem C17_timestamp_roundtrip : forall t, 0 <= t -> parse_timecode (format_timestamp t) = Some (tc_frames t).
Proof. exact timestamp_roundtrip. Qed.
Print Assumptions C17_timestamp_roundtrip.
(* the load is displayed between 3 and 2 frames before the cue's start (n + 6 = index of the first End-Of-Caption in
   the load line: SccComposeFacts.index_of_load derives it from the line the writer model emits) *)
Theorem C17_visible_within_3_frames : forall code start,
  0 <= start - code_words code * mpc ->
  let n := (Z.of_nat (length code) / 5)%Z in
  let shown := inject_Z (tc_frames (pre_roll code start) + (n + 6)) * mpc in
  start - 3 * mpc < shown /\ shown <= start - 2 * mpc.
Proof. exact visible_within_3_frames. Qed.
Print Assumptions C17_visible_within_3_frames.

(* ---- THE COMPOSED STATEMENT: for caption sets over the basic set, each caption laid out on <= 15 rows, cues
        ordered, not overlapping and each starting at least its own transmission time (body words + 8 framing words,
        one frame each) after the previous cue's start, the document the writer model produces gets verdict 0 from
        the property oracle: Scenarist document of hex words, odd parity everywhere, one pop-on load per cue whose body
        decodes to distinct rows within 1..15 of <= 32 columns carrying the text's words (long words in pieces),
        displayed within three frames of the start, timecodes non-decreasing ------------------------------------ *)
Theorem C17_write_meets_oracle : forall caps doc,
  write caps = Ok doc -> Forall cap_dom caps -> caps_spaced 0 caps -> ok_output (map to_cue caps) doc = 0%Z.
Proof. exact write_meets_oracle. Qed.
Print Assumptions C17_write_meets_oracle.


(* ---- the re-read clause THROUGH THE READER MODEL, for arbitrary texts ------------------------------------------
   The reader model (model/SccDecoder.v: double-command filter, position tracker, node creator, the seven
   passes of _format_italics, CaptionCreator, the caption store of model/SccStash.v, the clock of model/SccTime.v) is run
   on the writer model's own layout: ENM ENM RCL RCL, per row PAC PAC (indent form, indent 0) and the row's characters in
   pairs, EDM EDM EOC EOC, clear lines EDM EDM.  No bound on texts, rows (within 1..15), number of cues. *)

(* a buffer of text and break nodes (what the writer's loads produce) becomes exactly ONE caption whose observed
   (stripped) text has the words of the buffer - the seven passes only drop empty nodes and strip line ends *)
Theorem C17_plain_buffer_one_caption : forall nodes s e, SccRereadNodes.plain nodes = true -> forallb SccRereadNodes.tame_node nodes = true ->
  exists cn lay, build_captions (format_italics nodes) s e [] (mkPre s e [] None) = [mkPre s e cn lay]
                 /\ words (strip (concat (map node_text cn))) = words (SccRereadNodes.ntext nodes).
Proof. exact SccRereadDoc.caption_strip. Qed.
Print Assumptions C17_plain_buffer_one_caption.

(* ONE LOAD LINE, any rows of basic characters on consecutive rows first .. first+n-1 within 1..15.
   Which reader states it covers (NOT "any state"): exactly the states `SccRereadLoad.ST pa ro off st tk LNone ds
   nodes0 q tm tc0 fr0`, i.e. no error recorded (r_err = None), pop-on mode active (r_active = MPop), last command of the
   double-command filter = none (r_last = LNone; every line of the writer ends in a doubled code, which leaves LNone), pop-on
   buffer with style none (cr_style = SNone; the writer never sends italics) and ANY nodes; free: stash, tracker, double-starter
   flag, queue, time, previous timecode / frame count, offset, the paint-on and roll-up buffers (pa, ro: never touched).
   These are the states the writer's own lines lead to from the initial state (proofs/SccRereadDoc.v items_run).
   Conclusion: the caption on display is closed at the first EDM (word n+4: `closed`), and a text-and-break buffer with
   exactly the words of the rows - and lines as short as the rows - is queued with the instant of the first EOC (word n+6)
   as its start (`queued`: nothing is queued when all rows are blank).  `closed` / `queued` / `after_eoc` / `load_words` are
   defined next to the proof (proofs/SccRereadLoad.v): closed st q t = create_and_store of the queued caption with end t;
   queued nodes t = Some (buffer, t) unless the buffer is empty; load_words = the words ENM ENM RCL RCL rows EDM EDM EOC EOC *)
Theorem C17_reader_on_load_line : forall pa ro off lines first st tk ds nodes0 q tm tc0 fr0 tc t1 t2,
  (1 <= first)%Z -> (first + Z.of_nat (length lines) <= 16)%Z ->
  Forall (fun line => forallb is_basic line = true) lines ->
  get_time tc (Z.of_nat (length (flat_map roww (number_rows first lines))) + 4) off = Ok t1 ->
  get_time tc (Z.of_nat (length (flat_map roww (number_rows first lines))) + 6) off = Ok t2 ->
  exists tk' ds' nodes,
    translate_line (SccRereadLoad.ST pa ro off st tk LNone ds nodes0 q tm tc0 fr0) (tc, SccRereadLoad.load_words first lines)
    = SccRereadLoad.ST pa ro off (SccRereadLoad.closed st q t1) tk' LNone ds' (SccRereadLoad.after_eoc nodes) (SccRereadLoad.queued nodes t2) t2 tc
         (Z.of_nat (length (flat_map roww (number_rows first lines))) + 8)
    /\ SccRereadNodes.plain nodes = true /\ forallb SccRereadNodes.tame_node nodes = true /\ words (SccRereadNodes.ntext nodes) = flat_map words lines
    /\ (SccRereadLoad.rows_short lines -> SccRereadLines.short (SccRereadNodes.ntext nodes) = true).
Proof. exact SccRereadLoad.load_line_run. Qed.
Print Assumptions C17_reader_on_load_line.

(* the reader's clock on the writer's timecodes: word k of a line stamped with frame f (below 100 h) is decoded at
   (f + k) frames of 1001/30 ms *)
Theorem C17_reader_clock_on_written_timecode : forall f k, (0 <= f < 10800000)%Z -> (0 <= k)%Z ->
  exists t, get_time (format_frames f) k 0 = Ok t /\ t == inject_Z (f + k) * mpc.
Proof. exact SccRereadTime.get_time_frames. Qed.
Print Assumptions C17_reader_clock_on_written_timecode.

(* the reader's line-length scan (model/SccLen.v length_check) lets through every caption list whose texts have no run of
   more than 32 characters between newlines *)
Theorem C17_short_lines_pass_length_scan : forall caps : list SccLen.lcap,
  Forall (fun c => SccRereadLines.short (snd c) = true) caps -> SccLen.length_check caps = None.
Proof. exact SccRereadLines.short_texts_pass_length_check. Qed.
Print Assumptions C17_short_lines_pass_length_scan.

(* THE WHOLE DOCUMENT.  Domain caps_ok: the composed statement's (basic set, <= 15 rows, cues ordered / not overlapping /
   spaced by their transmission time, start <= end) plus: every cue has a word (a whitespace-only cue is the known
   finding C17-whitespace-only-cue-not-reread) and ends below 100 h (two-digit hours).
   C17_reader_store_on_written_document (the statement is existential - THERE IS a store stf whose finish_read is
   the reader model's answer; the proof takes the decoder's final store `closed st' q' 0`, the statement does not pin it;
   the answer itself is pinned by C17_reread_store below): the decoder does not raise; a caption store holds exactly one
   caption per cue, in order, with the cue's words and a start within three frames; every stored caption has lines of at
   most 32 characters (each decoded line is one written row, stripped) and is displayed for at least two frames or not
   at all (the closing EDM comes at least two frames after the EOC, by C17_visible_within_3_frames, start <= end
   and the spacing hypothesis) - so neither the line-length scan nor the flash check of SCCReader.read can refuse it.
   C17_reread_store / C17_roundtrip_ok: hence the reader model RETURNS captions for the writer model's document, and they
   satisfy the property's re-read clause - the statement that harness request 1705 evaluates on every generated case *)
(* the domain contains every list that satisfies the composed statement's hypotheses (and whose cues have a word and end
   below 100 h); it is wider: `end <= next start` is not asked for *)
Theorem C17_reread_domain_contains_composed : forall caps, Forall cap_dom caps -> caps_spaced 0 caps ->
  Forall SccRereadDoc.has_word caps -> Forall SccRereadDoc.below_100h caps -> SccRereadDoc.caps_ok caps.
Proof. exact SccRereadDoc.caps_ok_of_composed. Qed.
Print Assumptions C17_reread_domain_contains_composed.
Theorem C17_reader_store_on_written_document : forall caps, SccRereadDoc.caps_ok caps ->
  exists stf, reread caps = RRRead (finish_read stf)
              /\ ok_reread (map to_cue caps) (map SccRereadDoc.obs (st_caps stf)) = 0%Z
              /\ length (st_caps stf) = length caps
              /\ Forall (fun pc => is_flash pc = false /\ SccRereadLines.short (cap_text pc) = true) (st_caps stf).
Proof. exact SccRereadDoc.reread_stash. Qed.
Print Assumptions C17_reader_store_on_written_document.
Theorem C17_reread_store : forall caps, SccRereadDoc.caps_ok caps -> caps <> [] ->
  exists pcs, reread caps = RRRead (ROk pcs) /\ ok_reread (map to_cue caps) (map SccRereadDoc.obs pcs) = 0%Z
              /\ length pcs = length caps.
Proof. exact SccRereadDoc.reread_store. Qed.
Print Assumptions C17_reread_store.
Theorem C17_roundtrip_ok : forall caps, SccRereadDoc.caps_ok caps -> caps <> [] -> roundtrip_ok caps = true.
Proof. exact SccRereadDoc.roundtrip_ok_all. Qed.
Print Assumptions C17_roundtrip_ok.

(* the decidable domain predicate the harness evaluates on every generated case (harness request 1706) implies the hypothesis of
   the theorems above; on it the reader model's answer to the writer model's document is: captions (class 0) *)
Theorem C17_domain_predicate_sound : forall caps, SccRereadDom.caps_ok_b caps = true -> SccRereadDoc.caps_ok caps.
Proof. exact SccRereadDomFacts.caps_ok_b_sound. Qed.
Print Assumptions C17_domain_predicate_sound.
Theorem C17_reread_class_on_domain : forall caps, SccRereadDom.caps_ok_b caps = true -> caps <> [] ->
  SccRereadDom.reread_class caps = 0%Z.
Proof. exact SccRereadDomFacts.reread_class_on_domain. Qed.
Print Assumptions C17_reread_class_on_domain.

(* ---- non-vacuity ---------------------------------------------------------------------------------------- *)
Example C17_example_wrap :
  wrap 32 (lit "aaaaaaaaaa bbbbbbbbbb cccccccc-dddddddddd eee")
  = [lit "aaaaaaaaaa bbbbbbbbbb"; lit "cccccccc-dddddddddd eee"].
Proof. vm_compute. reflexivity. Qed.
Example C17_example_long_word :
  wrap 32 (lit "ab xxxxxxxxxxxxxxxxxxxxxxxxxxxxxxxxxxxxxxxx")
  = [lit "ab xxxxxxxxxxxxxxxxxxxxxxxxxxxxx"; lit "xxxxxxxxxxx"].
Proof. vm_compute. reflexivity. Qed.
Example C17_example_refines :
  basic_text (lit "ab xxxxxxxxxxxxxxxxxxxxxxxxxxxxxxxxxxxxxxxx") = true /\
  flat_map words (map snd (layout_rows (lit "ab xxxxxxxxxxxxxxxxxxxxxxxxxxxxxxxxxxxxxxxx")))
  = [lit "ab"; lit "xxxxxxxxxxxxxxxxxxxxxxxxxxxxx"; lit "xxxxxxxxxxx"] /\
  refines 32 [lit "ab"; lit "xxxxxxxxxxxxxxxxxxxxxxxxxxxxxxxxxxxxxxxx"]
             [lit "ab"; lit "xxxxxxxxxxxxxxxxxxxxxxxxxxxxxxxxxxxx"; lit "xxxx"] = true /\
  refines 32 [lit "cccccccc-dddddddddd"] [lit "cccccccc-"; lit "dddddddddd"] = false.
Proof. vm_compute. repeat split. Qed.
Example C17_example_code :
  text_to_code (lit "Hi!") = Ok (lit "9470 9470 c8e9 a180 ").
Proof. vm_compute. reflexivity. Qed.
Example C17_example_write :
  let caps := [mkWcap (lit "ab") (10000000 # 1) (12000000 # 1); mkWcap (lit "cd") (12000000 # 1) (13000000 # 1)] in
  spaced 0 (map (fun c => (lit "9470 9470 6162 ", w_start c, w_end c)) caps) /\
  write caps = Ok (lit "Scenarist_SCC V1.0" ++ [10; 10]%Z
     ++ lit "00:00:09:18" ++ [9%Z] ++ lit "94ae 94ae 9420 9420 9470 9470 6162 942c 942c 942f 942f" ++ [10; 10]%Z
     ++ lit "00:00:11:18" ++ [9%Z] ++ lit "94ae 94ae 9420 9420 9470 9470 e364 942c 942c 942f 942f" ++ [10; 10]%Z
     ++ lit "00:00:12:29" ++ [9%Z] ++ lit "942c 942c" ++ [10; 10]%Z).
Proof. split; [vm_compute; intuition discriminate|vm_compute; reflexivity]. Qed.
(* the hypotheses of the composed statement hold for an ordinary two-cue set (and its document is the one above) *)
Example C17_example_composed :
  let caps := [mkWcap (lit "ab") (10000000 # 1) (12000000 # 1); mkWcap (lit "cd") (12000000 # 1) (13000000 # 1)] in
  Forall cap_dom caps /\ caps_spaced 0 caps /\ (exists doc, write caps = Ok doc /\ ok_output (map to_cue caps) doc = 0%Z).
Proof.
  split; [repeat constructor|split; [vm_compute; intuition discriminate|eexists; split; [vm_compute; reflexivity|vm_compute; reflexivity]]].
Qed.
(* a cue 10 s in, 9 body words: the hypothesis of C17_visible_within_3_frames holds and the load is shown 2-3 frames early *)
Example C17_example_visible :
  let code := lit "9470 9470 6162 " in
  0 <= (10000000 # 1) - code_words code * mpc /\
  tc_frames (pre_roll code (10000000 # 1)) = 288%Z.
Proof. vm_compute. split; [discriminate|reflexivity]. Qed.
(* the domain of the re-read theorems (caps_ok) is inhabited, and on it the reader model does return captions *)
Example C17_example_reread :
  let caps := [mkWcap (lit "ab") (10000000 # 1) (12000000 # 1); mkWcap (lit "cd  ef") (12000000 # 1) (13000000 # 1)] in
  SccRereadDoc.caps_ok caps /\ SccRereadDom.caps_ok_b caps = true /\ (exists o, reread_obs caps = Some o) /\ roundtrip_ok caps = true.
Proof.
  intros caps. split; [|split; [vm_compute; reflexivity|]].
  2: { (* one run of the reader serves both claims *)
       evar (o : list (Q * str)).
       assert (E : reread_obs caps = Some o) by (subst o; vm_compute; reflexivity).
       split; [exists o; exact E|]. unfold roundtrip_ok. rewrite E. subst o. vm_compute. reflexivity. }
  split; [repeat constructor|split; [vm_compute; intuition discriminate|split]].
  - repeat constructor; vm_compute; discriminate.
  - repeat constructor.
Qed.
(* a cue that ends after the next one starts lies inside the domain of the re-read theorems (not inside caps_spaced) *)
Example C17_example_reread_overlapping_end :
  let caps := [mkWcap (lit "ab") (10000000 # 1) (12500000 # 1); mkWcap (lit "cd") (12000000 # 1) (13000000 # 1)] in
  SccRereadDoc.caps_ok caps /\ SccRereadDom.caps_ok_b caps = true /\ roundtrip_ok caps = true.
Proof.
  split; [|split; vm_compute; reflexivity].
  split; [repeat constructor|split; [vm_compute; intuition discriminate|split]].
  - repeat constructor; vm_compute; discriminate.
  - repeat constructor.
Qed.
(* C17_reader_on_load_line on one concrete two-row load line: its hypotheses hold (basic rows 14..15, the two clock readings
   exist) and the reader model, run by computation from the initial state, queues a buffer with the rows' words at the
   instant of word n+6 *)
Example C17_example_reader_on_load_line :
  let lines := [lit "ab"; lit "cd e"] in
  let tc := lit "00:00:10:00" in
  let n := Z.of_nat (length (flat_map roww (number_rows 14 lines))) in
  let s := translate_line (SccRereadLoad.ST creator0 creator0 0 stash0 tracker0 LNone false [] None 0 (lit "00:00:00;00") 0)
                          (tc, SccRereadLoad.load_words 14 lines) in
  Forall (fun line => forallb is_basic line = true) lines /\ n = 7%Z /\
  (exists t1 t2, get_time tc (n + 4) 0 = Ok t1 /\ get_time tc (n + 6) 0 = Ok t2 /\
     r_err s = None /\ r_frames s = (n + 8)%Z /\
     match r_queue s with
     | Some (c, t) => t = t2 /\ words (SccRereadNodes.ntext (cr_nodes c)) = [lit "ab"; lit "cd"; lit "e"]
     | None => False
     end).
Proof.
  intros lines tc n s. split; [repeat constructor|]. split; [vm_compute; reflexivity|].
  eexists _, _. split; [vm_compute; reflexivity|]. split; [vm_compute; reflexivity|]. vm_compute. repeat split.
Qed.
