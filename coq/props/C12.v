(* C12 - Positioning survives DFXP round trips and maps faithfully to WebVTT settings.
   Only statements closed by `exact`, each followed by Print Assumptions; Examples show non-vacuity. *)
From Coq Require Import List ZArith QArith Qabs Bool.
From PV Require Import lib.Sx lib.Str lib.Result model.Geometry model.Positioning spec.SpecGeom spec.SpecPos.
From PV Require Import model.DfxpTree.
From PV Require Import proofs.GeomEq proofs.PosFacts proofs.Pos12Facts proofs.DfxpTreeFacts.
Import ListNotations.
Open Scope Z_scope.

(* ---- WebVTT cue settings ----------------------------------------------------------------------------------- *)
(* for every percentage layout with an origin: position = x + left padding, line = y + top padding,
   size = width - left padding - right padding (when there is an extent), all percentages *)
Theorem C12_vtt_settings_arith : forall l org, all_pct l = true -> l_origin l = Some org ->
  exists pos line wd,
    vtt_arith l = Ok (VSet (mkVs (vtt_align (l_alignment l)) pos line wd))
    /\ is_pct_val pos (s_val (p_x org) + pad_of pd_start l)
    /\ is_pct_val line (s_val (p_y org) + pad_of pd_before l)
    /\ match l_extent l with
       | Some e => is_pct_val wd (s_val (st_h e) - pad_of pd_start l - pad_of pd_end l)
       | None => wd = None
       end.
Proof. exact vtt_arith_exact. Qed.
Print Assumptions C12_vtt_settings_arith.

(* align is omitted iff the horizontal alignment is center (absent alignment: start) - and with the arithmetic above
   this is the check's oracle *)
Theorem C12_vtt_settings_meet_oracle : forall l, all_pct l = true -> l_origin l <> None ->
  exists s, vtt_arith l = Ok (VSet s) /\ ok_vtt_arith l s = true /\ vs_all_pct s = true.
Proof. exact ok_vtt_arith_model. Qed.
Print Assumptions C12_vtt_settings_meet_oracle.

(* WebVTTWriter._convert_positioning on a percentage layout IS that arithmetic (relativize on or off) ... *)
Theorem C12_vtt_writer_relative : forall c l, layout_truthy l = true -> (l_webvtt l = None \/ l_webvtt l = Some []) ->
  all_pct l = true -> w_fit c = false -> vtt_convert_positioning c (Some l) = vtt_arith l.
Proof. exact vtt_convert_relative. Qed.
Print Assumptions C12_vtt_writer_relative.

(* ... and with fit_to_screen on, the same arithmetic on the fitted layout *)
Theorem C12_vtt_writer_relative_fit : forall c l, layout_truthy l = true -> (l_webvtt l = None \/ l_webvtt l = Some []) ->
  all_pct l = true -> w_fit c = true ->
  exists l2, layout_fit (mkLayout (l_origin l) (l_extent l) (l_padding l) (l_alignment l) (if w_rel c then None else l_webvtt l)) = Ok l2
             /\ all_pct l2 = true /\ vtt_convert_positioning c (Some l) = vtt_arith l2.
Proof. exact vtt_convert_relative_fit. Qed.
Print Assumptions C12_vtt_writer_relative_fit.

(* cue settings read from a WebVTT file (Layout.webvtt_positioning) are written back verbatim, in every configuration *)
Theorem C12_vtt_settings_verbatim : forall c l ch raw, l_webvtt l = Some (ch :: raw) ->
  vtt_convert_positioning c (Some l) = Ok (VRaw (ch :: raw)).
Proof. exact vtt_settings_verbatim. Qed.
Print Assumptions C12_vtt_settings_verbatim.

(* nodes of one caption with different layouts become separate cues: one cue per maximal run of equal layouts *)
Theorem C12_vtt_split_by_layout : forall ls, forallb layout_truthy ls = true ->
  vtt_groups (map text_node ls) = map Some (runs_last ls).
Proof. exact vtt_split_by_layout. Qed.
Print Assumptions C12_vtt_split_by_layout.

(* the same on arbitrary node lists: BREAK nodes, styled and empty STYLE nodes anywhere between and around the text nodes
   (the shape of every generated multi-line caption); hypotheses: every text node carries a layout, at least one text, and
   every positioned span (STYLE START node with a layout) opens on a text node of its own layout - the writer lets such a
   span open the next cue (C12_vtt_span_opens_next_group), so with this hypothesis the cues are still the runs of text layouts *)
Theorem C12_vtt_split_by_layout_general : forall nodes, texts_have_layouts nodes -> spans_follow nodes -> text_layouts nodes <> [] ->
  vtt_groups nodes = map Some (runs_last (text_layouts nodes)).
Proof. exact vtt_split_by_layout_general. Qed.
Print Assumptions C12_vtt_split_by_layout_general.

(* a positioned span after text of another layout: the text's group is closed at the span's START node and the span
   (tag included) opens the next cue, positioned by the span's layout *)
Theorem C12_vtt_span_opens_next_group : forall k a l t, style_start k = true -> layout_truthy a = true -> layout_truthy l = true ->
  layout_eqb l a = false ->
  vtt_groups_aux (mkNode k (Some l) :: t) true (Some a) = Some a :: vtt_groups_aux t (style_tags k) (Some l).
Proof. exact vtt_span_opens_next_group. Qed.
Print Assumptions C12_vtt_span_opens_next_group.

(* facts about the spec functions runs_last / runs_members (what "one cue per maximal run" means): *)
Theorem C12_vtt_cues_adjacent_distinct : forall ls, adj_distinct (runs_last ls).
Proof. exact runs_last_adjacent_distinct. Qed.
Print Assumptions C12_vtt_cues_adjacent_distinct.

Theorem C12_vtt_cues_partition : forall ls,
  concat (runs_members ls) = ls /\ length (runs_members ls) = length (runs_last ls).
Proof. exact runs_partition. Qed.
Print Assumptions C12_vtt_cues_partition.

(* ---- DFXP ------------------------------------------------------------------------------------------------------- *)
(* effective layout: node level, else caption level, else language level (Python truthiness of Layout) *)
Theorem C12_effective_fallback : forall g l c n,
  (opt_layout_truthy n = true -> dfxp_choice g l c n = n)
  /\ (opt_layout_truthy n = false -> opt_layout_truthy c = true -> dfxp_choice g l c n = c)
  /\ (opt_layout_truthy n = false -> opt_layout_truthy c = false -> opt_layout_truthy l = true -> dfxp_choice g l c n = l).
Proof. exact dfxp_choice_priority. Qed.
Print Assumptions C12_effective_fallback.

Theorem C12_effective_is_spec : forall l c n,
  expected_effective l c n =
  match dfxp_choice None l c n with
  | Some e => if layout_truthy e && has_region e then spec_read_back e else spec_default_read
  | None => spec_default_read
  end.
Proof. exact dfxp_choice_is_spec. Qed.
Print Assumptions C12_effective_is_spec.

(* the region table (keyed on layout equality/hashing, C18): every layout that occurs finds the region created from
   an equal layout, and two layouts never share a created region unless they are equal *)
Theorem C12_region_lookup_total : forall ls l, In (Some l) ls -> has_region l = true ->
  layout_eqb l dfxp_default_region = false ->
  exists k id, In (k, RId id) (region_map ls) /\ layout_eqb k l = true /\ region_lookup (region_map ls) (Some l) = RId id.
Proof. exact region_lookup_total. Qed.
Print Assumptions C12_region_lookup_total.

Theorem C12_region_lookup_no_collision : forall ls l l' i,
  region_lookup (region_map ls) (Some l) = RId i -> region_lookup (region_map ls) (Some l') = RId i ->
  layout_eqb l l' = true.
Proof. exact region_lookup_faithful. Qed.
Print Assumptions C12_region_lookup_no_collision.

(* region attributes written from a layout and resolved by the reader: two-decimal values, defaults start / after *)
Theorem C12_dfxp_attr_roundtrip : forall l, nonneg_layout l ->
  exists r, read_region (layout_attrs l) = Ok r /\ layout_equiv r (spec_read_back l).
Proof. exact dfxp_attr_roundtrip. Qed.
Print Assumptions C12_dfxp_attr_roundtrip.

(* Per character (the tree-level theorem C12_dfxp_layout_roundtrip below subsumes it, nested
   spans included where the writer's flattening is harmless).  Decided by execution only: BeautifulSoup's parse of
   the written text, deeper or repeated nesting, and that the tree model is what the code does (harness request 1210, every run):
     forall cs in dom, forall visible character ch of cs,
       effective (DFXPReader.read (DFXPWriter.write cs)) ch  ==  expected_effective (lang, caption, node layout of ch in transform cs)
   Proved part: for one character, the layout the writer chooses for it (get_positioning_info), written as region
   attributes (_convert_layout_to_attributes) and resolved by the reader (scrape_positioning_info), is the expected one. *)
Theorem C12_dfxp_layout_roundtrip_partial : forall l c n e,
  dfxp_choice None l c n = Some e -> layout_truthy e = true -> has_region e = true -> nonneg_layout e ->
  exists r, read_region (layout_attrs e) = Ok r /\ layout_equiv r (expected_effective l c n).
Proof. exact dfxp_layout_roundtrip_char. Qed.
Print Assumptions C12_dfxp_layout_roundtrip_partial.

(* ---- the DFXP round trip over the document tree (model/DfxpTree.v) ------------------------------------------------- *)
(* reader: an element without a region attribute takes the region of its NEAREST ancestor that has one - ancestors
   without the attribute are skipped, ancestors further out and descendants are not consulted *)
Theorem C12_nearest_ancestor_wins : forall pre r outer ds,
  Forall (fun a => a = None) pre -> determine_region None (pre ++ Some r :: outer) ds = Some r.
Proof. exact nearest_ancestor_wins. Qed.
Print Assumptions C12_nearest_ancestor_wins.

(* a <span> without region inside <p region=rp> inside <div region=rd> resolves to the p's region, not the div's *)
Theorem C12_span_resolves_to_p : forall rp rd ds, determine_region None [Some rp; Some rd] ds = Some rp.
Proof. exact span_resolves_to_p. Qed.
Print Assumptions C12_span_resolves_to_p.

(* what the reader resolves for the region id the writer assigned to a layout of the caption set *)
Theorem C12_resolve_written_region : forall ls o, (o = None \/ In o ls) -> opt_nonneg o ->
  exists r, resolve (map (fun kv => (snd kv, layout_attrs (fst kv))) (region_map ls)) (Some (region_lookup (region_map ls) o)) = Ok r
            /\ layout_equiv r (exp_of o).
Proof. exact resolve_written_region. Qed.
Print Assumptions C12_resolve_written_region.

(* TREE LEVEL: for every caption set whose captions consist of words, breaks, style spans with or without a layout of
   their own, and NESTED style spans (GNest: a span holding words, one inner span, words) on the domain where the writer's
   flattening is harmless (lang_harmless: the outer span carries no layout, or nothing follows the inner span inside the outer
   one and the inner span has a layout of its own or is not written as a <span>), with layouts at language / caption / span
   level (non-negative lengths): the model of DFXPWriter.write (region table, region attributes on div / p / span, span
   assembly from the flat node list - an inner span start closes the outer span, a style end closes whatever is open)
   followed by the model of the reader (region resolution, tree walk) gives the language, every caption and EVERY WORD the
   statement's expected effective layout: nearest enclosing span with a layout > caption > language, two-decimal values,
   defaults start / after.  Outside that domain the statement fails: C12_ex_nested_refuted. *)
Theorem C12_dfxp_layout_roundtrip : forall langs, Forall opt_nonneg (set_layouts (map to_dlang langs)) ->
  Forall lang_harmless langs ->
  exists obs, dfxp_roundtrip None (map to_dlang langs) = Ok obs /\ Forall2 lang_rel obs langs.
Proof. exact dfxp_layout_roundtrip. Qed.
Print Assumptions C12_dfxp_layout_roundtrip.

(* ---- non-vacuity -------------------------------------------------------------------------------------------- *)
Example C12_ex_vtt :
  let s v := mkSize v PCT in
  vtt_convert_positioning (mkCfg false false None None)
    (Some (mkLayout (Some (mkPoint (s (10 # 1)) (s (20 # 1)))) (Some (mkStretch (s (50 # 1)) (s (10 # 1))))
                    (Some (mkPadding (s (1 # 1)) (s (2 # 1)) (s (3 # 1)) (s (4 # 1)))) (Some (mkAlign (Some HRight) None)) None))
  = Ok (VSet (mkVs (Some HRight) (Some (s (13 # 1))) (Some (s (21 # 1))) (Some (s (43 # 1))))).
Proof. vm_compute. reflexivity. Qed.
Example C12_ex_center_omitted :
  vtt_align (Some (mkAlign (Some HCenter) (Some VTop))) = None /\ vtt_align None = Some HStart.
Proof. split; reflexivity. Qed.
Example C12_ex_split :
  let l v := mkLayout (Some (mkPoint (mkSize v PCT) (mkSize v PCT))) None None None None in
  vtt_groups [mkNode 1 (Some (l (1 # 1))); mkNode 3 None; mkNode 1 (Some (l (2 # 2))); mkNode 1 (Some (l (5 # 1)))]
  = [Some (l (2 # 2)); Some (l (5 # 1))].
Proof. vm_compute. reflexivity. Qed.
Example C12_ex_dfxp :
  let s v := mkSize v PCT in
  let lang := mkLayout (Some (mkPoint (s (10 # 1)) (s (10 # 1)))) None None None None in
  let node := mkLayout (Some (mkPoint (s (12345 # 1000)) (s (50 # 1)))) None None (Some (mkAlign (Some HLeft) None)) None in
  expected_effective (Some lang) None None
  = mkLayout (Some (mkPoint (round2 (s (10 # 1))) (round2 (s (10 # 1))))) None None (Some (mkAlign (Some HStart) (Some VBottom))) None
  /\ read_region (layout_attrs node)
     = Ok (mkLayout (Some (mkPoint (s (617 # 50)) (s (50 # 1)))) None None (Some (mkAlign (Some HLeft) (Some VBottom))) None).
Proof. split; vm_compute; reflexivity. Qed.

(* and the check's oracle for the round trip (values within 1/200 of the exact ones, defaults filled) accepts it *)
Theorem C12_dfxp_roundtrip_meets_oracle : forall l c n e,
  dfxp_choice None l c n = Some e -> layout_truthy e = true -> has_region e = true -> nonneg_layout e ->
  exists r, read_region (layout_attrs e) = Ok r /\ ok_effective l c n (Some r) = true.
Proof. exact ok_effective_model. Qed.
Print Assumptions C12_dfxp_roundtrip_meets_oracle.
Example C12_ex_tree :
  let s v := mkSize v PCT in
  let lang := mkLayout (Some (mkPoint (s (10 # 1)) (s (10 # 1)))) None None None None in
  let cap := mkLayout (Some (mkPoint (s (20 # 1)) (s (60 # 1)))) None None None None in
  (* <div region=r0><p region=r1>1 <span italic>2</span></p></div>: word 2 (span without region) gets the caption's layout *)
  match dfxp_roundtrip None [to_dlang (mkGlang (Some lang) [mkGcap (Some cap) [GPlain (GWord 1); GSpan true None [GWord 2]]])] with
  | Ok [rl] => match rl_caps rl with
               | [rc] => map (fun wl => (fst wl, l_origin (snd wl))) (rc_words rc)
                         = [(1, Some (mkPoint (s (20 # 1)) (s (60 # 1)))); (2, Some (mkPoint (s (20 # 1)) (s (60 # 1))))]
               | _ => False end
  | _ => False
  end.
Proof. vm_compute. reflexivity. Qed.
(* a span whose own layout is exactly the DFXP default (alignment start / after only) inside a caption that has a layout:
   the span still gets region="bottom", so its word comes back with the defaults, not with the caption's origin *)
Example C12_ex_default_span :
  let s v := mkSize v PCT in
  let cap := mkLayout (Some (mkPoint (s (20 # 1)) (s (60 # 1)))) None None (Some (mkAlign (Some HCenter) (Some VTop))) None in
  match write_doc None [to_dlang (mkGlang None [mkGcap (Some cap) [GPlain (GWord 1); GSpan true (Some dfxp_default_region) [GWord 2]]])] with
  | mkXdoc _ [mkXdiv _ [mkXp (Some (RId 0)) [XText 1; XSpan (Some RDefault) [XText 2]]]] => True
  | _ => False
  end
  /\ match dfxp_roundtrip None [to_dlang (mkGlang None [mkGcap (Some cap) [GPlain (GWord 1); GSpan true (Some dfxp_default_region) [GWord 2]]])] with
     | Ok [rl] => match rl_caps rl with
                  | [rc] => map (fun wl => (fst wl, l_origin (snd wl), l_alignment (snd wl))) (rc_words rc)
                            = [(1, Some (mkPoint (s (20 # 1)) (s (60 # 1))), Some (mkAlign (Some HCenter) (Some VTop)));
                               (2, None, Some (mkAlign (Some HStart) (Some VBottom)))]
                  | _ => False end
     | _ => False
     end.
Proof. split; vm_compute; [exact I|reflexivity]. Qed.

(* an instance of C12_vtt_split_by_layout_general with BREAK and STYLE nodes between the texts *)
Example C12_ex_split_general :
  let l v := mkLayout (Some (mkPoint (mkSize v PCT) (mkSize v PCT))) None None None None in
  let nodes := [mkNode 2 None; mkNode 1 (Some (l (1 # 1))); mkNode 2 None; mkNode 3 None; mkNode 1 (Some (l (2 # 2)));
                mkNode 3 (Some (l (9 # 1))); mkNode 4 None; mkNode 1 (Some (l (5 # 1)))] in
  text_layouts nodes = [l (1 # 1); l (2 # 2); l (5 # 1)]
  /\ vtt_groups nodes = [Some (l (2 # 2)); Some (l (5 # 1))]
  /\ runs_last (text_layouts nodes) = [l (2 # 2); l (5 # 1)].
Proof. vm_compute. repeat split. Qed.
(* a caption of styled STYLE nodes only still gives one cue (the tags make the cue text non-empty) *)
Example C12_ex_style_only : vtt_groups [mkNode 2 None; mkNode 5 None] = [None] /\ vtt_groups [mkNode 4 None; mkNode 6 None] = [].
Proof. split; reflexivity. Qed.
(* positioned spans: text aa (layout 1), break, <i> span with layout 2 holding text bb.
   - bb carries the span's layout (what the readers produce): two cues, the span opens the second one;
   - bb carries no layout of its own (known finding C12-vtt-span-layout-ignored): THREE groups - aa, a cue holding only the
     opening tag (the span's layout), and bb with the closing tag positioned by the caption's / language's layout;
   - bb carries the layout of aa although its span has layout 2: three groups as well (outside spans_follow) *)
Example C12_ex_span_groups :
  let l v := mkLayout (Some (mkPoint (mkSize v PCT) (mkSize v PCT))) None None None None in
  let nodes b := [mkNode 1 (Some (l (1 # 1))); mkNode 3 None; mkNode 2 (Some (l (2 # 1))); mkNode 1 b; mkNode 5 (Some (l (2 # 1)))] in
  vtt_groups (nodes (Some (l (2 # 1)))) = [Some (l (1 # 1)); Some (l (2 # 1))]
  /\ vtt_groups (nodes None) = [Some (l (1 # 1)); Some (l (2 # 1)); None]
  /\ vtt_groups (nodes (Some (l (1 # 1)))) = [Some (l (1 # 1)); Some (l (2 # 1)); Some (l (1 # 1))]
  /\ spans_follow (nodes (Some (l (2 # 1)))).
Proof.
  intros l nodes.
  split; [vm_compute; reflexivity|]. split; [vm_compute; reflexivity|]. split; [vm_compute; reflexivity|].
  cbn [spans_follow nodes n_kind n_layout style_start Z.eqb Pos.eqb]. repeat split.
  - intros N1. exfalso. apply N1. reflexivity.
  - intros _ N3. exfalso. apply N3. reflexivity.
  - intros _ _ _ l0 E _. injection E as <-. eexists. split; reflexivity.
  - intros N1. exfalso. apply N1. reflexivity.
  - intros _ _ H. discriminate H.
Qed.
(* set-level layout: found only when an equal layout has a region *)
Example C12_ex_set_level :
  let s v := mkSize v PCT in
  let g := mkLayout (Some (mkPoint (s (40 # 1)) (s (40 # 1)))) None None None None in
  let en := mkDlang None [mkDcap None [mkD 1 false false None 0]] in
  let fr := mkDlang None [mkDcap (Some g) [mkD 1 false false None 1]] in
  match dfxp_roundtrip (Some g) [en], dfxp_roundtrip (Some g) [en; fr] with
  | Ok [a], Ok [b; _] =>
      map (fun c => map (fun wl => l_origin (snd wl)) (rc_words c)) (rl_caps a) = [[None]]
      /\ map (fun c => map (fun wl => l_origin (snd wl)) (rc_words c)) (rl_caps b) = [[Some (mkPoint (s (40 # 1)) (s (40 # 1)))]]
  | _, _ => False
  end.
Proof. vm_compute. split; reflexivity. Qed.

(* nested spans.  Outer span with layout A holding: word 1, an inner span, word 3 (caption layout C).
   - harmless instance of the theorem's domain (inner span with its own layout B, nothing after it): words 1, 2 come back at A, B;
   - known finding C12-dfxp-nested-span-layout, REFUTED instance (inner styled span without a layout, word 3 after it): the
     inner start closes the outer span, so words 2 and 3 come back with the CAPTION's origin (20 60), not the outer span's (30 5)
     that the statement expects for them *)
Example C12_ex_nested_refuted :
  let s v := mkSize v PCT in
  let A := mkLayout (Some (mkPoint (s (30 # 1)) (s (5 # 1)))) None None None None in
  let B := mkLayout (Some (mkPoint (s (45 # 1)) (s (45 # 1)))) None None None None in
  let C := mkLayout (Some (mkPoint (s (20 # 1)) (s (60 # 1)))) None None None None in
  let origins rs := match rs with Ok [rl] => map (fun c => map (fun wl => (fst wl, l_origin (snd wl))) (rc_words c)) (rl_caps rl) | _ => [] end in
  let good := mkGlang None [mkGcap (Some C) [GNest true (Some A) [GWord 1] true (Some B) [GWord 2] []]] in
  let bad := mkGlang None [mkGcap (Some C) [GNest true (Some A) [GWord 1] true None [GWord 2] [GWord 3]]] in
  lang_harmless good
  /\ origins (dfxp_roundtrip None [to_dlang good]) = [[(1, l_origin A); (2, l_origin B)]]
  /\ ~ lang_harmless bad
  /\ origins (dfxp_roundtrip None [to_dlang bad]) = [[(1, l_origin A); (2, l_origin C); (3, l_origin C)]]
  /\ map (fun wl => (fst wl, l_origin (snd wl))) (flat_map (seg_expected None (Some C)) (gc_segs (mkGcap (Some C) [GNest true (Some A) [GWord 1] true None [GWord 2] [GWord 3]])))
     = (let oa := Some (mkPoint (s (3000 # 100)) (s (500 # 100))) in [(1, oa); (2, oa); (3, oa)]).   (* 30.00 5.00: A's origin *)
Proof.
  split; [constructor; [constructor; [right; split; [reflexivity|left; reflexivity]|constructor]|constructor]|].
  split; [vm_compute; reflexivity|].
  split.
  - intros H. inversion H as [|? ? H1 _]; subst. inversion H1 as [|? ? H2 _]; subst. cbn in H2.
    destruct H2 as [H2|[H2 _]]; discriminate H2.
  - split; vm_compute; reflexivity.
Qed.

(* ==== RegionCreator's bookkeeping and cleanup_regions ================================================== *)
From PV Require Import model.DfxpClean proofs.Pos12RegionFacts proofs.Pos12CleanFacts.

(* congruence lemma about the model's lookup (List.find keyed on layout_eqb; there is no hash in the model of _region_map:
   that dict.get behaves like this rests on C18's eq/hash theorems and on execution): equal layouts get the same region in
   any table.  Auxiliary (_unfold), not a property theorem. *)
Theorem C12_region_lookup_respects_eq_unfold : forall m a b, layout_eqb a b = true ->
  region_lookup m (Some a) = region_lookup m (Some b).
Proof. exact region_lookup_compat. Qed.
Print Assumptions C12_region_lookup_respects_eq_unfold.

(* layouts of the caption set that need a region share one EXACTLY when they are equal: deduplication is complete
   (equal layouts never get two regions) and sound (different layouts never land in one region, the default included) *)
Theorem C12_region_shared_iff_equal : forall ls a b, In (Some a) ls -> In (Some b) ls -> has_region a = true -> has_region b = true ->
  (region_lookup (region_map ls) (Some a) = region_lookup (region_map ls) (Some b) <-> layout_eqb a b = true).
Proof. exact region_shared_iff_equal. Qed.
Print Assumptions C12_region_shared_iff_equal.

(* the table itself: no two entries are made from equal layouts (default region included) ... *)
Theorem C12_region_keys_pairwise_different : forall ls, ldistinct (map fst (region_map ls)).
Proof. exact region_map_keys_distinct. Qed.
Print Assumptions C12_region_keys_pairwise_different.

(* ... the ids are r0, r1, ..., r(n-1) in creation order without gap or repetition, then the default region (read off the
   definition of number_regions; the real ids are compared up to renaming only: auxiliary, _unfold) ... *)
Theorem C12_region_ids_sequential_unfold : forall ls,
  map snd (region_map ls) = map (fun n => RId (Z.of_nat n)) (seq 0 (length (created_keys ls))) ++ [RDefault].
Proof. exact region_map_ids. Qed.
Print Assumptions C12_region_ids_sequential_unfold.

(* ... and every created region comes from a layout that occurs in the caption set, has some positioning part and is
   not the default region *)
Theorem C12_region_created_from_occurring_layouts : forall ls k, In k (created_keys ls) ->
  In (Some k) ls /\ has_region k = true /\ layout_eqb k dfxp_default_region = false.
Proof. exact created_keys_occur. Qed.
Print Assumptions C12_region_created_from_occurring_layouts.

(* cleanup_regions (unreferenced <region>s are removed before the document is printed): for EVERY document the reader's
   result is unchanged - the reader only ever resolves ids that occur as region attributes (own / ancestor / descendant) *)
Theorem C12_cleanup_keeps_readback : forall d, read_doc (cleanup_regions d) = read_doc d.
Proof. exact cleanup_read_invariant. Qed.
Print Assumptions C12_cleanup_keeps_readback.

(* the written document: its <region> elements are exactly the regions its div / p / span elements refer to - no
   dangling reference (the failure that silently lands a caption in the default region), no orphan region *)
Theorem C12_written_regions_exact : forall g s r,
  In r (doc_refs (write_doc g s)) <-> exists a, In (r, a) (x_regions (write_doc_clean g s)).
Proof. exact written_regions_exact. Qed.
Print Assumptions C12_written_regions_exact.

Theorem C12_written_region_ids_unique : forall g s id a b,
  In (id, a) (x_regions (write_doc_clean g s)) -> In (id, b) (x_regions (write_doc_clean g s)) -> a = b.
Proof. exact clean_region_ids_unique. Qed.
Print Assumptions C12_written_region_ids_unique.

(* COROLLARY (one rewrite with C12_cleanup_keeps_readback from C12_dfxp_layout_roundtrip; not a separate result): the
   tree-level round trip on the document AS WRITTEN (region table, body, cleanup) - the document harness request 1211 compares with
   the real one *)
Theorem C12_dfxp_layout_roundtrip_written_corollary : forall langs, Forall opt_nonneg (set_layouts (map to_dlang langs)) ->
  Forall lang_harmless langs ->
  exists obs, dfxp_roundtrip_clean None (map to_dlang langs) = Ok obs /\ Forall2 lang_rel obs langs.
Proof. exact dfxp_layout_roundtrip_clean. Qed.
Print Assumptions C12_dfxp_layout_roundtrip_written_corollary.

(* region table of [A; A written as 2/4; B; the default region; a BREAK-node layout C]: A and its twin share r0, the
   default region gets no new region; in the document a region nobody refers to (C, carried by a break node only) is
   removed by the cleanup, r0 and r1 stay *)
Example C12_ex_region_table :
  let s v := mkSize v PCT in
  let A := mkLayout (Some (mkPoint (s (1 # 2)) (s (10 # 1)))) None None None None in
  let A' := mkLayout (Some (mkPoint (s (2 # 4)) (s (20 # 2)))) None None None (Some (lit "line:1")) in
  let B := mkLayout (Some (mkPoint (s (30 # 1)) (s (5 # 1)))) None None None None in
  let C := mkLayout (Some (mkPoint (s (70 # 1)) (s (70 # 1)))) None None None None in
  region_map [Some A; Some A'; None; Some B; Some dfxp_default_region] = [(A, RId 0); (B, RId 1); (dfxp_default_region, RDefault)]
  /\ region_lookup (region_map [Some A; Some A'; Some B]) (Some A') = RId 0
  /\ (let doc := write_doc None [mkDlang (Some A) [mkDcap (Some B) [mkD 1 false false None 1; mkD 3 false false (Some C) 0;
                                                                   mkD 2 true true (Some A') 0; mkD 1 false false (Some A') 2]]] in
      map fst (x_regions doc) = [RId 0; RId 1; RId 2; RDefault]
      /\ map fst (x_regions (cleanup_regions doc)) = [RId 0; RId 1]
      /\ doc_refs doc = [RId 0; RId 1; RId 0]).
Proof. vm_compute. repeat split. Qed.

(* ==== "cue settings read from a WebVTT file are written back verbatim" - the READER's side =================== *)
From PV Require Import model.TimeRead model.VttSettings proofs.Pos12VttSettingsFacts.

(* a timing line  <token> <blanks> --> <blanks> <token> <blanks> <settings> <trailing blanks> : the reader keeps exactly
   <settings> (any text without white space at its two ends: inner blanks and tabs, commas, upper case, unknown keys) as
   Layout.webvtt_positioning; vtt_cue_settings is the function TIMING_LINE_PATTERN's group 3 computes (harness request 1213) *)
Theorem C12_vtt_reader_keeps_settings : forall t1 t2 w1 w2 w3 s w4,
  token t1 -> token t2 -> blanks w1 -> blanks w2 -> blanks w3 -> forallb is_space w4 = true -> clean_settings s ->
  vtt_cue_settings (t1 ++ w1 ++ arrow ++ w2 ++ t2 ++ w3 ++ s ++ w4) = Some (Some s).
Proof. intros t1 t2 w1 w2 w3 s w4 T1 T2 W1 W2. exact (reader_keeps_settings t1 t2 w1 w2 T1 T2 W1 W2 w3 s w4). Qed.
Print Assumptions C12_vtt_reader_keeps_settings.

(* nothing, or white space only, after the end time: no layout *)
Theorem C12_vtt_reader_no_settings : forall t1 t2 w1 w2 w4,
  token t1 -> token t2 -> blanks w1 -> blanks w2 -> forallb is_space w4 = true ->
  vtt_cue_settings (t1 ++ w1 ++ arrow ++ w2 ++ t2 ++ w4) = Some None.
Proof. intros t1 t2 w1 w2 w4 T1 T2 W1 W2. exact (reader_no_settings t1 t2 w1 w2 T1 T2 W1 W2 w4). Qed.
Print Assumptions C12_vtt_reader_no_settings.

(* whatever the reader keeps has no white space at either end ... *)
Theorem C12_vtt_reader_settings_clean : forall line s, vtt_cue_settings line = Some (Some s) -> clean_settings s.
Proof. exact reader_settings_clean. Qed.
Print Assumptions C12_vtt_reader_settings_clean.

(* ... so read -> write -> read is the identity on cue settings: the timing line the writer prints for the settings read
   from ANY line (C12_vtt_settings_verbatim: " " + the raw string after the time stamps) reads back as the same settings *)
Theorem C12_vtt_settings_read_write_read : forall line s ts1 ts2, vtt_cue_settings line = Some (Some s) -> token ts1 -> token ts2 ->
  vtt_cue_settings (vtt_timing_text ts1 ts2 (VRaw s)) = Some (Some s).
Proof. exact settings_read_write_read. Qed.
Print Assumptions C12_vtt_settings_read_write_read.

Example C12_ex_reader_settings :
  vtt_cue_settings (lit "00:01.000 --> 00:02.000  position:10%,start  Line:5%  ") = Some (Some (lit "position:10%,start  Line:5%"))
  /\ vtt_cue_settings (lit "00:01.000 --> 00:02.000   ") = Some None
  /\ vtt_cue_settings (lit "00:01.000-->00:02.000 a:b") = None
  /\ clean_settings (lit "position:10%,start  Line:5%") /\ token (lit "00:01.000") /\ blanks (lit "  ").
Proof.
  split; [vm_compute; reflexivity|]. split; [vm_compute; reflexivity|]. split; [vm_compute; reflexivity|].
  split; [|split; split; (discriminate || reflexivity)].
  exists 112, (lit "osition:10%,start  Line:5"). split; [right; exists 37; split; reflexivity|reflexivity].
Qed.

(* ==== tts:textAlign / tts:displayAlign at STRING level (model/DfxpAlign.v) ================================= *)
From PV Require Import model.DfxpAlign proofs.Pos12AlignFacts.

(* the names the writer prints read back as the same members; any other string gives no component *)
Theorem C12_alignment_names_roundtrip :
  (forall h, halign_of_name (halign_name h) = Some h) /\ (forall v, valign_of_name (valign_name v) = Some v)
  /\ (forall s h, halign_of_name s = Some h -> s = halign_name h) /\ (forall s v, valign_of_name s = Some v -> s = valign_name v).
Proof. exact (conj halign_name_roundtrip (conj valign_name_roundtrip (conj halign_of_name_some valign_of_name_some))). Qed.
Print Assumptions C12_alignment_names_roundtrip.

(* write then read at string level: what _create_external_alignment prints for ANY alignment (each component set or not,
   or no Alignment object) is read by scrape_positioning_info / from_horizontal_and_vertical_align as the same members,
   the absent ones as start / after - the alignment the enum-level read_region (C12_dfxp_attr_roundtrip) works with *)
Theorem C12_alignment_strings_roundtrip : forall a,
  read_alignment (fst (written_alignment a)) (snd (written_alignment a))
  = Some (mkAlign (Some (match a with Some al => match al_h al with Some h => h | None => HStart end | None => HStart end))
                  (Some (match a with Some al => match al_v al with Some v => v | None => VBottom end | None => VBottom end))).
Proof. exact alignment_strings_roundtrip. Qed.
Print Assumptions C12_alignment_strings_roundtrip.

Example C12_ex_alignment_strings :
  written_alignment (Some (mkAlign (Some HEnd) None)) = (Some (lit "end"), None)
  /\ read_alignment (Some (lit "end")) None = Some (mkAlign (Some HEnd) (Some VBottom))
  /\ read_alignment (Some (lit "justify")) (Some (lit "before")) = Some (mkAlign None (Some VTop))
  /\ read_alignment (Some (lit "LEFT")) (Some (lit "top")) = None.
Proof. vm_compute. repeat split. Qed.

(* ==== tts:textAlign carried by <p> / <span> and by styles (model/DfxpStyleAlign.v) =========================== *)
From PV Require Import model.DfxpStyleAlign proofs.Pos12StyleAlignFacts.

(* LayoutInfoScraper._find_attribute for tts:textAlign: the element's own attribute, else the first of its style sources
   with a value, else the NEAREST parent with a value (own or styled), else the region *)
Theorem C12_text_align_precedence :
  (forall v st parents region, find_text_align (Some (mkSrc (Some v) st)) parents region = Some v)
  /\ (forall pre c v post parents region, Forall (fun x => x = None) pre ->
        find_text_align (Some (mkSrc None (pre ++ Some (c :: v) :: post))) parents region = Some (c :: v))
  /\ (forall e pre p c v outer region, plain e -> Forall plain pre -> on_element_or_styles p = Some (c :: v) ->
        find_text_align (Some e) (pre ++ p :: outer) region = Some (c :: v))
  /\ (forall e parents region, plain e -> Forall plain parents ->
        find_text_align (Some e) parents region = on_element_or_styles region).
Proof. exact (conj own_attribute_wins (conj first_style_wins (conj nearest_parent_wins region_is_last))). Qed.
Print Assumptions C12_text_align_precedence.

(* written elements, PARTIAL: per element, not yet composed with the tree walk of C12_dfxp_layout_roundtrip_written_corollary (the
   full statement: for every caption set with caption / node styles carrying text-align, every word of
   read (write set) has horizontal alignment = the nearest text-align of its <span> / <p>, else its layout's; vertical
   alignment and origin / extent / padding as in C12_dfxp_layout_roundtrip_written_corollary).
   Proved: (a) an element with no text-align on itself and its parents reads back the alignment of the layout its region
   was made from, absent parts start / after - the hypothesis-free case of the tree theorem; (b) an element for which the
   lookup finds the name of t - own attribute from the caption style / style node, a style class, or the nearest styled
   ancestor - reads back horizontal t WHATEVER the layout's alignment says (also when a <span> has a region of its own),
   vertical from the layout *)
Theorem C12_dfxp_style_alignment_roundtrip_partial :
  (forall e parents a, plain e -> Forall plain parents ->
     element_alignment (Some e) parents (region_ta a) (region_da a) = Some (mkAlign (Some (h_of a)) (Some (v_of a))))
  /\ (forall e parents a t, find_text_align (Some e) parents (region_ta a) = Some (halign_name t) ->
        element_alignment (Some e) parents (region_ta a) (region_da a) = Some (mkAlign (Some t) (Some (v_of a)))).
Proof. exact (conj written_plain_alignment written_styled_alignment). Qed.
Print Assumptions C12_dfxp_style_alignment_roundtrip_partial.

(* <p tts:textAlign="center" region=r0> with r0 made from alignment (left, top), holding a <span region=r1> without
   text-align whose region says right: the span's words come back CENTER (the <p>'s attribute is found before the span's
   region), vertical from the span's region *)
Example C12_ex_style_alignment :
  let p := mkSrc (Some (lit "center")) [] in
  let span := mkSrc None [] in
  let a1 := Some (mkAlign (Some HRight) (Some VCenter)) in
  element_alignment (Some span) [p; mkSrc None []] (region_ta a1) (region_da a1) = Some (mkAlign (Some HCenter) (Some VCenter))
  /\ element_alignment (Some (mkSrc None [None; Some (lit "end")])) [p] (region_ta a1) (region_da a1) = Some (mkAlign (Some HEnd) (Some VCenter))
  /\ plain span.
Proof. vm_compute. repeat split; repeat constructor. Qed.

(* the link to the tree theorem: on an element without style-carried text-align (itself and its parents) the style-aware
   scraper gives exactly the alignment of read_region of the element's region - C12_dfxp_layout_roundtrip_written_corollary is the
   style-free instance of the style-aware reader; with a style in charge the two differ in the horizontal member only *)
From PV Require Import proofs.Pos12StyleLinkFacts.
Theorem C12_plain_element_is_read_region : forall e parents l r, plain e -> Forall plain parents ->
  read_region (layout_attrs l) = Ok r ->
  element_alignment (Some e) parents (region_ta (l_alignment l)) (region_da (l_alignment l)) = l_alignment r.
Proof. exact plain_element_is_read_region. Qed.
Print Assumptions C12_plain_element_is_read_region.

Theorem C12_styled_element_overrides_horizontal : forall e parents l r t,
  find_text_align (Some e) parents (region_ta (l_alignment l)) = Some (halign_name t) ->
  read_region (layout_attrs l) = Ok r ->
  element_alignment (Some e) parents (region_ta (l_alignment l)) (region_da (l_alignment l))
  = Some (mkAlign (Some t) (match l_alignment r with Some a => al_v a | None => None end)).
Proof. exact styled_element_overrides_h. Qed.
Print Assumptions C12_styled_element_overrides_horizontal.
