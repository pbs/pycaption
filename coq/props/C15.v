(* C15 - SCC lines longer than 32 characters are never returned silently.
   Model: model/SccLen.v (the scan at the end of SCCReader.read, after fix #5); spec: spec/SpecSccLen.v. *)
From Coq Require Import List ZArith Bool Permutation.
From Coq Require Import QArith.
From PV Require Import lib.Sx lib.Str lib.Result model.SccLen model.SccStash model.SccDecoder spec.SpecSccLen proofs.SccLenFacts proofs.SccReadLenFacts proofs.SccLenLooseFacts.
From PV Require Import model.SccTime model.SccPopon spec.SpecScc05 proofs.SccPoponStage1 proofs.SccPoponStage3 proofs.SccOrderFacts proofs.SccOrderLongFacts.
Import ListNotations.
Open Scope Z_scope.

(* for EVERY caption list: either the error, whose message names every offending line (and the lines it lists
   are exactly the offending ones, as a multiset), or every line of every caption has at most 32 characters *)
Theorem C15_length_check_sound_complete : forall caps,
  match length_check caps with
  | Some msg => offending caps <> [] /\
                (forall l, In l (offending caps) -> names msg l = true) /\
                Permutation (named_lines caps) (offending caps) /\
                msg = msg_head ++ render (scan caps)
  | None => forall c l, In c caps -> In l (spec_lines (snd c)) -> (length l <= 32)%nat
  end.
Proof. exact length_check_sound_complete. Qed.
Print Assumptions C15_length_check_sound_complete.

(* the model satisfies the decidable property oracle that the harness evaluates on the implementation *)
Theorem C15_length_check_meets_oracle : forall caps, ok_c15 caps (length_check caps) = true.
Proof. exact length_check_meets_oracle. Qed.
Print Assumptions C15_length_check_meets_oracle.

(* which outcome happens is a function of the line lengths alone (not of the start-time keys) *)
Theorem C15_length_check_lengths_only : forall caps,
  is_some (length_check caps) = must_raise (line_lengths caps).
Proof. exact length_check_lengths_only. Qed.
Print Assumptions C15_length_check_lengths_only.

Theorem C15_length_check_key_free : forall caps caps',
  line_lengths caps = line_lengths caps' -> is_some (length_check caps) = is_some (length_check caps').
Proof. exact length_check_key_free. Qed.
Print Assumptions C15_length_check_key_free.

(* ... nor of the order in which the captions were stored *)
Theorem C15_length_check_order_free : forall caps caps', Permutation caps caps' ->
  is_some (length_check caps) = is_some (length_check caps') /\
  Permutation (named_lines caps) (named_lines caps').
Proof. exact length_check_order_free. Qed.
Print Assumptions C15_length_check_order_free.

(* the oracle the harness evaluates on the implementation uses the weakest reading of "naming": the message contains the
   text of every offending line; it follows from the exact message format, so the model meets it as well *)
Theorem C15_ok_implies_loose : forall caps out, ok_c15 caps out = true -> ok_c15_loose caps out = true.
Proof. exact ok_c15_implies_loose. Qed.
Print Assumptions C15_ok_implies_loose.
Theorem C15_length_check_meets_loose_oracle : forall caps, ok_c15_loose caps (length_check caps) = true.
Proof. exact length_check_meets_loose_oracle. Qed.
Print Assumptions C15_length_check_meets_loose_oracle.

(* END TO END on the whole reader model (model/SccDecoder.v: every list of parsed lines (timecode, code words), every
   offset, simulate_roll_up = False; the text-level tokenisation of a line is outside the model). NOTE: this composes the
   scan with `finish_read` only; it holds whatever the decoder stores, so it says nothing about rows being lost on the
   way - that part is the decoder correspondence and, for pop-on programs, C05_popon_refines_608.
   read never returns a caption line longer than 32 characters, and the line-length error names every over-long line
   of the captions the decoder had stored *)
Theorem C15_read_never_silent : forall off ls,
  match read off ls with
  | ROk caps => forall c l, In c caps -> In l (spec_lines (cap_text c)) -> (length l <= 32)%nat
  | RLen msg => offending (stored_caps off ls) <> [] /\
                (forall l, In l (offending (stored_caps off ls)) -> names msg l = true) /\
                Permutation (named_lines (stored_caps off ls)) (offending (stored_caps off ls))
  | RErr _ => True
  end.
Proof. exact read_never_silent. Qed.
Print Assumptions C15_read_never_silent.

(* the code before fix #5 (`lines_too_long[start] = ...` on an existing key): a 34-character line is let through,
   and the outcome depends on the order *)
Theorem C15_length_overwrite_refuted :
  length_check_prefix wit_a = None /\ offending wit_a <> [] /\
  Permutation wit_a wit_b /\ is_some (length_check_prefix wit_b) = true.
Proof. exact length_overwrite_refuted. Qed.
Print Assumptions C15_length_overwrite_refuted.

(* the order clause at the level of the STREAM, on the whole decoder model, inside the domain of the pop-on refinement
   (load_wf: every row within 32 cells): two transmissions of a load that differ only in the order of its rows - they share
   a start time - are both read without the line-length error (same End-Of-Caption instant) and each satisfies the screen
   oracle of its own row order. For a load with an over-long row the staged simulation does not apply: there the order
   clause remains a correspondence obligation (the harness executes every order). *)
Theorem C15_popon_row_order_free : forall d l l' off tc tc2 t1 t2, Permutation l l' -> load_wf l = true ->
  get_time tc (Z.of_nat (length (emit_load d l)) - (if d then 2 else 1)) off = Ok t1 ->
  get_time tc2 0 off = Ok t2 -> (0 < t1)%Q -> (t1 < t2)%Q -> is_flash (mkPre t1 t2 [] None) = false ->
  exists caps caps',
    read off [(tc, emit_load d l); (tc2, emit_clear d)] = ROk caps /\
    read off [(tc, emit_load d l'); (tc2, emit_clear d)] = ROk caps' /\
    ok_c05 (mkProg d [l]) (Ok (map observe caps)) = true /\
    ok_c05 (mkProg d [l']) (Ok (map observe caps')) = true.
Proof. exact popon_row_order_free. Qed.
Print Assumptions C15_popon_row_order_free.
Example C15_popon_row_order_free_instance :
  exists caps caps',
    read 0 [(lit "00:00:01;00", emit_load true ord_a); (lit "00:00:05;00", emit_clear true)] = ROk caps /\
    read 0 [(lit "00:00:01;00", emit_load true ord_b); (lit "00:00:05;00", emit_clear true)] = ROk caps' /\
    ok_c05 (mkProg true [ord_a]) (Ok (map observe caps)) = true /\
    ok_c05 (mkProg true [ord_b]) (Ok (map observe caps')) = true.
Proof. exact popon_row_order_free_instance. Qed.

(* ... and WITH over-long rows, for the simplest shape of "captions sharing a start time": a pop-on load of plain rows
   (plain_load: column 0, no style, non-empty runs of visible basic characters of ANY length, row numbers pairwise at least
   two apart, so every row is its own caption), codes single or doubled. The whole decoder model raises the line-length
   error iff some row has more than 32 characters, whatever the order of the rows; the message names every over-long row;
   and the outcome depends only on the multiset of row lengths (different texts, rows, orders, timecodes, offsets). *)
Theorem C15_plain_load_outcome : forall d l off tc tc2 t1 t2, plain_load l = true ->
  get_time tc (Z.of_nat (length (emit_load d l)) - (if d then 2 else 1)) off = Ok t1 ->
  get_time tc2 0 off = Ok t2 -> (0 < t1)%Q -> (t1 < t2)%Q -> is_flash (mkPre t1 t2 [] None) = false ->
  let res := read off [(tc, emit_load d l); (tc2, emit_clear d)] in
  (existsb long_row l = false -> res = ROk (map (capL t1 t2) l)) /\
  (existsb long_row l = true ->
     exists msg, res = RLen msg /\
       forall r, In r l -> long_row r = true -> names msg (row_text r) = true /\ mentions msg (row_text r) = true).
Proof. exact plain_load_outcome. Qed.
Print Assumptions C15_plain_load_outcome.
Theorem C15_plain_load_order_free : forall d l l' off tc tc2 t1 t2, Permutation l l' -> plain_load l = true ->
  get_time tc (Z.of_nat (length (emit_load d l)) - (if d then 2 else 1)) off = Ok t1 ->
  get_time tc2 0 off = Ok t2 -> (0 < t1)%Q -> (t1 < t2)%Q -> is_flash (mkPre t1 t2 [] None) = false ->
  let res := read off [(tc, emit_load d l); (tc2, emit_clear d)] in
  let res' := read off [(tc, emit_load d l'); (tc2, emit_clear d)] in
  (raises res <-> raises res') /\ (returns res <-> returns res') /\
  (raises res <-> existsb long_row l = true) /\ (returns res <-> existsb long_row l = false).
Proof. exact plain_load_order_free. Qed.
Print Assumptions C15_plain_load_order_free.
Theorem C15_plain_load_lengths_only : forall d d' l l' off off' tc tc' tc2 tc2' t1 t2 t1' t2',
  plain_load l = true -> plain_load l' = true -> Permutation (row_lengths l) (row_lengths l') ->
  get_time tc (Z.of_nat (length (emit_load d l)) - (if d then 2 else 1)) off = Ok t1 ->
  get_time tc2 0 off = Ok t2 -> (0 < t1)%Q -> (t1 < t2)%Q -> is_flash (mkPre t1 t2 [] None) = false ->
  get_time tc' (Z.of_nat (length (emit_load d' l')) - (if d' then 2 else 1)) off' = Ok t1' ->
  get_time tc2' 0 off' = Ok t2' -> (0 < t1')%Q -> (t1' < t2')%Q -> is_flash (mkPre t1' t2' [] None) = false ->
  let res := read off [(tc, emit_load d l); (tc2, emit_clear d)] in
  let res' := read off' [(tc', emit_load d' l'); (tc2', emit_clear d')] in
  (raises res <-> raises res') /\ (returns res <-> returns res').
Proof. exact plain_load_lengths_only. Qed.
Print Assumptions C15_plain_load_lengths_only.
(* non-vacuity: a 34-character row on row 15 and "bc" on row 3, in both orders: both raise and name the long row *)
Example C15_long_order_instance :
  (exists m, read 0 [(lit "00:00:01;00", emit_load true long_a); (lit "00:00:05;00", emit_clear true)] = RLen m /\
             mentions m (repeat 97 34) = true) /\
  (exists m, read 0 [(lit "00:00:01;00", emit_load true long_b); (lit "00:00:05;00", emit_clear true)] = RLen m /\
             mentions m (repeat 97 34) = true).
Proof. exact long_order_instance. Qed.

(* non-vacuity of C15_read_never_silent: read yields both outcomes on concrete streams *)
Example C15_read_raises : exists m, read 0 (row_stream 17) = RLen m.
Proof. exact read_raises_on_34. Qed.
Example C15_read_returns : exists c, read 0 (row_stream 16) = ROk [c] /\ length (cap_text c) = 32%nat.
Proof. exact read_returns_32. Qed.

(* non-vacuity: both outcomes occur; two captions share a key *)
Example C15_example_raises :
  length_check wit_a = Some (msg_head ++ lit "around 00:00:02.002 - " ++ long34 ++ lit " - Length 34" ++ [10]).
Proof. vm_compute. reflexivity. Qed.
Example C15_example_passes :
  length_check [(lit "00:00:02.002", repeat 97 32 ++ [10] ++ repeat 98 32)] = None.
Proof. vm_compute. reflexivity. Qed.

(* ---- (this is NOT the order clause - inside load_wf no row is over-long, so the statement is
   only "no order of the rows makes the reader raise"; partial: hypotheses positive / after_show / expected_with = Ok / wseg_clock)
   the layout pycaption's own SCCWriter produces (Erase-Displayed-Memory inside the load
   line before its End-Of-Caption, rows incl. the indent-0 form of the preamble code): inside the domain of the pop-on
   refinement no order of the rows makes the reader raise; one hypothesis set serves both orders (the EDM and EOC words sit
   at the same indices). tcE / tcL: timecodes denoting the instants of the line's EDM word / of tc + (1 | 2) frames
   (they exist for rendered timecodes: C05_winline_clock) ------------------------------------------------------------- *)
From PV Require Import spec.SpecSccTime spec.SpecScc05Inline proofs.SccPoponFacts proofs.SccPoponStage6 proofs.SccPoponStage9 proofs.SccInlineEdmFacts proofs.SccInlineCorFacts.
Theorem C15_popon_no_raise_any_order_inline_partial : forall d off tc tcE tcL tc2 l l' evs spans, Permutation l l' -> load_wf l = true ->
  wseg_clock d off (WInline tc tcE tcL l) ->
  res_map (pseg_event d off) [PClear tcE; PLoad tcL l; PClear tc2] = Ok evs -> positive evs -> after_show None evs ->
  expected_with join_threshold evs = Ok spans ->
  exists caps caps',
    read off [(tc, emit_load_w d l); (tc2, emit_clear d)] = ROk caps /\
    read off [(tc, emit_load_w d l'); (tc2, emit_clear d)] = ROk caps' /\
    ok_c05 (mkProg d [l]) (Ok (map observe caps)) = true /\
    ok_c05 (mkProg d [l']) (Ok (map observe caps')) = true.
Proof. exact popon_row_order_free_inline. Qed.
Print Assumptions C15_popon_no_raise_any_order_inline_partial.
Example C15_popon_no_raise_any_order_inline_instance :
  exists caps caps',
    read 0 [(lit "00:00:01:00", emit_load_w true ordw_a); (lit "00:00:05:00", emit_clear true)] = ROk caps /\
    read 0 [(lit "00:00:01:00", emit_load_w true ordw_b); (lit "00:00:05:00", emit_clear true)] = ROk caps' /\
    ok_c05 (mkProg true [ordw_a]) (Ok (map observe caps)) = true /\
    ok_c05 (mkProg true [ordw_b]) (Ok (map observe caps')) = true.
Proof. exact popon_row_order_free_inline_instance. Qed.
