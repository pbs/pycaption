(* C07 - DFXP output is well-formed XML and internally consistent.
   Only statements closed by `exact`, with Print Assumptions, and non-vacuity examples. *)
From Coq Require Import List ZArith Bool.
From PV Require Import lib.Sx lib.Str lib.Result model.DfxpXml model.DfxpRegion model.DfxpDoc model.DfxpSkel model.DfxpSkelHead model.DfxpSkelBody spec.SpecXmlAttr spec.SpecXmlDoc.
From PV Require Import proofs.XmlAttrFacts proofs.DfxpRegionFacts proofs.DfxpPayloadFacts proofs.DfxpDocFacts proofs.DfxpSkelFacts proofs.DfxpSkelRootFacts proofs.DfxpSkelHeadFacts proofs.DfxpSkelBodyFacts.
Import ListNotations.
Open Scope Z_scope.

(* ---- attribute values: whatever XML characters occur in a style value, class name or language code, the literal
        written for it (quoting rule of bs4 / quoteattr included) is a well-formed AttValue denoting that value ---- *)
Theorem C07_attr_value_wellformed : forall v, forallb is_xml_char v = true -> attr_parse (attr_out v) = Some v.
Proof. exact attr_value_wellformed. Qed.
Print Assumptions C07_attr_value_wellformed.
Theorem C07_span_attr_value_wellformed : forall v, forallb is_xml_char v = true -> attr_parse (quoteattr v) = Some v.
Proof. exact quoteattr_wellformed. Qed.
Print Assumptions C07_span_attr_value_wellformed.

(* ---- text: the escaped text is character data (in particular without ']]>', which text_parse refuses) denoting the
        text -------------------------------------------------------------------------------------------------- *)
Theorem C07_escape_text_wellformed : forall s, forallb is_xml_char s = true -> text_parse (xml_escape s) = Some s.
Proof. exact escape_text_wellformed. Qed.
Print Assumptions C07_escape_text_wellformed.

(* ---- the <p> payload: accepted by the strict content machine whenever no span is left open, in particular for
        balanced style nodes; main and legacy writer ------------------------------------------------------------- *)
Theorem C07_payload_wellformed : forall legacy nodes, Forall node_ok nodes ->
  snd (recreate_text legacy false nodes) = false ->
  exists evs, content_parse (fst (recreate_text legacy false nodes)) = Some evs.
Proof. exact payload_wellformed. Qed.
Print Assumptions C07_payload_wellformed.
Theorem C07_payload_wellformed_balanced : forall legacy nodes, Forall node_ok nodes -> balanced nodes ->
  exists evs, content_parse (fst (recreate_text legacy false nodes)) = Some evs.
Proof. exact payload_wellformed_balanced. Qed.
Print Assumptions C07_payload_wellformed_balanced.
(* the attributes _recreate_style derives from any style dictionary have valid, pairwise distinct names *)
Theorem C07_recreate_style_attrs_ok : forall content ids,
  (forall v, In v (map snd content) -> forallb is_xml_char v = true) -> attrs_ok (recreate_style content ids) [].
Proof. exact recreate_style_attrs_ok. Qed.
Print Assumptions C07_recreate_style_attrs_ok.

(* the same for LegacyDFXPWriter._recreate_style, which may put region= in front *)
Theorem C07_legacy_style_attrs_ok : forall content ids rids,
  (forall v, In v (map snd content) -> forallb is_xml_char v = true) ->
  attrs_ok (legacy_recreate_style content ids rids) [].
Proof. exact legacy_recreate_style_attrs_ok. Qed.
Print Assumptions C07_legacy_style_attrs_ok.

(* a style= reference is only written for a style that exists in the head (this restates the guard of
   recreate_style; its content is the use made of it in C07_doc_consistent_partial) *)
Theorem C07_style_refs_resolve_unfold : forall content ids v,
  In (lit "style", v) (recreate_style content ids) -> existsb (str_eqb v) ids = true.
Proof. exact style_refs_resolve. Qed.
Print Assumptions C07_style_refs_resolve_unfold.

(* ---- regions (model of RegionCreator): ids unique, every reference resolves, no unreferenced region ------------- *)
Theorem C07_region_ids_unique : forall cs, NoDup (defined cs).
Proof. exact region_ids_unique. Qed.
Print Assumptions C07_region_ids_unique.
Theorem C07_regions_resolve : forall cs r, In r (all_refs cs) -> In r (defined cs).
Proof. exact regions_resolve. Qed.
Print Assumptions C07_regions_resolve.
(* `defined` is the filter "created and referenced" (cleanup_regions), so this one is definitional: that the real
   cleanup equals that filter is correspondence (stream R) *)
Theorem C07_no_unreferenced_region_unfold : forall cs r, In r (defined cs) -> In r (all_refs cs).
Proof. exact no_unreferenced_region. Qed.
Print Assumptions C07_no_unreferenced_region_unfold.

(* ---- the WHOLE writer traversal (styling section, regions, languages x captions x nodes; model/DfxpDoc.v).
        For every caption set whose style ids are distinct and differ from the region ids, the ids and references of
        the document satisfy the oracle ok_refs: ids unique, every style= (head and body) and every region= resolves
        to exactly one definition, every region defined is referenced.  `_partial`: DFXPWriter (and, through the
        caption set the RegionCreator sees, SinglePositioningDFXPWriter); ids and references only - that the whole
        document is well-formed XML is judged by two strict parsers on the real output. -------------------------- *)
Theorem C07_doc_consistent_partial : forall d, dom_doc d = true ->
  let s := summarize d in
  ok_refs (s_ids s) (s_style_ids s) (s_region_ids s) (s_style_refs s) (s_region_refs s) = 0.
Proof. exact doc_consistent. Qed.
Print Assumptions C07_doc_consistent_partial.
(* the attribute dictionary of a positioned span (style attributes, region, inline positioning attributes merged in
   a dict, positioning wins) has valid, pairwise distinct names: the payload theorem covers positioned spans too *)
Theorem C07_span_attributes_ok : forall content ids region inline,
  (forall v, In v (map snd content) -> forallb is_xml_char v = true) ->
  match region with Some r => forallb is_xml_char r = true | None => True end ->
  (forall k v, In (k, v) inline -> valid_name k = true /\ forallb is_xml_char v = true) ->
  attrs_ok (span_attributes (recreate_style content ids) region inline) [].
Proof. exact span_attributes_ok. Qed.
Print Assumptions C07_span_attributes_ok.

(* the same for LegacyDFXPWriter: fixed region "bottom", region= on every <p> and on spans that ask for it,
   for sets with distinct style ids, no written style called "bottom" and at least one caption written *)
Theorem C07_legacy_doc_consistent_partial : forall d, dom_legacy d = true ->
  let s := legacy_summarize d in
  ok_refs (s_ids s) (s_style_ids s) (s_region_ids s) (s_style_refs s) (s_region_refs s) = 0.
Proof. exact legacy_doc_consistent. Qed.
Print Assumptions C07_legacy_doc_consistent_partial.
(* composed: from caption nodes - texts, style dictionaries, the region id and the inline positioning
   attributes of a node - to an accepted payload, for both writers *)
Theorem C07_caption_payload_wellformed : forall legacy ids nodes,
  Forall cnode_ok nodes -> balanced (map (to_pnode ids) nodes) ->
  exists evs, content_parse (fst (caption_payload legacy ids nodes)) = Some evs.
Proof. exact caption_payload_wellformed. Qed.
Print Assumptions C07_caption_payload_wellformed.

(* SinglePositioningDFXPWriter. Its set transformation (every layout := the one positioning, text-align removed
   from the styles) is modelled by `single_positioning`; every region= of the resulting document names ONE region,
   "bottom" or - when the positioning is a layout of its own that creates a region - "r0"; and the document is
   consistent on a domain phrased on the INPUT (style ids distinct, no written style named like that region).
   `_partial`: ids / references only; merge_concurrent_captions happens before the model *)
Theorem C07_single_one_region : forall p d r, In r (all_refs (to_rset (single_positioning p d))) -> r = single_region p.
Proof. exact single_refs. Qed.
Print Assumptions C07_single_one_region.
Theorem C07_single_doc_consistent_partial : forall p d, dom_single p d = true ->
  let s := summarize (single_positioning p d) in
  ok_refs (s_ids s) (s_style_ids s) (s_region_ids s) (s_style_refs s) (s_region_refs s) = 0.
Proof. exact single_doc_consistent. Qed.
Print Assumptions C07_single_doc_consistent_partial.

(* ---- the WHOLE document as a string (model/DfxpSkel.v: prolog, tt with its namespace declarations, head /
        styling / layout, body / div / p, prettify's indentation and empty-element tags, attributes sorted and escaped /
        quoted by the output formatter) is accepted by the specification's DOCUMENT machine (spec/SpecXmlDoc.v: XML
        declaration, exactly one root element parsed by the strict content machine, white space only around it) -
        whatever attribute dictionaries (valid distinct names, values of XML characters) and well-formed payloads
        the tree carries ------------------------------------------------------------------------------------------- *)
Theorem C07_document_wellformed : forall d, skdoc_ok d -> exists evs, doc_parse (dfxp_document d) = Some evs.
Proof. exact skeleton_wellformed. Qed.
Print Assumptions C07_document_wellformed.
(* composed with C07_caption_payload_wellformed: from caption nodes (texts, style dictionaries, region ids, inline
   attributes - balanced style nodes) and any language code made of XML characters to a well-formed document, main
   and legacy writer *)
Theorem C07_document_of_captions_wellformed_partial : forall legacy ids lang styles regions divs,
  forallb is_xml_char lang = true ->
  Forall (fun a => attrs_ok a []) styles -> Forall (fun a => attrs_ok a []) regions ->
  Forall (fun dv => attrs_ok (fst dv) [] /\ Forall (caption_ok ids) (snd dv)) divs ->
  exists evs, doc_parse (dfxp_document (doc_of_captions legacy ids lang styles regions divs)) = Some evs.
Proof. exact document_of_captions_wellformed. Qed.
Print Assumptions C07_document_of_captions_wellformed_partial.
(* the content machine is compositional: content that is well-formed on its own is accepted inside any open elements,
   after any text that does not end in ']' (so that no ']]>' can arise across the seam) *)
Theorem C07_content_in_context : forall f evs, content_parse f = Some evs ->
  forall base ev acc, hd1 acc = false -> exists ev' acc', xrun (cst base ev acc) f = Some (cst base ev' acc').
Proof. exact content_in_context. Qed.
Print Assumptions C07_content_in_context.
(* bs4 writes the attributes of a tag sorted by name: a dictionary with valid distinct names stays one *)
Theorem C07_sorted_attrs_ok : forall attrs, attrs_ok attrs [] -> attrs_ok (sort_attrs attrs) [].
Proof. exact attrs_ok_sorted. Qed.
Print Assumptions C07_sorted_attrs_ok.

(* the root of the rendered document, read back by the document machine: the first event opens `tt` with the sorted
   root dictionary - values decoded; for the writers' root dictionary: xmlns is the TTML namespace (root_in_ns) and
   xml:lang is the language code that was given, whatever XML characters it contains *)
Theorem C07_document_root : forall d, skdoc_ok d ->
  exists rest, doc_parse (dfxp_document d) = Some (EOpen tt_name (sort_attrs (k_tt d)) :: rest).
Proof. exact skeleton_root. Qed.
Print Assumptions C07_document_root.
(* the namespace names in this statement are the SPECIFICATION's literals (spec/SpecXmlDoc.v spec_ttml_ns /
   spec_tts_ns, written from the TTML recommendation), not the model's constants *)
Theorem C07_document_of_captions_root_in_ttml_namespace : forall legacy ids lang styles regions divs,
  forallb is_xml_char lang = true ->
  Forall (fun a => attrs_ok a []) styles -> Forall (fun a => attrs_ok a []) regions ->
  Forall (fun dv => attrs_ok (fst dv) [] /\ Forall (caption_ok ids) (snd dv)) divs ->
  exists rest, doc_parse (dfxp_document (doc_of_captions legacy ids lang styles regions divs))
               = Some (EOpen (lit "tt") [(lit "xml:lang", lang); (lit "xmlns", spec_ttml_ns); (lit "xmlns:tts", spec_tts_ns)] :: rest).
Proof. exact document_of_captions_root. Qed.
Print Assumptions C07_document_of_captions_root_in_ttml_namespace.

(* the <styling> section of the TREE (model/DfxpSkelHead.v: the <style> dictionaries DFXPWriter.write builds from the style
   table - xml:id first, then the attributes of _recreate_style, an element only when it gets one): they are valid
   dictionaries whenever ids and values are made of XML characters, and the ids / style= references READ FROM THEM are
   exactly those of the traversal model `summarize` about which C07_doc_consistent_partial speaks (the body references
   remain those of the model) *)
Theorem C07_style_elems_ok : forall styles, (forall st, In st styles -> style_entry_ok st) ->
  Forall (fun a => attrs_ok a []) (style_elems styles).
Proof. exact style_elems_ok. Qed.
Print Assumptions C07_style_elems_ok.
Theorem C07_style_elems_are_the_summary_unfold : forall d,
  elem_ids (style_elems (ds_styles d)) = s_style_ids (summarize d) /\
  s_style_refs (summarize d) = elem_style_refs (style_elems (ds_styles d)) ++ body_style_refs (s_style_ids (summarize d)) d.
Proof. exact style_elems_vs_summarize. Qed.
Print Assumptions C07_style_elems_are_the_summary_unfold.
(* the whole document with that <styling> section: no hypothesis on the style dictionaries, only XML characters in the table *)
Theorem C07_document_with_styling_wellformed_partial : forall legacy table lang regions divs,
  (forall st, In st table -> style_entry_ok st) -> forallb is_xml_char lang = true ->
  Forall (fun a => attrs_ok a []) regions ->
  Forall (fun dv => attrs_ok (fst dv) [] /\ Forall (caption_ok (fst (styling table))) (snd dv)) divs ->
  exists evs, doc_parse (dfxp_document (doc_of_captions legacy (fst (styling table)) lang (style_elems table) regions divs)) = Some evs.
Proof. exact document_with_styling. Qed.
Print Assumptions C07_document_with_styling_wellformed_partial.

(* ---- ids and references of the DOCUMENT. model/DfxpSkelBody.v builds the <region> dictionaries of <layout> and
        the <div> / <p> / <span> dictionaries of <body> from the caption set as DFXPWriter.write does (the set is the
        traversal model's, decorated with what the reference model does not look at: language codes, begin / end, the
        positioning attributes of write_inline_positioning and of the <region> elements; `erase` forgets the decoration).
        The ids (xml:id of every <style> and <region>) and the references (style= and region= of EVERY element of the
        tree: style, region, div, p, span) READ FROM THESE DICTIONARIES are exactly the summary of the traversal model,
        whenever the decoration carries no style / region / xml:id key; hence ok_refs - ids unique, every style= and
        region= in head and body resolves to exactly one definition, every region defined is referenced - holds of the
        tree, for every caption set of dom_doc (every dset is the erasure of a decorated set: the third statement).
        DFXPWriter and, through single_positioning, SinglePositioningDFXPWriter; the tree of LegacyDFXPWriter is not
        built (its statement stays C07_legacy_doc_consistent_partial). ---------------------------------------------- *)
Theorem C07_document_tree_is_the_summary_unfold : forall extra x, deco_ok extra x ->
  let t := tree_of extra x in let s := summarize (erase x) in
  tree_ids t = s_ids s /\ tree_style_ids t = s_style_ids s /\ tree_region_ids t = s_region_ids s /\
  tree_style_refs t = s_style_refs s /\ tree_region_refs t = s_region_refs s.
Proof. exact tree_is_the_summary. Qed.
Print Assumptions C07_document_tree_is_the_summary_unfold.
Theorem C07_document_references_resolved : forall extra x, deco_ok extra x -> dom_doc (erase x) = true ->
  let t := tree_of extra x in
  ok_refs (tree_ids t) (tree_style_ids t) (tree_region_ids t) (tree_style_refs t) (tree_region_refs t) = 0.
Proof. exact document_references_resolved. Qed.
Print Assumptions C07_document_references_resolved.
Theorem C07_every_set_has_a_resolved_tree : forall d, dom_doc d = true ->
  exists x, erase x = d /\ deco_ok (fun _ => []) x /\
            let t := tree_of (fun _ => []) x in
            ok_refs (tree_ids t) (tree_style_ids t) (tree_region_ids t) (tree_style_refs t) (tree_region_refs t) = 0.
Proof. exact every_set_has_a_resolved_tree. Qed.
Print Assumptions C07_every_set_has_a_resolved_tree.

(* ---- non-vacuity ------------------------------------------------------------------------------------------------ *)
Example C07_example_attr :
  attr_out (lit "a""b<c&d") = [39] ++ lit "a""b&lt;c&amp;d" ++ [39] /\
  attr_out (lit "x""y'z") = lit """x&quot;y'z""" /\ attr_parse (lit """x&quot;y'z""") = Some (lit "x""y'z").
Proof. vm_compute. repeat split. Qed.
Example C07_example_payload :
  let nodes := [PText (lit "a "); PBreak; PStyleStart [(lit "tts:color", lit "r&d")]; PStyleStart [];
                PText (lit "x<y"); PStyleEnd; PText (lit "z"); PStyleEnd] in
  recreate_text false false nodes
  = (lit "a<br/>" ++ [10; 32; 32; 32; 32] ++ lit "<span tts:color=""r&amp;d"">x&lt;y</span>z", false)
  /\ exists evs, content_parse (fst (recreate_text false false nodes)) = Some evs.
Proof. split; [vm_compute; reflexivity|eexists; vm_compute; reflexivity]. Qed.
Example C07_example_document :
  let d := mkDset None [(lit "k1", [(lit "color", lit "white")]); (lit "k2", [(lit "class", lit "k1"); (lit "italics", lit "x")]);
                        (lit "empty", [])]
             [mkDlang (Some (1, true, true))
                [mkDcap None (Some [(lit "class", lit "k2")])
                   [mkDnode (mkRnode (Some (2, true, true)) true) [(lit "class", lit "k1"); (lit "text-align", lit "left")]];
                 mkDcap None None []]] in
  dom_doc d = true /\
  s_ids (summarize d) = [lit "k1"; lit "k2"; lit "r0"; lit "r1"] /\
  s_style_refs (summarize d) = [lit "k1"; lit "k2"; lit "k1"] /\
  s_region_refs (summarize d) = [lit "r0"; lit "r0"; lit "r1"; lit "r0"] /\
  span_attributes [(lit "tts:textAlign", lit "left")] (Some (lit "r1")) [(lit "tts:origin", lit "10% 20%"); (lit "tts:textAlign", lit "start")]
  = [(lit "tts:textAlign", lit "start"); (lit "region", lit "r1"); (lit "tts:origin", lit "10% 20%")].
Proof. vm_compute. repeat split. Qed.
Example C07_example_regions :
  let cs := mkRset None [mkRlang (Some (1, true, true)) [mkRcap None [mkRnode (Some (2, true, true)) false; mkRnode (Some (3, true, true)) true];
                                                  mkRcap (Some (0, true, true)) []]] in
  created cs = [-1; 0; 1; 2] /\ defined cs = [-1; 0; 2] /\
  refs cs = [(0, [(0, [2]); (-1, [])])].
Proof. vm_compute. repeat split. Qed.
(* quoteattr with tab / line feed / carriage return: character references, and the value comes back *)
Example C07_example_quoteattr_whitespace :
  quoteattr [97; 9; 98; 10; 99; 13; 100] = lit """a&#9;b&#10;c&#13;d""" /\
  attr_parse (quoteattr [97; 9; 98; 10; 99; 13; 100]) = Some [97; 9; 98; 10; 99; 13; 100].
Proof. vm_compute. split; reflexivity. Qed.
(* ']]>' is refused in character data, accepted (escaped) from the writers *)
Example C07_example_cdata_end :
  text_parse (lit "a]]>b") = None /\ content_parse (lit "a]]>b") = None /\
  text_parse (xml_escape (lit "a]]>b")) = Some (lit "a]]>b") /\
  content_parse (lit "<span x=""]]>"">]]&gt;</span>") <> None.
Proof. vm_compute. repeat split; discriminate. Qed.
(* the hypotheses of the composed payload theorem hold for an ordinary caption: a positioned, styled span with
   inline attributes, markup characters in values and text *)
Example C07_example_caption_payload :
  let nodes := [CText (lit "a & b"); CBreak;
                CStart [(lit "color", lit "r&d"); (lit "class", lit "k1")] (Some (lit "r0")) [(lit "tts:origin", lit "10% 20%")];
                CText (lit "x<y]]>"); CEnd] in
  Forall cnode_ok nodes /\ balanced (map (to_pnode [lit "k1"]) nodes) /\
  fst (caption_payload false [lit "k1"] nodes)
  = lit "a &amp; b<br/>" ++ [10; 32; 32; 32; 32]
    ++ lit "<span style=""k1"" tts:color=""r&amp;d"" region=""r0"" tts:origin=""10% 20%"">x&lt;y]]&gt;</span>".
Proof.
  split; [|split; [|vm_compute; reflexivity]].
  - constructor; [reflexivity|]. constructor; [exact I|]. constructor; [|constructor; [reflexivity|constructor; [exact I|constructor]]].
    cbn [cnode_ok]. split; [|split; [reflexivity|]].
    + intros v [<-|[<-|[]]]; reflexivity.
    + intros k v [E|[]]. inversion E; subst. split; reflexivity.
  - cbn [map to_pnode]. apply bal_text. apply bal_break.
    apply (bal_span _ [PText (lit "x<y]]>")] []); [apply bal_text; constructor|constructor].
Qed.
(* the legacy writer at document level: style chain in the head, a span asking for the fixed region *)
Example C07_example_legacy_document :
  let d := mkDset None [(lit "k1", [(lit "color", lit "white")]); (lit "k2", [(lit "class", lit "k1"); (lit "region", lit "bottom")])]
             [mkDlang None [mkDcap None (Some [(lit "class", lit "k2")])
                              [mkDnode (mkRnode None true) [(lit "region", lit "bottom"); (lit "color", lit "red")];
                               mkDnode (mkRnode None true) [(lit "region", lit "r7")]]]] in
  dom_legacy d = true /\
  s_ids (legacy_summarize d) = [lit "k1"; lit "k2"; lit "bottom"] /\
  s_style_refs (legacy_summarize d) = [lit "k1"; lit "k2"] /\
  s_region_refs (legacy_summarize d) = [lit "bottom"; lit "bottom"].
Proof. vm_compute. repeat split. Qed.
(* hypotheses of the attribute-dictionary theorems, instantiated: a dictionary with markup characters in its values *)
Example C07_example_style_attrs :
  let content := [(lit "color", lit "r&d<"); (lit "class", lit "a&b"); (lit "region", lit "bottom"); (lit "italics", lit "")] in
  (forall v, In v (map snd content) -> forallb is_xml_char v = true) /\
  recreate_style content [lit "a&b"] = [(lit "style", lit "a&b"); (lit "tts:color", lit "r&d<")] /\
  legacy_recreate_style content [lit "a&b"] [lit "bottom"]
  = [(lit "region", lit "bottom"); (lit "style", lit "a&b"); (lit "tts:color", lit "r&d<")].
Proof. split; [intros v [<-|[<-|[<-|[<-|[]]]]]; reflexivity|split; vm_compute; reflexivity]. Qed.
(* single positioning: whatever layouts the set had, one region; a custom positioning gives "r0"; a style called r0
   is then outside the domain *)
Example C07_example_single_positioning :
  let d := mkDset (Some (3, true, true)) [(lit "k1", [(lit "text-align", lit "left"); (lit "color", lit "white")])]
             [mkDlang (Some (1, true, true))
                [mkDcap (Some (2, true, true)) (Some [(lit "class", lit "k1")])
                   [mkDnode (mkRnode (Some (4, false, true)) true) [(lit "color", lit "red")]]]] in
  dom_single (Some (0, true, true)) d = true /\
  s_ids (summarize (single_positioning (Some (0, true, true)) d)) = [lit "k1"; lit "bottom"] /\
  s_region_refs (summarize (single_positioning (Some (0, true, true)) d)) = [lit "bottom"; lit "bottom"; lit "bottom"] /\
  s_region_ids (summarize (single_positioning (Some (7, true, true)) d)) = [lit "r0"] /\
  dom_single (Some (7, true, true)) (mkDset None [(lit "r0", [(lit "color", lit "white")])] (ds_langs d)) = false.
Proof. vm_compute. repeat split. Qed.

(* a whole document - markup characters in a style value, a language code and a text; an empty <p>; an empty
   <div> (written as an empty-element tag); the hypotheses of the document theorem hold for it; and the document
   machine refuses what XML refuses at document level *)
Definition C07_example_skdoc : skdoc :=
  mkSkdoc (tt_attrs (lit "en"))
          [[(lit "xml:id", lit "k1"); (lit "tts:color", lit "a""b'c<")]]
          [[(lit "xml:id", lit "bottom"); (lit "tts:textAlign", lit "start")]]
          [mkSkdiv [(lit "xml:lang", lit "en-US"); (lit "region", lit "bottom")]
                   [mkSkp [(lit "begin", lit "00:00:00.000"); (lit "end", lit "00:00:01.000"); (lit "style", lit "k1"); (lit "region", lit "bottom")]
                          (lit "  a &amp; b<br/>" ++ [10; 32; 32; 32; 32] ++ lit "<span tts:color='r""d'> x&lt;y </span>");
                    mkSkp [(lit "begin", lit "1"); (lit "end", lit "2")] [32; 10]];
           mkSkdiv [(lit "xml:lang", lit "f'""<")] []].
Example C07_example_whole_document :
  skdoc_ok C07_example_skdoc /\
  firstn 44 (dfxp_document C07_example_skdoc) = lit "<?xml version=""1.0"" encoding=""utf-8""?>" ++ [10] ++ lit "<tt x" /\
  is_infix (lit " <p begin=""00:00:00.000"" end=""00:00:01.000"" region=""bottom"" style=""k1"">" ++ [10] ++ lit "    a &amp; b<br/>")
           (dfxp_document C07_example_skdoc) = true /\
  is_infix (lit "<p begin=""1"" end=""2"">" ++ [10] ++ lit "   </p>") (dfxp_document C07_example_skdoc) = true /\
  is_infix (lit "<div xml:lang=""f'&quot;&lt;""/>") (dfxp_document C07_example_skdoc) = true /\
  match doc_parse (dfxp_document C07_example_skdoc) with
  | Some evs => ns_ok evs && root_in_ns (lit "tt") spec_ttml_ns evs
  | None => false end = true.
Proof.
  split; [|set (d := dfxp_document C07_example_skdoc); revert d; vm_compute; repeat split].
  unfold C07_example_skdoc, skdoc_ok. cbn [k_tt k_styles k_regions k_divs]. split; [cbn [attrs_ok tt_attrs]; repeat split; reflexivity|].
  split; [repeat constructor|]. split; [repeat constructor|].
  constructor; [|constructor; [|constructor]].
  - split; [cbn [attrs_ok tt_attrs]; repeat split; reflexivity|]. cbn [kd_ps]. constructor; [|constructor; [|constructor]].
    + split; [cbn [attrs_ok tt_attrs]; repeat split; reflexivity|]. eexists. vm_compute. reflexivity.
    + split; [cbn [attrs_ok tt_attrs]; repeat split; reflexivity|]. eexists. vm_compute. reflexivity.
  - split; [cbn [attrs_ok tt_attrs]; repeat split; reflexivity|constructor].
Qed.
Example C07_example_document_machine_refuses :
  doc_parse (lit "<a/><b/>") = None /\ doc_parse (lit "<a/>x") = None /\ doc_parse (lit "x<a/>") = None /\
  doc_parse (lit "<a>") = None /\ doc_parse (lit "<?xml encoding=""utf-8""?><a/>") = None /\
  doc_parse (lit " <?xml version=""1.0""?><a/>") = None /\ doc_parse (lit "<?xml version=""1.0""?><a/>&#32;") = None /\
  doc_parse (lit "<?xml version=""2.0""?><a/>") = None /\ doc_parse [] = None /\
  doc_parse (lit "<?xml version='1.1' standalone = ""no"" ?> <a><a/></a> ") <> None /\
  match doc_parse (lit "<a><b:c/></a>") with Some evs => ns_ok evs | None => true end = false /\
  match doc_parse (lit "<a xmlns:b=""u""><b:c b:d=""1"" xml:id=""2""/></a>") with Some evs => ns_ok evs | None => false end = true.
Proof. vm_compute. repeat split; discriminate. Qed.

(* the <style> dictionaries of the tree for a style table with a class chain, an empty style, a style that yields
   no attribute, markup characters in an id; and for no styles at all (the default style) *)
Example C07_example_style_elems :
  let table := [(lit "a&b", [(lit "color", lit "white")]); (lit "e", []); (lit "k2", [(lit "class", lit "a&b"); (lit "italics", lit "x")]);
                (lit "n", [(lit "class", lit "zz")])] in
  (forall st, In st table -> style_entry_ok st) /\
  style_elems table = [[(lit "xml:id", lit "a&b"); (lit "tts:color", lit "white")];
                       [(lit "xml:id", lit "k2"); (lit "style", lit "a&b"); (lit "tts:fontStyle", lit "italic")]] /\
  elem_ids (style_elems table) = [lit "a&b"; lit "k2"] /\ elem_style_refs (style_elems table) = [lit "a&b"] /\
  style_elems [] = [[(lit "xml:id", lit "default"); (lit "tts:fontFamily", lit "monospace"); (lit "tts:fontSize", lit "1c");
                     (lit "tts:color", lit "white")]].
Proof.
  split; [|vm_compute; repeat split].
  intros st [<-|[<-|[<-|[<-|[]]]]]; split; try reflexivity; cbn [snd map]; intros v Hv; cbn [In] in Hv;
    repeat match goal with H : _ \/ _ |- _ => destruct H end; subst; try reflexivity; contradiction.
Qed.
(* a decorated set - two styles with a chain, a caption with a layout of its own (region r0), a positioned span
   with inline attributes that overwrite tts:textAlign, a layout nobody refers to (cleaned up) - satisfies the hypotheses;
   the dictionaries of the tree and what is read from them *)
Example C07_example_document_tree :
  let L1 : lay := Some (1, true, true) in let L2 : lay := Some (2, true, true) in
  let inl := [(lit "tts:origin", lit "10% 20%"); (lit "tts:textAlign", lit "end")] in
  let x := mkXset None [(lit "k1", [(lit "color", lit "white")]); (lit "p", [(lit "class", lit "k1"); (lit "text-align", lit "left")])]
             [mkXlang None
                [mkXcap L1 (Some [(lit "class", lit "k1"); (lit "text-align", lit "start")])
                   [mkXnode (mkDnode (mkRnode L2 false) []) [];
                    mkXnode (mkDnode (mkRnode L1 true) [(lit "class", lit "p"); (lit "italics", lit "1")]) inl]
                   (lit "00:00:01.000") (lit "00:00:02.000") inl;
                 mkXcap None None [] (lit "00:00:03.000") (lit "00:00:04.000") []]
                (lit "en") []] in
  let extra := fun id : Z => if id =? 0 then [(lit "tts:origin", lit "10% 20%")] else [] in
  let t := tree_of extra x in
  deco_ok extra x /\ dom_doc (erase x) = true /\
  t_regions t = [[(lit "xml:id", lit "bottom")]; [(lit "xml:id", lit "r0"); (lit "tts:origin", lit "10% 20%")]] /\
  map fst (t_body t) = [[(lit "xml:lang", lit "en"); (lit "region", lit "bottom")]] /\
  flat_map (fun dv => map fst (snd dv)) (t_body t)
  = [[(lit "begin", lit "00:00:01.000"); (lit "end", lit "00:00:02.000"); (lit "style", lit "k1"); (lit "tts:textAlign", lit "end");
      (lit "region", lit "r0"); (lit "tts:origin", lit "10% 20%")];
     [(lit "begin", lit "00:00:03.000"); (lit "end", lit "00:00:04.000"); (lit "style", lit "p"); (lit "region", lit "bottom")]] /\
  flat_map (fun dv => flat_map snd (snd dv)) (t_body t)
  = [[(lit "style", lit "p"); (lit "tts:fontStyle", lit "italic"); (lit "region", lit "r0"); (lit "tts:origin", lit "10% 20%");
      (lit "tts:textAlign", lit "end")]] /\
  tree_ids t = [lit "k1"; lit "p"; lit "bottom"; lit "r0"] /\
  tree_style_refs t = [lit "k1"; lit "k1"; lit "p"; lit "p"] /\
  tree_region_refs t = [lit "bottom"; lit "r0"; lit "r0"; lit "bottom"].
Proof.
  intros L1 L2 inl x extra t. split; [|vm_compute; repeat split]. subst t extra x inl L1 L2. cbn zeta.
  assert (N0 : noref []) by (repeat split; intros []).
  assert (N1 : noref [(lit "tts:origin", lit "10% 20%"); (lit "tts:textAlign", lit "end")])
    by (repeat split; cbn [map fst In]; intros H; repeat (destruct H as [H|H]; [discriminate|]); exact H).
  split.
  - intros id. destruct (id =? 0); [|exact N0]. repeat split; cbn [map fst In]; intros H; repeat (destruct H as [H|H]; [discriminate|]); exact H.
  - repeat constructor; cbn; try exact N0; try exact N1; try apply N0; try apply N1.
Qed.
(* ALL hypotheses of C07_document_with_styling_wellformed_partial instantiated together - a non-empty style table,
   one region dictionary, one div with one caption (text, break, text) - and the document they give is accepted, with bound
   namespace prefixes and its root in the TTML namespace *)
Example C07_example_document_with_styling :
  let table := [(lit "k1", [(lit "color", lit "white")])] in
  let regions := [[(lit "xml:id", lit "bottom"); (lit "tts:displayAlign", lit "after")]] in
  let cap := ([(lit "begin", lit "00:00:01.000"); (lit "end", lit "00:00:02.000"); (lit "region", lit "bottom"); (lit "style", lit "k1")],
              [CText (lit "a & b"); CBreak; CText (lit "c<d")]) in
  let divs := [([(lit "xml:lang", lit "en")], [cap])] in
  (forall st, In st table -> style_entry_ok st) /\ forallb is_xml_char (lit "en") = true /\
  Forall (fun a => attrs_ok a []) regions /\
  Forall (fun dv => attrs_ok (fst dv) [] /\ Forall (caption_ok (fst (styling table))) (snd dv)) divs /\
  match doc_parse (dfxp_document (doc_of_captions false (fst (styling table)) (lit "en") (style_elems table) regions divs)) with
  | Some evs => ns_ok evs && root_in_ns (lit "tt") spec_ttml_ns evs
  | None => false end = true.
Proof.
  split; [|split; [reflexivity|split; [|split; [|vm_compute; reflexivity]]]].
  - intros st [<-|[]]; split; try reflexivity; cbn [snd map]; intros v Hv; cbn [In] in Hv;
      repeat match goal with H : _ \/ _ |- _ => destruct H end; subst; try reflexivity; contradiction.
  - constructor; [cbn [attrs_ok]; repeat split; reflexivity|constructor].
  - constructor; [|constructor]. split; [cbn [attrs_ok fst]; repeat split; reflexivity|]. cbn [snd].
    constructor; [|constructor]. unfold caption_ok. cbn [fst snd]. split; [cbn [attrs_ok]; repeat split; reflexivity|]. split.
    + constructor; [reflexivity|]. constructor; [exact I|]. constructor; [reflexivity|constructor].
    + cbn [map to_pnode]. apply bal_text. apply bal_break. apply bal_text. constructor.
Qed.
