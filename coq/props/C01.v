(* C01 - Reading preserves every cue's start and end instant (SRT, WebVTT, DFXP, SAMI, MicroDVD).
   Only statements closed by `exact`, with Print Assumptions; Examples show non-vacuity.
   us q = floor (q * 10^6): whole microseconds of an instant q given in seconds (Q, exact). *)
From Coq Require Import List ZArith QArith Qround Bool.
From PV Require Import lib.Sx lib.Str lib.Result lib.Dec.
From PV Require Import model.TimeRead model.TimeTree spec.SpecTime spec.SpecTimeTree proofs.TimeReadFacts proofs.TimeDocFacts proofs.TimeTreeFacts.
From PV Require Import model.XmlRead spec.SpecXmlDocT proofs.XmlReadFacts.
From PV Require Import model.SamiText spec.SpecSamiText proofs.SamiTextFacts.
Import ListNotations.
Open Scope Z_scope.

(* us is the floor: us q <= q * 10^6 < us q + 1 *)
Theorem C01_us_is_floor : forall q : Q,
  (inject_Z (us q) <= q * 1000000)%Q /\ (q * 1000000 < inject_Z (us q + 1))%Q.
Proof. exact us_is_floor. Qed.
Print Assumptions C01_us_is_floor.

(* SRT hh:mm:ss[,mmm]: any hour count and zero padding, fraction absent or three digits *)
Theorem C01_srt_stamp_exact : forall t, srt_stamp_dom t = true ->
  srt_to_micro (srt_render_stamp t) = Ok (us (srt_instant t)).
Proof. exact srt_stamp_exact. Qed.
Print Assumptions C01_srt_stamp_exact.

(* WebVTT [hh+:]mm:ss.ttt, hours absent or of any length; the pattern is a prefix match *)
Theorem C01_vtt_stamp_exact : forall t r, vtt_stamp_dom t = true ->
  vtt_timestamp (vtt_render_stamp t ++ r) = Ok (us (vtt_instant t)).
Proof. exact vtt_stamp_exact. Qed.
Print Assumptions C01_vtt_stamp_exact.

(* the configured shift moves the instant by whole milliseconds *)
Theorem C01_vtt_shift_unfold : forall sh t, us (vtt_shifted sh t) = us (vtt_instant t) + sh * 1000.
Proof. exact vtt_shift_exact. Qed.
Print Assumptions C01_vtt_shift_unfold.

(* the whole timing line `start --> end [settings]` with any run of blanks / tabs on either side of the arrow,
   lenient or strict (on ordered cues) *)
Theorem C01_vtt_timing_line_exact : forall strict shift t0 t1 ws1 ws2 tail last,
  vtt_stamp_dom t0 = true -> vtt_stamp_dom t1 = true ->
  blank_run ws1 = true -> blank_run ws2 = true ->
  (tail = [] \/ exists s, tail = 32 :: s) ->
  (strict = true ->
   us (vtt_instant t0) + shift <= us (vtt_instant t1) + shift /\ last <= us (vtt_instant t0) + shift) ->
  vtt_parse_timing strict shift (vtt_render_stamp t0 ++ ws1 ++ lit "-->" ++ ws2 ++ vtt_render_stamp t1 ++ tail) last
  = Ok (us (vtt_instant t0) + shift, us (vtt_instant t1) + shift).
Proof. exact vtt_timing_exact. Qed.
Print Assumptions C01_vtt_timing_line_exact.

(* TTML time expressions: clock time with no fraction, a fraction of ANY length, or a frame
   field (30 fps); offset time in h, m, s, ms, f with integer or fractional count *)
Theorem C01_dfxp_time_exact : forall e, texpr_dom e = true ->
  dfxp_time (texpr_render e) = Ok (us (texpr_instant e)).
Proof. exact dfxp_time_exact. Qed.
Print Assumptions C01_dfxp_time_exact.

(* a <p>: begin+end, or begin+dur *)
Theorem C01_dfxp_begin_end_dur : forall p, dfxp_p_dom p = true ->
  (let '(b, e, d) := dfxp_p_attrs p in dfxp_p_times b e d) = Ok (dfxp_p_expected p).
Proof. exact dfxp_p_exact. Qed.
Print Assumptions C01_dfxp_begin_end_dur.

(* all <p> of a <div>, in order *)
Theorem C01_dfxp_div_exact : forall ps, forallb dfxp_p_dom ps = true ->
  dfxp_div_times (map dfxp_p_attrs ps) = Ok (map dfxp_p_expected ps).
Proof. exact dfxp_div_exact. Qed.
Print Assumptions C01_dfxp_div_exact.

(* begin+dur: the oracle admits floor(begin)+floor(dur) and floor(begin+dur); the model's answer is admitted *)
Theorem C01_dfxp_div_meets_oracle : forall ps, forallb dfxp_p_dom ps = true ->
  ok_times_alt (map dfxp_p_expected ps) (map dfxp_p_expected_alt ps) (dfxp_div_times (map dfxp_p_attrs ps)) = true.
Proof. exact dfxp_div_meets_oracle. Qed.
Print Assumptions C01_dfxp_div_meets_oracle.

(* MicroDVD: frame n under the default rate or any declared decimal rate *)
Theorem C01_mdvd_frames_exact : forall f n, fps_dom f = true ->
  exists fps, (match f with Some l => mdvd_fps (fps_render l) | None => Ok (25, 1) end) = Ok fps /\
              frames_to_micro n fps = Ok (us (frame_instant f n)).
Proof. exact mdvd_frames_exact. Qed.
Print Assumptions C01_mdvd_frames_exact.

(* SAMI: over all strictly increasing sync lists of a language, a cue lasts until the next
   sync of the language (blank or not); the last cue lasts four seconds *)
Theorem C01_sami_backfill : forall ps, sami_dom ps = true -> sami_translate ps = sami_expected ps.
Proof. exact sami_backfill. Qed.
Print Assumptions C01_sami_backfill.

Theorem C01_sami_from_strings : forall ps : list sami_p,
  sami_dom (map (fun p => (sp_ms p, sp_text p)) ps) = true ->
  sami_translate_str (map (fun p => (Some (sami_render_start p), sp_text p)) ps)
  = Ok (sami_expected (map (fun p => (sp_ms p, sp_text p)) ps)).
Proof. exact sami_translate_str_exact. Qed.
Print Assumptions C01_sami_from_strings.

(* ---- whole documents (string level): one caption per non-empty cue, in document order, with the
   denoted times and the text lines; LF or CRLF, any padding, any number of extra blank lines ---- *)
Theorem C01_srt_doc_exact : forall crlf cues, forallb srt_cue_dom cues = true ->
  srt_read (srt_render crlf cues) = read_result (srt_expected_caps cues).
Proof. exact srt_doc_exact. Qed.
Print Assumptions C01_srt_doc_exact.

Theorem C01_vtt_doc_exact : forall strict sh crlf cues, forallb vtt_cue_dom cues = true ->
  (strict = true -> vtt_sorted_from sh 0 cues = true) ->
  vtt_read strict sh (vtt_render crlf cues) = read_result (vtt_expected_caps sh cues).
Proof. exact vtt_doc_exact. Qed.
Print Assumptions C01_vtt_doc_exact.

(* any header block (header text, header lines, NOTE / STYLE / REGION blocks) before the cues and any block after the last
   cue: lines without an arrow never reach a caption (blocks BETWEEN cues and cue identifiers are the cue field vc_pre) *)
Theorem C01_vtt_doc_exact_framed : forall strict sh crlf hdr cues trailer,
  forallb (fun l => no_linebreak l && no_arrow l) hdr = true ->
  forallb (fun l => no_linebreak l && no_arrow l) trailer = true ->
  forallb vtt_cue_dom cues = true ->
  (strict = true -> vtt_sorted_from sh 0 cues = true) ->
  vtt_read strict sh (render_lines crlf hdr ++ flat_map (vtt_render_cue crlf) cues ++ render_lines crlf trailer)
  = read_result (vtt_expected_caps sh cues).
Proof. exact vtt_doc_exact_framed. Qed.
Print Assumptions C01_vtt_doc_exact_framed.

(* on ordered documents ignore_timing_errors does not change the result *)
Theorem C01_vtt_validation_transparent : forall sh crlf cues, forallb vtt_cue_dom cues = true ->
  vtt_sorted_from sh 0 cues = true ->
  vtt_read true sh (vtt_render crlf cues) = vtt_read false sh (vtt_render crlf cues).
Proof. exact vtt_validation_transparent. Qed.
Print Assumptions C01_vtt_validation_transparent.

Theorem C01_mdvd_doc_exact : forall crlf f cues, fps_dom f = true -> forallb mdvd_cue_dom cues = true ->
  mdvd_read (mdvd_render crlf f cues) = read_result (mdvd_expected_caps f cues).
Proof. exact mdvd_doc_exact. Qed.
Print Assumptions C01_mdvd_doc_exact.

(* ---- DFXP and SAMI documents as abstract trees (what BeautifulSoup hands to the readers) ------------
   DFXP: any number of <div>, SEVERAL OF ONE LANGUAGE and NESTED ones included; a paragraph belongs to its nearest
   <div>, its language is the nearest xml:lang on the way out (else the document's, else the default); paragraphs
   with text (time attributes among other attributes) and without (never looked at), or outside every <div>; per
   language the cues of all its divisions in document order *)
Theorem C01_dfxp_doc_exact : forall default tt divs ps, doc_dom divs ps = true ->
  dfxp_read_doc default tt divs (map (fun cp => (fst cp, ap_render (snd cp))) ps)
  = set_result (doc_expected default tt divs ps).
Proof. exact dfxp_doc_exact. Qed.
Print Assumptions C01_dfxp_doc_exact.
Theorem C01_dfxp_blank_paragraph_ignored : forall a ps, dfxp_div_caps (mkXp a false :: ps) = dfxp_div_caps ps.
Proof. exact dfxp_blank_ignored. Qed.
Print Assumptions C01_dfxp_blank_paragraph_ignored.
(* a paragraph with text and no begin, or with neither end nor dur, is refused (CaptionReadTimingError) *)
Theorem C01_dfxp_missing_times_refused : forall b e d,
  dfxp_p_times None e d = Err ETiming /\ dfxp_p_times (Some []) e d = Err ETiming /\
  dfxp_p_times (Some b) None None = Err ETiming.
Proof. exact dfxp_missing_times_refused. Qed.
Print Assumptions C01_dfxp_missing_times_refused.

(* SAMI: several languages over one list of <sync>; every language is back-filled on its own paragraphs *)
Theorem C01_sami_tree_exact : forall langs body, sami_tree_dom langs body = true ->
  sami_read_tree langs (map async_render body) = set_result (sami_tree_expected langs body).
Proof. exact sami_tree_exact. Qed.
Print Assumptions C01_sami_tree_exact.

(* ---- repaired defect #7 on record: the pre-fix scaling of a fraction longer than three digits ---- *)
Theorem C01_dfxp_long_fraction_refuted :
  exists ds, digits_ok ds = true /\ dfxp_fraction_unfixed (digits_str ds) <> Ok (us (frac_q ds)).
Proof. exact dfxp_long_fraction_refuted. Qed.
Print Assumptions C01_dfxp_long_fraction_refuted.

(* ---- non-vacuity ------------------------------------------------------------ *)
Example C01_ex_srt : srt_to_micro (lit "025:01:02,003") = Ok 90062003000.
Proof. vm_compute. reflexivity. Qed.
Example C01_ex_srt_render :
  srt_render_stamp (mkSrt 1 25 1 2 (Some 3)) = lit "025:01:02,003" /\ srt_stamp_dom (mkSrt 1 25 1 2 (Some 3)) = true.
Proof. vm_compute. split; reflexivity. Qed.
Example C01_ex_vtt : vtt_timestamp (lit "100:00:59.999") = Ok 360059999000 /\ vtt_timestamp (lit "59:59.001") = Ok 3599001000.
Proof. vm_compute. split; reflexivity. Qed.
(* the inputs of the repaired defects, as the model (= the fixed code) computes them *)
Example C01_ex_dfxp_long_fraction : dfxp_time (lit "00:00:01.1234") = Ok 1123400.
Proof. vm_compute. reflexivity. Qed.
Example C01_ex_dfxp_offsets :
  dfxp_time (lit "2.3h") = Ok 8280000000 /\ dfxp_time (lit "0.29h") = Ok 1044000000 /\
  dfxp_time (lit "123f") = Ok 4100000 /\ dfxp_time (lit "00:00:01:15") = Ok 1500000 /\
  dfxp_time (lit "1.0005ms") = Ok 1000.
Proof. vm_compute. repeat split; reflexivity. Qed.
Example C01_ex_dfxp_render :
  texpr_render (Offset 0 2 [3] Mh) = lit "2.3h" /\ us (texpr_instant (Offset 0 2 [3] Mh)) = 8280000000 /\
  texpr_render (Clock 1 0 0 1 (Frac [1;2;3;4])) = lit "00:00:01.1234" /\
  us (texpr_instant (Clock 1 0 0 1 (Frac [1;2;3;4]))) = 1123400.
Proof. vm_compute. repeat split; reflexivity. Qed.
Example C01_ex_mdvd : frames_to_micro 201 (25, 1) = Ok 8040000 /\ frames_to_micro 1001 (23976, 1000) = Ok 41750083.
Proof. vm_compute. split; reflexivity. Qed.
Example C01_ex_sami :
  sami_translate [(1000, true); (2000, false); (5000, true); (6000, true)]
  = [(1000000, 2000000); (5000000, 6000000); (6000000, 10000000)].
Proof. vm_compute. reflexivity. Qed.
Example C01_ex_srt_doc :
  let doc := [mkSrtCue 1 (mkSrt 1 0 0 1 (Some 0)) (mkSrt 0 25 0 2 None) [lit "hello"; lit "world"] 1;
              mkSrtCue 2 (mkSrt 0 99 59 59 (Some 999)) (mkSrt 0 100 0 0 (Some 1)) [lit "42"] 0] in
  forallb srt_cue_dom doc = true /\
  srt_read (srt_render true doc) = Ok [(1000000, 90002000000, [lit "hello"; lit "world"]); (359999999000, 360000001000, [lit "42"])].
Proof. vm_compute. split; reflexivity. Qed.
Example C01_ex_mdvd_doc :
  let cues := [mkMc 0 201 2 203 [lit "a"; lit "b"]; mkMc 0 300 0 400 [[]]] in
  fps_dom (Some (mkFps 0 23 [9; 7; 6])) = true /\ forallb mdvd_cue_dom cues = true /\
  mdvd_read (mdvd_render false (Some (mkFps 0 23 [9; 7; 6])) cues) = Ok [(8383383, 8466800, [lit "a"; lit "b"])].
Proof. vm_compute. repeat split; reflexivity. Qed.
Example C01_ex_vtt_doc :
  let cues := [mkVttCue [lit "NOTE a"; []; lit "id1"] (mkVtt None 0 1 0) (mkVtt (Some (0%nat, 100)) 0 0 5) [9] [32; 32] (Some (lit "align:start")) [lit "x"] 2] in
  forallb vtt_cue_dom cues = true /\ vtt_sorted_from (-500) 0 cues = true /\
  vtt_read true (-500) (vtt_render false cues) = Ok [(500000, 359999505000, [lit "x"])].
Proof. vm_compute. repeat split; reflexivity. Qed.
Example C01_ex_sami_tree :
  let body := [(0%nat, 1000, [(lit "en", true); (lit "fr", true)]); (1%nat, 2000, [(lit "en", false)]);
               (0%nat, 3000, [(lit "fr", true)]); (0%nat, 5000, [(lit "en", true)])] in
  sami_tree_dom [lit "en"; lit "fr"] body = true /\
  sami_read_tree [lit "en"; lit "fr"] (map async_render body)
  = Ok [(lit "en", [(1000000, 2000000); (5000000, 9000000)]); (lit "fr", [(1000000, 3000000); (3000000, 7000000)])].
Proof. vm_compute. split; reflexivity. Qed.
Example C01_ex_dfxp_doc :
  let d := [None] in let fr := [Some (lit "fr"); None] in let frin := [None; Some (lit "fr"); None] in
  let p t := APText [] (mkP (Offset 0 t [] Ms) false (Offset 0 (t + 1) [] Ms)) in
  let ps := [(Some d, p 1); (Some fr, p 5); (Some frin, p 6); (Some d, p 8); (None, p 9);
             (Some [None], APBlank [(lit "begin", lit "junk")]); (Some [None], p 3)] in
  doc_dom [d; fr; frin; [None]] ps = true /\
  dfxp_read_doc (lit "und") (Some (lit "en")) [d; fr; frin; [None]] (map (fun cp => (fst cp, ap_render (snd cp))) ps)
  = Ok [(lit "en", [(1000000, 2000000); (8000000, 9000000); (3000000, 4000000)]);
        (lit "fr", [(5000000, 6000000); (6000000, 7000000)])].
Proof. vm_compute. split; reflexivity. Qed.
Example C01_ex_vtt_timing_line :
  vtt_parse_timing true 0 (lit "00:01.000" ++ [9; 32] ++ lit "-->" ++ [32; 32] ++ lit "01:00:02.500" ++ lit " align:left") 0
  = Ok (1000000, 3602500000).
Proof. vm_compute. reflexivity. Qed.
Example C01_ex_mdvd_fps :
  mdvd_fps (lit "23.976") = Ok (23976, 1000) /\ mdvd_fps (lit " 1e2 ") = Ok (100, 1) /\ mdvd_fps (lit ".5") = Ok (5, 10)
  /\ sami_start (Some (lit "1000.0")) = Ok 1000 /\ sami_start (Some (lit "1e3")) = Ok 1000
  /\ dfxp_time (lit "1s" ++ [10]) = Ok 1000000.
Proof. vm_compute. repeat split; reflexivity. Qed.
Example C01_ex_begin_dur_two_readings :
  let p := mkP (Offset 0 1 [] Mf) true (Offset 0 2 [] Mf) in
  dfxp_p_expected p = (33333, 99999) /\ dfxp_p_expected_alt p = (33333, 100000).
Proof. vm_compute. split; reflexivity. Qed.
Example C01_ex_vtt_framed :
  let cues := [mkVttCue [lit "id-1"] (mkVtt None 0 1 0) (mkVtt None 0 2 500) [32] [32] None [lit "x"] 0] in
  vtt_read true 0 (render_lines false [lit "WEBVTT - a title"; lit "Kind: captions"; []; lit "STYLE"; lit "::cue { color: red }"; []]
                   ++ flat_map (vtt_render_cue false) cues
                   ++ render_lines false [lit "NOTE the end"; lit "of the file"])
  = Ok [(1000000, 2500000, [lit "x"])].
Proof. vm_compute. reflexivity. Qed.

(* ---- DFXP documents AS TEXT ------------------------------------------------------------------------------
   xdoc (spec/SpecXmlDocT.v) = element structure + every lexical choice (white space inside tags and between elements,
   quote character per attribute, begin / end / dur anywhere among the other attributes in either order, xml:lang
   anywhere, XML declaration, each character of character data literal / entity / decimal character reference).
   dfxp_read_string (model/XmlRead.v) = text -> tree (after BeautifulSoup + html.parser on this sublanguage) -> the
   queries of DFXPReader.read -> dfxp_read_doc. *)

(* the text of every well-formed abstract document parses to its element tree *)
Theorem C01_dfxp_text_to_tree : forall d, xdoc_ok d = true -> parse_doc (render_doc d) = Some (tree_doc d).
Proof. exact parse_doc_render. Qed.
Print Assumptions C01_dfxp_text_to_tree.

(* well-formed text is inside the domain of the tree-level theorem: every <p> with visible text is timed, and lies in a
   <div> of the document or in none *)
Theorem C01_dfxp_text_domain : forall d, xdoc_ok d = true -> doc_dom (xdoc_divs d) (xdoc_ps d) = true.
Proof. exact xdoc_doc_dom. Qed.
Print Assumptions C01_dfxp_text_domain.

(* STRING LEVEL: reading the rendered text of any well-formed abstract document yields, per language in document order,
   one caption per paragraph with visible text, with the exact denoted instants (CaptionReadNoCaptions if there is none) *)
Theorem C01_dfxp_string_exact : forall default d, xdoc_ok d = true ->
  dfxp_read_string default (render_doc d) = xdoc_expected default d.
Proof. exact dfxp_string_exact. Qed.
Print Assumptions C01_dfxp_string_exact.

Example C01_ex_dfxp_text :
  let f := mkAf [32] [] [] true in let g := mkAf [32; 32] [32] [32] false in
  let t1 := mkP (Offset 0 1 [] Mms) false (Clock 1 0 0 2 (Frac [5])) in
  let d := mkXd (Some (lit "xml version='1.0'?")) [32] [] (Some (f, lit "en")) [] []
             (FElem [] (lit "body") (mkRt [] [])
                (FDiv [32] [] (Some (g, lit "fr")) [] [32]
                   (FP [] (PaTimed [mkRa f (lit "role") (lit "a<b&'c")] [] [] true f g t1) []
                       ([([(104, false)], PBr [32])], [(38, false); (160, true)]) []
                    (FP [] (PaFree []) [] ([], [(160, true); (32, false)]) [] (FEnd [32])))
                   [] (FEnd []))
                [] (FEnd []))
             [] [] in
  xdoc_ok d = true /\
  render_doc d = lit "<?xml version='1.0'?> <tt xml:lang=""en""><body> <div  xml:lang = 'fr' ><p role=""a&lt;b&amp;'c""  end = '00:00:02.5' begin=""1ms"">h<br />&amp;&#160;</p><p>&#160; </p> </div></body></tt>" /\
  dfxp_read_string (lit "und") (render_doc d) = Ok [(lit "fr", [(1000, 2500000)])].
Proof. vm_compute. repeat split; reflexivity. Qed.

(* ---- SAMI documents AS TEXT (from <BODY> on) ----------------------------------------------------------------
   sdoc (spec/SpecSamiText.v) = syncs and paragraphs + every lexical choice: case of every tag name, attributes with white
   space before the name and around '=', values double-quoted / single-quoted / unquoted, other attributes around start= /
   class= / lang=, every text character literal / entity / decimal reference / &nbsp;, <br> tags, white space between tags.
   sami_read_string (model/SamiText.v) = tokens -> the sync / paragraph machine (what SAMIParser + the second parse hand to
   the walker) -> sami_read_tree; the stylesheet is given as its class -> lang table. *)

(* the text of every well-formed abstract document tokenises to its tags and text runs *)
Theorem C01_sami_text_tokens : forall default styles d, sdoc_ok default styles d = true ->
  stoks (S (length (render_sdoc d))) (render_sdoc d) = Some (toks_doc d).
Proof. exact stoks_doc. Qed.
Print Assumptions C01_sami_text_tokens.

(* STRING LEVEL: reading the rendered text yields, for every language in order of first appearance, exactly the denoted
   captions: a cue lasts until the next sync of ITS language (a blank &nbsp; paragraph ends it), the last one four seconds *)
Theorem C01_sami_string_exact : forall default styles d,
  sdoc_ok default styles d = true -> sami_tree_dom (sdoc_langs d) (sdoc_body d) = true ->
  sami_read_string default styles (render_sdoc d) = sdoc_expected d.
Proof. exact sami_string_exact. Qed.
Print Assumptions C01_sami_string_exact.

Example C01_ex_sami_text :
  let styles := [(lit "encc", lit "en-US"); (lit "frcc", lit "fr")] in
  let a p n q v := mkSa p n [] [] q v in
  let par attrs lang txt := mkSpar (mkSt (lit "P") attrs []) lang ([], txt) (lit "p", []) [] in
  let d := mkSdoc (mkSt (lit "BODY") [] []) [10]
             [mkSsync (mkSt (lit "SYNC") [a [32] (lit "start") 0 (lit "1000")] []) 0 1000 []
                [par [a [32] (lit "class") 0 (lit "ENCC")] (lit "en-US") [ScLit 104; ScLit 38];
                 par [a [32] (lit "class") 34 (lit "hl"); a [32; 32] (lit "lang") 39 (lit "fr")] (lit "fr") [ScLit 120]] (lit "SYNC", []) [10];
              mkSsync (mkSt (lit "Sync") [a [32] (lit "id") 34 (lit "s2"); a [32] (lit "start") 34 (lit "02500")] [32]) 1 2500 []
                [par [a [32] (lit "class") 0 (lit "encc")] (lit "en-US") [ScNbsp]] (lit "sync", [32]) []]
             [((lit "BODY", []), [])] in
  sdoc_ok (lit "und") styles d = true /\ sami_tree_dom (sdoc_langs d) (sdoc_body d) = true /\
  render_sdoc d = lit "<BODY>
<SYNC start=1000><P class=ENCC>h&amp;</p><P class=""hl""  lang='fr'>x</p></SYNC>
<Sync id=""s2"" start=""02500"" ><P class=encc>&nbsp;</p></sync ></BODY>" /\
  sami_read_string (lit "und") styles (render_sdoc d)
  = Ok [(lit "en-US", [(1000000, 2500000)]); (lit "fr", [(1000000, 5000000)])].
Proof. vm_compute. repeat split; reflexivity. Qed.
