(* C14 - Each language's captions stay under their language, in document order.
   Only statements closed by `exact`, with Print Assumptions, and non-vacuity examples. *)
From Coq Require Import List ZArith Bool.
From PV Require Import lib.Sx lib.Str lib.Result model.Langs spec.SpecLangs proofs.LangsFacts proofs.SamiSyncFacts.
From PV Require Import spec.SpecFindLang model.LangsMerge proofs.FindLangFacts proofs.LangsMergeFacts.
Import ListNotations.
Open Scope Z_scope.

(* ---- DFXP read ------------------------------------------------------------------------------------------- *)
(* order of first appearance, pinned down: the model's fold is the specification's `uniq` (keep first occurrences) *)
Theorem C14_first_appearance_uniq : forall ls, first_appearance ls = uniq ls.
Proof. exact first_appearance_uniq. Qed.
Print Assumptions C14_first_appearance_uniq.
(* EVERY document (repeated languages, nested divs, divs without paragraphs): the reader model is the grouping by
   effective language - languages in order of first appearance, a language met again continues its list, no cue is
   lost and none is listed twice - and therefore meets the oracle *)
Theorem C14_dfxp_read_groups : forall default doc,
  dfxp_read default doc
  = spec_group (map (fun dv => (effective_lang (fst dv) (d_tt doc) default, snd dv)) (d_divs doc)).
Proof. exact dfxp_read_groups. Qed.
Print Assumptions C14_dfxp_read_groups.
Theorem C14_dfxp_read_meets_oracle : forall default tt divs,
  ok_dfxp_read default tt divs (dfxp_read default (mkDfxp tt divs)) = true.
Proof. exact dfxp_read_meets_oracle. Qed.
Print Assumptions C14_dfxp_read_meets_oracle.

(* the <body> as a TREE of divs and paragraphs (nested divs, a div without xml:lang inherits the nearest enclosing
   div's, every <p> under its nearest div): the tree read is the same grouping over the tree's segments *)
Theorem C14_dfxp_tree_read_groups : forall default tt nodes,
  dfxp_read_tree default tt nodes
  = spec_group (map (fun dv => (effective_lang (fst dv) tt default, snd dv)) (flatten_body nodes)).
Proof. exact dfxp_read_tree_groups. Qed.
Print Assumptions C14_dfxp_tree_read_groups.
Theorem C14_dfxp_tree_read_meets_oracle : forall default tt nodes,
  ok_dfxp_read default tt (flatten_body nodes) (dfxp_read_tree default tt nodes) = true.
Proof. exact dfxp_read_tree_meets_oracle. Qed.
Print Assumptions C14_dfxp_tree_read_meets_oracle.

(* ---- DFXP write: order, force=, and back again --------------------------------------------------------------- *)
(* the writer models meet the oracle: divs are a sub-sequence of the set with identical cue lists; a present force
   selects exactly that language; an empty force writes every language (legacy: an absent one the last language) *)
Theorem C14_dfxp_write_meets_oracle : forall force cs, NoDup (languages cs) ->
  ok_dfxp_write force cs (doc_sset (dfxp_write force cs)) = true.
Proof. exact dfxp_write_meets_oracle. Qed.
Print Assumptions C14_dfxp_write_meets_oracle.
Theorem C14_legacy_write_meets_oracle : forall force cs d, NoDup (languages cs) -> mem [] (languages cs) = false ->
  legacy_write force cs = Ok d -> ok_dfxp_write force cs (doc_sset d) = true.
Proof. exact legacy_write_meets_oracle. Qed.
Print Assumptions C14_legacy_write_meets_oracle.
Theorem C14_dfxp_roundtrip_langs : forall default cs, NoDup (languages cs) -> mem [] (languages cs) = false ->
  dfxp_read default (dfxp_write [] cs) = cs.
Proof. exact dfxp_roundtrip_langs. Qed.
Print Assumptions C14_dfxp_roundtrip_langs.
Theorem C14_dfxp_roundtrip_force : forall default force cs, mem force (languages cs) = true ->
  dfxp_read default (dfxp_write force cs) = [(force, get_captions cs force)].
Proof. exact dfxp_roundtrip_force. Qed.
Print Assumptions C14_dfxp_roundtrip_force.

(* ---- SAMI read --------------------------------------------------------------------------------------------- *)
(* EVERY document: the reader model is the grouping of the paragraphs by their language; a blank paragraph counts
   for the order of first appearance of its language but gives no cue - and therefore meets the oracle *)
Theorem C14_sami_read_groups_model_tags_partial : forall default styles ps,
  sami_read default styles ps
  = spec_group (map (fun t : str * scue * bool => (fst (fst t), if snd t then @nil scue else [snd (fst t)]))
                    (sami_tagged default styles ps)).
Proof. exact sami_read_groups. Qed.
Print Assumptions C14_sami_read_groups_model_tags_partial.
Theorem C14_sami_read_meets_oracle_model_tags_partial : forall default styles ps,
  ok_sami_read (sami_tagged default styles ps) (sami_read default styles ps) = true.
Proof. exact sami_read_meets_oracle. Qed.
Print Assumptions C14_sami_read_meets_oracle_model_tags_partial.
(* partition: over all languages listed, every non-blank paragraph is counted exactly once *)
Theorem C14_sami_read_partition : forall default styles ps,
  fold_right (fun lc n => (length (snd lc) + n)%nat) 0%nat (sami_read default styles ps)
  = length (filter (fun p => negb (is_blank_text (sp_text p))) ps).
Proof. exact sami_read_partition. Qed.
Print Assumptions C14_sami_read_partition.
(* how a <P> gets its language in the MODEL (one unfolding step each; they document find_lang, the oracle's tags are
   the generator's): a class without a language does not end the lookup *)
Theorem C14_find_lang_class_falls_through_unfold : forall name value rest styles,
  str_eqb (lower name) (lit "lang") = false -> str_eqb (lower name) (lit "class") = true ->
  (dict_get (lower value) styles = None \/ dict_get (lower value) styles = Some None) ->
  find_lang ((name, value) :: rest) styles = find_lang rest styles.
Proof. exact find_lang_class_falls_through. Qed.
Print Assumptions C14_find_lang_class_falls_through_unfold.

(* ---- SAMI write ----------------------------------------------------------------------------------------------- *)
(* every paragraph goes to the end of a block with its own start or into a new block with its start;
   all other blocks and paragraphs stay where they were *)
Theorem C14_sami_p_in_own_sync : forall primary t p b, placed t p b (place primary t p b).
Proof. exact place_placed. Qed.
Print Assumptions C14_sami_p_in_own_sync.
(* a later language's paragraph never breaks the order of the body, whatever its time *)
Theorem C14_place_secondary_sorted : forall t p b, sorted b -> sorted (place false t p b).
Proof. exact place_secondary_sorted. Qed.
Print Assumptions C14_place_secondary_sorted.
(* the body is sorted by start as soon as the FIRST language's cues are sorted (ms resolution) *)
Theorem C14_sami_syncs_sorted : forall cs,
  match cs with (_, caps) :: _ => caps_sorted 0 caps | [] => True end -> sorted (sami_write cs).
Proof. exact sami_syncs_sorted. Qed.
Print Assumptions C14_sami_syncs_sorted.
Theorem C14_sorted_is_oracle_order : forall b, sorted b -> nondecr (map fst b) = true.
Proof. exact sorted_nondecr. Qed.
Print Assumptions C14_sorted_is_oracle_order.
(* each language's paragraphs in the body are exactly the writer's sequence for its cue list, in order: every
   language sorted at ms resolution (zero-duration and coinciding cues allowed), distinct language names *)
Theorem C14_sami_language_order : forall cs, NoDup (map fst cs) ->
  (forall l caps, In (l, caps) cs -> caps_sorted 0 caps) ->
  forall l caps, In (l, caps) cs -> cpars l (sami_write cs) = lang_pars caps None.
Proof. exact sami_language_order. Qed.
Print Assumptions C14_sami_language_order.
(* in the terms of the oracle ok_sami_body: the non-blank paragraphs of a language, each with the start of its
   block, are its cues at start // 1000 - no cue lost, moved to another time or language, or reordered *)
Theorem C14_sami_language_cues : forall cs, NoDup (map fst cs) ->
  (forall l caps, In (l, caps) cs -> caps_sorted 0 caps) ->
  (forall l caps c, In (l, caps) cs -> In c caps -> str_eqb (wc_text c) (lit "&nbsp;") = false) ->
  forall l caps, In (l, caps) cs ->
    pars_of l (sami_write cs) = map (fun c => (wc_start c / 1000, wc_text c)) caps.
Proof. exact sami_language_cues. Qed.
Print Assumptions C14_sami_language_cues.

(* ALL inputs, no sortedness assumed: languages never mix. As multisets, each paragraph with the start of the block
   it sits in, the paragraphs of a language in the body are exactly the writer's sequence for its cue list (blank
   syncs included); a class that is not a language of the set has no paragraph *)
Theorem C14_sami_languages_never_mix : forall cs, NoDup (map fst cs) ->
  (forall l caps, In (l, caps) cs -> Permutation.Permutation (cpars l (sami_write cs)) (lang_pars caps None))
  /\ (forall cls, ~ In cls (map fst cs) -> cpars cls (sami_write cs) = []).
Proof. exact sami_languages_never_mix. Qed.
Print Assumptions C14_sami_languages_never_mix.

(* the writer model meets the WHOLE oracle ok_sami_body: body sorted, every language's non-blank paragraphs = its
   cues at start // 1000 in order, no paragraph of a foreign class *)
Theorem C14_sami_write_meets_oracle : forall cs, dom_sami_write cs -> ok_sami_body (as_sset cs) (sami_write cs) = true.
Proof. exact sami_write_meets_oracle. Qed.
Print Assumptions C14_sami_write_meets_oracle.

(* ---- SAMI write: the class layer ---------------------------------------------------------------------------- *)
(* whatever class a caption carries, the class the (repaired) writer puts on its paragraph resolves - through the
   stylesheet the writer emits, later blocks winning - to the language the cue is listed under.  Hypothesis: a style
   NAMED like a language of the set does not declare a different language (two blocks of one name would disagree) *)
Theorem C14_class_resolves : forall styles langs l cap_class,
  NoDup (map fst styles) -> NoDup langs -> In l langs ->
  (forall l0 l', In l0 langs -> dict_get l0 styles = Some (Some l') -> l' = l0) ->
  resolve_class (p_class l cap_class styles) (sheet_langs styles langs) = Some l.
Proof. exact class_resolves. Qed.
Print Assumptions C14_class_resolves.

(* ---- language pick ------------------------------------------------------------------------------------------- *)
Theorem C14_vtt_select_meets_oracle : forall lang cs obs, NoDup (languages cs) -> vtt_select lang cs = Ok obs ->
  ok_pick lang cs obs = true.
Proof. exact vtt_select_meets_oracle. Qed.
Print Assumptions C14_vtt_select_meets_oracle.

(* ---- how a <P> gets its language (SAMIParser._find_lang, handle_starttag) -------------------------------- *)
(* EVERY attribute list and stylesheet: the model finds what the specification says - the FIRST attribute that names
   a language decides (a `lang` attribute: the two-letter cut of its value; a `class`: the language its class
   declares), attributes before it name none - and nothing else satisfies the specification *)
Theorem C14_find_lang_first_decider : forall attrs styles, spec_find_lang styles attrs (find_lang attrs styles).
Proof. exact find_lang_first_decider. Qed.
Print Assumptions C14_find_lang_first_decider.
Theorem C14_find_lang_unique : forall attrs styles r, spec_find_lang styles attrs r -> r = find_lang attrs styles.
Proof. exact find_lang_unique. Qed.
Print Assumptions C14_find_lang_unique.
(* the decidable oracle the harness evaluates on the real _find_lang says exactly the relational specification, and the
   model meets it *)
Theorem C14_ok_find_lang_iff_spec_unfold : forall attrs styles r,
  ok_find_lang styles attrs r = true <-> spec_find_lang styles attrs r.
Proof. exact ok_find_lang_iff_spec. Qed.
Print Assumptions C14_ok_find_lang_iff_spec_unfold.
Theorem C14_find_lang_meets_oracle : forall attrs styles, ok_find_lang styles attrs (find_lang attrs styles) = true.
Proof. exact find_lang_meets_oracle. Qed.
Print Assumptions C14_find_lang_meets_oracle.
(* attributes that name no language (id=, style=, a class without a language, an unknown class) do not matter,
   wherever they stand *)
Theorem C14_find_lang_ignores_silent : forall attrs styles,
  find_lang (filter (fun a => match attr_names styles a with Some _ => true | None => false end) attrs) styles
  = find_lang attrs styles.
Proof. exact find_lang_ignores_silent. Qed.
Print Assumptions C14_find_lang_ignores_silent.
(* nor does the case of attribute names and of class values *)
Theorem C14_find_lang_case_insensitive : forall attrs styles,
  find_lang (map (fun a => (lower (fst a), if str_eqb (lower (fst a)) (lit "class") then lower (snd a) else snd a)) attrs) styles
  = find_lang attrs styles.
Proof. exact find_lang_case_insensitive. Qed.
Print Assumptions C14_find_lang_case_insensitive.
(* the SAMI reader model is the grouping of the paragraphs by the language the SPECIFICATION assigns from their
   attributes and the stylesheet (spec_tagged: the tags are not computed by the model), and meets the oracle with those tags *)
Theorem C14_sami_read_groups_by_spec_lang : forall default styles ps,
  sami_read default styles ps
  = spec_group (map (fun t : str * scue * bool => (fst (fst t), if snd t then @nil scue else [snd (fst t)]))
                    (spec_tagged default styles ps))
  /\ ok_sami_read (spec_tagged default styles ps) (sami_read default styles ps) = true.
Proof. exact sami_read_groups_by_spec_lang. Qed.
Print Assumptions C14_sami_read_groups_by_spec_lang.
(* handle_starttag over a run of <P> tags: the tags and self.langs (order of first appearance) meet the oracle *)
Theorem C14_p_langs_meets_oracle : forall default styles ps,
  ok_p_langs default styles ps (fst (p_langs default styles ps)) (snd (p_langs default styles ps)) = true.
Proof. exact p_langs_meets_oracle. Qed.
Print Assumptions C14_p_langs_meets_oracle.
(* the dict the parser rebuilds from a written stylesheet: a later block of a class replaces an earlier one *)
Theorem C14_read_styles_last_block_wins : forall (sheet : list (str * str)) c,
  (forall b, In b sheet -> lower (fst b) = lower c -> fst b = c) ->
  dict_get (lower c) (read_styles sheet) = option_map Some (resolve_class c sheet).
Proof. exact read_styles_last_block_wins. Qed.
Print Assumptions C14_read_styles_last_block_wins.
(* write-then-read at the class layer (composes C14_class_resolves with the reader's lookup): whatever class a caption
   carries, the paragraph written for it under language l is read back under l *)
Theorem C14_written_class_read_back : forall default styles langs l cap_class,
  NoDup (map fst styles) -> NoDup langs -> In l langs -> l <> [] ->
  (forall l0 l', In l0 langs -> dict_get l0 styles = Some (Some l') -> l' = l0) ->
  (forall a b, In a (map fst styles ++ langs) -> In b (map fst styles ++ langs) -> lower a = lower b -> a = b) ->
  reread_lang default (p_class l cap_class styles) (sheet_langs styles langs) = l.
Proof. exact written_class_read_back. Qed.
Print Assumptions C14_written_class_read_back.

(* ---- merge_concurrent_captions (single-positioning and legacy DFXP writers) ---------------------------- *)
(* the loop with last_caption / concurrent_captions / merged_captions and merge() compute the specification's
   grouping of equal-(start, end) runs; hypothesis: every caption has a node (the Caption constructor's rule) *)
Theorem C14_merge_loop_is_grouping : forall cs, nodes_nonempty cs -> merge_concurrent cs = spec_merge_set cs.
Proof. exact merge_concurrent_is_spec. Qed.
Print Assumptions C14_merge_loop_is_grouping.
Theorem C14_merge_meets_oracle : forall cs, nodes_nonempty cs -> ok_merge cs (merge_concurrent cs) = true.
Proof. exact merge_concurrent_meets_oracle. Qed.
Print Assumptions C14_merge_meets_oracle.
(* merging never moves a cue to another language: same languages in the same order, each with exactly its texts in order *)
Theorem C14_merge_keeps_languages : forall cs, nodes_nonempty cs ->
  map (fun lc => (fst lc, texts_of (snd lc))) (merge_concurrent cs) = map (fun lc => (fst lc, texts_of (snd lc))) cs.
Proof. exact merge_concurrent_keeps_languages. Qed.
Print Assumptions C14_merge_keeps_languages.
Theorem C14_merge_idempotent : forall cs, nodes_nonempty cs -> merge_concurrent (merge_concurrent cs) = merge_concurrent cs.
Proof. exact merge_concurrent_idempotent. Qed.
Print Assumptions C14_merge_idempotent.
(* the writers that merge first (SinglePositioningDFXPWriter, LegacyDFXPWriter = merge_concurrent_captions, then the
   writer above): what they write is judged against the GROUPED set, and reading it back returns the grouped set *)
(* the next three are `rewrite C14_merge_loop_is_grouping` + the writer theorems above; that the writers call
   the merge first is in the model BY DEFINITION (model/LangsMerge.v single_write / legacy_merge_write), tied by stream B *)
Theorem C14_single_write_meets_oracle_unfold : forall force cs, nodes_nonempty cs -> NoDup (map fst cs) ->
  ok_dfxp_write force (flat_set (spec_merge_set cs)) (doc_sset (single_write force cs)) = true.
Proof. exact single_write_meets_oracle. Qed.
Print Assumptions C14_single_write_meets_oracle_unfold.
Theorem C14_legacy_merge_write_meets_oracle_unfold : forall force cs d, nodes_nonempty cs -> NoDup (map fst cs) ->
  mem [] (map fst cs) = false -> legacy_merge_write force cs = Ok d ->
  ok_dfxp_write force (flat_set (spec_merge_set cs)) (doc_sset d) = true.
Proof. exact legacy_merge_write_meets_oracle. Qed.
Print Assumptions C14_legacy_merge_write_meets_oracle_unfold.
Theorem C14_single_write_roundtrip_unfold : forall default cs, nodes_nonempty cs -> NoDup (map fst cs) -> mem [] (map fst cs) = false ->
  dfxp_read default (single_write [] cs) = flat_set (spec_merge_set cs).
Proof. exact single_write_roundtrip. Qed.
Print Assumptions C14_single_write_roundtrip_unfold.
(* about the grouping itself, ALL cue lists: neighbours in the output have different spans; the spans are those of
   the input with neighbouring repetitions dropped; the texts are conserved in order; a list without equal
   neighbours is left alone *)
(* the four `C14_grouping_*_unfold` statements are about the SPECIFICATION's grouping only (they validate
   spec_merge; they say nothing about model or code) *)
Theorem C14_grouping_spans_differ_unfold : forall caps, spans_differ (spec_merge caps) = true.
Proof. exact spec_merge_spans_differ. Qed.
Print Assumptions C14_grouping_spans_differ_unfold.
Theorem C14_grouping_spans_unfold : forall caps : list (Z * Z * list (option str)), map fst (spec_merge caps) = squeeze (map fst caps).
Proof. exact spec_merge_spans. Qed.
Print Assumptions C14_grouping_spans_unfold.
Theorem C14_grouping_texts_unfold : forall caps, texts_of (spec_merge caps) = texts_of caps.
Proof. exact spec_merge_texts. Qed.
Print Assumptions C14_grouping_texts_unfold.
Theorem C14_grouping_no_runs_id_unfold : forall caps, spans_differ caps = true -> spec_merge caps = caps.
Proof. exact spec_merge_no_runs_id. Qed.
Print Assumptions C14_grouping_no_runs_id_unfold.

(* ---- non-vacuity ------------------------------------------------------------------------------------------------ *)
Example C14_example_dfxp :
  dfxp_read (lit "und") (mkDfxp (Some (lit "es"))
     [(Some (lit "fr"), [(1000000, lit "f1")]); (None, [(1000000, lit "d1")]); (Some (lit "de"), [])])
  = [(lit "fr", [(1000000, lit "f1")]); (lit "es", [(1000000, lit "d1")]); (lit "de", [])].
Proof. vm_compute. reflexivity. Qed.
Example C14_example_class_without_lang :
  sami_read (lit "und") [(lit "narrow", None); (lit "encc", Some (lit "en"))]
    [mkP [(lit "class", lit "NARROW"); (lit "lang", lit "fr")] 1000 (lit "a");
     mkP [(lit "class", lit "ENCC"); (lit "lang", lit "fr")] 1000 (lit "b");
     mkP [(lit "class", lit "NARROW")] 2000 (lit "c")]
  = [(lit "fr", [(1000000, lit "a")]); (lit "en", [(1000000, lit "b")]); (lit "und", [(2000000, lit "c")])].
Proof. vm_compute. reflexivity. Qed.
(* a cue ending in millisecond 0 still gets its blank sync (last_time = 0 is not `None`) *)
Example C14_example_blank_at_zero :
  sami_write [(lit "en", [mkWcue 0 900 (lit "a"); mkWcue 5000000 6000000 (lit "b")])]
  = [(0, [(lit "en", lit "a")]); (0, [(lit "en", lit "&nbsp;")]); (5000, [(lit "en", lit "b")])].
Proof. vm_compute. reflexivity. Qed.
Example C14_example_sami_write :
  let cs := [(lit "en", [mkWcue 1000000 2000000 (lit "a1"); mkWcue 5000000 6000000 (lit "a2")]);
             (lit "fr", [mkWcue 500000 1500000 (lit "f1"); mkWcue 5000000 5500000 (lit "f2")])] in
  caps_sorted 0 (snd (hd (lit "", []) cs)) /\
  sami_write cs = [(500, [(lit "fr", lit "f1")]); (1000, [(lit "en", lit "a1")]); (1500, [(lit "fr", lit "&nbsp;")]);
                   (2000, [(lit "en", lit "&nbsp;")]); (5000, [(lit "en", lit "a2"); (lit "fr", lit "f2")])] /\
  cpars (lit "fr") (sami_write cs) = [(500, lit "f1"); (1500, lit "&nbsp;"); (5000, lit "f2")].
Proof. vm_compute. repeat split; intros; discriminate. Qed.

(* the hypotheses of the theorems above are met by ordinary inputs *)
Definition ex_cs : list (str * list wcue) :=
  [(lit "en", [mkWcue 1000000 2000000 (lit "a1"); mkWcue 5000000 6000000 (lit "a2")]);
   (lit "fr", [mkWcue 500000 1500000 (lit "f1"); mkWcue 5000000 5500000 (lit "f2")])].
Example C14_example_dom_sami_write : dom_sami_write ex_cs /\ ok_sami_body (as_sset ex_cs) (sami_write ex_cs) = true.
Proof.
  split; [|vm_compute; reflexivity]. split; [|split].
  - repeat constructor; cbn; intros H; repeat (destruct H as [H|H]; [discriminate|]); exact H.
  - intros l caps [H|[H|[]]]; inversion H; subst; vm_compute; repeat split; intros; discriminate.
  - intros l caps c [H|[H|[]]]; inversion H; subst; intros [<-|[<-|[]]]; vm_compute; reflexivity.
Qed.
Definition ex_set : sset := [(lit "en", [(1000000, lit "a")]); (lit "fr", [(2000000, lit "b")]); (lit "de", [])].
Example C14_example_write_hyps :
  NoDup (languages ex_set) /\ mem [] (languages ex_set) = false
  /\ ok_dfxp_write (lit "fr") ex_set (doc_sset (dfxp_write (lit "fr") ex_set)) = true
  /\ (exists d, legacy_write (lit "xx") ex_set = Ok d /\ doc_sset d = [(lit "de", [])])
  /\ vtt_select (Some (lit "fr")) ex_set = Ok [(2000000, lit "b")].
Proof.
  split; [|split; [reflexivity|split; [vm_compute; reflexivity|split; [eexists; split; vm_compute; reflexivity|vm_compute; reflexivity]]]].
  repeat constructor; cbn; intros H; repeat (destruct H as [H|H]; [discriminate|]); exact H.
Qed.
(* two shapes: a class declaring fr next to the language class, and a caption carrying the class of ANOTHER
   language.  The pre-fix writer kept `encc` on the second (it resolves to en); the repaired choice resolves to fr *)
Definition ex_styles : list (str * option str) :=
  [(lit "frcc", Some (lit "fr")); (lit "encc", Some (lit "en")); (lit "narrow", None)].
Example C14_example_class_layer :
  p_class (lit "fr") (Some (lit "encc")) ex_styles = lit "fr"
  /\ p_class (lit "fr") (Some (lit "frcc")) ex_styles = lit "frcc"
  /\ sheet_langs ex_styles [lit "en"; lit "fr"]
     = [(lit "frcc", lit "fr"); (lit "encc", lit "en"); (lit "en", lit "en"); (lit "fr", lit "fr")]
  /\ resolve_class (lit "encc") (sheet_langs ex_styles [lit "en"; lit "fr"]) = Some (lit "en")
  /\ (forall l0 l', In l0 [lit "en"; lit "fr"] -> dict_get l0 ex_styles = Some (Some l') -> l' = l0).
Proof.
  repeat (split; [vm_compute; reflexivity|]).
  intros l0 l' [<-|[<-|[]]] H; vm_compute in H; discriminate.
Qed.
(* nested divs: fr { a, (no lang){ b }, c }, en { d }, fr { e }: the inner div inherits fr, document order is kept *)
Example C14_example_tree :
  dfxp_read_tree (lit "und") (Some (lit "es"))
    [DDiv (Some (lit "fr")) [DP (1, lit "a"); DDiv None [DP (2, lit "b")]; DP (3, lit "c")];
     DDiv None [DP (4, lit "d")]; DDiv (Some (lit "fr")) [DP (5, lit "e")]; DP (6, lit "outside")]
  = [(lit "fr", [(1, lit "a"); (2, lit "b"); (3, lit "c"); (5, lit "e")]); (lit "es", [(4, lit "d")])].
Proof. vm_compute. reflexivity. Qed.

Definition ex_fl_styles : sami_styles := [(lit "encc", Some (lit "en")); (lit "narrow", None)].
Example C14_example_find_lang :
  find_lang [(lit "id", lit "x"); (lit "Class", lit "NARROW"); (lit "class", lit "Unknown"); (lit "CLASS", lit "EnCC");
             (lit "lang", lit "fr")] ex_fl_styles = Some (lit "en")
  /\ find_lang [(lit "class", lit "narrow"); (lit "LANG", lit "en-US"); (lit "class", lit "encc")] ex_fl_styles = Some (lit "en")
  /\ find_lang [(lit "class", lit "narrow"); (lit "id", lit "encc")] ex_fl_styles = None
  /\ p_lang (lit "und") [(lit "lang", [])] ex_fl_styles = lit "und".
Proof. vm_compute. repeat split. Qed.
(* the hypotheses of C14_written_class_read_back are met by an ordinary set (en-US next to the class encc / ENCC clash
   is what the lower-case hypothesis excludes) *)
Example C14_example_read_back_hyps :
  let styles := ex_styles in let langs := [lit "en-US"; lit "fr"] in
  NoDup (map fst styles) /\ NoDup langs
  /\ (forall l0 l', In l0 langs -> dict_get l0 styles = Some (Some l') -> l' = l0)
  /\ (forall a b, In a (map fst styles ++ langs) -> In b (map fst styles ++ langs) -> lower a = lower b -> a = b)
  /\ reread_lang (lit "und") (p_class (lit "fr") (Some (lit "encc")) styles) (sheet_langs styles langs) = lit "fr"
  /\ reread_lang (lit "und") (p_class (lit "en-US") None styles) (sheet_langs styles langs) = lit "en-US".
Proof.
  cbv zeta. split; [|split; [|split; [|split; [|split; vm_compute; reflexivity]]]].
  - repeat constructor; cbn; intros H; repeat (destruct H as [H|H]; [discriminate|]); exact H.
  - repeat constructor; cbn; intros H; repeat (destruct H as [H|H]; [discriminate|]); exact H.
  - intros l0 l' [<-|[<-|[]]] H; vm_compute in H; discriminate.
  - intros a b Ha Hb. cbn in Ha, Hb.
    repeat (destruct Ha as [<-|Ha]); try destruct Ha; repeat (destruct Hb as [<-|Hb]); try destruct Hb;
      vm_compute; intros E; try reflexivity; discriminate.
Qed.
Definition ex_mset : list (str * list (Z * Z * list (option str))) :=
  [(lit "en", [(1, 2, [Some (lit "a")]); (1, 2, [Some (lit "b"); None; Some (lit "c")]); (1, 3, [Some (lit "d")]);
               (1, 2, [Some (lit "e")])]); (lit "fr", [])].
Example C14_example_merge :
  nodes_nonempty ex_mset
  /\ merge_concurrent ex_mset
     = [(lit "en", [(1, 2, [Some (lit "a"); None; Some (lit "b"); None; Some (lit "c")]); (1, 3, [Some (lit "d")]);
                    (1, 2, [Some (lit "e")])]); (lit "fr", [])].
Proof.
  split; [|vm_compute; reflexivity].
  intros l caps x [H|[H|[]]]; inversion H; subst; [|intros []].
  intros Hx. repeat (destruct Hx as [<-|Hx]; [discriminate|]). destruct Hx.
Qed.
Example C14_example_single_write :
  NoDup (map fst ex_mset) /\ mem [] (map fst ex_mset) = false
  /\ dfxp_read (lit "und") (single_write [] ex_mset)
     = [(lit "en", [(1, lit "a b c"); (1, lit "d"); (1, lit "e")]); (lit "fr", [])]
  /\ (exists d, legacy_merge_write (lit "xx") ex_mset = Ok d /\ doc_sset d = [(lit "fr", [])]).
Proof.
  split; [|split; [reflexivity|split; [vm_compute; reflexivity|eexists; split; vm_compute; reflexivity]]].
  repeat constructor; cbn; intros H; repeat (destruct H as [H|H]; [discriminate|]); exact H.
Qed.
(* the hypothesis of C14_read_styles_last_block_wins (no OTHER block name coincides with c in lower case) and a repeated
   class: the later block wins, the key keeps its first position; a list without equal neighbours (C14_grouping_no_runs_id_unfold) *)
Example C14_example_read_styles :
  let sheet := [(lit "ENCC", lit "en"); (lit "fr", lit "fr"); (lit "ENCC", lit "en-US")] in
  (forall b, In b sheet -> lower (fst b) = lower (lit "ENCC") -> fst b = lit "ENCC")
  /\ read_styles sheet = [(lit "encc", Some (lit "en-US")); (lit "fr", Some (lit "fr"))]
  /\ resolve_class (lit "ENCC") sheet = Some (lit "en-US")
  /\ spans_differ [(1, 2, [Some (lit "a")]); (1, 3, [Some (lit "b")]); (1, 2, [Some (lit "c")])] = true.
Proof.
  cbv zeta. split; [|vm_compute; repeat split].
  intros b [<-|[<-|[<-|[]]]]; vm_compute; intros E; try reflexivity; discriminate.
Qed.
