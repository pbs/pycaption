(* C10 - Reading is a deterministic, isolated function of document and options.
   Only statements closed by `exact`, with Print Assumptions.  Model: model/Store.v (heap), model/Iso.v (readers,
   edits, histories).  `repaired c` = the base.py default-argument repair and the SCCReader reset are in place. *)
From Coq Require Import List ZArith Bool.
From PV Require Import lib.Sx lib.Result lib.Str model.Store model.Iso
     spec.SpecIso proofs.StoreFacts proofs.IsoFacts proofs.RegionFacts proofs.SccReadFacts proofs.OracleFacts
     proofs.IsoExamples.
Import ListNotations.

(* what a reader allocates for its result is a fresh region, closed under references, and nothing that existed is
   touched (inv st st'); the returned set lives in that region *)
Theorem C10_read_allocates_fresh_closed : forall c rk ri t st st' ri' s,
  fix2 c = true -> fix3 c = true -> read c rk ri t st = (st', ri', s) ->
  inv st st' /\ inr (length st) (length st') s.
Proof. exact read_inv. Qed.
Print Assumptions C10_read_allocates_fresh_closed.

(* the same for anything built through the API *)
Theorem C10_build_allocates_fresh_closed : forall c t st0 st st' v,
  fix2 c = true -> inv st0 st -> build (dflt c) t st = (st', v) ->
  inv st0 st' /\ (length st <= length st')%nat /\ inr (length st0) (length st') v.
Proof. exact build_inv. Qed.
Print Assumptions C10_build_allocates_fresh_closed.

(* an edit of a set assigns only inside the set's own region and to what the edit itself allocates *)
Theorem C10_edit_footprint : forall c R st s e,
  fix2 c = true -> closedR st R -> boundedR (length st) R -> inR R s -> rinv R st (do_edit c st s e).
Proof. exact do_edit_rinv. Qed.
Print Assumptions C10_edit_footprint.

(* invariant over ARBITRARY histories of reads (fresh / reused readers), builds, writes and edits:
   every caption set owns a closed region of the heap and the regions are pairwise disjoint *)
Theorem C10_history_isolated : forall c ops w, repaired c -> isolated w -> isolated (run_world c w ops).
Proof. exact history_isolated. Qed.
Print Assumptions C10_history_isolated.

Theorem C10_step_isolated : forall c w o,
  repaired c -> isolated w ->
  let w' := fst (step c w o) in
  isolated w' /\
  (forall k sk, nth_error (w_sets w) k = Some sk -> ~ edits_set o k ->
                nth_error (w_sets w') k = Some sk /\ forall n, snap n (w_st w') sk = snap n (w_st w) sk).
Proof. exact step_isolated. Qed.
Print Assumptions C10_step_isolated.

(* hence: the mutable footprints of two different sets never meet (the model's aliasing observer) *)
Theorem C10_sets_disjoint : forall c ops i j si sj n,
  repaired c -> i <> j ->
  let w := run_world c world0 ops in
  nth_error (w_sets w) i = Some si -> nth_error (w_sets w) j = Some sj ->
  shares n (w_st w) si sj = false.
Proof. exact sets_disjoint. Qed.
Print Assumptions C10_sets_disjoint.

(* an edit of set j leaves every other set's snapshot unchanged, after any history *)
Theorem C10_edits_isolated : forall c ops j k e sk,
  repaired c -> j <> k ->
  let w := run_world c world0 ops in
  nth_error (w_sets w) k = Some sk ->
  forall n, snap n (w_st (fst (step c w (OEdit j e)))) sk = snap n (w_st w) sk.
Proof. exact edits_isolated. Qed.
Print Assumptions C10_edits_isolated.

(* reads, builds and writes leave every existing set's snapshot unchanged, after any history *)
Theorem C10_creation_and_writes_preserve_sets : forall c ops o k sk,
  repaired c -> (match o with OEdit _ _ => False | _ => True end) ->
  let w := run_world c world0 ops in
  nth_error (w_sets w) k = Some sk ->
  forall n, snap n (w_st (fst (step c w o))) sk = snap n (w_st w) sk.
Proof. exact creation_and_writes_preserve_sets. Qed.
Print Assumptions C10_creation_and_writes_preserve_sets.

(* THE MODEL MEETS THE ORACLE: the extracted property oracle evaluated on the model's own observations of ANY history
   reports nothing: no read / build changes an older set (clauses 3, 6), every read equals the same read by a fresh reader
   in the initial world (clause 4), no edit changes another set (clause 5) *)
Theorem C10_model_meets_oracle : forall c ops,
  repaired c -> check_hist tree tree_eqb TCut false true 0 [] [] (model_obs c world0 ops) = [].
Proof. exact model_meets_ok_c10. Qed.
Print Assumptions C10_model_meets_oracle.

(* every operation keeps the world well formed *)
Theorem C10_history_wf_world : forall c ops w, repaired c -> wf_world w -> wf_world (run_world c w ops).
Proof. exact history_wf_world. Qed.
Print Assumptions C10_history_wf_world.

(* ---- MODEL-ONLY lemmas (definitional; NOT statements about pycaption's parsers) --------------------------------------
   The model has no document, no parser, no read options and no hash seed: `read` takes the RESULT TREE t of the read
   (supplied by the harness from a pristine read of the real reader) and decides only what is ALLOCATED for it.  The four
   lemmas below say that the model allocates exactly t whatever the store and whatever the reader state it is given -
   they are what clause 4 of C10_model_meets_oracle rests on, not evidence that real reading is deterministic; that is
   decided by execution (pristine-read comparison, hash seeds). *)
Theorem C10_model_read_ignores_reader_state : forall c rk ri1 ri2 t st,
  fix3 c = true -> read c rk ri1 t st = read c rk ri2 t st.
Proof. exact read_reader_independent. Qed.
Print Assumptions C10_model_read_ignores_reader_state.

Theorem C10_model_read_snapshot_is_given_tree : forall c rk ri t st st' ri' s n,
  repaired c -> (n <= 60)%nat -> read c rk ri t st = (st', ri', s) ->
  snap (S (S (S (S n)))) st' s = expected n rk t.
Proof. exact read_result_function_of_document. Qed.
Print Assumptions C10_model_read_snapshot_is_given_tree.

Theorem C10_model_read_same_tree_same_snapshot : forall c rk ri1 ri2 t st1 st2 st1' st2' r1 r2 s1 s2 n,
  repaired c -> (n <= 60)%nat -> read c rk ri1 t st1 = (st1', r1, s1) -> read c rk ri2 t st2 = (st2', r2, s2) ->
  snap (S (S (S (S n)))) st1' s1 = snap (S (S (S (S n)))) st2' s2.
Proof. exact read_same_document_same_result. Qed.
Print Assumptions C10_model_read_same_tree_same_snapshot.

Theorem C10_model_build_snapshot_is_given_tree : forall c rk ri t st st' ri' s n,
  fix2 c = true -> (rk =? R_SCC)%Z = false -> (n <= S FUEL)%nat -> read c rk ri t st = (st', ri', s) ->
  snap n st' s = clean_trunc n (unshare (mark_defaults rk t)).
Proof. exact read_result_function_of_document_partial. Qed.
Print Assumptions C10_model_build_snapshot_is_given_tree.

(* before the repairs the statements are false of the faithful model; the witnesses are the replayed histories *)
Theorem C10_shared_default_refuted :
  let c := mkCfg false true true in
  let h := [ORead 0 R_SRT doc_a; ORead 1 R_SRT doc_b] in
  set_after c (h ++ [OEdit 0 (EAddStyle (TStr (lit "s:x")) red)]) 1 <> set_after c h 1 /\
  set_after c (h ++ [OEdit 0 (ECapStyle 0 0 (TStr (lit "s:bold")) (TStr (lit "b:True")))]) 1 <> set_after c h 1 /\
  set_after c (h ++ [OEdit 0 (EAddStyle (TStr (lit "s:x")) red); ORead 2 R_SRT doc_b]) 2 <> doc_b.
Proof. exact shared_default_refuted. Qed.
Print Assumptions C10_shared_default_refuted.

Theorem C10_scc_reuse_refuted :
  let c := mkCfg true false true in
  set_after c [ORead 0 R_SCC doc_a; ORead 0 R_SCC doc_b] 1 <> set_after c [ORead 0 R_SCC doc_a; ORead 1 R_SCC doc_b] 1 /\
  (let w := run_world c world0 [ORead 0 R_SCC doc_a; ORead 0 R_SCC doc_b] in
   shares FUEL (w_st w) (nth 0 (w_sets w) VNone) (nth 1 (w_sets w) VNone) = true).
Proof. exact scc_reuse_refuted. Qed.
Print Assumptions C10_scc_reuse_refuted.

(* non-vacuity: the repaired histories; the initial world satisfies the invariant *)
Example C10_example_isolation :
  let h := [ORead 0 R_SRT doc_a; ORead 1 R_SRT doc_b] in
  set_after fixed (h ++ [OEdit 0 (EAddStyle (TStr (lit "s:x")) red)]) 1 = doc_b /\
  set_after fixed (h ++ [OEdit 0 (EAddStyle (TStr (lit "s:x")) red)]) 0 <> doc_a /\
  set_after fixed (h ++ [OEdit 0 (EAddStyle (TStr (lit "s:x")) red); ORead 0 R_SRT doc_b]) 2 = doc_b /\
  set_after fixed [ORead 0 R_SCC doc_a; ORead 0 R_SCC doc_b] 1 = doc_b /\
  set_after fixed [ORead 0 R_SCC doc_a; ORead 0 R_SCC doc_b] 0 = doc_a.
Proof. exact isolation_example. Qed.

Example C10_world0_isolated : isolated world0.
Proof. exact isolated_world0. Qed.

(* an instance of the edit-footprint / isolation theorems on a concrete world (DFXP-read set edited, SCC-read set kept),
   and the oracle on model observations is not vacuous: before the default-dict repair it reports clauses 5 and 4 *)
Example C10_example_edit_footprint :
  let st := w_st two_reads in
  let s0 := nth 0 (w_sets two_reads) VNone in
  let s1 := nth 1 (w_sets two_reads) VNone in
  let st' := do_edit fixed st s0 (EAppendNode 0 0 (t_text "more")) in
  snap FUEL st' s1 = snap FUEL st s1 /\ snap FUEL st' s0 <> snap FUEL st s0 /\ shares FUEL st' s0 s1 = false.
Proof. exact edit_footprint_instance. Qed.

Example C10_example_oracle_reports_shared_default :
  check_hist tree tree_eqb TCut false true 0 [] []
    (model_obs (mkCfg false true true) world0
       [ORead 0 R_SRT doc_a; ORead 1 R_SRT doc_b; OEdit 0 (EAddStyle (TStr (lit "s:x")) red); ORead 2 R_SRT doc_b])
  = [(2, 5); (3, 4)]%Z.
Proof. exact oracle_reports_shared_default. Qed.

(* the read models build the DAG shape of real results: a span's start and end node carry ONE content dict (marker in the
   given result tree), so the in-place edit node.content[k] = v shows in both - and only there *)
Example C10_example_span_dict_shared :
  set_after fixed [ORead 0 R_DFXP doc_span] 0 = doc_span_snapshot /\
  let after := set_after fixed [ORead 0 R_DFXP doc_span;
                                OEdit 0 (ENodeDict 0 0 0 (TStr (lit "s:color")) (TStr (lit "s:pink")))] 0 in
  content_of after 0 = content_of after 2 /\ content_of after 0 <> content_of doc_span_snapshot 0 /\
  let after' := set_after fixed [ORead 0 R_DFXP doc_span_snapshot;
                                 OEdit 0 (ENodeDict 0 0 0 (TStr (lit "s:color")) (TStr (lit "s:pink")))] 0 in
  content_of after' 0 <> content_of after' 2.
Proof. exact span_dict_is_shared_in_the_model. Qed.

From PV Require Import model.SccLen model.SccStash model.SccDecoder model.SccReuse proofs.SccReuseFacts proofs.SccReuseExamples.
(* ==== the decoder state of an SCCReader OBJECT (model/SccReuse.v over the decoder model model/SccDecoder.v) =========
   Here the model DOES contain the document (parsed lines), the decoder and its twelve state fields; a read() starts from
   whatever the reset re-creates (`fs` = the fields it re-creates) and leaves its state in the object - also when it raises. *)

(* MODEL-ONLY / definitional (suffix _unfold, not counted as property theorems): `reader_read` IS `SccDecoder.read` with rstate0 replaced by
   `reset_fields fs s`; with every field re-created the old state is irrelevant by unfolding.  `code_reset` is DEFINED as all twelve
   fields - that SCCReader._reset_state assigns them is read off the AST by the harness and tested by keeping one attribute across
   the reset (harness request 1002 without the field, alarm level).  The model is the reader with simulate_roll_up=False.
   The substantive results of this block are C10_scc_time_translator_reset_redundant and C10_scc_partial_resets_refuted. *)
(* a reset that covers the decoder state: the object is as new, whatever it went through *)
Theorem C10_scc_reset_covers_fresh_unfold : forall fs s offset, covers fs = true -> reset_fields fs s offset = rstate0 offset.
Proof. exact reset_covers_fresh. Qed.
Print Assumptions C10_scc_reset_covers_fresh_unfold.

(* one read(): for EVERY state the object may be in, every document and offset, the result is that of a new object *)
Theorem C10_scc_read_independent_of_reader_state_unfold : forall fs s offset ls,
  covers fs = true -> snd (reader_read fs s offset ls) = SccDecoder.read offset ls.
Proof. exact reader_read_is_fresh_read. Qed.
Print Assumptions C10_scc_read_independent_of_reader_state_unfold.

(* every history of documents read by one object (refused documents included), from any initial state *)
Theorem C10_scc_reader_history_isolated_unfold : forall fs docs s,
  covers fs = true -> reader_history fs s docs = map (fun d => SccDecoder.read (fst d) (snd d)) docs.
Proof. exact reader_history_isolated. Qed.
Print Assumptions C10_scc_reader_history_isolated_unfold.

(* the same document again, after anything else was read on the object: the same result *)
Theorem C10_scc_same_document_same_result_unfold : forall fs before between after d s,
  covers fs = true ->
  let rs := reader_history fs s (before ++ d :: between ++ d :: after) in
  nth_error rs (length before) = nth_error rs (length before + S (length between)).
Proof. exact reader_history_same_document_same_result. Qed.
Print Assumptions C10_scc_same_document_same_result_unfold.

(* the reset of the repaired code re-creates all twelve fields *)
Theorem C10_scc_model_code_reset_is_all_fields_unfold : covers code_reset = true.
Proof. exact code_reset_covers. Qed.
Print Assumptions C10_scc_model_code_reset_is_all_fields_unfold.

(* not every field of the reset is needed: a reset that leaves the time translator (_last_time, _frames) as the last read
   left it still gives the new-object result, for every state, document and offset (start_at() overwrites both at the first
   line; without a line nothing reads them) *)
Theorem C10_scc_time_translator_reset_redundant : forall fs s offset ls,
  covers (FTc :: FFrames :: fs) = true -> snd (reader_read fs s offset ls) = SccDecoder.read offset ls.
Proof. exact time_translator_reset_redundant. Qed.
Print Assumptions C10_scc_time_translator_reset_redundant.

(* the hypothesis is needed: without any reset (the code before the repair) and with caption_stash / position tracker /
   last_command / non-displayed memory / active buffer / pop-on queue left out, a two-document history exists whose second
   result differs from the read on a new object; the covering reset gives the new-object result on the same histories *)
Theorem C10_scc_partial_resets_refuted :
  forallb (fun w => second_differs (fst (fst w)) (snd (fst w)) (snd w)) witnesses = true /\
  forallb (fun w => negb (second_differs code_reset (snd (fst w)) (snd w))) witnesses = true /\
  forallb (fun w => negb (covers (fst (fst w)))) witnesses = true.
Proof. exact partial_resets_refuted. Qed.
Print Assumptions C10_scc_partial_resets_refuted.

Example C10_example_refused_then_valid :
  reader_history code_reset new_reader [doc_a_cut; doc_b]
  = [RErr ETiming; SccDecoder.read (fst doc_b) (snd doc_b)] /\
  (exists caps, SccDecoder.read (fst doc_b) (snd doc_b) = ROk caps /\ length caps = 1%nat).
Proof. exact refused_then_valid. Qed.

Example C10_example_reset_without_time_translator :
  let fs := [FStash; FTk; FLast; FDstart; FPop; FPaint; FRoll; FActive; FQueue; FTime] in
  covers fs = false /\ covers (FTc :: FFrames :: fs) = true.
Proof. split; reflexivity. Qed.

(* ==== the instance state of the SAMI / DFXP / MicroDVD / WebVTT reader objects (model/ReaderReuse.v) ==================
   Only the per-object scratch state is modelled (not the parsing of the text): `par` = paragraphs with SAMIReader.line /
   first_alignment or DFXPReader.nodes, `mdvd` = the frame rate, `vtt` = the previous cue's start under the constructor options.
   The state survives read() - also one that raised half way; `fs` = the resets the code performs. *)
From PV Require Import model.ReaderReuse proofs.ReaderReuseFacts.

(* SAMI / DFXP: with `self.line = []` (`self.nodes = []`) and `self.first_alignment = None` BEFORE each paragraph, every history of
   documents on one object - raising ones included, from any initial state - gives the fresh-object results *)
Theorem C10_par_reader_history_isolated : forall fs docs s,
  pcovers fs = true -> par_history fs s docs = map par_fresh docs.
Proof. exact par_history_isolated. Qed.
Print Assumptions C10_par_reader_history_isolated.

(* the resets of the code cover; the reset of first_alignment AFTER the paragraph is redundant *)
Theorem C10_par_code_reset_covers_unfold : pcovers par_code_reset = true /\ pcovers [PLine; PFaPre] = true.
Proof. exact par_code_reset_covers. Qed.
Print Assumptions C10_par_code_reset_covers_unfold.

(* partial resets, two-document witnesses: no `line = []` -> the first caption of document 2 starts with the nodes of document 1's
   last caption; no alignment reset at all -> document 1's alignment positions document 2; only the reset AFTER the paragraph
   -> a document that raises after an inline text-align leaks it (and only such a document does) *)
Theorem C10_par_partial_resets_refuted :
  par_history [PFaPre; PFaPost] pstate0 [pd_text 1; pd_text 2] <> map par_fresh [pd_text 1; pd_text 2] /\
  par_history [PLine] pstate0 [pd_aligned; pd_text 2] <> map par_fresh [pd_aligned; pd_text 2] /\
  par_history [PLine; PFaPost] pstate0 [pd_raises_after_align; pd_text 2] <> map par_fresh [pd_raises_after_align; pd_text 2] /\
  par_history [PLine; PFaPost] pstate0 [pd_aligned; pd_text 2] = map par_fresh [pd_aligned; pd_text 2] /\
  par_history [PLine; PFaPre] pstate0 [pd_raises_after_align; pd_text 2] = map par_fresh [pd_raises_after_align; pd_text 2].
Proof. exact par_partial_resets_refuted. Qed.
Print Assumptions C10_par_partial_resets_refuted.

(* MicroDVD: `fps = Fraction(25)` at the top of read() *)
Theorem C10_mdvd_reader_history_isolated_unfold : forall fs docs s,
  mcovers fs = true -> mdvd_history fs s docs = map mdvd_fresh docs.
Proof. exact mdvd_history_isolated. Qed.
Print Assumptions C10_mdvd_reader_history_isolated_unfold.

Theorem C10_mdvd_no_reset_refuted :
  mdvd_history [] mstate0 [md_ntsc; md_plain] <> map mdvd_fresh [md_ntsc; md_plain] /\
  mdvd_history [] mstate0 [md_header_then_bad; md_plain] <> map mdvd_fresh [md_header_then_bad; md_plain] /\
  mdvd_history [MFps] mstate0 [md_header_then_bad; md_plain] = map mdvd_fresh [md_header_then_bad; md_plain].
Proof. exact mdvd_no_reset_refuted. Qed.
Print Assumptions C10_mdvd_no_reset_refuted.

(* WebVTT: the previous cue's start begins at 0 in every read(), for every option combination *)
Theorem C10_vtt_reader_history_isolated_unfold : forall o fs docs s,
  vcovers fs = true -> vtt_history o fs s docs = map (vtt_fresh o) docs.
Proof. exact vtt_history_isolated. Qed.
Print Assumptions C10_vtt_reader_history_isolated_unfold.

(* with ignore_timing_errors=True (the default) no reset is needed: the previous start is never consulted *)
Theorem C10_vtt_lenient_needs_no_reset : forall o fs docs s,
  v_strict o = false -> vtt_history o fs s docs = map (vtt_fresh o) docs.
Proof. exact vtt_lenient_needs_no_reset. Qed.
Print Assumptions C10_vtt_lenient_needs_no_reset.

(* ignore_timing_errors=False without the reset: document 2 starting before document 1's last cue is refused; the same document
   twice (with a time shift); after a read that raised mid-way *)
Theorem C10_vtt_no_reset_refuted :
  vtt_history (strict 0) [] vstate0 [vd_late; vd_early] <> map (vtt_fresh (strict 0)) [vd_late; vd_early] /\
  vtt_history (strict 500000) [] vstate0 [vd_late; vd_late] <> map (vtt_fresh (strict 500000)) [vd_late; vd_late] /\
  vtt_history (strict 0) [] vstate0 [vd_raises_midway; vd_early] <> map (vtt_fresh (strict 0)) [vd_raises_midway; vd_early] /\
  vtt_history (strict 0) [VPrev] vstate0 [vd_raises_midway; vd_early] = map (vtt_fresh (strict 0)) [vd_raises_midway; vd_early].
Proof. exact vtt_no_reset_refuted. Qed.
Print Assumptions C10_vtt_no_reset_refuted.

(* the generic statement all of the above (and C10_scc_reader_history_isolated_unfold) instantiate: ANY reader object whose read() is
   the fresh read under a covering reset; the same document read twice at any two places of a history gives the same result *)
Theorem C10_reader_object_same_document_same_result :
  forall (S D R F : Type) (prepare : list F -> S -> S) (consume : list F -> S -> D -> S * R) (fresh : D -> R)
         (covers : list F -> bool),
  (forall fs s d, covers fs = true -> snd (obj_read S D R F prepare consume fs s d) = fresh d) ->
  forall fs before between after d s,
  covers fs = true ->
  let rs := obj_history S D R F prepare consume fs s (before ++ d :: between ++ d :: after) in
  nth_error rs (length before) = nth_error rs (length before + Datatypes.S (length between)).
Proof. exact obj_history_same_document. Qed.
Print Assumptions C10_reader_object_same_document_same_result.
