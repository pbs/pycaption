(* C09 - Writing never alters its input and is deterministic.
   Only statements closed by `exact`, with Print Assumptions.  Model: model/Store.v (heap), model/Iso.v (writers). *)
From Coq Require Import List ZArith Bool Permutation.
From PV Require Import lib.Sx lib.Str lib.Result model.Store model.Iso
     spec.SpecIso proofs.StoreFacts proofs.DeepcopyFacts proofs.IsoFacts proofs.RegionFacts proofs.OracleFacts
     proofs.IsoExamples model.HeapProg proofs.HeapProgFacts proofs.HeapProgInst proofs.HeapProgHist.
Import ListNotations.

(* deepcopy: everything that existed stays as it is, the copy lives in fresh locations and points only into itself
   (inv st0 st' = old part unchanged + closure of the new part), for every store, fuel and value *)
Theorem C09_deepcopy_fresh_closed : forall st0 st fuel v st' v',
  inv st0 st -> deepcopy fuel st v = Some (st', v') ->
  inv st0 st' /\ (length st <= length st')%nat /\
  (match v with VLoc _ => inr (length st0) (length st') v' | _ => v' = v end).
Proof. exact deepcopy_inv. Qed.
Print Assumptions C09_deepcopy_fresh_closed.

(* deepcopy is structure preserving: same snapshot, whatever the sharing / cycles in the copied graph *)
Theorem C09_deepcopy_snapshot_eq : forall st fuel v st' v',
  wf st -> below (length st) v -> deepcopy fuel st v = Some (st', v') ->
  forall n, snap n st' v' = snap n st v.
Proof. exact deepcopy_snapshot_eq. Qed.
Print Assumptions C09_deepcopy_snapshot_eq.

(* deepcopy preserves SHARING exactly: the memo is an injective function from the original locations to fresh ones and
   every copied object is its original with all pointers mapped (graph isomorphism): nothing is copied twice, no two
   objects are merged *)
Theorem C09_deepcopy_isomorphism : forall st fuel v st' v',
  wf st -> below (length st) v -> deepcopy fuel st v = Some (st', v') ->
  exists m, minj m /\ vrel m v v' /\
            forall a b, mlookup a m = Some b ->
                        (a < length st)%nat /\ (length st <= b < length st')%nat /\ copied st st' m a b.
Proof. exact deepcopy_isomorphism. Qed.
Print Assumptions C09_deepcopy_isomorphism.

(* the footprint of write(): for all 8 writer models, all options, any instance state, any store, any argument,
   before and after the repairs, on normal and on error exits, every assignment lands in what the call allocated *)
Theorem C09_write_footprint : forall c k o i st s, inv st (wr_store (write c k o i st s)).
Proof. exact write_inv. Qed.
Print Assumptions C09_write_footprint.

Theorem C09_write_preserves_store : forall c k o i st s l,
  (l < length st)%nat -> get (wr_store (write c k o i st s)) l = get st l.
Proof. exact write_preserves_store. Qed.
Print Assumptions C09_write_preserves_store.

(* hence the snapshot of the written set and of every other value of the store is unchanged, also when it raises *)
Theorem C09_write_preserves_input : forall c k o i st s fuel v,
  wf st -> below (length st) v -> snap fuel (wr_store (write c k o i st s)) v = snap fuel st v.
Proof. exact write_preserves_input. Qed.
Print Assumptions C09_write_preserves_input.

(* ... over arbitrary histories of writes on shared and fresh writer objects *)
Theorem C09_history_preserves_inputs : forall c ops w,
  wf_world w -> forallb is_write ops = true ->
  forall fuel, map (snap fuel (w_st (run_world c w ops))) (w_sets (run_world c w ops))
             = map (snap fuel (w_st w)) (w_sets w).
Proof. exact writes_preserve_snapshots. Qed.
Print Assumptions C09_history_preserves_inputs.

(* one write step from any well-formed world keeps every set's snapshot (that every world reached by ANY history is
   well formed is C09_history_wf_world below) *)
Theorem C09_step_write_preserves : forall c w wid k o si,
  wf_world w ->
  let w' := fst (step c w (OWrite wid k o si)) in
  wf_world w' /\ w_sets w' = w_sets w /\
  (forall fuel v, below (length (w_st w)) v -> snap fuel (w_st w') v = snap fuel (w_st w) v).
Proof. exact step_write_preserves. Qed.
Print Assumptions C09_step_write_preserves.

(* every operation keeps the world well formed, so the write theorems apply after ANY history of reads (fresh / reused
   readers), API builds, edits and writes *)
Theorem C09_history_wf_world : forall c ops w, repaired c -> wf_world w -> wf_world (run_world c w ops).
Proof. exact history_wf_world. Qed.
Print Assumptions C09_history_wf_world.

Theorem C09_write_after_any_history_preserves : forall c ops wid k o si,
  repaired c ->
  let w := run_world c world0 ops in
  let w' := fst (step c w (OWrite wid k o si)) in
  w_sets w' = w_sets w /\ forall fuel, map (snap fuel (w_st w')) (w_sets w) = map (snap fuel (w_st w)) (w_sets w).
Proof. exact write_after_any_history_preserves. Qed.
Print Assumptions C09_write_after_any_history_preserves.

(* with open_span reset at entry, store effect / result / footprint do not depend on the writer object's state:
   the same object again = a fresh object = an object that wrote other sets or raised *)
Theorem C09_write_instance_independent : forall c k o i1 i2 st s,
  fix15 c = true ->
  let r1 := write c k o i1 st s in
  let r2 := write c k o i2 st s in
  wr_store r1 = wr_store r2 /\ wr_result r1 = wr_result r2 /\ wr_fp r1 = wr_fp r2 /\ wr_copies r1 = wr_copies r2.
Proof. exact write_instance_independent. Qed.
Print Assumptions C09_write_instance_independent.

(* the result is output_of (kind, options, snapshot): nothing else of the store, nothing of the past *)
Theorem C09_write_result_function_of_snapshot : forall c k o i st s,
  fix15 c = true -> wf st -> below (length st) s ->
  wr_result (write c k o i st s) = Err EOutOfFuel \/
  wr_result (write c k o i st s) = output_of k o (snap FUEL st s).
Proof. exact write_result_function_of_snapshot. Qed.
Print Assumptions C09_write_result_function_of_snapshot.

Theorem C09_same_snapshot_same_result : forall c k o i1 i2 st1 st2 s1 s2,
  fix15 c = true -> wf st1 -> wf st2 -> below (length st1) s1 -> below (length st2) s2 ->
  snap FUEL st1 s1 = snap FUEL st2 s2 ->
  wr_result (write c k o i1 st1 s1) <> Err EOutOfFuel ->
  wr_result (write c k o i2 st2 s2) <> Err EOutOfFuel ->
  wr_result (write c k o i1 st1 s1) = wr_result (write c k o i2 st2 s2).
Proof. exact write_same_snapshot_same_result. Qed.
Print Assumptions C09_same_snapshot_same_result.

(* the fuel escape is dead on well-formed stores: the writers' deepcopy gets one unit of fuel more than the store has
   objects, which always suffices (measure: original objects not yet memoised) *)
Theorem C09_deepcopy_succeeds : forall st v, wf st -> below (length st) v ->
  exists st' v', deepcopy (S (length st)) st v = Some (st', v').
Proof. exact deepcopy_succeeds. Qed.
Print Assumptions C09_deepcopy_succeeds.

Theorem C09_write_never_out_of_fuel : forall c k o i st s,
  wf st -> below (length st) s -> wr_result (write c k o i st s) <> Err EOutOfFuel.
Proof. exact write_never_out_of_fuel. Qed.
Print Assumptions C09_write_never_out_of_fuel.

(* UNCONDITIONAL: on a well-formed store the result of write() IS output_of (kind, options, snapshot).  `output_of` is derived from
   the model's own make_plan (proofs/IsoFacts.v pure_result): a factorisation "the store enters only through its snapshot", not a
   comparison with an independent renderer; for SRT / MicroDVD / SCC / WebVTT it is the snapshot itself *)
Theorem C09_write_result_is_output_of : forall c k o i st s,
  fix15 c = true -> wf st -> below (length st) s ->
  wr_result (write c k o i st s) = output_of k o (snap FUEL st s).
Proof. exact write_result_is_output_of. Qed.
Print Assumptions C09_write_result_is_output_of.

Theorem C09_same_snapshot_same_result_wf : forall c k o i1 i2 st1 st2 s1 s2,
  fix15 c = true -> wf st1 -> wf st2 -> below (length st1) s1 -> below (length st2) s2 ->
  snap FUEL st1 s1 = snap FUEL st2 s2 ->
  wr_result (write c k o i1 st1 s1) = wr_result (write c k o i2 st2 s2).
Proof. exact write_same_snapshot_same_result_wf. Qed.
Print Assumptions C09_same_snapshot_same_result_wf.

Theorem C09_write_history_independent_wf : forall c ops w k o wi si s,
  fix15 c = true -> wf_world w -> forallb is_write ops = true -> nth_error (w_sets w) si = Some s ->
  wr_result (write c k o wi (w_st (run_world c w ops)) s) = output_of k o (snap FUEL (w_st w) s).
Proof. exact write_history_independent_wf. Qed.
Print Assumptions C09_write_history_independent_wf.

(* output (history ++ [write]) = output [write] *)
Theorem C09_write_history_independent : forall c ops w k o wi si s,
  fix15 c = true -> wf_world w -> forallb is_write ops = true ->
  nth_error (w_sets w) si = Some s ->
  let w' := run_world c w ops in
  wr_result (write c k o wi (w_st w') s) = Err EOutOfFuel \/
  wr_result (write c k o wi (w_st w') s) = output_of k o (snap FUEL (w_st w) s).
Proof. exact write_history_independent. Qed.
Print Assumptions C09_write_history_independent.

(* THE MODEL MEETS THE ORACLE: the extracted property oracle (spec/SpecIso.v check_hist, here with snapshots instead of
   their digests) evaluated on the model's own observations of ANY history of reads, builds, edits and writes reports
   nothing - no write changes any set (clause 1), equal (writer, options, snapshot) give equal results (clause 2).
   With the per-run correspondence (implementation observations = model observations) this composes to the property. *)
Theorem C09_model_meets_oracle : forall c ops,
  repaired c -> fix15 c = true ->
  check_hist tree tree_eqb TCut true false 0 [] [] (model_obs c world0 ops) = [].
Proof. exact model_meets_ok_c09. Qed.
Print Assumptions C09_model_meets_oracle.

(* "no set iteration", explicit: every container the DFXP region bookkeeping iterates takes its enumeration order as a
   parameter.  The one hash SET (_assigned_region_ids, membership tests only) may enumerate in ANY order: same document *)
Theorem C09_regions_independent_of_set_enumeration : forall enum o t,
  (forall l, Permutation (enum l) l) ->
  dfxp_regions (fun l => l) enum o t = dfxp_regions (fun l => l) (fun l => l) o t.
Proof. exact regions_independent_of_set_enumeration. Qed.
Print Assumptions C09_regions_independent_of_set_enumeration.

(* ... the container of unique layouts must NOT be a hash set: some enumeration order changes the region ids (the code
   uses the insertion-ordered _OrderedSet; the mutant C09_orderedset_to_set makes the check fail) *)
Theorem C09_unique_layout_order_matters_refuted :
  exists iter codes, (forall l, Permutation (iter l) l) /\
    region_ids iter codes <> region_ids (fun l => l) codes.
Proof. exact regions_depend_on_unique_layout_order_refuted. Qed.
Print Assumptions C09_unique_layout_order_matters_refuted.

(* before the open_span repair the statement is false of the faithful model: witness = the replayed history *)
Theorem C09_open_span_leak_refuted :
  let r := run (mkCfg true true false) world0 (hist15 W_DFXP) in
  tokens_of r 4 <> tokens_of r 5 /\ tokens_of r 4 <> tokens_of r 2.
Proof. exact open_span_leak_refuted. Qed.
Print Assumptions C09_open_span_leak_refuted.

Theorem C09_open_span_leak_refuted_sami :
  let r := run (mkCfg true true false) world0 (hist15 W_SAMI) in tokens_of r 4 <> tokens_of r 5.
Proof. exact open_span_leak_refuted_sami. Qed.
Print Assumptions C09_open_span_leak_refuted_sami.

(* the assignments of the DFXP writer model applied in place (no copy) change the input's snapshot: what the footprint
   theorem rules out is observable by `snap` *)
Theorem C09_write_without_copy_refuted :
  let w1 := run_world fixed world0 [OBuild positioned] in
  let s := nth 0 (w_sets w1) VNone in
  snap FUEL (dfxp_assign_in_place (w_st w1) s) s <> snap FUEL (w_st w1) s.
Proof. exact write_without_copy_refuted. Qed.
Print Assumptions C09_write_without_copy_refuted.

(* non-vacuity: a write that does assign (on its copy), an error exit, the repaired history *)
Example C09_example_assigns :
  let w1 := run_world fixed world0 [OBuild positioned] in
  let s := nth 0 (w_sets w1) VNone in
  let r := write fixed W_DFXP dflt_opts winst0 (w_st w1) s in
  wr_fp r = [(KCaption, 5%Z)] /\ wr_copies r = 1%Z /\
  (length (w_st w1) < length (wr_store r))%nat /\
  snap FUEL (wr_store r) s = snap FUEL (w_st w1) s /\
  snap FUEL (w_st w1) s = positioned.
Proof. exact dfxp_write_assigns_on_its_copy. Qed.

Example C09_example_error_exit :
  let w1 := run_world fixed world0 [OBuild absolute] in
  let s := nth 0 (w_sets w1) VNone in
  let r := write fixed W_DFXP dflt_opts winst0 (w_st w1) s in
  wr_result r = Err ERelativization /\ snap FUEL (wr_store r) s = snap FUEL (w_st w1) s.
Proof. exact dfxp_error_exit. Qed.

Example C09_example_reset :
  forall k, In k [W_DFXP; W_SAMI; W_LEGACY; W_SINGLE] ->
  let r := run fixed world0 (hist15 k) in
  tokens_of r 4 = tokens_of r 5 /\ tokens_of r 4 = tokens_of r 2.
Proof. exact open_span_reset_example. Qed.

Example C09_world0_wf : wf_world world0.
Proof. exact wf_world0. Qed.

(* non-vacuity of the history theorems: a well-formed world with three sets, two of which SHARE objects; a history of
   writes on it; the hypotheses of C09_model_meets_oracle on a history that writes; the oracle does report the leak *)
Example C09_example_shared_world : wf_world shared_world /\ length (w_sets shared_world) = 3%nat /\
  shares FUEL (w_st shared_world) (nth 0 (w_sets shared_world) VNone) (nth 1 (w_sets shared_world) VNone) = true.
Proof. exact shared_world_wf. Qed.

Example C09_example_history :
  forallb is_write some_writes = true /\
  map (snap FUEL (w_st (run_world fixed shared_world some_writes))) (w_sets (run_world fixed shared_world some_writes))
  = [doc_a; doc_b; positioned] /\
  (length (w_st shared_world) < length (w_st (run_world fixed shared_world some_writes)))%nat.
Proof. exact history_theorem_instance. Qed.

Example C09_example_oracle_reports_leak :
  check_hist tree tree_eqb TCut true false 0 [] [] (model_obs (mkCfg true true false) world0 (hist15 W_DFXP))
  = [(4, 2); (5, 2)]%Z.
Proof. exact oracle_reports_open_span_leak. Qed.

(* ==== the writers as HEAP PROGRAMS (model/HeapProg.v) ==========================================================
   A writer is a program that may load from and store into ANY object a register points to - the argument included.
   `check` is a static ownership analysis; the theorems below hold for EVERY program, not for the eight writers only. *)

(* soundness of the analysis, one command at a time: from a state whose owned registers point into the region allocated
   since st0 (or hold scalars), an accepted program - on its normal exit and on every raising exit - has touched nothing
   that existed in st0, has only allocated, and (normal exit) the registers the analysis reports as owned are owned *)
Theorem C09_ownership_analysis_sound : forall o c a a' st0 h h' e,
  check c a = Some a' -> inv st0 (h_st h) -> senv (length st0) (length (h_st h)) a (h_env h) ->
  exec o c h = (h', e) ->
  inv st0 (h_st h') /\ (length (h_st h) <= length (h_st h'))%nat /\
  (e = None -> senv (length st0) (length (h_st h')) a' (h_env h')).
Proof. exact exec_sound. Qed.
Print Assumptions C09_ownership_analysis_sound.

(* the frame theorem: ANY accepted program, any store (even ill-formed), any argument, any options *)
Theorem C09_heap_program_frame : forall p a' o st s,
  check p [] = Some a' -> inv st (h_st (fst (run_prog p o st s))).
Proof. exact prog_footprint. Qed.
Print Assumptions C09_heap_program_frame.

Theorem C09_heap_program_preserves_snapshots : forall p a' o st s fuel v,
  check p [] = Some a' -> wf st -> below (length st) v ->
  snap fuel (h_st (fst (run_prog p o st s))) v = snap fuel st v.
Proof. exact prog_preserves_snapshots. Qed.
Print Assumptions C09_heap_program_preserves_snapshots.

(* the proof obligation of pycaption's eight writers: their heap programs are accepted *)
Theorem C09_writer_programs_owned : forall reset k, exists a', check (prog_with reset k) [] = Some a'.
Proof. exact writers_owned. Qed.
Print Assumptions C09_writer_programs_owned.

(* hence: the program-based write (what harness request 902 executes against the real writers) has the footprint property *)
Theorem C09_program_write_footprint : forall c k o i st s, inv st (wr_store (writeP c k o i st s)).
Proof. exact writeP_inv. Qed.
Print Assumptions C09_program_write_footprint.

Theorem C09_program_write_preserves_input : forall c k o i st s fuel v,
  wf st -> below (length st) v -> snap fuel (wr_store (writeP c k o i st s)) v = snap fuel st v.
Proof. exact writeP_preserves_input. Qed.
Print Assumptions C09_program_write_preserves_input.

Theorem C09_program_history_wf_world : forall c ops w, repaired c -> wf_world w -> wf_world (runP_world c w ops).
Proof. exact historyP_wf_world. Qed.
Print Assumptions C09_program_history_wf_world.

(* through ANY history of reads, builds, edits and program writes *)
Theorem C09_program_write_after_any_history_preserves : forall c ops wid k o si,
  repaired c ->
  let w := runP_world c world0 ops in
  let w' := fst (stepP c w (OWrite wid k o si)) in
  w_sets w' = w_sets w /\ forall fuel, map (snap fuel (w_st w')) (w_sets w) = map (snap fuel (w_st w)) (w_sets w).
Proof. exact writeP_after_any_history_preserves. Qed.
Print Assumptions C09_program_write_after_any_history_preserves.

(* the writers with the deepcopy line deleted, replaced by copy.copy, or placed after the first assignment:
   REJECTED by the analysis, and they do change the snapshot of their input on a concrete set *)
Theorem C09_copy_discipline_variants_refuted :
  forallb (fun p => match check p [] with None => true | Some _ => false end) variants = true /\
  forallb (fun p => input_changed p dflt_opts positioned) variants = true.
Proof. exact variants_rejected_and_wrong. Qed.
Print Assumptions C09_copy_discipline_variants_refuted.

Example C09_example_programs_assign_on_their_copy :
  map (fun k => input_changed (prog_of k) dflt_opts positioned) [1; 2; 3; 4; 5; 6; 7; 8]%Z
    = [false; false; false; false; false; false; false; false] /\
  (let w1 := run_world fixed world0 [OBuild positioned] in
   let s := nth 0 (w_sets w1) VNone in
   map (fun k => fp_of (wr_fp (writeP fixed k dflt_opts winst0 (w_st w1) s))) [W_DFXP; W_SAMI]
     = [[(KCaption, 5%Z)]; [(KCaption, 5%Z)]]).
Proof. exact writers_assign_on_their_copy. Qed.

(* ---- half 2 on the heap programs: the writer's INSTANCE state (open_span, last_time, global_layout = registers that
   survive a write() on the same object).  The programs contain the rendering state machines (span open / close, SAMI blank
   sync) and emit tokens; `du` is a static "assigned before it is read" analysis. ---- *)

(* soundness of the analysis for EVERY program: two runs from states that differ only in registers the analysis knows to be
   assigned before they are read exit the same way, with the same store, tokens, footprint, copy count *)
Theorem C09_assigned_before_read_sound : forall o c u u' h1 h2 h1' h2' x1 x2,
  du c u = Some u' -> same_heap h1 h2 -> agree u (h_env h1) (h_env h2) ->
  exec o c h1 = (h1', x1) -> exec o c h2 = (h2', x2) ->
  x1 = x2 /\ same_heap h1' h2' /\ (x1 = None -> agree u' (h_env h1') (h_env h2')).
Proof. exact du_sound. Qed.
Print Assumptions C09_assigned_before_read_sound.

(* the obligation of the eight writers (repaired code): every instance register is assigned before it is read *)
Theorem C09_writer_programs_reset_instance_state : forall k, exists u', du (prog_of k) inst_regs = Some u'.
Proof. exact writers_reset_instance_state. Qed.
Print Assumptions C09_writer_programs_reset_instance_state.

(* hence, for every writer kind, options, store, argument: same object again = a fresh object = an object that wrote other
   sets or raised - store effect, result (tokens or exception), footprint, copy count.  Unlike C09_write_instance_independent
   this is about programs in which open_span and last_time CAN reach the output (tokens); global_layout is read by the WebVTT
   program into a dead register only - for it the theorem is an analysis obligation without semantic content, its leak is decided
   by bytes; for SRT / MicroDVD / SCC / WebVTT the token list is always empty *)
Theorem C09_program_write_instance_independent : forall c k o i1 i2 st s,
  fix15 c = true ->
  let r1 := writeP c k o i1 st s in
  let r2 := writeP c k o i2 st s in
  wr_store r1 = wr_store r2 /\ wr_result r1 = wr_result r2 /\ wr_fp r1 = wr_fp r2 /\ wr_copies r1 = wr_copies r2.
Proof. exact writeP_instance_independent. Qed.
Print Assumptions C09_program_write_instance_independent.

(* without the reset line the span writers (and WebVTT without its global_layout assignment) are REJECTED by the analysis,
   and the history of defect 15 shows the leak on the programs; with it the reused object emits what a fresh one emits *)
Theorem C09_missing_reset_refuted :
  forallb (fun k => rejects_du (prog_with false k)) span_kinds = true /\
  rejects_du prog_vtt_no_global = true /\
  forallb (fun k => let r := runP (mkCfg true true false) world0 (hist15 k) in
                    negb (zl_eqb (tokens_of r 4) (tokens_of r 5))) span_kinds = true /\
  forallb (fun k => let r := runP fixed world0 (hist15 k) in
                    zl_eqb (tokens_of r 4) (tokens_of r 5) && zl_eqb (tokens_of r 4) (tokens_of r 2)) span_kinds = true.
Proof. exact missing_reset_rejected_and_wrong. Qed.
Print Assumptions C09_missing_reset_refuted.

Example C09_example_programs_render_like_the_store_model_on_the_defect15_history :
  forallb (fun k => forallb (fun c =>
     forallb (fun p => zl_eqb (mo_tokens (fst (fst p))) (mo_tokens (fst (snd p)))
                       && Bool.eqb (mo_open (fst (fst p))) (mo_open (fst (snd p))))
             (combine (run c world0 (hist15 k)) (runP c world0 (hist15 k))))
     [fixed; mkCfg true true false]) span_kinds = true.
Proof. exact programs_render_like_the_store_model. Qed.

(* at history level: in any world, i.e. after any history, the writer OBJECT that performs a write (used before, raised
   before, new) is irrelevant for store, exit, tokens, footprint and copy count *)
Theorem C09_program_step_writer_object_irrelevant : forall c w wid1 wid2 k o si,
  fix15 c = true ->
  let r1 := stepP c w (OWrite wid1 k o si) in
  let r2 := stepP c w (OWrite wid2 k o si) in
  w_st (fst r1) = w_st (fst r2) /\ w_sets (fst r1) = w_sets (fst r2) /\
  mo_err (snd r1) = mo_err (snd r2) /\ mo_tokens (snd r1) = mo_tokens (snd r2) /\
  mo_fp (snd r1) = mo_fp (snd r2) /\ mo_copies (snd r1) = mo_copies (snd r2) /\
  mo_changed_below (snd r1) = mo_changed_below (snd r2).
Proof. exact stepP_writer_object_irrelevant. Qed.
Print Assumptions C09_program_step_writer_object_irrelevant.

(* non-vacuity of C09_heap_program_frame: the analysis accepts a program that reads the argument freely and stores into a copy of a
   part of it, and rejects the same program storing into the part itself *)
Example C09_example_analysis_not_trivial :
  check (block [CGet 1 0 (EInt 1); CGet 2 1 (EStr (lit "s:en")); CCopy 3 2; CSet 3 (EInt 1) (EReg 3)])%nat [] <> None /\
  check (block [CGet 1 0 (EInt 1); CGet 2 1 (EStr (lit "s:en")); CCopy 3 2; CSet 2 (EInt 1) (EReg 3)])%nat [] = None.
Proof. exact analysis_accepts_reads_of_the_argument. Qed.
