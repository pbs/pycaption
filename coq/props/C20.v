(* C20 - Format detection is total, consistent and recognises pycaption's own output.
   This file contains only statements closed by `exact`, with Print Assumptions; Examples show non-vacuity.
   All theorems are about model/Detect.v: the six sniffers over ALL code points, with str.isdigit, re \d and
   str.lower taken from tables generated from the running interpreter and the sniffing constants generated from the
   working tree.  What ties the model to the code is the correspondence of harness/props/C20.py. *)
From Coq Require Import List ZArith Bool.
From PV Require Import lib.Sx lib.Str lib.Result model.Generated model.Detect spec.SpecDetect spec.SpecOwn
  proofs.DetectFacts proofs.DetectOwnFacts model.OwnWrite spec.SpecOwnNodes proofs.DetectNodeFacts proofs.DetectVttFacts model.SccWrite model.OwnWriteScc proofs.OwnSccFacts model.TimeRead proofs.OwnReadFacts proofs.OwnReadSrtFacts spec.SpecXmlDocT model.DfxpWriteDoc model.OwnWriteDfxp proofs.OwnDfxpFacts.
Import ListNotations.
Open Scope Z_scope.

(* ---------------- sentence 1: total, first match in the documented order ---------------- *)

(* never raises: for every non-empty string and every reader (the stronger reading: every sniffer is total) *)
Theorem C20_detect_never_crashes : forall s r, s <> [] -> In r documented_order ->
  is_crash (detect_of r s) = false.
Proof. exact detect_of_no_crash. Qed.
Print Assumptions C20_detect_never_crashes.
Theorem C20_model_sniffers_total : forall s, s <> [] ->
  all_sniffers_total (map (fun r => detect_of r s) documented_order) = true.
Proof. exact model_sniffers_total. Qed.
Print Assumptions C20_model_sniffers_total.

(* ties to the working tree: the order the code iterates (generated from SUPPORTED_READERS) is the documented one,
   and the sniffing constants read from the sniffers' code objects are the documented ones. These re-check on every
   run against the regenerated model/Generated.v; they say nothing about HOW the code uses the constants. *)
Theorem C20_generated_order_documented : supported_readers = [0; 1; 2; 3; 4; 5].
Proof. exact generated_order_documented. Qed.
Print Assumptions C20_generated_order_documented.
Theorem C20_generated_constants_documented :
  dfxp_marker = lit "</tt>" /\ vtt_marker = lit "WEBVTT" /\ sami_marker = lit "<sami" /\ srt_arrow = lit "-->" /\
  mdvd_pattern = lit "{\d+}{\d+}" /\ scc_header = lit "Scenarist_SCC V1.0".
Proof. exact generated_constants_documented. Qed.
Print Assumptions C20_generated_constants_documented.

(* detect_format = first reader in documented order whose own detect accepts *)
Theorem C20_detect_format_first_match : forall s, s <> [] ->
  detect_format s = Ok (first_accepting documented_order (map (fun r => detect_of r s) documented_order)).
Proof. exact detect_format_first_match. Qed.
Print Assumptions C20_detect_format_first_match.

(* the model meets the property oracle on every string, empty or not *)
Theorem C20_model_ok : forall s,
  ok_detect (match s with [] => false | _ => true end)
            (map (fun r => detect_of r s) documented_order) (detect_format s) = true.
Proof. exact model_ok_detect. Qed.
Print Assumptions C20_model_ok.

(* definitional (first `match` of the model); its value is the correspondence on "" *)
Theorem C20_empty_raises_no_captions : detect_format [] = Err ENoCaptions.
Proof. exact empty_raises_no_captions. Qed.
Print Assumptions C20_empty_raises_no_captions.

(* ---------------- sentence 2: own output, for the four writers that are string builders ---------------- *)
(* A document of the format's shape (spec/SpecOwn.v) assembled from pieces - timing lines / frame prefixes / cue
   texts - none of which contains the marker of a format probed earlier is detected as its own format.  The
   hypothesis is on the PIECES; that no marker forms across piece boundaries is what is proved. *)
Theorem C20_own_output_srt : forall tl txt rest,
  srt_first_ok tl = true -> forallb srt_cue_ok ((tl, txt) :: rest) = true ->
  detect_format (srt_document ((tl, txt) :: rest)) = Ok (Some R_SRT).
Proof. exact own_srt. Qed.
Print Assumptions C20_own_output_srt.
Theorem C20_own_output_mdvd : forall d1 d2 txt rest, ascii_digits d1 = true -> ascii_digits d2 = true ->
  forallb mdvd_cue_ok ((frames_prefix d1 d2, txt) :: rest) = true ->
  detect_format (mdvd_document ((frames_prefix d1 d2, txt) :: rest)) = Ok (Some R_MDVD).
Proof. exact own_mdvd. Qed.
Print Assumptions C20_own_output_mdvd.
Theorem C20_own_output_vtt : forall pieces, forallb (free before_vtt) pieces = true ->
  detect_format (vtt_document pieces) = Ok (Some R_VTT).
Proof. exact own_vtt. Qed.
Print Assumptions C20_own_output_vtt.
Theorem C20_own_output_scc : forall body, forallb scc_body_char body = true ->
  detect_format (scc_document body) = Ok (Some R_SCC).
Proof. exact own_scc. Qed.
Print Assumptions C20_own_output_scc.

(* ---------------- sentence 2 FROM THE TEXT NODES ---------------- *)
(* model/OwnWrite.v writes the document from the caption set (languages -> captions -> text / break / style nodes,
   integer times): SRT with the merging of equal spans, strip / split / blank-line filter and the language separator;
   MicroDVD with line ends and breaks as '|', strip and the trailing-'|' cleanup.  For EVERY caption set whose caption
   texts carry no marker of a format probed earlier (spec/SpecOwnNodes.v) the document is detected as its own format:
   no marker forms across nodes, lines, merged captions, languages, or by the writers' clean-up of the text. *)
Theorem C20_own_nodes_srt : forall langs, srt_dom langs = true ->
  detect_format (srt_write langs) = Ok (Some R_SRT).
Proof. exact own_nodes_srt. Qed.
Print Assumptions C20_own_nodes_srt.
Theorem C20_own_nodes_mdvd : forall langs, mdvd_dom langs = true ->
  detect_format (mdvd_write langs) = Ok (Some R_MDVD).
Proof. exact own_nodes_mdvd. Qed.
Print Assumptions C20_own_nodes_mdvd.

(* WebVTT: no hypothesis on the text at all.  The writer escapes '<' and '&' in text, so every '<' of the document opens
   one of <i> <u> <b> </i> </u> </b>; "</tt>" cannot occur (also not after lower-casing, nor through the "-->"
   replacement applied to the accumulated cue text), and the document starts with the WEBVTT header. *)
Theorem C20_own_nodes_vtt : forall langs, detect_format (vtt_write langs) = Ok (Some R_VTT).
Proof. exact own_nodes_vtt. Qed.
Print Assumptions C20_own_nodes_vtt.

(* SCC from the text nodes: the caption text (OwnWrite.cap_text = "".join(get_text_nodes())) of the first language goes
   through the SCC writer model model/SccWrite.v (wrapping, rows, address codes, character codes, pre-roll,
   timecodes).  Whenever that writer returns a document (it raises IndexError beyond 32 rows) the document is detected
   as SCC: every character behind the header is a hex digit, ':', ';', TAB, blank, newline, 'x' or '-' (table facts over
   the complete regenerated tables).  No hypothesis on text or times. *)
Theorem C20_own_nodes_scc : forall langs doc, scc_write langs = Ok doc -> detect_format doc = Ok (Some R_SCC).
Proof. exact own_nodes_scc. Qed.
Print Assumptions C20_own_nodes_scc.
Theorem C20_scc_writer_body_chars : forall caps doc, write caps = Ok doc ->
  exists body, doc = scc_document body /\ forallb sccp body = true.
Proof. exact write_shape. Qed.
Print Assumptions C20_scc_writer_body_chars.

(* ---------------- "and that reader reads the document" ---------------- *)
(* MicroDVD: on the domain that excludes exactly the two recorded findings of the format (a cue inside frame 0; a cue
   whose text has nothing besides blanks and '|') the reader model of C01 (model/TimeRead.v mdvd_read, used read-only)
   reads the writer model's document and returns ONE caption per written cue, in order, with the instants of the
   written frames at 25 fps and the cue's text pieces. *)
Theorem C20_own_read_mdvd : forall langs, mdvd_read_dom langs = true ->
  mdvd_read (mdvd_write langs) = Ok (map mdvd_expected_cap (concat langs)).
Proof. exact own_read_mdvd. Qed.
Print Assumptions C20_own_read_mdvd.
Theorem C20_own_detect_and_read_mdvd : forall langs, mdvd_dom langs = true -> mdvd_read_dom langs = true ->
  detect_format (mdvd_write langs) = Ok (Some R_MDVD) /\
  exists caps, mdvd_read (mdvd_write langs) = Ok caps /\ length caps = length (concat langs) /\
               map (fun r => (fst (fst r), snd (fst r))) caps
               = map (fun c => (mdvd_frame (oc_start c) * 40000, mdvd_frame (oc_end c) * 40000)) (concat langs).
Proof. exact own_detect_and_read_mdvd. Qed.
Print Assumptions C20_own_detect_and_read_mdvd.

(* SRT: on srt_read_dom - ONE language with a caption (excludes the recorded finding of an empty first
   language; behind the separator line the reader glues the next language to the last cue), every caption has a
   non-blank character and no CR in its text - the reader model of C01 (TimeRead.srt_read, read-only) returns ONE caption
   per written cue (= per caption after the writer's merging of equal timestamps), in order, with the written instants
   (time of day, truncated to milliseconds) and the written text lines.  The document is C01's abstract SRT document
   without the blank line behind the last cue (srt[:-1]). *)
Theorem C20_own_read_srt : forall langs, srt_read_dom langs = true ->
  srt_read (srt_write langs) = Ok (map srt_expected_cap (srt_merge (hd [] langs))).
Proof. exact own_read_srt. Qed.
Print Assumptions C20_own_read_srt.
Theorem C20_own_detect_and_read_srt : forall langs, srt_dom langs = true -> srt_read_dom langs = true ->
  detect_format (srt_write langs) = Ok (Some R_SRT) /\
  exists caps, srt_read (srt_write langs) = Ok caps /\ length caps = length (srt_merge (hd [] langs)) /\
               map (fun r => (fst (fst r), snd (fst r))) caps
               = map (fun c => ((td_seconds (oc_start c) * 1000 + td_millis (oc_start c)) * 1000,
                                (td_seconds (oc_end c) * 1000 + td_millis (oc_end c)) * 1000)) (srt_merge (hd [] langs)).
Proof. exact own_detect_and_read_srt. Qed.
Print Assumptions C20_own_detect_and_read_srt.

(* DFXP from the text nodes: the document of the string-level DFXP writer model (C02's
   model/DfxpWriteDoc.v; one language, text lines, no style / layout) closes the root element with "</tt>": it is
   detected as DFXP for EVERY caption list and language code, whatever the text (the writer escapes it; not even needed). *)
Theorem C20_own_nodes_dfxp : forall lang caps, detect_format (dfxp_write_nodes lang caps) = Ok (Some R_DFXP).
Proof. exact own_nodes_dfxp. Qed.
Print Assumptions C20_own_nodes_dfxp.
Theorem C20_own_dfxp_doc_model : forall lang cs, detect_format (dfxp_write_doc lang cs) = Ok (Some R_DFXP).
Proof. exact own_dfxp_doc. Qed.
Print Assumptions C20_own_dfxp_doc_model.

(* DFXP / SAMI (documents produced by bs4, not modelled): what detection needs of their skeleton.  A document that
   contains the root element's closing tag is DFXP whatever else it contains; a document that opens with the <sami root
   tag and carries neither "</tt>" (any case) nor "WEBVTT" is SAMI.  Stream F checks every real DFXP / SAMI output to be
   such an instance. *)
(* DEFINITIONAL: this is the DFXP sniffer itself (first in the order) + is_infix of an append; it says nothing
   about DFXPWriter - C20_own_nodes_dfxp does, through the string-level writer model *)
Theorem C20_own_output_dfxp_skeleton_unfold : forall pre post, detect_format (dfxp_document pre post) = Ok (Some R_DFXP).
Proof. exact own_dfxp_skeleton. Qed.
Print Assumptions C20_own_output_dfxp_skeleton_unfold.
Theorem C20_own_output_sami_skeleton : forall rest, free before_sami (sami_document rest) = true ->
  detect_format (sami_document rest) = Ok (Some R_SAMI).
Proof. exact own_sami_skeleton. Qed.
Print Assumptions C20_own_output_sami_skeleton.

(* ---------------- history ---------------- *)
(* record of the repaired defect (e1d5b58): the pinned SRT sniffer raised IndexError on "1".
   detect_srt_prefix mirrors nothing in the current tree. *)
Theorem C20_srt_detect_index_refuted : exists s, s <> [] /\ is_crash (detect_srt_prefix s) = true.
Proof. exact srt_detect_index_refuted. Qed.
Print Assumptions C20_srt_detect_index_refuted.

(* ---------------- non-vacuity ---------------- *)
Example C20_example : detect_format (lit "12
00:00:01,000 --> 00:00:02,000
hi") = Ok (Some R_SRT).
Proof. vm_compute. reflexivity. Qed.

(* the order clause: several sniffers accept, the first in the documented order wins *)
Example C20_example_order :
  detect_format (lit "{1}{2}WEBVTT</tt>") = Ok (Some R_DFXP) /\
  detect_format (lit "{1}{2}WEBVTT<sami") = Ok (Some R_MDVD) /\
  detect_format (lit "WEBVTT<sami") = Ok (Some R_VTT) /\
  map (fun r => detect_of r (lit "{1}{2}WEBVTT</tt>")) documented_order
    = [Ok true; Ok true; Ok true; Ok false; Ok false; Ok false].
Proof. vm_compute. repeat split. Qed.

(* SRT and SCC see a single empty line; the empty string; nothing accepts *)
Example C20_example_blank :
  detect_format [10] = Ok None /\ detect_format [32] = Ok None /\ detect_format [] = Err ENoCaptions /\
  detect_of R_SRT [10] = Ok false /\ detect_of R_SCC [] = Err IndexError /\ detect_format (lit "1") = Ok None.
Proof. vm_compute. repeat split. Qed.

(* outside ASCII: U+0130 lowers to "i" + U+0307, superscript two and Arabic-Indic one are str.isdigit,
   Arabic-Indic / fullwidth digits match \d, superscript two does not *)
Example C20_example_unicode :
  detect_format (lit "<sam" ++ [304]) = Ok (Some R_SAMI) /\
  detect_format ([178; 10] ++ lit "-->") = Ok (Some R_SRT) /\
  detect_format ([1633; 10] ++ lit "-->") = Ok (Some R_SRT) /\
  detect_format ([123; 1633; 125; 123; 65297; 125]) = Ok (Some R_MDVD) /\
  detect_format ([123; 178; 125; 123; 49; 125]) = Ok None /\
  detect_format (lit "</t" ++ [305] ++ lit "t>") = Ok None /\
  detect_format ([8490]) = Ok None.
Proof. vm_compute. repeat split. Qed.

(* the own-output theorems have satisfiable hypotheses; the texts carry LATER formats' markers and near misses *)
Example C20_example_own_srt :
  let cues := [(lit "00:00:01,000 --> 00:00:02,000", lit "Scenarist_SCC V1.0" ++ [10] ++ lit "{1}{2} </tt");
               (lit "00:00:03,000 --> 00:00:04,000", lit "1")] in
  srt_first_ok (fst (hd ([], []) cues)) = true /\ forallb srt_cue_ok cues = true /\
  srt_document cues = lit "1
00:00:01,000 --> 00:00:02,000
Scenarist_SCC V1.0
{1}{2} </tt

2
00:00:03,000 --> 00:00:04,000
1
" /\ detect_format (srt_document cues) = Ok (Some R_SRT).
Proof. vm_compute. repeat split. Qed.

Example C20_example_own_mdvd :
  let cues := [(frames_prefix (lit "25") (lit "50"), lit "WEBVTT|<sami>"); (lit "{75}{100}", lit "-->")] in
  forallb mdvd_cue_ok cues = true /\
  mdvd_document cues = lit "{25}{50}WEBVTT|<sami>
{75}{100}-->
" /\ detect_format (mdvd_document cues) = Ok (Some R_MDVD).
Proof. vm_compute. repeat split. Qed.

Example C20_example_own_vtt_scc :
  forallb (free before_vtt) [lit "00:01.000 --> 00:02.000"; lit "<sami> {1}{2}"; []] = true /\
  detect_format (vtt_document [lit "00:01.000 --> 00:02.000"; lit "<sami> {1}{2}"; []]) = Ok (Some R_VTT) /\
  forallb scc_body_char (lit "00:00:01:00	94ae 94ae 9420 9420 9470 9470 6162 942c 942c 942f 942f") = true /\
  detect_format (scc_document (lit "00:00:01:00	94ae 9420")) = Ok (Some R_SCC).
Proof. vm_compute. repeat split. Qed.

(* the hypotheses matter: a piece carrying an earlier format's marker is rejected by them, and rightly so *)
Example C20_example_own_needs_hypothesis :
  srt_cue_ok (lit "00:00:01,000 --> 00:00:02,000", lit "x</TT>") = false /\
  detect_format (srt_document [(lit "00:00:01,000 --> 00:00:02,000", lit "x</TT>")]) = Ok (Some R_DFXP).
Proof. vm_compute. repeat split. Qed.

(* the node-level theorems: satisfiable hypotheses, later formats' markers in the text, a merged pair of captions, two
   languages; and the hypothesis is needed - "</t" and "t>" in two adjacent text nodes form the DFXP marker *)
Example C20_example_own_nodes_srt :
  let langs := [[mk_ocap 1000000 2000000 [OText (lit "WEB"); OStyle true true false false; OText (lit " VTT {1}{2}"); OBreak;
                                          OText ([32; 10; 32; 10] ++ lit "Scenarist_SCC V1.0")];
                 mk_ocap 1000000 2000000 [OText (lit "-->")]];
                [mk_ocap (-5) 90000000000 [OText (lit "</t t>")]]] in
  srt_dom langs = true /\
  srt_write langs = lit "1
00:00:01,000 --> 00:00:02,000
WEB VTT {1}{2}
Scenarist_SCC V1.0
-->
MULTI-LANGUAGE SRT
1
23:59:59,999 --> 01:00:00,000
</t t>
" /\ detect_format (srt_write langs) = Ok (Some R_SRT).
Proof. vm_compute. repeat split. Qed.

Example C20_example_own_nodes_mdvd :
  let langs := [[]; [mk_ocap 0 39999 [OText (lit "a" ++ [13; 10] ++ lit "b" ++ [13]); OBreak; OText (lit "WEBVTT|")];
                     mk_ocap 1000000 2000000 [OText (lit "<sami> </tt "); OStyle false true false false; OText (lit ">")]]] in
  mdvd_dom langs = true /\
  mdvd_write langs = lit "{0}{0}a|b||WEBVTT
{25}{50}<sami> </tt >
" /\ detect_format (mdvd_write langs) = Ok (Some R_MDVD).
Proof. vm_compute. repeat split. Qed.

Example C20_example_own_nodes_needs_hypothesis :
  let langs := [[mk_ocap 0 1000000 [OText (lit "</t"); OText (lit "T>")]]] in
  srt_dom langs = false /\ mdvd_dom langs = false /\
  detect_format (srt_write langs) = Ok (Some R_DFXP) /\ detect_format (mdvd_write langs) = Ok (Some R_DFXP).
Proof. vm_compute. repeat split. Qed.

(* WebVTT from the nodes: the text carries every marker and the pieces the writer rewrites *)
Example C20_example_own_nodes_vtt :
  let langs := [[mk_ocap 3600000000 3601000000
                   [OBreak; OText (lit "</tt> & --"); OText (lit "> <sami"); OStyle true true false true;
                    OText []; OStyle false true false true; OBreak; OBreak]]] in
  vtt_write langs = lit "WEBVTT

01:00:00.000 --> 01:00:01.000
&nbsp;
&lt;/tt> &amp; --&gt; &lt;sami<i><b>&nbsp;</b></i>&nbsp;
&nbsp;

" /\ detect_format (vtt_write langs) = Ok (Some R_VTT) /\
  detect_format (vtt_write []) = Ok (Some R_VTT) /\ vtt_write [[]; []] = lit "WEBVTT

".
Proof. vm_compute. repeat split. Qed.

Example C20_example_skeletons :
  detect_format (dfxp_document (lit "<tt><body>WEBVTT {1}{2}</body>") [10]) = Ok (Some R_DFXP) /\
  free before_sami (sami_document (lit "><body>{1}{2} --></body></sami>")) = true /\
  detect_format (sami_document (lit "><body>{1}{2} --></body></sami>")) = Ok (Some R_SAMI).
Proof. vm_compute. repeat split. Qed.

(* SCC from the nodes: text made of the other formats' markers *)
Example C20_example_own_nodes_scc :
  let langs := [[mk_ocap 2000000 4000000 [OText (lit "</tt> WEBVTT"); OBreak; OText (lit "<sami {1}{2} -->")]]] in
  match scc_write langs with
  | Ok doc => detect_format doc = Ok (Some R_SCC) /\ is_prefix (lit "Scenarist_SCC V1.0") doc = true
  | Err _ => False
  end.
Proof. vm_compute. split; reflexivity. Qed.

(* reading back: the hypotheses are satisfiable, and each one is needed - the witnesses of the recorded findings lie
   outside the domain and violate the conclusion (frame-0 cue: the reader takes the line for the frame-rate header and
   fails on the rate; '|'-only cue: no captions; SRT with an empty first language: not even detected) *)
Example C20_example_read_mdvd :
  let ok := [[mk_ocap 1000000 2000000 [OText (lit "a|b"); OBreak; OText (lit "c")]]; [mk_ocap 0 40000 [OText (lit "x")]]] in
  mdvd_read_dom ok = true /\
  mdvd_read (mdvd_write ok) = Ok [(1000000, 2000000, [lit "a"; lit "b"; lit "c"]); (0, 40000, [lit "x"])] /\
  let f0 := [[mk_ocap 0 30000 [OText (lit "hello")]]] in
  mdvd_read_dom f0 = false /\ mdvd_dom f0 = true /\ mdvd_read (mdvd_write f0) = Err ETiming /\
  let bar := [[mk_ocap 423940689 424940688 [OText (lit "|")]]] in
  mdvd_read_dom bar = false /\ mdvd_dom bar = true /\ mdvd_read (mdvd_write bar) = Err ENoCaptions /\
  let e1 := [[]; [mk_ocap 1000000 2000000 [OText (lit "x")]]] in
  srt_read_dom e1 = false /\ srt_dom e1 = false /\ detect_format (srt_write e1) = Ok None.
Proof. vm_compute. repeat split. Qed.

(* SRT read-back: satisfiable (two captions with equal timestamps are ONE written cue), and every hypothesis is needed:
   a second language is glued to the last cue; a blank caption is written without text and read back with one empty line instead of no line; a CR inside the text
   splits a line (CR CR even ends the cue: the rest of the document is not read) *)
Example C20_example_read_srt :
  let ok := [[mk_ocap 1000000 2000500 [OText (lit "a"); OBreak; OText (lit " b ")]; mk_ocap 1000000 2000500 [OText (lit "c")];
              mk_ocap 3000000 4000000 [OText (lit "-->")]]] in
  srt_read_dom ok = true /\
  srt_read (srt_write ok) = Ok [(1000000, 2000000, [lit "a"; [32; 98; 32]; lit "c"]); (3000000, 4000000, [lit "-->"])] /\
  let two := [[mk_ocap 1000000 2000000 [OText (lit "a")]]; [mk_ocap 1000000 2000000 [OText (lit "b")]]] in
  srt_read_dom two = false /\ srt_dom two = true /\
  srt_read (srt_write two) = Ok [(1000000, 2000000, [lit "a"; lit "MULTI-LANGUAGE SRT"; lit "1"; lit "00:00:01,000 --> 00:00:02,000"; lit "b"])] /\
  let blank := [[mk_ocap 1000000 2000000 [OText (lit " ")]; mk_ocap 3000000 4000000 [OText (lit "x")]]] in
  srt_read_dom blank = false /\ srt_dom blank = true /\ srt_read (srt_write blank) = Ok [(1000000, 2000000, [[]]); (3000000, 4000000, [lit "x"])] /\
  let cr := [[mk_ocap 1000000 2000000 [OText (lit "a" ++ [13; 13] ++ lit "b")]; mk_ocap 3000000 4000000 [OText (lit "x")]]] in
  srt_read_dom cr = false /\ srt_dom cr = true /\ srt_read (srt_write cr) = Ok [(1000000, 2000000, [lit "a"])].
Proof. vm_compute. repeat split. Qed.

Example C20_example_own_nodes_dfxp :
  detect_format (dfxp_write_nodes (lit "en-US")
    [mk_ocap 1000000 2000000 [OText (lit "WEBVTT {1}{2}"); OBreak; OText (lit "<sami> Scenarist_SCC V1.0 -->")]]) = Ok (Some R_DFXP).
Proof. vm_compute. reflexivity. Qed.
