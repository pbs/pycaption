(* C16 - Roll-up and paint-on SCC text is conserved and ordered.
   Models: model/SccDecoder.v (whole decoder), model/SccStash.v, model/SccRollPaint.v (flush events).
   Spec: spec/SpecScc16.v (oracle used on the implementation). Theorems are closed by `exact` from coq/proofs; the Examples are
   evaluated. *)
From Coq Require Import List ZArith QArith Bool.
From PV Require Import lib.Sx lib.Str lib.Result model.GenScc model.SccTime model.SccStash model.SccDecoder model.SccPopon model.SccRollPaint.
From PV Require Import spec.SpecSccTime.
From PV Require Import proofs.SccStashFacts proofs.SccItalicsFacts proofs.SccDoubleFacts proofs.SccConserveFacts proofs.SccRollPaintFacts proofs.SccConserveExtFacts proofs.SccRollPaintLinkFacts proofs.SccRollPaintLink2Facts.
From PV Require Import spec.Spec608 spec.SpecScc16Sent proofs.SccSent608Facts.
Import ListNotations.
Open Scope Z_scope.

(* MAIN (conservation, on the whole decoder model): for EVERY stream that starts with a roll-up 2/3/4 or
   resume-direct-captioning command and uses roll-up / paint-on code words (mode commands, carriage return, preamble
   address codes, tab offsets, special characters, character pairs and fillers; any number of lines, any timecodes),
   the non-blank characters of the captions returned are exactly the non-blank characters handed to the buffer, each
   once, in transmission order - a doubled code counting once, as decided by the decoder's own doubling memory.
   (Blanks are excluded because the reader strips blanks at line ends.) *)
Theorem C16_rollup_painton_conserved : forall off tc0 w0 ws0 ls caps,
  (w0 = w_ru2 \/ w0 = w_ru3 \/ w0 = w_ru4 \/ w0 = w_rdc) ->
  forallb rp_word ws0 = true -> forallb (fun l => forallb rp_word (snd l)) ls = true ->
  read off ((tc0, w0 :: ws0) :: ls) = ROk caps ->
  nonspace (caps_text caps) = nonspace (sent_lines (rstate0 off) ((tc0, w0 :: ws0) :: ls)).
Proof. exact rollup_painton_conserved. Qed.
Print Assumptions C16_rollup_painton_conserved.

(* The same for the WIDER alphabet with extended characters, backspace and Erase-Displayed-Memory: the text of the returned
   captions is the result of the explicit edit script `sentx_text` (proofs/SccConserveExtFacts.v): a character word appends,
   an extended character erases the last character of the ACTIVE buffer unless that is itself an extended character (or the
   buffer is empty) and appends, a backspace erases one character, a flush closes the buffer; doubled codes count once *)
Theorem C16_rollup_painton_conserved_ext : forall off tc0 w0 ws0 ls caps,
  (w0 = w_ru2 \/ w0 = w_ru3 \/ w0 = w_ru4 \/ w0 = w_rdc) ->
  forallb rpb_word ws0 = true -> forallb (fun l => forallb rpb_word (snd l)) ls = true ->
  read off ((tc0, w0 :: ws0) :: ls) = ROk caps ->
  nonspace (caps_text caps) = nonspace (sentx_text (rstate0 off) ((tc0, w0 :: ws0) :: ls)).
Proof. exact rollup_painton_conserved_ext. Qed.
Print Assumptions C16_rollup_painton_conserved_ext.
(* a mid-row code changes nothing but blanks (at most one, at the end of the active buffer's text) *)
Theorem C16_rpx_step_mid : forall s w next, rp_inv s -> memz w scc_mid_row_codes = true -> r_err s = None ->
  let s' := translate_word s w next in
  stash_text (r_stash s') = stash_text (r_stash s) /\
  (content (buf s') = content (buf s) \/ content (buf s') = content (buf s) ++ [32]) /\
  nonspace (content (buf s')) = nonspace (content (buf s)) /\ rp_inv s'.
Proof. exact rpx_step_mid. Qed.
Print Assumptions C16_rpx_step_mid.

(* the step invariant behind it: one word of the alphabet adds exactly its characters to (stored captions ++ buffer) *)
Theorem C16_rp_step : forall s w next, rp_inv s -> rp_word w = true -> r_err s = None ->
  let s' := translate_word s w next in r_err s' = None ->
  total s' = total s ++ nonspace (if fst (handle_double s w) then [] else word_chars w) /\ rp_inv s'.
Proof. exact rp_step. Qed.
Print Assumptions C16_rp_step.
Theorem C16_rp_enter : forall off tc w next, (w = w_ru2 \/ w = w_ru3 \/ w = w_ru4 \/ w = w_rdc) ->
  let s := translate_word (set_clock (rstate0 off) tc 0) w next in r_err s = None -> rp_inv s /\ total s = [].
Proof. exact rp_enter. Qed.
Print Assumptions C16_rp_enter.

(* buffer -> captions: italics passes, caption building and the caption list lose no non-blank character *)
Theorem C16_create_and_store_text : forall s c start e, SccDoubleFacts.wf_nodes (cr_nodes c) ->
  nonspace (stash_text (create_and_store s c start e)) = nonspace (stash_text s) ++ nonspace (content c).
Proof. exact create_and_store_text. Qed.
Print Assumptions C16_create_and_store_text.
Theorem C16_format_italics_nonspace : forall l, SccItalicsFacts.wf_nodes l ->
  nonspace (concat (map i_text (format_italics l))) = nonspace (concat (map i_text l)).
Proof. exact format_italics_nonspace. Qed.
Print Assumptions C16_format_italics_nonspace.
(* rows kept together / order: the caption list never drops, reorders or edits the nodes of a stored caption *)
Theorem C16_order_kept : forall ops,
  map pc_start (st_caps (srun ops)) = map pc_start (stored ops) /\
  map pc_nodes (st_caps (srun ops)) = map pc_nodes (stored ops).
Proof. exact srun_order. Qed.
Print Assumptions C16_order_kept.

(* TIMING CHAIN: the reader's flush logic (roll-up: store + forced end-time correction; paint-on: store, end set by the
   next store) run on ANY sequence of flush events with positive instants yields the chain through those instants:
   each caption ends exactly when the next begins; a paint-on caption still open at the end lasts 4 s *)
Theorem C16_timing_chain_all : forall t0 evs pending, rp_positive t0 evs ->
  rp_read t0 evs pending = rp_expected_all t0 evs pending.
Proof. exact rp_chain_all. Qed.
Print Assumptions C16_timing_chain_all.
Theorem C16_timing_chain : forall t0 evs pending, rp_positive t0 evs ->
  (pending = false -> ends_in_paint evs = false) ->
  rp_read t0 evs pending = rp_expected t0 evs pending.
Proof. exact rp_chain. Qed.
Print Assumptions C16_timing_chain.
Theorem C16_ends_meet : forall t0 evs pending l, rp_positive t0 evs ->
  (pending = false -> ends_in_paint evs = false) ->
  rp_read t0 evs pending = Ok l ->
  forall i a b, nth_error l i = Some a -> nth_error l (S i) = Some b -> snd a = fst b.
Proof. exact rp_chain_ends_meet. Qed.
Print Assumptions C16_ends_meet.

(* t0 = 0 is allowed (a stream that starts at 00:00:00:00), and INCREASING instants give what the statement says about order:
   start < end for every caption, strictly increasing starts, each caption ends exactly when the next begins. (rp_read is an
   event-level model: it is tied to the reader model by C16_rp_link on the program class stated there, and beyond that class by
   execution only - harness request 1602 vs the implementation.) *)
Theorem C16_timing_chain_nonneg : forall t0 evs pending, rp_nonneg t0 evs ->
  rp_read t0 evs pending = rp_expected_all t0 evs pending.
Proof. exact rp_chain_all_nonneg. Qed.
Print Assumptions C16_timing_chain_nonneg.
Theorem C16_timing_chain_ordered : forall t0 evs pending l, rp_nonneg t0 evs -> increasing t0 (map rp_time evs) ->
  rp_read t0 evs pending = Ok l ->
  Forall (fun p => (fst p < snd p)%Q) l /\
  (forall i a b, nth_error l i = Some a -> nth_error l (S i) = Some b -> (fst a < fst b)%Q /\ snd a = fst b).
Proof. exact rp_chain_ordered. Qed.
Print Assumptions C16_timing_chain_ordered.

(* ---- conservation against an INDEPENDENT definition of "the characters transmitted". spec/SpecScc16Sent.v
   (imports Spec608 only: no decoder model, no generated table) defines sent608: the characters a CEA-608 decoder displays
   for a roll-up / paint-on word stream - glyphs from the Spec608 tables by the bytes of the word with parity stripped, the
   608 rule that a control pair immediately repeating the previous word is the redundancy copy (unless that word was itself
   a copy), an extended character replacing the stand-in before it. On the domain dom608 (also written with Spec608
   recognisers only: parity-correct mode commands, CR, EDM, preamble codes, tab offsets, special / extended characters,
   character pairs 0x20..0x7e, fillers; a tab offset only after a preamble code / tab offset / copy; an extended character
   only right after the pair or special carrying its stand-in) the decoder's own edit script equals sent608 - as strings -
   and so do the non-blank characters of the captions `read` returns. The three restrictions are necessary (Examples in
   proofs/SccSent608Facts.v: tab_after_special_diverges, ext_after_ext_diverges, no_error_hypothesis_needed). *)
Theorem C16_skip_decision_is_608 : forall s m w, alpha608 w = true -> Inv m (r_last s) ->
  (is_pac608 w || is_tab608 w) = false -> fst (handle_double s w) = copy608 m w.
Proof. exact skip_decision_608. Qed.
Print Assumptions C16_skip_decision_is_608.
Theorem C16_sentx_is_sent608 : forall off ls, dom608 ls = true ->
  r_err (fold_left translate_line ls (rstate0 off)) = None ->
  sentx_text (rstate0 off) ls = sent608 (map snd ls).
Proof. exact sentx_is_sent608. Qed.
Print Assumptions C16_sentx_is_sent608.
Theorem C16_rollup_painton_conserved_608 : forall off tc0 w0 ws0 ls caps,
  (w0 = w_ru2 \/ w0 = w_ru3 \/ w0 = w_ru4 \/ w0 = w_rdc) ->
  dom608 ((tc0, w0 :: ws0) :: ls) = true ->
  read off ((tc0, w0 :: ws0) :: ls) = ROk caps ->
  nonspace (caps_text caps) = nonspace (sent608 (map snd ((tc0, w0 :: ws0) :: ls))).
Proof. exact rollup_painton_conserved_608. Qed.
Print Assumptions C16_rollup_painton_conserved_608.

Example C16_conserved_608_instance :
  dom608 ex608 = true /\
  sent608 (map snd ex608) = [97; 98; 174; 99; 193; 99; 100] /\
  sentx_text (rstate0 0) ex608 = [97; 98; 174; 99; 193; 99; 100] /\
  exists caps, read 0 ex608 = ROk caps /\ nonspace (caps_text caps) = [97; 98; 174; 99; 193; 99; 100].
Proof. exact rollup_painton_conserved_608_example. Qed.

(* ---- the event model is LINKED to the reader model by a theorem. A roll-up / paint-on program is a list of
   timecode lines `head PAC chars` (rseg): head = RU2/RU3/RU4 with or without a carriage return, a bare carriage return, or
   Resume-Direct-Captioning; one row of character pairs per line with at least one visible character and at most 32;
   depths and modes mixed freely; control codes all single or all doubled. The flush events of the decoder on such a
   program - their kinds, their instants (get_time of the line's timecode at word 0; the end-of-file roll-up at the word
   count of the last line) and the pending paint-on buffer - are exactly the rp events: spans_of (read ..) = rp_read ..
   Outside this class (several rows per line, tab offsets, special / extended characters, mid-row codes, backspace, a flush
   in the middle of a line, mixed per-code doubling, switches to pop-on) the link stays by execution (harness request 1602). *)
Theorem C16_rp_link : forall dd off g0 gs t0 evs tend,
  sg_head g0 <> HCr -> forallb seg_ok (g0 :: gs) = true ->
  get_time (sg_tc g0) 0 off = Ok t0 ->
  rp_events off (seg_paint false g0) gs = Ok evs ->
  (final_paint (seg_paint false g0) gs = false ->
   get_time (sg_tc (last gs g0)) (Z.of_nat (length (rseg_words dd (last gs g0)))) off = Ok tend) ->
  spans_of (read off (map (rseg_line dd) (g0 :: gs))) =
  rp_read t0 (evs ++ (if final_paint (seg_paint false g0) gs then [] else [RRoll tend]))
          (final_paint (seg_paint false g0) gs).
Proof. exact rp_link. Qed.
Print Assumptions C16_rp_link.
(* for rendered well-formed timecodes every instant exists *)
Theorem C16_rp_link_total : forall dd off g0 gs,
  sg_head g0 <> HCr -> forallb seg_ok (g0 :: gs) = true -> Forall wf_tc (g0 :: gs) ->
  exists t0 evs tend,
    get_time (sg_tc g0) 0 off = Ok t0 /\ rp_events off (seg_paint false g0) gs = Ok evs /\
    get_time (sg_tc (last gs g0)) (Z.of_nat (length (rseg_words dd (last gs g0)))) off = Ok tend /\
    spans_of (read off (map (rseg_line dd) (g0 :: gs))) =
    rp_read t0 (link_events g0 gs evs tend) (final_paint (seg_paint false g0) gs).
Proof. exact rp_link_total. Qed.
Print Assumptions C16_rp_link_total.
(* hence the chain-timing statements hold for what READ returns: start < end, ordered, each caption ends exactly when the
   next begins *)
Theorem C16_read_chain_ordered : forall dd off g0 gs t0 evs tend l,
  sg_head g0 <> HCr -> forallb seg_ok (g0 :: gs) = true ->
  get_time (sg_tc g0) 0 off = Ok t0 ->
  rp_events off (seg_paint false g0) gs = Ok evs ->
  (final_paint (seg_paint false g0) gs = false ->
   get_time (sg_tc (last gs g0)) (Z.of_nat (length (rseg_words dd (last gs g0)))) off = Ok tend) ->
  rp_nonneg t0 (link_events g0 gs evs tend) ->
  increasing t0 (map rp_time (link_events g0 gs evs tend)) ->
  spans_of (read off (map (rseg_line dd) (g0 :: gs))) = Ok l ->
  Forall (fun p => (fst p < snd p)%Q) l /\
  (forall i a b, nth_error l i = Some a -> nth_error l (S i) = Some b -> (fst a < fst b)%Q /\ snd a = fst b).
Proof. exact read_rp_ordered. Qed.
Print Assumptions C16_read_chain_ordered.
(* pure roll-up (every line headed by its RU command): the spans read ARE the chain through the line instants *)
Theorem C16_rollup_read_is_chain : forall dd off g0 gs t0 ts tend l,
  forallb is_ru (g0 :: gs) = true -> forallb seg_ok (g0 :: gs) = true ->
  get_time (sg_tc g0) 0 off = Ok t0 -> instants off gs = Ok ts ->
  get_time (sg_tc (last gs g0)) (Z.of_nat (length (rseg_words dd (last gs g0)))) off = Ok tend ->
  (0 <= t0)%Q -> increasing t0 (ts ++ [tend]) ->
  spans_of (read off (map (rseg_line dd) (g0 :: gs))) = Ok l ->
  l = chain t0 (ts ++ [tend]) /\ Forall (fun p => (fst p < snd p)%Q) l /\
  (forall i a b, nth_error l i = Some a -> nth_error l (S i) = Some b -> (fst a < fst b)%Q /\ snd a = fst b).
Proof. exact rollup_read_ordered. Qed.
Print Assumptions C16_rollup_read_is_chain.
(* the same link for a wider class of lines (rseg4 = flags x rseg3): the row may carry special characters and a tab offset
   (doubled as the unit PAC TO PAC TO), a second row on the NEXT screen row may follow on the line (one caption with a line
   break), and every line has its own doubling flags per class of code (mode command, carriage return, each preamble unit,
   the specials of each row). A special character sent once must not repeat the one before it (it would be taken for the
   redundancy copy: Example no_rep_needed in proofs/SccRollPaintLink2Facts.v). Rows on NON-adjacent screen rows in one buffer
   give several captions sharing a span, so there the link holds only up to `screens` (Example nonadjacent_rows_duplicate);
   extended characters, backspace, mid-row codes and a flush in the middle of a line remain execution-only. *)
Theorem C16_rp_link_wide : forall off g0 gs t0 evs tend,
  s2_head (s3_line (snd g0)) <> HCr -> forallb seg_ok4 (g0 :: gs) = true ->
  get_time (s2_tc (s3_line (snd g0))) 0 off = Ok t0 ->
  rp_events off (seg_paint false (skel4 g0)) (map skel4 gs) = Ok evs ->
  (final_paint (seg_paint false (skel4 g0)) (map skel4 gs) = false ->
   get_time (s2_tc (s3_line (snd (last gs g0)))) (Z.of_nat (length (rseg4_words (last gs g0)))) off = Ok tend) ->
  spans_of (read off (map rseg4_line (g0 :: gs))) =
  rp_read t0 (link_events (skel4 g0) (map skel4 gs) evs tend) (final_paint (seg_paint false (skel4 g0)) (map skel4 gs)).
Proof. exact rp_link4. Qed.
Print Assumptions C16_rp_link_wide.
Theorem C16_read_chain_ordered_wide : forall off g0 gs t0 evs tend l,
  s2_head (s3_line (snd g0)) <> HCr -> forallb seg_ok4 (g0 :: gs) = true ->
  get_time (s2_tc (s3_line (snd g0))) 0 off = Ok t0 ->
  rp_events off (seg_paint false (skel4 g0)) (map skel4 gs) = Ok evs ->
  (final_paint (seg_paint false (skel4 g0)) (map skel4 gs) = false ->
   get_time (s2_tc (s3_line (snd (last gs g0)))) (Z.of_nat (length (rseg4_words (last gs g0)))) off = Ok tend) ->
  rp_nonneg t0 (link_events (skel4 g0) (map skel4 gs) evs tend) ->
  increasing t0 (map rp_time (link_events (skel4 g0) (map skel4 gs) evs tend)) ->
  spans_of (read off (map rseg4_line (g0 :: gs))) = Ok l ->
  l = rp_spans t0 (link_events (skel4 g0) (map skel4 gs) evs tend) (final_paint (seg_paint false (skel4 g0)) (map skel4 gs)) /\
  Forall (fun p => (fst p < snd p)%Q) l /\
  (forall i a b, nth_error l i = Some a -> nth_error l (S i) = Some b -> (fst a < fst b)%Q /\ snd a = fst b).
Proof. exact read_rp_ordered4. Qed.
Print Assumptions C16_read_chain_ordered_wide.
Example C16_rp_link_wide_instance :
  map rseg4_line [ex4_x1; ex4_x2; ex4_x3] =
    [(lit "00:00:01:00", [37925; 37925; 38061; 37232; 24930; 37440; 38817; 37440; 38817; 37175; 58212]);
     (lit "00:00:03:00", [38061; 38000; 37175; 58854]);
     (lit "00:00:05:10", [37929; 37232; 38691; 37232; 38691; 26472; 37296])] /\
  spans_of (read 0 (map rseg4_line [ex4_x1; ex4_x2; ex4_x3])) =
    rp_read 1001000 [RRoll 3003000; RRoll (16016000 # 3)] true /\
  spans_of (read 0 (map rseg4_line [ex4_x1; ex4_x2; ex4_x3])) =
    Ok [(1001000, 3003000); (3003000, 16016000 # 3); (16016000 # 3, (16016000 # 3) + four_s)]%Q.
Proof. exact rp_link4_example. Qed.

(* non-vacuity: three doubled roll-up lines "abcd" / "ef" / "ghij" *)
Example C16_rp_link_instance :
  spans_of (read 0 (map (rseg_line true) [ex_g1; ex_g2; ex_g3])) =
    rp_read 1001000 [RPaint 3003000; RPaint (16016000 # 3); RRoll 5605600] false /\
  spans_of (read 0 (map (rseg_line true) [ex_g1; ex_g2; ex_g3])) =
    Ok [(1001000, 3003000); (3003000, 16016000 # 3); (16016000 # 3, 5605600)]%Q.
Proof. exact (proj2 (proj2 (proj2 (proj2 rollup_link_example)))). Qed.

(* non-vacuity: a roll-up stream  RU2 CR PAC "ab" / CR PAC "cd"  read by the model *)
Example C16_example :
  match read 0 [(lit "00:00:01:00", [w_ru2; w_ru2; w_cr; w_cr; 38000; 38000; 24930]);
                (lit "00:00:03:00", [w_cr; w_cr; 38000; 38000; 58212])] with
  | ROk [c1; c2] => caps_text [c1; c2] = [97; 98; 99; 100] /\ Qeq_bool (pc_end c1) (pc_start c2) = true
  | _ => False
  end.
Proof. vm_compute. split; reflexivity. Qed.

(* ---- the two known findings about rows WITHOUT a displayable character, as Examples (single closed streams, vm_compute) about the decoder model
   (known_findings.d/C16-gap-after-empty-row.json, C16-blank-only-row.json; the harness reproduces both against the real
   reader on every run). The chain clause "each caption ends exactly when the next one begins" FAILS on these well-formed
   streams: a gap after a paint-on passage of null padding; a caption left with end 0 (start > end) before a roll-up row of
   blanks ----------------------------------------------------------------------------------------------------------- *)
From PV Require Import proofs.SccRollPaintFindingFacts.
Example C16_gap_after_empty_row_refuted : exists s1 e1 s2 e2,
  spans_of (read 0 gap_witness) = Ok [(s1, e1); (s2, e2)] /\ (s1 < e1)%Q /\ (e1 < s2)%Q.
Proof. exact gap_after_empty_row_refuted. Qed.
Example C16_blank_only_row_refuted : exists s1 e1 s2 e2,
  spans_of (read 0 blank_row_witness) = Ok [(s1, e1); (s2, e2)] /\ (0 < s1)%Q /\ (e1 == 0)%Q /\ (s1 < s2)%Q.
Proof. exact blank_only_row_refuted. Qed.
