(* C11 - italic, bold and underline spans survive conversion and stay balanced.
   Only statements closed by `exact`, each followed by Print Assumptions, plus non-vacuity Examples.
   Spec: spec/SpecTextStyle.v (flags per visible character, balanced, flat_balanced, well_nested).
   Writer markup: model/TextStyle.v = the writer models of model/TextWrite.v instrumented with the markup events
   they write (erasure theorems below).  Reader models: model/TextRead.v.  Round trips on the models: the *_roundtrip_flags theorems below; closure (*_roundtrip_closed: reader-model output on written
   payloads of the domain is flat_balanced, i.e. the end node repeats the start node) and the cross-format chains DFXP<->SAMI on the payload
   models (C11_chain_*); reader -> WebVTT, layout groups, documents and the real libraries are judged by execution (harness/props/C11.py).
   `balanced` (the *_reader_balanced theorems, all trees) counts depth only. *)
From Coq Require Import List ZArith Bool.
From PV Require Import lib.Sx lib.Str model.TextNodes model.TextWrite model.TextRead model.TextStyle.
From PV Require Import spec.SpecTextXml spec.SpecTextStyle proofs.TextStyleFacts.
From PV Require Import proofs.TextPayloadFacts proofs.TextRoundtripFacts proofs.TextAttrFacts proofs.TextAttrRoundFacts.
From PV Require Import spec.SpecTextChain proofs.TextChainFacts.
Import ListNotations.
Open Scope Z_scope.

(* ---- every caption a reader returns has balanced style nodes (all trees / all cues) ---- *)
Theorem C11_dfxp_reader_balanced : forall fixed t, balanced (flat_map (dfxp_nodes fixed) t) = true.
Proof. exact dfxp_reader_p_balanced. Qed.
Print Assumptions C11_dfxp_reader_balanced.

Theorem C11_sami_reader_balanced : forall fixed t, balanced (flat_map (sami_nodes fixed) t) = true.
Proof. exact sami_reader_p_balanced. Qed.
Print Assumptions C11_sami_reader_balanced.

(* TRIVIAL: the WebVTT reader model never produces a style node (faithful: the reader strips tags) *)
Theorem C11_vtt_reader_balanced : forall fixed lines, balanced (vtt_cue_nodes fixed lines) = true.
Proof. exact vtt_reader_nodes_balanced. Qed.
Print Assumptions C11_vtt_reader_balanced.

(* ---- the instrumented writers are the writer models ---- *)
Theorem C11_dfxp_trace_erasure : forall extra open ns, fst (dfxp_run_tr extra open ns) = dfxp_run extra open ns.
Proof. exact dfxp_run_tr_erase. Qed.
Print Assumptions C11_dfxp_trace_erasure.

Theorem C11_sami_trace_erasure : forall open ns, fst (sami_run_tr open ns) = TextWrite.sami_run open ns.
Proof. exact sami_run_tr_erase. Qed.
Print Assumptions C11_sami_trace_erasure.

(* ---- DFXP (all three writers): every </span> closes an open <span>; what stays open is the open_span flag
        (ANY node list); for spans that do not nest everything is closed ---- *)
Theorem C11_dfxp_span_markup_depth : forall extra ns,
  trace_depth (snd (dfxp_run_tr extra false ns)) 0 = Some (b2n (snd (fst (dfxp_run_tr extra false ns)))).
Proof. exact dfxp_span_markup_depth. Qed.
Print Assumptions C11_dfxp_span_markup_depth.

Theorem C11_dfxp_span_markup_balanced : forall extra ns, flat_balanced ns = true ->
  trace_depth (snd (dfxp_run_tr extra false ns)) 0 = Some 0%nat.
Proof. exact dfxp_span_markup_balanced. Qed.
Print Assumptions C11_dfxp_span_markup_balanced.

Theorem C11_sami_span_markup_balanced : forall ns, flat_balanced ns = true ->
  trace_depth (snd (sami_run_tr false ns)) 0 = Some 0%nat /\ snd (fst (sami_run_tr false ns)) = false.
Proof. exact sami_span_markup_balanced. Qed.
Print Assumptions C11_sami_span_markup_balanced.

(* ---- WebVTT: i / b / u tags, properly nested ---- *)
Theorem C11_vtt_tags_nested : forall ns, flat_balanced ns = true -> well_nested (vtt_tag_evs ns) = true.
Proof. exact vtt_tags_nested. Qed.
Print Assumptions C11_vtt_tags_nested.

Theorem C11_vtt_open_is_events : forall st, vtt_open st = concat (map render_tag (vtt_open_evs st)).
Proof. exact vtt_open_is_events. Qed.
Print Assumptions C11_vtt_open_is_events.

Theorem C11_vtt_close_is_events : forall st, vtt_close st = concat (map render_tag (vtt_close_evs st)).
Proof. exact vtt_close_is_events. Qed.
Print Assumptions C11_vtt_close_is_events.

(* ---- round trips on the models: writer model -> strict parser -> reader model ----
   For every node list with balanced flat spans (texts over XML Char, style dictionaries italics/bold/underline):
   the payload is well-formed, the reader model returns balanced nodes, and the same visible characters carry the
   same flags - italics through the three DFXP writers, italics + bold + underline through SAMI. *)
Theorem C11_dfxp_roundtrip_flags : forall region ns, nodes_ok plain_style ns = true -> flat_balanced ns = true ->
  exists t, content_parse (dfxp_payload (extra_of region) ns) = Some t /\
            ok_flags m_i ns (flat_map (dfxp_nodes true) t) = true /\
            balanced (flat_map (dfxp_nodes true) t) = true.
Proof. exact dfxp_roundtrip_flags. Qed.
Print Assumptions C11_dfxp_roundtrip_flags.

Theorem C11_legacy_roundtrip_flags : forall ns, nodes_ok plain_style ns = true -> flat_balanced ns = true ->
  exists t, content_parse (legacy_payload ns) = Some t /\
            ok_flags m_i ns (flat_map (dfxp_nodes true) t) = true /\
            balanced (flat_map (dfxp_nodes true) t) = true.
Proof. exact legacy_roundtrip_flags. Qed.
Print Assumptions C11_legacy_roundtrip_flags.

Theorem C11_sami_roundtrip_flags : forall ns, nodes_ok plain_style ns = true -> flat_balanced ns = true ->
  exists t, content_parse (sami_payload ns) = Some t /\
            TextReadFacts.vis (flat_map TextReadFacts.tree_flat t) = TextReadFacts.vis (TextReadFacts.node_flat ns) /\
            ok_flags m_ibu ns (flat_map (sami_nodes true) t) = true /\
            balanced (flat_map (sami_nodes true) t) = true.
Proof. exact sami_roundtrip_flags. Qed.
Print Assumptions C11_sami_roundtrip_flags.

(* the same for style dictionaries WITH a colour (any colour string over XML Char, written through quoteattr) *)
Theorem C11_dfxp_roundtrip_flags_color : forall region ns, nodes_ok color_style ns = true -> flat_balanced ns = true ->
  exists t, content_parse (dfxp_payload (extra_of region) ns) = Some t /\
            ok_flags m_i ns (flat_map (dfxp_nodes true) t) = true /\
            balanced (flat_map (dfxp_nodes true) t) = true.
Proof. exact dfxp_roundtrip_flags_c. Qed.
Print Assumptions C11_dfxp_roundtrip_flags_color.

Theorem C11_legacy_roundtrip_flags_color : forall ns, nodes_ok color_style ns = true -> flat_balanced ns = true ->
  exists t, content_parse (legacy_payload ns) = Some t /\
            ok_flags m_i ns (flat_map (dfxp_nodes true) t) = true /\
            balanced (flat_map (dfxp_nodes true) t) = true.
Proof. exact legacy_roundtrip_flags_c. Qed.
Print Assumptions C11_legacy_roundtrip_flags_color.

(* ---- CLOSURE and CROSS-FORMAT CHAINS on the models ----
   What the reader model returns for a written payload is again in the writers' domain: texts over XML Char without CR,
   dictionaries without colour, spans flat and balanced with the END NODE REPEATING THE START NODE (flat_balanced) ... *)
Theorem C11_dfxp_roundtrip_closed : forall region ns, nodes_ok plain_style ns = true -> flat_balanced ns = true ->
  exists t, content_parse (dfxp_payload (extra_of region) ns) = Some t /\
            nodes_ok plain_style (flat_map (dfxp_nodes true) t) = true /\
            flat_balanced (flat_map (dfxp_nodes true) t) = true /\
            ok_flags m_i ns (flat_map (dfxp_nodes true) t) = true.
Proof. exact dfxp_roundtrip_closed. Qed.
Print Assumptions C11_dfxp_roundtrip_closed.

Theorem C11_sami_roundtrip_closed : forall ns, nodes_ok plain_style ns = true -> flat_balanced ns = true ->
  exists t, content_parse (sami_payload ns) = Some t /\
            nodes_ok plain_style (flat_map (sami_nodes true) t) = true /\
            flat_balanced (flat_map (sami_nodes true) t) = true /\
            ok_flags m_ibu ns (flat_map (sami_nodes true) t) = true.
Proof. exact sami_roundtrip_closed. Qed.
Print Assumptions C11_sami_roundtrip_closed.

(* ... hence the conversions compose: DFXP document -> SAMI document -> DFXP document (every step: writer model, strict
   parser, reader model): every step is well-formed, the italic characters after two and after three steps are the authored
   ones, the final nodes are flat-balanced and in the domain again (so any longer chain follows by the same argument) *)
Theorem C11_chain_dfxp_sami_dfxp : forall r1 r2 ns, nodes_ok plain_style ns = true -> flat_balanced ns = true ->
  exists n1 n2 n3,
    rd_dfxp (dfxp_payload (extra_of r1) ns) = Some n1 /\
    rd_sami (sami_payload n1) = Some n2 /\
    rd_dfxp (dfxp_payload (extra_of r2) n2) = Some n3 /\
    ok_flags m_i ns n2 = true /\ ok_flags m_i ns n3 = true /\ flat_balanced n3 = true /\ nodes_ok plain_style n3 = true.
Proof. exact chain_dfxp_sami_dfxp. Qed.
Print Assumptions C11_chain_dfxp_sami_dfxp.

Theorem C11_chain_sami_dfxp_sami : forall r ns, nodes_ok plain_style ns = true -> flat_balanced ns = true ->
  exists n1 n2 n3,
    rd_sami (sami_payload ns) = Some n1 /\
    rd_dfxp (dfxp_payload (extra_of r) n1) = Some n2 /\
    rd_sami (sami_payload n2) = Some n3 /\
    ok_flags m_ibu ns n1 = true /\ ok_flags m_i ns n2 = true /\ ok_flags m_i ns n3 = true /\
    flat_balanced n3 = true /\ nodes_ok plain_style n3 = true.
Proof. exact chain_sami_dfxp_sami. Qed.
Print Assumptions C11_chain_sami_dfxp_sami.

(* COROLLARIES of the two chain theorems (weaker restatements about the executable chain functions run by the harness, harness request 1110;
   not counted as property theorems) *)
Theorem C11_chain_dsd_flags_unfold : forall r1 r2 ns, nodes_ok plain_style ns = true -> flat_balanced ns = true ->
  exists n3, chain_dsd (extra_of r1) (extra_of r2) ns = Some n3 /\ ok_flags m_i ns n3 = true /\ flat_balanced n3 = true.
Proof. exact chain_dsd_flags. Qed.
Print Assumptions C11_chain_dsd_flags_unfold.

Theorem C11_chain_sds_flags_unfold : forall r ns, nodes_ok plain_style ns = true -> flat_balanced ns = true ->
  exists n3, chain_sds (extra_of r) ns = Some n3 /\ ok_flags m_i ns n3 = true /\ flat_balanced n3 = true.
Proof. exact chain_sds_flags. Qed.
Print Assumptions C11_chain_sds_flags_unfold.

Example C11_example_chain :
  option_map flags (chain_dsd [] [] ex_nodes) = Some (map (fun p => (fst p, mask3 m_i (snd p))) (flags ex_nodes)).
Proof. vm_compute. reflexivity. Qed.

Example C11_example_chain_sds :
  option_map flags (chain_sds (extra_of true) ex_nodes) = Some (map (fun p => (fst p, mask3 m_i (snd p))) (flags ex_nodes)).
Proof. vm_compute. reflexivity. Qed.

Example C11_example_roundtrip_color :
  let st := mkStyle true false false (Some (lit "a""<'&")) in
  let ns := [NText (lit "p "); NStyle true st; NText (lit "x y"); NStyle false st] in
  nodes_ok color_style ns = true /\ flat_balanced ns = true /\
  option_map (fun t => flags (flat_map (dfxp_nodes true) t)) (content_parse (dfxp_payload [] ns)) = Some (flags ns).
Proof. repeat split; vm_compute; reflexivity. Qed.

(* ---- non-vacuity ---- *)
Example C11_example_flat : flat_balanced ex_nodes = true.
Proof. vm_compute. reflexivity. Qed.

Example C11_example_flags : flags ex_nodes =
  [(97, (true, true, false)); (98, (true, true, false)); (99, (true, true, false)); (100, (false, false, false))].
Proof. vm_compute. reflexivity. Qed.

Example C11_example_vtt : ok_vtt_flags ex_nodes (vtt_cue_text ex_nodes) = true /\
  vtt_cue_text ex_nodes = lit "<i><b>a b" ++ [10] ++ lit "c</b></i> d <u></u>".
Proof. split; vm_compute; reflexivity. Qed.

Example C11_example_dfxp : snd (dfxp_run_tr [] false ex_nodes) = [true; false].
Proof. vm_compute. reflexivity. Qed.

Example C11_example_roundtrip :
  nodes_ok plain_style ex_nodes = true /\
  option_map (fun t => flags (flat_map (sami_nodes true) t)) (content_parse (sami_payload ex_nodes)) = Some (flags ex_nodes).
Proof. split; vm_compute; reflexivity. Qed.
