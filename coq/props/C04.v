(* C04 - read text equals authored text: entities decoded once, markup stripped.
   Only statements closed by `exact`, each followed by Print Assumptions, plus non-vacuity Examples.
   Models: model/TextRead.v.  Spec: spec/SpecTextRead.v (abstract content, display, serialisers, library layers).
   html.parser tokenisation and BeautifulSoup tree building are correspondence-only.
   END-TO-END theorems (named C04_.._end_to_end..): for SRT, MicroDVD and WebVTT (all but the references the reader leaves literal) the statement itself - the harness
   oracle ok_lines_a between spec display and the reader MODEL applied to the spec serialisation - is proved on a stated
   domain; DFXP: string-level theorem C04_dfxp_str_end_to_end_partial (text and <br/> with LF wraps, one spelling per character,
   no spans - hence _partial; the reference decoding in it is the SPEC parser undoing xml_escape, the reader model contributes the wrap
   join and <br/>); DFXP with inline elements and SAMI stay at component level (tree walk, text-node matcher, SAMI stage 1) + oracle on
   the real readers.  C04_vtt_end_to_end_partial: _partial because numeric / HTML named references (left literal by the reader) are excluded. *)
From Coq Require Import List ZArith Bool.
From PV Require Import lib.Sx lib.Str lib.Result model.TextNodes model.TextRead.
From PV Require Import spec.SpecTextXml spec.SpecTextLines spec.SpecTextRead spec.SpecTextDfxpStr proofs.TextReadStrFacts.
From PV Require Import proofs.TextXmlFacts proofs.TextReadVttFacts proofs.TextReadVttTagFacts proofs.TextReadFacts.
From PV Require Import proofs.TextReadVttDocFacts model.GenText proofs.TextReadEndFacts proofs.TextReadEndVttFacts proofs.TextReadEndVttStripFacts proofs.TextReadEndVttDocFacts proofs.TextReadEndXmlFacts.
Import ListNotations.
Open Scope Z_scope.

(* ---- WebVTT: every reference is decoded exactly once (all well-formed cue texts) ---- *)
Theorem C04_vtt_entities_once : forall ps, forallb piece_ok ps = true ->
  vtt_entities (TextReadVttFacts.render ps) = TextReadVttFacts.render (map decode_piece ps).
Proof. exact vtt_entities_once. Qed.
Print Assumptions C04_vtt_entities_once.

(* ---- WebVTT tags: known tags (by name) vanish, every other tag stays literal ---- *)
Theorem C04_vtt_tags_by_name : forall gs, forallb seg_ok gs = true ->
  other_sub true (TextReadVttTagFacts.render gs) = TextReadVttTagFacts.display gs.
Proof. exact vtt_tags_by_name. Qed.
Print Assumptions C04_vtt_tags_by_name.

Theorem C04_vtt_unknown_tag_refuted : exists gs, forallb seg_ok gs = true /\
  other_sub false (TextReadVttTagFacts.render gs) <> TextReadVttTagFacts.display gs.
Proof. exact vtt_unknown_tag_refuted. Qed.
Print Assumptions C04_vtt_unknown_tag_refuted.

(* <v.classes Name> becomes "Name: " *)
Theorem C04_vtt_voice_tag : forall cls name R f, forallb class_ok cls = true ->
  forallb (fun c => negb (c =? 62)) name = true ->
  voice_sub_aux (S f) (lit "<v" ++ concat (map (fun c => 46 :: c) cls) ++ lit " " ++ name ++ lit ">" ++ R)
  = name ++ lit ": " ++ voice_sub_aux f R.
Proof. exact vtt_voice_tag. Qed.
Print Assumptions C04_vtt_voice_tag.

(* ---- WebVTT documents: the line loop of _parse returns exactly the cues; cue identifiers, NOTE / STYLE / REGION
        blocks and header lines never reach a caption, before or after cues, whatever the number of blank lines ---- *)
Theorem C04_vtt_document_cues : forall fixed header bs,
  forallb line_plain header = true -> wf_blocks bs = true ->
  vtt_parse fixed (vtt_document_lines header bs) =
  map (fun items => vtt_cue_nodes fixed (payload_lines items)) (cues_of bs).
Proof. exact vtt_document_cues. Qed.
Print Assumptions C04_vtt_document_cues.

(* ---- SAMI: whatever the spelling, the two parses decode exactly once ---- *)
Theorem C04_sami_entities_once : forall evs cs, evs_chars evs = Some cs ->
  exists out, sami_stage1 true evs = Ok out /\ content_parse_html out = Some (text_nodes cs).
Proof. exact sami_entities_once. Qed.
Print Assumptions C04_sami_entities_once.

Theorem C04_sami_double_decode_refuted :
  exists evs out, evs_chars evs = Some (lit "&lt;") /\ sami_stage1 false evs = Ok out /\
                  content_parse_html out = Some [XText (lit "<")].
Proof. exact sami_double_decode_refuted. Qed.
Print Assumptions C04_sami_double_decode_refuted.

Theorem C04_sami_upper_hex_refuted : sami_stage1 false [EvCharref (lit "X41")] = Err ValueError /\
                                     sami_stage1 true [EvCharref (lit "X41")] = Ok (lit "A").
Proof. exact sami_upper_hex_refuted. Qed.
Print Assumptions C04_sami_upper_hex_refuted.

(* the generated entity table of SAMIParser: XML characters only, and only amp/lt/gt denote & < > *)
Theorem C04_sami_entity_table : forallb (fun kv => xml_text_char (snd kv) &&
    (is_kept (fst kv) || negb ((snd kv =? 38) || (snd kv =? 60) || (snd kv =? 62)))) GenText.sami_name2codepoint = true.
Proof. exact table_ok. Qed.
Print Assumptions C04_sami_entity_table.

(* named references are looked up by their exact, case-sensitive name (Eacute is not eacute) *)
Theorem C04_sami_entity_lookup_exact : forall n v,
  assoc_str n GenText.sami_name2codepoint = Some v <-> In (n, v) GenText.sami_name2codepoint.
Proof. exact sami_entity_lookup_exact. Qed.
Print Assumptions C04_sami_entity_lookup_exact.

(* the entry SAMIParser adds itself: &apos; is the apostrophe *)
Theorem C04_sami_entity_apos :
  assoc_str (lit "apos") GenText.sami_name2codepoint = Some 39 /\ ev_chars (EvEntity (lit "apos")) = Some [39].
Proof. exact sami_entity_apos. Qed.
Print Assumptions C04_sami_entity_apos.

(* ---- DFXP / SAMI text nodes: wrapped text keeps all of its words ---- *)
Theorem C04_text_node_keeps_words : forall s t, text_node true s = Some t -> words t = words s.
Proof. exact text_node_keeps_words. Qed.
Print Assumptions C04_text_node_keeps_words.

Theorem C04_text_node_none_no_word : forall s, text_node true s = None -> words s = [].
Proof. exact text_node_none_no_word. Qed.
Print Assumptions C04_text_node_none_no_word.

Theorem C04_text_node_wrapped_refuted : exists s t, text_node false s = Some t /\ words t <> words s.
Proof. exact text_node_wrapped_refuted. Qed.
Print Assumptions C04_text_node_wrapped_refuted.

(* ---- tree walks: br -> break, style tags contribute no character, no visible character lost or added ---- *)
Theorem C04_dfxp_walk_visible : forall x, vis (node_flat (dfxp_nodes true x)) = vis (tree_flat x).
Proof. exact dfxp_walk_visible. Qed.
Print Assumptions C04_dfxp_walk_visible.

Theorem C04_sami_walk_visible : forall x, vis (node_flat (sami_nodes true x)) = vis (tree_flat x).
Proof. exact sami_walk_visible. Qed.
Print Assumptions C04_sami_walk_visible.

(* ---- MicroDVD: '|' is the line break ---- *)
Theorem C04_mdvd_pipes : forall txt, filter SpecTextLines.nonempty (split_ch 124 txt) <> [] ->
  node_lines (mdvd_text_nodes txt) = filter SpecTextLines.nonempty (split_ch 124 txt).
Proof. exact mdvd_pipes. Qed.
Print Assumptions C04_mdvd_pipes.

(* ---- non-vacuity ---- *)
Example C04_example_vtt :
  vtt_decode true (lit "<v.loud Bob>a &amp;lt; <i>b</i> <bar>c</bar> <00:01.000>&lt;d&gt;")
  = lit "Bob: a &lt; b <bar>c</bar> <d>".
Proof. vm_compute. reflexivity. Qed.

Example C04_example_pieces :
  forallb piece_ok [PEnt (lit "amp"); PRaw 108; PRaw 116; PRaw 59; PEnt (lit "bogus"); PEnt (lit "nbsp")] = true /\
  TextReadVttFacts.render (map decode_piece [PEnt (lit "amp"); PRaw 108; PRaw 116; PRaw 59; PEnt (lit "bogus"); PEnt (lit "nbsp")])
  = lit "&lt;&bogus;" ++ [160].
Proof. split; vm_compute; reflexivity. Qed.

Example C04_example_segments :
  forallb seg_ok [SKnown (lit "c.yellow"); SText (lit "x > y"); SKnown (lit "/c"); SUnknown (lit "i2"); SKnown (lit "lang en")] = true.
Proof. vm_compute. reflexivity. Qed.

Example C04_example_sami :
  evs_chars [EvEntity (lit "amp"); EvData (lit "lt;"); EvCharref (lit "60"); EvCharref (lit "X41"); EvEntity (lit "eacute")]
  = Some (lit "&lt;<A" ++ [233]).
Proof. vm_compute. reflexivity. Qed.

Example C04_example_read_dfxp :
  read_dfxp true [IWrap 4; ITxt [(97, 0); (38, 1); (60, 2)]; IWrap 6; ITxt [(98, 3)]; IBr; IOpen 0; ITxt [(99, 0)]; IClose 0]
  = Some [NText (lit "a&< b"); NBreak; NStyle true (mkStyle true false false None); NText (lit "c");
          NStyle false (mkStyle true false false None)].
Proof. vm_compute. reflexivity. Qed.

Example C04_example_read_sami :
  option_map node_lines
    (read_sami true [ITxt [(38, 1); (108, 0); (116, 0); (59, 0)]; IBr; IOpen 0; ITxt [(60, 2); (98, 0); (62, 4)]; IClose 0])
  = Some [lit "&lt;"; lit "<b>"].
Proof. vm_compute. reflexivity. Qed.

Example C04_example_entity_case :
  ev_chars (EvEntity (lit "Eacute")) = Some [201] /\ ev_chars (EvEntity (lit "eacute")) = Some [233] /\
  ev_chars (EvEntity (lit "Prime")) = Some [8243] /\ ev_chars (EvEntity (lit "prime")) = Some [8242].
Proof. exact sami_entity_case. Qed.

Example C04_example_vtt_document :
  let doc := vtt_document_lines [lit "WEBVTT"]
               [(BOther [lit "NOTE"; lit "a comment"], 1%nat);
                (BCue (Some (lit "cue-1")) (lit "00:01.000 --> 00:02.000") [ITxt [(97, 0)]; IBr; ITxt [(98, 0)]], 2%nat);
                (BOther [lit "NOTE between"], 1%nat);
                (BCue (Some (lit "3")) (lit "00:03.000 --> 00:04.000") [ITxt [(99, 0)]], 0%nat)] in
  vtt_parse true doc = [[NText (lit "a"); NBreak; NText (lit "b")]; [NText (lit "c")]].
Proof. vm_compute. reflexivity. Qed.

(* ---- the tie of the hand-written matchers (voice_sub, other_sub) to the code: the two regular expressions they were
   written against, as generated from the working tree into model/GenText.v.  Any edit of VOICE_SPAN_PATTERN /
   OTHER_SPAN_PATTERN makes these two Examples fail to compile, i.e. breaks the proof tie, whatever the streams find. ---- *)
Example C04_voice_pattern_pinned : GenText.vtt_voice_pattern = lit "<v(\.\w+)* ([^>]*)>".
Proof. vm_compute. reflexivity. Qed.
Example C04_other_pattern_pinned :
  GenText.vtt_other_pattern = lit "</?([cibuv]|ruby|rt|lang|(\d+):(\d{2})(:\d{2})?\.(\d{3}))([ \t.][^>]*)?>".
Proof. vm_compute. reflexivity. Qed.

(* ==== END TO END on the models: the property statement, with the harness oracle as conclusion ============================== *)
(* SRT: every item list without a line feed inside text and without the WebVTT-only items (voice, unknown tag) *)
Theorem C04_srt_end_to_end : forall items, forallb (plain_ok 10) items = true ->
  ok_lines_a (SpecTextRead.display items) (node_lines (read_srt items)) = true.
Proof. exact srt_end_to_end. Qed.
Print Assumptions C04_srt_end_to_end.

(* MicroDVD: the same with '|' as the character text cannot contain *)
Theorem C04_mdvd_end_to_end : forall items, forallb (plain_ok 124) items = true ->
  ok_lines_a (SpecTextRead.display items) (node_lines (read_mdvd items)) = true.
Proof. exact mdvd_end_to_end. Qed.
Print Assumptions C04_mdvd_end_to_end.

(* WebVTT (no hypothesis about the ends of the lines, timestamp tags included).
   Domain vtt_item_ok = everything the spec serialiser can emit EXCEPT the character references the reader leaves literal
   (numeric and HTML named spellings 2-5: known finding C04-vtt-character-reference-left-literal - on those the statement is
   false of the code), i.e.:
     - characters spelled raw or with WebVTT's own named references (&amp; &lt; &gt; &nbsp; &lrm; &rlm;), no line feed inside
       text ('&' and '<' are always escaped by the serialiser); white space anywhere, also at the ends of the source lines;
     - every known tag i b u c ruby rt lang v, open and close, in all six start-tag shapes (0 <= k < 60, k mod 10 <= 7);
     - timestamp tags H+:MM[:SS].mmm; voice tags with classes and any name without a raw '>';
     - unknown tags (names of letters, digits, _ and -, beginning with a letter) stay literal; comments / PIs.
   The reader strips every line before decoding; strip_line shows this commutes with the three substitutions up to the
   white space at the ends, which the comparison ignores. *)
Theorem C04_vtt_end_to_end_partial : forall items, forallb vtt_item_ok items = true ->
  ok_lines_a (SpecTextRead.display items) (node_lines (read_vtt true items)) = true.
Proof. exact vtt_end_to_end_any. Qed.
Print Assumptions C04_vtt_end_to_end_partial.

(* when no source line begins or ends with white space the reader model's lines ARE the displayed lines *)
Theorem C04_vtt_end_to_end_exact : forall items, forallb vtt_item_ok items = true -> lines_trimmed items = true ->
  node_lines (read_vtt true items) = SpecTextRead.display items.
Proof. exact vtt_end_to_end_exact. Qed.
Print Assumptions C04_vtt_end_to_end_exact.

(* the whole DOCUMENT (header lines, cue identifiers, NOTE / STYLE / REGION blocks, any number of blank lines): the line loop
   of the reader model returns one caption per cue, in order, and every caption shows what its cue displays *)
Theorem C04_vtt_document_end_to_end : forall header bs,
  forallb line_plain header = true -> wf_blocks bs = true ->
  Forall (fun items => forallb vtt_item_ok items = true) (cues_of bs) ->
  vtt_parse true (vtt_document_lines header bs) = map (read_vtt true) (cues_of bs) /\
  Forall (fun items => ok_lines_a (SpecTextRead.display items) (node_lines (read_vtt true items)) = true) (cues_of bs).
Proof. exact vtt_document_end_to_end. Qed.
Print Assumptions C04_vtt_document_end_to_end.

(* the reader's strip on a tokenised line: a token list again, the decoded text differs by white space at the ends only *)
Theorem C04_vtt_strip_line : forall l, forallb ltok_ok l = true -> exists l2 ws1 ws2,
  forallb is_space ws1 = true /\ forallb is_space ws2 = true /\ forallb ltok_ok l2 = true /\
  strip (lrender_all l) = lrender_all l2 /\ D l = ws1 ++ D l2 ++ ws2.
Proof. exact strip_line. Qed.
Print Assumptions C04_vtt_strip_line.

(* one source line through strip-free decoding: voice substitution, tag substitution and the replace chain composed *)
Theorem C04_vtt_line_decode : forall l, forallb ltok_ok l = true ->
  vtt_entities (other_sub true (voice_sub (lrender_all l))) = TextReadVttFacts.render (map decode_piece (flat_map lpieces l)).
Proof. exact line_decode. Qed.
Print Assumptions C04_vtt_line_decode.

Example C04_example_vtt_domain : forallb vtt_item_ok vtt_example = true /\ lines_trimmed vtt_example = true.
Proof. exact vtt_example_ok. Qed.
Example C04_example_vtt_shows :
  serialise F_VTT vtt_example = lit "<v.loud Bob>R&amp;D &lt;<c.a.b-c some words>x</c>" ++ [10] ++ lit "<bar>&amp;lt;</bar>" /\
  node_lines (read_vtt true vtt_example) = [lit "Bob: R&D <x"; lit "<bar>&lt;</bar>"].
Proof. exact vtt_example_shows. Qed.
Example C04_example_plain_domain :
  forallb (plain_ok 10) [ITxt [(97, 0); (38, 1)]; IOpen 0; IWrap 3; IEnt (lit "eacute") 233; IClose 0; IBr; ITxt [(60, 2)]] = true.
Proof. exact plain_ok_example. Qed.

(* DFXP at tree level.  FULL statement (not proved): ok_lines_a (display items) (node_lines ns) for read_dfxp true items = Some ns.
   PROVED PART, for ALL item lists: with the tree-building library as the stated boundary (read_dfxp starts from the spec tree
   tree_of, which the harness compares with BeautifulSoup's), the nodes the reader model returns show every non-white-space
   character of the cue and every line break, in order (item_flat = displayed text with a mark per break; vis filters white
   space).  Entities, comments, PIs, spans, source wraps: all covered.  Blind to white space, hence to the known finding
   "words glued at a wrap next to an inline element". *)
Theorem C04_dfxp_tree_visible_partial : forall items ns, read_dfxp true items = Some ns ->
  vis (node_flat ns) = vis (item_flat items).
Proof. exact dfxp_tree_visible. Qed.
Print Assumptions C04_dfxp_tree_visible_partial.

Example C04_example_dfxp_tree :
  read_dfxp true [ITxt [(97, 0); (38, 1)]; IWrap 3; IOpen 0; ITxt [(98, 2)]; IClose 0; IBr; ICom (lit " c "); IEnt (lit "x") 99]
  = Some [NText (lit "a&"); NStyle true (mkStyle true false false None); NText (lit "b"); NStyle false (mkStyle true false false None);
          NBreak; NText (lit "c")].
Proof. exact dfxp_tree_example. Qed.

Example C04_example_vtt_untrimmed :
  let items := [ITxt [(32, 0); (160, 0); (97, 0); (32, 0)]; IOpen 1; ITxt [(32, 0)]; IBr; IWrap 0; ITxt [(160, 1); (98, 0)]; IClose 1; ITxt [(9, 0)]] in
  forallb vtt_item_ok items = true /\ lines_trimmed items = false /\
  node_lines (read_vtt true items) = [[97; 32]; [160; 98]] /\ SpecTextRead.display items = [[32; 160; 97; 32; 32]; [32; 160; 98; 9]].
Proof. exact vtt_any_example. Qed.
Example C04_example_vtt_timestamp :
  forallb vtt_item_ok [ITxt [(97, 0)]; IStamp (lit "00:01.000"); IStamp (lit "100:59:59.999"); ITxt [(98, 0)]] = true /\
  node_lines (read_vtt true [ITxt [(97, 0)]; IStamp (lit "00:01.000"); IStamp (lit "100:59:59.999"); ITxt [(98, 0)]]) = [lit "ab"].
Proof. split; vm_compute; reflexivity. Qed.

(* ---- DFXP END TO END ON STRINGS (spec/SpecTextDfxpStr.v) ----
   The text-node matcher on a wrapped source line, EXACT: a first piece that does not begin with white space and has no
   line end, then any number of (LF, indentation, piece) continuations - the node text is the pieces joined by ONE blank.
   Nothing is dropped, nothing is glued, interior and trailing blanks of every piece are kept. *)
Theorem C04_dfxp_text_node_wrapped : forall c w tail, is_space c = false -> forallb nonl (c :: w) = true -> wtail_ok tail ->
  text_node true ((c :: w) ++ rof tail) = Some ((c :: w) ++ concat (map (fun e => 32 :: snd e) tail)).
Proof. exact text_node_wrapped. Qed.
Print Assumptions C04_dfxp_text_node_wrapped.

(* The statement on strings: for EVERY non-empty list of lines of the domain (line_ok: every character of XML Char except
   CR - & < > quotes ]]> and entity-looking text included -, words that do not begin with white space, any wrap
   indentation, empty lines) the string render_p writes (characters escaped once, lines separated by <br/>), read by the
   strict XML content parser and the DFXP reader model, gives EXACTLY the lines a conformant consumer shows:
   references decoded once (by the SPEC parser undoing xml_escape = C03_xml_escape_parses_back; no pycaption reader code decodes
   anything here - in the real reader that is lxml / bs4, tied by execution), a wrap = one blank and <br/> = line break (the
   reader model's part), no word lost.  _partial: no inline spans, one spelling per character, no CR / CRLF wraps. *)
Theorem C04_dfxp_str_end_to_end_partial : forall ls, ls <> [] -> Forall (fun l => line_ok l = true) ls ->
  read_p (render_p ls) = Some (map shown_line ls).
Proof. exact dfxp_str_end_to_end. Qed.
Print Assumptions C04_dfxp_str_end_to_end_partial.

Example C04_example_dfxp_str :
  let ls := [(lit "a &lt; <b> ", [(lit "   ", lit "c ]]> &amp;"); ([9], lit "d")]); ([], []); (lit "x", [])] in
  forallb line_ok ls = true /\
  render_p ls = lit "a &amp;lt; &lt;b&gt; " ++ [10] ++ lit "   c ]]&gt; &amp;amp;" ++ [10; 9] ++ lit "d<br/><br/>x" /\
  read_p (render_p ls) = Some [lit "a &lt; <b>  c ]]> &amp; d"; []; lit "x"].
Proof. repeat split; vm_compute; reflexivity. Qed.
