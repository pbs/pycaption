(* C05 / C06: MIXED per-code doubling - special / extended characters (and backspace) sent SINGLE among DOUBLED
   control codes, what pycaption's own SCCWriter emits.
   1. sh: a quiet word does not read the frame counter (sh_tw, the frame lemma dress_tw for a shifted counter); tw_last_indep: a word whose
      doubling decision does not distinguish two values of last_command is translated alike.
   2. dd prev m d: the word list d is m with some redundant copies inserted (w -> w w for words of a doubled type that are
      not preamble codes, not cue-starting, without lookahead, not followed / preceded by the same word); dd_run: from related
      states the reader reaches related states (equal up to the frame counter and the memory of the last command).
   3. load_line_mixed: ENM RCL bm EOC and ENM RCL bd EOC (dd bm bd) leave the reader in the same state when the EOC words
      have the same instant.
   4. whole programs with writer-style lines whose body is any bm with dd bm (rows doubled): read_msegs, popon_refines_608_mixed,
      popon_times_mixed. *)
From Coq Require Import List ZArith QArith Lia Bool ZifyBool.
From PV Require Import lib.Sx lib.Str lib.Result model.GenScc model.SccLen model.SccTime model.SccStash model.SccDecoder model.SccPopon.
From PV Require Import spec.Spec608 spec.SpecScc05 spec.SpecScc05Inline spec.SpecSccMixed spec.SpecSccTime.
From PV Require Import proofs.SccTableFacts proofs.SccDoubleFacts proofs.SccTimeFacts proofs.SccPoponFacts proofs.SccPoponStage1 proofs.SccPoponStage2
                       proofs.SccPoponStage3 proofs.SccPoponStage4 proofs.SccPoponStage6 proofs.SccPoponStage7 proofs.SccPoponStage8
                       proofs.SccPoponStage9 proofs.SccLineLayoutFacts proofs.SccInlineEdmFacts.
Import ListNotations.
Open Scope Z_scope.

Definition sh (k : Z) (x : rstate) : rstate :=
  mkR (r_stash x) (r_tk x) (r_last x) (r_dstart x) (r_pop x) (r_paint x) (r_roll x) (r_active x) (r_queue x) (r_time x) (r_tc x)
      (r_frames x + k) (r_offset x) (r_err x).
Definition setl (x : rstate) (l : lastcmd) : rstate :=
  mkR (r_stash x) (r_tk x) l (r_dstart x) (r_pop x) (r_paint x) (r_roll x) (r_active x) (r_queue x) (r_time x) (r_tc x)
      (r_frames x) (r_offset x) (r_err x).

(* the shifted counter is `dress` with the display left as it is, and a quiet word leaves the display alone *)
Theorem sh_tw : forall k x w n, r_active x = MPop -> quiet w = true ->
  translate_word (sh k x) w n = sh k (translate_word x w n).
Proof.
  intros k x w n Ha Hq. change (sh k x) with (dress x (r_stash x) (r_queue x) (r_time x) (r_tc x) k).
  rewrite (dress_tw _ _ _ _ k x w n Ha Hq).
  destruct (quiet_keeps [w] x n Ha) as (E1 & E2 & E3 & _); [cbn [forallb]; rewrite Hq; reflexivity|]. cbn [tws nxt] in E1, E2, E3.
  destruct (tw_clock x w n) as (E4 & _). unfold dress. rewrite <- E1, <- E2, <- E3, <- E4. reflexivity.
Qed.

Lemma sh_sh : forall a b x, sh a (sh b x) = sh (b + a) x.
Proof. intros a b x. dx x. unfold sh. proj_red. f_equal. lia. Qed.
Lemma sh_0 : forall x, sh 0 x = x.
Proof. intros x. dx x. unfold sh. proj_red. f_equal. lia. Qed.
Lemma setl_eta : forall x, setl x (r_last x) = x.
Proof. intros x. dx x. reflexivity. Qed.

(* the translation of a word (not a tab offset) looks at last_command only through two tests *)
Lemma tw_last_indep : forall x l1 l2 v n, r_err x = None -> tab_of v = None ->
  last_is l1 v = last_is l2 v -> last_contains l1 v = last_contains l2 v ->
  translate_word (setl x l1) v n = translate_word (setl x l2) v n.
Proof.
  intros x l1 l2 v n He Ht H1 H2. dx x. cbn [r_err] in He. subst. unfold translate_word, setl. proj_red.
  unfold handle_double. proj_red. cbv zeta. rewrite H1, H2, Ht. reflexivity.
Qed.

Lemma hd_last_after : forall x v, tab_of v = None ->
  r_last (snd (handle_double x v)) = LWord v \/ r_last (snd (handle_double x v)) = LNone.
Proof.
  intros x v Ht. dx x. unfold handle_double. proj_red. cbv zeta. rewrite Ht.
  repeat match goal with |- context [if ?b then _ else _] => destruct b end; cbn [snd]; proj_red; auto.
Qed.

(* dd prev m d: d = m with redundant copies inserted; prev = the word before m *)
Inductive dd : option Z -> list Z -> list Z -> Prop :=
| dd_nil : forall prev, dd prev [] []
| dd_same : forall prev v m d, quiet v = true -> tab_of v = None -> dd (Some v) m d -> dd prev (v :: m) (v :: d)
| dd_dup : forall prev w m d, quiet w = true -> tab_of w = None -> dupable w = true -> prev <> Some w -> nexto m <> Some w ->
    dd (Some w) m d -> dd prev (w :: m) (w :: w :: d).

Lemma dd_head : forall prev m d, dd prev m d -> nexto m = nexto d.
Proof. intros prev m d H. destruct H; reflexivity. Qed.

Lemma dd_quiet : forall prev m d, dd prev m d -> forallb quiet m = true /\ forallb quiet d = true.
Proof.
  intros prev m d H. induction H as [|prev v m d Hq Ht H [IH1 IH2]|prev w m d Hq Ht Hd Hp Hn H [IH1 IH2]]; cbn [forallb];
    rewrite ?Hq, ?IH1, ?IH2; split; reflexivity.
Qed.

(* y is x up to the frame counter; if wo = Some w, x remembers the single w as last_command and y has forgotten it *)
Definition Rel (wo : option Z) (x y : rstate) : Prop :=
  exists k, y = sh k (setl x (match wo with Some _ => LNone | None => r_last x end)) /\
            match wo with Some w => r_last x = LWord w | None => True end.

Lemma rel_err : forall wo x y, Rel wo x y -> r_err y = r_err x.
Proof. intros wo x y (k & -> & _). dx x. reflexivity. Qed.

Lemma nxt_dd : forall prev m d nx, dd prev m d -> nxt m nx = nxt d nx.
Proof. intros prev m d nx H. destruct H; reflexivity. Qed.

Lemma rel_step : forall wo x y v n, r_active x = MPop -> r_err x = None -> Rel wo x y -> quiet v = true -> tab_of v = None ->
  (forall w, wo = Some w -> Some v <> Some w) ->
  Rel None (translate_word x v n) (translate_word y v n).
Proof.
  intros wo x y v n Ha He (k & -> & Hw) Hq Ht Hne.
  rewrite sh_tw; [|dx x; exact Ha|exact Hq].
  assert (E : translate_word (setl x (match wo with Some _ => LNone | None => r_last x end)) v n = translate_word x v n).
  { destruct wo as [w|]; [|rewrite setl_eta; reflexivity].
    assert (Hwv : false = (w =? v)) by (symmetry; apply Z.eqb_neq; intro E; exact (Hne w eq_refl (f_equal Some (eq_sym E)))).
    rewrite <- (setl_eta x) at 2. rewrite Hw. apply tw_last_indep; try assumption; exact Hwv. }
  rewrite E. exists k. split; [rewrite setl_eta; reflexivity|exact I].
Qed.

Lemma tw_last_after : forall x v n u, r_active x = MPop -> r_err x = None -> quiet v = true -> tab_of v = None ->
  last_is (r_last (translate_word x v n)) u = true -> Some v = Some u.
Proof.
  intros x v n u Ha He Hq Ht. rewrite (proj2 (quiet_word x v n Ha Hq He)).
  destruct (hd_last_after x v Ht) as [E|E]; rewrite E; cbn [last_is]; [|discriminate].
  intros Hu. apply Z.eqb_eq in Hu. subst u. reflexivity.
Qed.

(* the first copy of a dupable word is executed when last_command is another word *)
Lemma tw_first_last : forall x w n, r_active x = MPop -> r_err x = None -> quiet w = true -> tab_of w = None -> is_pac w = false ->
  last_is (r_last x) w = false -> r_last (translate_word x w n) = LWord w.
Proof.
  intros x w n Ha He Hq Ht Hp Hl. rewrite (proj2 (quiet_word x w n Ha Hq He)).
  dx x. cbn [r_last] in Hl. unfold handle_double. proj_red. cbv zeta. rewrite Hl, Hp, Ht. rewrite !andb_false_r. reflexivity.
Qed.

Lemma dupable_parts : forall w, dupable w = true ->
  doubled_type (rstate0 0) w = true /\ is_pac w = false /\ is_cue_start w = false /\ no_lookahead w = true.
Proof.
  intros w H. unfold dupable in H. rewrite !andb_true_iff in H. destruct H as [[[H1 H2] H3] H4].
  apply negb_true_iff in H2, H3. repeat split; assumption.
Qed.

Theorem dd_run : forall prev m d, dd prev m d -> forall wo x y nx, r_active x = MPop -> Rel wo x y ->
  (forall u, last_is (r_last x) u = true -> prev = Some u) -> (forall w, wo = Some w -> nexto m <> Some w) ->
  exists wo', Rel wo' (tws x m nx) (tws y d nx).
Proof.
  intros prev m d H. induction H as [prev|prev v m d Hq Ht H IH|prev w m d Hq Ht Hd Hp Hn H IH]; intros wo x y nx Ha HR Hprev Hnext;
    (destruct (r_err x) as [e|] eqn:He;
     [rewrite (tws_error _ x nx e He), (tws_error _ y nx e) by (rewrite (rel_err _ _ _ HR); exact He); exists wo; exact HR|]).
  - exists wo. exact HR.
  - rewrite !tws_cons, <- (nxt_dd _ _ _ nx H).
    apply (IH None _ _ nx (quiet_active x v _ Ha Hq) (rel_step wo x y v _ Ha He HR Hq Ht Hnext)); [|discriminate].
    intros u. apply tw_last_after; assumption.
  - destruct (dupable_parts w Hd) as (Hty & Hpac & Hcs & Hnl).
    rewrite !tws_cons. cbn [nxt].
    rewrite (tw_next_irrelevant x w (nxt m nx)) by (rewrite Hnl; reflexivity).
    rewrite (tw_next_irrelevant y w (Some w)) by (rewrite Hnl; reflexivity).
    pose proof (rel_step wo x y w None Ha He HR Hq Ht Hnext) as HR1.
    assert (Hl : last_is (r_last x) w = false).
    { destruct (last_is (r_last x) w) eqn:E; [|reflexivity]. exfalso. apply Hp. apply Hprev. exact E. }
    pose proof (quiet_active x w None Ha Hq) as Ha1.
    set (x1 := translate_word x w None) in *. set (y1 := translate_word y w None) in *.
    destruct (r_err x1) as [e|] eqn:He1.
    + rewrite (tw_err y1 w _ e) by (rewrite (rel_err _ _ _ HR1); exact He1).
      apply (IH None x1 y1 nx Ha1 HR1); [|discriminate].
      intros u. apply tw_last_after; assumption.
    + pose proof (tw_first_last x w None Ha He Hq Ht Hpac Hl) as Hl1. fold x1 in Hl1.
      destruct HR1 as (k & Ey & _). rewrite setl_eta in Ey.
      assert (E2 : translate_word y1 w (nxt d nx) = sh (k + 1) (setl x1 LNone)).
      { rewrite Ey. rewrite (tw_second (sh k x1) w).
        - rewrite Hcs. clear - Hl1. dx x1. cbn [r_last] in Hl1. unfold bump, set_dbl, set_clock, sh, setl. proj_red. f_equal. lia.
        - dx x1. exact He1.
        - dx x1. exact Hl1.
        - exact Hty. }
      rewrite E2. apply (IH (Some w) x1 _ nx Ha1).
      * exists (k + 1). split; [reflexivity|exact Hl1].
      * intros u Hu. rewrite Hl1 in Hu. cbn [last_is] in Hu. apply Z.eqb_eq in Hu. subst u. reflexivity.
      * intros w' E. injection E as <-. exact Hn.
Qed.

Theorem load_line_mixed : forall d s tcA tcB bm bd,
  r_err s = None -> r_active s = MPop -> last_is (r_last s) w_enm = false ->
  dd (Some w_rcl) bm bd ->
  same_clock (r_offset s) tcB (Z.of_nat (length bd) - Z.of_nat (length bm)) tcA -> (length bm <= length bd)%nat ->
  r_err (translate_line s (tcB, (ctl d w_enm ++ ctl d w_rcl ++ bd) ++ ctl d w_eoc)) = None ->
  state_eq (translate_line s (tcA, (ctl d w_enm ++ ctl d w_rcl ++ bm) ++ ctl d w_eoc))
           (translate_line s (tcB, (ctl d w_enm ++ ctl d w_rcl ++ bd) ++ ctl d w_eoc)).
Proof.
  intros d s tcA tcB bm bd He Ha Hl Hdd Hck _ Hne.
  destruct (dd_quiet _ _ _ Hdd) as [Hqm Hqd].
  dx s. cbn [r_err r_active r_last r_offset] in *. subst ac e0.
  destruct (load_line_body d tk0 pa ro off0 bm Hqm) as (HaX & K5 & _ & HoX & HfX & HlineX).
  destruct (load_line_body d tk0 pa ro off0 bd Hqd) as (_ & _ & _ & _ & HfY & HlineY).
  rewrite (HlineX st0 l0 ds0 po q0 tm0 tc0 fr0 tcA (ctl d w_eoc) Hl) by (destruct d; reflexivity).
  rewrite (HlineY st0 l0 ds0 po q0 tm0 tc0 fr0 tcB (ctl d w_eoc) Hl) in * by (destruct d; reflexivity).
  clear HlineX HlineY. set (P0 := line_start d tk0 pa ro off0) in *.
  destruct (dd_run _ _ _ Hdd None P0 P0 None eq_refl) as (wo & k' & EY & _).
  { exists 0. rewrite setl_eta, sh_0. split; [reflexivity|exact I]. }
  { intros u Hu. unfold P0, line_start in Hu. cbn [r_last] in Hu. destruct d; cbn [last_is] in Hu; [discriminate|].
    apply Z.eqb_eq in Hu. subst u. reflexivity. }
  { discriminate. }
  revert HaX HoX K5 HfX HfY Hne EY. generalize (tws P0 bm None) (tws P0 bd None). intros X Y HaX HoX K5 HfX HfY Hne ->.
  (* both End-Of-Caption runs start from X up to last_command and the clock *)
  destruct X as [stX tkX lX dsX poX paX roX acX qX tmX tcX frX offX eX]. unfold sh, setl, fr_set in *.
  cbn [r_stash r_tk r_last r_dstart r_pop r_paint r_roll r_active r_queue r_time r_tc r_frames r_offset r_err] in *.
  destruct eX as [er|]; [rewrite (tws_error _ _ _ er) in Hne by reflexivity; discriminate Hne|].
  subst acX offX. specialize (HfX eq_refl). specialize (HfY eq_refl). clear Hne.
  set (lY := match wo with Some _ => LNone | None => lX end).
  assert (HlY : last_is lY w_eoc = false) by (unfold lY; destruct wo; [reflexivity|exact K5]).
  rewrite (eoc_washout d _ _ lX lY) by assumption.
  rewrite <- !tws_words. apply se_translate_words. apply se_mk. intros j Hj.
  replace (frX + k' + j) with ((Z.of_nat (length bd) - Z.of_nat (length bm)) + (frX + j)) by (clear - HfX HfY; lia).
  symmetry. apply Hck. clear - HfX Hj. destruct d; lia.
Qed.

(* a segment: a wseg (pseg line / writer-style line, all codes single or all doubled), or a writer-style line
   tc: ENM RCL bm EDM EOC  whose body bm is the doubled rows of the load l with some redundant copies left out
   (dd bm (rows doubled)). tcE: the instant of its EDM word; tcL: tc + (1|2) frames; tcD: the timecode from which the
   all-doubled load line has its EOC at the instant of this line's EOC. *)
Inductive mseg : Type :=
| MW (w : wseg)
| MMix (tc tcE tcL tcD : str) (l : load) (bm : list Z).

Definition mseg_line (d : bool) (s : mseg) : sline :=
  match s with
  | MW w => wseg_line d w
  | MMix tc _ _ _ _ bm => (tc, (ctl d w_enm ++ ctl d w_rcl ++ bm) ++ ctl d w_edm ++ ctl d w_eoc)
  end.
Definition mseg_expand (s : mseg) : list pseg :=
  match s with MW w => wseg_expand w | MMix _ tcE _ tcD l _ => [PClear tcE; PLoad tcD l] end.
Definition mseg_ok (d : bool) (off : Q) (s : mseg) : Prop :=
  match s with
  | MW w => wseg_clock d off w
  | MMix tc tcE tcL tcD l bm =>
      dd (Some w_rcl) bm (flat_map (emit_row d) l) /\
      same_clock off tc (Z.of_nat (length (ctl d w_enm ++ ctl d w_rcl ++ bm))) tcE /\
      same_clock off tc (if d then 2 else 1) tcL /\
      same_clock off tcD (Z.of_nat (length (flat_map (emit_row d) l)) - Z.of_nat (length bm)) tcL /\
      (length bm <= length (flat_map (emit_row d) l))%nat
  end.
Definition mexpand (ms : list mseg) : list pseg := flat_map mseg_expand ms.

Lemma mseg_step : forall d off m s1 s2, mseg_ok d off m -> forallb pseg_ok8 (mseg_expand m) = true ->
  Forall (fun p => exists ev, pseg_event d off p = Ok ev) (mseg_expand m) -> bst off s2 -> state_eq s1 s2 ->
  state_eq (translate_line s1 (mseg_line d m)) (run s2 (map (pseg_line d) (mseg_expand m))).
Proof.
  intros d off [w|tc1 tcE tcL tcD ld bm] s1 s2 Hm Hok Hev Hb Hse; cbn [mseg_line mseg_expand mseg_ok] in *.
  - exact (wseg_step d off w s1 s2 Hm Hok Hev Hb Hse).
  - destruct Hm as (Hdd & HcE & HcL & HcD & Hlen). destruct (dd_quiet _ _ _ Hdd) as [Hqm _].
    destruct (bst_facts off _ (psegs_run d off _ s2 Hok Hev Hb)) as (He2 & _).
    inversion Hev as [|p0 x0 [ev1 Hevc] _]; subst.
    destruct (bst_facts off _ (pseg_step d off (PClear tcE) ev1 s2 eq_refl Hevc Hb)) as (He1 & Ha1 & Ho1 & Hl1 & _).
    unfold run in *. cbn [map fold_left pseg_line] in *. rewrite emit_load_shape in *. unfold emit_clear in *.
    change (ctrl_word 44) with w_edm in *.
    (* after the clear line: the mixed load line at tcL = the all-doubled one at tcD; before it: inline_edm *)
    assert (Hmix : state_eq (translate_line (translate_line s2 (tcE, ctl d w_edm)) (tcL, (ctl d w_enm ++ ctl d w_rcl ++ bm) ++ ctl d w_eoc))
                            (translate_line (translate_line s2 (tcE, ctl d w_edm))
                               (tcD, (ctl d w_enm ++ ctl d w_rcl ++ flat_map (emit_row d) ld) ++ ctl d w_eoc)))
      by (apply load_line_mixed; rewrite ?Ho1; assumption).
    eapply se_trans; [|exact Hmix].
    apply (inline_step d off s1 s2 tc1 tcE tcL bm Hb Hse Hqm HcE HcL). rewrite (se_err _ _ Hmix). exact He2.
Qed.

Lemma run_msegs : forall d off ms, Forall (mseg_ok d off) ms -> forallb pseg_ok8 (mexpand ms) = true ->
  Forall (fun p => exists ev, pseg_event d off p = Ok ev) (mexpand ms) ->
  forall s1 st tk l ds q tm tc fr, binv l q -> state_eq s1 (B off st tk l ds q tm tc fr) ->
  state_eq (run s1 (map (mseg_line d) ms)) (run (B off st tk l ds q tm tc fr) (map (pseg_line d) (mexpand ms))).
Proof.
  intros d off ms Hck Hok Hev s1 st tk l ds q tm tc fr Hinv.
  apply (run_segs _ (mseg_line d) mseg_expand (mseg_ok d off) d off (mseg_step d off)); try assumption.
  apply bst_B, Hinv.
Qed.

Theorem read_msegs : forall d off ms evs, Forall (mseg_ok d off) ms -> forallb pseg_ok8 (mexpand ms) = true ->
  res_map (pseg_event d off) (mexpand ms) = Ok evs ->
  read off (map (mseg_line d) ms) = read off (map (pseg_line d) (mexpand ms)).
Proof.
  intros d off ms evs Hck Hok Hev. apply read_state_eq.
  exact (run_msegs d off ms Hck Hok (res_map_each _ _ _ _ _ Hev) (rstate0 off) stash0 tracker0 LNone false None 0%Q
           (lit "00:00:00;00") 0 (conj eq_refl (or_introl eq_refl)) (se_refl _)).
Qed.

Theorem popon_refines_608_mixed : forall d off ms evs spans,
  Forall (mseg_ok d off) ms -> forallb pseg_ok8 (mexpand ms) = true ->
  res_map (pseg_event d off) (mexpand ms) = Ok evs -> positive evs -> after_show None evs ->
  expected_with join_threshold evs = Ok spans ->
  exists caps, read off (map (mseg_line d) ms) = ROk caps /\
               ok_c05 (mkProg d (ploads_of (mexpand ms))) (Ok (map observe caps)) = true /\
               dom_c05 (mkProg d (ploads_of (mexpand ms))) = true.
Proof.
  intros d off ms evs spans Hck Hok Hev Hp Ha Hx. rewrite (read_msegs d off ms evs Hck Hok Hev).
  exact (popon_refines_608 d off (mexpand ms) evs spans Hok Hev Hp Ha Hx).
Qed.

Theorem popon_times_mixed : forall d off ms evs,
  Forall (mseg_ok d off) ms -> forallb pseg_ok8 (mexpand ms) = true ->
  res_map (pseg_event d off) (mexpand ms) = Ok evs -> positive evs ->
  spans_of (read off (map (mseg_line d) ms))
  = rmap (fun spans => flat_map bspans (combine (ploads_of (mexpand ms)) spans)) (expected_with join_threshold evs).
Proof.
  intros d off ms evs Hck Hok Hev Hp. rewrite (read_msegs d off ms evs Hck Hok Hev).
  exact (popon_times d off (mexpand ms) evs Hok Hev Hp).
Qed.

Lemma tab_none_None : forall w, tab_none w = true -> tab_of w = None.
Proof. intros w H. unfold tab_none in H. destruct (tab_of w); [discriminate|reflexivity]. Qed.

Lemma opt_is_false : forall o w, opt_is o w = false -> o <> Some w.
Proof. intros [x|] w H E; [|discriminate]. injection E as ->. cbn [opt_is] in H. rewrite Z.eqb_refl in H. discriminate. Qed.

Theorem ddb_sound : forall m prev d, ddb prev m d = true -> dd prev m d.
Proof.
  induction m as [|v m IH]; intros prev d H; destruct d as [|v1 d']; try discriminate H; [constructor|].
  cbn [ddb] in H. rewrite !andb_true_iff in H. destruct H as [[[He Hq] Ht] Hor]. apply Z.eqb_eq in He. subst v1.
  apply tab_none_None in Ht. apply orb_true_iff in Hor. destruct Hor as [Hs|Hd].
  - apply dd_same; [exact Hq|exact Ht|apply IH, Hs].
  - destruct d' as [|v2 d'']; [discriminate|]. rewrite !andb_true_iff in Hd. destruct Hd as [[[[H1 H2] H3] H4] H5].
    apply Z.eqb_eq in H1. subst v2. apply negb_true_iff in H3, H4.
    apply dd_dup; [exact Hq|exact Ht|exact H2|apply opt_is_false, H3|apply opt_is_false, H4|apply IH, H5].
Qed.

Definition mmix (t : timecode) (l : load) : mseg :=
  let nm := Z.of_nat (length (body_m l)) in let nd := Z.of_nat (length (flat_map (emit_row true) l)) in
  MMix (render_tc t) (render_tc (tc_shift t (4 + nm))) (render_tc (tc_shift t 2)) (render_tc (tc_shift t (2 + nm - nd))) l (body_m l).

(* an instance: "Hi ♪" / "a½b" as the writer sends it - preamble codes doubled, the special characters 9137 / 9132 single *)
Definition exm_l : load := [mkRow 14 0 0 16 [Ch 72; Ch 105; Ch 32; Sp 7]; mkRow 15 0 0 16 [Ch 97; Sp 2; Ch 98]].
Definition exm_ms : list mseg := [mmix (mkTc 0 0 1 false 0) exm_l; MW (WSeg (PClear (lit "00:00:05:00")))].

Example exm_line : mseg_line true (mmix (mkTc 0 0 1 false 0) exm_l) =
  (lit "00:00:01:00", [38062; 38062; 37920; 37920; 38096; 38096; 51433; 8320; 37175; 38000; 38000; 24960; 37170; 25216;
                       37932; 37932; 37935; 37935]).
Proof. vm_compute. reflexivity. Qed.

Example exm_hyps : Forall (mseg_ok true 0) exm_ms /\ forallb pseg_ok8 (mexpand exm_ms) = true.
Proof.
  split; [|vm_compute; reflexivity].
  constructor; [|constructor; [exact I|constructor]].
  unfold mmix, mseg_ok. split; [apply ddb_sound; vm_compute; reflexivity|].
  split; [apply same_clock_shift; [reflexivity|vm_compute; discriminate|vm_compute; reflexivity]|].
  split; [apply same_clock_shift; [reflexivity|vm_compute; discriminate|vm_compute; reflexivity]|].
  split; [|vm_compute; lia].
  apply (same_clock_wf 0 (tc_shift (mkTc 0 0 1 false 0) (2 + Z.of_nat (length (body_m exm_l)) - Z.of_nat (length (flat_map (emit_row true) exm_l))))
                       (tc_shift (mkTc 0 0 1 false 0) 2)); vm_compute; try reflexivity; discriminate.
Qed.

Example exm_runs :
  match res_map (pseg_event true 0) (mexpand exm_ms) with
  | Ok evs => match read 0 (map (mseg_line true) exm_ms) with
              | ROk caps => ok_c05 (mkProg true [exm_l]) (Ok (map observe caps)) && Nat.eqb (length caps) 1
              | _ => false
              end
  | Err _ => false
  end = true.
Proof. vm_compute. reflexivity. Qed.
