(* C20: "and that reader reads the document" for SRT.  The document written by the node-level writer
   model (model/OwnWrite.v srt_write) for ONE language is C01's abstract SRT document with the blank line behind the last
   cue removed (srt[:-1]); the reader model of C01 (model/TimeRead.v srt_read) returns exactly one caption per written
   (merged) cue with the written instants and text lines.  TimeDocFacts is used read-only: srt_loop_cues_tail for all cues
   but the last, srt_loop_last_cue for the last one. *)
From Coq Require Import List ZArith QArith Qround Bool Lia ZifyBool.
From PV Require Import lib.Sx lib.Str lib.Result lib.Dec lib.StrSplit model.Generated model.Detect spec.SpecDetect
  spec.SpecOwn model.OwnWrite spec.SpecOwnNodes proofs.DetectFacts proofs.DetectOwnFacts proofs.DetectNodeFacts
  model.TimeRead spec.SpecTime proofs.TimeStrFacts proofs.TimeDocFacts proofs.OwnReadFacts.
Import ListNotations.
Open Scope Z_scope.
#[local] Ltac Zify.zify_post_hook ::= Z.to_euclidean_division_equations.

Definition hpad (h : Z) : nat := (2 - length (dec_nonneg h))%nat.
Definition stamp_of (us : Z) : srt_stamp :=
  let s := td_seconds us in
  mkSrt (hpad (s / 3600)) (s / 3600) ((s mod 3600) / 60) ((s mod 3600) mod 60) (Some (td_millis us)).

Lemma padded_two : forall h, 0 <= h < 100 -> padded (hpad h) h = two h.
Proof. intros h H. rewrite <- (zpad2_two h H). reflexivity. Qed.

Lemma stamp_render : forall us, srt_render_stamp (stamp_of us) = srt_timestamp us.
Proof.
  intros us. pose proof (td_seconds_range us) as Hs. unfold srt_render_stamp, stamp_of, srt_timestamp. cbv zeta.
  cbn [sr_pad sr_h sr_m sr_s sr_ms]. rewrite padded_two by lia. reflexivity.
Qed.

Lemma stamp_dom : forall us, srt_stamp_dom (stamp_of us) = true.
Proof.
  intros us. pose proof (td_seconds_range us) as Hs. pose proof (td_millis_range us) as Hm.
  unfold srt_stamp_dom, stamp_of. cbv zeta. cbn [sr_h sr_m sr_s sr_ms]. lia.
Qed.

Lemma stamp_instant : forall t, us (srt_instant (stamp_of t)) = (td_seconds t * 1000 + td_millis t) * 1000.
Proof.
  intros t. pose proof (td_seconds_range t) as Hs. unfold us, srt_instant, stamp_of. cbv zeta. cbn [sr_h sr_m sr_s sr_ms].
  set (s := td_seconds t) in *. set (ms := td_millis t).
  assert (E : secs (s / 3600) (s mod 3600 / 60) ((s mod 3600) mod 60) = s) by (unfold secs; lia).
  rewrite E.
  assert (Q : ((inject_Z s + (ms # 1000)) * 1000000 == inject_Z ((s * 1000 + ms) * 1000))%Q).
  { unfold Qeq, Qplus, Qmult, inject_Z. cbn. lia. }
  rewrite Q. apply Qfloor_Z.
Qed.

Definition kept (m : ocap) : list str := filter nonblank (split_ch 10 (strip (cap_text m))).
Definition to_sc (k : Z) (m : ocap) : srt_cue := mkSrtCue k (stamp_of (oc_start m)) (stamp_of (oc_end m)) (kept m) 0.
Fixpoint sc_list (k : Z) (M : list ocap) : list srt_cue :=
  match M with [] => [] | m :: t => to_sc k m :: sc_list (k + 1) t end.

Definition cap_ok (c : ocap) : bool := srt_visible c && negb (existsb (Z.eqb 13) (cap_text c)).

Lemma timing_eq : forall k m, TimeDocFacts.srt_timing (to_sc k m) = OwnWrite.srt_timing m.
Proof.
  intros k m. unfold TimeDocFacts.srt_timing, OwnWrite.srt_timing, to_sc. cbn [sc_t0 sc_t1]. rewrite !stamp_render. reflexivity.
Qed.

Lemma not_in_13 : forall s, existsb (Z.eqb 13) s = false -> ~ In 13 s.
Proof.
  intros s H Hin. assert (E : existsb (Z.eqb 13) s = true) by (apply existsb_exists; exists 13; split; [exact Hin|reflexivity]).
  congruence.
Qed.

Lemma part_in : forall p s x, part p s -> In x p -> In x s.
Proof. intros p s x [a [b ->]] H. apply in_or_app. right. apply in_or_app. left. exact H. Qed.

Lemma kept_lines_ok : forall m, cap_ok m = true -> forallb text_line_ok (kept m) = true.
Proof.
  intros m H. unfold cap_ok in H. apply andb_true_iff in H. destruct H as [_ H13]. apply negb_true_iff in H13.
  apply forallb_forall. intros l Hl. unfold kept in Hl. apply filter_In in Hl. destruct Hl as [Hin Hnb].
  unfold text_line_ok. apply andb_true_iff. split.
  - unfold SpecTime.no_linebreak. apply forallb_forall. intros x Hx. apply negb_true_iff.
    destruct ((x =? 10) || (x =? 13)) eqn:E; [|reflexivity]. exfalso. apply orb_true_iff in E. destruct E as [E|E]; apply Z.eqb_eq in E; subst x.
    + apply (split_ch_no_sep 10 _ l Hin Hx).
    + apply (not_in_13 _ H13). apply (part_in l (cap_text m) 13); [|exact Hx].
      apply (part_trans _ (strip (cap_text m))); [apply (split_ch_part 10 _ l Hin)|apply strip_part].
  - unfold visible_line. unfold nonblank in Hnb. exact Hnb.
Qed.

Lemma kept_nonempty : forall m, cap_ok m = true -> kept m <> [].
Proof.
  intros m H. unfold cap_ok in H. apply andb_true_iff in H. destruct H as [Hv _].
  unfold srt_visible in Hv. apply existsb_exists in Hv. destruct Hv as [x [Hx Hsp]]. apply negb_true_iff in Hsp.
  assert (Hs : In x (strip (cap_text m))).
  { unfold strip, strip_by. apply rstrip_by_in; [apply lstrip_by_in; assumption|exact Hsp]. }
  destruct (split_ch_aux_in 10 _ [] x Hs ltac:(unfold is_space in Hsp; lia)) as [p [Hp Hxp]].
  intros E. assert (Hk : In p (kept m)).
  { unfold kept. apply filter_In. split; [exact Hp|]. unfold nonblank.
    pose proof (strip_witness p (ex_intro _ x (conj Hxp Hsp))) as W. unfold is_blank in W. destruct (strip p); [discriminate|reflexivity]. }
  rewrite E in Hk. destruct Hk.
Qed.

Lemma to_sc_dom : forall k m, 0 <= k -> cap_ok m = true -> srt_cue_dom (to_sc k m) = true.
Proof.
  intros k m Hk H. unfold srt_cue_dom, to_sc. cbn [sc_idx sc_t0 sc_t1 sc_lines].
  rewrite !stamp_dom, (kept_lines_ok m H). replace (0 <=? k) with true by lia. cbn [andb].
  pose proof (kept_nonempty m H) as N. destruct (kept m); [congruence|reflexivity].
Qed.

Lemma sc_list_dom : forall M k, 0 <= k -> forallb cap_ok M = true -> forallb srt_cue_dom (sc_list k M) = true.
Proof.
  induction M as [|m t IH]; intros k Hk H; [reflexivity|]. cbn [forallb] in H. apply andb_true_iff in H. destruct H as [Hm Ht].
  cbn [sc_list forallb]. rewrite (to_sc_dom k m Hk Hm), (IH (k + 1) ltac:(lia) Ht). reflexivity.
Qed.

Lemma sc_list_app : forall a b k, sc_list k (a ++ b) = sc_list k a ++ sc_list (k + Z.of_nat (length a)) b.
Proof.
  induction a as [|x a IH]; intros b k.
  - cbn [app sc_list length]. replace (k + Z.of_nat 0) with k by lia. reflexivity.
  - cbn [app sc_list length]. rewrite IH. replace (k + 1 + Z.of_nat (length a)) with (k + Z.of_nat (S (length a))) by lia. reflexivity.
Qed.

Definition nlf (l : str) : str := l ++ nl_of false.

Lemma split_nlf : forall ls, forallb no_lb ls = true -> split_lines (flat_map nlf ls) = ls.
Proof. exact (splitlines_lines false). Qed.

Lemma join_nl : forall ls, ls <> [] -> join [10] ls ++ [10] = flat_map nlf ls.
Proof.
  induction ls as [|a t IH]; intros H; [congruence|]. destruct t as [|b t'].
  - cbn. rewrite app_nil_r. reflexivity.
  - rewrite join_cons2. change (flat_map nlf (a :: b :: t')) with (nlf a ++ flat_map nlf (b :: t')).
    rewrite <- (IH ltac:(discriminate)). unfold nlf at 1. cbn [nl_of].
    rewrite <- !app_assoc. reflexivity.
Qed.

Lemma blocks_lines : forall M k, 1 <= k -> forallb cap_ok M = true ->
  srt_blocks_w k (map OwnWrite.srt_cue M) = flat_map nlf (flat_map srt_cue_lines (sc_list k M)).
Proof.
  induction M as [|m t IH]; intros k Hk H; [reflexivity|]. cbn [forallb] in H. apply andb_true_iff in H. destruct H as [Hm Ht].
  cbn [map sc_list flat_map]. rewrite flat_map_app, <- (IH (k + 1) ltac:(lia) Ht).
  unfold OwnWrite.srt_cue at 1. cbn [srt_blocks_w]. unfold srt_cue_lines, to_sc at 1. cbn [sc_idx sc_lines sc_gap repeat].
  fold (to_sc k m). rewrite timing_eq. cbn [flat_map]. rewrite flat_map_app. cbn [flat_map].
  unfold srt_clean. fold (kept m).
  change (sc_lines (to_sc k m)) with (kept m). change (sc_gap (to_sc k m)) with 0%nat. cbn [repeat flat_map].
  rewrite <- (join_nl (kept m) (kept_nonempty m Hm)).
  unfold nlf. cbn [nl_of]. unfold dec_z. replace (k <? 0) with false by lia.
  repeat (rewrite <- ?app_assoc; cbn [app]). reflexivity.
Qed.

Lemma lines_no_lb : forall cues, forallb srt_cue_dom cues = true -> forallb no_lb (flat_map srt_cue_lines cues) = true.
Proof.
  induction cues as [|c t IH]; intros H; [reflexivity|]. cbn [forallb] in H. apply andb_true_iff in H. destruct H as [Hc Ht].
  cbn [flat_map]. rewrite forallb_app, (srt_cue_lines_no_lb c Hc), (IH Ht). reflexivity.
Qed.

Lemma cues_le_lines : forall cs, (length cs <= length (flat_map srt_cue_lines cs))%nat.
Proof.
  induction cs as [|c t IH]; [reflexivity|]. cbn [flat_map length]. rewrite app_length.
  unfold srt_cue_lines at 1. cbn [length]. lia.
Qed.

Lemma last_tuple : forall k m,
  (us (srt_instant (sc_t0 (to_sc k m))), us (srt_instant (sc_t1 (to_sc k m))), sc_lines (to_sc k m)) = srt_expected_cap m.
Proof. intros k m. unfold to_sc. cbn [sc_t0 sc_t1 sc_lines]. rewrite !stamp_instant. reflexivity. Qed.

Lemma expected_list : forall M k, forallb cap_ok M = true -> srt_expected_caps (sc_list k M) = map srt_expected_cap M.
Proof.
  induction M as [|m t IH]; intros k H; [reflexivity|]. cbn [forallb] in H. apply andb_true_iff in H. destruct H as [Hm Ht].
  cbn [sc_list map]. rewrite <- (IH (k + 1) Ht), <- (last_tuple k m). unfold srt_expected_caps. cbn [flat_map].
  pose proof (kept_nonempty m Hm) as N. change (sc_lines (to_sc k m)) with (kept m). destruct (kept m); [congruence|reflexivity].
Qed.

Lemma cap_ok_merge : forall a b, cap_ok a = true -> cap_ok b = true ->
  cap_ok (mk_ocap (oc_start b) (oc_end b) (oc_nodes a ++ OBreak :: oc_nodes b)) = true.
Proof.
  intros a b Ha Hb. unfold cap_ok, srt_visible, cap_text in *. cbn [oc_nodes].
  apply andb_true_iff in Ha. destruct Ha as [A1 A2]. apply andb_true_iff in Hb. destruct Hb as [B1 B2].
  apply negb_true_iff in A2, B2.
  rewrite flat_map_app. change (flat_map node_text (OBreak :: oc_nodes b)) with (10 :: flat_map node_text (oc_nodes b)).
  rewrite !existsb_app. cbn [existsb]. rewrite A1, A2, B2. reflexivity.
Qed.

Lemma drop_last_nl : forall s, firstn (length (s ++ [10]) - 1) (s ++ [10]) = s.
Proof. intros s. rewrite app_length. cbn [length]. replace (length s + 1 - 1)%nat with (length s) by lia. rewrite firstn_app, Nat.sub_diag, firstn_all. cbn. apply app_nil_r. Qed.

Theorem own_read_srt : forall langs, srt_read_dom langs = true ->
  srt_read (srt_write langs) = Ok (map srt_expected_cap (srt_merge (hd [] langs))).
Proof.
  intros langs H. unfold srt_read_dom in H.
  destruct langs as [|[|c t] [|l2 ls]]; try discriminate. cbn [hd].
  change (forallb cap_ok (c :: t) = true) in H.
  assert (HM : forallb cap_ok (srt_merge (c :: t)) = true).
  { apply (srt_merge_forall cap_ok cap_ok_merge _ H). }
  assert (Hne : srt_merge (c :: t) <> []).
  { cbn [srt_merge]. destruct (srt_merge_from_cons t c) as [x [y E]]. rewrite E. discriminate. }
  set (M := srt_merge (c :: t)) in *.
  destruct (exists_last Hne) as [init [last EM]].
  unfold srt_write. cbn [map join]. unfold srt_lang. cbv zeta. fold M.
  rewrite (blocks_lines M 1 ltac:(lia) HM).
  rewrite EM in HM. rewrite forallb_app in HM. apply andb_true_iff in HM. destruct HM as [Hi Hl].
  cbn [forallb] in Hl. rewrite andb_true_r in Hl.
  rewrite EM, sc_list_app. cbn [sc_list]. set (kl := 1 + Z.of_nat (length init)).
  rewrite flat_map_app. cbn [flat_map]. rewrite app_nil_r.
  set (Li := flat_map srt_cue_lines (sc_list 1 init)).
  set (cl := to_sc kl last).
  set (tailL := dec_nonneg (sc_idx cl) :: TimeDocFacts.srt_timing cl :: sc_lines cl).
  assert (EL : srt_cue_lines cl = tailL ++ [[]]).
  { unfold srt_cue_lines, tailL, cl, to_sc. cbn [sc_idx sc_lines sc_gap repeat]. reflexivity. }
  rewrite EL.
  assert (ED : flat_map nlf (Li ++ tailL ++ [[]]) = flat_map nlf (Li ++ tailL) ++ [10]).
  { rewrite app_assoc, flat_map_app. reflexivity. }
  rewrite ED, drop_last_nl.
  assert (Di : forallb srt_cue_dom (sc_list 1 init) = true) by (apply sc_list_dom; [lia|exact Hi]).
  assert (Dl : srt_cue_dom cl = true) by (apply to_sc_dom; [unfold kl; lia|exact Hl]).
  assert (NL : forallb no_lb (Li ++ tailL) = true).
  { rewrite forallb_app. unfold Li. rewrite (lines_no_lb _ Di). cbn [andb].
    pose proof (srt_cue_lines_no_lb cl Dl) as N. rewrite EL, forallb_app in N. apply andb_true_iff in N. apply N. }
  unfold srt_read. cbv zeta. rewrite (split_nlf _ NL).
  assert (HT : forall f acc', (0 < f)%nat -> srt_loop f tailL acc' = Ok (acc' ++ [srt_expected_cap last])).
  { intros f acc' Hf. unfold tailL. rewrite (srt_loop_last_cue cl f acc' Dl Hf). unfold cl. rewrite last_tuple. reflexivity. }
  unfold Li. rewrite (srt_loop_cues_tail (sc_list 1 init) tailL _ [] [srt_expected_cap last]).
  - cbn [app]. rewrite (expected_list init 1 Hi), map_app. cbn [map].
    unfold no_captions_if_empty. destruct (map srt_expected_cap init); reflexivity.
  - pose proof (cues_le_lines (sc_list 1 init)) as G. rewrite app_length. lia.
  - exact Di.
  - unfold tailL. apply digits_not_blank; [apply dec_nonneg_nonempty|apply dec_nonneg_digits; unfold cl, to_sc, kl; cbn [sc_idx]; lia].
  - exact HT.
Qed.

Theorem own_detect_and_read_srt : forall langs, srt_dom langs = true -> srt_read_dom langs = true ->
  detect_format (srt_write langs) = Ok (Some R_SRT) /\
  exists caps, srt_read (srt_write langs) = Ok caps /\ length caps = length (srt_merge (hd [] langs)) /\
               map (fun r => (fst (fst r), snd (fst r))) caps
               = map (fun c => ((td_seconds (oc_start c) * 1000 + td_millis (oc_start c)) * 1000,
                                (td_seconds (oc_end c) * 1000 + td_millis (oc_end c)) * 1000)) (srt_merge (hd [] langs)).
Proof.
  intros langs Hd Hr. split; [apply own_nodes_srt; exact Hd|].
  exists (map srt_expected_cap (srt_merge (hd [] langs))). split; [apply own_read_srt; exact Hr|].
  split; [apply map_length|]. rewrite map_map. reflexivity.
Qed.
