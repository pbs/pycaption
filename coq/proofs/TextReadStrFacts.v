(* C04: read_p (render_p lines) = the shown lines, for every list of lines of the domain (line_ok):
   strict XML content parser + DFXP reader model on the rendered string.  Pieces: the text-node matcher on a wrapped
   line (text_node_wrapped, exact), the tokenizer on escaped lines separated by <br/> (simulation Rel of
   proofs/TextPayloadFacts.v), the tree builder on tag-free tokens, node_lines. *)
From Coq Require Import List ZArith Bool.
From PV Require Import lib.Sx lib.Str lib.StrFacts model.TextNodes model.TextWrite model.TextRead spec.SpecTextXml spec.SpecTextDfxpStr.
From PV Require Import proofs.TextStrFacts proofs.TextXmlFacts proofs.TextPayloadFacts proofs.TextAttrFacts.
Import ListNotations.
Open Scope Z_scope.

Definition nonl (c : Z) : bool := negb (is_nl_cr c).
Definition wtail_ok (tail : list (str * str)) : Prop :=
  Forall (fun e => forallb is_space (fst e) = true /\ forallb nonl (fst e) = true /\
                   forallb nonl (snd e) = true /\ exists c w', snd e = c :: w' /\ is_space c = false) tail.

Definition rof (tail : list (str * str)) : str := concat (map (fun e => 10 :: fst e ++ snd e) tail).
Definition piece (x : str) : str := if nonblank_b x then 32 :: lstrip x else [].

Lemma split_by_aux_app : forall f a b cur, forallb (fun c => negb (f c)) a = true ->
  split_by_aux f (a ++ b) cur = split_by_aux f b (rev a ++ cur).
Proof.
  intros f a. induction a as [|c a IH]; intros b cur H; [reflexivity|].
  cbn [forallb] in H. apply andb_true_iff in H. destruct H as [Hc Ha]. apply negb_true_iff in Hc.
  cbn [app split_by_aux]. rewrite Hc, (IH b (c :: cur) Ha). cbn [rev]. rewrite <- app_assoc. reflexivity.
Qed.

Lemma split_tail : forall tail cur, wtail_ok tail ->
  concat (map (fun l => 32 :: lstrip l) (filter nonblank_b (split_by_aux is_nl_cr (rof tail) cur))) =
  piece (rev cur) ++ concat (map (fun e => 32 :: snd e) tail).
Proof.
  induction tail as [|[ind w] tail IH]; intros cur H.
  - cbn [rof map concat split_by_aux filter]. unfold piece. destruct (nonblank_b (rev cur)); cbn; rewrite ?app_nil_r; reflexivity.
  - inversion H as [|e l He Hl]; subst. cbn [fst snd] in He. destruct He as (Hi & Hin & Hwn & c & w' & Hw & Hc).
    unfold rof. cbn [map concat fst snd]. fold (rof tail). cbn [app split_by_aux]. change (is_nl_cr 10) with true. cbv iota.
    cbn [filter]. assert (E : forall X, concat (map (fun l => 32 :: lstrip l) ((if nonblank_b (rev cur) then rev cur :: X else X))) =
                            piece (rev cur) ++ concat (map (fun l => 32 :: lstrip l) X)).
    { intros X. unfold piece. destruct (nonblank_b (rev cur)); reflexivity. }
    rewrite E. f_equal. rewrite <- app_assoc.
    rewrite (split_by_aux_app is_nl_cr ind _ [] Hin), (split_by_aux_app is_nl_cr w _ _ Hwn).
    rewrite (IH _ Hl). cbn [map concat snd]. f_equal.
    rewrite app_nil_r, <- rev_app_distr, rev_involutive. unfold piece.
    assert (Hnb : nonblank_b (ind ++ w) = true).
    { unfold nonblank_b. rewrite forallb_app, Hw. cbn [forallb]. rewrite Hc, andb_false_r. reflexivity. }
    rewrite Hnb. unfold lstrip. rewrite Hw. rewrite (lstrip_by_app_nonspace is_space ind c w' Hc Hi). reflexivity.
Qed.

Lemma nonl_not_lf : forall w, forallb nonl w = true -> forallb not_lf w = true.
Proof.
  intros w. apply forallb_weaken. intros c Hc. unfold nonl, is_nl_cr in Hc. unfold not_lf. destruct (c =? 10); [discriminate|reflexivity].
Qed.

Theorem text_node_wrapped : forall c w' tail, is_space c = false -> forallb nonl (c :: w') = true -> wtail_ok tail ->
  text_node true ((c :: w') ++ rof tail) = Some ((c :: w') ++ concat (map (fun e => 32 :: snd e) tail)).
Proof.
  intros c w' tail Hc Hw Ht.
  assert (Hcn : is_nl_cr c = false).
  { destruct (is_nl_cr c) eqn:N; [|reflexivity]. apply orb_true_iff in N. destruct N as [N|N]; apply Z.eqb_eq in N; subst c; discriminate. }
  assert (Hlf : forallb not_lf (c :: w') = true) by (apply nonl_not_lf; exact Hw).
  assert (Hfirst : take_while not_lf ((c :: w') ++ rof tail) = c :: w').
  { (* the tail is empty or begins with a line feed *)
    rewrite take_while_app_all by exact Hlf. destruct tail as [|[ind w] tail]; apply app_nil_r. }
  unfold text_node, text_first. cbn [app take_while]. rewrite Hcn. cbn [length firstn].
  assert (Hr : rstrip_by is_lf [c] = [c]).
  { unfold rstrip_by. cbn [rev app lstrip_by]. apply orb_false_iff in Hcn. unfold is_lf. rewrite (proj1 Hcn). reflexivity. }
  rewrite Hr. cbn [length Nat.sub skipn].
  change (c :: w' ++ rof tail) with ((c :: w') ++ rof tail). rewrite Hfirst.
  change (0 + length (c :: w'))%nat with (length (c :: w')). rewrite skipn_app_exact.
  unfold split_by. rewrite (split_tail tail [] Ht). reflexivity.
Qed.

Corollary text_node_plain : forall c w', is_space c = false -> forallb nonl (c :: w') = true ->
  text_node true (c :: w') = Some (c :: w').
Proof.
  intros c w' Hc Hw. pose proof (text_node_wrapped c w' [] Hc Hw (Forall_nil _)) as Q.
  cbn [rof map concat] in Q. rewrite !app_nil_r in Q. exact Q.
Qed.

Definition txt_tok (l : str) : list xtok := match l with [] => [] | _ => [TkText l] end.
Fixpoint line_toks (ls : list str) : list xtok :=
  match ls with
  | [] => []
  | [l] => txt_tok l
  | l :: t => txt_tok l ++ TkEmpty (lit "br") [] :: line_toks t
  end.

Lemma flush_rev : forall l out, flush (rev l) out = rev (txt_tok l) ++ out.
Proof.
  intros l out. unfold flush, txt_tok. destruct l as [|c l]; [reflexivity|].
  destruct (rev (c :: l)) eqn:E.
  - apply (f_equal (@length Z)) in E. rewrite rev_length in E. discriminate.
  - rewrite <- E, rev_involutive. reflexivity.
Qed.

(* the tokenizer state after the lines, and the tokens it has flushed by then *)
Lemma Rel_lines : forall ls L a, ls <> [] -> Rel L a -> a_cur a = [] -> Forall (fun l => forallb xml_text_char l = true) ls ->
  exists a', Rel (L ++ join (lit "<br/>") (map xml_escape ls)) a' /\
             rev (flush (a_cur a') (a_out a')) = rev (a_out a) ++ line_toks ls.
Proof.
  induction ls as [|l ls IH]; intros L a Hne HR Ha H; [congruence|].
  inversion H as [|x y Hl Hls]; subst. pose proof (Rel_text L a l HR Hl) as HT. destruct ls as [|l2 ls].
  - exists (a_text l a). split; [exact HT|].
    unfold a_text. cbn [a_cur a_out line_toks]. rewrite Ha, app_nil_r, flush_rev, rev_app_distr, rev_involutive. reflexivity.
  - destruct (IH ((L ++ xml_escape l) ++ lit "<br/>") (a_mark (TkEmpty (lit "br") []) (a_text l a))) as (a' & HR' & E);
      [discriminate|apply (Rel_mark _ (a_text l a) _ _ HT markup_br)|reflexivity|exact Hls|].
    exists a'. split.
    + rewrite <- !app_assoc in HR'. exact HR'.
    + rewrite E. unfold a_mark, a_text. cbn [a_cur a_out rev]. rewrite Ha, app_nil_r, flush_rev, rev_app_distr, rev_involutive, <- !app_assoc.
      reflexivity.
Qed.

Theorem lines_tokens : forall ls, ls <> [] -> Forall (fun l => forallb xml_text_char l = true) ls ->
  xtokens (join (lit "<br/>") (map xml_escape ls)) = Some (line_toks ls).
Proof.
  intros ls Hne H. destruct (Rel_lines ls [] (mkA [] []) Hne Rel_init eq_refl H) as (a' & ([nbr Ht] & _ & _) & E).
  cbn [app] in Ht. unfold xtokens. unfold str in *. rewrite Ht. unfold t_finish. cbn [ts_mode ts_cur ts_out]. rewrite E. reflexivity.
Qed.

Definition tok_node (tk : xtok) : list xnode :=
  match tk with TkText s => [XText s] | TkEmpty n a => [XElem n a []] | _ => [] end.
Definition flat_tok (tk : xtok) : bool := match tk with TkText _ | TkEmpty _ _ => true | _ => false end.

Lemma xbuild_flat_toks : forall toks cur, forallb flat_tok toks = true ->
  xbuild toks [] cur = Some (rev cur ++ flat_map tok_node toks).
Proof.
  induction toks as [|tk toks IH]; intros cur H.
  - cbn. rewrite app_nil_r. reflexivity.
  - cbn [forallb] in H. apply andb_true_iff in H. destruct H as [Htk H].
    (* a text and an empty element are both appended to the current children *)
    destruct tk; try discriminate; cbn [xbuild flat_map tok_node]; rewrite (IH _ H); cbn [rev]; rewrite <- app_assoc; reflexivity.
Qed.

Lemma line_toks_flat : forall ls, forallb flat_tok (line_toks ls) = true.
Proof.
  induction ls as [|l ls IH]; [reflexivity|]. destruct ls as [|l2 ls].
  - cbn [line_toks]. destruct l; reflexivity.
  - change (line_toks (l :: l2 :: ls)) with (txt_tok l ++ TkEmpty (lit "br") [] :: line_toks (l2 :: ls)).
    rewrite forallb_app. cbn [forallb flat_tok]. rewrite IH. destruct l; reflexivity.
Qed.

(* the nodes the reader model returns for the lines, and their lines *)
Definition tn (s : str) : list node := match s with [] => [] | _ => [NText s] end.
Fixpoint nodes_of (ss : list str) : list node :=
  match ss with
  | [] => []
  | [s] => tn s
  | s :: t => tn s ++ NBreak :: nodes_of t
  end.

Lemma node_lines_aux_app : forall a b cur, (forall n, In n a -> exists s, n = NText s) ->
  node_lines_aux (a ++ b) cur = node_lines_aux b (cur ++ concat (map (fun n => match n with NText s => s | _ => [] end) a)).
Proof.
  induction a as [|n a IH]; intros b cur H; [cbn; rewrite app_nil_r; reflexivity|].
  destruct (H n (or_introl eq_refl)) as [s ->]. cbn [app node_lines_aux map concat]. rewrite IH; [rewrite <- app_assoc; reflexivity|].
  intros m Hm. apply H. right. exact Hm.
Qed.

Lemma node_lines_tn : forall s b cur, node_lines_aux (tn s ++ b) cur = node_lines_aux b (cur ++ s).
Proof. intros s b cur. destruct s as [|c s]; cbn [tn app]; [rewrite app_nil_r; reflexivity|reflexivity]. Qed.

Lemma node_lines_nodes_of : forall ss cur, ss <> [] -> node_lines_aux (nodes_of ss) cur = (cur ++ hd [] ss) :: tl ss.
Proof.
  induction ss as [|s ss IH]; intros cur Hne; [congruence|]. destruct ss as [|s2 ss].
  - cbn [nodes_of hd tl]. rewrite <- (app_nil_r (tn s)), node_lines_tn. reflexivity.
  - change (nodes_of (s :: s2 :: ss)) with (tn s ++ NBreak :: nodes_of (s2 :: ss)). cbn [hd tl].
    rewrite node_lines_tn. cbn [node_lines_aux]. rewrite IH by discriminate. reflexivity.
Qed.

Lemma text_char_nonl : forall w, forallb text_char w = true -> forallb (fun c => negb (c =? 10)) w = true -> forallb nonl w = true.
Proof.
  intros w H1 H2. rewrite forallb_forall in *. intros c Hc. specialize (H1 c Hc). specialize (H2 c Hc).
  unfold text_char in H1. apply andb_true_iff in H1. destruct H1 as [_ H1].
  unfold nonl, is_nl_cr. apply negb_true_iff in H1, H2. rewrite H1, H2. reflexivity.
Qed.

Lemma text_char_xml : forall w, forallb text_char w = true -> forallb xml_text_char w = true.
Proof. intros w H. exact H. Qed.

Lemma word_ok_inv : forall w, word_ok w = true ->
  exists c w', w = c :: w' /\ is_space c = false /\ forallb nonl w = true /\ forallb xml_text_char w = true.
Proof.
  intros w H. unfold word_ok in H. apply andb_true_iff in H. destruct H as [H H10]. apply andb_true_iff in H. destruct H as [Hc Ht].
  destruct w as [|c w']; [discriminate|]. exists c, w'. repeat split; [apply negb_true_iff; exact Hc|apply text_char_nonl; assumption|exact Ht].
Qed.

Lemma tail_ok_inv : forall tail, forallb (fun e => ind_ok (fst e) && word_ok (snd e)) tail = true ->
  wtail_ok tail /\ forallb xml_text_char (rof tail) = true.
Proof.
  induction tail as [|[ind w] tail IH]; intros H; [split; [constructor|reflexivity]|].
  cbn [forallb fst snd] in H. apply andb_true_iff in H. destruct H as [H Ht]. apply andb_true_iff in H. destruct H as [Hi Hw].
  destruct (IH Ht) as [IH1 IH2]. destruct (word_ok_inv w Hw) as (c & w' & E & Hc & Hn & Hx).
  unfold ind_ok in Hi. apply andb_true_iff in Hi. destruct Hi as [Hi Hi10]. apply andb_true_iff in Hi. destruct Hi as [Hsp Hit].
  split.
  - constructor; [|exact IH1]. cbn [fst snd]. repeat split; [exact Hsp|apply text_char_nonl; assumption|exact Hn|]. exists c, w'. split; assumption.
  - unfold rof. cbn [map concat fst snd]. fold (rof tail). change (forallb xml_text_char ind = true) in Hit.
    change (10 :: ind ++ w) with ([10] ++ ind ++ w). rewrite !forallb_app, IH2, Hx, Hit. reflexivity.
Qed.

Lemma line_ok_inv : forall l, line_ok l = true ->
  forallb xml_text_char (raw_line l) = true /\
  flat_map (dfxp_nodes true) (flat_map tok_node (txt_tok (raw_line l))) = tn (shown_line l).
Proof.
  intros [w tail] H. unfold line_ok in H. destruct w as [|c w'].
  - destruct tail; [split; reflexivity|]. cbn in H. discriminate.
  - apply andb_true_iff in H. destruct H as [Hw Ht]. destruct (word_ok_inv _ Hw) as (c0 & w0 & E & Hc & Hn & Hx). injection E as <- <-.
    destruct (tail_ok_inv tail Ht) as [Hto Htx]. unfold raw_line, shown_line. cbn [fst snd]. fold (rof tail). split.
    + rewrite forallb_app, Htx. unfold str in *. rewrite Hx. reflexivity.
    + cbn [app txt_tok flat_map tok_node dfxp_nodes]. change (c :: w' ++ rof tail) with ((c :: w') ++ rof tail).
      rewrite (text_node_wrapped c w' tail Hc Hn Hto). reflexivity.
Qed.

Lemma read_line_toks : forall ls, Forall (fun l => line_ok l = true) ls ->
  flat_map (dfxp_nodes true) (flat_map tok_node (line_toks (map raw_line ls))) = nodes_of (map shown_line ls).
Proof.
  induction ls as [|l ls IH]; intros H; [reflexivity|]. inversion H as [|x y Hl Hls]; subst.
  destruct (line_ok_inv l Hl) as [_ Hn]. destruct ls as [|l2 ls].
  - cbn [map line_toks nodes_of]. exact Hn.
  - change (line_toks (map raw_line (l :: l2 :: ls))) with (txt_tok (raw_line l) ++ TkEmpty (lit "br") [] :: line_toks (map raw_line (l2 :: ls))).
    change (nodes_of (map shown_line (l :: l2 :: ls))) with (tn (shown_line l) ++ NBreak :: nodes_of (map shown_line (l2 :: ls))).
    rewrite !flat_map_app, Hn. cbn [flat_map tok_node dfxp_nodes app].
    change (str_eqb (lit "br") (lit "br")) with true. cbv iota. cbn [app]. f_equal. f_equal. apply (IH Hls).
Qed.

Theorem dfxp_str_end_to_end : forall ls, ls <> [] -> Forall (fun l => line_ok l = true) ls ->
  read_p (render_p ls) = Some (map shown_line ls).
Proof.
  intros ls Hne H. unfold read_p, render_p, content_parse.
  assert (Hx : Forall (fun l => forallb xml_text_char l = true) (map raw_line ls)).
  { apply Forall_forall. intros x Hin. apply in_map_iff in Hin. destruct Hin as (l & <- & Hl).
    rewrite Forall_forall in H. apply (line_ok_inv l (H l Hl)). }
  rewrite <- (map_map raw_line xml_escape).
  rewrite (lines_tokens (map raw_line ls)); [|destruct ls; [congruence|discriminate]|exact Hx].
  rewrite (xbuild_flat_toks _ [] (line_toks_flat _)). cbn [rev app option_map].
  rewrite (read_line_toks ls H). unfold node_lines. rewrite node_lines_nodes_of by (destruct ls; [congruence|discriminate]).
  cbn [app]. destruct ls; [congruence|reflexivity].
Qed.
