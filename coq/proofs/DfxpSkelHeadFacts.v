(* C07: the <style> dictionaries the writer puts into the tree (model/DfxpSkelHead.v) are valid attribute
   dictionaries, and the ids / style= references read from them are those of the traversal model (DfxpDoc.styling). *)
From Coq Require Import List.
From PV Require Import lib.Sx model.DfxpXml model.DfxpDoc model.DfxpSkel spec.SpecXmlAttr spec.SpecXmlDoc.
From PV Require Import model.DfxpSkelHead.
From PV Require Import proofs.DfxpPayloadFacts proofs.DfxpSkelFacts.
Import ListNotations.
Open Scope Z_scope.

Lemma style_elem_attrs_ok : forall id content ids, forallb is_xml_char id = true ->
  (forall v, In v (map snd content) -> forallb is_xml_char v = true) ->
  attrs_ok ((xml_id, id) :: recreate_style content ids) [].
Proof.
  intros id content ids Hid H. destruct (recreate_style_wf content ids H) as [F N]. apply attrs_ok_wf. split.
  - constructor; [split; [reflexivity|exact Hid]|exact F].
  - cbn [map fst]. constructor; [apply recreate_style_not_key; reflexivity|exact N].
Qed.

Definition head_inv (a : list str * list (list (str * str))) (b : list str * list str) : Prop :=
  fst a = fst b /\ elem_ids (snd a) = fst b /\ elem_style_refs (snd a) = snd b.
Lemma head_step : forall a b st, head_inv a b -> head_inv (style_elem_step a st) (style_step b st).
Proof.
  intros [w e] [w' r] st (H1 & H2 & H3). cbn [fst snd] in *. subst w'. unfold style_elem_step, style_step.
  destruct (snd st) as [|kv content] eqn:Es; [repeat split; assumption|].
  destruct (recreate_style (kv :: content) w) as [|a0 attrs] eqn:Er; [repeat split; assumption|].
  repeat split; cbn [fst snd].
  - unfold elem_ids in *. rewrite flat_map_app, H2. reflexivity.
  - unfold elem_style_refs in *. rewrite flat_map_app, H3. cbn [flat_map]. rewrite app_nil_r. reflexivity.
Qed.
Lemma head_fold : forall styles a b, head_inv a b -> head_inv (fold_left style_elem_step styles a) (fold_left style_step styles b).
Proof. induction styles as [|st t IH]; intros a b H; [exact H|]. cbn [fold_left]. apply IH. apply head_step. exact H. Qed.

Theorem style_elems_summary : forall styles,
  elem_ids (style_elems styles) = fst (styling styles) /\ elem_style_refs (style_elems styles) = snd (styling styles).
Proof.
  intros [|st t]; [split; reflexivity|]. unfold style_elems, styling.
  destruct (head_fold (st :: t) ([], []) ([], [])) as (H1 & H2 & H3); [repeat split|]. split; assumption.
Qed.

Definition style_entry_ok (st : str * list (str * str)) : Prop :=
  forallb is_xml_char (fst st) = true /\ forall v, In v (map snd (snd st)) -> forallb is_xml_char v = true.
Lemma style_step_ok : forall st w e, style_entry_ok st ->
  Forall (fun a => attrs_ok a []) e -> Forall (fun a => attrs_ok a []) (snd (style_elem_step (w, e) st)).
Proof.
  intros st w e [Hid Hv] He. unfold style_elem_step.
  destruct (snd st) as [|kv content] eqn:Es; [exact He|].
  destruct (recreate_style (kv :: content) w) as [|a0 attrs] eqn:Er; [exact He|]. cbn [snd].
  apply Forall_app. split; [exact He|]. constructor; [|constructor].
  rewrite <- Er. apply style_elem_attrs_ok; [exact Hid|exact Hv].
Qed.
Lemma style_fold_ok : forall styles w e, (forall st, In st styles -> style_entry_ok st) ->
  Forall (fun a => attrs_ok a []) e -> Forall (fun a => attrs_ok a []) (snd (fold_left style_elem_step styles (w, e))).
Proof.
  induction styles as [|st t IH]; intros w e H He; [exact He|]. cbn [fold_left].
  pose proof (style_step_ok st w e (H st (or_introl eq_refl)) He) as S.
  destruct (style_elem_step (w, e) st) as [w1 e1]. apply IH; [intros; apply H; right; assumption|exact S].
Qed.
Theorem style_elems_ok : forall styles, (forall st, In st styles -> style_entry_ok st) ->
  Forall (fun a => attrs_ok a []) (style_elems styles).
Proof.
  intros [|st t] H; [|unfold style_elems; apply style_fold_ok; [exact H|constructor]].
  constructor; [|constructor]. apply style_elem_attrs_ok; [reflexivity|].
  intros v Hv. cbn [default_style_content map snd In] in Hv. destruct Hv as [<-|[<-|[<-|[]]]]; reflexivity.
Qed.

Theorem style_elems_vs_summarize : forall d,
  elem_ids (style_elems (ds_styles d)) = s_style_ids (summarize d) /\
  s_style_refs (summarize d) = elem_style_refs (style_elems (ds_styles d)) ++ body_style_refs (s_style_ids (summarize d)) d.
Proof.
  intros d. destruct (style_elems_summary (ds_styles d)) as [H1 H2]. unfold summarize.
  destruct (styling (ds_styles d)) as [written head_refs]. cbn [fst snd s_style_ids s_style_refs] in *. rewrite H1, H2. split; reflexivity.
Qed.

(* the whole document with the <styling> section the writer builds from the style table *)
Theorem document_with_styling : forall legacy table lang regions divs,
  (forall st, In st table -> style_entry_ok st) -> forallb is_xml_char lang = true ->
  Forall (fun a => attrs_ok a []) regions ->
  Forall (fun dv => attrs_ok (fst dv) [] /\ Forall (caption_ok (fst (styling table))) (snd dv)) divs ->
  exists evs, doc_parse (dfxp_document (doc_of_captions legacy (fst (styling table)) lang (style_elems table) regions divs)) = Some evs.
Proof.
  intros legacy table lang regions divs Ht Hl Hr Hd. apply document_of_captions_wellformed; try assumption.
  apply style_elems_ok. exact Ht.
Qed.
