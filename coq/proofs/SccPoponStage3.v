(* C05, stage 3 of the pop-on refinement: ONE load with SEVERAL rows of basic characters (plain white preamble, pairwise
   distinct rows, any transmission order, control codes single or doubled).  Rows addressed on consecutive screen rows
   are decoded into the lines of one caption (text nodes separated by break nodes, all at the address of the run's first
   row); any other row starts a new caption (empty text node + reposition node).  `read` returns exactly
   `map (cap_of t1 t2) (expected_load l)`, and that list, observed as the harness observes it, satisfies ok_c05. *)
From Coq Require Import List ZArith QArith Qabs Lia Bool ZifyBool.
From PV Require Import lib.Sx lib.Str lib.StrFacts lib.Result model.GenScc model.SccLen model.SccTime model.SccStash model.SccDecoder model.SccLayout
                       spec.Spec608 spec.SpecScc05 spec.SpecSccLen proofs.SccTableFacts proofs.SccDoubleFacts
                       proofs.SccLenFacts proofs.SccStashFacts proofs.SccPoponStage1.
Import ListNotations. Open Scope Z_scope.

(* performance only (see stage 1): the kernel must not evaluate the filter inside basic_code on a variable *)
Local Strategy 1000 [basic_code is_basic].

Definition basic_load (l : load) : bool := load_wf l && forallb basic_row l.

Section Run.
Variables (st : stash) (ds : bool) (pa ro : creator) (q : option (creator * Q)) (tm : Q) (tc : str) (off : Q).
Notation SG := (SccPoponStage1.SG st ds pa ro q tm tc off).

(* the tracker after the optional tab offset k *)
Definition tab_upd (k : Z) (tk : tracker) : tracker :=
  if 0 <? k then tracker_update tk (fst (tk_default tk), snd (tk_default tk) + k) else tk.

Lemma tracker_update_default : forall tk p, tk_default (tracker_update tk p) = p.
Proof.
  intros tk [r c]. unfold tracker_update. cbv zeta. cbn [tk_pos tk_break tk_repos tk_default].
  destruct (last (map Some (tk_pos tk)) None) as [[row col0]|]; [|reflexivity].
  repeat match goal with |- context [if ?x then _ else _] => destruct x end; reflexivity.
Qed.

Lemma pac_unit_run3 : forall r d tk l nodes fr nx, basic_row r = true -> has_break_before nodes = false ->
  last_contains l (pac_word (rw_row r) (pac_attr r)) = false -> pac_ready tk nodes ->
  exists l', tws (SG tk l nodes fr) (pac_unit d r) nx
             = SG (tab_upd (rw_tab r) (tracker_update tk (rw_row r, rw_indent r))) l' nodes
                  (fr + Z.of_nat (length (pac_unit d r))).
Proof. intros r d tk l nodes fr nx Hrow. exact (pac_unit_any st ds pa ro q tm tc off r Hrow d tk l nodes fr nx). Qed.

(* preamble for the screen row below the last addressed one: the row list grows, a break is required; the tab offset
   is recognised as such relative to the preamble's indent and leaves the tracker alone *)
Lemma tracker_adj : forall (ps : list pos) lastrow c0 dflt ind k, last (map Some ps) None = Some (lastrow, c0) -> 0 <= k <= 3 ->
  tab_upd k (tracker_update (mkTk ps None false dflt) (lastrow + 1, ind))
  = mkTk (ps ++ [(lastrow + 1, c0)]) (Some ind) false (lastrow + 1, ind + k).
Proof.
  intros ps lastrow c0 dflt ind k Hl Hk.
  assert (E1 : tracker_update (mkTk ps None false dflt) (lastrow + 1, ind)
               = mkTk (ps ++ [(lastrow + 1, c0)]) (Some ind) false (lastrow + 1, ind)).
  { unfold tracker_update. cbv zeta. cbn [tk_pos tk_break tk_repos tk_default]. rewrite Hl. rewrite Z.eqb_refl. reflexivity. }
  rewrite E1. unfold tab_upd. destruct (0 <? k) eqn:E.
  - cbn [tk_default fst snd]. unfold tracker_update. cbv zeta. cbn [tk_pos tk_break tk_repos tk_default]. rewrite last_some_app.
    replace (lastrow + 1 =? lastrow + 1 + 1) with false by lia. rewrite Z.eqb_refl.
    replace (ind + 1 <=? ind + k) with true by lia. replace (ind + k <=? ind + 3) with true by lia. reflexivity.
  - replace k with 0 by lia. rewrite Z.add_0_r. reflexivity.
Qed.

(* preamble for any other row (different from the last one): a single fresh position, repositioning required *)
Lemma tracker_far : forall (ps : list pos) lastrow c0 dflt row ind k, last (map Some ps) None = Some (lastrow, c0) -> 0 <= k <= 3 ->
  row <> lastrow -> row <> lastrow + 1 ->
  tab_upd k (tracker_update (mkTk ps None false dflt) (row, ind)) = mkTk [(row, ind + k)] None true (row, ind + k).
Proof.
  intros ps lastrow c0 dflt row ind k Hl Hk H1 H2.
  assert (E1 : tracker_update (mkTk ps None false dflt) (row, ind) = mkTk [(row, ind)] None true (row, ind)).
  { unfold tracker_update, pos_eqb. cbv zeta. cbn [tk_pos tk_break tk_repos tk_default fst snd]. rewrite Hl.
    replace (row =? lastrow + 1) with false by lia. replace (row =? lastrow) with false by lia. reflexivity. }
  rewrite E1. unfold tab_upd. destruct (0 <? k) eqn:E.
  - cbn [tk_default fst snd]. unfold tracker_update, pos_eqb. cbv zeta. cbn [tk_pos tk_break tk_repos tk_default map last fst snd].
    replace (row =? row + 1) with false by lia. rewrite Z.eqb_refl.
    replace (ind + 1 <=? ind + k) with true by lia. replace (ind + k <=? ind + 3) with true by lia.
    replace (ind + k =? ind) with false by lia. reflexivity.
  - replace k with 0 by lia. rewrite Z.add_0_r. reflexivity.
Qed.

Lemma add_chars_break : forall sty p ps c dflt pre txt q0 s,
  add_chars (mkTk (p :: ps) (Some c) false dflt) (mkCr (pre ++ [mkI IText txt q0]) sty) s
  = (mkTk (p :: ps) None false dflt, mkCr ((pre ++ [mkI IText txt q0; mkI IBreak [] p]) ++ [mkI IText s p]) sty).
Proof.
  intros sty p ps c dflt pre txt q0 s. unfold add_chars.
  cbn [current_position tk_pos tk_repos tk_break break_required cr_nodes cr_style]. rewrite last_some_app.
  cbn [is_text i_kind andb negb ack_break ack_repos tk_pos tk_repos tk_break tk_default].
  replace ((pre ++ [mkI IText txt q0]) ++ [mkI IBreak [] p; mkI IText [] p])
    with ((pre ++ [mkI IText txt q0; mkI IBreak [] p]) ++ [mkI IText [] p]) by (rewrite <- !app_assoc; reflexivity).
  rewrite map_last_snoc. reflexivity.
Qed.

Lemma add_chars_repos_sty : forall sty p dflt pre txt q0 s,
  add_chars (mkTk [p] None true dflt) (mkCr (pre ++ [mkI IText txt q0]) sty) s
  = (mkTk [p] None false dflt,
     mkCr ((pre ++ [mkI IText txt q0; mkI IText [] p; mkI IRepos [] p]) ++ [mkI IText s p]) sty).
Proof.
  intros sty p dflt pre txt q0 s. unfold add_chars.
  cbn [current_position tk_pos tk_repos tk_break break_required cr_nodes cr_style]. rewrite last_some_app.
  cbn [is_text i_kind andb negb ack_break ack_repos tk_pos tk_repos tk_break tk_default].
  replace (((pre ++ [mkI IText txt q0]) ++ [mkI IText [] p]) ++ [mkI IRepos [] p; mkI IText [] p])
    with ((pre ++ [mkI IText txt q0; mkI IText [] p; mkI IRepos [] p]) ++ [mkI IText [] p]) by (rewrite <- !app_assoc; reflexivity).
  rewrite map_last_snoc. reflexivity.
Qed.

Lemma add_chars_repos : forall p dflt pre txt q0 s,
  add_chars (mkTk [p] None true dflt) (mkCr (pre ++ [mkI IText txt q0]) SNone) s
  = (mkTk [p] None false dflt,
     mkCr ((pre ++ [mkI IText txt q0; mkI IText [] p; mkI IRepos [] p]) ++ [mkI IText s p]) SNone).
Proof. exact (add_chars_repos_sty SNone). Qed.

(* nodes appended after the text node of the previous row: cur = address of the current run, lastrow = last row *)
Fixpoint tail_nodes (t : load) (cur : pos) (lastrow : Z) : list inode :=
  match t with
  | [] => []
  | r :: t' =>
      if rw_row r =? lastrow + 1
      then mkI IBreak [] cur :: mkI IText (row_text r) cur :: tail_nodes t' cur (rw_row r)
      else mkI IText [] (row_pos r) :: mkI IRepos [] (row_pos r) :: mkI IText (row_text r) (row_pos r)
           :: tail_nodes t' (row_pos r) (rw_row r)
  end.

(* consecutive rows of the transmission differ (all that the decoder needs of `distinct`) *)
Fixpoint chain_ok (lastrow : Z) (t : load) : Prop :=
  match t with [] => True | r :: t' => rw_row r <> lastrow /\ chain_ok (rw_row r) t' end.

(* a further row continues the buffer `pre ++ [text of the previous row]`: on the next screen row after a break, at the
   address cur of the current caption; on any other row after an empty text node and a reposition node, at its own address *)
Lemma next_row_start : forall r (cur : pos) ps lastrow c0 dflt pre txt, basic_row r = true -> rw_row r <> lastrow ->
  last (map Some (cur :: ps)) None = Some (lastrow, c0) ->
  let adj := rw_row r =? lastrow + 1 in
  let cur' := if adj then cur else row_pos r in
  let sep := if adj then [mkI IBreak [] cur] else [mkI IText [] (row_pos r); mkI IRepos [] (row_pos r)] in
  exists tk0 ps' c0' dflt',
    tab_upd (rw_tab r) (tracker_update (mkTk (cur :: ps) None false dflt) (rw_row r, rw_indent r)) = tk0 /\
    (forall s, add_chars tk0 (mkCr (pre ++ [mkI IText txt cur]) SNone) s
               = (mkTk (cur' :: ps') None false dflt', mkCr ((pre ++ mkI IText txt cur :: sep) ++ [mkI IText s cur']) SNone)) /\
    last (map Some (cur' :: ps')) None = Some (rw_row r, c0').
Proof.
  intros r cur ps lastrow c0 dflt pre txt Hrow Hne Hlast. destruct (basic_row_facts r Hrow) as (_ & _ & _ & Hk & _). cbv zeta.
  destruct (Z.eqb_spec (rw_row r) (lastrow + 1)) as [Eadj|Nadj].
  - exists (mkTk ((cur :: ps) ++ [(lastrow + 1, c0)]) (Some (rw_indent r)) false (lastrow + 1, rw_indent r + rw_tab r)),
           (ps ++ [(lastrow + 1, c0)]), c0, (lastrow + 1, rw_indent r + rw_tab r).
    split; [rewrite Eadj; apply tracker_adj; [exact Hlast|lia]|]. split; [intros s; apply add_chars_break|].
    change (cur :: ps ++ [(lastrow + 1, c0)]) with ((cur :: ps) ++ [(lastrow + 1, c0)]). rewrite last_some_app, Eadj. reflexivity.
  - exists (mkTk [row_pos r] None true (row_pos r)), [], (rw_indent r + rw_tab r), (row_pos r).
    split; [unfold row_pos; apply (tracker_far _ lastrow c0); [exact Hlast|lia|exact Hne|exact Nadj]|].
    split; [intros s; apply add_chars_repos|reflexivity].
Qed.

Lemma rows_run3 : forall d t, Forall (fun r => basic_row r = true) t ->
  forall nx pre txt (cur : pos) (ps : list pos) lastrow c0 dflt l fr, chain_ok lastrow t -> charlast l ->
  last (map Some (cur :: ps)) None = Some (lastrow, c0) ->
  exists tk' l', tws (SG (mkTk (cur :: ps) None false dflt) l (pre ++ [mkI IText txt cur]) fr) (flat_map (emit_row d) t) nx
     = SG tk' l' (pre ++ mkI IText txt cur :: tail_nodes t cur lastrow) (fr + Z.of_nat (length (flat_map (emit_row d) t)))
     /\ charlast l'.
Proof.
  intros d t F. induction F as [|r t Hrow F IH]; intros nx pre txt cur ps lastrow c0 dflt l fr Hch Hl Hlast.
  - exists (mkTk (cur :: ps) None false dflt), l. cbn [flat_map tws length tail_nodes]. rewrite Z.add_0_r. split; [reflexivity|exact Hl].
  - destruct Hch as [Hne Hch]. cbn [flat_map]. rewrite tws_app, app_length, Nat2Z.inj_add.
    destruct (pac_row_facts r Hrow) as (_ & Hpac & _).
    destruct (next_row_start r cur ps lastrow c0 dflt pre txt Hrow Hne Hlast) as (tk0 & ps' & c0' & dflt' & Etk & H0 & Hlast').
    cbn [tail_nodes]. revert H0 Hlast'. set (cur' := if rw_row r =? lastrow + 1 then cur else row_pos r).
    set (sep := if rw_row r =? lastrow + 1 then [mkI IBreak [] cur] else _). intros H0 Hlast'.
    destruct (row_run_any st ds pa ro q tm tc off r d _ l _ fr (nxt (flat_map (emit_row d) t) nx) tk0 (mkTk (cur' :: ps') None false dflt')
                (pre ++ mkI IText txt cur :: sep) cur' Hrow (no_break_before_text pre txt cur) (charlast_pac l _ Hl Hpac)
                (pac_ready_nonempty _ _ _) Etk H0 (fun txt0 s => add_chars_plain _ _ _ _ _ _ _)) as (l1 & E1 & Hl1).
    rewrite E1.
    destruct (IH nx (pre ++ mkI IText txt cur :: sep) (row_text r) cur' ps' (rw_row r) c0' dflt' l1
                (fr + Z.of_nat (length (emit_row d r))) Hch Hl1 Hlast') as (tk' & l' & E & Hl').
    exists tk', l'. split; [|exact Hl']. refine (eq_trans E _). f_equal; [|lia].
    unfold sep, cur'. destruct (rw_row r =? lastrow + 1); rewrite <- app_assoc; reflexivity.
Qed.

End Run.

Definition load_nodes (l : load) : list inode :=
  match l with
  | [] => []
  | r :: t => mkI IText (row_text r) (row_pos r) :: tail_nodes t (row_pos r) (rw_row r)
  end.

Lemma load_nodes_not_empty : forall r t, basic_row r = true -> cr_is_empty (mkCr (load_nodes (r :: t)) SNone) = false.
Proof.
  intros r t Hrow. destruct (basic_row_facts r Hrow) as (_ & _ & _ & _ & _ & _ & _ & Hne & _).
  unfold cr_is_empty. cbn [cr_nodes load_nodes existsb i_text]. destruct (row_text r); [congruence|reflexivity].
Qed.

Lemma distinct_chain : forall t x, mem x (map rw_row t) = false -> distinct (map rw_row t) = true -> chain_ok x t.
Proof.
  induction t as [|a t IH]; intros x Hm Hd; [exact I|].
  cbn [map mem existsb distinct chain_ok] in *. apply orb_false_iff in Hm. destruct Hm as [Hx Hm].
  apply andb_true_iff in Hd. destruct Hd as [Ha Hd]. apply negb_true_iff in Ha. split.
  - intros E. rewrite E, Z.eqb_refl in Hx. discriminate.
  - apply IH; assumption.
Qed.

Lemma basic_load_parts : forall l, basic_load l = true ->
  exists r t, l = r :: t /\ basic_row r = true /\ Forall (fun r => basic_row r = true) t /\ chain_ok (rw_row r) t.
Proof.
  intros l H. unfold basic_load in H. apply andb_true_iff in H. destruct H as [Hw Hb].
  destruct l as [|r t]; [discriminate Hw|]. exists r, t. unfold load_wf in Hw.
  apply andb_true_iff in Hw. destruct Hw as [_ Hd].
  rewrite forallb_cons in Hb. apply andb_true_iff in Hb. destruct Hb as [Hr Ht].
  split; [reflexivity|split; [exact Hr|split]].
  - apply Forall_forall. intros x Hx. exact (proj1 (forallb_forall _ _) Ht x Hx).
  - cbn [map distinct] in Hd. apply andb_true_iff in Hd. destruct Hd as [Hm Hd]. apply negb_true_iff in Hm.
    apply distinct_chain; assumption.
Qed.

Lemma load_run3 : forall d l st tk lc ds c pa ro q tm tc fr off nx t, basic_load l = true -> last_is lc w_enm = false ->
  get_time tc (fr + Z.of_nat (length (emit_load d l)) - (if d then 2 else 1)) off = Ok t ->
  exists tk' l' ds', tws (mkR st tk lc ds c pa ro MPop q tm tc fr off None) (emit_load d l) nx
     = mkR (match q with Some (c0, t0) => create_and_store st c0 t0 t | None => st end) tk' l' ds' creator0 pa ro MPop
           (Some (mkCr (load_nodes l) SNone, t)) t tc (fr + Z.of_nat (length (emit_load d l))) off None
     /\ (l' = LNone \/ l' = LWord w_eoc).
Proof.
  intros d l st tk lc ds c pa ro q tm tc fr off nx t H Hlc Hg.
  destruct (basic_load_parts l H) as (r & rest & -> & Hrow & Frest & Hch).
  destruct (pac_row_facts r Hrow) as (_ & Hpac & _).
  destruct (first_row_run st d pa ro q tm tc off r d (tk_default tk) _ (fr + (if d then 4 else 2))
              (nxt (flat_map (emit_row d) rest) (nxt (ctl d (ctrl_word 47)) nx)) Hrow (no_pac_after_prologue d _ Hpac))
    as (l1 & E1 & Hl1).
  destruct (rows_run3 st d pa ro q tm tc off d rest Frest (nxt (ctl d (ctrl_word 47)) nx)
              [] (row_text r) (row_pos r) [] (rw_row r) (rw_indent r + rw_tab r) (row_pos r) l1
              (fr + (if d then 4 else 2) + Z.of_nat (length (emit_row d r))) Hch Hl1 eq_refl) as (tk2 & l2 & E2 & Hl2).
  exists tk2. apply (load_run d (r :: rest) st tk lc ds c pa ro q tm tc fr off nx t tk2 l2 _ Hlc (load_nodes_not_empty r rest Hrow)
                      (charlast_not_eoc l2 Hl2) Hg).
  cbn [flat_map]. rewrite tws_app, app_length, Nat2Z.inj_add.
  refine (eq_trans (f_equal (fun s => tws s _ _) E1) _). refine (eq_trans E2 _). unfold SG. cbn [app load_nodes]. f_equal. lia.
Qed.

Definition line_text (cs : list cell) : str := map (fun c => match c with Cell ch _ => ch | Opt => 32 end) cs.
(* nodes of an expected caption: its lines separated by breaks, every node at the caption's address *)
Fixpoint lines_nodes (p : pos) (ls : list (list cell)) : list cnode :=
  match ls with
  | [] => []
  | [l] => [CText (line_text l) p]
  | l :: t => CText (line_text l) p :: CBreak p :: lines_nodes p t
  end.
Definition cap_of (t1 t2 : Q) (e : ecap) : precap :=
  mkPre t1 t2 (lines_nodes (e_row e, e_col e) (e_lines e)) (Some (e_row e, e_col e)).

Lemma lines_nodes_snoc : forall p ls l, ls <> [] ->
  lines_nodes p (ls ++ [l]) = lines_nodes p ls ++ [CBreak p; CText (line_text l) p].
Proof.
  intros p. induction ls as [|a ls IH]; intros l H; [congruence|].
  destruct ls as [|b ls]; [reflexivity|].
  change (lines_nodes p ((a :: b :: ls) ++ [l])) with (CText (line_text a) p :: CBreak p :: lines_nodes p ((b :: ls) ++ [l])).
  rewrite IH by discriminate. reflexivity.
Qed.

Lemma line_text_plain : forall s, line_text (map (fun c => Cell c false) s) = s.
Proof. intros s. unfold line_text. rewrite map_map. apply map_id. Qed.

(* lines as produced by basic rows: plain cells, not empty, at most 32 characters, no newline character *)
Definition good_line (cs : list cell) : Prop :=
  exists s, cs = map (fun c => Cell c false) s /\ s <> [] /\ (length s <= 32)%nat /\ ~ In 10 s.
Definition good_ecap (e : ecap) : Prop :=
  1 <= e_row e <= 15 /\ 0 <= e_col e <= 31 /\ e_lines e <> [] /\ Forall good_line (e_lines e).

Lemma basic_row_good : forall r, basic_row r = true ->
  good_line (cells_of r) /\ line_text (cells_of r) = row_text r /\ 1 <= rw_row r <= 15 /\ 0 <= rw_indent r + rw_tab r <= 31.
Proof.
  intros r H. destruct (basic_row_facts r H) as (_ & Hr & Hin & Hk & _ & Hb & Hc & Hne & _ & Hn).
  apply indents_range in Hin.
  assert (Hlen : (0 < length (row_text r))%nat) by (destruct (row_text r); [congruence|cbn; lia]).
  split; [|split; [|split]].
  - exists (row_text r). split; [exact Hc|split; [exact Hne|split; [lia|]]].
    intros Hi. rewrite forallb_forall in Hb. pose proof (is_basic_ge32 10 (Hb 10 Hi)). lia.
  - rewrite Hc. apply line_text_plain.
  - exact Hr.
  - lia.
Qed.

Lemma group_rows_good : forall t, Forall (fun r => basic_row r = true) t -> forall e lr, good_ecap e ->
  Forall good_ecap (group_rows t (Some (e, lr))).
Proof.
  intros t F. induction F as [|r t Hrow F IH]; intros e lr He.
  - cbn [group_rows]. constructor; [exact He|constructor].
  - destruct (basic_row_good r Hrow) as (Hg & _ & Hr & Hc). cbn [group_rows]. destruct (rw_row r =? lr + 1).
    + apply IH. destruct He as (H1 & H2 & H3 & H4). unfold good_ecap. cbn [e_row e_col e_lines].
      split; [exact H1|split; [exact H2|split]].
      * intros E. apply app_eq_nil in E. destruct E as [_ E]. discriminate.
      * apply Forall_app. split; [exact H4|constructor; [exact Hg|constructor]].
    + constructor; [exact He|]. apply IH. unfold good_ecap. cbn [e_row e_col e_lines].
      split; [exact Hr|split; [exact Hc|split; [discriminate|constructor; [exact Hg|constructor]]]].
Qed.

Lemma expected_load_good : forall r t, basic_row r = true -> Forall (fun r => basic_row r = true) t ->
  Forall good_ecap (expected_load (r :: t)).
Proof.
  intros r t Hrow F. destruct (basic_row_good r Hrow) as (Hg & _ & Hr & Hc). unfold expected_load. cbn [group_rows].
  apply group_rows_good; [exact F|]. unfold good_ecap. cbn [e_row e_col e_lines].
  split; [exact Hr|split; [exact Hc|split; [discriminate|constructor; [exact Hg|constructor]]]].
Qed.

Definition plain_node (n : inode) : bool :=
  match i_kind n with IText | IBreak | IRepos => true | _ => false end.
Definition plain_nodes (l : list inode) : Prop := Forall (fun n => plain_node n = true) l.

(* on nodes that are text, break or reposition, the italics passes of _format_italics change nothing *)
Lemma plain_passes : forall l, plain_nodes l -> forall b st,
  skip_initial_off l b = l /\ skip_redundant l st = l /\ close_before_repos l None = l /\ final_on_pos l None = None /\
  remove_on_off l None = l /\ remove_off_on l None = l.
Proof.
  induction l as [|n l IH]; intros F b st; [repeat split; reflexivity|].
  inversion F as [|? ? Hn F']; subst. destruct (IH F' b st) as (I1 & I2 & I3 & I4 & I5 & I6).
  destruct n as [[] tx ps]; try discriminate Hn; cbn; rewrite I1, I2, I3, I5, I6; repeat split; auto.
Qed.

Lemma strip_line_ends_id : forall l, Forall (fun n => rstrip_node n = n) l -> strip_line_ends l = l.
Proof.
  induction l as [|n l IH]; intros F; [reflexivity|]. inversion F as [|? ? Hn F']; subst. specialize (IH F').
  cbn [strip_line_ends]. rewrite IH. destruct (is_text n && next_plain_is_sep l); [rewrite Hn|]; reflexivity.
Qed.

Lemma format_plain : forall l, plain_nodes l -> Forall (fun n => rstrip_node n = n) l -> format_italics l = skip_empty_text l.
Proof.
  intros l Hp Hr. unfold format_italics. rewrite (proj1 (plain_passes l Hp false None)).
  assert (Hp' : plain_nodes (skip_empty_text l)).
  { unfold plain_nodes, skip_empty_text in *. rewrite Forall_forall in *. intros n Hn. apply filter_In in Hn. apply Hp, Hn. }
  assert (Hr' : Forall (fun n => rstrip_node n = n) (skip_empty_text l)).
  { unfold skip_empty_text. rewrite Forall_forall in *. intros n Hn. apply filter_In in Hn. apply Hr, Hn. }
  destruct (plain_passes _ Hp' false None) as (_ & P2 & P3 & P4 & P5 & P6).
  rewrite P2, P3. unfold ensure_final_closes. rewrite P4, P5, P6. apply strip_line_ends_id. exact Hr'.
Qed.

(* the caption creator ignores empty text nodes *)
Lemma build_skip_empty : forall l s e done cur,
  build_captions (skip_empty_text l) s e done cur = build_captions l s e done cur.
Proof.
  induction l as [|n l IH]; intros s e done cur; [reflexivity|].
  unfold skip_empty_text in *. cbn [filter]. destruct n as [k tx ps]. unfold is_text. cbn [i_kind i_text].
  destruct k; cbn [andb negb]; try (cbn [build_captions i_kind]; apply IH).
  destruct tx as [|c tx]; cbn [nonempty negb]; cbn [build_captions i_kind i_text nonempty]; apply IH.
Qed.

Lemma nonempty_true : forall s : str, s <> [] -> nonempty s = true.
Proof. intros [|c s] H; [congruence|reflexivity]. Qed.

Lemma build_tail : forall t1 t2 t, Forall (fun r => basic_row r = true) t -> forall e lastrow done, e_lines e <> [] ->
  build_captions (tail_nodes t (e_row e, e_col e) lastrow) t1 t2 done (cap_of t1 t2 e)
  = done ++ map (cap_of t1 t2) (group_rows t (Some (e, lastrow))).
Proof.
  intros t1 t2 t F. induction F as [|r t Hrow F IH]; intros e lastrow done He; [reflexivity|].
  destruct (basic_row_good r Hrow) as (_ & Hlt & _). destruct (basic_row_facts r Hrow) as (_ & _ & _ & _ & _ & _ & _ & Hne & _).
  cbn [tail_nodes group_rows]. destruct (rw_row r =? lastrow + 1).
  - cbn [build_captions i_kind i_text i_pos]. rewrite (nonempty_true _ Hne).
    specialize (IH (mkE (e_row e) (e_col e) (e_lines e ++ [cells_of r])) (rw_row r) done).
    cbn [e_row e_col e_lines] in IH. rewrite <- IH.
    + f_equal. unfold cap_of, add_node. cbn [pc_start pc_end pc_nodes pc_layout e_row e_col e_lines].
      rewrite (lines_nodes_snoc _ _ _ He), Hlt, <- app_assoc. reflexivity.
    + intros E. apply app_eq_nil in E. destruct E as [_ E]. discriminate.
  - cbn [build_captions i_kind i_text i_pos nonempty]. rewrite (nonempty_true _ Hne).
    specialize (IH (mkE (rw_row r) (rw_indent r + rw_tab r) [cells_of r]) (rw_row r) (done ++ [cap_of t1 t2 e])).
    cbn [e_row e_col e_lines] in IH. rewrite <- app_assoc in IH. cbn [map].
    refine (eq_trans _ (IH ltac:(discriminate))). f_equal. unfold cap_of, row_pos.
    cbn [pc_start pc_end pc_nodes e_row e_col e_lines lines_nodes app]. rewrite Hlt. reflexivity.
Qed.

Lemma build_load : forall t1 t2 r t, basic_row r = true -> Forall (fun r => basic_row r = true) t ->
  build_captions (load_nodes (r :: t)) t1 t2 [] (mkPre t1 t2 [] None) = map (cap_of t1 t2) (expected_load (r :: t)).
Proof.
  intros t1 t2 r t Hrow F. destruct (basic_row_good r Hrow) as (_ & Hlt & _).
  destruct (basic_row_facts r Hrow) as (_ & _ & _ & _ & _ & _ & _ & Hne & _).
  unfold expected_load. cbn [load_nodes group_rows build_captions i_kind i_text i_pos]. rewrite (nonempty_true _ Hne).
  pose proof (build_tail t1 t2 t F (mkE (rw_row r) (rw_indent r + rw_tab r) [cells_of r]) (rw_row r) []) as B.
  cbn [e_row e_col e_lines app] in B. rewrite <- B by discriminate. f_equal.
  unfold cap_of, row_pos. cbn [pc_start pc_end pc_nodes e_row e_col e_lines lines_nodes app]. rewrite Hlt. reflexivity.
Qed.

Lemma tail_nodes_plain : forall t, Forall (fun r => basic_row r = true) t -> forall cur lastrow,
  plain_nodes (tail_nodes t cur lastrow) /\ Forall (fun n => rstrip_node n = n) (tail_nodes t cur lastrow).
Proof.
  intros t F. induction F as [|r t Hrow F IH]; intros cur lastrow; [split; constructor|].
  destruct (row_text_facts r Hrow) as [Hrs _]. cbn [tail_nodes].
  assert (Ht : forall p, rstrip_node (mkI IText (row_text r) p) = mkI IText (row_text r) p).
  { intros p. unfold rstrip_node. cbn [i_kind i_text i_pos]. rewrite Hrs. reflexivity. }
  destruct (rw_row r =? lastrow + 1).
  - destruct (IH cur (rw_row r)) as [I1 I2]. split; repeat (constructor; [first [reflexivity|apply Ht]|]); assumption.
  - destruct (IH (row_pos r) (rw_row r)) as [I1 I2]. split; repeat (constructor; [first [reflexivity|apply Ht]|]); assumption.
Qed.

Lemma map_set_end_id : forall e caps, Forall (fun c => pc_end c = e) caps -> map (set_end e) caps = caps.
Proof.
  intros e caps F. induction F as [|[s e0 n l] caps Hc F IH]; [reflexivity|]. cbn [map pc_end] in *. subst e0. rewrite IH. reflexivity.
Qed.

Lemma stash_extend0 : forall items, stash_extend stash0 items = mkStash (filter has_nodes items) (length (filter has_nodes items)).
Proof. intros items. unfold stash_extend. destruct (filter has_nodes items); reflexivity. Qed.

Lemma has_nodes_caps : forall t1 t2 es, Forall good_ecap es -> filter has_nodes (map (cap_of t1 t2) es) = map (cap_of t1 t2) es.
Proof.
  intros t1 t2 es F. apply filter_all, Forall_forall, Forall_map. refine (Forall_impl _ _ F). intros e (_ & _ & He & _).
  unfold has_nodes, cap_of. cbn [pc_nodes]. destruct (e_lines e) as [|a [|b ls]]; [congruence|reflexivity|reflexivity].
Qed.

Lemma store_load_any : forall st t1 t2 r t, basic_row r = true -> Forall (fun r => basic_row r = true) t ->
  create_and_store st (mkCr (load_nodes (r :: t)) SNone) t1 t2 = stash_extend st (map (cap_of t1 t2) (expected_load (r :: t))).
Proof.
  intros st t1 t2 r t Hrow F. destruct (row_text_facts r Hrow) as [Hrs _]. destruct (tail_nodes_plain t F (row_pos r) (rw_row r)) as [P1 P2].
  unfold create_and_store. rewrite (load_nodes_not_empty r t Hrow). cbn [cr_nodes]. rewrite format_plain.
  - rewrite build_skip_empty, (build_load t1 t2 r t Hrow F). reflexivity.
  - cbn [load_nodes]. constructor; [reflexivity|exact P1].
  - cbn [load_nodes]. constructor; [|exact P2]. unfold rstrip_node. cbn [i_kind i_text i_pos]. rewrite Hrs. reflexivity.
Qed.

Lemma store_load : forall t1 t2 r t, basic_row r = true -> Forall (fun r => basic_row r = true) t ->
  create_and_store stash0 (mkCr (load_nodes (r :: t)) SNone) t1 t2
  = mkStash (map (cap_of t1 t2) (expected_load (r :: t))) (length (expected_load (r :: t))).
Proof.
  intros t1 t2 r t Hrow F.
  rewrite (store_load_any stash0 t1 t2 r t Hrow F), stash_extend0, (has_nodes_caps t1 t2 _ (expected_load_good r t Hrow F)), map_length.
  reflexivity.
Qed.

Lemma split_sep : forall sep s rest cur, (forall c, In c s -> c <> sep) ->
  split_ch_aux sep (s ++ sep :: rest) cur = (rev cur ++ s) :: split_ch_aux sep rest [].
Proof.
  intros sep. induction s as [|c s IH]; intros rest cur H.
  - cbn [app split_ch_aux]. rewrite Z.eqb_refl, app_nil_r. reflexivity.
  - cbn [app split_ch_aux]. destruct (Z.eqb_spec c sep) as [E|_]; [exfalso; exact (H c (or_introl eq_refl) E)|].
    rewrite IH by (intros x Hx; apply H; right; exact Hx). cbn [rev]. rewrite <- app_assoc. reflexivity.
Qed.

Lemma good_line_text : forall cs, good_line cs ->
  line_text cs <> [] /\ (length (line_text cs) <= 32)%nat /\ ~ In 10 (line_text cs) /\ cs = map (fun c => Cell c false) (line_text cs).
Proof. intros cs (s & -> & H1 & H2 & H3). rewrite line_text_plain. auto. Qed.

Lemma cap_lines : forall p ls, ls <> [] -> Forall good_line ls ->
  split_ch 10 (concat (map node_text (lines_nodes p ls))) = map line_text ls.
Proof.
  intros p. induction ls as [|a ls IH]; intros Hne F; [congruence|].
  inversion F as [|? ? Ha F']; subst. destruct (good_line_text a Ha) as (_ & _ & Hn & _).
  assert (Hs : forall c, In c (line_text a) -> c <> 10) by (intros c Hc E; subst; exact (Hn Hc)).
  destruct ls as [|b ls].
  - cbn [lines_nodes map concat node_text]. rewrite app_nil_r. unfold split_ch. rewrite (split_no_sep _ _ _ Hs). reflexivity.
  - change (lines_nodes p (a :: b :: ls)) with (CText (line_text a) p :: CBreak p :: lines_nodes p (b :: ls)).
    cbn [map concat node_text app]. unfold split_ch in *. rewrite (split_sep _ _ _ _ Hs). cbn [rev app].
    rewrite IH; [reflexivity|discriminate|exact F'].
Qed.

Lemma caps_not_long : forall t1 t2 es, Forall good_ecap es -> offending (map to_lcap (map (cap_of t1 t2) es)) = [].
Proof.
  intros t1 t2 es F. unfold offending. induction F as [|e es (_ & _ & He & Hl) F IH]; [reflexivity|].
  cbn [map concat]. rewrite IH, app_nil_r. unfold to_lcap, cap_text, cap_of. cbn [snd pc_nodes]. unfold spec_lines.
  rewrite (cap_lines _ _ He Hl). clear -Hl. induction Hl as [|a ls Ha Hl IH]; [reflexivity|].
  cbn [map filter]. destruct (good_line_text a Ha) as (_ & Hlen & _). unfold spec_long at 1.
  replace (32 <? Z.of_nat (length (line_text a))) with false by lia. exact IH.
Qed.

Lemma finish_caps : forall t1 t2 es n, es <> [] -> Forall good_ecap es ->
  Qeq_bool t2 0 = false -> is_flash (mkPre t1 t2 [] None) = false ->
  finish_read (mkStash (map (cap_of t1 t2) es) n) = ROk (map (cap_of t1 t2) es).
Proof.
  intros t1 t2 es n Hne F Hz Hfl. apply finish_read_ok.
  - intros E. apply map_eq_nil in E. exact (Hne E).
  - exact (caps_not_long t1 t2 es F).
  - clear -Hfl. induction es as [|e es IH]; [reflexivity|]. cbn [map existsb]. rewrite IH.
    change (is_flash (cap_of t1 t2 e)) with (is_flash (mkPre t1 t2 [] None)). rewrite Hfl. reflexivity.
  - intros c Hc. apply in_map_iff in Hc. destruct Hc as (e' & <- & _). exact Hz.
Qed.

Lemma group_rows_nonempty : forall t e lr, group_rows t (Some (e, lr)) <> [].
Proof.
  induction t as [|a t IH]; intros e lr; cbn [group_rows]; [discriminate|]. destruct (rw_row a =? lr + 1); [apply IH|discriminate].
Qed.

Lemma expected_load_nonempty : forall r t, expected_load (r :: t) <> [].
Proof. intros r t. unfold expected_load. cbn [group_rows]. apply group_rows_nonempty. Qed.

Theorem popon_stage3_read : forall d l off tc tc2 t1 t2, basic_load l = true ->
  get_time tc (Z.of_nat (length (emit_load d l)) - (if d then 2 else 1)) off = Ok t1 ->
  get_time tc2 0 off = Ok t2 -> Qeq_bool t2 0 = false -> is_flash (mkPre t1 t2 [] None) = false ->
  read off [(tc, emit_load d l); (tc2, emit_clear d)] = ROk (map (cap_of t1 t2) (expected_load l)).
Proof.
  intros d l off tc tc2 t1 t2 H Hg1 Hg2 Hz Hfl.
  destruct (load_run3 d l stash0 tracker0 LNone false creator0 creator0 creator0 None 0%Q tc 0 off None t1 H eq_refl Hg1)
    as (tk & lc & ds & E & Hl).
  assert (Hl' : last_is lc w_edm = false) by (destruct Hl as [->| ->]; reflexivity).
  destruct (basic_load_parts l H) as (r & rest & -> & Hrow & Frest & _).
  rewrite (read_load_clear d off tc _ tc2 tk lc ds _ t1 t2 _ E Hl' Hg2), (store_load t1 t2 r rest Hrow Frest).
  apply finish_caps; [apply expected_load_nonempty|exact (expected_load_good r rest Hrow Frest)|exact Hz|exact Hfl].
Qed.

Fixpoint lines_onodes (ls : list (list cell)) : list onode :=
  match ls with
  | [] => []
  | [l] => [OText (line_text l)]
  | l :: t => OText (line_text l) :: OBreak :: lines_onodes t
  end.
Definition onodes_of (e : ecap) : list onode := lines_onodes (e_lines e).
Definition ocap_of (t1 t2 : Q) (e : ecap) : ocap :=
  mkO t1 t2 (onodes_of e) (Some (layout_of_pos (e_row e, e_col e))).

(* the observation of a pre-caption: node kinds and texts, layout of the caption's address *)
Definition onode_of (n : cnode) : onode :=
  match n with CText s _ => OText s | CBreak _ => OBreak | CStyle b _ => OStyle b end.
Definition observe (c : precap) : ocap :=
  mkO (pc_start c) (pc_end c) (map onode_of (pc_nodes c)) (option_map layout_of_pos (pc_layout c)).

Lemma observe_cap_of : forall t1 t2 e, observe (cap_of t1 t2 e) = ocap_of t1 t2 e.
Proof.
  intros t1 t2 e. unfold observe, cap_of, ocap_of, onodes_of. cbn [pc_start pc_end pc_nodes pc_layout option_map]. f_equal.
  generalize (e_row e, e_col e). intros p. induction (e_lines e) as [|a ls IH]; [reflexivity|].
  destruct ls as [|b ls]; [reflexivity|].
  change (lines_nodes p (a :: b :: ls)) with (CText (line_text a) p :: CBreak p :: lines_nodes p (b :: ls)).
  change (lines_onodes (a :: b :: ls)) with (OText (line_text a) :: OBreak :: lines_onodes (b :: ls)).
  cbn [map onode_of]. rewrite IH. reflexivity.
Qed.

Lemma obs_lines_onodes : forall ls cur, ls <> [] ->
  obs_lines (lines_onodes ls) cur false
  = match ls with
    | [] => []
    | l :: t => (cur ++ map (fun c => (c, false)) (line_text l)) :: map (fun l => map (fun c => (c, false)) (line_text l)) t
    end.
Proof.
  induction ls as [|a ls IH]; intros cur H; [congruence|]. destruct ls as [|b ls]; [reflexivity|].
  change (lines_onodes (a :: b :: ls)) with (OText (line_text a) :: OBreak :: lines_onodes (b :: ls)).
  cbn [obs_lines]. rewrite IH by discriminate. reflexivity.
Qed.

Lemma balanced_onodes : forall ls, balanced (lines_onodes ls) false = true.
Proof.
  induction ls as [|a ls IH]; [reflexivity|]. destruct ls as [|b ls]; [reflexivity|].
  change (lines_onodes (a :: b :: ls)) with (OText (line_text a) :: OBreak :: lines_onodes (b :: ls)).
  cbn [balanced]. exact IH.
Qed.

Lemma match_lines_good : forall ls, Forall good_line ls ->
  match_lines ls (map (fun l => map (fun c => (c, false)) (line_text l)) ls) = true.
Proof.
  intros ls F. induction F as [|a ls Ha F IH]; [reflexivity|]. cbn [map match_lines]. rewrite IH, andb_true_r.
  destruct (good_line_text a Ha) as (_ & _ & _ & E). rewrite E at 1. apply match_line_basic.
Qed.

Lemma cap_ok_good : forall t1 t2 e, good_ecap e -> (t1 < t2)%Q -> cap_ok e (ocap_of t1 t2 e) = true.
Proof.
  intros t1 t2 e (Hr & Hc & Hne & Hl) Hlt. apply (cap_ok_intro e t1 t2 (onodes_of e) Hr Hc Hlt); [|apply balanced_onodes].
  unfold onodes_of. rewrite (obs_lines_onodes _ [] Hne).
  pose proof (match_lines_good _ Hl) as M. destruct (e_lines e); [congruence|exact M].
Qed.

(* the oracle accepts observations that match the expected captions one by one and all carry one span, followed by anything *)
Lemma load_ok_rest : forall s e es os rest, Forall2 (fun x o => cap_ok x o = true /\ o_start o = s /\ o_end o = e) es os ->
  forall span, span = None \/ span = Some (s, e) ->
  load_ok es (os ++ rest) span = Some (rest, match es with [] => span | _ => Some (s, e) end).
Proof.
  intros s e es os rest F. induction F as [|x o es os (Hx & <- & <-) F IH]; intros span Hs; [reflexivity|].
  cbn [app load_ok]. rewrite Hx, (IH _ (or_intror eq_refl)).
  destruct Hs as [->| ->]; [|rewrite !Qeq_bool_refl]; destruct es; reflexivity.
Qed.

Lemma load_ok_caps : forall t1 t2 es, Forall good_ecap es -> (t1 < t2)%Q -> forall span,
  span = None \/ span = Some (t1, t2) ->
  load_ok es (map (ocap_of t1 t2) es) span = Some ([], match es with [] => span | _ => Some (t1, t2) end).
Proof.
  intros t1 t2 es F Hlt span Hs. rewrite <- (app_nil_r (map _ es)). apply load_ok_rest; [|exact Hs].
  induction F as [|e es He F IH]; constructor; [|exact IH]. split; [exact (cap_ok_good t1 t2 e He Hlt)|split; reflexivity].
Qed.

Theorem popon_stage3_ok : forall d l t1 t2, basic_load l = true -> (t1 < t2)%Q ->
  ok_c05 (mkProg d [l]) (Ok (map (ocap_of t1 t2) (expected_load l))) = true.
Proof.
  intros d l t1 t2 H Hlt. destruct (basic_load_parts l H) as (r & rest & -> & Hrow & Frest & _).
  unfold ok_c05. cbn [pg_loads loads_ok].
  rewrite (load_ok_caps t1 t2 _ (expected_load_good r rest Hrow Frest) Hlt None (or_introl eq_refl)).
  pose proof (expected_load_nonempty r rest) as Hne. destruct (expected_load (r :: rest)); [congruence|reflexivity].
Qed.

(* what `read` returns, observed, meets the oracle *)
Corollary popon_stage3 : forall d l off tc tc2 t1 t2, basic_load l = true ->
  get_time tc (Z.of_nat (length (emit_load d l)) - (if d then 2 else 1)) off = Ok t1 ->
  get_time tc2 0 off = Ok t2 -> Qeq_bool t2 0 = false -> is_flash (mkPre t1 t2 [] None) = false -> (t1 < t2)%Q ->
  exists caps, read off [(tc, emit_load d l); (tc2, emit_clear d)] = ROk caps /\
               ok_c05 (mkProg d [l]) (Ok (map observe caps)) = true.
Proof.
  intros d l off tc tc2 t1 t2 H Hg1 Hg2 Hz Hfl Hlt. exists (map (cap_of t1 t2) (expected_load l)). split.
  - exact (popon_stage3_read d l off tc tc2 t1 t2 H Hg1 Hg2 Hz Hfl).
  - rewrite map_map. rewrite (map_ext _ _ (observe_cap_of t1 t2)). exact (popon_stage3_ok d l t1 t2 H Hlt).
Qed.

Lemma basic_load_rows : forall l r, basic_load l = true -> In r l -> basic_row r = true.
Proof.
  intros l r H Hi. unfold basic_load in H. apply andb_true_iff in H. destruct H as [_ H].
  exact (proj1 (forallb_forall _ _) H r Hi).
Qed.

(* two rows on consecutive screen rows: one caption with two lines at the address of the first row *)
Corollary popon_stage3_adjacent_read : forall d r1 r2 off tc tc2 t1 t2, basic_load [r1; r2] = true ->
  rw_row r2 = rw_row r1 + 1 ->
  get_time tc (Z.of_nat (length (emit_load d [r1; r2])) - (if d then 2 else 1)) off = Ok t1 ->
  get_time tc2 0 off = Ok t2 -> Qeq_bool t2 0 = false -> is_flash (mkPre t1 t2 [] None) = false ->
  read off [(tc, emit_load d [r1; r2]); (tc2, emit_clear d)]
  = ROk [mkPre t1 t2 [CText (row_text r1) (row_pos r1); CBreak (row_pos r1); CText (row_text r2) (row_pos r1)]
               (Some (row_pos r1))].
Proof.
  intros d r1 r2 off tc tc2 t1 t2 H Hadj Hg1 Hg2 Hz Hfl.
  rewrite (popon_stage3_read d _ off tc tc2 t1 t2 H Hg1 Hg2 Hz Hfl).
  destruct (basic_row_good r1 (basic_load_rows _ r1 H (or_introl eq_refl))) as (_ & E1 & _).
  destruct (basic_row_good r2 (basic_load_rows _ r2 H (or_intror (or_introl eq_refl)))) as (_ & E2 & _).
  unfold expected_load. cbn [group_rows]. rewrite Hadj, Z.eqb_refl. cbn [group_rows map e_row e_col e_lines app].
  unfold cap_of. cbn [e_row e_col e_lines lines_nodes]. rewrite E1, E2. reflexivity.
Qed.

(* two rows that are not on consecutive screen rows (in transmission order): two captions *)
Corollary popon_stage3_apart_read : forall d r1 r2 off tc tc2 t1 t2, basic_load [r1; r2] = true ->
  rw_row r2 <> rw_row r1 + 1 ->
  get_time tc (Z.of_nat (length (emit_load d [r1; r2])) - (if d then 2 else 1)) off = Ok t1 ->
  get_time tc2 0 off = Ok t2 -> Qeq_bool t2 0 = false -> is_flash (mkPre t1 t2 [] None) = false ->
  read off [(tc, emit_load d [r1; r2]); (tc2, emit_clear d)]
  = ROk [mkPre t1 t2 [CText (row_text r1) (row_pos r1)] (Some (row_pos r1));
         mkPre t1 t2 [CText (row_text r2) (row_pos r2)] (Some (row_pos r2))].
Proof.
  intros d r1 r2 off tc tc2 t1 t2 H Hadj Hg1 Hg2 Hz Hfl.
  rewrite (popon_stage3_read d _ off tc tc2 t1 t2 H Hg1 Hg2 Hz Hfl).
  destruct (basic_row_good r1 (basic_load_rows _ r1 H (or_introl eq_refl))) as (_ & E1 & _).
  destruct (basic_row_good r2 (basic_load_rows _ r2 H (or_intror (or_introl eq_refl)))) as (_ & E2 & _).
  unfold expected_load. cbn [group_rows]. replace (rw_row r2 =? rw_row r1 + 1) with false by lia.
  cbn [group_rows map]. unfold cap_of. cbn [e_row e_col e_lines lines_nodes]. rewrite E1, E2. reflexivity.
Qed.

(* the domain is inhabited by loads with several captions of several lines, in any order *)
Definition wit_row (rw ind tab : Z) (s : str) : row := mkRow rw ind tab 0 (map Ch s).
Definition wit_load : load :=
  [wit_row 9 4 1 (lit "AB"); wit_row 10 8 2 (lit "C"); wit_row 3 0 0 (lit "d e"); wit_row 4 12 3 (lit "FG"); wit_row 1 28 0 (lit "h")].
Example wit_load_basic : basic_load wit_load = true /\ map e_row (expected_load wit_load) = [9; 3; 1]
  /\ map (fun e => length (e_lines e)) (expected_load wit_load) = [2; 2; 1]%nat.
Proof. vm_compute. repeat split. Qed.
