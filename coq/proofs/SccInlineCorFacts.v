(* Corollaries of proofs/SccInlineEdmFacts.v (writer-style load lines  ENM RCL rows EDM EOC):
   1. at the level of the SCC TEXT through the Coq tokeniser (C05 / C06);
   2. C15: inside the domain of the pop-on refinement no order of the rows of a writer-style load makes the reader raise
      the line-length error (the order clause for the layout pycaption's own SCCWriter produces). *)
From Coq Require Import List ZArith QArith Lia Bool Permutation.
From PV Require Import lib.Str lib.Result model.SccStash model.SccDecoder model.SccPopon model.SccTokenise.
From PV Require Import spec.Spec608 spec.SpecScc05 spec.SpecScc05Inline spec.SpecSccTime.
From PV Require Import proofs.SccTimeFacts proofs.SccPoponFacts proofs.SccPoponStage1 proofs.SccPoponStage3 proofs.SccPoponStage6
                       proofs.SccPoponStage8 proofs.SccPoponStage9 proofs.SccTokeniseFacts proofs.SccOrderFacts proofs.SccInlineEdmFacts.
Import ListNotations.
Open Scope Z_scope.

Theorem popon_refines_608_inline_text : forall d off ws evs spans up eol,
  Forall (wseg_clock d off) ws -> forallb pseg_ok8 (wexpand ws) = true ->
  res_map (pseg_event d off) (wexpand ws) = Ok evs -> positive evs -> after_show None evs ->
  expected_with join_threshold evs = Ok spans ->
  Forall wf_sline (map (wseg_line d) ws) -> good_eol eol ->
  exists caps, read off (tokenise (render_gen up eol (map (wseg_line d) ws))) = ROk caps /\
               ok_c05 (mkProg d (ploads_of (wexpand ws))) (Ok (map observe caps)) = true /\
               dom_c05 (mkProg d (ploads_of (wexpand ws))) = true.
Proof.
  intros d off ws evs spans up eol H1 H2 H3 H4 H5 H6 HW HE. rewrite (read_tokenise_render_gen off up eol _ HE HW).
  exact (popon_refines_608_inline d off ws evs spans H1 H2 H3 H4 H5 H6).
Qed.

Theorem popon_times_inline_text : forall d off ws evs up eol,
  Forall (wseg_clock d off) ws -> forallb pseg_ok8 (wexpand ws) = true ->
  res_map (pseg_event d off) (wexpand ws) = Ok evs -> positive evs ->
  Forall wf_sline (map (wseg_line d) ws) -> good_eol eol ->
  spans_of (read off (tokenise (render_gen up eol (map (wseg_line d) ws))))
  = rmap (fun spans => flat_map bspans (combine (ploads_of (wexpand ws)) spans)) (expected_with join_threshold evs).
Proof.
  intros d off ws evs up eol H1 H2 H3 H4 HW HE. rewrite (read_tokenise_render_gen off up eol _ HE HW).
  exact (popon_times_inline d off ws evs H1 H2 H3 H4).
Qed.

(* C15: row order inside a writer-style load *)
Lemma length_load_body_perm d (l l' : load) : Permutation l l' -> length (load_body d l) = length (load_body d l').
Proof.
  intro P. unfold load_body. rewrite !app_length, (length_flat_map_perm (emit_row d) l l' P). reflexivity.
Qed.

(* one hypothesis set serves both orders: EDM and EOC sit at the same word indices in either order *)
Theorem popon_row_order_free_inline : forall d off tc tcE tcL tc2 l l' evs spans, Permutation l l' -> load_wf l = true ->
  wseg_clock d off (WInline tc tcE tcL l) ->
  res_map (pseg_event d off) [PClear tcE; PLoad tcL l; PClear tc2] = Ok evs -> positive evs -> after_show None evs ->
  expected_with join_threshold evs = Ok spans ->
  exists caps caps',
    read off [(tc, emit_load_w d l); (tc2, emit_clear d)] = ROk caps /\
    read off [(tc, emit_load_w d l'); (tc2, emit_clear d)] = ROk caps' /\
    ok_c05 (mkProg d [l]) (Ok (map observe caps)) = true /\
    ok_c05 (mkProg d [l']) (Ok (map observe caps')) = true.
Proof.
  intros d off tc tcE tcL tc2 l l' evs spans P W Hck Hev Hp Ha Hx.
  assert (one : forall m, load_wf m = true -> wseg_clock d off (WInline tc tcE tcL m) ->
                res_map (pseg_event d off) [PClear tcE; PLoad tcL m; PClear tc2] = Ok evs ->
                exists caps, read off [(tc, emit_load_w d m); (tc2, emit_clear d)] = ROk caps /\
                             ok_c05 (mkProg d [m]) (Ok (map observe caps)) = true).
  { intros m Wm Cm Em.
    destruct (popon_refines_608_inline d off [WInline tc tcE tcL m; WSeg (PClear tc2)] evs spans) as (caps & R & K & _);
      [|unfold wexpand; cbn [flat_map wseg_expand app forallb pseg_ok8]; unfold lc_ok8; rewrite Wm; reflexivity
       |exact Em|exact Hp|exact Ha|exact Hx|exists caps; split; assumption].
    constructor; [exact Cm|constructor; [exact I|constructor]]. }
  destruct (one l W Hck Hev) as (caps & R & K). destruct (one l') as (caps' & R' & K').
  - rewrite <- (load_wf_perm l l' P). exact W.
  - unfold wseg_clock in *. rewrite <- (length_load_body_perm d l l' P). exact Hck.
  - cbn [res_map pseg_event] in *. rewrite <- (length_emit_load_perm d l l' P). exact Hev.
  - exists caps, caps'. repeat split; assumption.
Qed.

(* non-vacuity: rows 15 and 3 addressed by indent-0-form preamble codes, in either order, in the writer's layout *)
Definition ordw_a : load := [mkRow 15 0 0 16 [Ch 97; Ch 98]; mkRow 3 0 0 16 [Ch 99]].
Definition ordw_b : load := [mkRow 3 0 0 16 [Ch 99]; mkRow 15 0 0 16 [Ch 97; Ch 98]].
Example popon_row_order_free_inline_instance :
  exists caps caps',
    read 0 [(lit "00:00:01:00", emit_load_w true ordw_a); (lit "00:00:05:00", emit_clear true)] = ROk caps /\
    read 0 [(lit "00:00:01:00", emit_load_w true ordw_b); (lit "00:00:05:00", emit_clear true)] = ROk caps' /\
    ok_c05 (mkProg true [ordw_a]) (Ok (map observe caps)) = true /\
    ok_c05 (mkProg true [ordw_b]) (Ok (map observe caps')) = true.
Proof.
  pose (t := mkTc 0 0 1 false 0).
  assert (Hck : wseg_clock true 0 (winline true t ordw_a)) by (apply winline_clock; [reflexivity|vm_compute; reflexivity]).
  unfold winline in Hck.
  assert (E : exists evs spans,
            res_map (pseg_event true 0) [PClear (render_tc (tc_shift t (Z.of_nat (length (load_body true ordw_a)))));
                                         PLoad (render_tc (tc_shift t 2)) ordw_a; PClear (lit "00:00:05:00")] = Ok evs /\
            expected_with join_threshold evs = Ok spans /\ positive evs /\ after_show None evs).
  { eexists. eexists. split; [vm_compute; reflexivity|]. split; [vm_compute; reflexivity|]. split.
    - intros e [<-|[<-|[<-|[]]]]; vm_compute; reflexivity.
    - cbn [after_show ev_time]. repeat split; try exact I; vm_compute; reflexivity. }
  destruct E as (evs & spans & E1 & E2 & E3 & E4).
  exact (popon_row_order_free_inline true 0 _ _ _ (lit "00:00:05:00") ordw_a ordw_b evs spans (perm_swap _ _ _) eq_refl Hck E1 E3 E4 E2).
Qed.

(* a row of basic characters addressed by the writer's preamble code is a row of the domain *)
Lemma row_cells_ch : forall line acc ital, row_cells (map Ch line) acc ital = acc ++ map (fun c => Cell c ital) line.
Proof.
  induction line as [|c t IH]; intros acc ital; [cbn [map row_cells]; rewrite app_nil_r; reflexivity|].
  cbn [map row_cells]. rewrite IH, <- app_assoc. reflexivity.
Qed.

Lemma items_ok_ch : forall line prev, forallb is_basic line = true -> items_ok (map Ch line) prev = true.
Proof.
  induction line as [|c t IH]; intros prev H; [reflexivity|]. rewrite forallb_cons in H. apply andb_true_iff in H. destruct H as [H1 H2].
  cbn [map items_ok]. rewrite H1, (IH _ H2). reflexivity.
Qed.

Theorem writer_row_ok : forall row u line, 1 <= row <= 15 -> (u = 16 \/ u = 17) -> forallb is_basic line = true ->
  line <> [] -> hd 0 line <> 32 -> last line 0 <> 32 -> (length line <= 32)%nat ->
  row_ok (mkRow row 0 0 u (map Ch line)) = true.
Proof.
  intros row u line Hr Hu Hb Hne Hh Hl Hn. unfold row_ok, cells_of, rw_ital. cbv zeta.
  cbn [rw_row rw_indent rw_tab rw_style rw_items]. rewrite row_cells_ch, (items_ok_ch _ _ Hb). cbn [app].
  replace (is_italic_attr u) with false by (destruct Hu as [->| ->]; reflexivity). cbn [Z.eqb andb].
  replace (1 <=? row) with true by lia. replace (row <=? 15) with true by lia.
  replace (0 <=? u) with true by lia. replace (u <? 18) with true by lia. rewrite map_length.
  replace (0 + 0 + Z.of_nat (length line) <=? 32) with true by lia.
  assert (Hv : existsb cell_vis (map (fun c => Cell c false) line) = true).
  { destruct line as [|c t]; [congruence|]. cbn [map existsb cell_vis hd] in *. apply Z.eqb_neq in Hh. rewrite Hh. reflexivity. }
  assert (H1 : match map (fun c => Cell c false) line with c :: _ => cell_space c | [] => true end = false).
  { destruct line as [|c t]; [congruence|]. cbn [map cell_space hd] in *. apply Z.eqb_neq. exact Hh. }
  assert (H2 : cell_space (last (map (fun c => Cell c false) line) Opt) = false).
  { clear - Hne Hl. induction line as [|c t IH]; [congruence|]. destruct t as [|c' t'].
    - cbn [map last cell_space] in *. apply Z.eqb_neq. exact Hl.
    - change (last (map (fun c => Cell c false) (c :: c' :: t')) Opt) with (last (map (fun c => Cell c false) (c' :: t')) Opt).
      apply IH; [discriminate|exact Hl]. }
  rewrite Hv, H1, H2. vm_compute. reflexivity.
Qed.

Lemma toks_map_ch : forall line, flat_map toks_of_item (map Ch line) = map TCh line.
Proof. induction line as [|c t IH]; [reflexivity|]. cbn [map flat_map toks_of_item app]. rewrite IH. reflexivity. Qed.

(* the words of such a row: the preamble code twice, then the characters in pairs *)
Theorem writer_row_emit : forall row u line,
  emit_row true (mkRow row 0 0 u (map Ch line)) = [pac_word row u; pac_word row u] ++ pack true (map TCh line) None.
Proof.
  intros row u line. unfold emit_row, pac_unit, pac_attr. cbn [rw_row rw_indent rw_tab rw_style rw_items].
  rewrite toks_map_ch. reflexivity.
Qed.

Example writer_row_instance : row_ok (mkRow 15 0 0 16 (map Ch [72; 105; 32; 116; 104; 101; 114; 101])) = true.
Proof.
  apply writer_row_ok; [lia|left; reflexivity|vm_compute; reflexivity|discriminate|cbn [hd]; lia|cbn [last]; lia|cbn [length]; lia].
Qed.

(* the remaining hypotheses of popon_refines_608_inline on the instance exw_ws *)
Example exw_event_hyps : exists evs spans,
  res_map (pseg_event true 0) (wexpand exw_ws) = Ok evs /\ positive evs /\ after_show None evs /\
  expected_with join_threshold evs = Ok spans.
Proof.
  eexists. eexists. split; [vm_compute; reflexivity|]. split; [|split].
  - intros e H. repeat (destruct H as [<-|H]; [vm_compute; reflexivity|]). destruct H.
  - cbn [after_show ev_time]. repeat split; try exact I; vm_compute; reflexivity.
  - vm_compute. reflexivity.
Qed.

(* the display instants of a writer-style line ARE the statement's instants of its EDM / EOC words *)
Ltac Zify.zify_post_hook ::= Z.to_euclidean_division_equations.

(* the statement's instant of the k-th word after the canonical timecode n frames later = its instant of word n + k *)
Theorem spec_instant_shift : forall t n k off, tc_wf t = true -> 0 <= n -> 0 <= k -> tc_total t + n < 10800000 ->
  (spec_instant (tc_shift t n) k off == spec_instant t (n + k) off)%Q.
Proof.
  intros t n k off W Hn Hk Hb.
  destruct (get_time_exact (tc_shift t n) k off (tc_shift_wf t n W Hn Hb) Hk) as (t1 & E1 & Q1).
  destruct (get_time_exact t (n + k) off W ltac:(lia)) as (t2 & E2 & Q2).
  pose proof (same_clock_shift off t n W Hn Hb k Hk) as S. rewrite E1, E2 in S. injection S as ->.
  rewrite <- Q1, <- Q2. reflexivity.
Qed.

(* the two display events of the writer-style line `winline d t l`: Clear at the statement's instant of its (first) EDM word,
   Show at the statement's instant of its (first) EOC word *)
Theorem winline_events_spec : forall d t l off, tc_wf t = true ->
  tc_total t + Z.of_nat (length (load_body d l)) + 2 < 10800000 ->
  exists t1 t2,
    res_map (pseg_event d off) (wseg_expand (winline d t l)) = Ok [Clear t1; Show t2] /\
    (t1 == spec_instant t (Z.of_nat (length (load_body d l))) off)%Q /\
    (t2 == spec_instant t (Z.of_nat (length (emit_load_w d l)) - (if d then 2 else 1)) off)%Q.
Proof.
  intros d t l off W Hb. set (nE := Z.of_nat (length (load_body d l))) in *. set (e := if d then 2 else 1).
  assert (He : 0 <= e <= 2) by (unfold e; destruct d; lia).
  assert (HnE : 0 <= nE) by (unfold nE; lia).
  destruct (get_time_exact (tc_shift t nE) 0 off (tc_shift_wf t nE W HnE ltac:(lia)) (Z.le_refl 0)) as (t1 & E1 & Q1).
  assert (Hlen : Z.of_nat (length (emit_load d l)) - e = nE).
  { unfold emit_load, nE, load_body, e. rewrite !app_length, !Nat2Z.inj_add. destruct d; cbn [ctl length]; lia. }
  assert (Hlenw : Z.of_nat (length (emit_load_w d l)) - e = nE + e).
  { unfold emit_load_w, nE, e. rewrite !app_length, !Nat2Z.inj_add. destruct d; cbn [ctl length]; lia. }
  destruct (get_time_exact (tc_shift t e) nE off (tc_shift_wf t e W (proj1 He) ltac:(lia)) HnE) as (t2 & E2 & Q2).
  exists t1, t2. split; [|split].
  - unfold winline, wseg_expand. cbn [res_map pseg_event]. fold nE. fold e. rewrite E1. cbn [bind]. rewrite Hlen, E2. reflexivity.
  - rewrite Q1. rewrite (spec_instant_shift t nE 0 off W HnE (Z.le_refl 0) ltac:(lia)). rewrite Z.add_0_r. reflexivity.
  - rewrite Q2. rewrite (spec_instant_shift t e nE off W (proj1 He) HnE ltac:(lia)). fold e. rewrite Hlenw.
    replace (e + nE) with (nE + e) by lia. reflexivity.
Qed.
