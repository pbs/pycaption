(* C20 own output from the text nodes, SCC: every character the SCC writer model (model/SccWrite.v)
   puts behind the header is a hex digit, ':', ';', TAB, blank, newline, 'x' (the placeholder of a table entry that is not
   a byte: row 0) or '-' (a negative timecode field); such a document is detected as SCC.  No hypothesis on the text, the
   times, or the number of lines - only that the writer returns a document (it raises IndexError beyond 32 rows). *)
From Coq Require Import List ZArith QArith Bool Lia ZifyBool.
From PV Require Import lib.Sx lib.Str lib.StrFacts lib.Result lib.Dec model.Generated model.Detect spec.SpecDetect spec.SpecOwn
  proofs.DetectFacts proofs.DetectOwnFacts model.GenSccw model.SccWrite model.OwnWrite model.OwnWriteScc.
Import ListNotations.
Open Scope Z_scope.
#[local] Ltac Zify.zify_post_hook ::= Z.to_euclidean_division_equations.

Definition sccp (c : Z) : bool := scc_body_char c || (c =? 120) || (c =? 45).

Lemma tbl_basic_bytes : forallb (fun kv => snd kv <? 256) sccw_character_to_code = true.
Proof. vm_compute. reflexivity. Qed.
Lemma tbl_special_words : forallb (fun kv => snd kv <? 65536) sccw_special_or_extended_to_code = true.
Proof. vm_compute. reflexivity. Qed.
Lemma tbl_pac_high_bytes : forallb (fun b => b <? 256) sccw_pac_high_byte_by_row = true.
Proof. vm_compute. reflexivity. Qed.
Lemma tbl_pac_low_bytes : forallb (fun b => b <? 256) sccw_pac_low_byte_by_row_restricted = true.
Proof. vm_compute. reflexivity. Qed.

Lemma sccw_assoc_in : forall k l v, SccWrite.assoc k l = Some v -> In (k, v) l.
Proof.
  induction l as [|[a b] t IH]; intros v H; cbn [SccWrite.assoc] in H; [discriminate|].
  destruct (a =? k) eqn:E.
  - injection H as <-. left. f_equal. lia.
  - right. apply IH. exact H.
Qed.

Definition ccode_small (cc : ccode) : bool :=
  match cc with CByte b => b <? 256 | CWord hi lo => (hi <? 256) && (lo <? 256) end.

Lemma char_code_small : forall c, ccode_small (char_code c) = true.
Proof.
  intros c. unfold char_code.
  destruct (SccWrite.assoc c sccw_character_to_code) as [b|] eqn:E1.
  - apply sccw_assoc_in in E1. pose proof tbl_basic_bytes as T. rewrite forallb_forall in T. exact (T _ E1).
  - destruct (SccWrite.assoc c sccw_special_or_extended_to_code) as [w|] eqn:E2; [|reflexivity].
    apply sccw_assoc_in in E2. pose proof tbl_special_words as T. rewrite forallb_forall in T.
    specialize (T _ E2). cbn [snd ccode_small] in *. lia.
Qed.

Lemma py_index_in : forall l i b, forallb (fun b => b <? 256) l = true -> py_index l i = Ok b -> b <? 256 = true.
Proof.
  intros l i b Hl H. unfold py_index in H.
  destruct ((if i <? 0 then i + Z.of_nat (length l) else i) <? 0) eqn:E1; [discriminate|].
  destruct (Z.of_nat (length l) <=? (if i <? 0 then i + Z.of_nat (length l) else i)) eqn:E2; [discriminate|].
  cbn [orb] in H. injection H as <-. rewrite forallb_forall in Hl. apply Hl. apply nth_In. lia.
Qed.

Lemma hex_digit_class : forall d, 0 <= d < 16 -> sccp (hex_digit d) = true.
Proof. intros d H. unfold hex_digit, sccp, scc_body_char, is_digit. destruct (d <? 10) eqn:E; lia. Qed.

Lemma hex2_class : forall b, b <? 256 = true -> forallb sccp (hex2 b) = true.
Proof.
  intros b H. unfold hex2. destruct (b <? 0) eqn:E; [reflexivity|].
  cbn [forallb]. rewrite (hex_digit_class (b / 16)) by lia. rewrite (hex_digit_class (b mod 16)) by lia. reflexivity.
Qed.

Lemma maybe_align_class : forall code, forallb sccp code = true -> forallb sccp (maybe_align code) = true.
Proof. intros code H. unfold maybe_align. destruct (len5 code =? 2); [rewrite forallb_app, H; reflexivity|exact H]. Qed.

Lemma maybe_space_class : forall code, forallb sccp code = true -> forallb sccp (maybe_space code) = true.
Proof. intros code H. unfold maybe_space. destruct (len5 code =? 4); [rewrite forallb_app, H; reflexivity|exact H]. Qed.

Lemma print_character_class : forall code c, forallb sccp code = true -> forallb sccp (print_character code c) = true.
Proof.
  intros code c H. unfold print_character. pose proof (char_code_small c) as S.
  destruct (char_code c) as [b|hi lo]; cbn [ccode_small] in S.
  - rewrite forallb_app, H, (hex2_class b S). reflexivity.
  - apply andb_true_iff in S. destruct S as [S1 S2].
    rewrite !forallb_app, (maybe_align_class code H), (hex2_class hi S1), (hex2_class lo S2). reflexivity.
Qed.

Lemma print_line_class : forall line code, forallb sccp code = true -> forallb sccp (print_line code line) = true.
Proof.
  unfold print_line. induction line as [|c t IH]; intros code H; [exact H|].
  cbn [fold_left]. apply IH. apply maybe_space_class. apply print_character_class. exact H.
Qed.

Lemma pac_str_class : forall hi lo, hi <? 256 = true -> lo <? 256 = true -> forallb sccp (pac_str hi lo) = true.
Proof. intros hi lo H1 H2. unfold pac_str. rewrite !forallb_app, (hex2_class hi H1), (hex2_class lo H2). reflexivity. Qed.

Lemma code_rows_class : forall rows code out, forallb sccp code = true -> code_rows code rows = Ok out ->
  forallb sccp out = true.
Proof.
  induction rows as [|[row line] t IH]; intros code out H E; cbn [code_rows] in E.
  - injection E as <-. exact H.
  - destruct (py_index sccw_pac_high_byte_by_row row) as [hi|] eqn:Eh; cbn [bind] in E; [|discriminate].
    destruct (py_index sccw_pac_low_byte_by_row_restricted row) as [lo|] eqn:El; cbn [bind] in E; [|discriminate].
    pose proof (py_index_in _ _ _ tbl_pac_high_bytes Eh) as Hh. pose proof (py_index_in _ _ _ tbl_pac_low_bytes El) as Hl.
    apply (IH _ out) in E; [exact E|]. apply maybe_align_class. apply print_line_class.
    rewrite !forallb_app, H, (pac_str_class hi lo Hh Hl). reflexivity.
Qed.

Lemma text_to_code_class : forall text code, text_to_code text = Ok code -> forallb sccp code = true.
Proof. intros text code H. apply (code_rows_class _ [] code eq_refl H). Qed.

Lemma digits_sccp : forall s, forallb is_digit s = true -> forallb sccp s = true.
Proof.
  intros s H. rewrite forallb_forall in *. intros c Hc. specialize (H c Hc).
  unfold sccp, scc_body_char. rewrite H. reflexivity.
Qed.

Lemma two_class : forall z, forallb sccp (SccWrite.two z) = true.
Proof.
  intros z. unfold SccWrite.two. destruct (z <? 0) eqn:E.
  - unfold dec_z. rewrite E. cbn [forallb]. rewrite (digits_sccp _ (dec_nonneg_digits (- z) ltac:(lia))). reflexivity.
  - unfold zpad. rewrite forallb_app, (digits_sccp _ (dec_nonneg_digits z ltac:(lia))), andb_true_r.
    apply forallb_forall. intros c Hc. apply repeat_spec in Hc. subst c. reflexivity.
Qed.

Lemma format_timestamp_class : forall t, forallb sccp (format_timestamp t) = true.
Proof. intros t. unfold format_timestamp, format_frames. rewrite !forallb_app, !two_class. reflexivity. Qed.

Definition code_ok {A : Type} (c : str * Q * A) : bool := forallb sccp (fst (fst c)).

Lemma write_caption_class : forall c, code_ok c = true -> forallb sccp (write_caption c) = true.
Proof.
  intros [[code start] e] H. unfold code_ok in H. cbn [fst] in H. unfold write_caption.
  rewrite !forallb_app, !format_timestamp_class, H.
  destruct e as [e|]; [rewrite !forallb_app, format_timestamp_class|]; reflexivity.
Qed.

Lemma pass2_class : forall todo done_, forallb code_ok done_ = true -> forallb code_ok todo = true ->
  forallb code_ok (pass2 done_ todo) = true.
Proof.
  induction todo as [|[[code start] e] t IH]; intros done_ Hd Ht; cbn [pass2].
  - apply forallb_forall. intros x Hx. apply in_rev in Hx. rewrite forallb_forall in Hd. apply Hd. exact Hx.
  - cbn [forallb] in Ht. apply andb_true_iff in Ht. destruct Ht as [Hc Ht]. apply IH; [|exact Ht].
    cbn [forallb]. unfold code_ok at 1. cbn [fst]. unfold code_ok in Hc. cbn [fst] in Hc. rewrite Hc. cbn [andb].
    destruct done_ as [|[[pc ps] [pe|]] d]; try exact Hd.
    destruct (Qle_bool (pre_roll code start) (pe + 3 * mpc)); [|exact Hd].
    cbn [forallb] in Hd |- *. exact Hd.
Qed.

Lemma codes_class : forall caps codes,
  res_map (fun c => do code <- text_to_code (w_text c); Ok (code, w_start c, w_end c)) caps = Ok codes ->
  forallb code_ok codes = true.
Proof.
  induction caps as [|c t IH]; intros codes H; cbn [res_map] in H.
  - injection H as <-. reflexivity.
  - destruct (text_to_code (w_text c)) as [code|] eqn:E; cbn [bind] in H; [|discriminate].
    destruct (res_map _ t) as [cs|] eqn:Er; cbn [bind] in H; [|discriminate].
    injection H as <-. cbn [forallb]. rewrite (IH cs eq_refl), andb_true_r.
    unfold code_ok. cbn [fst]. apply (text_to_code_class _ _ E).
Qed.

Theorem write_shape : forall caps doc, write caps = Ok doc ->
  exists body, doc = scc_document body /\ forallb sccp body = true.
Proof.
  intros caps doc H. unfold write in H.
  destruct (res_map _ caps) as [codes|] eqn:E; cbn [bind] in H; [|discriminate].
  injection H as <-. exists (flat_map write_caption (pass2 [] codes)). split; [reflexivity|].
  apply forallb_flat_map_in. intros x Hx. apply write_caption_class.
  pose proof (pass2_class codes [] eq_refl (codes_class caps codes E)) as P. rewrite forallb_forall in P. apply P. exact Hx.
Qed.

Theorem own_nodes_scc : forall langs doc, scc_write langs = Ok doc -> detect_format doc = Ok (Some R_SCC).
Proof.
  intros langs doc H. destruct (write_shape _ doc H) as [body [-> Hb]].
  apply (own_scc_class sccp body eq_refl eq_refl eq_refl Hb).
Qed.
