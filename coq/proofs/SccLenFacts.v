(* C15: facts about the line-length scan (model/SccLen.v) against spec/SpecSccLen.v. *)
From Coq Require Import List ZArith Lia Bool ZifyBool Permutation.
From PV Require Import lib.Sx lib.Str model.SccLen spec.SpecSccLen.
From PV Require Import lib.StrFacts.
Import ListNotations.
Open Scope Z_scope.

(* ---- substring lemmas ------------------------------------------------------------------ *)
Lemma is_infix_concat : forall (p : str) (l : list str), In p l -> is_infix p (concat l) = true.
Proof.
  intros p l. induction l as [|a l IH]; intros H; [destruct H|].
  simpl concat. destruct H as [->|H].
  - rewrite <- (app_nil_l (p ++ concat l)). apply is_infix_mid.
  - apply is_infix_app_r. apply IH. exact H.
Qed.

Lemma names_is_render_line : forall msg l, names msg l = is_infix (render_line l) msg.
Proof. reflexivity. Qed.

Lemma render_entry_names : forall e l, In l (snd e) -> is_infix (render_line l) (render_entry e) = true.
Proof.
  intros [k ls] l H. unfold render_entry. cbn [fst snd] in *.
  destruct ls as [|a ls']; [destruct H|].
  apply is_infix_app_r. apply is_infix_app_r. apply is_infix_app_r.
  apply is_infix_concat. apply in_map. exact H.
Qed.

Lemma render_names : forall d l, In l (concat (map snd d)) -> is_infix (render_line l) (render d) = true.
Proof.
  intros d l H. apply in_concat in H. destruct H as [ls [Hls Hl]].
  apply in_map_iff in Hls. destruct Hls as [e [He Hin]]. subst ls.
  unfold render. pose proof (render_entry_names e l Hl) as Hr.
  induction d as [|e' d IH]; [destruct Hin|].
  simpl. destruct Hin as [->|Hin].
  - apply is_infix_app_l. exact Hr.
  - apply is_infix_app_r. apply IH. exact Hin.
Qed.

Lemma render_entry_nil : forall e, render_entry e = [] <-> snd e = [].
Proof.
  intros [k ls]. unfold render_entry. cbn [fst snd]. destruct ls; split; intros H; try reflexivity; discriminate.
Qed.

Lemma render_nil : forall d, render d = [] <-> concat (map snd d) = [].
Proof.
  induction d as [|e d IH]; [split; reflexivity|].
  unfold render in *. simpl.
  split; intros H; apply app_eq_nil in H; destruct H as [H1 H2]; apply render_entry_nil in H1; apply IH in H2;
    rewrite H1, H2; reflexivity.
Qed.

Lemma dict_extend_values : forall d k v,
  Permutation (concat (map snd (dict_extend d k v))) (concat (map snd d) ++ v).
Proof.
  induction d as [|[k' v'] d IH]; intros k v; simpl.
  - rewrite app_nil_r. apply Permutation_refl.
  - destruct (str_eqb k' k); simpl.
    + rewrite <- !app_assoc. apply Permutation_app_head. apply Permutation_app_comm.
    + rewrite <- app_assoc. apply Permutation_app_head. apply IH.
Qed.

Lemma too_long_spec : forall t, too_long t = filter spec_long (spec_lines t).
Proof. reflexivity. Qed.

Lemma scan_values_gen : forall caps d,
  Permutation (concat (map snd (fold_left (fun d c => dict_extend d (fst c) (too_long (snd c))) caps d)))
              (concat (map snd d) ++ offending caps).
Proof.
  induction caps as [|c caps IH]; intros d; simpl.
  - unfold offending. simpl. rewrite app_nil_r. apply Permutation_refl.
  - eapply Permutation_trans; [apply IH|].
    unfold offending. simpl. rewrite app_assoc. apply Permutation_app_tail.
    apply dict_extend_values.
Qed.

Definition named_lines (caps : list lcap) : list str := concat (map snd (scan caps)).

Lemma scan_names_exactly : forall caps, Permutation (named_lines caps) (offending caps).
Proof. intros caps. unfold named_lines, scan, scan_with. apply (scan_values_gen caps []). Qed.

Lemma perm_nil_iff : forall (A : Type) (a b : list A), Permutation a b -> (a = [] <-> b = []).
Proof.
  intros A a b H. split; intros E; subst.
  - apply Permutation_nil. exact H.
  - apply Permutation_nil. apply Permutation_sym. exact H.
Qed.

Lemma length_check_none_iff : forall caps, length_check caps = None <-> offending caps = [].
Proof.
  intros caps. unfold length_check, outcome_of.
  pose proof (render_nil (scan caps)) as Hr.
  pose proof (perm_nil_iff _ _ _ (scan_names_exactly caps)) as Hp. unfold named_lines in Hp.
  destruct (render (scan caps)) eqn:E.
  - split; [intros _|reflexivity]. apply Hp. apply Hr. reflexivity.
  - split; [discriminate|]. intros H. apply Hp in H. apply Hr in H. discriminate.
Qed.

Lemma length_check_message : forall caps msg, length_check caps = Some msg ->
  msg = msg_head ++ render (scan caps).
Proof.
  intros caps msg. unfold length_check, outcome_of. destruct (render (scan caps)); intros H; inversion H. reflexivity.
Qed.

Lemma offending_nil_all_short : forall caps, offending caps = [] ->
  forall c l, In c caps -> In l (spec_lines (snd c)) -> (length l <= 32)%nat.
Proof.
  intros caps H c l Hc Hl.
  destruct (spec_long l) eqn:E; [|unfold spec_long in E; lia].
  exfalso. assert (Hin : In l (offending caps)).
  { unfold offending. apply in_concat. exists (filter spec_long (spec_lines (snd c))). split.
    - apply in_map_iff. exists c. split; [reflexivity|exact Hc].
    - apply filter_In. split; assumption. }
  rewrite H in Hin. destruct Hin.
Qed.

Theorem length_check_sound_complete : forall caps,
  match length_check caps with
  | Some msg => offending caps <> [] /\
                (forall l, In l (offending caps) -> names msg l = true) /\
                Permutation (named_lines caps) (offending caps) /\
                msg = msg_head ++ render (scan caps)
  | None => forall c l, In c caps -> In l (spec_lines (snd c)) -> (length l <= 32)%nat
  end.
Proof.
  intros caps. destruct (length_check caps) as [msg|] eqn:E.
  - split; [|split; [|split]].
    + intros H. apply length_check_none_iff in H. congruence.
    + intros l Hl. rewrite (length_check_message _ _ E). rewrite names_is_render_line.
      apply is_infix_app_r. apply render_names.
      eapply Permutation_in; [apply Permutation_sym; apply scan_names_exactly|exact Hl].
    + apply scan_names_exactly.
    + apply length_check_message. exact E.
  - apply offending_nil_all_short. apply length_check_none_iff. exact E.
Qed.

Definition is_some {A} (o : option A) : bool := match o with Some _ => true | None => false end.

Lemma length_check_is_some : forall caps, is_some (length_check caps) = negb (nil_b (offending caps)).
Proof.
  intros caps. destruct (length_check_none_iff caps) as [H1 H2].
  destruct (length_check caps), (offending caps); try reflexivity; [discriminate (H2 eq_refl)|discriminate (H1 eq_refl)].
Qed.

Theorem length_check_meets_oracle : forall caps, ok_c15 caps (length_check caps) = true.
Proof.
  intros caps. pose proof (length_check_sound_complete caps) as H. pose proof (length_check_is_some caps) as Hs.
  unfold ok_c15. destruct (length_check caps) as [msg|]; cbn [is_some] in Hs.
  - rewrite <- Hs. apply forallb_forall. apply H.
  - destruct (nil_b _); [reflexivity|discriminate].
Qed.

Lemma existsb_concat : forall (A : Type) (f : A -> bool) (ll : list (list A)),
  existsb f (concat ll) = existsb (existsb f) ll.
Proof. intros A f ll. induction ll as [|a ll IH]; simpl; [reflexivity|]. rewrite existsb_app, IH. reflexivity. Qed.

Lemma offending_nil_must_raise : forall caps, nil_b (offending caps) = negb (must_raise (line_lengths caps)).
Proof.
  intros caps. unfold offending, must_raise, line_lengths.
  assert (Hf : forall ls : list str,
             nil_b (filter spec_long ls) = negb (existsb (fun n => 32 <? Z.of_nat n) (map (@length Z) ls))).
  { induction ls as [|l ls IHl]; [reflexivity|]. simpl. unfold spec_long at 1.
    destruct (32 <? Z.of_nat (length l)); simpl; [reflexivity|exact IHl]. }
  assert (Happ : forall a b : list str, nil_b (a ++ b) = nil_b a && nil_b b) by (intros [|x a] b; reflexivity).
  induction caps as [|c caps IH]; [reflexivity|].
  cbn [map concat existsb]. rewrite Happ, IH, Hf, negb_orb. reflexivity.
Qed.

Theorem length_check_lengths_only : forall caps,
  is_some (length_check caps) = must_raise (line_lengths caps).
Proof. intros caps. rewrite length_check_is_some, offending_nil_must_raise. apply negb_involutive. Qed.

Corollary length_check_key_free : forall caps caps',
  line_lengths caps = line_lengths caps' -> is_some (length_check caps) = is_some (length_check caps').
Proof. intros caps caps' H. rewrite !length_check_lengths_only, H. reflexivity. Qed.

Lemma offending_perm : forall caps caps', Permutation caps caps' -> Permutation (offending caps) (offending caps').
Proof.
  intros caps caps' H. unfold offending. induction H; simpl.
  - apply Permutation_refl.
  - apply Permutation_app_head. exact IHPermutation.
  - rewrite !app_assoc. apply Permutation_app_tail. apply Permutation_app_comm.
  - eapply Permutation_trans; eassumption.
Qed.

Theorem length_check_order_free : forall caps caps', Permutation caps caps' ->
  is_some (length_check caps) = is_some (length_check caps') /\
  Permutation (named_lines caps) (named_lines caps').
Proof.
  intros caps caps' H. pose proof (offending_perm _ _ H) as Hp. split.
  - rewrite !length_check_is_some. destruct (perm_nil_iff _ _ _ Hp) as [H1 H2].
    destruct (offending caps), (offending caps'); try reflexivity; [discriminate (H1 eq_refl)|discriminate (H2 eq_refl)].
  - eapply Permutation_trans; [apply scan_names_exactly|].
    eapply Permutation_trans; [exact Hp|]. apply Permutation_sym. apply scan_names_exactly.
Qed.

(* ---- the code before fix #5 (overwrite on an existing key) ------------------------------ *)
Definition long34 : str := repeat 97 34.
Definition wit_a : list lcap := [(lit "00:00:02.002", long34); (lit "00:00:02.002", lit "bbbbbbbbbb")].
Definition wit_b : list lcap := [(lit "00:00:02.002", lit "bbbbbbbbbb"); (lit "00:00:02.002", long34)].

Theorem length_overwrite_refuted :
  length_check_prefix wit_a = None /\ offending wit_a <> [] /\
  Permutation wit_a wit_b /\ is_some (length_check_prefix wit_b) = true.
Proof.
  split; [vm_compute; reflexivity|]. split; [vm_compute; discriminate|]. split; [apply perm_swap|vm_compute; reflexivity].
Qed.
