(* C06: the oracle on the floored witness, the 1001/1000 relation for every offset (before flooring),
   output-level order and start <= end for what `read` returns, and the composition of the pop-on refinement
   (popon_times) with get_time_exact and the threshold lemmas: on rendered well-formed timecodes of one rate the spans
   read are the statement's own spans (threshold "five frames + 1 us") of the statement's own instants. *)
From Coq Require Import List ZArith QArith Qabs Lia Bool Lqa.
From PV Require Import lib.Result model.SccTime model.SccStash model.SccDecoder model.SccPopon
                       spec.SpecScc05 spec.SpecSccTime spec.SpecSccTime2
                       proofs.SccTimeFacts proofs.SccPoponFacts proofs.SccPoponStage6 proofs.SccPoponStage9.
Import ListNotations.
Local Open Scope Q_scope.

(* 1. the oracle on the fully floored witness of the known defect (end 0 = "not ended" sentinel)      *)

Example ok_on_floored_witness :
  ok_c06_gap [Show 0; Clear 0; Show 0; Clear 0] (Ok [(0, 0); (0, 0)]) = true /\
  ok_c06_gap [Show 0; Clear 0; Show 0; Clear 0] (Ok [(0, 0)]) = true /\
  ok_c06_gap [Show 0; Clear 0; Show 0; Clear 0] (Ok [(0, inject_Z 4000000); (0, inject_Z 4000000)]) = false.
Proof. repeat split; vm_compute; reflexivity. Qed.

(* 2. non-drop = 1001/1000 x drop for every offset, before flooring                                   *)

Lemma floor0_compat : forall a b, a == b -> floor0 a == floor0 b.
Proof.
  intros a b H. unfold floor0.
  destruct (Qle_bool 0 a) eqn:Ea; destruct (Qle_bool 0 b) eqn:Eb; try assumption; try reflexivity.
  - apply Qle_bool_iff in Ea. rewrite H in Ea. apply Qle_bool_iff in Ea. congruence.
  - apply Qle_bool_iff in Eb. rewrite <- H in Eb. apply Qle_bool_iff in Eb. congruence.
Qed.

Definition raw_us (h m s ff : Z) (drop : bool) : Q :=
  (inject_Z (h * 3600 + m * 60 + s) + inject_Z ff / inject_Z 30) * rate drop * us_per_s.

Theorem time_formula_raw : forall h m s ff drop off,
  (time_formula h m s ff drop off == floor0 (raw_us h m s ff drop - off))%Q.
Proof. intros. unfold time_formula, raw_us. apply floor0_compat. apply Qred_correct. Qed.

Theorem ndf_raw_is_1001_1000_of_df : forall h m s ff,
  (raw_us h m s ff false == raw_us h m s ff true * (1001 # 1000))%Q.
Proof. intros. unfold raw_us, rate. ring. Qed.

(* 3. order and start <= end, at the level of the statement's spans and of what `read` returns       *)

Fixpoint nondecreasing (t : Q) (evs : list ev) : Prop :=
  match evs with [] => True | e :: r => (t <= ev_time e)%Q /\ nondecreasing (ev_time e) r end.

(* raw spans: starts >= lo; an explicit end is >= its start and <= every later start *)
Fixpoint le_raw (lo : Q) (l : list (Q * option Q)) : Prop :=
  match l with
  | [] => True
  | (s, oe) :: t => lo <= s /\ match oe with Some e => s <= e /\ le_raw e t | None => le_raw s t end
  end.

(* closed spans: start <= end, starts never decrease *)
Fixpoint le_spans (lo : Q) (l : list (Q * Q)) : Prop :=
  match l with
  | [] => True
  | (s, e) :: t => lo <= s /\ s <= e /\ le_spans s t
  end.

Lemma le_raw_weaken : forall l lo lo', lo' <= lo -> le_raw lo l -> le_raw lo' l.
Proof.
  intros [|[s oe] t] lo lo' H G; [exact I|]. cbn [le_raw] in *. destruct G as [G1 G2]. split; [lra|exact G2].
Qed.

Lemma le_spans_weaken : forall l lo lo', lo' <= lo -> le_spans lo l -> le_spans lo' l.
Proof.
  intros [|[s e] t] lo lo' H G; [exact I|]. cbn [le_spans] in *. destruct G as (G1 & G2 & G3). repeat split; [lra|lra|exact G3].
Qed.

(* Show and Clear differ only in what is on the screen afterwards *)
Lemma raw_spans_cons : forall e r shown,
  raw_spans (e :: r) shown = match shown with Some s => [(s, Some (ev_time e))] | None => [] end
                             ++ raw_spans r (match e with Show t => Some t | Clear _ => None end).
Proof. intros [t|t] r shown; reflexivity. Qed.

Lemma raw_le : forall evs shown t lo, nondecreasing t evs ->
  match shown with Some s => lo <= s /\ s <= t | None => lo <= t end ->
  le_raw lo (raw_spans evs shown).
Proof.
  induction evs as [|e evs IH]; intros shown t lo Hn Hs.
  - destruct shown as [s|]; cbn [raw_spans le_raw]; [|exact I]. destruct Hs. split; [assumption|exact I].
  - rewrite raw_spans_cons. destruct Hn as [Ht Hn]. destruct shown as [s|]; cbn [app le_raw].
    + destruct Hs as [H1 H2]. split; [exact H1|]. split; [lra|].
      apply (IH _ (ev_time e) _ Hn). destruct e; cbn [ev_time] in *; [split|]; lra.
    + apply (IH _ (ev_time e) _ Hn). destruct e; cbn [ev_time] in *; [split|]; lra.
Qed.

Lemma four_s_nonneg : forall s : Q, s <= s + four_s.
Proof. intros s. unfold four_s. change (inject_Z 4000000) with (4000000 # 1)%Q. lra. Qed.

(* whatever the threshold: the end is the explicit end e or the next start s', and s <= e <= s' *)
Lemma close_le : forall thr r lo, le_raw lo r -> le_spans lo (close_gaps thr r).
Proof.
  intros thr. induction r as [|[s oe] r IH]; intros lo H; [exact I|].
  cbn [le_raw] in H. destruct H as [Hlo H]. cbn [close_gaps le_spans]. split; [exact Hlo|].
  destruct oe as [e|].
  - destruct H as [He Hr]. split.
    + destruct r as [|[s' oe'] r']; [exact He|]. destruct (Qle_bool thr (s' - e)); [exact He|].
      cbn [le_raw] in Hr. destruct Hr as [Hr _]. lra.
    + apply IH. apply (le_raw_weaken r e s He Hr).
  - split; [apply four_s_nonneg|]. apply IH. exact H.
Qed.

Lemma le_spans_facts : forall l lo, le_spans lo l ->
  Forall (fun p => fst p <= snd p) l /\
  (forall i a b, nth_error l i = Some a -> nth_error l (S i) = Some b -> fst a <= fst b).
Proof.
  induction l as [|[s e] t IH]; intros lo H.
  - split; [constructor|]. intros [|i] a b Ha; discriminate.
  - cbn [le_spans] in H. destruct H as (H1 & H2 & H3). destruct (IH s H3) as [F N]. split.
    + constructor; [exact H2|exact F].
    + intros [|i] a b Ha Hb.
      * cbn in Ha. inversion Ha; subst a. destruct t as [|[s' e'] t']; [discriminate|]. cbn in Hb. inversion Hb; subst b.
        cbn [le_spans] in H3. cbn [fst]. apply H3.
      * cbn in Ha, Hb. exact (N i a b Ha Hb).
Qed.

Lemma expected_le_spans : forall thr evs l, nondecreasing 0 evs -> expected_with thr evs = Ok l -> le_spans 0 l.
Proof.
  intros thr evs l Hn H. unfold expected_with in H. cbv zeta in H.
  destruct (existsb flash _); [discriminate|].
  assert (W : le_spans 0 (close_gaps thr (raw_spans evs None))).
  { apply close_le. apply (raw_le evs None 0 0 Hn). lra. }
  destruct (close_gaps thr (raw_spans evs None)); [discriminate|]. inversion H. subst l. exact W.
Qed.

(* the hypothesis 0 <= thr is not used (expected_le_spans has none): start <= end and the order of starts hold for
   every threshold *)
Theorem expected_start_le_end : forall thr evs l, (0 <= thr)%Q -> nondecreasing 0 evs -> expected_with thr evs = Ok l ->
  Forall (fun p => (fst p <= snd p)%Q) l /\
  (forall i a b, nth_error l i = Some a -> nth_error l (S i) = Some b -> (fst a <= fst b)%Q).
Proof. intros thr evs l _ Hn H. exact (le_spans_facts l 0 (expected_le_spans thr evs l Hn H)). Qed.

Lemma join_threshold_pos : 0 < join_threshold.
Proof. rewrite join_threshold_value. unfold jt_value, Qlt. simpl. lia. Qed.

(* each span repeated once per caption of its load *)
Lemma le_spans_repeat : forall n p rest lo, lo <= fst p -> fst p <= snd p -> le_spans (fst p) rest ->
  le_spans lo (repeat p n ++ rest).
Proof.
  induction n as [|n IH]; intros [s e] rest lo H1 H2 H3; cbn [fst snd] in *.
  - cbn [repeat app]. apply (le_spans_weaken rest s lo H1 H3).
  - cbn [repeat app le_spans]. repeat split; [exact H1|exact H2|]. apply IH; cbn [fst snd]; [lra|exact H2|exact H3].
Qed.

Lemma le_spans_batches : forall l lds lo, le_spans lo l -> le_spans lo (flat_map bspans (combine lds l)).
Proof.
  induction l as [|[s e] l IH]; intros lds lo H.
  - destruct lds; exact I.
  - destruct lds as [|ld lds]; [exact I|]. cbn [combine flat_map]. unfold bspans at 1. cbn [fst snd].
    cbn [le_spans] in H. destruct H as (H1 & H2 & H3).
    apply le_spans_repeat; cbn [fst snd]; [exact H1|exact H2|]. apply IH. exact H3.
Qed.

Theorem read_start_le_end : forall d off segs evs caps,
  forallb pseg_ok8 segs = true -> res_map (pseg_event d off) segs = Ok evs -> positive evs -> nondecreasing 0 evs ->
  read off (map (pseg_line d) segs) = ROk caps ->
  Forall (fun c => (pc_start c <= pc_end c)%Q) caps /\
  (forall i a b, nth_error caps i = Some a -> nth_error caps (S i) = Some b -> (pc_start a <= pc_start b)%Q).
Proof.
  intros d off segs evs caps Hok He Hp Hn Hr.
  pose proof (popon_times d off segs evs Hok He Hp) as T. rewrite Hr in T. cbn [spans_of] in T.
  destruct (expected_with join_threshold evs) as [l|e] eqn:E; [|discriminate]. cbn [rmap] in T. inversion T as [T'].
  pose proof (expected_le_spans _ _ _ Hn E) as L.
  pose proof (le_spans_batches l (ploads_of segs) 0 L) as L'. rewrite <- T' in L'.
  destruct (le_spans_facts _ _ L') as [F N]. split.
  - rewrite Forall_map in F. exact F.
  - intros i a b Ha Hb.
    apply (N i (pc_start a, pc_end a) (pc_start b, pc_end b)); rewrite nth_error_map; [rewrite Ha|rewrite Hb]; reflexivity.
Qed.

(* 4. composition with get_time_exact and the threshold lemmas                                        *)

(* ---- 4a. on rendered well-formed timecodes the events are the statement's instants ---------------- *)
Inductive tseg : Type := TLoad (tc : timecode) (l : load) | TClear (tc : timecode).
Definition tseg_pseg (s : tseg) : pseg :=
  match s with TLoad tc l => PLoad (render_tc tc) l | TClear tc => PClear (render_tc tc) end.
Definition tseg_spec_event (d : bool) (off : Q) (s : tseg) : ev :=
  match s with
  | TLoad tc l => Show (spec_instant tc (Z.of_nat (length (emit_load d l)) - (if d then 2 else 1)) off)
  | TClear tc => Clear (spec_instant tc 0 off)
  end.
Definition tseg_wf (s : tseg) : bool :=
  match s with TLoad tc l => tc_wf tc && load_wf l | TClear tc => tc_wf tc end.
Definition ev_eq (a b : ev) : Prop :=
  match a, b with Show x, Show y => (x == y)%Q | Clear x, Clear y => (x == y)%Q | _, _ => False end.

Lemma event_is_spec_instant : forall d off s, tseg_wf s = true ->
  exists e, pseg_event d off (tseg_pseg s) = Ok e /\ ev_eq e (tseg_spec_event d off s).
Proof.
  intros d off [tc l|tc] H; cbn [tseg_wf] in H.
  - apply andb_prop in H. destruct (get_time_exact tc _ off (proj1 H) (SccPoponStage1.emit_load_room d l)) as (t & Et & Ht).
    exists (Show t). cbn [tseg_pseg pseg_event]. rewrite Et. split; [reflexivity|exact Ht].
  - destruct (get_time_exact tc 0 off H (Z.le_refl 0)) as (t & Et & Ht).
    exists (Clear t). cbn [tseg_pseg pseg_event]. rewrite Et. split; [reflexivity|exact Ht].
Qed.

Theorem events_are_spec_instants : forall d off segs, forallb tseg_wf segs = true ->
  exists evs, res_map (pseg_event d off) (map tseg_pseg segs) = Ok evs /\
              Forall2 ev_eq evs (map (tseg_spec_event d off) segs).
Proof.
  intros d off. induction segs as [|s segs IH]; intro H.
  - exists []. split; [reflexivity|constructor].
  - cbn [forallb] in H. apply andb_prop in H. destruct H as [Hs H]. destruct (IH H) as (evs & E & F).
    destruct (event_is_spec_instant d off s Hs) as (e & Ee & He).
    exists (e :: evs). cbn [map res_map]. rewrite Ee, E. split; [reflexivity|constructor; assumption].
Qed.

(* ---- 4b. on whole-frame gaps the code's threshold decides like the statement's "five frames + 1 us" ---- *)
Definition frame_gap (drop : bool) (a b : Q) : Prop :=
  exists n : Z, (b - a == inject_Z n * ((inject_Z 1000000 / inject_Z 30) * rate drop))%Q.

Lemma Qle_bool_false : forall a b, b < a -> Qle_bool a b = false.
Proof.
  intros a b H. destruct (Qle_bool a b) eqn:E; [|reflexivity]. apply Qle_bool_iff in E. lra.
Qed.

Lemma Qle_bool_true : forall a b, a <= b -> Qle_bool a b = true.
Proof. intros a b H. apply Qle_bool_iff. exact H. Qed.

(* a gap of at most five frames is below both thresholds by half a microsecond, one of six or more above both *)
Lemma frame_gap_same_test : forall drop e s', frame_gap drop e s' ->
  Qle_bool join_threshold (s' - e) = Qle_bool thr_hi (s' - e).
Proof.
  intros drop e s' [n Hn].
  destruct (join_threshold_slack n drop) as [A B]. destruct join_threshold_close as [C D]. cbv zeta in A, B.
  rewrite <- Hn in A, B. destruct (Z_le_gt_dec n 5) as [L|G].
  - specialize (A L). rewrite !Qle_bool_false; [reflexivity|lra|lra].
  - specialize (B ltac:(lia)). rewrite !Qle_bool_true; [reflexivity|lra|lra].
Qed.

Theorem close_gaps_threshold_irrelevant : forall drop l,
  (forall i s e s' oe', nth_error l i = Some (s, Some e) -> nth_error l (S i) = Some (s', oe') -> frame_gap drop e s') ->
  close_gaps join_threshold l = close_gaps thr_hi l.
Proof.
  intros drop. induction l as [|[s oe] r IH]; intro H; [reflexivity|].
  cbn [close_gaps]. f_equal.
  - destruct oe as [e|]; [|reflexivity]. destruct r as [|[s' oe'] r']; [reflexivity|].
    rewrite (frame_gap_same_test drop e s'); [reflexivity|]. apply (H 0%nat s e s' oe'); reflexivity.
  - apply IH. intros i a e a' oe' H1 H2. apply (H (S i) a e a' oe'); assumption.
Qed.

(* ---- 4c. expected_with respects pointwise == of the event instants ------------------------------- *)
Definition oq_eq (a b : option Q) : Prop :=
  match a, b with Some x, Some y => x == y | None, None => True | _, _ => False end.
Definition rspan_eq (a b : Q * option Q) : Prop := fst a == fst b /\ oq_eq (snd a) (snd b).
Definition span_eq (a b : Q * Q) : Prop := fst a == fst b /\ snd a == snd b.
Definition res_span_eq (a b : result (list (Q * Q))) : Prop :=
  match a, b with Ok x, Ok y => Forall2 span_eq x y | Err e, Err e' => e = e' | _, _ => False end.

Lemma ev_eq_time : forall a b, ev_eq a b -> ev_time a == ev_time b.
Proof. intros [x|x] [y|y] H; cbn [ev_eq ev_time] in *; try contradiction; exact H. Qed.

Lemma raw_spans_compat : forall evs evs', Forall2 ev_eq evs evs' -> forall sh sh', oq_eq sh sh' ->
  Forall2 rspan_eq (raw_spans evs sh) (raw_spans evs' sh').
Proof.
  induction 1 as [|a b evs evs' Hab Hr IH]; intros sh sh' Hs.
  - destruct sh as [s|], sh' as [s'|]; cbn [oq_eq] in Hs; try contradiction; cbn [raw_spans]; constructor.
    + split; [exact Hs|exact I].
    + constructor.
  - rewrite !raw_spans_cons. apply Forall2_app.
    + destruct sh as [s|], sh' as [s'|]; cbn [oq_eq] in Hs; try contradiction; constructor; [|constructor].
      split; [exact Hs|exact (ev_eq_time a b Hab)].
    + apply IH. destruct a, b; cbn [ev_eq] in Hab; try contradiction; [exact Hab|exact I].
Qed.

Lemma close_gaps_compat : forall thr l l', Forall2 rspan_eq l l' ->
  Forall2 span_eq (close_gaps thr l) (close_gaps thr l').
Proof.
  intros thr. induction 1 as [|[s oe] [s' oe'] r r' [Hs Ho] Hr IH]; [constructor|].
  cbn [fst snd] in Hs, Ho. cbn [close_gaps]. constructor; [|exact IH].
  split; cbn [fst snd]; [exact Hs|].
  destruct oe as [e|], oe' as [e'|]; cbn [oq_eq] in Ho; try contradiction.
  - destruct Hr as [|[n on] [n' on'] t t' [Hn _] _]; [exact Ho|]. cbn [fst] in Hn.
    rewrite (Qleb_comp thr thr (Qeq_refl thr) (n - e) (n' - e')) by (rewrite Hn, Ho; reflexivity).
    destruct (Qle_bool thr (n' - e')); assumption.
  - rewrite Hs. reflexivity.
Qed.

Lemma flash_compat : forall p q, span_eq p q -> flash p = flash q.
Proof.
  intros p q [H1 H2]. unfold flash. cbv zeta.
  assert (E : snd p - fst p == snd q - fst q) by (rewrite H1, H2; reflexivity).
  rewrite (Qleb_comp _ _ E 0 0 (Qeq_refl 0)), (Qleb_comp _ _ (Qeq_refl (inject_Z 50000)) _ _ E). reflexivity.
Qed.

Lemma existsb_flash_compat : forall l l', Forall2 span_eq l l' -> existsb flash l = existsb flash l'.
Proof.
  induction 1 as [|p q l l' Hpq _ IH]; [reflexivity|]. cbn [existsb]. rewrite (flash_compat p q Hpq), IH. reflexivity.
Qed.

Theorem expected_with_compat : forall thr evs evs', Forall2 ev_eq evs evs' ->
  res_span_eq (expected_with thr evs) (expected_with thr evs').
Proof.
  intros thr evs evs' H. unfold expected_with. cbv zeta.
  assert (C : Forall2 span_eq (close_gaps thr (raw_spans evs None)) (close_gaps thr (raw_spans evs' None))).
  { apply close_gaps_compat. apply raw_spans_compat; [exact H|exact I]. }
  rewrite (existsb_flash_compat _ _ C). destruct (existsb flash _); [reflexivity|].
  destruct C as [|p q l l' Hpq Hl]; [reflexivity|]. cbn [res_span_eq]. constructor; assumption.
Qed.

(* ---- 4d. instants that are not floored lie on the frame lattice of their rate, shifted by the offset ---- *)
Definition on_lattice (drop : bool) (off t : Q) : Prop :=
  exists n : Z, t == inject_Z n * ((inject_Z 1000000 / inject_Z 30) * rate drop) - off.

Lemma spec_instant_lattice : forall tc k off, 0 < spec_instant tc k off ->
  on_lattice (tc_drop tc) off (spec_instant tc k off).
Proof.
  intros tc k off. unfold spec_instant, qmax0. cbv zeta.
  match goal with |- context [Qle_bool 0 ?x] => destruct (Qle_bool 0 x) end.
  2:{ intro H. exfalso. exact (Qlt_irrefl _ H). }
  intros _. exists ((3600 * tc_h tc + 60 * tc_m tc + tc_s tc) * 30 + (tc_f tc + k))%Z.
  generalize (3600 * tc_h tc + 60 * tc_m tc + tc_s tc)%Z (tc_f tc + k)%Z. intros S F.
  rewrite inject_Z_plus, inject_Z_mult. unfold million, rate.
  destruct (tc_drop tc); field; discriminate.
Qed.

Lemma lattice_frame_gap : forall drop off a b, on_lattice drop off a -> on_lattice drop off b -> frame_gap drop a b.
Proof.
  intros drop off a b [na Ha] [nb Hb]. exists (nb + - na)%Z. rewrite inject_Z_plus, inject_Z_opp, Ha, Hb. ring.
Qed.

(* every start and every explicit end of the raw spans is the instant of an event (or the pending start) *)
Lemma raw_spans_times : forall (P : Q -> Prop) evs shown,
  (forall e, In e evs -> P (ev_time e)) -> (forall s, shown = Some s -> P s) ->
  Forall (fun p => P (fst p) /\ forall e, snd p = Some e -> P e) (raw_spans evs shown).
Proof.
  intros P. induction evs as [|e evs IH]; intros shown He Hs.
  - destruct shown as [s|]; cbn [raw_spans]; constructor; [|constructor].
    split; cbn [fst snd]; [apply Hs; reflexivity|discriminate].
  - assert (Pe : P (ev_time e)) by (apply He; left; reflexivity).
    rewrite raw_spans_cons. apply Forall_app. split.
    + destruct shown as [s|]; constructor; [|constructor]. split; cbn [fst snd]; [apply Hs; reflexivity|].
      intros x [= <-]. exact Pe.
    + apply IH; [intros x Hx; apply He; right; exact Hx|]. destruct e; intros s [= <-]. exact Pe.
Qed.

Lemma raw_spans_frame_gaps : forall drop off evs,
  (forall e, In e evs -> on_lattice drop off (ev_time e)) ->
  forall i s e s' oe', nth_error (raw_spans evs None) i = Some (s, Some e) ->
                       nth_error (raw_spans evs None) (S i) = Some (s', oe') -> frame_gap drop e s'.
Proof.
  intros drop off evs H i s e s' oe' H1 H2.
  pose proof (raw_spans_times (on_lattice drop off) evs None H ltac:(discriminate)) as F. rewrite Forall_forall in F.
  destruct (F _ (nth_error_In _ _ H1)) as [_ A]. destruct (F _ (nth_error_In _ _ H2)) as [B _].
  exact (lattice_frame_gap drop off _ _ (A e eq_refl) B).
Qed.

Theorem expected_threshold_irrelevant : forall drop off evs,
  (forall e, In e evs -> on_lattice drop off (ev_time e)) ->
  expected_with join_threshold evs = expected_with thr_hi evs.
Proof.
  intros drop off evs H. unfold expected_with.
  rewrite (close_gaps_threshold_irrelevant drop _ (raw_spans_frame_gaps drop off evs H)). reflexivity.
Qed.

(* ---- 4e. the composition ------------------------------------------------------------------------- *)
Definition tseg_tc (s : tseg) : timecode := match s with TLoad tc _ => tc | TClear tc => tc end.

Lemma tseg_ok8 : forall segs, forallb tseg_wf segs = true -> forallb pseg_ok8 (map tseg_pseg segs) = true.
Proof.
  induction segs as [|s segs IH]; intro H; [reflexivity|].
  cbn [forallb] in H. apply andb_prop in H. destruct H as [Hs H]. cbn [map forallb]. rewrite (IH H), andb_true_r.
  destruct s as [tc l|tc]; [|reflexivity]. cbn [tseg_wf] in Hs. apply andb_prop in Hs. destruct Hs as [_ Hl]. exact Hl.
Qed.

Lemma positive_compat : forall evs evs', Forall2 ev_eq evs evs' -> positive evs' -> positive evs.
Proof.
  induction 1 as [|a b evs evs' Hab _ IH]; intros Hp e He; [destruct He|].
  destruct He as [<-|He].
  - rewrite (ev_eq_time _ _ Hab). apply Hp. left. reflexivity.
  - apply IH; [|exact He]. intros x Hx. apply Hp. right. exact Hx.
Qed.

Lemma spec_events_lattice : forall d off drop segs,
  (forall s, In s segs -> tc_drop (tseg_tc s) = drop) -> positive (map (tseg_spec_event d off) segs) ->
  forall e, In e (map (tseg_spec_event d off) segs) -> on_lattice drop off (ev_time e).
Proof.
  intros d off drop segs Hd Hp e He. pose proof (Hp e He) as Pe.
  apply in_map_iff in He. destruct He as (s & <- & Hs). rewrite <- (Hd s Hs).
  destruct s as [tc l|tc]; cbn [tseg_spec_event ev_time tseg_tc] in *; apply spec_instant_lattice; exact Pe.
Qed.

(* For a stream of loads and clear lines stamped with rendered well-formed timecodes of one rate, any offset that
   leaves every instant of the statement positive (so nothing is floored): what `read` returns carries - each span
   repeated once per caption of its load - spans pointwise == to the statement's own spans (threshold
   "five frames + 1 microsecond") of the statement's own instants; errors coincide. *)
Theorem read_is_statement_spans : forall d off drop segs,
  forallb tseg_wf segs = true ->
  (forall s, In s segs -> tc_drop (tseg_tc s) = drop) ->
  positive (map (tseg_spec_event d off) segs) ->
  exists r, spans_of (read off (map (pseg_line d) (map tseg_pseg segs)))
            = rmap (fun spans => flat_map bspans (combine (ploads_of (map tseg_pseg segs)) spans)) r /\
            res_span_eq r (expected_with thr_hi (map (tseg_spec_event d off) segs)).
Proof.
  intros d off drop segs Hwf Hd Hp.
  destruct (events_are_spec_instants d off segs Hwf) as (evs & E & F).
  pose proof (positive_compat _ _ F Hp) as Hp'.
  exists (expected_with join_threshold evs). split.
  - apply popon_times; [apply tseg_ok8; exact Hwf|exact E|exact Hp'].
  - rewrite <- (expected_threshold_irrelevant drop off _ (spec_events_lattice d off drop segs Hd Hp)).
    apply expected_with_compat. exact F.
Qed.

(* 5. non-vacuity: a concrete two-load program with rendered non-drop timecodes                      *)

Definition ex_tsegs : list tseg :=
  [TLoad (mkTc 0 0 1 false 0) [mkRow 15 0 0 0 [Ch 97]]; TClear (mkTc 0 0 3 false 0);
   TLoad (mkTc 0 0 5 false 0) [mkRow 14 4 0 0 [Ch 98; Mid 14; Ch 99]]].
Definition ex_evs : list ev := [Show (3403400 # 3); Clear 3003000; Show 5205200].

(* every hypothesis of read_start_le_end and of read_is_statement_spans holds for it (single control codes, offset 0) *)
Example ex_hyps :
  forallb tseg_wf ex_tsegs = true /\
  (forall s, In s ex_tsegs -> tc_drop (tseg_tc s) = false) /\
  positive (map (tseg_spec_event false 0) ex_tsegs) /\
  forallb pseg_ok8 (map tseg_pseg ex_tsegs) = true /\
  res_map (pseg_event false 0) (map tseg_pseg ex_tsegs) = Ok ex_evs /\
  positive ex_evs /\ nondecreasing 0 ex_evs.
Proof.
  split; [vm_compute; reflexivity|]. split; [intros s [<-|[<-|[<-|[]]]]; reflexivity|].
  split; [intros e [<-|[<-|[<-|[]]]]; vm_compute; reflexivity|].
  split; [vm_compute; reflexivity|]. split; [vm_compute; reflexivity|].
  split; [intros e [<-|[<-|[<-|[]]]]; reflexivity|].
  cbn [nondecreasing ex_evs ev_time]. repeat split; apply Qle_bool_iff; vm_compute; reflexivity.
Qed.

Example ex_read_start_le_end :
  exists caps, read 0 (map (pseg_line false) (map tseg_pseg ex_tsegs)) = ROk caps /\ length caps = 2%nat /\
    Forall (fun c => (pc_start c <= pc_end c)%Q) caps /\
    (forall i a b, nth_error caps i = Some a -> nth_error caps (S i) = Some b -> (pc_start a <= pc_start b)%Q).
Proof.
  assert (R : exists caps, read 0 (map (pseg_line false) (map tseg_pseg ex_tsegs)) = ROk caps /\ length caps = 2%nat)
    by (vm_compute; eexists; split; reflexivity).
  destruct R as (caps & R & L). exists caps. split; [exact R|]. split; [exact L|].
  destruct ex_hyps as (_ & _ & _ & H1 & H2 & H3 & H4).
  exact (read_start_le_end false 0 (map tseg_pseg ex_tsegs) ex_evs caps H1 H2 H3 H4 R).
Qed.

(* the spans read and the statement's spans of the statement's instants: == pointwise, not syntactically equal *)
Example ex_statement_spans :
  spans_of (read 0 (map (pseg_line false) (map tseg_pseg ex_tsegs)))
  = Ok [(3403400 # 3, 3003000%Q); (5205200%Q, 9205200%Q)] /\
  expected_with thr_hi (map (tseg_spec_event false 0) ex_tsegs)
  = Ok [(34034000000 # 30000, 90090000000 # 30000); (156156000000 # 30000, 276156000000 # 30000)] /\
  exists r, spans_of (read 0 (map (pseg_line false) (map tseg_pseg ex_tsegs)))
            = rmap (fun spans => flat_map bspans (combine (ploads_of (map tseg_pseg ex_tsegs)) spans)) r /\
            res_span_eq r (expected_with thr_hi (map (tseg_spec_event false 0) ex_tsegs)).
Proof.
  split; [vm_compute; reflexivity|]. split; [vm_compute; reflexivity|].
  destruct ex_hyps as (H1 & H2 & H3 & _). exact (read_is_statement_spans false 0 false ex_tsegs H1 H2 H3).
Qed.

(* Remarks:
   - read_is_statement_spans assumes every instant of the statement positive (no flooring). With flooring the event
     gaps are not whole frames, and an instant floored to 0 meets the known end-0 sentinel defect
     (SccPoponFacts.end_zero_sentinel_refuted, at the level of events); `positive` is also a hypothesis of popon_times.
   - the result is stated for spans up to == (res_span_eq): get_time reduces its fraction (Qred), the statement's
     spec_instant does not, so the two sides are equal as rationals and not as pairs of integers (ex_statement_spans). *)
