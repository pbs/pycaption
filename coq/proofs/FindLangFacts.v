(* C14: find_lang (model.Langs) against the specification spec.SpecFindLang; the written class read back. *)
From Coq Require Import List ZArith Lia Bool ZifyBool.
From PV Require Import lib.Sx lib.Str lib.StrFacts lib.Result model.Langs spec.SpecLangs spec.SpecFindLang model.LangsMerge proofs.LangsFacts.
Import ListNotations.
Open Scope Z_scope.

Lemma sheet_lookup_dict_get : forall c sheet, sheet_lookup c sheet = dict_get c sheet.
Proof. induction sheet as [|[k v] t IH]; [reflexivity|]. cbn [sheet_lookup dict_get]. rewrite IH. reflexivity. Qed.

(* one step of the model = the language the head attribute names, else the rest *)
Lemma find_lang_step : forall a rest styles,
  find_lang (a :: rest) styles = match attr_names styles a with Some l => Some l | None => find_lang rest styles end.
Proof.
  intros [name value] rest styles. cbn [find_lang]. unfold attr_names. cbn [fst snd]. rewrite sheet_lookup_dict_get.
  destruct (str_eqb (lower name) (lit "lang")); [reflexivity|].
  destruct (str_eqb (lower name) (lit "class")); [|reflexivity].
  destruct (dict_get (lower value) styles) as [[l|]|]; reflexivity.
Qed.

Lemma find_lang_hd : forall attrs styles, find_lang attrs styles = hd_error (named_langs styles attrs).
Proof.
  induction attrs as [|a t IH]; intros styles; [reflexivity|]. rewrite find_lang_step. unfold named_langs. cbn [flat_map].
  fold (named_langs styles t). destruct (attr_names styles a); [reflexivity|]. cbn [app]. apply IH.
Qed.

(* the model finds what the specification says: the first attribute that names a language decides *)
Theorem find_lang_first_decider : forall attrs styles, spec_find_lang styles attrs (find_lang attrs styles).
Proof.
  induction attrs as [|a t IH]; intros styles; [constructor|]. rewrite find_lang_step.
  destruct (attr_names styles a) as [l|] eqn:E.
  - exists [], a, t. split; [reflexivity|split; [constructor|exact E]].
  - specialize (IH styles). destruct (find_lang t styles) as [l|].
    + destruct IH as [pre [b [post [H1 [H2 H3]]]]]. exists (a :: pre), b, post. subst t.
      split; [reflexivity|split; [constructor; [exact E|exact H2]|exact H3]].
    + constructor; [exact E|exact IH].
Qed.

(* ... and the specification determines the result: nothing else satisfies it *)
Theorem find_lang_unique : forall attrs styles r, spec_find_lang styles attrs r -> r = find_lang attrs styles.
Proof.
  induction attrs as [|a t IH]; intros styles r H.
  - destruct r as [l|]; [|reflexivity]. destruct H as [[|p pre] [b [post [H1 _]]]]; discriminate.
  - rewrite find_lang_step. destruct r as [l|].
    + destruct H as [[|p pre] [b [post [H1 [H2 H3]]]]]; injection H1 as -> ->.
      * rewrite H3. reflexivity.
      * rewrite (Forall_inv H2). apply IH. exists pre, b, post. split; [reflexivity|split; [exact (Forall_inv_tail H2)|exact H3]].
    + rewrite (Forall_inv H). apply IH. exact (Forall_inv_tail H).
Qed.

Lemma ostr_eqb_eq : forall a b, ostr_eqb a b = true <-> a = b.
Proof.
  intros [a|] [b|]; cbn; split; intros H; try discriminate; try reflexivity.
  - apply str_eqb_eq in H. subst. reflexivity.
  - inversion H; subst. apply str_eqb_refl.
Qed.

Theorem find_lang_meets_oracle : forall attrs styles, ok_find_lang styles attrs (find_lang attrs styles) = true.
Proof. intros. unfold ok_find_lang. apply ostr_eqb_eq. apply find_lang_hd. Qed.

(* the decidable oracle says exactly what the relational specification says *)
Theorem ok_find_lang_iff_spec : forall attrs styles r, ok_find_lang styles attrs r = true <-> spec_find_lang styles attrs r.
Proof.
  intros attrs styles r. unfold ok_find_lang. rewrite ostr_eqb_eq, <- find_lang_hd. split; intros H.
  - subst. apply find_lang_first_decider.
  - apply find_lang_unique. exact H.
Qed.

(* attributes that name no language (id=, style=, a class without a language, an unknown class) can be added or
   removed anywhere without changing the language found *)
Theorem find_lang_ignores_silent : forall attrs styles,
  find_lang (filter (fun a => match attr_names styles a with Some _ => true | None => false end) attrs) styles
  = find_lang attrs styles.
Proof.
  induction attrs as [|a t IH]; intros styles; [reflexivity|]. cbn [filter]. rewrite (find_lang_step a t).
  destruct (attr_names styles a) as [l|] eqn:E; [rewrite find_lang_step, E; reflexivity|apply IH].
Qed.

(* the case of attribute names and of class values does not matter *)
Lemma lower_ch_idem : forall c, lower_ch (lower_ch c) = lower_ch c.
Proof. intros c. unfold lower_ch. destruct ((65 <=? c) && (c <=? 90)) eqn:E; [|rewrite E; reflexivity]. replace ((65 <=? c + 32) && (c + 32 <=? 90)) with false by lia. reflexivity. Qed.
Lemma lower_idem : forall s, lower (lower s) = lower s.
Proof. intros s. unfold lower. rewrite map_map. apply map_ext. apply lower_ch_idem. Qed.

Theorem find_lang_case_insensitive : forall attrs styles,
  find_lang (map (fun a => (lower (fst a), if str_eqb (lower (fst a)) (lit "class") then lower (snd a) else snd a)) attrs) styles
  = find_lang attrs styles.
Proof.
  induction attrs as [|[n v] t IH]; intros styles; [reflexivity|]. cbn [map fst snd]. rewrite !find_lang_step, IH.
  unfold attr_names. cbn [fst snd]. rewrite lower_idem.
  destruct (str_eqb (lower n) (lit "lang")) eqn:E1.
  - apply str_eqb_eq in E1. rewrite E1. reflexivity.
  - destruct (str_eqb (lower n) (lit "class")); [rewrite lower_idem|]; reflexivity.
Qed.

(* ---- the language a paragraph is listed under, and the reader model with the SPECIFICATION's tags ---------------- *)
Theorem p_lang_is_spec : forall default attrs styles, p_lang default attrs styles = spec_p_lang default styles attrs.
Proof. intros. unfold p_lang, spec_p_lang. rewrite find_lang_hd. reflexivity. Qed.

Definition spec_tagged (default : str) (styles : fl_sheet) (ps : list sami_p) : list (str * scue * bool) :=
  map (fun p => (spec_p_lang default styles (sp_attrs p), (sp_start p * 1000, sp_text p), is_blank_text (sp_text p))) ps.

Theorem sami_read_groups_by_spec_lang : forall default styles ps,
  sami_read default styles ps
  = spec_group (map (fun t : str * scue * bool => (fst (fst t), if snd t then @nil scue else [snd (fst t)]))
                    (spec_tagged default styles ps))
  /\ ok_sami_read (spec_tagged default styles ps) (sami_read default styles ps) = true.
Proof.
  intros. assert (E : spec_tagged default styles ps = sami_tagged default styles ps).
  { unfold spec_tagged, sami_tagged, tag_of. apply map_ext. intros p. rewrite p_lang_is_spec. reflexivity. }
  rewrite E. split; [apply sami_read_groups|apply sami_read_meets_oracle].
Qed.

Lemma first_seen_uniq : forall ls seen, first_seen seen ls = filter (fun x => negb (mem x seen)) (uniq ls).
Proof.
  induction ls as [|l t IH]; intros seen; [reflexivity|]. cbn [first_seen uniq filter]. fold (mem l seen).
  rewrite !IH, filter_filter. destruct (mem l seen) eqn:M; cbn [negb]; [|f_equal]; apply filter_ext; intros x.
  - destruct (str_eqb_spec x l) as [->|_]; [rewrite M|]; reflexivity.
  - unfold mem. cbn [existsb]. apply negb_orb.
Qed.

Lemma strs_eqb_refl : forall l, strs_eqb l l = true.
Proof. induction l as [|x l IH]; [reflexivity|]. cbn [strs_eqb]. rewrite str_eqb_refl, IH. reflexivity. Qed.

Theorem p_langs_meets_oracle : forall default styles ps,
  ok_p_langs default styles ps (fst (p_langs default styles ps)) (snd (p_langs default styles ps)) = true.
Proof.
  intros. unfold ok_p_langs, p_langs. cbn [fst snd].
  rewrite (map_ext _ (spec_p_lang default styles) (fun a => p_lang_is_spec default a styles)).
  rewrite first_appearance_uniq, first_seen_uniq, filter_true, !strs_eqb_refl. reflexivity.
Qed.

(* ---- write, then read: the class on a written paragraph, looked up in the stylesheet as the PARSER rebuilds it ---- *)
Lemma dict_get_set : forall (V : Type) k k' (v : V) d,
  dict_get k (dict_set k' v d) = if str_eqb k' k then Some v else dict_get k d.
Proof.
  induction d as [|[k0 v0] t IH]; cbn [dict_set dict_get]; [reflexivity|].
  destruct (str_eqb_spec k0 k') as [->|N]; cbn [dict_get]; [destruct (str_eqb k' k); reflexivity|].
  rewrite IH. destruct (str_eqb_spec k0 k) as [->|_]; [|reflexivity].
  rewrite (str_eqb_neq k' k) by congruence. reflexivity.
Qed.

Lemma read_fold : forall (sheet : list (str * str)) (d0 : sami_styles) c, (forall b, In b sheet -> lower (fst b) = lower c -> fst b = c) ->
  dict_get (lower c) (fold_left (fun d b => dict_set (lower (fst b)) (Some (snd b)) d) sheet d0)
  = match dict_get c (rev sheet) with Some v => Some (Some v) | None => dict_get (lower c) d0 end.
Proof.
  induction sheet as [|[k v] t IH]; intros d0 c Inj; [reflexivity|]. cbn [fold_left fst snd rev].
  rewrite IH by (intros b Hb; apply Inj; right; exact Hb). rewrite dict_get_app.
  destruct (dict_get c (rev t)); [reflexivity|]. rewrite dict_get_set. cbn [dict_get].
  destruct (str_eqb_spec k c) as [->|N]; [rewrite str_eqb_refl; reflexivity|].
  destruct (str_eqb_spec (lower k) (lower c)) as [E|_]; [|reflexivity]. destruct N. exact (Inj (k, v) (or_introl eq_refl) E).
Qed.

Theorem read_styles_last_block_wins : forall (sheet : list (str * str)) c,
  (forall b, In b sheet -> lower (fst b) = lower c -> fst b = c) ->
  dict_get (lower c) (read_styles sheet) = option_map Some (resolve_class c sheet).
Proof.
  intros sheet c Inj. unfold read_styles, resolve_class. rewrite read_fold by exact Inj.
  destruct (dict_get c (rev sheet)); reflexivity.
Qed.

Lemma dict_get_some_in : forall (V : Type) c (d : list (str * V)) v, dict_get c d = Some v -> In c (map fst d).
Proof.
  induction d as [|[k v0] t IH]; intros v H; [discriminate|]. cbn [dict_get] in H.
  destruct (str_eqb_spec k c) as [E|_]; [left; exact E|right; exact (IH v H)].
Qed.

Lemma sheet_langs_keys : forall styles langs b, In b (sheet_langs styles langs) -> In (fst b) (map fst styles ++ langs).
Proof.
  intros styles langs b H. unfold sheet_langs in H. apply in_app_iff. apply in_app_iff in H.
  destruct H as [H|H]; apply in_flat_map in H; destruct H as [x [H1 H2]].
  - left. destruct x as [k [l|]]; cbn [fst snd] in H2; [|destruct H2]. destruct H2 as [<-|[]]. apply (in_map fst _ _ H1).
  - right. destruct (dict_get x styles) as [[l'|]|]; [destruct (str_eqb l' x); [destruct H2|]| |];
      destruct H2 as [<-|[]]; exact H1.
Qed.

Lemma p_class_key : forall styles langs l cap_class, In l langs -> In (p_class l cap_class styles) (map fst styles ++ langs).
Proof.
  intros styles langs l cap_class Hl. apply in_app_iff. unfold p_class. destruct cap_class as [c|]; [|right; exact Hl].
  destruct (dict_get c styles) as [[l0|]|] eqn:D; try (right; exact Hl).
  destruct (str_eqb l0 l); [left; eapply dict_get_some_in; exact D|right; exact Hl].
Qed.

(* write-then-read at the class layer: whatever class a caption carries, the paragraph the writer emits for it under
   language l is read back under l - its class, lower-cased, looked up in the dict the parser rebuilds from the
   written stylesheet, a later block replacing an earlier one.  Hypotheses: those of C14_class_resolves, a non-empty
   language name, and no two different names among the style classes and languages coincide in lower case *)
Theorem written_class_read_back : forall default styles langs l cap_class,
  NoDup (map fst styles) -> NoDup langs -> In l langs -> l <> [] ->
  (forall l0 l', In l0 langs -> dict_get l0 styles = Some (Some l') -> l' = l0) ->
  (forall a b, In a (map fst styles ++ langs) -> In b (map fst styles ++ langs) -> lower a = lower b -> a = b) ->
  reread_lang default (p_class l cap_class styles) (sheet_langs styles langs) = l.
Proof.
  intros default styles langs l cap_class Ns Nl Hl Ne Hc Inj. unfold reread_lang, p_lang. cbn [find_lang].
  change (str_eqb (lower (lit "class")) (lit "lang")) with false.
  change (str_eqb (lower (lit "class")) (lit "class")) with true. cbn iota.
  rewrite read_styles_last_block_wins.
  - rewrite (class_resolves styles langs l cap_class Ns Nl Hl Hc). cbn [option_map]. destruct l; [contradiction|reflexivity].
  - intros b Hb E. apply Inj; [apply sheet_langs_keys; exact Hb|apply p_class_key; exact Hl|exact E].
Qed.
