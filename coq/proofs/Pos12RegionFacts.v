(* C12: RegionCreator's bookkeeping: the keys of the region table are pairwise different layouts, the ids are
   r0, r1, ... without gaps, equal layouts share a region and different layouts never do. *)
From Coq Require Import List ZArith Bool Lia.
From PV Require Import lib.StrFacts model.Geometry model.Positioning.
From PV Require Import proofs.Pos12Facts proofs.DfxpTreeFacts.
From PV Require Export spec.SpecPos12Regions.
Import ListNotations.
Open Scope Z_scope.

(* pairwise different under Layout.__eq__ *)
Fixpoint ldistinct (s : list layout) : Prop :=
  match s with
  | [] => True
  | k :: t => (forall x, In x t -> layout_eqb k x = false) /\ ldistinct t
  end.

Lemma ldistinct_snoc : forall s l, ldistinct s -> (forall x, In x s -> layout_eqb x l = false) -> ldistinct (s ++ [l]).
Proof.
  induction s as [|k t IH]; intros l D F; cbn [app ldistinct] in *.
  - split; [intros x []|exact I].
  - destruct D as [D1 D2]. split.
    + intros x Hx. apply in_app_or in Hx. destruct Hx as [Hx|[<-|[]]]; [apply D1; exact Hx|apply F; left; reflexivity].
    + apply IH; [exact D2|intros x Hx; apply F; right; exact Hx].
Qed.

Lemma oset_mem_false : forall l s, oset_mem l s = false -> forall x, In x s -> layout_eqb x l = false.
Proof.
  intros l s H x Hx. destruct (layout_eqb x l) eqn:E; [|reflexivity].
  assert (K : oset_mem l s = true) by (unfold oset_mem; apply existsb_exists; exists x; split; assumption).
  congruence.
Qed.

Lemma oset_add_distinct : forall s l, ldistinct s -> ldistinct (oset_add s l).
Proof.
  intros s l D. unfold oset_add. destruct (oset_mem l s) eqn:E; [exact D|].
  apply ldistinct_snoc; [exact D|apply oset_mem_false; exact E].
Qed.

Lemma collect_fold_distinct : forall ls s, ldistinct s ->
  ldistinct (fold_left (fun s o => match o with Some l => oset_add s l | None => s end) ls s).
Proof.
  induction ls as [|o ls IH]; intros s D; [exact D|]. cbn [fold_left]. apply IH.
  destruct o; [apply oset_add_distinct|]; exact D.
Qed.

Lemma filter_distinct : forall (p : layout -> bool) s, ldistinct s -> ldistinct (filter p s).
Proof.
  induction s as [|k t IH]; intros D; [exact I|]. destruct D as [D1 D2]. cbn [filter].
  destruct (p k); [|apply IH; exact D2]. cbn [ldistinct]. split; [|apply IH; exact D2].
  intros x Hx. apply filter_In in Hx. apply D1. exact (proj1 Hx).
Qed.

(* among pairwise different members at most one equals d, so discard(d) leaves none that does *)
Lemma discard_filter : forall d s, ldistinct s -> oset_discard d s = filter (fun k => negb (layout_eqb k d)) s.
Proof.
  induction s as [|k t IH]; intros D; [reflexivity|]. destruct D as [D1 D2]. cbn [oset_discard filter].
  destruct (layout_eqb k d) eqn:E; cbn [negb]; [|rewrite IH; trivial].
  symmetry. apply filter_all. intros x Hx. apply negb_true_iff. destruct (layout_eqb x d) eqn:E2; [|reflexivity].
  rewrite <- (D1 x Hx). symmetry. eapply layout_eqb_trans; [exact E|]. rewrite layout_eqb_sym. exact E2.
Qed.

Lemma collect_regions_filter : forall ls, collect_regions ls
  = filter (fun k => negb (layout_eqb k dfxp_default_region))
           (fold_left (fun s o => match o with Some l => oset_add s l | None => s end) ls []).
Proof. intros ls. apply discard_filter, collect_fold_distinct. exact I. Qed.

Lemma collect_distinct : forall ls, ldistinct (collect_regions ls).
Proof. intros ls. rewrite collect_regions_filter. apply filter_distinct, collect_fold_distinct. exact I. Qed.

(* ---- _create_unique_regions: keys and ids ----------------------------------------------------------------------- *)
Lemma number_regions_keys : forall s seed, map fst (number_regions s seed) = filter has_region s.
Proof.
  induction s as [|k t IH]; intros seed; [reflexivity|]. cbn [number_regions filter].
  destruct (has_region k); [cbn [map fst]; rewrite IH; reflexivity|apply IH].
Qed.

Lemma number_regions_ids : forall s seed,
  map snd (number_regions s seed)
  = map (fun n => RId (seed + Z.of_nat n)) (seq 0 (length (filter has_region s))).
Proof.
  induction s as [|k t IH]; intros seed; [reflexivity|]. cbn [number_regions filter].
  destruct (has_region k); [|apply IH]. cbn [map snd length seq]. f_equal; [f_equal; lia|].
  rewrite IH, <- seq_shift, map_map. apply map_ext. intros n. f_equal. lia.
Qed.

Theorem region_map_keys : forall ls, map fst (region_map ls) = created_keys ls ++ [dfxp_default_region].
Proof. intros ls. unfold region_map. rewrite map_app, number_regions_keys. reflexivity. Qed.

(* ids r0, r1, ..., r(n-1) in creation order, no gap, no repetition; then the default region *)
Theorem region_map_ids : forall ls,
  map snd (region_map ls) = map (fun n => RId (Z.of_nat n)) (seq 0 (length (created_keys ls))) ++ [RDefault].
Proof. intros ls. unfold region_map. rewrite map_app, number_regions_ids. reflexivity. Qed.

(* every created region comes from a layout that occurs in the caption set *)
Lemma oset_add_in : forall s l x, In x (oset_add s l) -> In x s \/ x = l.
Proof.
  intros s l x H. unfold oset_add in H. destruct (oset_mem l s); [left; exact H|].
  apply in_app_or in H. destruct H as [H|[<-|[]]]; [left; exact H|right; reflexivity].
Qed.

Lemma collect_fold_in : forall ls s x,
  In x (fold_left (fun s o => match o with Some l => oset_add s l | None => s end) ls s) -> In x s \/ In (Some x) ls.
Proof.
  induction ls as [|o ls IH]; intros s x H; [left; exact H|]. cbn [fold_left] in H. apply IH in H.
  destruct H as [H|H]; [|right; right; exact H]. destruct o as [l|]; [|left; exact H].
  apply oset_add_in in H. destruct H as [H| ->]; [left; exact H|right; left; reflexivity].
Qed.

Theorem created_keys_occur : forall ls k, In k (created_keys ls) ->
  In (Some k) ls /\ has_region k = true /\ layout_eqb k dfxp_default_region = false.
Proof.
  intros ls k H. unfold created_keys in H. rewrite collect_regions_filter in H.
  apply filter_In in H. destruct H as [H R]. apply filter_In in H. destruct H as [H N].
  split; [|split; [exact R|apply negb_true_iff; exact N]].
  apply collect_fold_in in H. destruct H as [[]|H]. exact H.
Qed.

(* no two regions of the table are made from equal layouts (the default region included) *)
Theorem region_map_keys_distinct : forall ls, ldistinct (map fst (region_map ls)).
Proof.
  intros ls. rewrite region_map_keys. apply ldistinct_snoc.
  - apply filter_distinct. apply collect_distinct.
  - intros x Hx. exact (proj2 (proj2 (created_keys_occur ls x Hx))).
Qed.

Lemma region_map_key_occurs : forall ls k id, In (k, id) (region_map ls) -> In (Some k) ls \/ k = dfxp_default_region.
Proof.
  intros ls k id H. apply (in_map fst) in H. cbn [fst] in H. rewrite region_map_keys in H. apply in_app_or in H.
  destruct H as [H|[<-|[]]]; [left; exact (proj1 (created_keys_occur ls k H))|right; reflexivity].
Qed.

Lemma layout_eqb_congr : forall a b, layout_eqb a b = true -> forall k, layout_eqb k a = layout_eqb k b.
Proof.
  intros a b H k. destruct (layout_eqb k a) eqn:E1, (layout_eqb k b) eqn:E2; try reflexivity; exfalso.
  - rewrite (layout_eqb_trans _ _ _ E1 H) in E2. discriminate.
  - rewrite layout_eqb_sym in H. rewrite (layout_eqb_trans _ _ _ E2 H) in E1. discriminate.
Qed.

Lemma find_ext' : forall {A} (f g : A -> bool) l, (forall x, f x = g x) -> List.find f l = List.find g l.
Proof.
  intros A f g l H. induction l as [|x l IH]; [reflexivity|]. cbn [List.find]. rewrite H, IH. reflexivity.
Qed.

(* equal layouts get the same region, in ANY table (dict.get with coherent eq / hash) *)
Theorem region_lookup_compat : forall m a b, layout_eqb a b = true -> region_lookup m (Some a) = region_lookup m (Some b).
Proof.
  intros m a b H. unfold region_lookup.
  rewrite (find_ext' (fun kv => layout_eqb (fst kv) a) (fun kv => layout_eqb (fst kv) b)); [reflexivity|].
  intros kv. apply layout_eqb_congr. exact H.
Qed.

(* a layout that occurs and needs a region finds the entry made from an equal layout (the default region's included) *)
Lemma region_lookup_found : forall ls a, In (Some a) ls -> has_region a = true ->
  exists k id, In (k, id) (region_map ls) /\ layout_eqb k a = true /\ region_lookup (region_map ls) (Some a) = id.
Proof.
  intros ls a Hin R. unfold region_lookup.
  destruct (List.find (fun kv => layout_eqb (fst kv) a) (region_map ls)) as [[k id]|] eqn:F.
  - apply find_some in F. destruct F as [I1 E1]. exists k, id. split; [exact I1|split; [exact E1|reflexivity]].
  - exfalso. destruct (layout_eqb a dfxp_default_region) eqn:D.
    + pose proof (find_none _ _ F _ (region_map_default ls)) as K. cbn [fst] in K. rewrite layout_eqb_sym in K. congruence.
    + destruct (region_lookup_total ls a Hin R D) as (k & id & _ & _ & L). unfold region_lookup in L. rewrite F in L. discriminate.
Qed.

(* layouts of the caption set that need a region share one EXACTLY when they are equal *)
Theorem region_shared_iff_equal : forall ls a b, In (Some a) ls -> In (Some b) ls -> has_region a = true -> has_region b = true ->
  (region_lookup (region_map ls) (Some a) = region_lookup (region_map ls) (Some b) <-> layout_eqb a b = true).
Proof.
  intros ls a b Ha Hb Ra Rb. split; [|apply region_lookup_compat].
  intros E. destruct (region_lookup_found ls a Ha Ra) as (ka & ia & Ia & Ea & La).
  destruct (region_lookup_found ls b Hb Rb) as (kb & ib & Ib & Eb & Lb).
  rewrite La, Lb in E. subst ib. pose proof (region_map_ids_unique ls _ _ _ Ia Ib) as K. subst kb.
  eapply layout_eqb_trans; [|exact Eb]. rewrite layout_eqb_sym. exact Ea.
Qed.

(* whatever is looked up, the id returned names a region of the table *)
Theorem region_lookup_defined : forall ls o, exists k, In (k, region_lookup (region_map ls) o) (region_map ls).
Proof.
  intros ls [a|]; cbn [region_lookup]; [|exists dfxp_default_region; apply region_map_default].
  destruct (List.find (fun kv => layout_eqb (fst kv) a) (region_map ls)) as [[k id]|] eqn:F.
  - apply find_some in F. exists k. exact (proj1 F).
  - exists dfxp_default_region. apply region_map_default.
Qed.
