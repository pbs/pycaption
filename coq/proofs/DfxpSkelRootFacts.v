(* C07: the first event of the rendered document - the root is tt, its attributes (sorted) are read back
   with their values: the TTML namespace on xmlns, the language code on xml:lang. *)
From Coq Require Import List ZArith.
From PV Require Import lib.Str model.DfxpSkel spec.SpecXmlAttr spec.SpecXmlDoc.
From PV Require Import proofs.DfxpPayloadFacts proofs.DfxpSkelFacts.
Import ListNotations.
Open Scope Z_scope.

(* events are only added *)
Lemma xstep_ev : forall s c t, xstep s c = Some t -> exists l, p_ev t = l ++ p_ev s.
Proof.
  intros [stack ev tag attrs aname m] c t H. cbn [p_ev].
  destruct m; cbn [xstep] in H;
    repeat match type of H with
           | context [if ?b then _ else _] => destruct b
           | context [match ?x with _ => _ end] => destruct x eqn:?
           end; try discriminate; inversion H; subst; cbn [p_ev];
    try (exists []; reflexivity); try (eexists [_]; reflexivity); try (eexists [_; _]; reflexivity).
  all: try (eexists; reflexivity).
Qed.
Lemma dstep_ev : forall ph s c ph' t, dstep (ph, s) c = Some (ph', t) -> exists l, p_ev t = l ++ p_ev s.
Proof.
  intros ph s c ph' t H. unfold dstep in H. cbn [fst snd] in H. destruct ph.
  - destruct (is_xml_space c); [inversion H; subst; exists []; reflexivity|]. destruct (c =? 60); [|discriminate].
    destruct (xstep s c) eqn:X; [|discriminate]. inversion H; subst. apply (xstep_ev s c t X).
  - destruct (xstep s c) eqn:X; [|discriminate]. inversion H; subst. apply (xstep_ev s c t X).
  - destruct (is_xml_space c); [inversion H; subst; exists []; reflexivity|discriminate].
Qed.
Lemma drun_ev : forall f ph s ph' t, drun (ph, s) f = Some (ph', t) -> exists l, p_ev t = l ++ p_ev s.
Proof.
  induction f as [|c f IH]; intros ph s ph' t H; cbn [drun] in H; [inversion H; subst; exists []; reflexivity|].
  destruct (dstep (ph, s) c) as [[ph1 s1]|] eqn:D; [|discriminate]. destruct (dstep_ev ph s c ph1 s1 D) as [l1 E1].
  destruct (IH ph1 s1 ph' t H) as [l2 E2]. exists (l2 ++ l1). rewrite E2, E1, app_assoc. reflexivity.
Qed.

Theorem skeleton_root : forall d, skdoc_ok d ->
  exists rest, doc_parse (dfxp_document d) = Some (EOpen tt_name (sort_attrs (k_tt d)) :: rest).
Proof.
  intros d H. destruct (skeleton_run d H) as (f & st & R & E). destruct (drun_ev _ _ _ _ _ R) as [l El].
  exists (rev l). rewrite E, El. cbn [cst p_ev]. rewrite rev_app_distr. reflexivity.
Qed.
Lemma sort_tt_attrs : forall lang,
  sort_attrs (tt_attrs lang) = [(lit "xml:lang", lang); (lit "xmlns", ttml_ns); (lit "xmlns:tts", tts_ns)].
Proof. intros lang. reflexivity. Qed.
Lemma model_ns_are_spec_ns : ttml_ns = spec_ttml_ns /\ tts_ns = spec_tts_ns.
Proof. split; reflexivity. Qed.
Theorem document_of_captions_root : forall legacy ids lang styles regions divs,
  forallb is_xml_char lang = true ->
  Forall (fun a => attrs_ok a []) styles -> Forall (fun a => attrs_ok a []) regions ->
  Forall (fun dv => attrs_ok (fst dv) [] /\ Forall (caption_ok ids) (snd dv)) divs ->
  exists rest, doc_parse (dfxp_document (doc_of_captions legacy ids lang styles regions divs))
               = Some (EOpen (lit "tt") [(lit "xml:lang", lang); (lit "xmlns", spec_ttml_ns); (lit "xmlns:tts", spec_tts_ns)] :: rest).
Proof. intros. apply (skeleton_root (doc_of_captions legacy ids lang styles regions divs)), doc_of_captions_ok; assumption. Qed.
