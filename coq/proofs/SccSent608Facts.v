(* C16 against an independent reading of "the characters transmitted": `sentx_text` (proofs/SccConserveExtFacts.v)
   is computed with the decoder's own tables and doubling memory.  Here the decoder's edit script is proved equal to the INDEPENDENT
   `sent608` of spec/SpecScc16Sent.v (written from spec/Spec608.v only) on the domain `dom608` of well-formed
   transmissions, and the conservation theorem is restated against `sent608`.

   DOMAIN `dom608` (computational, stated with Spec608 recognisers only - no generated table):
     D1  every word is in `alpha608`: parity-correct RU2/RU3/RU4/RDC, CR, EDM, preamble address codes, tab offsets,
         special characters, extended characters, character pairs with both bytes in 0x20..0x7e (second byte may be
         the padding 0), the null filler 0x8080.  No backspace, no mid-row code (see SccConserveExtFacts), no 0x7f
         (pycaption maps the solid block to the empty string), no parity-incorrect word (pycaption's PAC table holds
         7 keys with a wrong parity bit, `pac_table_extras`), no unknown control pair.
     D2  a tab offset that is not a redundancy copy comes when the redundancy memory holds a PAC, a tab offset or
         nothing (= directly after a PAC / tab offset / ignored copy / at the start).  Needed because the reader skips
         a tab offset that does not follow a PAC WITHOUT clearing its doubling memory: in  S TO S  (S a special
         character) it takes the second S for a copy of the first.
     D3  an extended character that is not a redundancy copy comes directly after the character pair or special
         character that carries its stand-in (that special's own copy may sit in between).  Needed because the reader
         does not erase the stand-in when the preceding character is itself an extended character, and because
         the erasure must not reach across anything else.
   Also needed: the reader raises no error (`r_err ... = None`; after an error its state, hence its doubling memory,
   is frozen: `no_error_hypothesis_needed`) - implied by `read ... = ROk caps` in the composed theorem.

   RESULTS
     word_facts                      for every word of alpha608 the generated tables (is_pac, tab_of, special_of,
                                     extended_of, char_of, is_command, is_flush) agree with the Spec608 recognisers
                                     (`alpha_ok`: ten fixed words by evaluation; preamble address codes, special and
                                     extended characters, character pairs from the theorems of SccTableFacts)
     skip_decision_608               the reader's skip decision = the CEA-608 redundancy rule (non-positioning words)
     sentx_is_sent608                sentx_text = sent608 on dom608 (equality, not only up to blanks)
     rollup_painton_conserved_608    conservation against sent608
     recognisers_608, special_glyph_sound, extended_glyph_sound   the recognisers are Spec608's constructors inverted
     examples: two streams inside the domain; D2, D3 and the no-error hypothesis are each needed. *)
From Coq Require Import List ZArith QArith Lia Bool ZifyBool.
From PV Require Import lib.Sx lib.Str lib.Dec lib.Result model.GenScc model.SccLen model.SccTime model.SccStash model.SccDecoder
  spec.Spec608 proofs.SccStashFacts proofs.SccTableFacts proofs.SccItalicsFacts proofs.SccDoubleFacts
  proofs.SccConserveFacts proofs.SccConserveExtFacts.
From PV Require Import spec.SpecScc16Sent.   (* last: its `parity_ok` is the one meant below *)
Import ListNotations.
Open Scope Z_scope.

Definition dom608 (ls : list sline) : bool := dom_lines (None, false) (map snd ls).

(* ================= 1. the generated tables against the Spec608 recognisers, word by word ================= *)
Definition one (o : option Z) : option str := match o with Some g => Some [g] | None => None end.
Definition cp (w : Z) : bool := is_command w || is_pac w.
Definition cp608 (w : Z) : bool := is_flush608 w || (w =? edm608) || is_pac608 w || is_tab608 w.
Definition pairchars (w : Z) : str :=
  match char_of (hi w), char_of (lo w) with Some a, Some b => a ++ b | _, _ => [] end.
Definition chars608 (w : Z) : str := match special_glyph w with Some g => [g] | None => pair_glyphs w end.

(* the last character a character pair / special character leaves is not one pycaption takes for an extended one *)
Definition good_glyphs (w : Z) : bool :=
  if is_char_pair w || some (special_glyph w)
  then match rev (chars608 w) with c :: _ => negb (is_extended_value c) | [] => false end else true.

(* facts about the Spec608 recognisers alone, checked in the same sweep (arguments: the recognisers' values, so that
   each is evaluated once) *)
Definition consistent_of (C CP : bool) (S X : option Z) (G : str) (K P T F : bool) : bool :=
  Bool.eqb C (CP || some S || some X)
  && negb (some S && some X)
  && negb (CP && (some S || some X))
  && (negb CP || match G with [] => true | _ => false end)
  && (negb K || negb C)
  && negb (P && T)
  && negb (F && (P || T)).
Definition consistent (w : Z) : bool :=
  consistent_of (is_ctrl608 w) (cp608 w) (special_glyph w) (extended_glyph w) (pair_glyphs w) (is_char_pair w)
    (is_pac608 w) (is_tab608 w) (is_flush608 w).

Definition ostr_eqb (a b : option str) : bool :=
  match a, b with Some x, Some y => str_eqb x y | None, None => true | _, _ => false end.

Definition word_ok (w : Z) : bool :=
  Bool.eqb (is_flush w) (is_flush608 w) && Bool.eqb (is_pac w) (is_pac608 w)
  && Bool.eqb (some (tab_of w)) (is_tab608 w) && Bool.eqb (cp w) (cp608 w)
  && ostr_eqb (special_of w) (one (special_glyph w)) && ostr_eqb (extended_of w) (one (extended_glyph w))
  && str_eqb (pairchars w) (pair_glyphs w) && consistent w && good_glyphs w.

Definition r128 : list Z := zrange 0 128.

Lemma op_spec b : 0 <= odd_parity b < 256 /\ odd_parity b mod 128 = b mod 128.
Proof. unfold odd_parity. cbv zeta. destruct (Z.even _); Z.to_euclidean_division_equations; lia. Qed.

Lemma op_mod b : odd_parity (b mod 128) = odd_parity b.
Proof. unfold odd_parity. cbv zeta. rewrite Z.mod_mod by lia. reflexivity. Qed.

Lemma op_parity b : has_odd_parity (odd_parity b) = true.
Proof.
  destruct (op_spec b) as [R M]. unfold has_odd_parity.
  rewrite <- (op_mod (odd_parity b)), M, op_mod, Z.eqb_refl. lia.
Qed.

Lemma parity_op x : has_odd_parity x = true -> odd_parity (x mod 128) = x.
Proof. unfold has_odd_parity. rewrite op_mod. lia. Qed.

Lemma word_bytes b1 b2 : 0 <= b1 < 128 -> 0 <= b2 < 128 ->
  parity_ok (word b1 b2) = true /\ byte1 (word b1 b2) = b1 /\ byte2 (word b1 b2) = b2.
Proof.
  intros H1 H2. destruct (op_spec b1) as [R1 M1], (op_spec b2) as [R2 M2].
  assert (B : byte1 (word b1 b2) = b1 /\ byte2 (word b1 b2) = b2)
    by (unfold byte1, byte2, word; Z.to_euclidean_division_equations; lia).
  split; [|exact B]. unfold parity_ok. rewrite (proj1 B), (proj2 B). apply Z.eqb_refl.
Qed.

Lemma parity_bytes w : parity_ok w = true -> w / 256 = odd_parity (byte1 w) /\ w mod 256 = odd_parity (byte2 w).
Proof.
  unfold parity_ok. intros Hp. apply Z.eqb_eq in Hp. rewrite Hp at 1 3. unfold word.
  pose proof (op_spec (byte2 w)). Z.to_euclidean_division_equations. lia.
Qed.

(* the recognisers recognise nothing but Spec608's constructors *)
Lemma special_glyph_sound : forall w g, special_glyph w = Some g ->
  exists i, 0 <= i < 16 /\ w = special_word i /\ g = nth (Z.to_nat i) special_608 0.
Proof.
  intros w g H. unfold special_glyph in H.
  destruct (parity_ok w && (byte1 w =? 17) && within 48 63 (byte2 w)) eqn:E; [|discriminate]. injection H as <-.
  rewrite !andb_true_iff in E. destruct E as [[P B1] B2]. unfold parity_ok in P. apply Z.eqb_eq in P, B1.
  unfold within in B2. apply andb_true_iff in B2. destruct B2 as [L U]. apply Z.leb_le in L, U.
  exists (byte2 w - 48). split; [lia|]. split; [|reflexivity].
  unfold special_word. replace (48 + (byte2 w - 48)) with (byte2 w) by lia. rewrite <- B1. exact P.
Qed.

Lemma extended_glyph_sound : forall w g, extended_glyph w = Some g ->
  exists i, 0 <= i < 32 /\ ((w = extended1_word i /\ g = nth (Z.to_nat i) extended1_608 0) \/
                            (w = extended2_word i /\ g = nth (Z.to_nat i) extended2_608 0)).
Proof.
  intros w g H. unfold extended_glyph in H.
  destruct (parity_ok w && within 32 63 (byte2 w)) eqn:E; [|discriminate].
  apply andb_true_iff in E. destruct E as [P B2]. unfold parity_ok in P. apply Z.eqb_eq in P.
  unfold within in B2. apply andb_true_iff in B2. destruct B2 as [L U]. apply Z.leb_le in L, U.
  exists (byte2 w - 32). split; [lia|].
  destruct (Z.eqb_spec (byte1 w) 18) as [B1|_].
  - injection H as <-. left. split; [|reflexivity].
    unfold extended1_word. replace (32 + (byte2 w - 32)) with (byte2 w) by lia. rewrite <- B1. exact P.
  - destruct (Z.eqb_spec (byte1 w) 19) as [B1|_]; [|discriminate]. injection H as <-. right. split; [|reflexivity].
    unfold extended2_word. replace (32 + (byte2 w - 32)) with (byte2 w) by lia. rewrite <- B1. exact P.
Qed.

Lemma pac_row_bytes b h r : pac_row b h = Some r ->
  16 <= b <= 23 /\ 1 <= r <= 15 /\ pac_bytes r = (b, if h then 96 else 64).
Proof.
  destruct b as [|q|q]; try discriminate.
  do 5 (destruct q as [q|q|]; try discriminate); destruct h; intros E; try discriminate E;
    injection E as <-; repeat split; lia || reflexivity.
Qed.

Lemma pac_608_sound w p : pac_608 w = Some p ->
  16 <= byte1 w <= 23 /\ 64 <= byte2 w /\ exists r a, 1 <= r <= 15 /\ 0 <= a < 32 /\ w = pac_word r a.
Proof.
  unfold pac_608, byte1, byte2. cbv zeta.
  replace ((w mod 256) mod 128) with (w mod 128) by (Z.to_euclidean_division_equations; lia).
  destruct (has_odd_parity (w / 256) && has_odd_parity (w mod 256)) eqn:Hp; [|discriminate].
  apply andb_true_iff in Hp. destruct Hp as [P1 P2].
  destruct (w mod 128 <? 64) eqn:L; [discriminate|]. destruct (pac_row _ _) as [r|] eqn:R; [|discriminate]. intros _.
  apply pac_row_bytes in R. destruct R as (Hb1 & Hr & Hb). split; [exact Hb1|]. split; [lia|].
  exists r, (w mod 128 - if 96 <=? w mod 128 then 96 else 64). split; [exact Hr|].
  split; [destruct (96 <=? w mod 128) eqn:U; Z.to_euclidean_division_equations; lia|].
  unfold pac_word. rewrite Hb.
  replace (_ + (w mod 128 - _)) with ((w mod 256) mod 128) by (Z.to_euclidean_division_equations; lia).
  unfold word. rewrite (parity_op _ P1), (parity_op _ P2), Z.mul_comm. apply Z.div_mod. lia.
Qed.

Lemma some_assocz {A} w (l : list (Z * A)) : some (assocz w l) = memz w (map fst l).
Proof.
  induction l as [|[k v] t IH]; [reflexivity|]. cbn [assocz map fst memz existsb]. rewrite (Z.eqb_sym w k).
  destruct (k =? w); [reflexivity|exact IH].
Qed.

Lemma is_flush_608 w : is_flush w = is_flush608 w.
Proof.
  unfold is_flush, is_flush608. replace flush_words with [w_ru2; w_ru3; w_ru4; w_rdc; w_cr] by (vm_compute; reflexivity).
  cbn [existsb]. rewrite orb_false_r, !orb_assoc. reflexivity.
Qed.

Lemma tab_of_608 w : some (tab_of w) = is_tab608 w.
Proof. apply some_assocz. Qed.

Lemma table_keys : forallb (fun k => some (special_glyph k)) (map fst scc_special_chars) = true /\
  forallb (fun k => some (extended_glyph k)) (map fst scc_extended_chars) = true.
Proof. split; vm_compute; reflexivity. Qed.

Lemma special_of_608 w : special_of w = one (special_glyph w).
Proof.
  destruct (special_glyph w) as [g|] eqn:S.
  - destruct (special_glyph_sound w g S) as (i & Hi & -> & ->). apply special_match_608. exact Hi.
  - destruct (special_of w) eqn:E; [|reflexivity].
    assert (K : In w (map fst scc_special_chars)) by (apply assocz_key; unfold special_of in E; congruence).
    apply (all_in _ _ (proj1 table_keys)) in K. rewrite S in K. discriminate.
Qed.

Lemma extended_of_608 w : extended_of w = one (extended_glyph w).
Proof.
  destruct (extended_glyph w) as [g|] eqn:X.
  - destruct (extended_glyph_sound w g X) as (i & Hi & H). destruct (extended_match_608 i Hi) as [M1 M2].
    destruct H as [[-> ->]|[-> ->]]; assumption.
  - destruct (extended_of w) eqn:E; [|reflexivity].
    assert (K : In w (map fst scc_extended_chars)) by (apply assocz_key; unfold extended_of in E; congruence).
    apply (all_in _ _ (proj2 table_keys)) in K. rewrite X in K. discriminate.
Qed.

(* stated for any w: on a word that does not compute, say `word b1 b2`, checking `apply assocz_In` makes the kernel
   compare `pac_pos` with `assocz` along the whole table *)
Lemma is_pac_In w : is_pac w = true -> exists p, In (w, p) scc_pac.
Proof.
  unfold is_pac, pac_pos. destruct (assocz w scc_pac) as [p|] eqn:Q; [|discriminate]. intros _. exists p.
  apply assocz_In. exact Q.
Qed.

(* pycaption's PAC table also holds keys with a wrong parity bit (`pac_table_extras`) *)
Lemma is_pac_608 w : parity_ok w = true -> is_pac w = is_pac608 w.
Proof.
  intros Hp. unfold is_pac608. destruct (pac_608 w) as [p|] eqn:P.
  - destruct (pac_608_sound _ _ P) as (_ & _ & r & a & Hr & Ha & ->). unfold is_pac. rewrite pac_grid by assumption.
    reflexivity.
  - destruct (is_pac w) eqn:Q; [|reflexivity]. destruct (is_pac_In _ Q) as [p I]. destruct (parity_bytes w Hp) as [E1 E2].
    rewrite (pac_table_sound _ _ I) in P by (rewrite E1, E2, !op_parity; reflexivity). discriminate.
Qed.

(* the table entries of a word that is not a character pair hold no characters *)
Lemma pairchars_nil w : cp w = true \/ special_of w <> None \/ extended_of w <> None -> pairchars w = [].
Proof.
  intros H. unfold pairchars. destruct (proj2 (proj2 (proj2 (proj2 classes_disjoint))) w H) as [-> | ->]; [reflexivity|].
  destruct (char_of (hi w)); reflexivity.
Qed.

(* the alphabet: ten fixed words and four classes, each a rectangle of (byte1, byte2) *)
Definition fixed_words : list Z := flush_words ++ tab_words ++ [edm608; filler608].

Lemma fixed_ok : forallb word_ok fixed_words = true.
Proof. vm_compute. reflexivity. Qed.

Lemma not_fixed w : memz w fixed_words = false ->
  is_flush608 w = false /\ is_tab608 w = false /\ (w =? edm608) = false /\ (w =? filler608) = false.
Proof.
  unfold memz, fixed_words. rewrite !existsb_app. cbn [existsb]. rewrite orb_false_r, !orb_false_iff. tauto.
Qed.

Definition recog (w : Z) :=
  (is_ctrl608 w, is_pac608 w, special_glyph w, extended_glyph w, pair_glyphs w, is_char_pair w).

(* preamble address codes 16..23 x 64..127, special characters 17 x 48..63, extended characters 18..19 x 32..63,
   character pairs 32..126 x (0 or 32..126) *)
Lemma classes w : alpha608 w = true -> memz w fixed_words = false ->
  recog w = (true, true, None, None, [], false) \/
  (exists g, In g special_608 /\ recog w = (true, false, Some g, None, [], false)) \/
  (exists g, recog w = (true, false, None, Some g, [], false)) \/
  (32 <= byte1 w <= 126 /\ (byte2 w = 0 \/ 32 <= byte2 w <= 126) /\
   recog w = (false, false, None, None,
              basic_608 (byte1 w) :: (if byte2 w =? 0 then [] else [basic_608 (byte2 w)]), true)).
Proof.
  intros Ha Hm. destruct (not_fixed w Hm) as (F & T & E & Fi). unfold alpha608 in Ha.
  rewrite F, T, E, Fi, orb_false_r in Ha. apply andb_true_iff in Ha. destruct Ha as [Hp Ha]. clear Hm F T E Fi.
  assert (HP : is_pac608 w = true -> 16 <= byte1 w <= 23 /\ 64 <= byte2 w).
  { unfold is_pac608. destruct (pac_608 w) as [p|] eqn:P; [|discriminate]. intros _.
    destruct (pac_608_sound w p P) as (R1 & R2 & _). auto. }
  unfold recog, is_ctrl608, special_glyph, extended_glyph, pair_glyphs, is_char_pair in *. rewrite Hp in *. clear Hp.
  set (b1 := byte1 w) in *. set (b2 := byte2 w) in *. clearbody b1 b2. cbn [andb orb] in *. unfold within in *.
  destruct (is_pac608 w).
  - (* preamble address code *)
    left. destruct (HP eq_refl). clear Ha HP.
    replace ((16 <=? b1) && (b1 <=? 31)) with true by lia. replace ((48 <=? b2) && (b2 <=? 63)) with false by lia.
    replace ((32 <=? b2) && (b2 <=? 63)) with false by lia. replace ((32 <=? b1) && (b1 <=? 127)) with false by lia.
    replace ((32 <=? b1) && (b1 <=? 126)) with false by lia. rewrite andb_false_r. reflexivity.
  - right. clear HP.
    destruct ((32 <=? b1) && (b1 <=? 126) && ((b2 =? 0) || (32 <=? b2) && (b2 <=? 126))) eqn:K.
    + (* character pair *)
      right. right. clear Ha. assert (R : 32 <= b1 <= 126 /\ (b2 = 0 \/ 32 <= b2 <= 126)) by lia. clear K.
      split; [apply R|]. split; [apply R|].
      replace ((16 <=? b1) && (b1 <=? 31)) with false by lia. replace ((32 <=? b1) && (b1 <=? 127)) with true by lia.
      replace (b1 =? 17) with false by lia. replace (b1 =? 18) with false by lia. replace (b1 =? 19) with false by lia.
      replace ((32 <=? b2) && (b2 <=? 127)) with (negb (b2 =? 0)) by lia.
      destruct ((32 <=? b2) && (b2 <=? 63)), (b2 =? 0); reflexivity.
    + rewrite orb_false_r in Ha. clear K.
      destruct ((b1 =? 17) && ((48 <=? b2) && (b2 <=? 63))) eqn:S.
      * (* special character *)
        left. clear Ha. exists (nth (Z.to_nat (b2 - 48)) special_608 0).
        split; [apply nth_In; change (length special_608) with 16%nat; lia|].
        replace ((16 <=? b1) && (b1 <=? 31)) with true by lia. replace ((32 <=? b1) && (b1 <=? 127)) with false by lia.
        replace (b1 =? 18) with false by lia. replace (b1 =? 19) with false by lia.
        destruct ((32 <=? b2) && (b2 <=? 63)); reflexivity.
      * (* extended character *)
        right. left. clear S.
        assert (R : 18 <= b1 <= 19)
          by (destruct ((32 <=? b2) && (b2 <=? 63)), (b1 =? 18) eqn:?, (b1 =? 19) eqn:?; try discriminate; lia).
        replace ((16 <=? b1) && (b1 <=? 31)) with true by lia. replace ((32 <=? b1) && (b1 <=? 127)) with false by lia.
        destruct (if (32 <=? b2) && (b2 <=? 63) then _ else _) as [g|]; [|discriminate]. exists g. reflexivity.
Qed.

Lemma glyph_checks : forallb (fun g => negb (is_extended_value g)) special_608 = true /\
  forallb (fun c => negb (is_extended_value (basic_608 c))) (zrange 32 95) = true /\ char_of (odd_parity 0) = Some [].
Proof. repeat split; vm_compute; reflexivity. Qed.

Lemma ostr_eqb_true : forall a b, ostr_eqb a b = true -> a = b.
Proof. intros [x|] [y|] H; try discriminate; [|reflexivity]. cbn in H. rewrite (str_eqb_eq x y H). reflexivity. Qed.

Lemma ostr_eqb_refl : forall o, ostr_eqb o o = true.
Proof. intros [s|]; [apply str_eqb_refl|reflexivity]. Qed.

Lemma alpha_ok : forall w, alpha608 w = true -> word_ok w = true.
Proof.
  intros w Ha. destruct (memz w fixed_words) eqn:Hm; [exact (all_in _ _ fixed_ok w (proj1 (memz_In _ _) Hm))|].
  assert (Hp : parity_ok w = true) by (unfold alpha608 in Ha; apply andb_true_iff in Ha; apply Ha).
  pose proof (is_pac_608 w Hp) as EP. pose proof (special_of_608 w) as ES. pose proof (extended_of_608 w) as EX.
  destruct (not_fixed w Hm) as (F & T & E & _).
  unfold word_ok, consistent, cp, cp608, good_glyphs, chars608.
  rewrite is_flush_608, EP, tab_of_608, ES, EX, F, T, E, !eqb_reflx, !ostr_eqb_refl. cbn [andb orb].
  destruct (classes w Ha Hm) as [R|[(g & Hg & R)|[(g & R)|(R1 & R2 & R)]]]; injection R as RC RP RS RX RG RK;
    rewrite RC, RP, RS, RX, RG, RK in *; cbn [one some andb orb negb Bool.eqb consistent_of] in *.
  - (* preamble address code *)
    rewrite orb_true_r, pairchars_nil by (left; unfold cp; rewrite EP; apply orb_true_r). reflexivity.
  - (* special character *)
    destruct (proj1 classes_disjoint w) as (C & _); [congruence|].
    rewrite C, pairchars_nil by (right; left; congruence). cbn [str_eqb rev app].
    exact (all_in _ _ (proj1 glyph_checks) g Hg).
  - (* extended character *)
    destruct (proj1 (proj2 classes_disjoint) w) as (C & _); [congruence|].
    rewrite C, pairchars_nil by (right; right; congruence). reflexivity.
  - (* character pair: both bytes are in the character table, so the word is in no other *)
    destruct (parity_bytes w Hp) as [Eh El].
    assert (C1 : char_of (hi w) = Some [basic_608 (byte1 w)])
      by (unfold hi; rewrite Eh; apply chars_match_608; exact R1).
    assert (C2 : char_of (lo w) = Some (if byte2 w =? 0 then [] else [basic_608 (byte2 w)])).
    { unfold lo. rewrite El. destruct R2 as [->|R2]; [exact (proj2 (proj2 glyph_checks))|].
      replace (byte2 w =? 0) with false by lia. apply chars_match_608. exact R2. }
    assert (C : is_command w = false).
    { destruct (is_command w) eqn:C; [|reflexivity].
      destruct (proj2 (proj2 (proj2 (proj2 classes_disjoint))) w) as [N|N];
        [left; rewrite C; reflexivity|congruence|congruence]. }
    assert (G : forall c, 32 <= c <= 126 -> negb (is_extended_value (basic_608 c)) = true)
      by (intros c Hc; apply (all_in _ _ (proj1 (proj2 glyph_checks))); apply in_zrange; lia).
    unfold pairchars. rewrite C, C1, C2. cbn [app]. rewrite str_eqb_refl.
    destruct R2 as [Z|R2]; [rewrite Z|replace (byte2 w =? 0) with false by lia]; apply G; assumption.
Qed.

(* every parity-correct word is `word b1 b2` for two 7-bit bytes: 128 x 128 words, the complete tables *)
Lemma table_check :
  forallb (fun b1 => forallb (fun b2 => let w := word b1 b2 in if alpha608 w then word_ok w else true) r128) r128 = true.
Proof.
  apply forallb_forall. intros b1 _. apply forallb_forall. intros b2 _. cbv zeta.
  destruct (alpha608 (word b1 b2)) eqn:Ha; [exact (alpha_ok _ Ha)|reflexivity].
Qed.

Lemma word_facts : forall w, alpha608 w = true ->
  is_flush w = is_flush608 w /\ is_pac w = is_pac608 w /\ some (tab_of w) = is_tab608 w /\
  (is_command w || is_pac w) = cp608 w /\ special_of w = one (special_glyph w) /\
  extended_of w = one (extended_glyph w) /\ pairchars w = pair_glyphs w /\
  consistent w = true /\ good_glyphs w = true.
Proof.
  intros w Ha. pose proof (alpha_ok w Ha) as H. unfold word_ok in H. rewrite !andb_true_iff in H.
  destruct H as [[[[[[[[H1 H2] H3] H4] H5] H6] H7] H8] H9].
  apply eqb_prop in H1, H2, H3, H4. apply ostr_eqb_true in H5, H6. apply str_eqb_eq in H7.
  repeat split; assumption.
Qed.

(* ================= 2. one word: the decoder's edit against show608 ======================================== *)
Definition good_last (cur : str) : Prop := exists pre c, cur = pre ++ [c] /\ is_extended_value c = false.

Lemma edm_word : edm608 = w_edm.
Proof. vm_compute. reflexivity. Qed.


Lemma consistent_parts : forall w, consistent w = true ->
  is_ctrl608 w = cp608 w || some (special_glyph w) || some (extended_glyph w) /\
  (cp608 w = true -> special_glyph w = None /\ extended_glyph w = None /\ pair_glyphs w = []) /\
  (special_glyph w = None \/ extended_glyph w = None) /\
  (is_char_pair w = true -> is_ctrl608 w = false) /\
  ((is_pac608 w || is_tab608 w) = true -> is_flush608 w = false /\ cp608 w = true).
Proof.
  intros w H. unfold consistent, consistent_of in H. rewrite !andb_true_iff in H.
  destruct H as [[[[[[H1 H2] H3] H4] H5] _] H7]. apply eqb_prop in H1.
  split; [exact H1|]. split; [|split; [|split]].
  - intros CP. rewrite CP in H3, H4.
    destruct (special_glyph w), (extended_glyph w), (pair_glyphs w); cbn in H3, H4; try discriminate; auto.
  - destruct (special_glyph w), (extended_glyph w); cbn in H2; try discriminate; auto.
  - intros K. rewrite K in H5. destruct (is_ctrl608 w); [discriminate|reflexivity].
  - intros P. unfold cp608. rewrite P in H7. destruct (is_flush608 w); [discriminate|]. split; [reflexivity|].
    rewrite <- orb_assoc, P. apply orb_true_r.
Qed.

Lemma cp_flush : forall w, cp608 w = false -> is_flush608 w = false.
Proof. intros w H. unfold cp608 in H. destruct (is_flush608 w); [discriminate H|reflexivity]. Qed.


Lemma alpha_rpx : forall w, alpha608 w = true -> rpx_word w = true.
Proof.
  intros w Ha. destruct (word_facts w Ha) as (E1 & E2 & E3 & E4 & E5 & E6 & _).
  assert (R : rpx_word w = is_flush w || is_pac w || some (tab_of w) || some (special_of w)
              || (negb (is_command w || is_pac w) && negb (some (extended_of w))) || some (extended_of w) || (w =? w_edm)).
  { unfold rpx_word, rp_word, is_flush.
    generalize (w =? w_ru2) (w =? w_ru3) (w =? w_ru4) (w =? w_rdc) (w =? w_cr) (w =? w_edm). intros b1 b2 b3 b4 b5 b6.
    destruct (is_command w), (is_pac w), (tab_of w), (special_of w), (extended_of w);
      cbn [orb andb negb some]; rewrite ?orb_true_r, ?orb_false_r, ?andb_false_r, ?andb_true_r; reflexivity. }
  rewrite R, E4, E1, E2, E3, E5, E6. rewrite <- edm_word. unfold cp608.
  destruct (is_flush608 w), (w =? edm608), (is_pac608 w), (is_tab608 w), (special_glyph w), (extended_glyph w); reflexivity.
Qed.


Lemma word_chars_alt : forall w, word_chars w =
  if is_command w || is_pac w then [] else
  match special_of w with Some t => t | None => match extended_of w with Some _ => [] | None => pairchars w end end.
Proof. reflexivity. Qed.

Lemma xstep_show : forall w acc, alpha608 w = true ->
  (some (extended_glyph w) = true -> good_last (snd acc)) -> xstep w acc = show608 w acc.
Proof.
  intros w acc Ha Hg. destruct (word_facts w Ha) as (E1 & _ & _ & E4 & E5 & E6 & E7 & E8 & _).
  pose proof (rpx_not_bs w (alpha_rpx w Ha)) as Hb. destruct (consistent_parts w E8) as (_ & Hcp & Hsx & _).
  unfold xstep, show608, edit_word, apply_word. rewrite word_chars_alt, E1, Hb, E4, E5, E6, E7.
  destruct acc as [fin cur]. cbn [fst snd] in *. destruct (cp608 w) eqn:CP.
  - destruct (Hcp eq_refl) as (-> & -> & ->). reflexivity.
  - rewrite (cp_flush w CP). destruct (special_glyph w) as [g|] eqn:S, (extended_glyph w) as [x|] eqn:X;
      cbn [one]; try reflexivity.
    + destruct Hsx; discriminate.
    + (* an extended character: the stand-in it erases is there and is not itself an extended value *)
      destruct (Hg eq_refl) as (pre & c & -> & Hx). rewrite last_last, Hx.
      destruct (pre ++ [c]) eqn:E; [destruct pre; discriminate|reflexivity].
Qed.

(* positioning codes display nothing *)
Lemma show_pos : forall w acc, alpha608 w = true -> (is_pac608 w || is_tab608 w) = true -> show608 w acc = acc.
Proof.
  intros w acc Ha Hp. destruct (word_facts w Ha) as (_ & _ & _ & _ & _ & _ & _ & E8 & _).
  destruct (consistent_parts w E8) as (_ & Hcp & _ & _ & Hpos). destruct (Hpos Hp) as [F CP].
  destruct (Hcp CP) as (S & X & G). unfold show608. rewrite S, X, F, G, app_nil_r. destruct acc; reflexivity.
Qed.

(* what a character pair / special character leaves at the end of the row *)
Lemma show_text : forall w acc, alpha608 w = true -> (is_char_pair w || some (special_glyph w)) = true ->
  good_last (snd (show608 w acc)).
Proof.
  intros w acc Ha Hk. destruct (word_facts w Ha) as (_ & _ & _ & _ & _ & _ & _ & E8 & E9). clear Ha.
  unfold good_glyphs in E9. rewrite Hk in E9.
  assert (S : snd (show608 w acc) = snd acc ++ chars608 w).
  { unfold show608, chars608. destruct (special_glyph w) as [g|] eqn:S; [reflexivity|]. rewrite orb_false_r in Hk.
    (* a character pair is no control code: no positioning or flush word, no extended character *)
    destruct (consistent_parts w E8) as (C & _ & _ & HK & _). rewrite (HK Hk), S, orb_false_r in C. symmetry in C.
    apply orb_false_iff in C. destruct C as [CP X]. rewrite (cp_flush w CP).
    destruct (extended_glyph w); [discriminate X|reflexivity]. }
  rewrite S. set (t := chars608 w) in *. clearbody t.
  destruct (rev t) as [|c r] eqn:Er; [discriminate E9|].
  exists (snd acc ++ rev r), c. split; [|apply negb_true_iff; exact E9].
  rewrite <- app_assoc. f_equal. rewrite <- (rev_involutive t), Er. reflexivity.
Qed.

(* ================= 3. the doubling memories ================================================================ *)
Definition dbld (w : Z) : bool :=
  is_command w || is_pac w || (match special_of w with Some _ => true | None => false end)
  || (match extended_of w with Some _ => true | None => false end).

(* handle_double as a function of the doubling memory alone *)
Definition hdp (l : lastcmd) (w : Z) : bool * lastcmd :=
  if dbld w && last_is l w then (true, LNone)
  else if is_pac w && last_contains l w then (true, LNone)
  else match tab_of w with
       | Some _ => match l with
                   | LWord p => if is_pac p then (false, LPacTo p w) else (true, l)
                   | _ => (true, l)
                   end
       | None => (false, LWord w)
       end.

Lemma hd_pure : forall s w, fst (handle_double s w) = fst (hdp (r_last s) w) /\
  r_last (snd (handle_double s w)) = snd (hdp (r_last s) w).
Proof.
  intros s w. unfold handle_double, hdp, dbld. cbv zeta.
  destruct (_ && last_is (r_last s) w); [split; reflexivity|].
  destruct (is_pac w && last_contains (r_last s) w); [split; reflexivity|].
  destruct (tab_of w); [|split; reflexivity].
  destruct (r_last s) as [|p|p t] eqn:E; try (split; reflexivity).
  destruct (is_pac p); split; reflexivity.
Qed.

Lemma tw_last : forall s w n, r_err s = None -> r_last (translate_word s w n) = snd (hdp (r_last s) w).
Proof.
  intros s w n He. destruct (hd_pure s w) as [_ H]. rewrite <- H.
  destruct (handle_double s w) as [b s'] eqn:Hd. destruct b.
  - unfold translate_word. rewrite He, Hd. reflexivity.
  - pose proof (translate_word_dbl s w n s' He Hd) as D. unfold dbl in D. cbn [snd]. congruence.
Qed.

(* the relation between the spec's memory m and the reader's last_command l *)
Definition Inv (m : option Z) (l : lastcmd) : Prop :=
  (forall y, m = Some y -> alpha608 y = true) /\
  match l with
  | LNone => pos_mem m = true
  | LWord x => tab_of x = None /\ (m = Some x \/ (is_pac x = true /\ pos_mem m = true))
  | LPacTo _ _ => pos_mem m = true
  end.

Lemma dbld_ctrl : forall w, alpha608 w = true -> dbld w = is_ctrl608 w.
Proof.
  intros w Ha. destruct (word_facts w Ha) as (_ & _ & _ & E4 & E5 & E6 & _ & E8 & _).
  unfold dbld. rewrite E4, E5, E6, (proj1 (consistent_parts w E8)).
  destruct (special_glyph w), (extended_glyph w); reflexivity.
Qed.

Lemma pos_ctrl : forall w, alpha608 w = true -> (is_pac608 w || is_tab608 w) = true -> is_ctrl608 w = true.
Proof.
  intros w Ha Hp. destruct (word_facts w Ha) as (_ & _ & _ & _ & _ & _ & _ & E8 & _).
  destruct (consistent_parts w E8) as (C & _ & _ & _ & Hpos). rewrite C, (proj2 (Hpos Hp)). reflexivity.
Qed.

Lemma step_inv : forall l m w, alpha608 w = true -> Inv m l ->
  (is_tab608 w = true -> copy608 m w = false -> pos_mem m = true) ->
  Inv (if copy608 m w then None else Some w) (snd (hdp l w)) /\
  ((is_pac608 w || is_tab608 w) = false -> fst (hdp l w) = copy608 m w).
Proof.
  intros l m w Ha [IA I] Ht. destruct (word_facts w Ha) as (_ & E2 & E3 & _).
  pose proof (dbld_ctrl w Ha) as Ed.
  assert (IA' : forall y, (if copy608 m w then None else Some w) = Some y -> alpha608 y = true).
  { intros y Hy. destruct (copy608 m w); [discriminate|]. injection Hy as <-. exact Ha. }
  assert (PM : (is_pac608 w || is_tab608 w) = true -> pos_mem (if copy608 m w then None else Some w) = true).
  { intros H. destruct (copy608 m w); [reflexivity|exact H]. }
  unfold hdp. rewrite Ed, E2.
  destruct (is_pac608 w) eqn:P.
  - (* preamble address code *)
    destruct (pac_facts w) as [Tn _]; [rewrite E2; reflexivity|]. rewrite Tn.
    rewrite (pos_ctrl w Ha) by (rewrite P; reflexivity). cbn [andb orb].
    split; [|discriminate].
    assert (G : forall b : bool, Inv (if copy608 m w then None else Some w) (if b then LNone else LWord w)).
    { intros b. split; [exact IA'|]. destruct b; [apply PM; reflexivity|]. split; [exact Tn|].
      destruct (copy608 m w); [right; split; [rewrite E2; reflexivity|reflexivity]|left; reflexivity]. }
    destruct (last_is l w); [apply (G true)|]. destruct (last_contains l w); [apply (G true)|apply (G false)].
  - cbn [andb orb]. destruct (tab_of w) as [n|] eqn:Tw.
    + (* tab offset *)
      cbn [some] in E3. symmetry in E3. rewrite E3. split; [|discriminate].
      rewrite (pos_ctrl w Ha) by (rewrite P, E3; reflexivity). cbn [andb].
      assert (PM' : pos_mem (if copy608 m w then None else Some w) = true) by (apply PM; rewrite E3; apply orb_true_r).
      destruct l as [|x|p t]; cbn [last_is snd].
      * split; [exact IA'|exact PM'].
      * destruct I as [Tx I]. destruct (Z.eqb_spec x w) as [->|Nx]; [congruence|].
        destruct (is_pac x) eqn:Px; cbn [snd]; (split; [exact IA'|]); [exact PM'|].
        split; [exact Tx|]. exfalso. destruct I as [Im|[Hp _]]; [|congruence]. subst m.
        assert (Hc : copy608 (Some x) w = false).
        { unfold copy608. apply Z.eqb_neq in Nx. rewrite Nx. apply andb_false_r. }
        pose proof (Ht E3 Hc) as Hm. cbn [pos_mem] in Hm.
        destruct (word_facts x (IA x eq_refl)) as (_ & F2 & F3 & _). rewrite <- F2, <- F3, Px, Tx in Hm. discriminate.
      * split; [exact IA'|exact PM'].
    + (* neither: as far as w can tell, the reader's last word is the spec's memory *)
      cbn [some] in E3. symmetry in E3. rewrite E3.
      assert (NM : pos_mem m = true -> match m with Some p => p =? w | None => false end = false).
      { destruct m as [p|]; [|reflexivity]. cbn [pos_mem]. intros Hp.
        destruct (Z.eqb_spec p w) as [->|]; [|reflexivity]. rewrite P, E3 in Hp. discriminate. }
      assert (L : last_is l w = match m with Some p => p =? w | None => false end).
      { destruct l as [|x|p t]; cbn [last_is]; try (symmetry; exact (NM I)).
        destruct I as [_ [->|[Hx Hm]]]; [reflexivity|]. rewrite (NM Hm). apply Z.eqb_neq. intros ->. congruence. }
      unfold copy608. rewrite <- L. destruct (is_ctrl608 w && last_is l w); cbn [fst snd]; (split; [|intros _; reflexivity]).
      * split; [discriminate|reflexivity].
      * split; [intros y Hy; injection Hy as <-; exact Ha|split; [exact Tw|left; reflexivity]].
Qed.

(* the reader's skip decision for every word that is not a positioning code - in particular for special and extended
   characters - is the CEA-608 redundancy rule, whenever the two memories are related by Inv *)
Theorem skip_decision_608 : forall s m w, alpha608 w = true -> Inv m (r_last s) ->
  (is_pac608 w || is_tab608 w) = false -> fst (handle_double s w) = copy608 m w.
Proof.
  intros s m w Ha I Hp. destruct (hd_pure s w) as [Hf _]. rewrite Hf.
  destruct (step_inv (r_last s) m w Ha I) as [_ H]; [|exact (H Hp)].
  intros T. rewrite T, orb_true_r in Hp. discriminate.
Qed.

(* ================= 4. whole streams ======================================================================= *)
Lemma words_agree : forall ws s m good acc st',
  r_err (translate_words s ws) = None -> Inv m (r_last s) -> (good = true -> good_last (snd acc)) ->
  dom_words (m, good) ws = Some st' ->
  fold_left step608 ws (m, acc) = (fst st', sentx s ws acc) /\
  Inv (fst st') (r_last (translate_words s ws)) /\ (snd st' = true -> good_last (snd (sentx s ws acc))).
Proof.
  induction ws as [|w t IH]; intros s m good acc st' Hfin I Hg Hd.
  - cbn [dom_words] in Hd. injection Hd as <-. cbn [fold_left sentx translate_words fst snd]. auto.
  - cbn [dom_words fst snd] in Hd. destruct (alpha608 w) eqn:Ha; [|discriminate].
    pose proof (translate_words_ok _ _ Hfin) as He. cbn [translate_words sentx fold_left] in *.
    set (nx := match t with n :: _ => Some n | [] => None end) in *.
    destruct (hd_pure s w) as [Hf _]. rewrite Hf.
    pose proof (tw_last s w nx He) as Hl.
    unfold step608 at 2. cbn [fst snd].
    assert (Ht : is_tab608 w = true -> copy608 m w = false -> pos_mem m = true).
    { intros T C. destruct (copy608 m w); [discriminate C|]. rewrite T in Hd. destruct (pos_mem m); [reflexivity|discriminate]. }
    destruct (step_inv (r_last s) m w Ha I Ht) as [I1 Hs]. rewrite <- Hl in I1.
    assert (Eacc : (if fst (hdp (r_last s) w) then acc else xstep w acc) = (if copy608 m w then acc else show608 w acc)).
    { destruct (is_pac608 w || is_tab608 w) eqn:P.
      - (* a positioning code is no extended character *)
        rewrite xstep_show by (try exact Ha; intros X; exfalso;
          destruct (word_facts w Ha) as (_ & _ & _ & _ & _ & _ & _ & E8 & _);
          destruct (consistent_parts w E8) as (_ & Hcp & _ & _ & Hpos);
          destruct (Hcp (proj2 (Hpos P))) as (_ & X' & _); rewrite X' in X; discriminate X).
        rewrite (show_pos w acc Ha P). destruct (fst (hdp (r_last s) w)), (copy608 m w); reflexivity.
      - rewrite (Hs eq_refl). destruct (copy608 m w) eqn:C; [reflexivity|].
        apply xstep_show; [exact Ha|]. intros X. rewrite X in Hd.
        destruct good; [apply Hg; reflexivity|]. rewrite andb_false_r in Hd. discriminate. }
    rewrite Eacc.
    destruct (copy608 m w) eqn:C.
    + exact (IH _ None good acc st' Hfin I1 Hg Hd).
    + destruct ((if is_tab608 w then pos_mem m else true) && (if some (extended_glyph w) then good else true)); [|discriminate].
      apply (IH _ (Some w) (is_char_pair w || some (special_glyph w)) (show608 w acc) st' Hfin I1); [|exact Hd].
      intros K. apply show_text; assumption.
Qed.

Lemma lines_agree : forall ls s m good acc,
  r_err (fold_left translate_line ls s) = None -> Inv m (r_last s) -> (good = true -> good_last (snd acc)) ->
  dom_lines (m, good) (map snd ls) = true ->
  snd (fold_left step608 (concat (map snd ls)) (m, acc)) = sentx_lines s ls acc.
Proof.
  induction ls as [|l t IH]; intros s m good acc Hfin I Hg Hd.
  - reflexivity.
  - pose proof (translate_lines_ok _ _ Hfin) as He. cbn [map dom_lines concat fold_left sentx_lines] in *.
    destruct (dom_words (m, good) (snd l)) as [[m' good']|] eqn:Dw; [|discriminate].
    pose proof (translate_lines_ok _ _ Hfin) as He1.
    assert (El : translate_line s l = translate_words (set_clock s (fst l) 0) (snd l))
      by (unfold translate_line; rewrite He; reflexivity).
    rewrite El in *.
    destruct (words_agree (snd l) (set_clock s (fst l) 0) m good acc (m', good') He1 I Hg Dw) as (F & I' & G').
    rewrite fold_left_app, F. cbn [fst snd] in *. exact (IH _ m' good' _ Hfin I' G' Hd).
Qed.

Lemma inv0 : forall off, Inv None (r_last (rstate0 off)).
Proof. intros off. split; [discriminate|reflexivity]. Qed.

(* the decoder's edit script (decoder tables, decoder doubling memory) IS the independent CEA-608 text *)
Theorem sentx_is_sent608 : forall off ls, dom608 ls = true ->
  r_err (fold_left translate_line ls (rstate0 off)) = None ->
  sentx_text (rstate0 off) ls = sent608 (map snd ls).
Proof.
  intros off ls Hd He.
  pose proof (lines_agree ls (rstate0 off) None false ([], []) He (inv0 off) ltac:(discriminate) Hd) as L.
  unfold sentx_text, sent608. cbv zeta. rewrite <- L. reflexivity.
Qed.

Lemma dom_words_alpha : forall ws st st', dom_words st ws = Some st' -> forallb rpb_word ws = true.
Proof.
  induction ws as [|w t IH]; intros st st' H; [reflexivity|].
  cbn [dom_words] in H. cbn [forallb]. destruct (alpha608 w) eqn:Ha; [|discriminate].
  assert (Hw : rpb_word w = true) by (unfold rpb_word; rewrite (alpha_rpx w Ha); reflexivity). rewrite Hw. cbn [andb].
  destruct (copy608 (fst st) w); [exact (IH _ _ H)|].
  destruct (_ && _); [exact (IH _ _ H)|discriminate].
Qed.

Lemma dom_lines_alpha : forall ls st, dom_lines st (map snd ls) = true ->
  forallb (fun l : sline => forallb rpb_word (snd l)) ls = true.
Proof.
  induction ls as [|l t IH]; intros st H; [reflexivity|].
  cbn [map dom_lines] in H. cbn [forallb]. destruct (dom_words st (snd l)) as [st'|] eqn:E; [|discriminate].
  rewrite (dom_words_alpha _ _ _ E). exact (IH _ H).
Qed.

(* C16 against the independent definition of the transmitted characters *)
Theorem rollup_painton_conserved_608 : forall off tc0 w0 ws0 ls caps,
  (w0 = w_ru2 \/ w0 = w_ru3 \/ w0 = w_ru4 \/ w0 = w_rdc) ->
  dom608 ((tc0, w0 :: ws0) :: ls) = true ->
  read off ((tc0, w0 :: ws0) :: ls) = ROk caps ->
  nonspace (caps_text caps) = nonspace (sent608 (map snd ((tc0, w0 :: ws0) :: ls))).
Proof.
  intros off tc0 w0 ws0 ls caps Hw0 Hd Hread.
  pose proof (dom_lines_alpha _ _ Hd) as Ha. cbn [forallb snd] in Ha.
  apply andb_true_iff in Ha. destruct Ha as [Ha0 Hals]. apply andb_true_iff in Ha0. destruct Ha0 as [_ Ha0].
  rewrite (rollup_painton_conserved_ext off tc0 w0 ws0 ls caps Hw0 Ha0 Hals Hread).
  rewrite sentx_is_sent608; [reflexivity|exact Hd|].
  unfold read, run_lines in Hread. cbv zeta in Hread.
  destruct (r_err (fold_left translate_line ((tc0, w0 :: ws0) :: ls) (rstate0 off))) as [e|] eqn:E; [|reflexivity].
  rewrite E in Hread. discriminate.
Qed.

Lemma pac_608_word b1 b2 : 0 <= b1 < 128 -> 0 <= b2 < 128 ->
  pac_608 (word b1 b2) = if b2 <? 64 then None else
    match pac_row b1 (96 <=? b2) with Some r => Some (r, pac_col (b2 mod 32)) | None => None end.
Proof.
  intros H1 H2. destruct (word_bytes b1 b2 H1 H2) as (Hp & B1 & B2). destruct (parity_bytes _ Hp) as [E1 E2].
  rewrite B1 in E1. rewrite B2 in E2. destruct (op_spec b1) as [_ M1], (op_spec b2) as [_ M2].
  unfold pac_608. cbv zeta. rewrite E1, E2, !op_parity, M1, M2, !Z.mod_small by lia. reflexivity.
Qed.

Lemma pac_bytes_row : forallb (fun r => let '(b, base) := pac_bytes r in
  within 16 23 b && ((base =? 64) || (base =? 96)) &&
  match pac_row b (96 <=? base) with Some r' => r' =? r | None => false end) (zrange 1 15) = true.
Proof. reflexivity. Qed.

(* ================= 5. the recognisers against Spec608's constructors ======================================= *)
Lemma recognisers_608 :
  (forall i, 0 <= i < 16 -> special_glyph (special_word i) = Some (nth (Z.to_nat i) special_608 0)) /\
  (forall i, 0 <= i < 32 -> extended_glyph (extended1_word i) = Some (nth (Z.to_nat i) extended1_608 0) /\
                            extended_glyph (extended2_word i) = Some (nth (Z.to_nat i) extended2_608 0)) /\
  (forall c1 c2, 32 <= c1 < 128 -> 32 <= c2 < 128 -> pair_glyphs (word c1 c2) = [basic_608 c1; basic_608 c2]) /\
  (forall c1, 32 <= c1 < 128 -> pair_glyphs (word c1 0) = [basic_608 c1]) /\
  (forall r a, 1 <= r <= 15 -> 0 <= a < 32 -> is_pac608 (pac_word r a) = true /\ alpha608 (pac_word r a) = true) /\
  (forall n, 1 <= n <= 3 -> is_tab608 (tab_word n) = true /\ alpha608 (tab_word n) = true).
Proof.
  split; [|split; [|split; [|split; [|split]]]].
  - intros i Hi. unfold special_glyph, special_word. destruct (word_bytes 17 (48 + i)) as (-> & -> & ->); try lia.
    replace (within 48 63 (48 + i)) with true by (unfold within; lia). replace (48 + i - 48) with i by lia. reflexivity.
  - intros i Hi. unfold extended_glyph, extended1_word, extended2_word.
    destruct (word_bytes 18 (32 + i)) as (-> & -> & ->); try lia. destruct (word_bytes 19 (32 + i)) as (-> & -> & ->); try lia.
    replace (within 32 63 (32 + i)) with true by (unfold within; lia). replace (32 + i - 32) with i by lia. split; reflexivity.
  - intros c1 c2 H1 H2. unfold pair_glyphs. destruct (word_bytes c1 c2) as (-> & -> & ->); try lia.
    replace (within 32 127 c1) with true by (unfold within; lia). replace (within 32 127 c2) with true by (unfold within; lia).
    reflexivity.
  - intros c1 H1. unfold pair_glyphs. destruct (word_bytes c1 0) as (-> & -> & ->); try lia.
    replace (within 32 127 c1) with true by (unfold within; lia). reflexivity.
  - intros r a Hr Ha. pose proof (all_in _ _ pac_bytes_row r ltac:(inrange)) as B. unfold pac_word. cbv beta in B.
    destruct (pac_bytes r) as [b base]. destruct (pac_row b (96 <=? base)) as [r'|] eqn:R; [|rewrite andb_false_r in B; discriminate].
    unfold within in B.
    assert (P : is_pac608 (word b (base + a)) = true).
    { unfold is_pac608. rewrite pac_608_word by lia. replace (base + a <? 64) with false by lia.
      replace (96 <=? base + a) with (96 <=? base) by lia. rewrite R. reflexivity. }
    split; [exact P|]. unfold alpha608. rewrite (proj1 (word_bytes b (base + a) ltac:(lia) ltac:(lia))), P, orb_true_r. reflexivity.
  - intros n Hn.
    pose proof (map_eq_pointwise (fun n => (is_tab608 (tab_word n), alpha608 (tab_word n)))
      (fun _ => (true, true)) (zrange 1 3) ltac:(vmr) n ltac:(inrange)) as E.
    split_pairs E. auto.
Qed.

(* ================= 6. examples ============================================================================= *)
(* RU2 RU2, CR CR, PAC PAC (row 15), "ab", special (R) doubled, "cd" + extended A-acute doubled (replaces "d");
   second line: CR, PAC, "cd" *)
Definition ex608 : list sline :=
  [(lit "00:00:01:00", [w_ru2; w_ru2; w_cr; w_cr; 38000; 38000; 24930; 37296; 37296; 58212; 37408; 37408]);
   (lit "00:00:03:00", [w_cr; 38000; 58212])].


Example rollup_painton_conserved_608_example :
  dom608 ex608 = true /\
  sent608 (map snd ex608) = [97; 98; 174; 99; 193; 99; 100] /\
  sentx_text (rstate0 0) ex608 = [97; 98; 174; 99; 193; 99; 100] /\
  exists caps, read 0 ex608 = ROk caps /\ nonspace (caps_text caps) = [97; 98; 174; 99; 193; 99; 100].
Proof.
  split; [vmr|]. split; [vmr|]. split; [vmr|].
  destruct (read 0 ex608) as [caps| |] eqn:E; try (vm_compute in E; discriminate E).
  exists caps. split; [reflexivity|].
  rewrite (rollup_painton_conserved_608 0 (lit "00:00:01:00") w_ru2
             [w_ru2; w_cr; w_cr; 38000; 38000; 24930; 37296; 37296; 58212; 37408; 37408]
             [(lit "00:00:03:00", [w_cr; 38000; 58212])] caps); [vmr|auto|vmr|exact E].
Qed.


(* paint-on: RDC RDC, the unit PAC TO PAC TO, "ab", null filler, EDM EDM, a special character sent three times (the
   third copy counts: two are displayed), "a" + padding, extended E-acute doubled (replaces "a") *)
Definition ex608b : list sline :=
  [(lit "00:00:01:00", [w_rdc; w_rdc; 38000; 38818; 38000; 38818; 24930; 32896; w_edm; w_edm; 37296; 37296; 37296;
                        24960; 37537; 37537])].

Example rollup_painton_conserved_608_example2 :
  dom608 ex608b = true /\
  sent608 (map snd ex608b) = [97; 98; 174; 174; 201] /\
  exists caps, read 0 ex608b = ROk caps /\ nonspace (caps_text caps) = [97; 98; 174; 174; 201].
Proof.
  split; [vmr|]. split; [vmr|].
  destruct (read 0 ex608b) as [caps| |] eqn:E; try (vm_compute in E; discriminate E).
  exists caps. split; [reflexivity|].
  rewrite (rollup_painton_conserved_608 0 (lit "00:00:01:00") w_rdc
             [w_rdc; 38000; 38818; 38000; 38818; 24930; 32896; w_edm; w_edm; 37296; 37296; 37296; 24960; 37537; 37537]
             [] caps); [vmr|auto|vmr|exact E].
Qed.

(* D2 is needed: special, tab offset, the same special again - a 608 decoder shows two, the reader one *)
Example tab_after_special_diverges :
  let ls := [(lit "00:00:01:00", [w_ru2; w_ru2; 38000; 37296; 38818; 37296])] in
  forallb (fun l => forallb alpha608 (snd l)) ls = true /\ dom608 ls = false /\
  sent608 (map snd ls) = [174; 174] /\ sentx_text (rstate0 0) ls = [174].
Proof. cbv zeta. split; [vmr|split; [vmr|split; vmr]]. Qed.

(* D3 is needed: two different extended characters in a row - a 608 decoder lets the second replace the first, the
   reader keeps both *)
Example ext_after_ext_diverges :
  let ls := [(lit "00:00:01:00", [w_ru2; w_ru2; 38000; 24930; 37408; 37537])] in
  forallb (fun l => forallb alpha608 (snd l)) ls = true /\ dom608 ls = false /\
  sent608 (map snd ls) = [97; 201] /\ sentx_text (rstate0 0) ls = [97; 193; 201].
Proof. cbv zeta. split; [vmr|split; [vmr|split; vmr]]. Qed.

(* the no-error hypothesis of `sentx_is_sent608` is needed: after an error (here: a malformed time code) the reader's
   state is frozen, `sentx_text` keeps consulting the frozen doubling memory and counts both copies *)
Example no_error_hypothesis_needed :
  let ls := [(lit "x", [w_ru2; w_ru2; 37296; 37296])] in
  dom608 ls = true /\ r_err (fold_left translate_line ls (rstate0 0)) <> None /\
  sent608 (map snd ls) = [174] /\ sentx_text (rstate0 0) ls = [174; 174].
Proof. cbv zeta. split; [vmr|split; [vm_compute; discriminate|split; vmr]]. Qed.

Print Assumptions sentx_is_sent608.
Print Assumptions rollup_painton_conserved_608.
Print Assumptions rollup_painton_conserved_608_example.
Print Assumptions skip_decision_608.
