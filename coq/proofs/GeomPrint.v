(* C18 / C13: Size.__str__ rounds to two decimals (within 1/200, canonical form) and its output re-parses to the
   rounded value. *)
From Coq Require Import List ZArith QArith Qabs Qround Bool Lia Lqa Field.
From PV Require Import lib.Sx lib.Str lib.Dec lib.Result model.Geometry spec.SpecGeom.
From PV Require Import proofs.GeomStr proofs.GeomEq proofs.GeomParse.
Import ListNotations.
Open Scope Z_scope.

Lemma round_half_even_close : forall q, (Qabs (inject_Z (round_half_even q) - q) <= 1 # 2)%Q.
Proof.
  intros q. unfold round_half_even.
  pose proof (Qfloor_le q) as H1. pose proof (Qlt_floor q) as H2.
  set (f := Qfloor q) in *. rewrite inject_Z_plus in H2. change (inject_Z 1) with 1%Q in H2.
  apply Qabs_Qle_condition.
  destruct (Qcompare (q - inject_Z f) (1 # 2)) eqn:E.
  - rewrite <- Qeq_alt in E. destruct (Z.even f); [|rewrite inject_Z_plus; change (inject_Z 1) with 1%Q]; split; lra.
  - rewrite <- Qlt_alt in E. split; lra.
  - rewrite <- Qgt_alt in E. rewrite inject_Z_plus. change (inject_Z 1) with 1%Q. split; lra.
Qed.

Lemma round_half_even_compat : forall p q, (p == q)%Q -> round_half_even p = round_half_even q.
Proof.
  intros p q H. unfold round_half_even. rewrite (Qfloor_comp _ _ H).
  assert (E : ((p - inject_Z (Qfloor q)) ?= (1 # 2))%Q = ((q - inject_Z (Qfloor q)) ?= (1 # 2))%Q).
  { apply Qcompare_comp; [rewrite H; reflexivity|reflexivity]. }
  rewrite E. reflexivity.
Qed.

Lemma round_half_even_Z : forall n, round_half_even (inject_Z n) = n.
Proof.
  intros n. unfold round_half_even. rewrite Qfloor_Z.
  assert (E : ((inject_Z n - inject_Z n) ?= (1 # 2))%Q = Lt).
  { rewrite <- Qlt_alt. lra. }
  rewrite E. reflexivity.
Qed.

Lemma round_half_even_nonneg : forall q, (0 <= q)%Q -> 0 <= round_half_even q.
Proof.
  intros q H. unfold round_half_even.
  assert (Hf : 0 <= Qfloor q). { change 0 with (Qfloor 0). apply Qfloor_resp_le. exact H. }
  destruct (Qcompare (q - inject_Z (Qfloor q)) (1 # 2)); [destruct (Z.even (Qfloor q))|..]; lia.
Qed.

Lemma hundredths_close : forall v, (Qabs (inject_Z (hundredths v) / 100 - v) <= 1 # 200)%Q.
Proof.
  intros v. unfold hundredths. pose proof (round_half_even_close (v * 100)) as H.
  apply Qabs_Qle_condition in H. apply Qabs_Qle_condition.
  assert (E : (inject_Z (round_half_even (v * 100)) / 100 == inject_Z (round_half_even (v * 100)) * (1 # 100))%Q) by field.
  rewrite E. split; lra.
Qed.

Lemma hundredths_compat : forall p q, (p == q)%Q -> hundredths p = hundredths q.
Proof. intros p q H. unfold hundredths. apply round_half_even_compat. rewrite H. reflexivity. Qed.

Lemma hundredths_exact : forall n, hundredths (inject_Z n / 100) = n.
Proof.
  intros n. unfold hundredths. rewrite <- (round_half_even_Z n) at 2. apply round_half_even_compat. field.
Qed.

Lemma hundredths_nonneg : forall v, (0 <= v)%Q -> 0 <= hundredths v.
Proof. intros v H. unfold hundredths. apply round_half_even_nonneg. lra. Qed.

Definition dotted (ip fp : str) : str := ip ++ match fp with [] => [] | _ => 46 :: fp end.

Definition no_leading_zero (ip : str) : Prop := match ip with c :: _ :: _ => c <> 48 | _ => True end.
Definition no_trailing_zero (fp : str) : Prop := match rev fp with c :: _ => c <> 48 | [] => True end.

Lemma is48 : forall (c : Z) {A} (x y : A), c <> 48 -> match c with 48 => x | _ => y end = y.
Proof.
  intros c A x y H. destruct c; try reflexivity. repeat (destruct p; try reflexivity). contradiction.
Qed.

Lemma dec_no_leading_zero : forall z, 0 <= z -> no_leading_zero (dec_nonneg z).
Proof.
  intros z Hz. destruct (dec_nonneg_spec z Hz) as (_ & _ & _ & H4 & H5).
  destruct (Z_lt_le_dec z 10) as [Hs|Hs].
  - rewrite (H5 Hs). exact I.
  - specialize (H4 Hs). unfold no_leading_zero. destruct (dec_nonneg z) as [|c [|c2 t]]; [exact I|exact I|exact H4].
Qed.

Lemma str_of_hundredths_shape : forall n, 0 <= n ->
  exists ip fp, str_of_hundredths n = dotted ip fp
    /\ all_digits ip = true /\ (fp = [] \/ all_digits fp = true)
    /\ (denoted ip fp == inject_Z n / 100)%Q
    /\ no_leading_zero ip /\ (length fp <= 2)%nat /\ no_trailing_zero fp.
Proof.
  intros n Hn. unfold str_of_hundredths.
  assert (Hq : 0 <= n / 100) by (apply Z.div_pos; lia).
  destruct (dec_nonneg_spec (n / 100) Hq) as (D1 & D2 & D3 & _ & _).
  assert (Hip : all_digits (dec_nonneg (n / 100)) = true) by (apply all_digits_iff; split; assumption).
  pose proof (digits_q_val _ _ _ D3) as Hv. change (inject_Z 0) with 0%Q in Hv.
  pose proof (dec_no_leading_zero _ Hq) as Hlz.
  assert (Hn100 : (inject_Z n == 100 * inject_Z (n / 100) + inject_Z (n mod 100))%Q).
  { rewrite (Z.div_mod n 100) at 1 by lia. rewrite inject_Z_plus, inject_Z_mult. reflexivity. }
  assert (Hm : 0 <= n mod 100 < 100) by (apply Z.mod_pos_bound; lia).
  destruct (n mod 100 =? 0) eqn:E0.
  - exists (dec_nonneg (n / 100)), []. unfold dotted. rewrite app_nil_r.
    repeat split; auto.
    unfold denoted. rewrite Hv. cbn [frac_q]. assert (n mod 100 = 0) by lia.
    rewrite Hn100, H. change (inject_Z 0) with 0%Q. field.
  - destruct (n mod 100 mod 10 =? 0) eqn:E1.
    + set (d := n mod 100 / 10). assert (Hd : 1 <= d <= 9) by (subst d; lia).
      destruct (dec_nonneg_spec d ltac:(lia)) as (_ & _ & _ & _ & Hsm). rewrite (Hsm ltac:(lia)).
      exists (dec_nonneg (n / 100)), [48 + d]. unfold dotted.
      repeat split; auto.
      * right. cbn [all_digits forallb]. unfold is_digit. lia.
      * unfold denoted. rewrite Hv. cbn [frac_q]. replace (48 + d - 48) with d by lia.
        assert (Hfp : n mod 100 = 10 * d) by (subst d; lia).
        rewrite Hn100, Hfp, inject_Z_mult. field.
      * unfold no_trailing_zero. cbn [rev app]. clearbody d. lia.
    + set (fp := n mod 100) in *. assert (Hfp10 : fp mod 10 <> 0) by lia.
      assert (Hz : zpad 2 (dec_nonneg fp) = [48 + fp / 10; 48 + fp mod 10]) by (apply zpad2_two; lia).
      rewrite Hz. exists (dec_nonneg (n / 100)), [48 + fp / 10; 48 + fp mod 10]. unfold dotted.
      repeat split; auto.
      * right. cbn [all_digits forallb]. unfold is_digit. lia.
      * unfold denoted. rewrite Hv. cbn [frac_q].
        replace (48 + fp / 10 - 48) with (fp / 10) by lia. replace (48 + fp mod 10 - 48) with (fp mod 10) by lia.
        assert (Hfp : (inject_Z fp == 10 * inject_Z (fp / 10) + inject_Z (fp mod 10))%Q).
        { rewrite (Z.div_mod fp 10) at 1 by lia. rewrite inject_Z_plus, inject_Z_mult. reflexivity. }
        rewrite Hn100. fold fp. rewrite Hfp. field.
      * unfold no_trailing_zero. cbn [rev app]. lia.
Qed.

Lemma size_str_shape : forall a, (0 <= s_val a)%Q ->
  exists ip fp, size_str a = dotted ip fp ++ unit_str (s_unit a)
    /\ all_digits ip = true /\ (fp = [] \/ all_digits fp = true)
    /\ (denoted ip fp == inject_Z (hundredths (s_val a)) / 100)%Q
    /\ no_leading_zero ip /\ (length fp <= 2)%nat /\ no_trailing_zero fp.
Proof.
  intros a Ha. destruct (str_of_hundredths_shape _ (hundredths_nonneg _ Ha)) as (ip & fp & H1 & H).
  exists ip, fp. split; [|exact H]. unfold size_str. rewrite H1. reflexivity.
Qed.

Theorem print_parse : forall a, (0 <= s_val a)%Q ->
  exists z, size_from_string (size_str a) = Ok z
            /\ (s_val z == inject_Z (hundredths (s_val a)) / 100)%Q /\ s_unit z = s_unit a.
Proof.
  intros a Ha. destruct (size_str_shape a Ha) as (ip & fp & H1 & H2 & H3 & H4 & _).
  destruct (from_string_value ip fp (s_unit a) H2 H3) as (v & Hv & Hvq & _).
  exists (mkSize v (s_unit a)). rewrite H1. unfold dotted. rewrite <- app_assoc.
  split; [exact Hv|]. split; [cbn [s_val]; rewrite Hvq; exact H4|reflexivity].
Qed.

(* printing is a function of the value (not of its representation) and of the unit *)
Lemma size_str_compat : forall a b, size_equiv a b -> size_str a = size_str b.
Proof. intros a b [H1 H2]. unfold size_str. rewrite (hundredths_compat _ _ H1), H2. reflexivity. Qed.

Theorem print_parse_print : forall a, (0 <= s_val a)%Q ->
  exists z, size_from_string (size_str a) = Ok z /\ size_str z = size_str a
            /\ (Qabs (s_val z - s_val a) <= 1 # 200)%Q.
Proof.
  intros a Ha. destruct (print_parse a Ha) as (z & Hz & Hv & Hu). exists z. split; [exact Hz|]. split.
  - unfold size_str. rewrite Hu. rewrite (hundredths_compat _ _ Hv), hundredths_exact. reflexivity.
  - rewrite Hv. apply hundredths_close.
Qed.

Lemma ends_with_app : forall pre suf, ends_with suf (pre ++ suf) = Some pre.
Proof.
  intros pre suf. unfold ends_with. rewrite app_length.
  replace (length pre + length suf - length suf)%nat with (length pre) by lia.
  rewrite skipn_app_exact, firstn_app_exact, str_eqb_refl.
  assert (E : (length suf <=? length pre + length suf)%nat = true) by (apply Nat.leb_le; lia).
  rewrite E. reflexivity.
Qed.

Lemma ends_with_some : forall suf s pre, ends_with suf s = Some pre -> s = pre ++ suf.
Proof.
  intros suf s pre H. unfold ends_with in H. remember (length s - length suf)%nat as n.
  destruct ((length suf <=? length s)%nat && str_eqb (skipn n s) suf) eqn:E; [|discriminate].
  apply andb_true_iff in E. destruct E as [_ E]. apply str_eqb_eq in E. inversion H; subst pre.
  rewrite <- (firstn_skipn n s) at 1. f_equal. exact E.
Qed.

Lemma is_number_dotted : forall ip fp, all_digits ip = true -> (fp = [] \/ all_digits fp = true) ->
  is_number (dotted ip fp) = true /\ (number_q (dotted ip fp) == denoted ip fp)%Q.
Proof.
  intros ip fp Hip Hfp. pose proof Hip as Hip'. apply all_digits_iff in Hip'. destruct Hip' as [_ Hd].
  pose proof (digits_free_of_dot _ Hd) as Hf. unfold is_number, number_q, dotted, denoted.
  destruct Hfp as [->|Hfp].
  - rewrite app_nil_r, (split_ch_free _ _ Hf). split; [exact Hip|]. cbn [frac_q]. ring.
  - destruct fp as [|c fp]; [discriminate|]. pose proof Hfp as Hfp'. apply all_digits_iff in Hfp'. destruct Hfp' as [_ Hd2].
    rewrite (split_ch_app _ _ _ Hf), (split_ch_free _ _ (digits_free_of_dot _ Hd2)).
    split; [rewrite Hip, Hfp; reflexivity|reflexivity].
Qed.

(* the last character determines the unit, so number ++ unit ends with no other unit *)
Lemma ends_with_unit : forall num u w, ends_with (unit_str w) (num ++ unit_str u) = if unit_eqb w u then Some num else None.
Proof.
  intros num u w. destruct (unit_eqb w u) eqn:E.
  - apply unit_eqb_eq in E. subst w. apply ends_with_app.
  - destruct (ends_with (unit_str w) (num ++ unit_str u)) as [pre|] eqn:H; [|reflexivity].
    apply ends_with_some in H. symmetry in H. apply unit_str_last_inj in H. destruct H as [_ ->].
    rewrite (proj2 (unit_eqb_eq u u) eq_refl) in E. discriminate.
Qed.

Lemma spec_split_unique : forall num u, is_number num = true -> spec_split (num ++ unit_str u) = Some (num, u).
Proof.
  intros num u Hnum. unfold spec_split, spec_units. cbn [fold_right]. rewrite !ends_with_unit.
  destruct u; cbn [unit_eqb]; rewrite Hnum; reflexivity.
Qed.

Lemma canonical_dotted : forall ip fp, all_digits ip = true -> (fp = [] \/ all_digits fp = true) ->
  no_leading_zero ip -> (length fp <= 2)%nat -> no_trailing_zero fp -> canonical_number (dotted ip fp) = true.
Proof.
  intros ip fp Hip Hfp Hlz Hlen Htz. pose proof Hip as Hip'. apply all_digits_iff in Hip'. destruct Hip' as [_ Hd].
  pose proof (digits_free_of_dot _ Hd) as Hf. unfold canonical_number, dotted.
  assert (Hl : match ip with 48 :: _ :: _ => false | _ => true end = true).
  { unfold no_leading_zero in Hlz. destruct ip as [|c [|c2 t]]; [reflexivity| |apply is48; exact Hlz].
    destruct (Z.eq_dec c 48) as [->|N]; [reflexivity|apply is48; exact N]. }
  destruct Hfp as [->|Hfp].
  - rewrite app_nil_r, (split_ch_free _ _ Hf), Hip, Hl. reflexivity.
  - destruct fp as [|c fp]; [discriminate|]. pose proof Hfp as Hfp'. apply all_digits_iff in Hfp'. destruct Hfp' as [_ Hd2].
    rewrite (split_ch_app _ _ _ Hf), (split_ch_free _ _ (digits_free_of_dot _ Hd2)), Hip, Hl, Hfp.
    assert (E : (length (c :: fp) <=? 2)%nat = true) by (apply Nat.leb_le; exact Hlen). rewrite E.
    unfold no_trailing_zero in Htz. destruct (rev (c :: fp)) as [|x r]; [reflexivity|rewrite (is48 x _ _ Htz); reflexivity].
Qed.

Theorem ok_print_model : forall v u, (0 <= v)%Q -> ok_print v u (size_str (mkSize v u)) = true.
Proof.
  intros v u Hv. destruct (size_str_shape (mkSize v u) Hv) as (ip & fp & H1 & H2 & H3 & H4 & H5 & H6 & H7).
  cbn [s_val s_unit] in *. unfold ok_print. rewrite H1.
  destruct (is_number_dotted ip fp H2 H3) as [Hn Hq].
  rewrite (spec_split_unique _ _ Hn).
  assert (E : unit_eqb u u = true) by (apply unit_eqb_eq; reflexivity). rewrite E.
  rewrite (canonical_dotted ip fp H2 H3 H5 H6 H7). cbn [andb].
  apply Qle_bool_iff. rewrite Hq, H4. apply hundredths_close.
Qed.

(* the statement-level print oracle (two decimals, unit, within 1/200) is implied by the canonical one, so the model's
   printer meets it as well *)
Lemma canonical_two_decimals : forall num, canonical_number num = true -> two_decimals num = true.
Proof.
  intros num H. unfold canonical_number in H. unfold two_decimals.
  destruct (split_ch 46 num) as [|a [|b [|c r]]]; try discriminate.
  - apply andb_true_iff in H. destruct H as [H _]. exact H.
  - repeat (apply andb_true_iff in H; destruct H as [H ?]). rewrite H. cbn [andb].
    match goal with K : all_digits b = true |- _ => rewrite K end. cbn [andb]. assumption.
Qed.

Lemma ok_print_implies_stmt : forall v u p, ok_print v u p = true -> ok_print_stmt v u p = true.
Proof.
  intros v u p H. unfold ok_print in H. unfold ok_print_stmt. destruct (spec_split p) as [[num u']|]; [|discriminate].
  apply andb_true_iff in H. destruct H as [H H3]. apply andb_true_iff in H. destruct H as [H1 H2].
  rewrite H1, (canonical_two_decimals _ H2), H3. reflexivity.
Qed.

Theorem ok_print_stmt_model : forall v u, (0 <= v)%Q -> ok_print_stmt v u (size_str (mkSize v u)) = true.
Proof. intros v u H. apply ok_print_implies_stmt, ok_print_model. exact H. Qed.
