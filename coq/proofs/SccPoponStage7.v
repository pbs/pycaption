(* C05 / C06, stage 7 of the pop-on refinement.
   A. Section Lift: the lifting of stage 6 (Section Loads there: what is known about ONE load of a class, H_line / H_good /
      H_wf, is lifted to whole programs of loads of the class) in the form the later stages apply it: `lift` (C05) and
      `lift_read` (the captions of load i are a batch `bgood` of the class with the i-th span of the display events).
   B. INSTANCES: the rich loads of stage 5b (any characters, backspaces, any preamble style including italics):
      popon_stage7_read (load i is read as `caps5b` with span i), popon_stage7_observe, popon_stage7_spans_mult,
      popon_stage7_spans, popon_stage7_ok, popon_stage7; and the basic loads of stage 6 through `lift`, as a second
      instance (popon_stage6_again). *)
From Coq Require Import List ZArith QArith Qabs Lia Bool ZifyBool Lqa.
From PV Require Import lib.Sx lib.Str lib.Result model.GenScc model.SccLen model.SccTime model.SccStash model.SccDecoder model.SccLayout
                       model.SccPopon spec.Spec608 spec.SpecScc05 spec.SpecSccLen spec.SpecSccTime proofs.SccTableFacts
                       proofs.SccTableFixFacts proofs.SccDoubleFacts proofs.SccLenFacts proofs.SccStashFacts proofs.SccTimeFacts
                       proofs.SccPoponFacts proofs.SccPoponStage1 proofs.SccPoponStage2 proofs.SccPoponStage3 proofs.SccPoponStage4
                       proofs.SccPoponStage5 proofs.SccPoponStage6.
Import ListNotations. Open Scope Z_scope.

(* performance only (see stage 1) *)
Local Strategy 1000 [basic_code is_basic].
Local Arguments stash_extend : simpl never.

Lemma set_end_set_end : forall e e' c, set_end e' (set_end e c) = set_end e' c.
Proof. reflexivity. Qed.

Lemma has_nodes_set_end : forall e c, has_nodes (set_end e c) = has_nodes c.
Proof. reflexivity. Qed.

Section Lift.
  (* the class of loads, what is known about the creator queued for a load of the class, and about the batch stored for
     a load shown at t0; H_line, H_good, H_wf as in Section Loads of stage 6 *)
  Variable lc_ok : load -> bool.
  Variable lc_good : load -> creator -> Prop.
  Variable lc_caps : load -> Q -> list precap -> Prop.

  Hypothesis H_line : forall d off ld st tk l ds q tm tc fr tc' t,
    lc_ok ld = true -> last_is l w_enm = false ->
    get_time tc' (Z.of_nat (length (emit_load d ld)) - (if d then 2 else 1)) off = Ok t ->
    exists cr tk' l' ds' fr',
      translate_line (B off st tk l ds q tm tc fr) (tc', emit_load d ld)
        = B off (popped st q t) tk' l' ds' (Some (cr, t)) t tc' fr'
      /\ lc_good ld cr /\ last_is l' w_edm = false /\ last_is l' w_enm = false.

  Hypothesis H_good : forall ld cr st t0 t1, lc_ok ld = true -> lc_good ld cr ->
    exists caps, create_and_store st cr t0 t1 = stash_extend st caps /\ caps <> [] /\
      Forall (fun c => pc_start c = t0 /\ pc_end c = t1 /\ has_nodes c = true) caps /\
      (forall c ln, In c caps -> In ln (lines_of (cap_text c)) -> (length ln <= 32)%nat) /\
      (forall e, (t0 < e)%Q -> forall rest,
         load_ok (expected_load ld) (map observe (map (set_end e) caps) ++ rest) None = Some (rest, Some (t0, e))) /\
      lc_caps ld t0 caps.

  Hypothesis H_wf : forall ld, lc_ok ld = true -> load_wf ld = true.

  Definition gseg_ok (s : pseg) : bool := match s with PLoad _ l => lc_ok l | PClear _ => true end.

  (* batches: a load, captions (their end is irrelevant), and the (start, end) they carry in the stash *)
  Definition gbatch : Type := ((load * list precap) * (Q * Q))%type.
  Definition gcaps (b : gbatch) : list precap := map (set_end (snd (snd b))) (snd (fst b)).

  (* independent of the end *)
  Definition bgood (b : gbatch) : Prop :=
    let ld := fst (fst b) in let caps := snd (fst b) in let s := fst (snd b) in
    caps <> [] /\ Forall (fun c => pc_start c = s /\ has_nodes c = true) caps /\
    (forall c ln, In c caps -> In ln (lines_of (cap_text c)) -> (length ln <= 32)%nat) /\
    (forall e, (s < e)%Q -> forall rest,
       load_ok (expected_load ld) (map observe (map (set_end e) caps) ++ rest) None = Some (rest, Some (s, e))) /\
    lc_caps ld s caps.

  (* the captions of load i are a batch of the class with the i-th span *)
  Corollary lift_read : forall d off segs evs,
    forallb gseg_ok segs = true -> res_map (pseg_event d off) segs = Ok evs -> positive evs ->
    match expected_with join_threshold evs with
    | Ok spans => length spans = length (ploads_of segs) /\
                  exists capss, length capss = length spans /\
                    Forall bgood (combine (combine (ploads_of segs) capss) spans) /\
                    read off (map (pseg_line d) segs) = ROk (flat_map gcaps (combine (combine (ploads_of segs) capss) spans))
    | Err e => read off (map (pseg_line d) segs) = RErr e
    end.
  Proof.
    intros d off segs evs Hok He Hp.
    pose proof (prog_read_batches lc_ok lc_good lc_caps H_line H_good d off segs evs Hok He Hp) as H.
    destruct (expected_with join_threshold evs) as [spans|e]; [|exact H].
    destruct H as (bl & Fb & <- & <- & ->). rewrite !map_length. split; [reflexivity|].
    exists (map (fun b : gbatch => snd (fst b)) bl). rewrite map_length. split; [reflexivity|].
    unfold cb_load. rewrite combine_map2.
    assert (E : combine (map (fun a : gbatch => (fst (fst a), snd (fst a))) bl) (map cb_span bl) = bl).
    { rewrite combine_map2. rewrite <- (map_id bl) at 2. apply map_ext. intros [[ld caps] [s e]]. reflexivity. }
    rewrite E. split; [exact Fb|reflexivity].
  Qed.

  (* C05 with the read outcome made explicit: a stream whose expected spans contain no flash is read, and meets the oracle *)
  Corollary lift : forall d off segs evs spans,
    forallb gseg_ok segs = true -> res_map (pseg_event d off) segs = Ok evs -> positive evs -> after_show None evs ->
    expected_with join_threshold evs = Ok spans ->
    exists caps, read off (map (pseg_line d) segs) = ROk caps /\
                 ok_c05 (mkProg d (ploads_of segs)) (Ok (map observe caps)) = true /\
                 dom_c05 (mkProg d (ploads_of segs)) = true.
  Proof. exact (prog_refines lc_ok lc_good lc_caps H_line H_good H_wf). Qed.
End Lift.


(* what is known about the creator queued for a rich load: the nodes of stage 5b, some style *)
Definition good7 (ld : load) (cr : creator) : Prop := exists sty, cr = mkCr (load_nodes5b ld) sty.

Lemma load_line7 : forall d off ld st tk l ds q tm tc fr tc' t, rich_load_any ld = true -> last_is l w_enm = false ->
  get_time tc' (Z.of_nat (length (emit_load d ld)) - (if d then 2 else 1)) off = Ok t ->
  exists cr tk' l' ds' fr',
    translate_line (B off st tk l ds q tm tc fr) (tc', emit_load d ld)
    = B off (popped st q t) tk' l' ds' (Some (cr, t)) t tc' fr'
    /\ good7 ld cr /\ last_is l' w_edm = false /\ last_is l' w_enm = false.
Proof.
  intros d off ld st tk l ds q tm tc fr tc' t H Hl Hg. destruct (rich_load_any_parts ld H) as (r & rest & -> & Hrow & Frest & Hch).
  destruct (load_rows7 st d q tm tc' off tk (nxt (ctl d (ctrl_word 47)) None) r rest Hrow Frest Hch) as (tk2 & l2 & sty2 & E2 & Hl2).
  destruct (load_line_B d off st tk l ds q tm tc fr tc' (r :: rest) t tk2 l2 _ Hl Hg (good7_not_empty r rest sty2 Hrow) Hl2 E2)
    as (l' & ds' & fr' & E & Hl').
  exists (mkCr (load_nodes5b (r :: rest)) sty2), tk2, l', ds', fr'. split; [exact E|split; [exists sty2; reflexivity|exact Hl']].
Qed.

(* the batch stored for a rich load shown at s: the caption creator's output of stage 5b, with some end *)
Definition caps7 (ld : load) (s : Q) (caps : list precap) : Prop := exists t1, caps = caps5b s t1 ld.

Lemma good7_store : forall ld cr st t0 t1, rich_load_any ld = true -> good7 ld cr ->
  exists caps, create_and_store st cr t0 t1 = stash_extend st caps /\ caps <> [] /\
    Forall (fun c => pc_start c = t0 /\ pc_end c = t1 /\ has_nodes c = true) caps /\
    (forall c ln, In c caps -> In ln (lines_of (cap_text c)) -> (length ln <= 32)%nat) /\
    (forall e, (t0 < e)%Q -> forall rest,
       load_ok (expected_load ld) (map observe (map (set_end e) caps) ++ rest) None = Some (rest, Some (t0, e))) /\
    caps7 ld t0 caps.
Proof.
  intros ld cr st t0 t1 H [sty ->]. destruct (rich_load_any_parts ld H) as (r & rest & -> & Hrow & Frest & _).
  exists (caps5b t0 t1 (r :: rest)). split; [exact (store_load7 st t0 t1 r rest sty Hrow Frest)|].
  pose proof (caps5b_observe t0 t1 r rest Hrow Frest) as Ho.
  pose proof (expected_load_good5b r rest Hrow Frest) as Fg.
  destruct (observed_batch (ocap5b t0) (r :: rest) (caps5b t0 t1 (r :: rest)) t0 t1) as (A & B & C & D);
    try (intros; split; reflexivity); try assumption.
  - apply expected_load_nonempty.
  - intros e Hlt. apply (Forall_impl _ (fun x Hx => cap_ok_good5b t0 e x Hx Hlt) Fg).
  - exact (has_nodes_obs t0 t1 _ _ Ho Fg).
  - intros c Hc. assert (Hin : In (observe c) (map (ocap5b t0 t1) (expected_load (r :: rest)))) by (rewrite <- Ho; apply in_map; exact Hc).
    apply in_map_iff in Hin. destruct Hin as (x & Hx & Hin). rewrite Forall_forall in Fg. exact (obs_not_long t0 t1 c x (eq_sym Hx) (Fg x Hin)).
  - repeat split; try assumption. exists t1. reflexivity.
Qed.

Lemma rich_any_wf : forall ld, rich_load_any ld = true -> load_wf ld = true.
Proof. intros ld H. unfold rich_load_any in H. apply andb_true_iff in H. apply H. Qed.

Definition pseg_ok7 (s : pseg) : bool := match s with PLoad _ l => rich_load_any l | PClear _ => true end.

(* C06, multiplicity version *)
Theorem popon_stage7_spans_mult : forall d off segs evs,
  forallb pseg_ok7 segs = true -> res_map (pseg_event d off) segs = Ok evs -> positive evs ->
  spans_of (read off (map (pseg_line d) segs))
  = rmap (fun spans => flat_map bspans (combine (ploads_of segs) spans)) (expected_with join_threshold evs).
Proof. exact (prog_spans_mult rich_load_any good7 caps7 load_line7 good7_store). Qed.

(* C06 *)
Theorem popon_stage7_spans : forall d off segs evs,
  forallb pseg_ok7 segs = true -> res_map (pseg_event d off) segs = Ok evs -> positive evs ->
  rmap screens (spans_of (read off (map (pseg_line d) segs))) = rmap screens (expected_with join_threshold evs).
Proof. exact (prog_spans rich_load_any good7 caps7 load_line7 good7_store). Qed.

(* C05 *)
Theorem popon_stage7_ok : forall d off segs evs caps,
  forallb pseg_ok7 segs = true -> res_map (pseg_event d off) segs = Ok evs -> positive evs -> after_show None evs ->
  read off (map (pseg_line d) segs) = ROk caps ->
  ok_c05 (mkProg d (ploads_of segs)) (Ok (map observe caps)) = true.
Proof. exact (prog_ok rich_load_any good7 caps7 load_line7 good7_store). Qed.

Theorem popon_stage7 : forall d off segs evs spans,
  forallb (fun s => match s with PLoad _ l => rich_load_any l | PClear _ => true end) segs = true ->
  res_map (pseg_event d off) segs = Ok evs -> positive evs -> after_show None evs ->
  expected_with join_threshold evs = Ok spans ->
  exists caps, read off (map (pseg_line d) segs) = ROk caps /\
               ok_c05 (mkProg d (ploads_of segs)) (Ok (map observe caps)) = true /\
               dom_c05 (mkProg d (ploads_of segs)) = true.
Proof. exact (lift rich_load_any good7 caps7 load_line7 good7_store rich_any_wf). Qed.

Lemma build_set_end : forall e' l s e done cur,
  map (set_end e') (build_captions l s e done cur) = build_captions l s e' (map (set_end e') done) (set_end e' cur).
Proof.
  intros e'. induction l as [|n t IH]; intros s e done cur.
  - cbn [build_captions]. rewrite map_app. reflexivity.
  - cbn [build_captions]. destruct (i_kind n); try (rewrite IH; reflexivity).
    + destruct (nonempty (i_text n)); rewrite IH; reflexivity.
    + rewrite IH, map_app. reflexivity.
Qed.

Lemma caps5b_set_end : forall e t0 t1 l, map (set_end e) (caps5b t0 t1 l) = caps5b t0 e l.
Proof. intros e t0 t1 l. unfold caps5b. rewrite build_set_end. reflexivity. Qed.

Definition bcaps7 (b : batch) : list precap := caps5b (fst (snd b)) (snd (snd b)) (fst b).
Definition bocaps7 (b : batch) : list ocap := map (ocap5b (fst (snd b)) (snd (snd b))) (expected_load (fst b)).

Theorem popon_stage7_read : forall d off segs evs,
  forallb pseg_ok7 segs = true -> res_map (pseg_event d off) segs = Ok evs -> positive evs ->
  match expected_with join_threshold evs with
  | Ok spans => length spans = length (ploads_of segs) /\
                read off (map (pseg_line d) segs) = ROk (flat_map bcaps7 (combine (ploads_of segs) spans))
  | Err e => read off (map (pseg_line d) segs) = RErr e
  end.
Proof.
  apply (prog_read_as rich_load_any good7 caps7 load_line7 good7_store (fun ld s e => caps5b s e ld)).
  intros ld s caps e [t1 ->]. apply caps5b_set_end.
Qed.

(* ... and observed: the lines of the screen rows of every load, italic exactly on the italic rows, with the span of
   the load *)
Theorem popon_stage7_observe : forall d off segs evs caps,
  forallb pseg_ok7 segs = true -> res_map (pseg_event d off) segs = Ok evs -> positive evs ->
  read off (map (pseg_line d) segs) = ROk caps ->
  exists spans, expected_with join_threshold evs = Ok spans /\ length spans = length (ploads_of segs) /\
                map observe caps = flat_map bocaps7 (combine (ploads_of segs) spans).
Proof.
  intros d off segs evs caps Hok He Hp Hread. pose proof (popon_stage7_read d off segs evs Hok He Hp) as H.
  destruct (expected_with join_threshold evs) as [spans|e]; [|rewrite H in Hread; discriminate].
  destruct H as [Hlen Hr]. rewrite Hr in Hread. inversion Hread. subst caps. exists spans. split; [reflexivity|split; [exact Hlen|]].
  pose proof (ploads_class rich_load_any segs Hok) as Fl.
  assert (Fc : Forall (fun b : batch => rich_load_any (fst b) = true) (combine (ploads_of segs) spans)).
  { rewrite Forall_forall in *. intros [ld p] Hb. apply Fl. exact (in_combine_l _ _ _ _ Hb). }
  revert Fc. generalize (combine (ploads_of segs) spans). intros bl Fc. clear -Fc.
  induction Fc as [|[ld [s e]] bl Hb Fc IH]; [reflexivity|]. cbn [flat_map]. rewrite map_app, IH. f_equal.
  cbn [fst] in Hb. destruct (rich_load_any_parts ld Hb) as (r & rest & -> & Hrow & Frest & _).
  unfold bcaps7, bocaps7. cbn [fst snd]. exact (caps5b_observe s e r rest Hrow Frest).
Qed.

Theorem popon_stage6_again : forall d off segs evs spans,
  forallb pseg_ok segs = true -> res_map (pseg_event d off) segs = Ok evs -> positive evs -> after_show None evs ->
  expected_with join_threshold evs = Ok spans ->
  exists caps, read off (map (pseg_line d) segs) = ROk caps /\
               ok_c05 (mkProg d (ploads_of segs)) (Ok (map observe caps)) = true /\
               dom_c05 (mkProg d (ploads_of segs)) = true.
Proof. exact (lift basic_load (fun ld cr => cr = lcr ld) basic_caps load_line6 basic_store basic_wf). Qed.

(* three rich loads (italic and plain rows, special / extended characters, backspaces; three captions, three, one), two
   clear lines in between (the second one finds nothing on the screen), doubled control codes: the hypotheses of the
   theorems hold, and the model returns seven captions, the span of load i on every caption of load i *)
Definition wit_segs7 : list pseg :=
  [PLoad (lit "00:00:01;00") wit_load5b; PClear (lit "00:00:04;00"); PClear (lit "00:00:04;10");
   PLoad (lit "00:00:05;00") wit_load5; PLoad (lit "00:00:08;00") [wit_row 15 0 0 (lit "ok")]].
Lemma rich_load_any_one : forall r, rich_row_any r = true -> rich_load_any [r] = true.
Proof.
  intros r H. unfold rich_load_any, load_wf. cbn [forallb]. rewrite H. unfold rich_row_any in H.
  apply andb_true_iff in H. rewrite (proj1 H). reflexivity.
Qed.

(* the loads are those of the examples of stage 5 (checked there); the first is not basic: its first row has a styled preamble *)
Example wit_segs7_ok : forallb pseg_ok7 wit_segs7 = true /\ forallb pseg_ok wit_segs7 = false /\
  map (fun l => length (expected_load l)) (ploads_of wit_segs7) = [3; 3; 1]%nat.
Proof.
  split; [|split; [|vm_compute; reflexivity]].
  - cbn [wit_segs7 forallb pseg_ok7]. rewrite (proj1 wit_load5b_ok), (rich_load_any_of _ (proj1 wit_load5_rich)), rich_load_any_one; [reflexivity|vm_compute; reflexivity].
  - cbn [wit_segs7 forallb pseg_ok]. destruct (basic_load wit_load5b) eqn:E; [|reflexivity].
    destruct (basic_load_parts _ E) as (r & t & Hl & Hr & _). injection Hl as <- _. discriminate (basic_row_style _ Hr).
Qed.

Example wit_segs7_run :
  let evs := [Show (6200000 # 3); Clear 4000000; Clear (13000000 # 3); Show 6600000; Show (24700000 # 3)] in
  res_map (pseg_event true 0) wit_segs7 = Ok evs /\ positive evs /\ after_show None evs /\
  expected_with join_threshold evs = Ok [(6200000 # 3, 4000000%Q); (6600000%Q, 24700000 # 3); (24700000 # 3, 36700000 # 3)] /\
  spans_of (read 0 (map (pseg_line true) wit_segs7))
  = Ok [(6200000 # 3, 4000000%Q); (6200000 # 3, 4000000%Q); (6200000 # 3, 4000000%Q);
        (6600000%Q, 24700000 # 3); (6600000%Q, 24700000 # 3); (6600000%Q, 24700000 # 3); (24700000 # 3, 36700000 # 3)].
Proof.
  cbv zeta. set (evs := [Show (6200000 # 3); Clear 4000000; Clear (13000000 # 3); Show 6600000; Show (24700000 # 3)]).
  assert (He : res_map (pseg_event true 0) wit_segs7 = Ok evs) by (vm_compute; reflexivity).
  assert (Hp : positive evs) by (intros e [<-|[<-|[<-|[<-|[<-|[]]]]]]; reflexivity).
  assert (Hx : expected_with join_threshold evs
               = Ok [(6200000 # 3, 4000000%Q); (6600000%Q, 24700000 # 3); (24700000 # 3, 36700000 # 3)]) by (vm_compute; reflexivity).
  split; [exact He|]. split; [exact Hp|]. split; [cbn; repeat split|]. split; [exact Hx|].
  rewrite (popon_stage7_spans_mult true 0 wit_segs7 evs (proj1 wit_segs7_ok) He Hp), Hx. vm_compute. reflexivity.
Qed.

(* Outside this stage: rows with mid-row codes (the one-load result of stage 8 has the form H_line / H_good; stage 9 applies
   `lift` to it), and streams whose loads are not each on a line of their own. *)
