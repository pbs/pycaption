(* Facts about doubled control codes, PAC + tab offset units, backspace and extended characters
   of the SCC decoder model (model/SccDecoder.v). *)
From Coq Require Import List ZArith QArith Lia Bool ZifyBool.
From PV Require Import lib.Sx lib.Str lib.Result model.GenScc model.SccLen model.SccTime model.SccStash model.SccDecoder
  proofs.SccTableFacts.
Import ListNotations.
Open Scope Z_scope.

Lemma pac_facts : forall w, is_pac w = true -> tab_of w = None /\ is_cue_start w = false.
Proof.
  intros w H. apply is_pac_key in H.
  pose proof (map_eq_pointwise (fun w => (tab_of w, is_cue_start w)) (fun _ => (None, false))
                               (map fst scc_pac) ltac:(vmr) w H) as E.
  split_pairs E. auto.
Qed.

Lemma tab_facts : forall t, tab_of t <> None ->
  is_command t = true /\ is_cue_start t = false /\ is_pac t = false /\ special_of t = None /\ extended_of t = None.
Proof.
  intros t H. apply assocz_key in H.
  pose proof (map_eq_pointwise (fun t => (is_command t, is_cue_start t, is_pac t, special_of t, extended_of t))
                               (fun _ => (true, false, false, None, None))
                               (map fst scc_tab_offsets) ltac:(vmr) t H) as E.
  split_pairs E. auto.
Qed.

Lemma extended_not_bs : extended_of w_bs = None.
Proof. vm_compute. reflexivity. Qed.

Lemma extended_neq_bs : forall w txt, extended_of w = Some txt -> (w =? w_bs) = false.
Proof.
  intros w txt H. destruct (Z.eqb_spec w w_bs) as [->|]; [|reflexivity].
  rewrite extended_not_bs in H. discriminate.
Qed.

(* ---- the doubling memory (last_command, double_starter) is touched only by handle_double --------- *)
Definition dbl (s : rstate) : lastcmd * bool := (r_last s, r_dstart s).

Lemma rstate_eq : forall a b,
  r_stash a = r_stash b -> r_tk a = r_tk b -> r_last a = r_last b -> r_dstart a = r_dstart b ->
  r_pop a = r_pop b -> r_paint a = r_paint b -> r_roll a = r_roll b -> r_active a = r_active b ->
  r_queue a = r_queue b -> r_time a = r_time b -> r_tc a = r_tc b -> r_frames a = r_frames b ->
  r_offset a = r_offset b -> r_err a = r_err b -> a = b.
Proof. intros [] []; cbn; intros; subst; reflexivity. Qed.

Lemma dbl_set_buf : forall s c, dbl (set_buf s c) = dbl s.
Proof. intros. unfold set_buf. destruct (r_active s); reflexivity. Qed.
Lemma dbl_set_stash : forall s x, dbl (set_stash s x) = dbl s.  Proof. reflexivity. Qed.
Lemma dbl_set_tk : forall s x, dbl (set_tk s x) = dbl s.  Proof. reflexivity. Qed.
Lemma dbl_set_active : forall s x, dbl (set_active s x) = dbl s.  Proof. reflexivity. Qed.
Lemma dbl_set_queue : forall s x, dbl (set_queue s x) = dbl s.  Proof. reflexivity. Qed.
Lemma dbl_set_time : forall s x, dbl (set_time s x) = dbl s.  Proof. reflexivity. Qed.
Lemma dbl_set_clock : forall s x f, dbl (set_clock s x f) = dbl s.  Proof. reflexivity. Qed.
Lemma dbl_set_err : forall s x, dbl (set_err s x) = dbl s.  Proof. reflexivity. Qed.
Lemma dbl_bump : forall s, dbl (bump s) = dbl s.  Proof. reflexivity. Qed.
Lemma dbl_set_dbl : forall s l d, dbl (set_dbl s l d) = (l, d).  Proof. reflexivity. Qed.

Lemma dbl_with_time : forall s k, (forall t, dbl (k t) = dbl s) -> dbl (with_time s k) = dbl s.
Proof. intros s k H. unfold with_time. destruct (get_time _ _ _); [apply H|apply dbl_set_err]. Qed.

Lemma dbl_store : forall s c a b, dbl (store s c a b) = dbl s.
Proof. reflexivity. Qed.

Lemma dbl_pop_on : forall s e, dbl (pop_on s e) = dbl s.
Proof. intros. unfold pop_on. destruct (r_queue s) as [[c st]|]; reflexivity. Qed.

Lemma dbl_roll_up : forall s, dbl (roll_up s) = dbl s.
Proof.
  intros. unfold roll_up. cbv zeta. rewrite dbl_with_time.
  - rewrite dbl_set_buf. apply dbl_store.
  - intros t. rewrite dbl_set_stash, dbl_set_time. reflexivity.
Qed.

Lemma dbl_flush_implicit : forall s, dbl (flush_implicit s) = dbl s.
Proof.
  intros. unfold flush_implicit. destruct (r_active s).
  - destruct (r_queue s); [apply dbl_pop_on|reflexivity].
  - destruct (cr_is_empty (buf s)); [reflexivity|]. rewrite dbl_set_buf. apply dbl_store.
  - destruct (cr_is_empty (buf s)); [reflexivity|]. apply dbl_roll_up.
Qed.

Lemma dbl_activate : forall s m, dbl (activate s m) = dbl s.
Proof.
  intros. unfold activate. destruct (mode_eqb m (r_active s)); [reflexivity|].
  rewrite dbl_set_active. apply dbl_flush_implicit.
Qed.

Lemma dbl_flush_buffer : forall s, dbl (flush_buffer s) = dbl s.
Proof.
  intros. unfold flush_buffer. destruct (cr_is_empty (buf s)); [reflexivity|].
  rewrite dbl_set_buf. apply dbl_store.
Qed.

Lemma dbl_do_interpret : forall s w n, dbl (do_interpret s w n) = dbl s.
Proof.
  intros. unfold do_interpret. destruct (interpret_command _ _ _ _) as [[t c] [e|]].
  - rewrite dbl_set_err, dbl_set_buf. reflexivity.
  - rewrite dbl_set_buf. reflexivity.
Qed.

Lemma dbl_add_to_buf : forall s txt, dbl (add_to_buf s txt) = dbl s.
Proof.
  intros. unfold add_to_buf. destruct (add_chars _ _ _) as [t c]. rewrite dbl_set_buf. reflexivity.
Qed.

Lemma dbl_mode_switch : forall s0 s, dbl s = dbl s0 ->
  dbl (if (match r_err s with Some _ => true | None => false end) then s
       else with_time s (fun t => set_time s t)) = dbl s0.
Proof.
  intros s0 s H. destruct (r_err s); [exact H|]. rewrite dbl_with_time; [exact H|reflexivity].
Qed.

Lemma dbl_translate_command : forall s w n, dbl (translate_command s w n) = dbl s.
Proof.
  intros. unfold translate_command.
  destruct (w =? w_rcl); [apply dbl_activate|].
  destruct (w =? w_rdc).
  { cbv zeta. apply dbl_mode_switch. rewrite dbl_flush_buffer. apply dbl_activate. }
  destruct ((w =? w_ru2) || (w =? w_ru3) || (w =? w_ru4)).
  { cbv zeta. apply dbl_mode_switch. rewrite dbl_flush_buffer. apply dbl_activate. }
  destruct (w =? w_enm); [apply dbl_set_buf|].
  destruct (w =? w_eoc).
  { apply dbl_with_time. intros t. cbv zeta.
    set (s' := match r_queue (set_time s t) with Some _ => pop_on (set_time s t) t | None => set_time s t end).
    assert (H : dbl s' = dbl s).
    { subst s'. destruct (r_queue (set_time s t)); [rewrite dbl_pop_on|]; reflexivity. }
    clearbody s'. destruct (cr_is_empty (buf s')); [exact H|].
    rewrite dbl_set_buf. exact H. }
  destruct (w =? w_cr).
  { destruct (cr_is_empty (buf s)); [reflexivity|apply dbl_roll_up]. }
  destruct ((w =? w_edm) && _).
  { apply dbl_with_time. intros t. apply dbl_pop_on. }
  apply dbl_do_interpret.
Qed.

(* an executed word: everything after handle_double keeps the doubling memory *)
Lemma translate_word_dbl : forall s w n s',
  r_err s = None -> handle_double s w = (false, s') -> dbl (translate_word s w n) = dbl s'.
Proof.
  intros s w n s' He Hd. unfold translate_word. rewrite He, Hd. cbv beta iota zeta.
  assert (HX : forall X, dbl X = dbl s' -> dbl (match r_err X with Some _ => X | None => bump X end) = dbl s').
  { intros X HX. destruct (r_err X); [|rewrite dbl_bump]; exact HX. }
  apply HX.
  destruct (is_command w || is_pac w); [apply dbl_translate_command|].
  destruct (special_of w); [apply dbl_add_to_buf|].
  destruct (extended_of w); [rewrite dbl_add_to_buf; apply dbl_set_buf|].
  destruct (char_of (hi w)); [|reflexivity].
  destruct (char_of (lo w)); [apply dbl_add_to_buf|reflexivity].
Qed.

Lemma handle_double_exec : forall s w, fst (handle_double s w) = false -> tab_of w = None ->
  handle_double s w =
  (false, set_dbl s (LWord w) (if is_cue_start w && negb (last_is (r_last s) w) then false else r_dstart s)).
Proof.
  intros s w H Ht. unfold handle_double in *. rewrite Ht in *. cbv zeta in *.
  destruct (_ && last_is (r_last s) w); [discriminate H|].
  destruct (is_pac w && last_contains (r_last s) w); [discriminate H|].
  reflexivity.
Qed.

Lemma first_copy_last : forall s w n,
  r_err s = None -> fst (handle_double s w) = false -> tab_of w = None ->
  r_last (translate_word s w n) = LWord w.
Proof.
  intros s w n He Hd Ht.
  pose proof (translate_word_dbl s w n _ He (handle_double_exec s w Hd Ht)) as H.
  rewrite dbl_set_dbl in H. unfold dbl in H. congruence.
Qed.

(* ---- A. a doubled control code counts once ------------------------------------------------------ *)
(* every control code type (command incl. backspace, preamble code, special, extended) is doubled, whatever the
   state; the state argument is kept for the callers *)
Definition doubled_type (s : rstate) (w : Z) : bool :=
  is_command w || is_pac w
  || (match special_of w with Some _ => true | None => false end)
  || (match extended_of w with Some _ => true | None => false end).

Theorem doubling_unconditional : forall s w,
  doubled_type s w = (is_command w || is_pac w
                      || (match special_of w with Some _ => true | None => false end)
                      || (match extended_of w with Some _ => true | None => false end)).
Proof. reflexivity. Qed.

Lemma handle_double_second : forall s w, r_last s = LWord w -> doubled_type s w = true ->
  handle_double s w = (true, set_dbl s LNone (if is_cue_start w then true else r_dstart s)).
Proof.
  intros s w Hl Hd. unfold handle_double, doubled_type in *. cbv zeta. rewrite Hl. cbn [last_is].
  rewrite Z.eqb_refl, Hd. cbn [andb negb]. rewrite andb_false_r. reflexivity.
Qed.

Theorem doubling_once : forall s w n1 n2,
  r_err s = None ->
  fst (handle_double s w) = false ->
  tab_of w = None ->
  let s1 := translate_word s w n1 in
  r_err s1 = None ->
  doubled_type s1 w = true ->
  translate_word s1 w n2 = bump (set_dbl s1 LNone (if is_cue_start w then true else r_dstart s1)).
Proof.
  intros s w n1 n2 He Hd Ht s1 He1 Hty.
  assert (Hl : r_last s1 = LWord w) by (apply first_copy_last; assumption).
  unfold translate_word at 1. rewrite He1, (handle_double_second s1 w Hl Hty). reflexivity.
Qed.

Corollary doubling_once_words : forall s w rest,
  r_err s = None -> fst (handle_double s w) = false -> tab_of w = None ->
  r_err (translate_word s w (Some w)) = None -> doubled_type (translate_word s w (Some w)) w = true ->
  translate_words s (w :: w :: rest) =
  translate_words (bump (set_dbl (translate_word s w (Some w)) LNone
                     (if is_cue_start w then true else r_dstart (translate_word s w (Some w))))) rest.
Proof.
  intros s w rest He Hd Ht He1 Hty. cbn [translate_words].
  rewrite (doubling_once s w (Some w) _ He Hd Ht He1 Hty). reflexivity.
Qed.

(* ---- B. PAC + tab offset ------------------------------------------------------------------------ *)
Lemma set_dbl_same : forall s, set_dbl s (r_last s) (r_dstart s) = s.
Proof. intros []; reflexivity. Qed.

(* a tab offset that does not follow its preamble code is skipped *)
Lemma handle_double_tab_skip : forall s t, tab_of t <> None -> (forall p, r_last s = LWord p -> is_pac p = false) ->
  last_is (r_last s) t = false ->
  handle_double s t = (true, s).
Proof.
  intros s t Ht Hl Hli. destruct (tab_facts t Ht) as (_ & Hc & Hp & _ & _).
  unfold handle_double. cbv zeta. rewrite Hli, Hc, Hp. cbn [andb]. rewrite andb_false_r.
  destruct (tab_of t); [|congruence].
  destruct (r_last s) eqn:E; try (rewrite <- E, set_dbl_same; reflexivity).
  rewrite (Hl w eq_refl). rewrite <- E, set_dbl_same. reflexivity.
Qed.

Lemma tab_skip_none : forall s t n, r_err s = None -> r_last s = LNone -> tab_of t <> None ->
  translate_word s t n = bump s.
Proof.
  intros s t n He Hl Ht. unfold translate_word. rewrite He, (handle_double_tab_skip s t Ht).
  - reflexivity.
  - intros p E. congruence.
  - rewrite Hl. reflexivity.
Qed.

Lemma pac_neq_tab : forall p t, is_pac p = true -> tab_of t <> None -> (p =? t) = false.
Proof.
  intros p t Hp Ht. destruct (Z.eqb_spec p t) as [->|]; [|reflexivity].
  destruct (pac_facts t Hp) as [E _]. congruence.
Qed.

(* the tab offset right after its (executed) preamble code is executed and remembered with it *)
Lemma tab_after_pac : forall s p t n, r_err s = None -> r_last s = LWord p -> is_pac p = true -> tab_of t <> None ->
  dbl (translate_word s t n) = (LPacTo p t, r_dstart s).
Proof.
  intros s p t n He Hl Hp Ht. destruct (tab_facts t Ht) as (_ & Hc & Hpt & _ & _).
  rewrite (translate_word_dbl s t n (set_dbl s (LPacTo p t) (r_dstart s)) He); [reflexivity|].
  unfold handle_double. cbv zeta. rewrite Hl, Hc, Hpt. cbn [last_is andb].
  rewrite (pac_neq_tab p t Hp Ht), andb_false_r, Hp.
  destruct (tab_of t); [reflexivity|congruence].
Qed.

(* the second copy of a preamble code whose first copy is remembered (alone or with its tab offset) *)
Lemma pac_second : forall s p n, r_err s = None -> is_pac p = true -> last_contains (r_last s) p = true ->
  translate_word s p n = bump (set_dbl s LNone (r_dstart s)).
Proof.
  intros s p n He Hp Hl. destruct (pac_facts p Hp) as [_ Hc].
  unfold translate_word. rewrite He. unfold handle_double. cbv zeta. rewrite Hp, Hc, Hl. cbn [andb].
  rewrite orb_true_r. cbn [orb].
  destruct (last_is (r_last s) p); reflexivity.
Qed.

Lemma bump_bump_dbl : forall s d, bump (set_dbl (bump (set_dbl s LNone d)) LNone d) = bump (bump (set_dbl s LNone d)).
Proof. intros [] d. reflexivity. Qed.

(* p t p t : the second pair is skipped entirely *)
Theorem pac_tab_unit_once : forall s p t n1 n2 n3 n4,
  r_err s = None -> is_pac p = true -> tab_of t <> None ->
  fst (handle_double s p) = false ->
  let s1 := translate_word s p n1 in r_err s1 = None ->
  let s2 := translate_word s1 t n2 in r_err s2 = None ->
  r_last s2 = LPacTo p t /\
  translate_word (translate_word s2 p n3) t n4 = bump (bump (set_dbl s2 LNone (r_dstart s2))).
Proof.
  intros s p t n1 n2 n3 n4 He Hp Ht Hd s1 He1 s2 He2.
  destruct (pac_facts p Hp) as [Htp _].
  assert (Hl1 : r_last s1 = LWord p) by (apply first_copy_last; assumption).
  pose proof (tab_after_pac s1 p t n2 He1 Hl1 Hp Ht) as D2. fold s2 in D2. unfold dbl in D2.
  assert (Hl2 : r_last s2 = LPacTo p t) by congruence.
  split; [exact Hl2|].
  rewrite (pac_second s2 p n3 He2 Hp).
  - apply tab_skip_none; [exact He2|reflexivity|exact Ht].
  - rewrite Hl2. cbn [last_contains]. rewrite Z.eqb_refl. reflexivity.
Qed.

(* p p t t : both tab offsets are skipped *)
Theorem pac_pac_tab_tab_drops_offset : forall s p t n1 n2 n3 n4,
  r_err s = None -> is_pac p = true -> tab_of t <> None ->
  fst (handle_double s p) = false ->
  let s1 := translate_word s p n1 in r_err s1 = None ->
  translate_word (translate_word (translate_word s1 p n2) t n3) t n4 = bump (bump (bump (set_dbl s1 LNone (r_dstart s1)))).
Proof.
  intros s p t n1 n2 n3 n4 He Hp Ht Hd s1 He1.
  destruct (pac_facts p Hp) as [Htp _].
  assert (Hl1 : r_last s1 = LWord p) by (apply first_copy_last; assumption).
  rewrite (pac_second s1 p n2 He1 Hp).
  - rewrite (tab_skip_none _ t n3); [|exact He1|reflexivity|exact Ht].
    apply tab_skip_none; [exact He1|reflexivity|exact Ht].
  - rewrite Hl1. cbn [last_contains]. apply Z.eqb_refl.
Qed.

(* ---- C. backspace and extended characters -------------------------------------------------------- *)
Definition ncontent (l : list inode) : str := concat (map i_text l).
Definition content (c : creator) : str := concat (map i_text (cr_nodes c)).
Definition wf_nodes (l : list inode) : Prop := forall n, In n l -> is_text n = false -> i_text n = [].

Lemma ncontent_app : forall a b, ncontent (a ++ b) = ncontent a ++ ncontent b.
Proof. intros. unfold ncontent. rewrite map_app, concat_app. reflexivity. Qed.

Lemma ncontent_one : forall n, ncontent [n] = i_text n.
Proof. intros. unfold ncontent. cbn [map concat]. apply app_nil_r. Qed.

Lemma ncontent_empty : forall l, (forall n, In n l -> i_text n = []) -> ncontent l = [].
Proof.
  induction l as [|a l IH]; intros H; [reflexivity|].
  unfold ncontent. cbn [map concat]. rewrite (H a (or_introl eq_refl)).
  apply IH. intros n Hn. apply H. right. exact Hn.
Qed.

Lemma wf_app : forall a b, wf_nodes (a ++ b) <-> wf_nodes a /\ wf_nodes b.
Proof.
  intros a b. unfold wf_nodes. split.
  - intros H. split; intros n Hn; apply H; apply in_or_app; auto.
  - intros [Ha Hb] n Hn. apply in_app_or in Hn. destruct Hn; auto.
Qed.

Lemma wf_rev : forall l, wf_nodes (rev l) <-> wf_nodes l.
Proof.
  intros l. unfold wf_nodes. split; intros H n Hn; apply H.
  - apply in_rev in Hn. exact Hn.
  - apply in_rev. exact Hn.
Qed.

Lemma wf_cons : forall n l, wf_nodes (n :: l) <-> (is_text n = false -> i_text n = []) /\ wf_nodes l.
Proof.
  intros n l. unfold wf_nodes. split.
  - intros H. split; [apply H; left; reflexivity|]. intros m Hm. apply H. right. exact Hm.
  - intros [H1 H2] m [<-|Hm]; auto.
Qed.

Lemma wf_empty_text : forall l, (forall n, In n l -> i_text n = []) -> wf_nodes l.
Proof. intros l H n Hn _. apply H. exact Hn. Qed.

Lemma last_some_snoc : forall A (l : list A) c, last (map Some l) None = Some c -> exists l', l = l' ++ [c].
Proof.
  intros A. induction l as [|a t IH]; intros c H; [discriminate|].
  destruct t as [|b t'].
  - simpl in H. inversion H. exists []. reflexivity.
  - change (last (map Some (b :: t')) None = Some c) in H. destruct (IH c H) as [l' E].
    exists (a :: l'). rewrite E. reflexivity.
Qed.

Lemma map_last_snoc : forall A (f : A -> A) l x, map_last f (l ++ [x]) = l ++ [f x].
Proof.
  intros A f. induction l as [|a l IH]; intros x; [reflexivity|].
  change ((a :: l) ++ [x]) with (a :: (l ++ [x])).
  assert (E : map_last f (a :: (l ++ [x])) = a :: map_last f (l ++ [x])).
  { destruct (l ++ [x]) eqn:E; [destruct l; discriminate|reflexivity]. }
  rewrite E, IH. reflexivity.
Qed.

Lemma last_app_ne : forall A (a b : list A) d, b <> [] -> last (a ++ b) d = last b d.
Proof.
  intros A a b d Hb. induction a as [|x a IH]; [reflexivity|].
  cbn [app]. destruct (a ++ b) eqn:E.
  - destruct a; [cbn in E; congruence|discriminate].
  - rewrite <- IH. reflexivity.
Qed.

(* the nodes after add_chars: the old nodes, some fresh empty nodes, and the text goes to a final text node *)
Lemma add_chars_shape : forall t c s, exists ext l' x,
  cr_nodes c ++ ext = l' ++ [x] /\ is_text x = true /\ (forall n, In n ext -> i_text n = []) /\
  cr_nodes (snd (add_chars t c s)) = l' ++ [add_text s x].
Proof.
  intros t c s. unfold add_chars. cbv zeta.
  set (cur := current_position t). set (T := mkI IText [] cur).
  (* first the list with the node to write to (the last node reused, or a fresh T), then the break / reposition
     suffix, which ends in a fresh T again *)
  match goal with |- context [if ?r then cr_nodes c else _] => set (reuse := r) end.
  assert (S1 : exists e1 l1 x1, (if reuse then cr_nodes c else cr_nodes c ++ [T]) = cr_nodes c ++ e1 /\
             cr_nodes c ++ e1 = l1 ++ [x1] /\ is_text x1 = true /\ (forall n, In n e1 -> i_text n = [])).
  { destruct reuse eqn:R; subst reuse.
    - destruct (last (map Some (cr_nodes c)) None) as [n|] eqn:El; [|discriminate R].
      apply andb_true_iff in R. destruct R as [Hn _]. destruct (last_some_snoc _ _ _ El) as [l0 E0].
      exists [], l0, n. rewrite app_nil_r. repeat split; auto. intros ? [].
    - exists [T], (cr_nodes c), T. repeat split. intros n [<-|[]]. reflexivity. }
  destruct S1 as (e1 & l1 & x1 & E1 & D1 & X1 & F1). rewrite E1. clear E1 reuse.
  assert (F2 : forall k n, In n (e1 ++ [mkI k [] cur; T]) -> i_text n = []).
  { intros k n Hn. apply in_app_or in Hn. destruct Hn as [Hn|[<-|[<-|[]]]]; auto. }
  destruct (break_required t); [|destruct (tk_repos t)]; cbn [snd cr_nodes].
  - exists (e1 ++ [mkI IBreak [] cur; T]), ((cr_nodes c ++ e1) ++ [mkI IBreak [] cur]), T.
    repeat split; [rewrite <- !app_assoc; reflexivity|apply F2|].
    rewrite <- (map_last_snoc _ (add_text s)), <- !app_assoc. reflexivity.
  - exists (e1 ++ [mkI IRepos [] cur; T]), ((cr_nodes c ++ e1) ++ [mkI IRepos [] cur]), T.
    repeat split; [rewrite <- !app_assoc; reflexivity|apply F2|].
    rewrite <- (map_last_snoc _ (add_text s)), <- !app_assoc. reflexivity.
  - exists e1, l1, x1. rewrite D1. repeat split; auto. apply map_last_snoc.
Qed.

Lemma add_chars_content : forall t c s, content (snd (add_chars t c s)) = content c ++ s.
Proof.
  intros t c s. destruct (add_chars_shape t c s) as (ext & l' & x & E & _ & He & Hn).
  unfold content. rewrite Hn. fold (ncontent (l' ++ [add_text s x])). fold (ncontent (cr_nodes c)).
  rewrite ncontent_app, ncontent_one. cbn [add_text i_text].
  assert (H : ncontent (cr_nodes c) = ncontent l' ++ i_text x).
  { rewrite <- (ncontent_one x), <- ncontent_app, <- E, ncontent_app, (ncontent_empty ext He).
    symmetry. apply app_nil_r. }
  rewrite H, app_assoc. reflexivity.
Qed.

Lemma add_chars_wf : forall t c s, wf_nodes (cr_nodes c) -> wf_nodes (cr_nodes (snd (add_chars t c s))).
Proof.
  intros t c s W. destruct (add_chars_shape t c s) as (ext & l' & x & E & Hx & He & Hn).
  rewrite Hn. assert (W' : wf_nodes (l' ++ [x])).
  { rewrite <- E. apply wf_app. split; [exact W|apply wf_empty_text; exact He]. }
  apply wf_app in W'. apply wf_app. split; [apply W'|].
  intros n [<-|[]] H. unfold is_text in *. cbn [add_text i_kind] in H. congruence.
Qed.

(* get_previous_text_node on the reversed node list *)
Lemma prev_text_rev_spec : forall f r b, wf_nodes r ->
  match prev_text_rev r b with
  | None => ncontent (rev r) = []
  | Some (txt, _) => exists pre, ncontent (rev r) = pre ++ txt /\ txt <> [] /\
                                 ncontent (rev (upd_prev_text_rev f r)) = pre ++ f txt
  end.
Proof.
  intros f. induction r as [|n r IH]; intros b W; [reflexivity|].
  apply wf_cons in W. destruct W as [Wn W].
  cbn [prev_text_rev upd_prev_text_rev]. destruct (is_text n && nonempty (i_text n)) eqn:E.
  - exists (ncontent (rev r)). cbn [rev]. rewrite !ncontent_app, !ncontent_one. cbn [i_text].
    repeat split. apply andb_true_iff in E. destruct E as [_ E]. destruct (i_text n); [discriminate|congruence].
  - assert (Hn : i_text n = []).
    { destruct (is_text n); [|auto]. cbn [andb] in E. destruct (i_text n); [reflexivity|discriminate]. }
    specialize (IH (b || is_break n) W).
    destruct (prev_text_rev r (b || is_break n)) as [[txt b']|].
    + destruct IH as (pre & H1 & H2 & H3). exists pre. cbn [rev].
      rewrite !ncontent_app, !ncontent_one, Hn, !app_nil_r. auto.
    + cbn [rev]. rewrite ncontent_app, ncontent_one, Hn, app_nil_r. exact IH.
Qed.

Lemma upd_prev_text_rev_wf : forall f r, wf_nodes r -> wf_nodes (upd_prev_text_rev f r).
Proof.
  intros f. induction r as [|n r IH]; intros W; [exact W|].
  apply wf_cons in W. destruct W as [Wn W]. cbn [upd_prev_text_rev].
  destruct (is_text n && nonempty (i_text n)) eqn:E.
  - apply wf_cons. split; [|exact W]. apply andb_true_iff in E. destruct E as [E _].
    unfold is_text in *. cbn [i_kind]. congruence.
  - apply wf_cons. split; auto.
Qed.

Lemma upd_prev_text_wf : forall f l, wf_nodes l -> wf_nodes (upd_prev_text f l).
Proof. intros f l W. unfold upd_prev_text. apply wf_rev, upd_prev_text_rev_wf, wf_rev. exact W. Qed.

Lemma prev_text_spec : forall f l, wf_nodes l ->
  match prev_text l with
  | None => ncontent l = []
  | Some (txt, _) => exists pre, ncontent l = pre ++ txt /\ txt <> [] /\
                                 ncontent (upd_prev_text f l) = pre ++ f txt
  end.
Proof.
  intros f l W. unfold prev_text, upd_prev_text.
  pose proof (prev_text_rev_spec f (rev l) false (proj2 (wf_rev l) W)) as H.
  rewrite rev_involutive in H. exact H.
Qed.

Lemma handle_backspace_wf : forall w c, wf_nodes (cr_nodes c) -> wf_nodes (cr_nodes (handle_backspace w c)).
Proof.
  intros w c W. unfold handle_backspace. destruct (prev_text (cr_nodes c)) as [[txt b]|]; [|exact W].
  destruct (_ || _); [|exact W]. cbn [cr_nodes]. apply upd_prev_text_wf. exact W.
Qed.

(* also right when there is nothing to delete: both sides are then empty *)
Lemma handle_backspace_content : forall w c, wf_nodes (cr_nodes c) ->
  content (handle_backspace w c) =
  if (match extended_of w with Some _ => true | None => false end
      && negb (is_extended_value (last_char (content c)))) || (w =? w_bs)
  then removelast (content c) else content c.
Proof.
  intros w c W. unfold handle_backspace. pose proof (prev_text_spec drop_last (cr_nodes c) W) as P.
  change (content c) with (ncontent (cr_nodes c)).
  destruct (prev_text (cr_nodes c)) as [[tx b]|].
  - destruct P as (pre & H1 & H2 & H3). rewrite H1. unfold last_char. rewrite (last_app_ne _ pre tx 0 H2).
    destruct (_ || _); [|exact H1].
    change (ncontent (upd_prev_text drop_last (cr_nodes c)) = removelast (pre ++ tx)).
    rewrite H3. symmetry. apply removelast_app. exact H2.
  - change (content c) with (ncontent (cr_nodes c)). rewrite P. destruct (_ || _); reflexivity.
Qed.

(* without wf_nodes a non-text node could carry text and the statement below fails *)
Example backspace_needs_wf :
  let c := mkCr [mkI IText [65] (1, 0); mkI IBreak [66] (1, 0)] SNone in
  content (handle_backspace w_bs c) = [66] /\ removelast (content c) = [65].
Proof. vm_compute. split; reflexivity. Qed.

Theorem backspace_deletes_one : forall c, wf_nodes (cr_nodes c) ->
  content (handle_backspace w_bs c) = removelast (content c).
Proof. intros c W. rewrite (handle_backspace_content _ _ W), Z.eqb_refl, orb_true_r. reflexivity. Qed.

(* the hypotheses and the conclusion of doubling_once on a concrete stream: a doubled backspace after a SINGLE
   resume-caption-loading command (double_starter is false) erases exactly ONE character:
   94ae 9420 9440 "ab" 94a1 94a1 leaves "a" *)
Example doubled_backspace_after_single_rcl :
  let s := translate_words (set_clock (rstate0 0) (lit "00:00:01:00") 0) [w_enm; w_rcl; 37952; 24930] in
  let s1 := translate_word s w_bs (Some w_bs) in
  r_err s = None /\ r_dstart s = false /\ fst (handle_double s w_bs) = false /\ tab_of w_bs = None /\
  r_err s1 = None /\ doubled_type s1 w_bs = true /\
  content (buf s) = [97; 98] /\ content (buf s1) = [97] /\
  translate_word s1 w_bs None = bump (set_dbl s1 LNone (if is_cue_start w_bs then true else r_dstart s1)) /\
  content (buf (translate_word s1 w_bs None)) = [97].
Proof. vm_compute. repeat split; reflexivity. Qed.

(* extended_replaces_standin and extended_after_extended_keeps fail without wf_nodes, again on a non-text node
   that carries text *)
Example extended_replaces_needs_wf :
  let w := fst (hd (0, []) scc_extended_chars) in
  let c := mkCr [mkI IText [65] (1, 0); mkI IBreak [66] (1, 0)] SNone in
  exists txt, extended_of w = Some txt /\ content c <> [] /\ is_extended_value (last (content c) 0) = false /\
    content (snd (add_chars tracker0 (handle_backspace w c) txt)) <> removelast (content c) ++ txt.
Proof.
  eexists. split; [vm_compute; reflexivity|]. split; [discriminate|]. split; [vm_compute; reflexivity|].
  vm_compute. discriminate.
Qed.

Example extended_keeps_needs_wf :
  let w := fst (hd (0, []) scc_extended_chars) in
  let x := hd 0 (snd (hd (0, []) scc_extended_chars)) in
  let c := mkCr [mkI IText [65] (1, 0); mkI IBreak [x] (1, 0)] SNone in
  exists txt, extended_of w = Some txt /\ content c <> [] /\ is_extended_value (last (content c) 0) = true /\
    content (snd (add_chars tracker0 (handle_backspace w c) txt)) <> content c ++ txt.
Proof.
  eexists. split; [vm_compute; reflexivity|]. split; [discriminate|]. split; [vm_compute; reflexivity|].
  vm_compute. discriminate.
Qed.

Theorem extended_replaces_standin : forall w txt c t, wf_nodes (cr_nodes c) ->
  extended_of w = Some txt -> content c <> [] -> is_extended_value (last (content c) 0) = false ->
  content (snd (add_chars t (handle_backspace w c) txt)) = removelast (content c) ++ txt.
Proof.
  intros w txt c t W He _ Hx. rewrite add_chars_content, (handle_backspace_content _ _ W), He.
  unfold last_char. rewrite Hx. reflexivity.
Qed.

Theorem extended_after_extended_keeps : forall w txt c t, wf_nodes (cr_nodes c) ->
  extended_of w = Some txt -> content c <> [] -> is_extended_value (last (content c) 0) = true ->
  content (snd (add_chars t (handle_backspace w c) txt)) = content c ++ txt.
Proof.
  intros w txt c t W He _ Hx. rewrite add_chars_content, (handle_backspace_content _ _ W), He.
  unfold last_char. rewrite Hx, (extended_neq_bs w txt He). reflexivity.
Qed.

Lemma map_last_wf : forall g l, (forall n, is_text (g n) = is_text n) -> (forall n, i_text n = [] -> i_text (g n) = []) ->
  wf_nodes l -> wf_nodes (map_last g l).
Proof.
  intros g l Hk He. induction l as [|a l IH]; intros W; [exact W|].
  apply wf_cons in W. destruct W as [Wa W]. destruct l as [|b l'].
  - cbn [map_last]. apply wf_cons. split; [|exact W]. intros H. rewrite Hk in H. auto.
  - change (map_last g (a :: b :: l')) with (a :: map_last g (b :: l')). apply wf_cons. split; auto.
Qed.

Ltac wf_solve :=
  repeat (apply wf_app; split); try assumption;
  apply wf_empty_text; intros ? [<-|[]]; reflexivity.

Lemma interpret_command_wf : forall t c w next, wf_nodes (cr_nodes c) ->
  wf_nodes (cr_nodes (snd (fst (interpret_command t c w next)))).
Proof.
  intros t c w next W. unfold interpret_command. cbv zeta.
  set (t1 := update_positioning t c w). clearbody t1.
  set (c1 := if w =? w_bs then handle_backspace w_bs c else c).
  assert (W1 : wf_nodes (cr_nodes c1)).
  { subst c1. destruct (w =? w_bs); [apply handle_backspace_wf|]; exact W. }
  clearbody c1. clear W c.
  match goal with |- wf_nodes (cr_nodes (snd (fst (match ?X with pair _ _ => _ end)))) => set (X2 := X) end.
  assert (W2 : wf_nodes (cr_nodes (fst X2))).
  { subst X2. destruct (memz w scc_background_color_codes); [|exact W1].
    destruct (last (map Some (cr_nodes c1)) None) as [n|]; [|exact W1].
    destruct (is_text n); [|exact W1]. destruct (i_text n) eqn:En; [exact W1|].
    destruct (is_space _); [|exact W1]. cbn [fst cr_nodes]. apply map_last_wf; [reflexivity| |exact W1].
    intros m Hm. cbn [i_text]. rewrite Hm. reflexivity. }
  clearbody X2. destruct X2 as [c2 e]. cbn [fst] in W2. clear W1 c1.
  match goal with |- wf_nodes (cr_nodes (snd (fst (match ?X with pair _ _ => _ end)))) => set (X3 := X) end.
  assert (W3 : wf_nodes (cr_nodes (snd X3))).
  { subst X3. destruct (memz w scc_style_setting_commands); [|exact W2].
    destruct (memz w scc_italics_commands); destruct (cr_style c2); try exact W2;
      destruct (break_required t1); cbn [snd cr_nodes]; wf_solve. }
  clearbody X3. destruct X3 as [t3 c3]. cbn [snd] in W3. clear W2 c2.
  match goal with |- wf_nodes (cr_nodes (snd (fst (match ?X with pair _ _ => _ end)))) => set (X4 := X) end.
  assert (W4 : wf_nodes (cr_nodes (snd X4))).
  { subst X4. destruct (prev_text (cr_nodes c3)) as [[txt brk]|]; [|exact W3].
    destruct (_ && _); [|exact W3].
    destruct (cr_style c3); try (cbn [snd cr_nodes]; apply upd_prev_text_wf; exact W3).
    apply add_chars_wf. exact W3. }
  clearbody X4. destruct X4 as [t4 c4]. exact W4.
Qed.

Lemma interpret_command_content_plain : forall t c w next, wf_nodes (cr_nodes c) ->
  memz w scc_mid_row_codes = false -> memz w scc_background_color_codes = false -> w <> w_bs ->
  content (snd (fst (interpret_command t c w next))) = content c.
Proof.
  intros t c w next _ Hm Hb Hw. unfold interpret_command. cbv zeta.
  apply Z.eqb_neq in Hw. rewrite Hw, Hb, Hm. cbv beta iota.
  set (t1 := update_positioning t c w). clearbody t1.
  match goal with |- content (snd (fst (match ?X with pair _ _ => _ end))) = _ => set (X3 := X) end.
  assert (C3 : content (snd X3) = content c).
  { subst X3. destruct (memz w scc_style_setting_commands); [|reflexivity].
    destruct (memz w scc_italics_commands); destruct (cr_style c); try reflexivity;
      destruct (break_required t1); unfold content; cbn [snd cr_nodes];
      fold (ncontent (cr_nodes c)); repeat (rewrite ?map_app, ?concat_app); cbn [map concat i_text app];
      rewrite ?app_nil_r; reflexivity. }
  clearbody X3. destruct X3 as [t3 c3]. cbn [snd] in C3.
  destruct (prev_text (cr_nodes c3)) as [[txt brk]|]; exact C3.
Qed.
