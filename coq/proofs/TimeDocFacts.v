(* Proofs for C01, document level: the line-based readers of the model return exactly one
   caption per non-empty cue, in order, with the denoted times and the text lines, on every
   rendering (LF / CRLF, any padding, any number of extra blank lines) of every document of the
   domain.  MicroDVD, SRT, WebVTT. *)
From Coq Require Import List ZArith Lia Bool ZifyBool.
From PV Require Import lib.Sx lib.Str lib.Result lib.Dec.
From PV Require Import model.TimeRead spec.SpecTime proofs.TimeStrFacts proofs.TimeReadFacts.
Import ListNotations.
Open Scope Z_scope.

Lemma no_linebreak_no_lb : forall l, no_linebreak l = no_lb l.
Proof. reflexivity. Qed.

Lemma digits_no_lb : forall s, forallb is_digit s = true -> no_lb s = true.
Proof. intros s. apply forallb_weaken. intros x Hx. unfold is_digit in Hx. lia. Qed.

Lemma stamp_chars_no_lb : forall s, forallb stamp_char s = true -> no_lb s = true.
Proof. intros s. apply forallb_weaken. intros x Hx. unfold stamp_char in Hx. lia. Qed.

Lemma no_lb_app : forall a b, no_lb (a ++ b) = no_lb a && no_lb b.
Proof. intros. apply forallb_app. Qed.

Lemma no_lb_brace : forall s, no_lb (brace s) = no_lb s.
Proof. intros s. unfold brace. cbn [no_lb forallb]. fold (no_lb (s ++ [125])). rewrite no_lb_app. apply andb_true_r. Qed.

Lemma no_lb_join : forall sep ls, no_lb sep = true -> forallb no_lb ls = true -> no_lb (join sep ls) = true.
Proof.
  intros sep ls Hs. induction ls as [|l ls IH]; intros H; [reflexivity|].
  cbn [forallb] in H. apply andb_true_iff in H. destruct H as [Hl Hls].
  destruct ls as [|l2 ls']; [exact Hl|].
  change (join sep (l :: l2 :: ls')) with (l ++ sep ++ join sep (l2 :: ls')).
  rewrite !no_lb_app, Hl, Hs, (IH Hls). reflexivity.
Qed.

(* ============================== MicroDVD ===================================== *)
Lemma mdvd_line_render : forall a b txt,
  a <> [] -> b <> [] -> forallb is_digit a = true -> forallb is_digit b = true ->
  mdvd_line (brace a ++ brace b ++ txt) = Some (a, b, txt).
Proof.
  intros a b txt Ha Hb Da Db. unfold brace. cbn [app].
  rewrite <- !app_assoc. cbn [app]. unfold mdvd_line.
  rewrite take_while_stops, drop_while_stops by (first [exact Da|reflexivity]).
  destruct a as [|a0 ar]; [congruence|].
  rewrite take_while_stops, drop_while_stops by (first [exact Db|reflexivity]).
  destruct b as [|b0 br]; [congruence|]. reflexivity.
Qed.

Lemma padded_is_zero : forall k n, 0 <= n -> str_eqb (padded k n) (lit "0") = true -> k = 0%nat /\ n = 0.
Proof.
  intros k n Hn H. apply str_eqb_eq in H. change (lit "0") with [48] in H.
  destruct k as [|k].
  - split; [reflexivity|]. unfold padded in H. cbn [repeat app] in H.
    pose proof (int_of_dec n Hn) as I. rewrite H in I. cbv in I. congruence.
  - exfalso. unfold padded in H. cbn [repeat app] in H. inversion H as [H1].
    apply app_eq_nil in H1. destruct H1 as [_ H1]. exact (dec_nonneg_nonempty n H1).
Qed.

Definition mdvd_cue_line (c : mdvd_cue) : str :=
  brace (padded (mc_pad0 c) (mc_n0 c)) ++ brace (padded (mc_pad1 c) (mc_n1 c)) ++ join [124] (mc_lines c).

Lemma mdvd_cue_dom_parts : forall c, mdvd_cue_dom c = true ->
  0 <= mc_n0 c /\ 0 <= mc_n1 c /\ forallb mdvd_line_ok (mc_lines c) = true
  /\ (mc_n0 c =? 0) && (mc_n1 c =? 0) && Nat.eqb (mc_pad0 c) 0 && Nat.eqb (mc_pad1 c) 0 = false.
Proof.
  intros c H. unfold mdvd_cue_dom in H. repeat (apply andb_true_iff in H; destruct H as [H ?]).
  repeat split; try assumption; lia.
Qed.

Lemma mdvd_keep_join : forall ls, forallb mdvd_line_ok ls = true ->
  mdvd_keep (join [124] ls) = nonempty_lines ls.
Proof.
  intros ls H. unfold mdvd_keep, nonempty_lines.
  destruct ls as [|l ls']; [reflexivity|].
  rewrite split_ch_join; [reflexivity|discriminate|].
  revert H. apply forallb_weaken. intros x H.
  unfold mdvd_line_ok in H. apply andb_true_iff in H. destruct H as [_ H].
  unfold lacks. apply forallb_forall. intros y Hy.
  destruct (y =? 124) eqn:E; [|reflexivity].
  exfalso. apply Z.eqb_eq in E. subst y.
  assert (X : existsb (Z.eqb 124) x = true) by (apply existsb_exists; exists 124; split; [exact Hy|reflexivity]).
  rewrite X in H. discriminate.
Qed.

Lemma filter_existsb : forall (A : Type) (p : A -> bool) l,
  existsb p l = match filter p l with [] => false | _ => true end.
Proof.
  intros A p. induction l as [|x l IH]; [reflexivity|].
  cbn [existsb filter]. destruct (p x); [reflexivity|exact IH].
Qed.

Lemma mdvd_loop_cues : forall fps f cues acc,
  (forall n, frames_to_micro n fps = Ok (us (frame_instant f n))) ->
  forallb mdvd_cue_dom cues = true ->
  mdvd_loop (map mdvd_cue_line cues) fps acc = Ok (acc ++ mdvd_expected_caps f cues).
Proof.
  intros fps f cues acc Hf. revert acc. induction cues as [|c cues IH]; intros acc Hd.
  - cbn [map mdvd_loop mdvd_expected_caps flat_map]. rewrite app_nil_r. reflexivity.
  - cbn [forallb] in Hd. apply andb_true_iff in Hd. destruct Hd as [Hc Hcs].
    destruct (mdvd_cue_dom_parts c Hc) as (N0 & N1 & Hl & Hnz).
    cbn [map mdvd_loop].
    assert (NE : mdvd_cue_line c <> []) by (unfold mdvd_cue_line, brace; cbn [app]; discriminate).
    destruct (mdvd_cue_line c) as [|h0 hr] eqn:EH; [congruence|]. rewrite <- EH. unfold mdvd_cue_line at 1.
    rewrite mdvd_line_render
      by (first [apply padded_nonempty | apply padded_digits; assumption]).
    assert (Z0 : (str_eqb (padded (mc_pad0 c) (mc_n0 c)) (lit "0") && str_eqb (padded (mc_pad1 c) (mc_n1 c)) (lit "0")) = false).
    { destruct (str_eqb (padded (mc_pad0 c) (mc_n0 c)) (lit "0")) eqn:E0; [|reflexivity].
      destruct (str_eqb (padded (mc_pad1 c) (mc_n1 c)) (lit "0")) eqn:E1; [|reflexivity].
      destruct (padded_is_zero _ _ N0 E0) as [K0 M0]. destruct (padded_is_zero _ _ N1 E1) as [K1 M1].
      rewrite K0, K1, M0, M1 in Hnz. discriminate. }
    rewrite Z0.
    rewrite !py_int_padded by assumption. cbn [bind]. rewrite !Hf. cbn [bind].
    rewrite mdvd_keep_join by exact Hl.
    cbn [mdvd_expected_caps flat_map]. fold (mdvd_expected_caps f cues).
    unfold mdvd_nonempty, nonempty_lines. rewrite filter_existsb.
    destruct (filter _ (mc_lines c)); rewrite IH by exact Hcs; [|rewrite <- app_assoc]; reflexivity.
Qed.

Lemma mdvd_cue_line_no_lb : forall c, mdvd_cue_dom c = true -> no_lb (mdvd_cue_line c) = true.
Proof.
  intros c Hc. destruct (mdvd_cue_dom_parts c Hc) as (N0 & N1 & Hl & _).
  unfold mdvd_cue_line. rewrite !no_lb_app, !no_lb_brace, !digits_no_lb by (apply padded_digits; assumption).
  apply no_lb_join; [reflexivity|]. revert Hl. apply forallb_weaken. intros l H.
  unfold mdvd_line_ok in H. apply andb_true_iff in H. apply H.
Qed.

Lemma mdvd_render_lines : forall crlf cues,
  flat_map (mdvd_render_cue crlf) cues = flat_map (fun l => l ++ nl_of crlf) (map mdvd_cue_line cues).
Proof.
  intros crlf cues. induction cues as [|c t IH]; [reflexivity|].
  cbn [flat_map map]. rewrite IH. unfold mdvd_render_cue, mdvd_cue_line. rewrite <- !app_assoc. reflexivity.
Qed.

(* whole MicroDVD documents: default rate or a declared one *)
Theorem mdvd_doc_exact : forall crlf f cues, fps_dom f = true -> forallb mdvd_cue_dom cues = true ->
  mdvd_read (mdvd_render crlf f cues) = read_result (mdvd_expected_caps f cues).
Proof.
  intros crlf f cues Hf Hd.
  destruct (mdvd_fps_exact f Hf) as [fps [P F]].
  pose proof (forallb_map_mono _ no_lb _ cues mdvd_cue_line_no_lb Hd) as NL.
  assert (R : forall r, no_captions_if_empty (Ok r) = read_result r) by (intros []; reflexivity).
  unfold mdvd_read, mdvd_render. rewrite mdvd_render_lines.
  destruct f as [l|].
  - set (hdr := brace (lit "0") ++ brace (lit "0") ++ fps_render l).
    assert (HL : no_lb hdr = true).
    { unfold hdr. rewrite !no_lb_app. exact (stamp_chars_no_lb _ (fps_render_chars l Hf)). }
    assert (ML : mdvd_line hdr = Some (lit "0", lit "0", fps_render l))
      by (apply mdvd_line_render; first [discriminate|reflexivity]).
    replace ((brace (lit "0") ++ brace (lit "0") ++ fps_render l ++ nl crlf) ++ flat_map (fun l0 => l0 ++ nl_of crlf) (map mdvd_cue_line cues))
      with (flat_map (fun l0 => l0 ++ nl_of crlf) (hdr :: map mdvd_cue_line cues))
      by (unfold hdr; cbn [flat_map]; rewrite <- !app_assoc; reflexivity).
    rewrite splitlines_lines by (cbn [forallb]; rewrite HL, NL; reflexivity).
    cbn [mdvd_loop]. rewrite ML. cbv iota. cbn [str_eqb lit andb]. 
    change (hdr) with (123 :: lit "0" ++ [125] ++ brace (lit "0") ++ fps_render l). cbv iota.
    rewrite P. cbn [bind].
    rewrite (mdvd_loop_cues fps (Some l) cues [] F Hd). apply R.
  - cbn [app]. rewrite splitlines_lines by exact NL.
    inversion P; subst fps.
    rewrite (mdvd_loop_cues (25, 1) None cues [] F Hd). apply R.
Qed.

(* ============================== SRT ========================================== *)
Lemma is_prefix_arrow_no : forall c s, c <> 45 -> is_prefix (lit "-->") (c :: s) = false.
Proof.
  intros c s H. change (lit "-->") with [45; 45; 62]. cbn [is_prefix].
  assert (E : (45 =? c) = false) by lia. rewrite E. reflexivity.
Qed.

Lemma split_aux_skip : forall a f b cur, lacks 45 a = true ->
  split_aux (length a + f) (lit "-->") (a ++ b) cur = split_aux f (lit "-->") b (rev a ++ cur).
Proof.
  induction a as [|c a IH]; intros f b cur H; [reflexivity|].
  cbn [lacks forallb] in H. apply andb_true_iff in H. destruct H as [Hc Ha].
  cbn [length Nat.add app split_aux]. rewrite is_prefix_arrow_no by lia.
  rewrite IH by exact Ha. cbn [rev]. rewrite <- app_assoc. reflexivity.
Qed.

Lemma split_arrow : forall a b, lacks 45 a = true -> lacks 45 b = true ->
  split (lit "-->") (a ++ lit "-->" ++ b) = [a; b].
Proof.
  intros a b Ha Hb. unfold split.
  replace (S (length (a ++ lit "-->" ++ b))) with (length a + S (length b + 3))%nat
    by (rewrite !app_length; change (length (lit "-->")) with 3%nat; lia).
  rewrite split_aux_skip by exact Ha.
  change (split_aux (S (length b + 3)) (lit "-->") (lit "-->" ++ b) (rev a ++ []))
    with (rev (rev a ++ []) :: split_aux (length b + 3) (lit "-->") b []).
  rewrite <- (app_nil_r b) at 2. rewrite split_aux_skip by exact Hb.
  cbn [split_aux]. rewrite !app_nil_r, !rev_involutive. reflexivity.
Qed.

Lemma lstrip_by_keep : forall f s, match s with c :: _ => f c = false | [] => True end -> lstrip_by f s = s.
Proof. intros f [|c s] H; [reflexivity|]. cbn [lstrip_by]. rewrite H. reflexivity. Qed.

Definition srt_char (c : Z) : bool := is_digit c || (c =? 58) || (c =? 44).

Lemma srt_render_chars : forall t, srt_stamp_dom t = true -> forallb srt_char (srt_render_stamp t) = true.
Proof.
  intros [k h m s f] Hd. unfold srt_stamp_dom in Hd. cbn [sr_h sr_m sr_s sr_ms] in Hd.
  unfold srt_render_stamp. cbn [sr_pad sr_h sr_m sr_s sr_ms].
  assert (D : forall x, forallb is_digit x = true -> forallb srt_char x = true).
  { intros x. apply forallb_weaken. intros y Hy. unfold srt_char. rewrite Hy. reflexivity. }
  repeat first [rewrite forallb_app | progress cbn [forallb]].
  rewrite (D _ (padded_digits k h ltac:(lia))), (D _ (two_digits m ltac:(lia))), (D _ (two_digits s ltac:(lia))).
  change (srt_char 58) with true. cbn [andb].
  destruct f as [f|]; [|reflexivity].
  cbn [forallb]. change (srt_char 44) with true. rewrite (D _ (three_digits f ltac:(lia))). reflexivity.
Qed.

Lemma srt_render_nonempty : forall t, srt_render_stamp t <> [].
Proof.
  intros t H. unfold srt_render_stamp in H. apply app_eq_nil in H. destruct H as [H _].
  exact (padded_nonempty _ _ H).
Qed.

Definition srt_timing (c : srt_cue) : str := srt_render_stamp (sc_t0 c) ++ arrow ++ srt_render_stamp (sc_t1 c).

Lemma srt_timing_parse : forall c, srt_stamp_dom (sc_t0 c) = true -> srt_stamp_dom (sc_t1 c) = true ->
  let timing := split (lit "-->") (srt_timing c) in
  exists a b, nth_str timing 0 = Ok a /\ nth_str timing 1 = Ok b /\
              srt_to_micro (strip3 a) = Ok (us (srt_instant (sc_t0 c))) /\
              srt_to_micro (strip3 b) = Ok (us (srt_instant (sc_t1 c))).
Proof.
  intros c H0 H1. cbv zeta. unfold srt_timing.
  assert (L : forall t, srt_stamp_dom t = true -> lacks 45 (srt_render_stamp t) = true /\
                        forall a b, forallb (fun c => (c =? 32) || (c =? 13) || (c =? 10)) (a ++ b) = true ->
                                    srt_to_micro (strip3 (a ++ srt_render_stamp t ++ b)) = Ok (us (srt_instant t))).
  { intros t Ht. pose proof (srt_render_chars t Ht) as C. split.
    - revert C. apply forallb_weaken. intros x Hx. unfold srt_char, is_digit in Hx. lia.
    - intros a b Hab. rewrite forallb_app in Hab. apply andb_true_iff in Hab. destruct Hab as [Ha Hb].
      unfold strip3. rewrite (strip_by_pad _ a _ b Ha Hb (srt_render_nonempty t)); [exact (srt_stamp_exact t Ht)|].
      revert C. apply forallb_weaken. intros x Hx. unfold srt_char, is_digit in Hx. lia. }
  destruct (L _ H0) as [L0 S0]. destruct (L _ H1) as [L1 S1].
  replace (srt_render_stamp (sc_t0 c) ++ arrow ++ srt_render_stamp (sc_t1 c))
    with ((srt_render_stamp (sc_t0 c) ++ [32]) ++ lit "-->" ++ (32 :: srt_render_stamp (sc_t1 c)))
    by (rewrite <- app_assoc; reflexivity).
  rewrite split_arrow.
  - eexists. eexists. split; [reflexivity|]. split; [reflexivity|].
    split; [exact (S0 [] [32] eq_refl)|]. rewrite <- (app_nil_r (srt_render_stamp (sc_t1 c))). exact (S1 [32] [] eq_refl).
  - rewrite lacks_app, L0. reflexivity.
  - cbn [lacks forallb]. fold (lacks 45 (srt_render_stamp (sc_t1 c))). rewrite L1. reflexivity.
Qed.

Lemma ftl_nonblank : forall ls rest k, forallb (fun l => negb (is_blank l)) ls = true ->
  ftl (ls ++ rest) false k = ftl rest false (k + length ls).
Proof.
  induction ls as [|l ls IH]; intros rest k H; [cbn [app length]; f_equal; lia|].
  cbn [forallb] in H. apply andb_true_iff in H. destruct H as [Hl Hls].
  cbn [app ftl]. destruct (is_blank l); [discriminate|].
  rewrite IH by exact Hls. cbn [length]. f_equal. lia.
Qed.

Lemma ftl_blanks : forall g rest found k,
  ftl (repeat [] (S g) ++ rest) found k = ftl rest true (k + S g).
Proof.
  induction g as [|g IH]; intros rest found k.
  - cbn [repeat app ftl]. change (is_blank []) with true. cbv iota. f_equal. lia.
  - change (repeat [] (S (S g))) with (@nil Z :: repeat [] (S g)). cbn [app ftl]. change (is_blank []) with true. cbv iota.
    rewrite IH. f_equal. lia.
Qed.

Definition srt_cue_lines (c : srt_cue) : list str :=
  dec_nonneg (sc_idx c) :: srt_timing c :: sc_lines c ++ repeat [] (S (sc_gap c)).

Lemma srt_cue_dom_parts : forall c, srt_cue_dom c = true ->
  0 <= sc_idx c /\ srt_stamp_dom (sc_t0 c) = true /\ srt_stamp_dom (sc_t1 c) = true
  /\ forallb text_line_ok (sc_lines c) = true /\ sc_lines c <> [].
Proof.
  intros c H. unfold srt_cue_dom in H. repeat (apply andb_true_iff in H; destruct H as [H ?]).
  repeat split; try assumption; [lia|]. intros E. rewrite E in *. discriminate.
Qed.

Lemma text_line_parts : forall l, text_line_ok l = true -> no_lb l = true /\ is_blank l = false /\ l <> [].
Proof.
  intros l H. unfold text_line_ok, visible_line in H. apply andb_true_iff in H. destruct H as [Hn Hv].
  unfold is_blank. repeat split; [exact Hn|destruct (strip l); [discriminate|reflexivity]|intros ->; discriminate].
Qed.

Lemma digits_not_blank : forall s, s <> [] -> forallb is_digit s = true -> is_blank s = false.
Proof.
  intros s Hne H. unfold is_blank, strip.
  rewrite (strip_by_clean is_space s Hne); [destruct s; [congruence|reflexivity]|].
  revert H. apply forallb_weaken. intros x Hx. unfold is_digit in Hx. unfold is_space. lia.
Qed.

Lemma lstrip_by_witness : forall f s, (exists x, In x s /\ f x = false) ->
  exists x, In x (lstrip_by f s) /\ f x = false.
Proof.
  intros f s. induction s as [|c t IH]; intros [x [Hin Hx]]; [destruct Hin|].
  cbn [lstrip_by]. destruct (f c) eqn:E.
  - apply IH. destruct Hin as [<-|Hin]; [congruence|]. exists x. split; assumption.
  - exists x. split; assumption.
Qed.

Lemma strip_witness : forall s, (exists x, In x s /\ is_space x = false) -> is_blank s = false.
Proof.
  intros s H. unfold is_blank, strip, strip_by, rstrip_by.
  apply lstrip_by_witness in H. destruct H as [x [Hin Hx]].
  assert (H2 : exists y, In y (rev (lstrip_by is_space s)) /\ is_space y = false).
  { exists x. split; [apply in_rev; rewrite rev_involutive; exact Hin|exact Hx]. }
  apply lstrip_by_witness in H2. destruct H2 as [y [Hy _]].
  apply in_rev in Hy.
  destruct (rev (lstrip_by is_space (rev (lstrip_by is_space s)))); [destruct Hy|reflexivity].
Qed.

Lemma srt_timing_not_blank : forall c, srt_stamp_dom (sc_t0 c) = true -> is_blank (srt_timing c) = false.
Proof.
  intros c H0. apply strip_witness. unfold srt_timing.
  pose proof (srt_render_nonempty (sc_t0 c)) as Hne. pose proof (srt_render_chars _ H0) as C.
  destruct (srt_render_stamp (sc_t0 c)) as [|x xs] eqn:E; [congruence|].
  exists x. split; [left; reflexivity|].
  cbn [forallb] in C. apply andb_true_iff in C. destruct C as [Cx _].
  unfold srt_char, is_digit in Cx. unfold is_space. lia.
Qed.

(* one cue followed by g blank lines and then either nothing or (g > 0) a line that is not blank: where the next
   block starts.  On exhaustion Python's answer is one past the end. *)
Lemma ftl_cue : forall c g rest, srt_cue_dom c = true ->
  match rest with [] => True | l :: _ => is_blank l = false /\ g <> 0%nat end ->
  ftl (dec_nonneg (sc_idx c) :: srt_timing c :: sc_lines c ++ repeat [] g ++ rest) false 0
  = (match rest with [] => 1 | _ => 0 end + (2 + length (sc_lines c) + g))%nat.
Proof.
  intros c g rest Hd Hrest. destruct (srt_cue_dom_parts c Hd) as (Hi & H0 & _ & Hl & _).
  cbn [ftl]. rewrite digits_not_blank by (first [apply dec_nonneg_nonempty | apply dec_nonneg_digits; exact Hi]).
  rewrite srt_timing_not_blank by exact H0.
  rewrite ftl_nonblank.
  2:{ revert Hl. apply forallb_weaken. intros l Hv. destruct (text_line_parts l Hv) as (_ & -> & _). reflexivity. }
  destruct g as [|g].
  - destruct rest as [|l r]; [cbn [repeat app ftl]; lia|destruct Hrest as [_ []]; reflexivity].
  - rewrite ftl_blanks. destruct rest as [|l r]; cbn [ftl]; [lia|]. destruct Hrest as [-> _]. lia.
Qed.

Lemma srt_keep_lines : forall ls k, ls <> [] -> forallb text_line_ok ls = true ->
  srt_keep (ls ++ repeat [] k) false = ls.
Proof.
  intros ls k Hne Hl.
  assert (G : forall have, have = true \/ ls <> [] -> srt_keep (ls ++ repeat [] k) have = ls).
  { clear Hne. induction ls as [|l ls IH]; intros have Hh.
    - destruct Hh as [-> |Hh]; [|congruence]. cbn [app]. induction k as [|k IHk]; [reflexivity|exact IHk].
    - cbn [forallb] in Hl. apply andb_true_iff in Hl. destruct Hl as [Hv Hl].
      destruct (text_line_parts l Hv) as (_ & _ & Hn). destruct l; [congruence|].
      cbn [app srt_keep str_eqb negb]. rewrite orb_true_r. f_equal. apply (IH Hl). left. reflexivity. }
  apply G. right. exact Hne.
Qed.

Lemma firstn_but_last : forall (A : Type) (a b : list A) y, firstn (length (a ++ [y]) - 1) ((a ++ [y]) ++ b) = a.
Proof. intros. rewrite app_length, Nat.add_sub, <- app_assoc. apply firstn_app_exact. Qed.

Lemma srt_loop_cue : forall c g rest f acc, srt_cue_dom c = true ->
  match rest with [] => True | l :: _ => is_blank l = false /\ g <> 0%nat end ->
  srt_loop (S f) (dec_nonneg (sc_idx c) :: srt_timing c :: sc_lines c ++ repeat [] g ++ rest) acc
  = srt_loop f rest (acc ++ [(us (srt_instant (sc_t0 c)), us (srt_instant (sc_t1 c)), sc_lines c)]).
Proof.
  intros c g rest f acc Hd Hrest. pose proof (ftl_cue c g rest Hd Hrest) as FT.
  destruct (srt_cue_dom_parts c Hd) as (Hi & H0 & H1 & Hl & Hne).
  destruct (srt_timing_parse c H0 H1) as (a & b & Na & Nb & Sa & Sb). cbv zeta in Na, Nb.
  cbn [srt_loop]. change (dec_nonneg (sc_idx c)) with (padded 0 (sc_idx c)) at 1.
  rewrite (isdigit_padded 0 _ Hi). cbn [negb].
  unfold nth_str at 1. cbn [nth_error bind]. rewrite Na. cbn [bind]. rewrite Sa. cbn [bind].
  rewrite Nb. cbn [bind]. rewrite Sb. cbn [bind]. rewrite FT. clear FT.
  set (blk := dec_nonneg (sc_idx c) :: srt_timing c :: sc_lines c).
  assert (K : forall k, srt_keep (skipn 2 (blk ++ repeat [] k)) false = sc_lines c)
    by (intros k; apply srt_keep_lines; assumption).
  assert (M : forall a0 : list rcap, match sc_lines c with [] => a0 | _ :: _ => a0 ++ [(us (srt_instant (sc_t0 c)), us (srt_instant (sc_t1 c)), sc_lines c)] end
              = a0 ++ [(us (srt_instant (sc_t0 c)), us (srt_instant (sc_t1 c)), sc_lines c)])
    by (intros a0; destruct (sc_lines c); [congruence|reflexivity]).
  change (dec_nonneg (sc_idx c) :: srt_timing c :: sc_lines c ++ repeat [] g ++ rest) with (blk ++ repeat [] g ++ rest).
  replace (2 + length (sc_lines c) + g)%nat with (length (blk ++ repeat [] g))
    by (unfold blk; cbn [length app]; rewrite app_length, repeat_length; lia).
  unfold slice. destruct rest as [|r0 rr].
  - rewrite app_nil_r. cbn [Nat.add Nat.sub]. rewrite Nat.sub_0_r, firstn_all, K, M.
    rewrite skipn_all2 by lia. destruct f; reflexivity.
  - destruct g as [|g]; [destruct Hrest as [_ []]; reflexivity|]. cbn [Nat.add].
    rewrite app_assoc, skipn_app_exact.
    change (repeat [] (S g)) with (@nil Z :: repeat [] g). rewrite repeat_cons, !app_assoc, firstn_but_last, K, M.
    reflexivity.
Qed.

Lemma srt_lines_first_not_blank : forall cues, forallb srt_cue_dom cues = true ->
  match flat_map srt_cue_lines cues with [] => True | l :: _ => is_blank l = false end.
Proof.
  intros [|c t] H; [exact I|]. cbn [flat_map srt_cue_lines app].
  cbn [forallb] in H. apply andb_true_iff in H. destruct H as [Hc _].
  destruct (srt_cue_dom_parts c Hc) as (Hi & _).
  apply digits_not_blank; [apply dec_nonneg_nonempty|apply dec_nonneg_digits; exact Hi].
Qed.

Lemma srt_loop_cues_then : forall cues tail fuel acc R,
  (length cues < fuel)%nat -> forallb srt_cue_dom cues = true ->
  (match tail with [] => True | l :: _ => is_blank l = false end) ->
  (forall f acc', (0 < f)%nat -> srt_loop f tail acc' = Ok (acc' ++ R)) ->
  srt_loop fuel (flat_map srt_cue_lines cues ++ tail) acc = Ok (acc ++ srt_expected_caps cues ++ R).
Proof.
  induction cues as [|c t IH]; intros tail fuel acc R Hf Hd Htl HT.
  - cbn [flat_map srt_expected_caps app]. apply HT. cbn [length] in Hf. lia.
  - destruct fuel as [|f]; [cbn in Hf; lia|].
    cbn [forallb] in Hd. apply andb_true_iff in Hd. destruct Hd as [Hc Ht].
    cbn [flat_map]. unfold srt_cue_lines at 1. cbn [app]. rewrite <- !app_assoc.
    rewrite srt_loop_cue.
    + rewrite (IH tail f _ R) by (first [cbn [length] in Hf; lia | assumption]).
      destruct (srt_cue_dom_parts c Hc) as (_ & _ & _ & _ & Hne).
      cbn [srt_expected_caps flat_map]. destruct (sc_lines c); [congruence|]. rewrite <- !app_assoc. reflexivity.
    + exact Hc.
    + pose proof (srt_lines_first_not_blank t Ht) as F.
      destruct (flat_map srt_cue_lines t) as [|l0 lr]; [cbn [app]; destruct tail; [exact I|]|]; split; (assumption || discriminate).
Qed.

(* the same loop over cues that are FOLLOWED by further lines (e.g. a last cue without any blank line after it, as
   SRTWriter writes it): the cues are consumed one by one, then the loop continues on the tail *)
Lemma srt_loop_cues_tail : forall cues tail fuel acc R,
  (length cues < fuel)%nat -> forallb srt_cue_dom cues = true ->
  (match tail with [] => False | l :: _ => is_blank l = false end) ->
  (forall f acc', (0 < f)%nat -> srt_loop f tail acc' = Ok (acc' ++ R)) ->
  srt_loop fuel (flat_map srt_cue_lines cues ++ tail) acc = Ok (acc ++ srt_expected_caps cues ++ R).
Proof.
  intros cues tail fuel acc R Hf Hd Htl. apply srt_loop_cues_then; [exact Hf|exact Hd|].
  destruct tail; [contradiction|exact Htl].
Qed.

Lemma srt_loop_last_cue : forall c f acc, srt_cue_dom c = true -> (0 < f)%nat ->
  srt_loop f (dec_nonneg (sc_idx c) :: srt_timing c :: sc_lines c) acc
  = Ok (acc ++ [(us (srt_instant (sc_t0 c)), us (srt_instant (sc_t1 c)), sc_lines c)]).
Proof.
  intros c f acc Hc Hf. destruct f as [|f]; [lia|].
  pose proof (srt_loop_cue c 0 [] f acc Hc I) as S. cbn [repeat app] in S. rewrite app_nil_r in S.
  rewrite S. destruct f; reflexivity.
Qed.

Lemma blank_lines_render : forall crlf n,
  concat (repeat (nl crlf) n) = flat_map (fun l : str => l ++ nl_of crlf) (repeat [] n).
Proof.
  intros crlf n. induction n as [|n IHn]; [reflexivity|].
  cbn [repeat concat flat_map app]. rewrite IHn. reflexivity.
Qed.

Lemma srt_render_cue_lines : forall crlf c,
  srt_render_cue crlf c = flat_map (fun l => l ++ nl_of crlf) (srt_cue_lines c).
Proof.
  intros crlf c. unfold srt_render_cue, srt_cue_lines, srt_timing, render_lines.
  cbn [flat_map]. rewrite flat_map_app. rewrite blank_lines_render.
  rewrite <- !app_assoc. reflexivity.
Qed.

Lemma srt_render_lines : forall crlf cues,
  srt_render crlf cues = flat_map (fun l => l ++ nl_of crlf) (flat_map srt_cue_lines cues).
Proof.
  intros crlf cues. unfold srt_render. induction cues as [|c t IH]; [reflexivity|].
  cbn [flat_map]. rewrite flat_map_app, IH, srt_render_cue_lines. reflexivity.
Qed.

Lemma srt_cue_lines_no_lb : forall c, srt_cue_dom c = true -> forallb no_lb (srt_cue_lines c) = true.
Proof.
  intros c Hc. destruct (srt_cue_dom_parts c Hc) as (Hi & H0 & H1 & Hl & _).
  unfold srt_cue_lines. cbn [forallb].
  rewrite digits_no_lb by (apply dec_nonneg_digits; exact Hi).
  assert (ST : forall t, srt_stamp_dom t = true -> no_lb (srt_render_stamp t) = true).
  { intros t Ht. unfold no_lb. apply (forallb_weaken srt_char); [|apply srt_render_chars; exact Ht].
    intros x Hx. unfold srt_char, is_digit in Hx. lia. }
  unfold srt_timing. rewrite !no_lb_app, (ST _ H0), (ST _ H1), forallb_app, (forallb_repeat _ no_lb [] _ eq_refl).
  change (no_lb arrow) with true. cbn [andb]. rewrite andb_true_r.
  revert Hl. apply forallb_weaken. intros l Hv. apply (text_line_parts l Hv).
Qed.

Theorem srt_doc_exact : forall crlf cues, forallb srt_cue_dom cues = true ->
  srt_read (srt_render crlf cues) = read_result (srt_expected_caps cues).
Proof.
  intros crlf cues Hd. unfold srt_read. rewrite srt_render_lines.
  rewrite splitlines_lines.
  2:{ exact (forallb_flat_map _ _ _ cues srt_cue_lines_no_lb Hd). }
  rewrite <- (app_nil_r (flat_map srt_cue_lines cues)) at 2.
  rewrite (srt_loop_cues_then cues [] _ [] []); [| |exact Hd|exact I|].
  - rewrite app_nil_r. cbn [app]. unfold read_result, no_captions_if_empty. destruct (srt_expected_caps cues); reflexivity.
  - assert (G : forall cs, (length cs <= length (flat_map srt_cue_lines cs))%nat).
    { induction cs as [|c t IH]; [reflexivity|]. cbn [flat_map length]. rewrite app_length.
      unfold srt_cue_lines at 1. cbn [length]. lia. }
    specialize (G cues). lia.
  - intros f acc' Hf. destruct f; [lia|]. rewrite app_nil_r. reflexivity.
Qed.

(* ============================== WebVTT ======================================= *)
Lemma vtt_loop_app : forall strict sh a b st,
  vtt_loop strict sh (a ++ b) st = (do st' <- vtt_loop strict sh a st; vtt_loop strict sh b st').
Proof.
  induction a as [|l a IH]; intros b st; [reflexivity|].
  cbn [app vtt_loop]. destruct (vtt_step strict sh st l); [cbn [bind]; apply IH|reflexivity].
Qed.

Definition vtt_timing (c : vtt_cue) : str :=
  vtt_render_stamp (vc_t0 c) ++ vc_ws1 c ++ lit "-->" ++ vc_ws2 c ++ vtt_render_stamp (vc_t1 c)
  ++ match vc_settings c with Some s => 32 :: s | None => [] end.

Definition vtt_cue_lines (c : vtt_cue) : list str :=
  vc_pre c ++ vtt_timing c :: vc_lines c ++ repeat [] (S (vc_gap c)).

Lemma vtt_cue_dom_parts : forall c, vtt_cue_dom c = true ->
  vtt_stamp_dom (vc_t0 c) = true /\ vtt_stamp_dom (vc_t1 c) = true
  /\ forallb (fun l => text_line_ok l && no_arrow l) (vc_lines c) = true /\ vc_lines c <> []
  /\ forallb (fun l => no_linebreak l && no_arrow l) (vc_pre c) = true
  /\ match vc_settings c with Some s => no_linebreak s && no_arrow s | None => true end = true
  /\ blank_run (vc_ws1 c) = true /\ blank_run (vc_ws2 c) = true.
Proof.
  intros c H. unfold vtt_cue_dom in H. do 7 (apply andb_true_iff in H; destruct H as [H ?]).
  repeat split; try assumption. intros E. rewrite E in *. discriminate.
Qed.

Lemma vtt_step_text : forall strict sh caps s e nodes l,
  is_infix (lit "-->") l = false -> l <> [] ->
  vtt_step strict sh (mkVS caps s e nodes true) l = Ok (mkVS caps s e (nodes ++ [l]) true).
Proof.
  intros strict sh caps s e nodes l H1 H2. unfold vtt_step. rewrite H1.
  destruct l as [|x l']; [congruence|]. reflexivity.
Qed.

Lemma vtt_step_idle : forall strict sh caps s e l,
  is_infix (lit "-->") l = false ->
  vtt_step strict sh (mkVS caps s e [] false) l = Ok (mkVS caps s e [] false).
Proof.
  intros strict sh caps s e l H1. unfold vtt_step. rewrite H1. cbn [vs_found vs_nodes].
  destruct (str_eqb l []); reflexivity.
Qed.

Lemma vtt_loop_text : forall strict sh ls caps s e nodes,
  forallb (fun l => text_line_ok l && no_arrow l) ls = true ->
  vtt_loop strict sh ls (mkVS caps s e nodes true) = Ok (mkVS caps s e (nodes ++ ls) true).
Proof.
  induction ls as [|l ls IH]; intros caps s e nodes H; [cbn [vtt_loop]; rewrite app_nil_r; reflexivity|].
  cbn [forallb] in H. apply andb_true_iff in H. destruct H as [Hl Hls].
  apply andb_true_iff in Hl. destruct Hl as [Hok Hna].
  cbn [vtt_loop]. rewrite vtt_step_text.
  - cbn [bind]. rewrite IH by exact Hls. rewrite <- app_assoc. reflexivity.
  - unfold no_arrow in Hna. destruct (is_infix (lit "-->") l); [discriminate|reflexivity].
  - unfold text_line_ok in Hok. apply andb_true_iff in Hok. destruct Hok as [_ Hv]. destruct l; [discriminate Hv|discriminate].
Qed.

Lemma vtt_loop_idle : forall strict sh ls caps s e,
  forallb (fun l => no_linebreak l && no_arrow l) ls = true ->
  vtt_loop strict sh ls (mkVS caps s e [] false) = Ok (mkVS caps s e [] false).
Proof.
  induction ls as [|l ls IH]; intros caps s e H; [reflexivity|].
  cbn [forallb] in H. apply andb_true_iff in H. destruct H as [Hl Hls].
  apply andb_true_iff in Hl. destruct Hl as [_ Hna]. unfold no_arrow in Hna.
  cbn [vtt_loop]. rewrite vtt_step_idle by (destruct (is_infix (lit "-->") l); [discriminate|reflexivity]).
  cbn [bind]. apply IH. exact Hls.
Qed.

Lemma vtt_loop_blanks_flush : forall strict sh g caps s e nodes, nodes <> [] ->
  vtt_loop strict sh (repeat [] (S g)) (mkVS caps s e nodes true)
  = Ok (mkVS (caps ++ [(s, e, nodes)]) s e [] false).
Proof.
  intros strict sh g caps s e nodes Hne. cbn [repeat vtt_loop].
  assert (S1 : vtt_step strict sh (mkVS caps s e nodes true) [] = Ok (mkVS (caps ++ [(s, e, nodes)]) s e [] false)).
  { unfold vtt_step. cbn [is_infix is_prefix lit vs_found vs_nodes vs_caps vs_start vs_end str_eqb].
    change (is_infix (lit "-->") []) with false. cbv iota. destruct nodes; [congruence|reflexivity]. }
  rewrite S1. cbn [bind]. apply vtt_loop_idle, forallb_repeat. reflexivity.
Qed.

Lemma last_start_snoc : forall caps s e ns, last_start (caps ++ [(s, e, ns)]) = s.
Proof. intros. unfold last_start. rewrite rev_app_distr. reflexivity. Qed.

Lemma vtt_cue_process : forall strict sh c caps s0 e0 lo,
  vtt_cue_dom c = true ->
  last_start caps = lo ->
  (strict = true ->
   us (vtt_shifted sh (vc_t0 c)) <= us (vtt_shifted sh (vc_t1 c)) /\ lo <= us (vtt_shifted sh (vc_t0 c))) ->
  vtt_loop strict (sh * 1000) (vtt_cue_lines c) (mkVS caps s0 e0 [] false)
  = Ok (mkVS (caps ++ [(us (vtt_shifted sh (vc_t0 c)), us (vtt_shifted sh (vc_t1 c)), vc_lines c)])
             (us (vtt_shifted sh (vc_t0 c))) (us (vtt_shifted sh (vc_t1 c))) [] false).
Proof.
  intros strict sh c caps s0 e0 lo Hd Hlast Hord.
  destruct (vtt_cue_dom_parts c Hd) as (H0 & H1 & Hl & Hne & Hpre & Hset & W1 & W2).
  unfold vtt_cue_lines. rewrite vtt_loop_app.
  rewrite vtt_loop_idle by exact Hpre. cbn [bind vtt_loop].
  assert (TL : vtt_step strict (sh * 1000) (mkVS caps s0 e0 [] false) (vtt_timing c)
               = Ok (mkVS caps (us (vtt_shifted sh (vc_t0 c))) (us (vtt_shifted sh (vc_t1 c))) [] true)).
  { unfold vtt_step.
    assert (INF : is_infix (lit "-->") (vtt_timing c) = true).
    { unfold vtt_timing. rewrite app_assoc. rewrite <- !app_assoc. rewrite app_assoc. apply is_infix_mid. }
    rewrite INF. cbn [vs_caps vs_nodes]. unfold vtt_timing.
    rewrite (vtt_timing_exact strict (sh * 1000) (vc_t0 c) (vc_t1 c) (vc_ws1 c) (vc_ws2 c) _ (last_start caps) H0 H1 W1 W2).
    - cbn [bind fst snd]. rewrite !vtt_shift_exact. reflexivity.
    - destruct (vc_settings c); [right; eexists; reflexivity|left; reflexivity].
    - intros Hs. specialize (Hord Hs). rewrite !vtt_shift_exact in Hord. rewrite Hlast. exact Hord. }
  rewrite TL. cbn [bind]. rewrite vtt_loop_app.
  rewrite vtt_loop_text by exact Hl. cbn [bind app].
  apply vtt_loop_blanks_flush. exact Hne.
Qed.

Lemma vtt_loop_cues : forall strict sh cues caps s0 e0,
  forallb vtt_cue_dom cues = true ->
  (strict = true -> vtt_sorted_from sh (last_start caps) cues = true) ->
  exists s1 e1,
    vtt_loop strict (sh * 1000) (flat_map vtt_cue_lines cues) (mkVS caps s0 e0 [] false)
    = Ok (mkVS (caps ++ vtt_expected_caps sh cues) s1 e1 [] false).
Proof.
  intros strict sh cues. induction cues as [|c t IH]; intros caps s0 e0 Hd Hs.
  - exists s0, e0. cbn [flat_map vtt_loop vtt_expected_caps]. rewrite app_nil_r. reflexivity.
  - cbn [forallb] in Hd. apply andb_true_iff in Hd. destruct Hd as [Hc Ht].
    destruct (vtt_cue_dom_parts c Hc) as (_ & _ & _ & Hne & _).
    cbn [flat_map]. rewrite vtt_loop_app.
    rewrite (vtt_cue_process strict sh c caps s0 e0 (last_start caps) Hc eq_refl).
    + cbn [bind].
      destruct (IH (caps ++ [(us (vtt_shifted sh (vc_t0 c)), us (vtt_shifted sh (vc_t1 c)), vc_lines c)])
                   (us (vtt_shifted sh (vc_t0 c))) (us (vtt_shifted sh (vc_t1 c))) Ht) as [s1 [e1 E]].
      * intros Hst. specialize (Hs Hst). cbn [vtt_sorted_from] in Hs.
        apply andb_true_iff in Hs. destruct Hs as [_ Hs]. rewrite last_start_snoc.
        destruct (vc_lines c); [congruence|exact Hs].
      * exists s1, e1. rewrite E. cbn [vtt_expected_caps flat_map]. fold (vtt_expected_caps sh t).
        destruct (vc_lines c) as [|l0 lr] eqn:EL; [congruence|]. rewrite <- app_assoc. reflexivity.
    + intros Hst. specialize (Hs Hst). cbn [vtt_sorted_from] in Hs.
      apply andb_true_iff in Hs. destruct Hs as [Hs _]. apply andb_true_iff in Hs. lia.
Qed.

Lemma vtt_render_cue_lines : forall crlf c,
  vtt_render_cue crlf c = flat_map (fun l => l ++ nl_of crlf) (vtt_cue_lines c).
Proof.
  intros crlf c. unfold vtt_render_cue, vtt_cue_lines, vtt_timing, render_lines.
  rewrite flat_map_app. cbn [flat_map]. rewrite flat_map_app. rewrite blank_lines_render.
  rewrite <- !app_assoc. reflexivity.
Qed.

Lemma vtt_render_cues_lines : forall crlf cues,
  flat_map (vtt_render_cue crlf) cues = flat_map (fun l => l ++ nl_of crlf) (flat_map vtt_cue_lines cues).
Proof.
  intros crlf cues. induction cues as [|c t IH]; [reflexivity|].
  change (flat_map (vtt_render_cue crlf) (c :: t)) with (vtt_render_cue crlf c ++ flat_map (vtt_render_cue crlf) t).
  change (flat_map vtt_cue_lines (c :: t)) with (vtt_cue_lines c ++ flat_map vtt_cue_lines t).
  rewrite flat_map_app. rewrite IH, vtt_render_cue_lines. reflexivity.
Qed.

Lemma vtt_render_lines : forall crlf cues,
  vtt_render crlf cues = flat_map (fun l => l ++ nl_of crlf) (lit "WEBVTT" :: [] :: flat_map vtt_cue_lines cues).
Proof.
  intros crlf cues. unfold vtt_render. rewrite vtt_render_cues_lines.
  cbn [flat_map app]. rewrite <- !app_assoc. reflexivity.
Qed.

Lemma blank_run_no_lb : forall w, blank_run w = true -> no_lb w = true.
Proof.
  intros w H. unfold blank_run in H. destruct w as [|c r]; [discriminate|].
  unfold no_lb. apply (forallb_weaken (fun x => (x =? 32) || (x =? 9))); [|exact H].
  intros x Hx. lia.
Qed.

Lemma quiet_no_lb : forall ls, forallb (fun l => no_linebreak l && no_arrow l) ls = true -> forallb no_lb ls = true.
Proof. intros ls. apply forallb_weaken. intros l H. apply andb_true_iff in H. apply H. Qed.

Lemma vtt_cue_lines_no_lb : forall c, vtt_cue_dom c = true -> forallb no_lb (vtt_cue_lines c) = true.
Proof.
  intros c Hd. destruct (vtt_cue_dom_parts c Hd) as (H0 & H1 & Hl & _ & Hpre & Hset & W1 & W2).
  pose proof (fun t Ht => stamp_chars_no_lb _ (vtt_render_chars t Ht)) as ST.
  assert (SS : no_lb (match vc_settings c with Some s => 32 :: s | None => [] end) = true).
  { destruct (vc_settings c) as [s|]; [|reflexivity]. apply andb_true_iff in Hset. apply Hset. }
  unfold vtt_cue_lines, vtt_timing. rewrite forallb_app, (quiet_no_lb _ Hpre). cbn [forallb andb].
  rewrite !no_lb_app, (ST _ H0), (ST _ H1), (blank_run_no_lb _ W1), (blank_run_no_lb _ W2), forallb_app, (forallb_repeat _ no_lb [] _ eq_refl).
  change (no_lb (lit "-->")) with true. cbn [andb]. rewrite andb_true_r. apply andb_true_iff. split; [exact SS|].
  revert Hl. apply forallb_weaken. intros l H. apply andb_true_iff in H. destruct H as [H _]. apply (text_line_parts l H).
Qed.

(* WebVTT documents with ANY header block (header text after WEBVTT, header lines, NOTE / STYLE / REGION blocks)
   and ANY trailing block after the last cue (a closing NOTE, stray text): lines without an arrow never reach a caption,
   wherever they stand.  (Blocks BETWEEN cues and cue identifiers are the vc_pre lines of vtt_doc_exact.) *)
Theorem vtt_doc_exact_framed : forall strict sh crlf hdr cues trailer,
  forallb (fun l => no_linebreak l && no_arrow l) hdr = true ->
  forallb (fun l => no_linebreak l && no_arrow l) trailer = true ->
  forallb vtt_cue_dom cues = true ->
  (strict = true -> vtt_sorted_from sh 0 cues = true) ->
  vtt_read strict sh (render_lines crlf hdr ++ flat_map (vtt_render_cue crlf) cues ++ render_lines crlf trailer)
  = read_result (vtt_expected_caps sh cues).
Proof.
  intros strict sh crlf hdr cues trailer Hh Ht Hd Hs. unfold vtt_read.
  assert (DOC : render_lines crlf hdr ++ flat_map (vtt_render_cue crlf) cues ++ render_lines crlf trailer
                = flat_map (fun l => l ++ nl_of crlf) (hdr ++ flat_map vtt_cue_lines cues ++ trailer)).
  { rewrite !flat_map_app, vtt_render_cues_lines. reflexivity. }
  rewrite DOC. clear DOC.
  rewrite splitlines_lines.
  2:{ rewrite !forallb_app, (quiet_no_lb hdr Hh), (quiet_no_lb trailer Ht), (forallb_flat_map _ _ _ cues vtt_cue_lines_no_lb Hd).
      reflexivity. }
  rewrite vtt_loop_app, (vtt_loop_idle strict (sh * 1000) hdr [] 0 0 Hh). cbn [bind].
  rewrite vtt_loop_app.
  destruct (vtt_loop_cues strict sh cues [] 0 0 Hd Hs) as [s1 [e1 E]]. rewrite E. cbn [bind app].
  rewrite (vtt_loop_idle strict (sh * 1000) trailer _ s1 e1 Ht). cbn [bind vs_nodes vs_caps].
  unfold read_result, no_captions_if_empty. destruct (vtt_expected_caps sh cues); reflexivity.
Qed.

Theorem vtt_doc_exact : forall strict sh crlf cues, forallb vtt_cue_dom cues = true ->
  (strict = true -> vtt_sorted_from sh 0 cues = true) ->
  vtt_read strict sh (vtt_render crlf cues) = read_result (vtt_expected_caps sh cues).
Proof.
  intros strict sh crlf cues Hd Hs.
  rewrite <- (vtt_doc_exact_framed strict sh crlf [lit "WEBVTT"; []] cues [] eq_refl eq_refl Hd Hs).
  unfold vtt_render, render_lines. cbn [flat_map app]. rewrite !app_nil_r, <- !app_assoc. reflexivity.
Qed.

Theorem vtt_validation_transparent : forall sh crlf cues, forallb vtt_cue_dom cues = true ->
  vtt_sorted_from sh 0 cues = true ->
  vtt_read true sh (vtt_render crlf cues) = vtt_read false sh (vtt_render crlf cues).
Proof.
  intros sh crlf cues Hd Hs. rewrite !vtt_doc_exact; try assumption; try reflexivity; intros; try assumption; discriminate.
Qed.

