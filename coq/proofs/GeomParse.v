(* C18: Size.from_string accepts exactly the size language and returns the denoted value. *)
From Coq Require Import List ZArith QArith Qabs Bool Lia Lqa Field.
From PV Require Import lib.Sx lib.Str lib.StrFacts lib.Result model.Geometry spec.SpecGeom proofs.GeomStr proofs.GeomEq.
Import ListNotations.
Open Scope Z_scope.

Lemma unit_of_suffix_iff : forall r u, unit_of_suffix r = Some u <-> r = unit_str u.
Proof.
  intros r u. split; [|intros ->; destruct u; reflexivity]. unfold unit_of_suffix.
  repeat (destruct (str_eqb r _) eqn:E; [apply str_eqb_eq in E; intros H; inversion H; subst; reflexivity|clear E]).
  discriminate.
Qed.

Lemma unit_of_suffix_str : forall u, unit_of_suffix (unit_str u) = Some u.
Proof. intros u. apply unit_of_suffix_iff. reflexivity. Qed.

Lemma unit_str_stops : forall u, stops is_digit (unit_str u).
Proof. intros []; reflexivity. Qed.

Lemma unit_str_no_dot : forall u t, unit_str u <> 46 :: t.
Proof. intros [] t; discriminate. Qed.

Lemma unit_str_nonempty : forall u, unit_str u <> [].
Proof. intros []; discriminate. Qed.

Lemma last_app_unit : forall x w, last (x ++ unit_str w) 0 = last (unit_str w) 0.
Proof.
  intros x w. induction x as [|c x IH]; [reflexivity|].
  cbn [app]. destruct (x ++ unit_str w) eqn:E.
  - destruct x; [destruct w|]; discriminate.
  - rewrite <- IH. reflexivity.
Qed.

Lemma last_snoc : forall (r : str) c, last (r ++ [c]) 0 = c.
Proof.
  induction r as [|x r IH]; intros c; [reflexivity|]. cbn [app]. specialize (IH c).
  destruct (r ++ [c]) eqn:E; [destruct r; discriminate|]. exact IH.
Qed.

(* the last character determines the unit *)
Lemma unit_str_last_inj : forall a b u v, a ++ unit_str u = b ++ unit_str v -> a = b /\ u = v.
Proof.
  intros a b u v H.
  assert (Hl : last (a ++ unit_str u) 0 = last (b ++ unit_str v) 0) by (rewrite H; reflexivity).
  rewrite !last_app_unit in Hl.
  assert (u = v) by (destruct u, v; cbn in Hl; try reflexivity; discriminate).
  subst v. split; [|reflexivity]. eapply app_inv_tail. exact H.
Qed.

Lemma all_digits_iff : forall s, all_digits s = true <-> s <> [] /\ forallb is_digit s = true.
Proof.
  intros [|c s]; cbn [all_digits]; split.
  - discriminate. - intros [H _]; contradiction.
  - intros H. split; [discriminate|assumption]. - intros [_ H]; exact H.
Qed.

Lemma int_of_digits_some : forall s, all_digits s = true -> exists i, int_of_digits s = Some i /\ digits_val_acc s 0 = Some i.
Proof.
  intros s H. apply all_digits_iff in H. destruct H as [Hn Hd].
  destruct (digits_val_acc_some s 0 Hd) as [v Hv]. exists v. split; [|exact Hv].
  unfold int_of_digits. destruct s; [contradiction|exact Hv].
Qed.

Lemma digits_free_of_dot : forall s, forallb is_digit s = true -> free_of 46 s.
Proof.
  induction s as [|c s IH]; intros H; [constructor|].
  cbn [forallb] in H. apply andb_true_iff in H. destruct H as [H1 H2].
  unfold free_of. constructor; [apply is_digit_range in H1; lia|apply IH; exact H2].
Qed.

Lemma digits_q_compat : forall s a b, (a == b)%Q -> (digits_q s a == digits_q s b)%Q.
Proof.
  induction s as [|c s IH]; intros a b H; cbn [digits_q]; [exact H|]. apply IH. rewrite H. reflexivity.
Qed.

Lemma digits_q_val : forall s acc v, digits_val_acc s acc = Some v -> (digits_q s (inject_Z acc) == inject_Z v)%Q.
Proof.
  induction s as [|c s IH]; intros acc v H; cbn [digits_q digits_val_acc] in *.
  - inversion H; subst. reflexivity.
  - destruct (is_digit c); [|discriminate]. rewrite <- (IH _ _ H). apply digits_q_compat.
    unfold digit_val. rewrite inject_Z_plus, inject_Z_mult. reflexivity.
Qed.

Lemma pow10_pos : forall n, 0 < pow10 n.
Proof. intros n. unfold pow10. apply Z.pow_pos_nonneg; lia. Qed.

Lemma pow10_succ : forall n, pow10 (S n) = 10 * pow10 n.
Proof. intros n. unfold pow10. rewrite Nat2Z.inj_succ, Z.pow_succ_r by lia. reflexivity. Qed.

Lemma inject_Z_nonzero : forall p, 0 < p -> ~ (inject_Z p == 0)%Q.
Proof. intros p Hp H. unfold Qeq in H. cbn in H. lia. Qed.

Lemma frac_q_compat : forall s a b, (a == b)%Q -> (frac_q s a == frac_q s b)%Q.
Proof.
  induction s as [|c s IH]; intros a b H; cbn [frac_q]; [reflexivity|].
  rewrite (IH (a / 10)%Q (b / 10)%Q) by (rewrite H; reflexivity). rewrite H. reflexivity.
Qed.

Lemma frac_q_val : forall s sc f, digits_val_acc s 0 = Some f ->
  (frac_q s sc == sc * 10 * inject_Z f / inject_Z (pow10 (length s)))%Q.
Proof.
  induction s as [|c s IH]; intros sc f H.
  - cbn in H. inversion H; subst. cbn. field.
  - cbn [frac_q length]. cbn [digits_val_acc] in H. destruct (is_digit c) eqn:E; [|discriminate].
    destruct (digits_val_acc_some s 0) as [w Hw].
    { destruct (forallb is_digit s) eqn:F; [reflexivity|]. rewrite digits_val_acc_none in H by assumption. discriminate. }
    rewrite (digits_val_acc_shift _ _ _ Hw) in H. inversion H; subst f. clear H.
    rewrite (IH _ _ Hw). rewrite pow10_succ.
    pose proof (pow10_pos (length s)) as Hp. fold (pow10 (length s)).
    set (P := pow10 (length s)) in *. unfold digit_val.
    repeat (rewrite inject_Z_plus || rewrite inject_Z_mult). change (inject_Z 0) with 0%Q.
    assert (HP : ~ (inject_Z P == 0)%Q).
    { apply inject_Z_nonzero. exact Hp. }
    field. exact HP.
Qed.

Lemma decimal_value_spec : forall ip fp, all_digits ip = true -> (fp = [] \/ all_digits fp = true) ->
  exists v, decimal_value ip fp = Some v /\ (v == denoted ip fp)%Q /\ (0 <= v)%Q.
Proof.
  intros ip fp Hip Hfp. destruct (int_of_digits_some _ Hip) as (i & Hi & Hi').
  unfold decimal_value, denoted. rewrite Hi.
  pose proof (digits_val_nonneg _ _ _ (Z.le_refl 0) Hi') as Hi0.
  pose proof (digits_q_val _ _ _ Hi') as Hq. change (inject_Z 0) with 0%Q in Hq.
  destruct Hfp as [->|Hfp].
  - exists (inject_Z i). split; [reflexivity|]. split.
    + rewrite Hq. cbn [frac_q]. ring.
    + change 0%Q with (inject_Z 0). rewrite <- Zle_Qle. exact Hi0.
  - destruct (int_of_digits_some _ Hfp) as (f & Hf & Hf').
    destruct fp as [|c fp']; [discriminate|]. rewrite Hf.
    eexists. split; [reflexivity|].
    pose proof (digits_val_nonneg _ _ _ (Z.le_refl 0) Hf') as Hf0.
    pose proof (pow10_pos (length (c :: fp'))) as Hp.
    set (P := pow10 (length (c :: fp'))) in *.
    assert (HP : ~ (inject_Z P == 0)%Q).
    { apply inject_Z_nonzero. exact Hp. }
    assert (Hv : (Qred ((i * P + f) # Z.to_pos P) == inject_Z i + inject_Z f / inject_Z P)%Q).
    { rewrite Qred_correct, Qmake_Qdiv, Z2Pos.id by exact Hp.
      rewrite inject_Z_plus, inject_Z_mult. field. exact HP. }
    split.
    + rewrite Hv, Hq, (frac_q_val _ _ _ Hf'). fold P. field. exact HP.
    + rewrite Qred_correct. clearbody P. unfold Qle. cbn [Qnum Qden]. rewrite Z.mul_1_r. cbn. nia.
Qed.

Lemma frac_split_nodot : forall r, (forall t, r <> 46 :: t) -> frac_split r = ([], r).
Proof.
  intros [|c t] H; [reflexivity|]. unfold frac_split. destruct (c =? 46) eqn:E; [|reflexivity].
  exfalso. apply (H t). f_equal. lia.
Qed.

Lemma frac_split_dot : forall fp r, forallb is_digit fp = true -> fp <> [] -> stops is_digit r ->
  frac_split (46 :: fp ++ r) = (fp, r).
Proof.
  intros fp r Hd Hn Hs. unfold frac_split. rewrite Z.eqb_refl.
  rewrite (take_while_stops _ _ _ Hd Hs), (drop_while_stops _ _ _ Hd Hs). destruct fp; [contradiction|reflexivity].
Qed.

Lemma parse_core_sound : forall s z, size_parse_core s = Ok z -> size_lang s.
Proof.
  intros s z H. unfold size_parse_core in H.
  destruct (str_eqb s (lit "0")) eqn:E0; [apply str_eqb_eq in E0; subst; constructor|].
  pose proof (take_drop_while is_digit s) as Hs.
  pose proof (take_while_all is_digit s) as Hip.
  destruct (take_while is_digit s) as [|c ip] eqn:Eip; [discriminate|].
  assert (Hipd : all_digits (c :: ip) = true) by exact Hip.
  destruct (drop_while is_digit s) as [|d t] eqn:Er1.
  - cbn in H. discriminate.
  - unfold frac_split in H. destruct (d =? 46) eqn:Ed.
    + assert (d = 46) by lia. subst d.
      pose proof (take_drop_while is_digit t) as Ht.
      pose proof (take_while_all is_digit t) as Hfp.
      destruct (take_while is_digit t) as [|c2 fp] eqn:Efp.
      * destruct (unit_of_suffix (46 :: t)) as [u|] eqn:Eu; [|discriminate].
        apply unit_of_suffix_iff in Eu. exfalso. eapply unit_str_no_dot. symmetry. exact Eu.
      * destruct (unit_of_suffix (drop_while is_digit t)) as [u|] eqn:Eu; [|discriminate].
        apply unit_of_suffix_iff in Eu. rewrite Eu in Ht. rewrite <- Ht in Hs. rewrite <- Hs.
        change ((c :: ip) ++ 46 :: (c2 :: fp) ++ unit_str u) with ((c :: ip) ++ 46 :: ((c2 :: fp) ++ unit_str u)).
        apply SL_frac; [exact Hipd|exact Hfp].
    + destruct (unit_of_suffix (d :: t)) as [u|] eqn:Eu; [|discriminate].
      apply unit_of_suffix_iff in Eu. rewrite Eu in Hs. rewrite <- Hs. apply SL_int. exact Hipd.
Qed.

Lemma frac_split_dotted : forall fp u, fp = [] \/ all_digits fp = true ->
  frac_split ((match fp with [] => [] | _ => 46 :: fp end) ++ unit_str u) = (fp, unit_str u).
Proof.
  intros fp u [->|H]; [apply frac_split_nodot, unit_str_no_dot|]. apply all_digits_iff in H. destruct H as [Hn Hd].
  destruct fp as [|c fp]; [contradiction|]. exact (frac_split_dot _ _ Hd Hn (unit_str_stops u)).
Qed.

Theorem from_string_value : forall ip fp u, all_digits ip = true -> (fp = [] \/ all_digits fp = true) ->
  let s := ip ++ (match fp with [] => [] | _ => 46 :: fp end) ++ unit_str u in
  exists v, size_from_string s = Ok (mkSize v u) /\ (v == denoted ip fp)%Q /\ (0 <= v)%Q.
Proof.
  intros ip fp u Hip Hfp s. subst s. unfold size_from_string, size_parse_core.
  pose proof Hip as Hip'. apply all_digits_iff in Hip'. destruct Hip' as [Hn Hd].
  set (tail := (match fp with [] => [] | _ => 46 :: fp end) ++ unit_str u).
  assert (St : stops is_digit tail) by (subst tail; destruct fp; [apply unit_str_stops|reflexivity]).
  assert (E0 : str_eqb (ip ++ tail) (lit "0") = false).
  { apply str_eqb_neq. intros E. apply (f_equal (@length Z)) in E. subst tail. rewrite !app_length in E.
    destruct ip; [contradiction|]. destruct u; cbn in E; lia. }
  rewrite E0, (take_while_stops _ _ _ Hd St), (drop_while_stops _ _ _ Hd St). subst tail.
  rewrite (frac_split_dotted _ _ Hfp), unit_of_suffix_str.
  destruct ip as [|c ip]; [contradiction|]. destruct (decimal_value_spec (c :: ip) fp Hip Hfp) as (v & Hv & Hvq & Hv0).
  exists v. rewrite Hv. auto.
Qed.

Lemma parse_core_complete : forall s, size_lang s -> exists z, size_parse_core s = Ok z.
Proof.
  intros s H. destruct H as [|ip u Hip|ip fp u Hip Hfp].
  - eexists. reflexivity.
  - destruct (from_string_value ip [] u Hip (or_introl eq_refl)) as (v & Hv & _). eauto.
  - destruct (from_string_value ip fp u Hip (or_intror Hfp)) as (v & Hv & _). destruct fp; [discriminate|]. eauto.
Qed.

Theorem parse_core_language : forall s, (exists z, size_parse_core s = Ok z) <-> size_lang s.
Proof.
  intros s. split; [intros [z H]; eapply parse_core_sound; eauto|apply parse_core_complete].
Qed.

(* everything else is rejected with the syntax error, never another exception *)
Lemma parse_core_err : forall s e, size_parse_core s = Err e -> e = ESyntax.
Proof.
  intros s e H. unfold size_parse_core in H.
  destruct (str_eqb s (lit "0")); [discriminate|].
  destruct (take_while is_digit s) as [|c0 ip0]; [inversion H; reflexivity|].
  destruct (frac_split (drop_while is_digit s)) as [fp r2].
  destruct (unit_of_suffix r2); [destruct (decimal_value (c0 :: ip0) fp)|]; try discriminate; inversion H; reflexivity.
Qed.

Theorem parse_rejects_with_syntax_error : forall s, ~ size_lang s -> size_parse_core s = Err ESyntax.
Proof.
  intros s H. destruct (size_parse_core s) as [z|e] eqn:E.
  - exfalso. apply H. eapply parse_core_sound; eauto.
  - f_equal. eapply parse_core_err; eauto.
Qed.

(* Size.from_string itself (after the two `fix:` commits the function is the pattern): for ALL strings *)
Theorem from_string_language : forall s,
  ((exists z, size_from_string s = Ok z) <-> size_lang s) /\ (~ size_lang s -> size_from_string s = Err ESyntax)
  /\ (forall e, size_from_string s = Err e -> e = ESyntax).
Proof.
  intros s. unfold size_from_string.
  split; [apply parse_core_language|split; [apply parse_rejects_with_syntax_error|apply parse_core_err]].
Qed.
