(* C04: the text-node matcher keeps every word of wrapped text; the tree walks add no characters and turn
   br into breaks; SAMI stage 1 keeps & < > escaped so that the second parse decodes exactly once;
   MicroDVD / SRT line splitting. *)
From Coq Require Import List ZArith Bool Lia ZifyBool.
From PV Require Import lib.Sx lib.Str lib.StrFacts lib.Result model.TextNodes model.GenText model.TextRead.
From PV Require Import spec.SpecTextXml spec.SpecTextLines.
From PV Require Import proofs.TextStrFacts proofs.TextLinesFacts proofs.TextXmlFacts.
From PV Require lib.StrSplit.
Import ListNotations.
Open Scope Z_scope.

Lemma words_aux_app_space : forall a w b cur, is_space w = true ->
  words_aux (a ++ w :: b) cur = words_aux a cur ++ words_aux b [].
Proof.
  induction a as [|c a IH]; intros w b cur Hw.
  - cbn [app words_aux]. rewrite Hw. destruct cur; reflexivity.
  - cbn [app words_aux]. destruct (is_space c).
    + destruct cur; rewrite IH by exact Hw; reflexivity.
    + apply IH. exact Hw.
Qed.

Lemma words_app_space : forall a w b, is_space w = true -> words (a ++ w :: b) = words a ++ words b.
Proof. intros. unfold words. apply words_aux_app_space. assumption. Qed.

Lemma words_app_allspace : forall a b, forallb is_space a = true -> words (a ++ b) = words b.
Proof.
  induction a as [|c a IH]; intros b H; [reflexivity|].
  cbn [forallb] in H. apply andb_true_iff in H. destruct H as [Hc Ha].
  cbn [app]. rewrite words_cons_space by exact Hc. apply IH. exact Ha.
Qed.

Lemma words_lstrip : forall s, words (lstrip s) = words s.
Proof.
  unfold lstrip. induction s as [|c s IH]; [reflexivity|]. cbn [lstrip_by].
  destruct (is_space c) eqn:E; [|reflexivity]. rewrite IH, words_cons_space by exact E. reflexivity.
Qed.

Lemma nlcr_space : forall c, is_nl_cr c = true -> is_space c = true.
Proof. intros c H. apply orb_true_iff in H. destruct H as [H|H]; apply Z.eqb_eq in H; subst c; reflexivity. Qed.

Lemma words_split_by : forall f s, (forall c, f c = true -> is_space c = true) ->
  flat_map words (split_by f s) = words s.
Proof.
  intros f s Hf. unfold split_by.
  assert (G : forall s cur, flat_map words (split_by_aux f s cur) = words (rev cur ++ s)).
  { clear s. induction s as [|c s IH]; intros cur.
    - cbn [split_by_aux flat_map]. rewrite !app_nil_r. reflexivity.
    - cbn [split_by_aux]. destruct (f c) eqn:E.
      + cbn [flat_map]. rewrite (IH []). cbn [rev app]. rewrite words_app_space by (apply Hf; exact E). reflexivity.
      + rewrite (IH (c :: cur)). cbn [rev]. rewrite <- app_assoc. reflexivity. }
  rewrite (G s []). reflexivity.
Qed.

Lemma firstn_take_while : forall f (s : str), firstn (length (take_while f s)) s = take_while f s.
Proof. intros f s. rewrite <- (take_drop_while f s) at 2. apply firstn_app_exact. Qed.

Lemma skipn_take_while : forall f (s : str), skipn (length (take_while f s)) s = drop_while f s.
Proof. intros f s. rewrite <- (take_drop_while f s) at 2. apply skipn_app_exact. Qed.

Lemma skipn_add : forall a b (s : str), skipn (a + b) s = skipn b (skipn a s).
Proof.
  induction a as [|a IH]; intros b s; [reflexivity|]. destruct s as [|c s].
  - cbn. destruct b; reflexivity.
  - cbn [Nat.add skipn]. apply IH.
Qed.

Lemma firstn_add : forall a b (s : str), firstn (a + b) s = firstn a s ++ firstn b (skipn a s).
Proof.
  induction a as [|a IH]; intros b s; [reflexivity|]. destruct s as [|c s].
  - cbn. destruct b; reflexivity.
  - cbn [Nat.add firstn skipn app]. rewrite IH. reflexivity.
Qed.

(* the length of the leading [\n\r]+\s* run of the pattern *)
Definition lead_len (s : str) : nat :=
  let n1 := length (take_while is_nl_cr s) in
  match n1 with O => O | _ => (n1 + length (take_while is_space (skipn n1 s)))%nat end.

Lemma text_first_eq : forall s, text_first s =
  match rstrip_by is_lf (firstn (S (lead_len s)) s) with
  | [] => None
  | c => Some ((length c - 1)%nat, take_while not_lf (skipn (length c - 1) s))
  end.
Proof. reflexivity. Qed.

Lemma lead_run_space : forall s, forallb is_space (firstn (lead_len s) s) = true.
Proof.
  intros s. unfold lead_len. destruct (length (take_while is_nl_cr s)) as [|k] eqn:E; [reflexivity|]. rewrite <- E.
  rewrite firstn_add, forallb_app, !firstn_take_while, take_while_all, andb_true_r.
  apply forallb_forall. intros c Hc. apply nlcr_space.
  pose proof (take_while_all is_nl_cr s) as H. rewrite forallb_forall in H. apply H. exact Hc.
Qed.

Lemma lead_next : forall s d t, skipn (lead_len s) s = d :: t -> is_lf d = false.
Proof.
  intros s d t. unfold lead_len, is_lf. destruct (length (take_while is_nl_cr s)) as [|k] eqn:E.
  - cbn [skipn]. intros ->. cbn [take_while] in E. destruct (is_nl_cr d) eqn:N; [discriminate|].
    apply orb_false_iff in N. apply N.
  - rewrite <- E, skipn_add, skipn_take_while. intros T. apply drop_while_head in T.
    destruct (Z.eqb_spec d 10) as [->|_]; [discriminate|reflexivity].
Qed.

Lemma text_first_prefix_space : forall s p first, text_first s = Some (p, first) ->
  forallb is_space (firstn p s) = true /\ first = take_while not_lf (skipn p s).
Proof.
  intros s p first H. rewrite text_first_eq in H. set (w := lead_len s) in *.
  destruct (StrSplit.rstrip_by_prefix is_lf (firstn (S w) s)) as [tail Ht].
  destruct (rstrip_by is_lf (firstn (S w) s)) as [|x c]; [discriminate|].
  injection H as Hp Hf. split; [|rewrite <- Hp; symmetry; exact Hf].
  assert (Hpw : (p <= w)%nat).
  { apply (f_equal (@length Z)) in Ht. rewrite app_length, firstn_length in Ht. cbn [length] in *. lia. }
  replace (firstn p s) with (firstn p (firstn w s)) by (rewrite firstn_firstn; f_equal; lia).
  apply forallb_firstn, lead_run_space.
Qed.

Definition cont_lines (rest : str) : str :=
  concat (map (fun l => 32 :: lstrip l) (filter nonblank_b (split_by is_nl_cr rest))).

Lemma words_cont : forall L a,
  words (a ++ concat (map (fun l => 32 :: lstrip l) (filter nonblank_b L))) = words a ++ flat_map words L.
Proof.
  induction L as [|l L IH]; intros a.
  - cbn. rewrite !app_nil_r. reflexivity.
  - cbn [filter flat_map]. unfold nonblank_b at 1. destruct (forallb is_space l) eqn:E; cbn [negb].
    + rewrite (proj2 (words_nil_iff_all_space l) E). cbn [app]. apply IH.
    + cbn [map concat]. rewrite app_assoc. rewrite IH.
      rewrite words_app_space by reflexivity. rewrite words_lstrip, app_assoc. reflexivity.
Qed.

(* text wrapped over several source lines keeps all of its words (and gains none) *)
Theorem text_node_keeps_words : forall s t, text_node true s = Some t -> words t = words s.
Proof.
  intros s t H. unfold text_node in H. destruct (text_first s) as [[p first]|] eqn:E; [|discriminate].
  injection H as <-. destruct (text_first_prefix_space s p first E) as [Hsp Hfirst].
  rewrite words_cont.
  rewrite (words_split_by is_nl_cr) by (apply nlcr_space).
  assert (Hs : words s = words (skipn p s)).
  { rewrite <- (firstn_skipn p s) at 1. apply words_app_allspace. exact Hsp. }
  assert (Hr : skipn (p + length first) s = drop_while not_lf (skipn p s)).
  { rewrite Hfirst. rewrite skipn_add. apply skipn_take_while. }
  rewrite Hs, Hr. set (r := skipn p s) in *.
  rewrite <- (take_drop_while not_lf r) at 2. rewrite <- Hfirst.
  destruct (drop_while not_lf r) as [|c rest] eqn:D.
  - rewrite !app_nil_r. reflexivity.
  - assert (Hc : is_space c = true).
    { pose proof (drop_while_head _ _ _ _ D) as Q. apply negb_false_iff, Z.eqb_eq in Q. subst c. reflexivity. }
    rewrite words_app_space by exact Hc.
    rewrite words_cons_space by exact Hc. reflexivity.
Qed.

(* the pinned matcher (text_node false) loses them *)
Theorem text_node_wrapped_refuted : exists s t, text_node false s = Some t /\ words t <> words s.
Proof. exists (lit "first line" ++ [10] ++ lit "  wrapped"), (lit "first line"). split; [vm_compute; reflexivity|vm_compute; discriminate]. Qed.

Lemma rstrip_by_nil_all : forall f (x : str), rstrip_by f x = [] -> forallb f x = true.
Proof.
  intros f x H. unfold rstrip_by in H. apply (f_equal (@rev Z)) in H. rewrite rev_involutive, lstrip_by_drop_while in H.
  rewrite <- forallb_rev, <- (take_drop_while f (rev x)), H. cbn [rev]. rewrite app_nil_r. apply take_while_all.
Qed.

(* a dropped text node had no word *)

Theorem text_node_none_no_word : forall s, text_node true s = None -> words s = [].
Proof.
  intros s H. unfold text_node in H. rewrite text_first_eq in H. set (w := lead_len s) in *.
  destruct (rstrip_by is_lf (firstn (S w) s)) as [|x c] eqn:R; [clear H|discriminate].
  apply rstrip_by_nil_all in R.
  destruct (skipn w s) as [|d t] eqn:T.
  - rewrite <- (firstn_skipn w s), T, app_nil_r. apply words_nil_iff_all_space, lead_run_space.
  - (* the character after the run would be a line feed *)
    rewrite <- Nat.add_1_r, firstn_add, T, forallb_app in R. apply andb_true_iff in R. destruct R as [_ R].
    cbn [firstn forallb] in R. rewrite (lead_next s d t T) in R. discriminate.
Qed.

Definition vis (s : str) : str := filter (fun c => negb (is_space c)) s.

Lemma vis_app : forall a b, vis (a ++ b) = vis a ++ vis b.
Proof. intros. unfold vis. apply filter_app. Qed.

Lemma vis_words_aux : forall s cur, forallb (fun c => negb (is_space c)) cur = true ->
  concat (words_aux s cur) = rev cur ++ vis s.
Proof.
  induction s as [|c s IH]; intros cur Hc.
  - cbn [words_aux vis filter]. rewrite app_nil_r. destruct cur; [reflexivity|]. cbn [concat]. rewrite app_nil_r. reflexivity.
  - cbn [words_aux]. unfold vis. cbn [filter]. fold (vis s). destruct (is_space c) eqn:E; cbn [negb].
    + destruct cur as [|x cur'].
      * rewrite (IH [] eq_refl). reflexivity.
      * cbn [concat]. rewrite (IH [] eq_refl). reflexivity.
    + rewrite IH by (cbn [forallb]; rewrite E, Hc; reflexivity). cbn [rev]. rewrite <- app_assoc. reflexivity.
Qed.

Lemma vis_words : forall s, concat (words s) = vis s.
Proof. intros s. unfold words. rewrite vis_words_aux by reflexivity. reflexivity. Qed.

(* line structure and characters as one string: a break is the mark -1 (not a character, not white space) *)
Definition brk_mark : Z := -1.
Definition node_flat1 (n : node) : str :=
  match n with NText s => s | NBreak => [brk_mark] | NStyle _ _ => [] end.
Definition node_flat (ns : list node) : str := flat_map node_flat1 ns.

Fixpoint tree_flat (x : xnode) : str :=
  match x with
  | XText s => s
  | XElem n _ kids => if str_eqb n (lit "br") then [brk_mark] else flat_map tree_flat kids
  end.

Section xnode_induction.
  Variable P : xnode -> Prop.
  Hypothesis Htext : forall s, P (XText s).
  Hypothesis Helem : forall n a kids, Forall P kids -> P (XElem n a kids).
  Fixpoint xnode_ind2 (x : xnode) : P x :=
    match x with
    | XText s => Htext s
    | XElem n a kids =>
        Helem n a kids ((fix go (l : list xnode) : Forall P l :=
                           match l with
                           | [] => Forall_nil P
                           | y :: t => Forall_cons y (xnode_ind2 y) (go t)
                           end) kids)
    end.
End xnode_induction.

Lemma vis_text_node : forall s, vis (match text_node true s with Some t => t | None => [] end) = vis s.
Proof.
  intros s. destruct (text_node true s) as [t|] eqn:E.
  - rewrite <- !vis_words. rewrite (text_node_keeps_words s t E). reflexivity.
  - rewrite <- (vis_words s), (text_node_none_no_word s E). reflexivity.
Qed.

Lemma vis_flat_map_kids : forall (f : xnode -> list node) kids,
  Forall (fun x => vis (node_flat (f x)) = vis (tree_flat x)) kids ->
  vis (node_flat (flat_map f kids)) = vis (flat_map tree_flat kids).
Proof.
  intros f kids H. induction H as [|x l Hx Hl IH]; [reflexivity|].
  cbn [flat_map]. unfold node_flat in *. rewrite flat_map_app, !vis_app, Hx, IH. reflexivity.
Qed.

Lemma vis_text_case : forall s,
  vis (node_flat (match text_node true s with Some t => [NText t] | None => [] end)) = vis s.
Proof. intros s. rewrite <- (vis_text_node s). destruct (text_node true s); cbn; rewrite ?app_nil_r; reflexivity. Qed.

Lemma vis_styled_kids : forall (f : xnode -> list node) kids st,
  Forall (fun x => vis (node_flat (f x)) = vis (tree_flat x)) kids ->
  vis (node_flat ([NStyle true st] ++ flat_map f kids ++ [NStyle false st])) = vis (flat_map tree_flat kids).
Proof.
  intros f kids st H. unfold node_flat. rewrite !flat_map_app. cbn [flat_map node_flat1 app]. rewrite app_nil_r.
  apply (vis_flat_map_kids f kids H).
Qed.

(* DFXP tree walk: br becomes a break, span (style) nodes contribute no character, every visible character of
   every text node is kept, in order *)
Theorem dfxp_walk_visible : forall x, vis (node_flat (dfxp_nodes true x)) = vis (tree_flat x).
Proof.
  induction x as [s|n a kids IH] using xnode_ind2; cbn [dfxp_nodes tree_flat]; [apply vis_text_case|].
  destruct (str_eqb n (lit "br")); [reflexivity|].
  destruct (str_eqb n (lit "span")); [apply vis_styled_kids, IH|apply vis_flat_map_kids, IH].
Qed.

Theorem sami_walk_visible : forall x, vis (node_flat (sami_nodes true x)) = vis (tree_flat x).
Proof.
  induction x as [s|n a kids IH] using xnode_ind2; cbn [sami_nodes tree_flat]; [apply vis_text_case|].
  destruct (str_eqb n (lit "br")); [reflexivity|].
  destruct (str_eqb n (lit "i")); [apply vis_styled_kids, IH|]. destruct (str_eqb n (lit "b")); [apply vis_styled_kids, IH|].
  destruct (str_eqb n (lit "u")); [apply vis_styled_kids, IH|].
  destruct (str_eqb n (lit "span")); [|apply vis_flat_map_kids, IH].
  destruct (sami_span_args a); [apply vis_styled_kids, IH|apply vis_flat_map_kids, IH].
Qed.

Lemma trun_gen_app : forall l a b st,
  trun_gen l st (a ++ b) = match trun_gen l st a with Some st' => trun_gen l st' b | None => None end.
Proof.
  intros l. induction a as [|c a IH]; intros b st; [reflexivity|].
  cbn [app trun_gen]. destruct (tstep_gen l st c); [apply IH|reflexivity].
Qed.

Definition data_char_ok (c : Z) : bool := xml_text_char c && negb (c =? 38) && negb (c =? 60).

(* in lenient (HTML) character data the tokenizer reads the markup p as the characters cs *)
Definition reads (p cs : str) : Prop := forall nbr cur out, exists nbr',
  trun_gen true (mkT (MText nbr false) cur out) p = Some (mkT (MText nbr' false) (rev cs ++ cur) out).

Lemma reads_nil : reads [] [].
Proof. intros nbr cur out. exists nbr. reflexivity. Qed.

Lemma reads_app : forall p1 c1 p2 c2, reads p1 c1 -> reads p2 c2 -> reads (p1 ++ p2) (c1 ++ c2).
Proof.
  intros p1 c1 p2 c2 H1 H2 nbr cur out. destruct (H1 nbr cur out) as [n1 E1]. destruct (H2 n1 (rev c1 ++ cur) out) as [n2 E2].
  exists n2. rewrite trun_gen_app, E1, E2, rev_app_distr, <- app_assoc. reflexivity.
Qed.

Lemma reads_char : forall c, data_char_ok c = true -> reads [c] [c].
Proof.
  intros c H nbr cur out. unfold data_char_ok, xml_text_char in H.
  apply andb_true_iff in H. destruct H as [H H60]. apply andb_true_iff in H. destruct H as [H H38].
  apply andb_true_iff in H. destruct H as [Hx H13]. apply negb_true_iff in H60, H38, H13.
  cbn [trun_gen]. unfold tstep_gen. cbn [ts_mode ts_cur ts_out]. rewrite H60, H38, Hx, H13. cbn [negb].
  rewrite !andb_false_r. eexists. reflexivity.
Qed.

Lemma reads_data : forall d, forallb data_char_ok d = true -> reads d d.
Proof.
  induction d as [|c d IH]; intros H; [apply reads_nil|]. cbn [forallb] in H. apply andb_true_iff in H. destruct H as [Hc Hd].
  apply (reads_app [c] [c] d d (reads_char c Hc) (IH Hd)).
Qed.

Lemma reads_esc : forall v, xml_text_char v = true -> reads (esc_char v) [v].
Proof.
  intros v Hv. unfold esc_char.
  destruct (Z.eqb_spec v 38) as [->|H38]; [intros nbr cur out; exists 0%nat; reflexivity|].
  destruct (Z.eqb_spec v 62) as [->|H62]; [intros nbr cur out; exists 0%nat; reflexivity|].
  destruct (Z.eqb_spec v 60) as [->|H60]; [intros nbr cur out; exists 0%nat; reflexivity|].
  apply reads_char. unfold data_char_ok. rewrite Hv. apply Z.eqb_neq in H38, H60. rewrite H38, H60. reflexivity.
Qed.

(* what a text event denotes; None = not a (well-formed) text event *)
Definition is_kept (n : str) : bool := str_eqb n (lit "gt") || str_eqb n (lit "lt") || str_eqb n (lit "amp").
Definition kept_value (n : str) : Z := if str_eqb n (lit "gt") then 62 else if str_eqb n (lit "lt") then 60 else 38.

Definition ev_chars (e : hev) : option str :=
  match e with
  | EvData d => if forallb data_char_ok d then Some d else None
  | EvEntity n => if is_kept n then Some [kept_value n]
                  else match assoc_str n sami_name2codepoint with Some v => Some [v] | None => None end
  | EvCharref n => match charref_value true n with
                   | Ok v => if xml_text_char v then Some [v] else None
                   | Err _ => None
                   end
  | _ => None
  end.

(* the generated entity table: every code point is an XML Char, and only amp / lt / gt denote & < > *)
Lemma table_ok : forallb (fun kv => xml_text_char (snd kv) &&
                                    (is_kept (fst kv) || negb ((snd kv =? 38) || (snd kv =? 60) || (snd kv =? 62))))
                         sami_name2codepoint = true.
Proof. vm_compute. reflexivity. Qed.

Lemma assoc_str_in : forall n l v, assoc_str n l = Some v -> exists k, In (k, v) l /\ str_eqb n k = true.
Proof.
  intros n l. induction l as [|[k v'] l IH]; intros v H; [discriminate|]. cbn [assoc_str] in H.
  destruct (str_eqb n k) eqn:E.
  - injection H as <-. exists k. split; [left; reflexivity|exact E].
  - destruct (IH v H) as [k' [Hin He]]. exists k'. split; [right; exact Hin|exact He].
Qed.

(* what stage 1 writes for a text event *)
Definition ev_piece (e : hev) : str :=
  match e with
  | EvData d => d
  | EvEntity n => if is_kept n then lit "&" ++ n ++ lit ";"
                  else match assoc_str n sami_name2codepoint with Some v => [v] | None => lit "&" ++ n end
  | EvCharref n => match charref_value true n with Ok v => esc_char v | Err _ => [] end
  | _ => []
  end.

Lemma sami_step_piece : forall e cs st, ev_chars e = Some cs ->
  exists last, sami_step true st e = Ok (mkS (s_out st ++ ev_piece e) (s_queue st) last).
Proof.
  intros e cs st H. destruct e as [t a|t|n|n|d]; cbn [ev_chars] in H; try discriminate; cbn [sami_step ev_piece].
  - eexists. reflexivity.
  - destruct (charref_value true n); [eexists; reflexivity|discriminate].
  - eexists. reflexivity.
Qed.

Lemma ev_reads : forall e cs, ev_chars e = Some cs -> reads (ev_piece e) cs.
Proof.
  intros e cs H. destruct e as [t a|t|n|n|d]; cbn [ev_chars] in H; try discriminate; cbn [ev_piece].
  - destruct (is_kept n) eqn:K.
    + (* &gt; &lt; &amp; are passed on and decoded by the second parse *)
      injection H as <-. unfold is_kept in K. unfold kept_value.
      destruct (str_eqb n (lit "gt")) eqn:G; [apply str_eqb_eq in G; subst n; intros nbr cur out; exists 0%nat; reflexivity|].
      destruct (str_eqb n (lit "lt")) eqn:L; [apply str_eqb_eq in L; subst n; intros nbr cur out; exists 0%nat; reflexivity|].
      apply str_eqb_eq in K. subst n. intros nbr cur out. exists 0%nat. reflexivity.
    + destruct (assoc_str n sami_name2codepoint) as [v|] eqn:A; [|discriminate]. injection H as <-.
      destruct (assoc_str_in _ _ _ A) as [k [Hin Hk]].
      pose proof table_ok as T. rewrite forallb_forall in T. specialize (T _ Hin). cbn [fst snd] in T.
      apply andb_true_iff in T. destruct T as [Tx Tk].
      apply str_eqb_eq in Hk. subst k. rewrite K in Tk. cbn [orb] in Tk.
      apply negb_true_iff, orb_false_iff in Tk. destruct Tk as [Tk _]. apply orb_false_iff in Tk. destruct Tk as [T38 T60].
      apply reads_char. unfold data_char_ok. rewrite Tx, T38, T60. reflexivity.
  - destruct (charref_value true n) as [v|err]; [|discriminate].
    destruct (xml_text_char v) eqn:X; [|discriminate]. injection H as <-. apply reads_esc, X.
  - destruct (forallb data_char_ok d) eqn:D; [|discriminate]. injection H as <-. apply reads_data, D.
Qed.

Fixpoint evs_chars (evs : list hev) : option str :=
  match evs with
  | [] => Some []
  | e :: t => match ev_chars e, evs_chars t with Some a, Some b => Some (a ++ b) | _, _ => None end
  end.

Lemma sami_run_text : forall evs cs st, evs_chars evs = Some cs ->
  exists st' piece, sami_run true st evs = Ok st' /\ s_queue st' = s_queue st /\ s_out st' = s_out st ++ piece /\
    reads piece cs.
Proof.
  induction evs as [|e evs IH]; intros cs st H.
  - injection H as <-. exists st, []. rewrite app_nil_r. repeat split; try reflexivity. apply reads_nil.
  - cbn [evs_chars] in H. destruct (ev_chars e) as [a|] eqn:Ea; [|discriminate].
    destruct (evs_chars evs) as [b|] eqn:Eb; [|discriminate]. injection H as <-.
    destruct (sami_step_piece e a st Ea) as [last Hs].
    destruct (IH b (mkS (s_out st ++ ev_piece e) (s_queue st) last) eq_refl) as (st2 & p2 & Hr & Hq & Ho & Hp).
    exists st2, (ev_piece e ++ p2). cbn [sami_run]. rewrite Hs. cbn [s_queue s_out] in *.
    repeat split; [exact Hr|exact Hq|rewrite Ho, app_assoc; reflexivity|apply reads_app; [apply ev_reads, Ea|exact Hp]].
Qed.

(* every spelling of every character - raw, named reference, decimal or hexadecimal reference, the characters
   & < > included - comes out of the two parses as exactly that character: decoded once, never twice *)
Theorem sami_entities_once : forall evs cs, evs_chars evs = Some cs ->
  exists out, sami_stage1 true evs = Ok out /\ content_parse_html out = Some (text_nodes cs).
Proof.
  intros evs cs H.
  destruct (sami_run_text evs cs (mkS [] [] []) H) as (st' & piece & Hr & Hq & Ho & Hp). destruct (Hp 0%nat [] []) as [n' Ht].
  cbn [s_queue s_out app] in *. unfold sami_stage1. rewrite Hr, Hq. cbn [close_all]. exists piece. rewrite Ho.
  split; [reflexivity|]. unfold content_parse_html, t_init. rewrite Ht. unfold t_finish. cbn [ts_mode ts_cur ts_out].
  rewrite app_nil_r. destruct cs as [|c cs]; [reflexivity|].
  unfold flush. destruct (rev (c :: cs)) eqn:E.
  - apply (f_equal (@length Z)) in E. rewrite rev_length in E. discriminate.
  - rewrite <- E, rev_involutive. reflexivity.
Qed.

(* the pinned parser (sami_stage1 false) decodes &amp;lt; twice and crashes on &#X41; *)
Theorem sami_double_decode_refuted :
  exists evs out, evs_chars evs = Some (lit "&lt;") /\ sami_stage1 false evs = Ok out /\
                  content_parse_html out = Some [XText (lit "<")].
Proof. exists [EvEntity (lit "amp"); EvData (lit "lt;")], (lit "&lt;"). repeat split; vm_compute; reflexivity. Qed.

Theorem sami_upper_hex_refuted : sami_stage1 false [EvCharref (lit "X41")] = Err ValueError /\
                                 sami_stage1 true [EvCharref (lit "X41")] = Ok (lit "A").
Proof. split; vm_compute; reflexivity. Qed.

Lemma removelast_cons2 : forall {A} (a b : A) X, X <> [] -> removelast (a :: b :: X) = a :: b :: removelast X.
Proof. intros A a b X H. destruct X; [congruence|reflexivity]. Qed.

Lemma node_lines_text_break_aux : forall ls l cur,
  node_lines_aux (removelast (flat_map (fun l => [NText l; NBreak]) (l :: ls))) cur = (cur ++ l) :: ls.
Proof.
  induction ls as [|l2 ls IH]; intros l cur; [reflexivity|].
  change (flat_map (fun l => [NText l; NBreak]) (l :: l2 :: ls))
    with (NText l :: NBreak :: flat_map (fun l => [NText l; NBreak]) (l2 :: ls)).
  rewrite removelast_cons2 by discriminate. cbn [node_lines_aux]. rewrite (IH l2 []). reflexivity.
Qed.

Lemma node_lines_text_break : forall ls, ls <> [] ->
  node_lines (removelast (flat_map (fun l => [NText l; NBreak]) ls)) = ls.
Proof. intros [|l ls] H; [congruence|]. unfold node_lines. apply node_lines_text_break_aux. Qed.

Lemma mdvd_nodes_filter : forall ls,
  flat_map (fun l : str => match l with [] => [] | _ => [NText l; NBreak] end) ls
  = flat_map (fun l => [NText l; NBreak]) (filter SpecTextLines.nonempty ls).
Proof.
  induction ls as [|x l IH]; [reflexivity|]. destruct x; cbn [flat_map filter SpecTextLines.nonempty]; [exact IH|].
  cbn [flat_map app]. rewrite IH. reflexivity.
Qed.

(* MicroDVD: '|' is the line break; empty pieces are skipped *)
Theorem mdvd_pipes : forall txt, filter SpecTextLines.nonempty (split_ch 124 txt) <> [] ->
  node_lines (mdvd_text_nodes txt) = filter SpecTextLines.nonempty (split_ch 124 txt).
Proof. intros txt H. unfold mdvd_text_nodes. rewrite mdvd_nodes_filter. apply node_lines_text_break, H. Qed.

Fixpoint keys_distinct (l : list (str * Z)) : bool :=
  match l with
  | [] => true
  | (k, _) :: t => negb (existsb (fun kv => str_eqb k (fst kv)) t) && keys_distinct t
  end.

Lemma table_keys_distinct : keys_distinct sami_name2codepoint = true.
Proof. vm_compute. reflexivity. Qed.

Lemma assoc_str_exact_gen : forall l n v, keys_distinct l = true ->
  (assoc_str n l = Some v <-> In (n, v) l).
Proof.
  intros l n v H. split.
  - intros Q. destruct (assoc_str_in _ _ _ Q) as (k & Hin & E). apply str_eqb_eq in E. subst k. exact Hin.
  - induction l as [|[k w] l IH]; intros Q; [destruct Q|]. cbn [keys_distinct] in H. apply andb_true_iff in H.
    destruct H as [Hk Hl]. apply negb_true_iff in Hk. cbn [assoc_str]. destruct Q as [Q|Q].
    + injection Q as -> ->. rewrite str_eqb_refl. reflexivity.
    + destruct (str_eqb n k) eqn:E; [|apply (IH Hl Q)]. apply str_eqb_eq in E. subst k.
      (* the key would occur again further down *)
      assert (X : existsb (fun kv => str_eqb n (fst kv)) l = true)
        by (apply existsb_exists; exists (n, v); split; [exact Q|apply str_eqb_refl]).
      congruence.
Qed.

(* a reference &name; denotes v exactly when the pair (name, v) is in the table: names differing only by the
   case of a letter (Eacute / eacute, Prime / prime, Dagger / dagger ...) are different entries *)
Theorem sami_entity_lookup_exact : forall n v, assoc_str n sami_name2codepoint = Some v <-> In (n, v) sami_name2codepoint.
Proof. intros n v. apply assoc_str_exact_gen. exact table_keys_distinct. Qed.

Example sami_entity_case :
  ev_chars (EvEntity (lit "Eacute")) = Some [201] /\ ev_chars (EvEntity (lit "eacute")) = Some [233] /\
  ev_chars (EvEntity (lit "Prime")) = Some [8243] /\ ev_chars (EvEntity (lit "prime")) = Some [8242].
Proof. repeat split; vm_compute; reflexivity. Qed.

(* the entry pycaption adds to the table itself *)
Lemma sami_entity_apos : assoc_str (lit "apos") sami_name2codepoint = Some 39 /\ ev_chars (EvEntity (lit "apos")) = Some [39].
Proof. split; vm_compute; reflexivity. Qed.
