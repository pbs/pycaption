(* HeapProgHist.v - the program-based writes inside arbitrary histories; concrete refutations of the variants that break the
   copy discipline. *)
From Coq Require Import List ZArith Bool Arith Lia.
From PV Require Import lib.Sx lib.Str lib.Result model.Store model.Iso model.HeapProg proofs.StoreFacts proofs.IsoFacts
                       proofs.RegionFacts proofs.HeapProgFacts proofs.IsoExamples.
Import ListNotations.
Open Scope Z_scope.

Theorem stepP_wf_world : forall c w o, repaired c -> wf_world w -> wf_world (fst (stepP c w o)).
Proof.
  intros c w o Hc Hw. destruct o as [t|rid rk t|wid k wo si|si e].
  - apply (step_wf_world c w (OBuild t) Hc Hw).
  - apply (step_wf_world c w (ORead rid rk t) Hc Hw).
  - apply (stepP_write_preserves c w wid k wo si Hw).
  - apply (step_wf_world c w (OEdit si e) Hc Hw).
Qed.

Theorem historyP_wf_world : forall c ops w, repaired c -> wf_world w -> wf_world (runP_world c w ops).
Proof.
  intros c ops. induction ops as [|o t IH]; intros w Hc Hw; simpl; auto. apply IH; auto. apply stepP_wf_world; auto.
Qed.

(* after ANY history of reads, builds, edits and (program) writes, a program write changes no caption set *)
Theorem writeP_after_any_history_preserves : forall c ops wid k o si,
  repaired c ->
  let w := runP_world c world0 ops in
  let w' := fst (stepP c w (OWrite wid k o si)) in
  w_sets w' = w_sets w /\ forall fuel, map (snap fuel (w_st w')) (w_sets w) = map (snap fuel (w_st w)) (w_sets w).
Proof.
  intros c ops wid k o si Hc w w'.
  assert (Hw : wf_world w) by (apply historyP_wf_world; auto; apply wf_world0).
  destruct (stepP_write_preserves c w wid k o si Hw) as (_ & S & P). split; [exact S|].
  intros fuel. apply map_ext_in. intros v Hv. apply P. destruct Hw as [_ Hs]. rewrite Forall_forall in Hs. auto.
Qed.

(* ---- the variants: rejected by the analysis AND wrong ---------------------------------------------------------------- *)
Definition input_changed (p : cmd) (o : wopts) (t : tree) : bool :=
  let w1 := run_world fixed world0 [OBuild t] in
  let s := nth 0 (w_sets w1) VNone in
  negb (tree_eqb (snap FUEL (h_st (fst (run_prog p o (w_st w1) s))) s) (snap FUEL (w_st w1) s)).

Definition variants : list cmd :=
  [prog_dfxp_nocopy; prog_dfxp_shallow; prog_sami_nocopy; prog_sami_shallow; prog_legacy_merge_first; prog_single_nocopy].

Theorem variants_rejected_and_wrong :
  forallb (fun p => match check p [] with None => true | Some _ => false end) variants = true /\
  forallb (fun p => input_changed p dflt_opts positioned) variants = true.
Proof. split; vm_compute; reflexivity. Qed.

(* the accepted programs on the same input: they do assign (footprint on their copy), the input keeps its snapshot *)
Example writers_assign_on_their_copy :
  map (fun k => input_changed (prog_of k) dflt_opts positioned) [1; 2; 3; 4; 5; 6; 7; 8]
    = [false; false; false; false; false; false; false; false] /\
  (let w1 := run_world fixed world0 [OBuild positioned] in
   let s := nth 0 (w_sets w1) VNone in
   map (fun k => fp_of (wr_fp (writeP fixed k dflt_opts winst0 (w_st w1) s))) [W_DFXP; W_SAMI]
     = [[(KCaption, 5)]; [(KCaption, 5)]]).
Proof. split; vm_compute; reflexivity. Qed.

(* the analysis is not the trivial one: a program may read the argument freely, and store into what it copied *)
Example analysis_accepts_reads_of_the_argument :
  check (block [CGet 1 0 (EInt 1); CGet 2 1 (EStr (lit "s:en")); CCopy 3 2; CSet 3 (EInt 1) (EReg 3)])%nat [] <> None /\
  check (block [CGet 1 0 (EInt 1); CGet 2 1 (EStr (lit "s:en")); CCopy 3 2; CSet 2 (EInt 1) (EReg 3)])%nat [] = None.
Proof. split; vm_compute; [discriminate|reflexivity]. Qed.

(* ---- instance state: the programs without the line that (re)initialises it ---------------------------------------------- *)
Fixpoint zl_eqb (a b : list Z) : bool :=
  match a, b with
  | [], [] => true
  | x :: s, y :: t => (x =? y) && zl_eqb s t
  | _, _ => false
  end.

Definition span_kinds : list Z := [W_DFXP; W_SAMI; W_LEGACY; W_SINGLE].
Definition rejects_du (p : cmd) : bool := match du p inst_regs with None => true | Some _ => false end.

(* without `self.open_span = False` (and WebVTT without `self.global_layout = ..`) the programs read instance state they have
   not assigned: REJECTED by the analysis; and on the history of defect 15 the reused writer object does emit other tokens
   than a fresh one, while the repaired programs emit the same (same object again = fresh object = first time) *)
Theorem missing_reset_rejected_and_wrong :
  forallb (fun k => rejects_du (prog_with false k)) span_kinds = true /\
  rejects_du prog_vtt_no_global = true /\
  forallb (fun k => let r := runP (mkCfg true true false) world0 (hist15 k) in
                    negb (zl_eqb (tokens_of r 4) (tokens_of r 5))) span_kinds = true /\
  forallb (fun k => let r := runP fixed world0 (hist15 k) in
                    zl_eqb (tokens_of r 4) (tokens_of r 5) && zl_eqb (tokens_of r 4) (tokens_of r 2)) span_kinds = true.
Proof. split; [|split; [|split]]; vm_compute; reflexivity. Qed.

(* the two models agree on the tokens and on open_span after every operation of that history (both cfgs) *)
Example programs_render_like_the_store_model :
  forallb (fun k => forallb (fun c =>
     forallb (fun p => zl_eqb (mo_tokens (fst (fst p))) (mo_tokens (fst (snd p)))
                       && Bool.eqb (mo_open (fst (fst p))) (mo_open (fst (snd p))))
             (combine (run c world0 (hist15 k)) (runP c world0 (hist15 k))))
     [fixed; mkCfg true true false]) span_kinds = true.
Proof. vm_compute. reflexivity. Qed.
