(* C17: facts about the SCC writer's code tables and code-word stream. *)
From Coq Require Import List ZArith QArith Lia.
From PV Require Import lib.Sx lib.Str lib.Result model.GenSccw model.SccWrite spec.SpecSccw.
From PV Require lib.StrSplit lib.Dec.
Import ListNotations.
Open Scope Z_scope.

(* ---- the complete generated tables (re-proved against the working tree on every run) ------------ *)
Definition odd_word (w : Z) : bool := odd_parity (w / 256) && odd_parity (w mod 256).

Lemma tbl_basic_parity : forallb (fun kv => odd_parity (snd kv)) sccw_character_to_code = true.
Proof. vm_compute. reflexivity. Qed.
Lemma tbl_special_parity : forallb (fun kv => odd_word (snd kv)) sccw_special_or_extended_to_code = true.
Proof. vm_compute. reflexivity. Qed.
Lemma tbl_unknown_parity : odd_parity 145 && odd_parity 182 = true.
Proof. vm_compute. reflexivity. Qed.
Lemma tbl_filler_parity : odd_parity 128 = true.
Proof. vm_compute. reflexivity. Qed.
Lemma tbl_controls_parity :
  forallb (fun w => odd_parity (fst w) && odd_parity (snd w)) [ENM; RCL; EDM; EOC] = true.
Proof. vm_compute. reflexivity. Qed.

Definition pac_ok (row : Z) : bool :=
  match py_index sccw_pac_high_byte_by_row row, py_index sccw_pac_low_byte_by_row_restricted row with
  | Ok h, Ok l => odd_parity h && odd_parity l
                  && match pac_row h l with Some r => r =? row | None => false end
                  && match pac_indent l with Some 0 => true | _ => false end
  | _, _ => false
  end.
Lemma tbl_pac_rows : forallb pac_ok (map Z.of_nat (seq 1 15)) = true.
Proof. vm_compute. reflexivity. Qed.

Lemma pac_ok_row : forall row, 1 <= row <= 15 -> pac_ok row = true.
Proof.
  intros row H. pose proof tbl_pac_rows as T. rewrite forallb_forall in T. apply T.
  apply in_map_iff. exists (Z.to_nat row). split; [lia|]. apply in_seq. lia.
Qed.

Lemma tbl_basic_is_cea :
  forallb (fun kv => match cea_basic (snd kv mod 128) with Some c => c =? fst kv | None => false end)
          sccw_character_to_code = true.
Proof. vm_compute. reflexivity. Qed.
Lemma tbl_reader_inverts :
  forallb (fun kv => match assoc (snd kv) sccw_reader_characters with Some c => c =? fst kv | None => false end)
          sccw_character_to_code = true.
Proof. vm_compute. reflexivity. Qed.
Lemma tbl_basic_covers_cea :
  forallb (fun b => match cea_basic b with
                    | Some c => match assoc c sccw_character_to_code with Some b' => b' mod 128 =? b | None => false end
                    | None => true end) (map Z.of_nat (seq 32 95)) = true.
Proof. vm_compute. reflexivity. Qed.

(* MICROSECONDS_PER_CODEWORD (binary64) is within 2^-30 us of the exact 1001000/30 the model uses *)
Lemma tbl_mpc_close :
  Qle_bool (Qabs.Qabs ((sccw_mpc_num # Z.to_pos sccw_mpc_den) - mpc)) (1 # 1073741824) = true.
Proof. vm_compute. reflexivity. Qed.
Lemma tbl_header : sccw_header = scenarist_header.
Proof. vm_compute. reflexivity. Qed.

Lemma assoc_in : forall k l v, assoc k l = Some v -> In (k, v) l.
Proof.
  induction l as [|[a b] t IH]; intros v H; simpl in H; [discriminate|].
  destruct (a =? k) eqn:E.
  - inversion H; subst. left. f_equal. lia.
  - right. auto.
Qed.

Definition ccode_odd (cc : ccode) : bool :=
  match cc with CByte b => odd_parity b | CWord hi lo => odd_parity hi && odd_parity lo end.

Lemma char_code_parity : forall c, ccode_odd (char_code c) = true.
Proof.
  intros c. unfold char_code.
  destruct (assoc c sccw_character_to_code) as [b|] eqn:E1.
  - apply assoc_in in E1. pose proof tbl_basic_parity as T. rewrite forallb_forall in T.
    exact (T _ E1).
  - destruct (assoc c sccw_special_or_extended_to_code) as [w|] eqn:E2.
    + apply assoc_in in E2. pose proof tbl_special_parity as T. rewrite forallb_forall in T.
      exact (T _ E2).
    + exact tbl_unknown_parity.
Qed.

Definition word_odd (w : Z * Z) : bool := odd_parity (fst w) && odd_parity (snd w).
Definition state_odd (s : wstate) : Prop :=
  forallb word_odd (fst s) = true /\ match snd s with Some p => odd_parity p = true | None => True end.

Lemma ws_align_odd : forall s, state_odd s -> state_odd (ws_align s).
Proof.
  unfold state_odd. intros [ws [p|]] [H1 H2]; cbn [ws_align fst snd] in *; split; auto.
  cbn [forallb]. rewrite H1. unfold word_odd. cbn [fst snd]. rewrite H2, tbl_filler_parity. reflexivity.
Qed.

Lemma ws_char_odd : forall s c, state_odd s -> state_odd (ws_char s c).
Proof.
  intros s c H. pose proof (ws_align_odd s H) as A. unfold state_odd in *.
  unfold ws_char. pose proof (char_code_parity c) as P.
  destruct (char_code c) as [b|hi lo]; simpl in P.
  - destruct s as [ws [p|]]; destruct H as [H1 H2]; cbn [fst snd] in *; split; cbn [fst snd]; auto.
    cbn [forallb]. rewrite H1. unfold word_odd. cbn [fst snd]. rewrite H2, P. reflexivity.
  - destruct (ws_align s) as [ws' p']. destruct A as [A1 _].
    cbn [fst snd] in *. split; cbn [fst snd]; auto.
    cbn [forallb]. rewrite A1. unfold word_odd. cbn [fst snd]. rewrite P. reflexivity.
Qed.

Lemma ws_line_odd : forall line s, state_odd s -> state_odd (ws_line s line).
Proof.
  unfold ws_line. induction line as [|c t IH]; intros s H; simpl; auto using ws_char_odd.
Qed.

Definition rows_valid (rows : list (Z * str)) : Prop := forall r, In r rows -> 1 <= fst r <= 15.

Lemma words_rows_odd : forall rows s, rows_valid rows -> state_odd s ->
  exists s', words_rows s rows = Ok s' /\ state_odd s'.
Proof.
  induction rows as [|[row line] t IH]; intros s V H; simpl.
  - eauto.
  - assert (R : 1 <= row <= 15) by (apply (V (row, line)); left; reflexivity).
    pose proof (pac_ok_row row R) as P. unfold pac_ok in P.
    destruct (py_index sccw_pac_high_byte_by_row row) as [h|]; [|discriminate].
    destruct (py_index sccw_pac_low_byte_by_row_restricted row) as [l|]; [|discriminate].
    simpl. destruct s as [ws p]. apply IH.
    + intros r Hr. apply V. right. exact Hr.
    + apply ws_align_odd, ws_line_odd. unfold state_odd in *. destruct H as [H1 H2]. split; cbn [fst snd] in *; auto.
      cbn [forallb]. rewrite H1. unfold word_odd. cbn [fst snd].
      destruct (odd_parity h); [|discriminate]. destruct (odd_parity l); [|discriminate]. reflexivity.
Qed.

Lemma number_rows_spec : forall lines first r, In r (number_rows first lines) ->
  first <= fst r < first + Z.of_nat (length lines).
Proof.
  induction lines as [|l t IH]; intros first r H; simpl in H; [contradiction|].
  destruct H as [<-|H]; simpl; [lia|]. specialize (IH _ _ H). simpl length. lia.
Qed.
Lemma number_rows_length : forall lines first, length (number_rows first lines) = length lines.
Proof. induction lines; intros; simpl; auto. Qed.
Lemma number_rows_snd : forall lines first, map snd (number_rows first lines) = lines.
Proof. induction lines; intros; simpl; f_equal; auto. Qed.

Lemma layout_rows_count : forall text, (1 <= length (layout_rows text))%nat.
Proof.
  intros. unfold layout_rows. rewrite number_rows_length. unfold split_ch.
  destruct (StrSplit.split_ch_aux_cons 10 (layout_line text) []) as (x & l & ->). simpl. lia.
Qed.

Lemma layout_rows_valid : forall text, (length (layout_rows text) <= 15)%nat -> rows_valid (layout_rows text).
Proof.
  intros text H r Hr. unfold layout_rows in *. rewrite number_rows_length in H.
  apply number_rows_spec in Hr.
  pose proof (layout_rows_count text) as C. unfold layout_rows in C. rewrite number_rows_length in C. lia.
Qed.

Lemma number_rows_fst : forall lines first,
  map fst (number_rows first lines) = map (fun i => first + Z.of_nat i) (seq 0 (length lines)).
Proof.
  induction lines as [|l t IH]; intros first; simpl; [reflexivity|].
  f_equal; [lia|]. rewrite IH, <- seq_shift, map_map. apply map_ext. intros. lia.
Qed.

Theorem all_bytes_odd_parity : forall text, (length (layout_rows text) <= 15)%nat ->
  exists ws, text_to_words text = Ok ws /\ forallb word_odd ws = true.
Proof.
  intros text H. unfold text_to_words.
  destruct (words_rows_odd (layout_rows text) ([], None) (layout_rows_valid text H)) as [s' [E [O _]]].
  - split; simpl; auto.
  - rewrite E. simpl. eexists. split; [reflexivity|].
    rewrite forallb_forall in *. intros w Hw. apply O. apply in_rev. exact Hw.
Qed.

(* ---- the code string is the rendering of the word stream -------------------------------------- *)
Definition state_str (s : wstate) : str :=
  render_words (rev (fst s)) ++ match snd s with Some p => hex2 p | None => [] end.

Lemma hex2_length : forall b, length (hex2 b) = 2%nat.
Proof. intros. unfold hex2. destruct (b <? 0); reflexivity. Qed.
Lemma render_word_length : forall w, length (render_word w) = 5%nat.
Proof. intros. unfold render_word. rewrite !app_length, !hex2_length. reflexivity. Qed.
Lemma render_words_app : forall a b, render_words (a ++ b) = render_words a ++ render_words b.
Proof. intros. unfold render_words. apply flat_map_app. Qed.
Lemma render_words_length : forall ws, length (render_words ws) = (5 * length ws)%nat.
Proof.
  induction ws as [|w t IH]; [reflexivity|].
  change (render_words (w :: t)) with (render_word w ++ render_words t).
  rewrite app_length, render_word_length, IH. simpl length. lia.
Qed.

Lemma len5_app : forall a b, len5 (a ++ b) = (len5 a + Z.of_nat (length b)) mod 5.
Proof. intros. unfold len5. rewrite app_length, Nat2Z.inj_add, Zplus_mod_idemp_l. reflexivity. Qed.
Lemma len5_render : forall ws, len5 (render_words ws) = 0.
Proof.
  intros. unfold len5. rewrite render_words_length, Nat2Z.inj_mul.
  change (Z.of_nat 5) with 5. rewrite Z.mul_comm. apply Z_mod_mult.
Qed.

Lemma render_snoc : forall ws w, render_words (rev (w :: ws)) = render_words (rev ws) ++ render_word w.
Proof. intros. cbn [rev]. rewrite render_words_app. cbn [render_words flat_map]. rewrite app_nil_r. reflexivity. Qed.

Lemma hex2_filler : hex2 128 ++ [32] = lit "80 ".
Proof. reflexivity. Qed.

Ltac len5_solve :=
  repeat (rewrite len5_app); rewrite ?app_length, ?len5_render, ?hex2_length, ?render_word_length; reflexivity.

Lemma maybe_align_state : forall s, maybe_align (state_str s) = state_str (ws_align s).
Proof.
  intros [ws [p|]]; unfold maybe_align, state_str; cbn [fst snd ws_align].
  - assert (L : len5 (render_words (rev ws) ++ hex2 p) = 2) by len5_solve.
    rewrite L. cbn [Z.eqb Pos.eqb]. rewrite render_snoc, app_nil_r, <- app_assoc. unfold render_word.
    cbn [fst snd]. rewrite hex2_filler. reflexivity.
  - assert (L : len5 (render_words (rev ws) ++ []) = 0) by len5_solve.
    rewrite L. reflexivity.
Qed.

Lemma print_char_state : forall s c, maybe_space (print_character (state_str s) c) = state_str (ws_char s c).
Proof.
  intros s c. unfold print_character, ws_char. destruct (char_code c) as [b|hi lo].
  - destruct s as [ws [p|]]; unfold state_str, maybe_space; cbn [fst snd].
    + assert (L : len5 ((render_words (rev ws) ++ hex2 p) ++ hex2 b) = 4) by len5_solve.
      rewrite L. cbn [Z.eqb Pos.eqb]. rewrite render_snoc, app_nil_r. unfold render_word. cbn [fst snd].
      rewrite <- !app_assoc. reflexivity.
    + assert (L : len5 ((render_words (rev ws) ++ []) ++ hex2 b) = 2) by len5_solve.
      rewrite L. cbn [Z.eqb Pos.eqb]. rewrite app_nil_r. reflexivity.
  - rewrite maybe_align_state. destruct (ws_align s) as [ws' p'] eqn:E.
    assert (P : p' = None) by (destruct s as [ws [p|]]; inversion E; reflexivity). subst p'.
    unfold state_str, maybe_space; cbn [fst snd].
    assert (L : len5 ((render_words (rev ws') ++ []) ++ hex2 hi ++ hex2 lo) = 4) by len5_solve.
    rewrite L. cbn [Z.eqb Pos.eqb]. rewrite render_snoc, !app_nil_r. unfold render_word. cbn [fst snd].
    rewrite <- !app_assoc. reflexivity.
Qed.

Lemma print_line_state : forall line s, print_line (state_str s) line = state_str (ws_line s line).
Proof.
  unfold print_line, ws_line. induction line as [|c t IH]; intros s; cbn [fold_left]; [reflexivity|].
  rewrite print_char_state. apply IH.
Qed.

Lemma pac_state : forall ws hi lo,
  state_str (ws, None) ++ pac_str hi lo ++ pac_str hi lo = state_str ((hi, lo) :: (hi, lo) :: ws, None).
Proof.
  intros. unfold state_str. cbn [fst snd]. rewrite !render_snoc, !app_nil_r. unfold render_word, pac_str.
  cbn [fst snd]. rewrite <- !app_assoc. reflexivity.
Qed.

Lemma ws_align_none : forall s, snd (ws_align s) = None.
Proof. intros [ws [p|]]; reflexivity. Qed.

Lemma code_rows_state : forall rows s, snd s = None ->
  code_rows (state_str s) rows = (do s' <- words_rows s rows; Ok (state_str s')).
Proof.
  induction rows as [|[row line] t IH]; intros [ws p] Hp; cbn [snd] in Hp; subst p.
  - reflexivity.
  - cbn [code_rows words_rows].
    destruct (py_index sccw_pac_high_byte_by_row row) as [hi|e]; [|reflexivity].
    destruct (py_index sccw_pac_low_byte_by_row_restricted row) as [lo|e]; [|reflexivity].
    cbn [bind]. rewrite pac_state, print_line_state, maybe_align_state. apply IH. apply ws_align_none.
Qed.

Lemma words_rows_none : forall rows s s', snd s = None -> words_rows s rows = Ok s' -> snd s' = None.
Proof.
  induction rows as [|[row line] t IH]; intros [ws p] s' Hp H; cbn [words_rows] in H.
  - inversion H; subst. exact Hp.
  - destruct (py_index sccw_pac_high_byte_by_row row) as [hi|e]; [|discriminate].
    destruct (py_index sccw_pac_low_byte_by_row_restricted row) as [lo|e]; [|discriminate].
    cbn [bind] in H. eapply IH; [|exact H]. apply ws_align_none.
Qed.

(* whatever the text, the code string is a sequence of words, each rendered as two two-digit lowercase hex bytes and
   one space (and it fails exactly when the word stream fails) *)
Theorem word_stream_shape : forall text,
  text_to_code text = (do ws <- text_to_words text; Ok (render_words ws)).
Proof.
  intros text. unfold text_to_code, text_to_words.
  change (@nil Z) with (state_str ([], None)).
  rewrite code_rows_state by reflexivity.
  destruct (words_rows ([], None) (layout_rows text)) as [s'|e] eqn:E; [|reflexivity].
  cbn [bind]. f_equal. unfold state_str.
  rewrite (words_rows_none _ ([], None) _ eq_refl E). apply app_nil_r.
Qed.

Lemma hex_digit_val : forall d, 0 <= d < 16 -> hex_val (hex_digit d) = Some d.
Proof.
  intros d H.
  pose proof (Dec.range_forall (fun d => match hex_val (hex_digit d) with Some x => x =? d | None => false end) 16 eq_refl d H) as T.
  cbv beta in T. destruct (hex_val (hex_digit d)); [f_equal; lia|discriminate].
Qed.
Lemma render_word_parses : forall hi lo, 0 <= hi < 256 -> 0 <= lo < 256 ->
  exists a b c d, render_word (hi, lo) = [a; b; c; d; 32] /\ parse_word [a; b; c; d] = Some (hi, lo).
Proof.
  intros hi lo Hh Hl. unfold render_word, hex2. cbn [fst snd].
  assert (E1 : (hi <? 0) = false) by lia. assert (E2 : (lo <? 0) = false) by lia. rewrite E1, E2.
  do 4 eexists. split; [reflexivity|]. unfold parse_word.
  rewrite !hex_digit_val by (try apply Z.mod_pos_bound; try (split; [apply Z.div_pos|apply Z.div_lt_upper_bound]); lia).
  f_equal. f_equal; symmetry; rewrite Z.mul_comm; apply Z.div_mod; lia.
Qed.

(* n rows are addressed to rows 16-n .. 15, in order *)
Lemma layout_rows_fst : forall text,
  map fst (layout_rows text)
  = map (fun i => 16 - Z.of_nat (length (layout_rows text)) + Z.of_nat i) (seq 0 (length (layout_rows text))).
Proof.
  intros. unfold layout_rows. rewrite number_rows_length. apply number_rows_fst.
Qed.

(* the codes PASS 1 of the writer computes, cue by cue; in particular the writer raises only for a cue laid out on
   more than 15 rows *)
Lemma write_codes : forall caps, (forall c, In c caps -> (length (layout_rows (w_text c)) <= 15)%nat) ->
  exists wss, Forall2 (fun c ws => text_to_words (w_text c) = Ok ws /\ forallb word_odd ws = true) caps wss /\
    res_map (fun c => do code <- text_to_code (w_text c); Ok (code, w_start c, w_end c)) caps
    = Ok (map (fun x => (render_words (snd x), w_start (fst x), w_end (fst x))) (combine caps wss)).
Proof.
  induction caps as [|c t IH]; intros D; [exists []; split; [constructor|reflexivity]|].
  destruct (all_bytes_odd_parity (w_text c) (D c (or_introl eq_refl))) as (ws & Ew & Ow).
  destruct (IH (fun x Hx => D x (or_intror Hx))) as (wss & F & Er). exists (ws :: wss). split; [constructor; auto|].
  cbn [res_map combine map fst snd]. rewrite word_stream_shape, Ew. cbn [bind]. rewrite Er. reflexivity.
Qed.

Lemma write_total : forall caps, (forall c, In c caps -> (length (layout_rows (w_text c)) <= 15)%nat) ->
  exists doc, write caps = Ok doc.
Proof. intros caps D. destruct (write_codes caps D) as (wss & _ & E). unfold write. rewrite E. eexists. reflexivity. Qed.
