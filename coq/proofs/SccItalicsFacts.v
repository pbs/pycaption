(* Facts about _format_italics (the seven passes) and the caption builder of the SCC decoder model:
   A. italics are balanced after format_italics (for ALL instruction lists);
   B. every caption built from a formatted list has balanced italics style nodes;
   C. the passes keep every non-empty text / break / reposition node, in order; only trailing
      whitespace of some text nodes is stripped;
   D. the caption builder conserves text. *)
From Coq Require Import List ZArith QArith Lia Bool.
From PV Require Import lib.Sx lib.Str lib.StrFacts lib.Result model.GenScc model.SccStash model.SccDecoder.
Import ListNotations.

(* ================================================================================================ *)
(* A. Balance                                                                                       *)
(* ================================================================================================ *)

(* italics alternate on/off starting with on, are closed at the end, and are closed at every reposition node
   (= caption boundary): so every caption cut out by the reposition nodes is balanced on its own *)
Fixpoint chk (on : bool) (l : list inode) : bool :=
  match l with
  | [] => negb on
  | n :: t => if is_on n then negb on && chk true t
              else if is_off n then on && chk false t
              else if is_repos n then negb on && chk false t
              else chk on t
  end.

(* strict alternation only: the end may be open, reposition nodes are allowed anywhere *)
Fixpoint alt (on : bool) (l : list inode) : bool :=
  match l with
  | [] => true
  | n :: t => if is_on n then negb on && alt true t
              else if is_off n then on && alt false t
              else alt on t
  end.

(* alternation + closed at every reposition node; the end may be open *)
Fixpoint chkr (on : bool) (l : list inode) : bool :=
  match l with
  | [] => true
  | n :: t => if is_on n then negb on && chkr true t
              else if is_off n then on && chkr false t
              else if is_repos n then negb on && chkr false t
              else chkr on t
  end.

Definition st_on (s : option bool) : bool := match s with Some true => true | _ => false end.
Definition isS {A} (o : option A) : bool := match o with Some _ => true | None => false end.

(* pass 3 *)
Lemma skip_redundant_alt : forall l s, alt (st_on s) (skip_redundant l s) = true.
Proof.
  induction l as [|n t IH]; intros s; [reflexivity|].
  destruct n as [k x p]; destruct k; simpl; try apply IH.
  - destruct s as [[|]|]; simpl;
      first [apply (IH (Some true)) | apply (IH (Some false))].
  - destruct s as [[|]|]; simpl;
      first [apply (IH (Some false)) | apply (IH (Some true))].
Qed.

(* pass 4 *)
Lemma close_chkr : forall l op, alt (isS op) l = true -> chkr (isS op) (close_before_repos l op) = true.
Proof.
  induction l as [|n t IH]; intros op H; [reflexivity|].
  destruct n as [k x p]; destruct k; simpl in *.
  - apply IH, H.
  - apply IH, H.
  - apply andb_true_iff in H; destruct H as [H1 H2]; rewrite H1; simpl.
    apply (IH (Some p)); exact H2.
  - apply andb_true_iff in H; destruct H as [H1 H2]; rewrite H1; simpl.
    apply (IH None); exact H2.
  - destruct op as [p0|]; simpl in *.
    + apply (IH (Some p0)); exact H.
    + apply (IH None); exact H.
Qed.

(* pass 5 *)
Lemma final_chk : forall l op, chkr (isS op) l = true ->
  chk (isS op) (l ++ match final_on_pos l op with Some p => [mkI IItalOff [] p] | None => [] end) = true.
Proof.
  induction l as [|n t IH]; intros op H.
  - destruct op; reflexivity.
  - destruct n as [k x p]; destruct k; simpl in *.
    + apply IH, H.
    + apply IH, H.
    + apply andb_true_iff in H; destruct H as [H1 H2]; rewrite H1; simpl.
      apply (IH (Some p)); exact H2.
    + apply andb_true_iff in H; destruct H as [H1 H2]; rewrite H1; simpl.
      apply (IH None); exact H2.
    + destruct op as [p0|]; simpl in *; [discriminate|].
      apply (IH None); exact H.
Qed.

Lemma ensure_final_closes_eq : forall l,
  ensure_final_closes l = l ++ match final_on_pos l None with Some p => [mkI IItalOff [] p] | None => [] end.
Proof.
  intros l; unfold ensure_final_closes. destruct (final_on_pos l None); [reflexivity|].
  rewrite app_nil_r; reflexivity.
Qed.

(* pass 6a *)
Lemma remove_on_off_chk : forall l,
  (forall on, chk on l = true -> chk on (remove_on_off l None) = true) /\
  (forall p, is_on p = true -> chk true l = true -> chk false (remove_on_off l (Some p)) = true).
Proof.
  induction l as [|n t [IH1 IH2]]; split.
  - intros on H; exact H.
  - intros p _ H; discriminate H.
  - intros on H. destruct n as [k x q]; destruct k; simpl in *.
    + apply IH1, H.
    + apply IH1, H.
    + apply andb_true_iff in H; destruct H as [H1 H2].
      destruct on; [discriminate|]. apply (IH2 (mkI IItalOn x q)); [reflexivity|exact H2].
    + apply andb_true_iff in H; destruct H as [H1 H2]; rewrite H1; simpl. apply IH1, H2.
    + apply andb_true_iff in H; destruct H as [H1 H2]; rewrite H1; simpl. apply IH1, H2.
  - intros p Hp H. destruct n as [k x q]; destruct k; simpl in *; rewrite ?Hp; simpl.
    + apply IH1, H.
    + apply IH1, H.
    + discriminate H.
    + apply IH1, H.
    + discriminate H.
Qed.

Lemma off_not_on : forall p, is_off p = true -> is_on p = false.
Proof. intros p. unfold is_on, is_off. destruct (i_kind p); congruence. Qed.

(* pass 6b *)
Lemma remove_off_on_chk : forall l,
  (forall on, chk on l = true -> chk on (remove_off_on l None) = true) /\
  (forall p, is_off p = true -> chk false l = true -> chk true (remove_off_on l (Some p)) = true).
Proof.
  induction l as [|n t [IH1 IH2]]; split.
  - intros on H; exact H.
  - intros p Hp _. simpl. rewrite (off_not_on p Hp), Hp. reflexivity.
  - intros on H. destruct n as [k x q]; destruct k; simpl in *.
    + apply IH1, H.
    + apply IH1, H.
    + apply andb_true_iff in H; destruct H as [H1 H2]; rewrite H1; simpl. apply IH1, H2.
    + apply andb_true_iff in H; destruct H as [H1 H2].
      destruct on; [|discriminate]. apply (IH2 (mkI IItalOff x q)); [reflexivity|exact H2].
    + apply andb_true_iff in H; destruct H as [H1 H2]; rewrite H1; simpl. apply IH1, H2.
  - intros p Hp H.
    destruct n as [k x q]; destruct k; simpl in *; rewrite ?(off_not_on p Hp), ?Hp; simpl.
    + apply IH1, H.
    + apply IH1, H.
    + apply IH1, H.
    + discriminate H.
    + apply IH1, H.
Qed.

(* pass 7: only text changes *)
Fixpoint chkk (on : bool) (ks : list ikind) : bool :=
  match ks with
  | [] => negb on
  | IItalOn :: t => negb on && chkk true t
  | IItalOff :: t => on && chkk false t
  | IRepos :: t => negb on && chkk false t
  | _ :: t => chkk on t
  end.

Lemma chk_kinds : forall l on, chk on l = chkk on (map i_kind l).
Proof.
  induction l as [|n t IH]; intros on; [reflexivity|].
  destruct n as [k x p]; destruct k; simpl; rewrite ?IH; reflexivity.
Qed.

Lemma sle_cons2 : forall n t,
  strip_line_ends (n :: t)
  = (if is_text n && next_plain_is_sep t then rstrip_node n else n) :: strip_line_ends t.
Proof. reflexivity. Qed.

Lemma strip_line_ends_map : forall {B} (f : inode -> B), (forall n, f (rstrip_node n) = f n) ->
  forall l, map f (strip_line_ends l) = map f l.
Proof.
  intros B f H. induction l as [|n t IH]; [reflexivity|].
  rewrite sle_cons2, !map_cons, IH. f_equal. destruct (is_text n && next_plain_is_sep t); [apply H|reflexivity].
Qed.

Lemma strip_line_ends_kinds : forall l, map i_kind (strip_line_ends l) = map i_kind l.
Proof. apply strip_line_ends_map. reflexivity. Qed.

Theorem italics_balanced : forall l, chk false (format_italics l) = true.
Proof.
  intros l. unfold format_italics.
  rewrite chk_kinds, strip_line_ends_kinds, <- chk_kinds.
  apply (proj1 (remove_off_on_chk _)).
  apply (proj1 (remove_on_off_chk _)).
  rewrite ensure_final_closes_eq.
  apply (final_chk _ None).
  apply (close_chkr _ None).
  apply (skip_redundant_alt _ None).
Qed.

(* ================================================================================================ *)
(* B. The caption builder respects the balance                                                      *)
(* ================================================================================================ *)

Fixpoint cchk (on : bool) (l : list cnode) : bool :=
  match l with
  | [] => negb on
  | CStyle true _ :: t => negb on && cchk true t
  | CStyle false _ :: t => on && cchk false t
  | _ :: t => cchk on t
  end.

Definition cbal (c : precap) : Prop := cchk false (pc_nodes c) = true.
(* scanning the nodes of [cur] from the off state leaves the scanner in state [on] *)
Definition cinv (cur : precap) (on : bool) : Prop :=
  forall rest, cchk false (pc_nodes cur ++ rest) = cchk on rest.

Lemma cinv_snoc : forall cur on on' x s e lay,
  cinv cur on -> (forall rest, cchk on (x :: rest) = cchk on' rest) ->
  cinv (mkPre s e (pc_nodes cur ++ [x]) lay) on'.
Proof.
  intros cur on on' x s e lay H Hx rest. simpl.
  rewrite <- app_assoc. simpl. rewrite H. apply Hx.
Qed.

Lemma build_captions_balanced : forall l start e on done cur,
  chk on l = true -> Forall cbal done -> cinv cur on ->
  Forall cbal (build_captions l start e done cur).
Proof.
  induction l as [|n t IH]; intros start e on done cur H Hd Hc.
  - simpl in *. apply Forall_app; split; [exact Hd|]. constructor; [|constructor].
    unfold cbal. specialize (Hc []). rewrite app_nil_r in Hc. rewrite Hc. exact H.
  - destruct n as [k x p]; destruct k; simpl in *.
    + destruct (nonempty x).
      * apply (IH start e on); [exact H|exact Hd|].
        eapply cinv_snoc; [exact Hc|]. intros rest; reflexivity.
      * apply (IH start e on); assumption.
    + apply (IH start e on); [exact H|exact Hd|].
      unfold add_node. eapply cinv_snoc; [exact Hc|]. intros rest; reflexivity.
    + apply andb_true_iff in H; destruct H as [H1 H2]. destruct on; [discriminate|].
      apply (IH start e true); [exact H2|exact Hd|].
      unfold add_node. eapply cinv_snoc; [exact Hc|]. intros rest; reflexivity.
    + apply andb_true_iff in H; destruct H as [H1 H2]. destruct on; [|discriminate].
      apply (IH start e false); [exact H2|exact Hd|].
      unfold add_node. eapply cinv_snoc; [exact Hc|]. intros rest; reflexivity.
    + apply andb_true_iff in H; destruct H as [H1 H2]. destruct on; [discriminate|].
      apply (IH start e false); [exact H2| |].
      * apply Forall_app; split; [exact Hd|]. constructor; [|constructor].
        unfold cbal. specialize (Hc []). rewrite app_nil_r in Hc. rewrite Hc. reflexivity.
      * intros rest; reflexivity.
Qed.

Theorem captions_balanced : forall l start e,
  Forall (fun c => cchk false (pc_nodes c) = true)
         (build_captions (format_italics l) start e [] (mkPre start e [] None)).
Proof.
  intros l start e.
  apply (build_captions_balanced (format_italics l) start e false [] (mkPre start e [] None)).
  - apply italics_balanced.
  - constructor.
  - intros rest; reflexivity.
Qed.

(* ================================================================================================ *)
(* C. Text is kept                                                                                  *)
(* ================================================================================================ *)

Definition plain (n : inode) : bool := negb (is_on n || is_off n).
Definition keep (n : inode) : bool := plain n && negb (is_text n && negb (nonempty (i_text n))).
Definition passes16 (l : list inode) : list inode :=
  remove_off_on (remove_on_off (ensure_final_closes (close_before_repos (skip_redundant (skip_empty_text (skip_initial_off l false)) None) None)) None) None.

Lemma filter_comm : forall {A} (f g : A -> bool) l, filter f (filter g l) = filter g (filter f l).
Proof.
  induction l as [|a t IH]; [reflexivity|]. simpl.
  destruct (g a) eqn:G, (f a) eqn:F; simpl; rewrite ?G, ?F, IH; reflexivity.
Qed.

(* Passes 1 and 3 to 6 only delete italics nodes and insert italics nodes without text. *)
Inductive ital_edit : list inode -> list inode -> Prop :=
| ie_nil : ital_edit [] []
| ie_keep n l l' : ital_edit l l' -> ital_edit (n :: l) (n :: l')
| ie_drop n l l' : plain n = false -> ital_edit l l' -> ital_edit (n :: l) l'
| ie_ins n l l' : plain n = false -> i_text n = [] -> ital_edit l l' -> ital_edit l (n :: l').

Lemma ital_edit_plain : forall l l', ital_edit l l' -> filter plain l' = filter plain l.
Proof.
  induction 1 as [|n l l' _ IH|n l l' Hn _ IH|n l l' Hn _ _ IH]; cbn [filter]; rewrite ?Hn, ?IH; reflexivity.
Qed.

Lemma ital_edit_snoc : forall n l, plain n = false -> i_text n = [] -> ital_edit l (l ++ [n]).
Proof.
  intros n l Hp Ht. induction l as [|m l IH]; [apply ie_ins; [exact Hp|exact Ht|constructor]|].
  apply ie_keep, IH.
Qed.

Lemma sio_edit : forall l b, ital_edit l (skip_initial_off l b).
Proof.
  induction l as [|n t IH]; intros b; [constructor|].
  destruct n as [k x p]; destruct k; simpl; try (apply ie_keep, IH).
  destruct b; [apply ie_keep, IH|apply ie_drop; [reflexivity|apply IH]].
Qed.

Lemma sr_edit : forall l s, ital_edit l (skip_redundant l s).
Proof.
  induction l as [|n t IH]; intros s; [constructor|].
  destruct n as [k x p]; destruct k; simpl; try (apply ie_keep, IH);
    destruct s as [[|]|]; simpl; first [apply ie_keep, IH|apply ie_drop; [reflexivity|apply IH]].
Qed.

Lemma cbr_edit : forall l op, ital_edit l (close_before_repos l op).
Proof.
  induction l as [|n t IH]; intros op; [constructor|].
  destruct n as [k x p]; destruct k; simpl; try (apply ie_keep, IH).
  destruct op; [|apply ie_keep, IH].
  apply ie_ins; [reflexivity|reflexivity|]. apply ie_keep, ie_ins; [reflexivity|reflexivity|apply IH].
Qed.

Lemma efc_edit : forall l, ital_edit l (ensure_final_closes l).
Proof.
  intros l. rewrite ensure_final_closes_eq. destruct (final_on_pos l None).
  - apply ital_edit_snoc; reflexivity.
  - rewrite app_nil_r. induction l; constructor; assumption.
Qed.

(* the italics node held back by passes 6a / 6b counts as the head of the input *)
Definition held (pend : option inode) (l : list inode) : list inode :=
  match pend with Some p => p :: l | None => l end.
Definition pend_ok (pend : option inode) : Prop :=
  match pend with Some p => plain p = false | None => True end.

Lemma roo_edit_held : forall l pend, pend_ok pend -> ital_edit (held pend l) (remove_on_off l pend).
Proof.
  induction l as [|n t IH]; intros pend H.
  - destruct pend; [apply ie_drop; [exact H|]|]; constructor.
  - assert (D : forall l', ital_edit (n :: t) l' -> ital_edit (held pend (n :: t)) l').
    { intros l' E. destruct pend; [apply ie_drop; [exact H|exact E]|exact E]. }
    destruct n as [k x p]; destruct k; simpl.
    (* a plain node follows the held one; an on-node takes its place; an off-node goes with the on-node it closes *)
    1-2, 5: destruct pend; repeat apply ie_keep; apply (IH None I).
    + apply D, (IH (Some (mkI IItalOn x p))); reflexivity.
    + destruct pend; [apply D, ie_drop; [reflexivity|]|apply ie_keep]; apply (IH None I).
Qed.

Lemma rof_edit_held : forall l pend, pend_ok pend -> ital_edit (held pend l) (remove_off_on l pend).
Proof.
  induction l as [|n t IH]; intros pend H.
  - destruct pend; repeat constructor.
  - assert (D : forall l', ital_edit (n :: t) l' -> ital_edit (held pend (n :: t)) l').
    { intros l' E. destruct pend; [apply ie_drop; [exact H|exact E]|exact E]. }
    destruct n as [k x p]; destruct k; simpl.
    1-2, 5: destruct pend; repeat apply ie_keep; apply (IH None I).
    + destruct pend; [apply D, ie_drop; [reflexivity|]|apply ie_keep]; apply (IH None I).
    + apply D, (IH (Some (mkI IItalOff x p))); reflexivity.
Qed.

Lemma roo_edit : forall l, ital_edit l (remove_on_off l None).
Proof. intros l. exact (roo_edit_held l None I). Qed.

Lemma rof_edit : forall l, ital_edit l (remove_off_on l None).
Proof. intros l. exact (rof_edit_held l None I). Qed.

Lemma sio_plain : forall l b, filter plain (skip_initial_off l b) = filter plain l.
Proof. intros l b. apply ital_edit_plain, sio_edit. Qed.

Lemma sr_plain : forall l s, filter plain (skip_redundant l s) = filter plain l.
Proof. intros l s. apply ital_edit_plain, sr_edit. Qed.

Theorem passes16_keep_plain : forall l, filter plain (passes16 l) = filter keep l.
Proof.
  intros l. unfold passes16.
  rewrite (ital_edit_plain _ _ (rof_edit _)), (ital_edit_plain _ _ (roo_edit _)),
    (ital_edit_plain _ _ (efc_edit _)), (ital_edit_plain _ _ (cbr_edit _ _)), sr_plain.
  unfold skip_empty_text. rewrite filter_comm, sio_plain, filter_filter. reflexivity.
Qed.

Theorem format_italics_is : forall l, format_italics l = strip_line_ends (passes16 l).
Proof. reflexivity. Qed.

Theorem strip_line_ends_shape : forall l, map i_kind (strip_line_ends l) = map i_kind l /\ map i_pos (strip_line_ends l) = map i_pos l /\
  Forall2 (fun a b => i_text b = i_text a \/ i_text b = rstrip (i_text a)) l (strip_line_ends l).
Proof.
  intros l. split; [apply strip_line_ends_kinds|]. split; [apply strip_line_ends_map; reflexivity|].
  induction l as [|n t IH]; [constructor|].
  rewrite sle_cons2. constructor; [|exact IH].
  destruct (is_text n && next_plain_is_sep t); simpl; auto.
Qed.

Definition nonspace (s : str) : str := filter (fun c => negb (is_space c)) s.

Lemma filter_rev' : forall {A} (f : A -> bool) l, filter f (rev l) = rev (filter f l).
Proof.
  induction l as [|a t IH]; [reflexivity|]. simpl. rewrite filter_app, IH. simpl.
  destruct (f a); simpl; [reflexivity|apply app_nil_r].
Qed.

Lemma filter_lstrip_by : forall (f : Z -> bool) s,
  filter (fun c => negb (f c)) (lstrip_by f s) = filter (fun c => negb (f c)) s.
Proof.
  induction s as [|c t IH]; [reflexivity|]. simpl.
  destruct (f c) eqn:F; simpl; [exact IH|]. rewrite F. reflexivity.
Qed.

Lemma nonspace_rstrip : forall s, nonspace (rstrip s) = nonspace s.
Proof.
  intros s. unfold nonspace, rstrip, rstrip_by.
  rewrite filter_rev', filter_lstrip_by, filter_rev', rev_involutive. reflexivity.
Qed.

Lemma nonspace_app : forall a b, nonspace (a ++ b) = nonspace a ++ nonspace b.
Proof. intros; unfold nonspace; apply filter_app. Qed.

(* The statement
     forall l, nonspace (concat (map i_text (format_italics l))) = nonspace (concat (map i_text l))
   is FALSE for arbitrary instruction lists: the record allows an italics node to carry text, and
   such a node may be dropped by the passes. *)
Example format_italics_nonspace_counterexample :
  let l := [mkI IItalOff [65%Z] (0%Z, 0%Z)] in
  nonspace (concat (map i_text (format_italics l))) = [] /\
  nonspace (concat (map i_text l)) = [65%Z].
Proof. vm_compute. split; reflexivity. Qed.

(* holds for every list the decoder builds: only text nodes carry text *)
Definition wf_nodes (l : list inode) : Prop := forall n, In n l -> is_text n = false -> i_text n = [].

Definition wfn (n : inode) : Prop := is_text n = false -> i_text n = [].

Lemma wf_nodes_Forall : forall l, wf_nodes l <-> Forall wfn l.
Proof. intros l. unfold wf_nodes, wfn. rewrite Forall_forall. reflexivity. Qed.

Lemma ital_edit_wf : forall l l', ital_edit l l' -> Forall wfn l -> Forall wfn l'.
Proof.
  induction 1 as [|n l l' _ IH|n l l' _ _ IH|n l l' _ Ht _ IH]; intros W.
  - constructor.
  - inversion W; subst. constructor; auto.
  - inversion W; subst. auto.
  - constructor; [intros _; exact Ht|auto].
Qed.

Lemma filter_wf : forall f l, Forall wfn l -> Forall wfn (filter f l).
Proof.
  induction l as [|n t IH]; intros H; [constructor|]. inversion H; subst. simpl.
  destruct (f n); try constructor; auto.
Qed.

Lemma passes16_wf : forall l, Forall wfn l -> Forall wfn (passes16 l).
Proof.
  intros l H. unfold passes16.
  apply (ital_edit_wf _ _ (rof_edit _)), (ital_edit_wf _ _ (roo_edit _)),
    (ital_edit_wf _ _ (efc_edit _)), (ital_edit_wf _ _ (cbr_edit _ _)), (ital_edit_wf _ _ (sr_edit _ _)).
  unfold skip_empty_text. apply filter_wf, (ital_edit_wf _ _ (sio_edit _ _)), H.
Qed.

Definition txt (l : list inode) : str := concat (map i_text l).

Lemma txt_text_only : forall l, Forall wfn l -> txt l = txt (filter is_text l).
Proof.
  induction l as [|n t IH]; intros H; [reflexivity|]. inversion H as [|? ? Hn Ht]; subst.
  unfold txt in *. simpl. destruct (is_text n) eqn:E; simpl.
  - rewrite (IH Ht). reflexivity.
  - rewrite (Hn E). simpl. apply IH, Ht.
Qed.

Lemma filter_text_plain : forall l, filter is_text (filter plain l) = filter is_text l.
Proof.
  induction l as [|n t IH]; [reflexivity|].
  destruct n as [k x p]; destruct k; simpl; rewrite IH; reflexivity.
Qed.

Lemma txt_text_keep : forall l, txt (filter is_text (filter keep l)) = txt (filter is_text l).
Proof.
  induction l as [|n t IH]; [reflexivity|].
  destruct n as [k x p]; destruct k; simpl; try exact IH.
  destruct x as [|c x']; simpl.
  - exact IH.
  - unfold txt in *. simpl. rewrite IH. reflexivity.
Qed.

Lemma passes16_txt : forall l, Forall wfn l -> txt (passes16 l) = txt l.
Proof.
  intros l H.
  rewrite (txt_text_only _ (passes16_wf _ H)).
  rewrite <- filter_text_plain, passes16_keep_plain, txt_text_keep.
  symmetry. apply txt_text_only, H.
Qed.

Lemma strip_line_ends_nonspace : forall l, nonspace (txt (strip_line_ends l)) = nonspace (txt l).
Proof.
  induction l as [|n t IH]; [reflexivity|].
  rewrite sle_cons2. unfold txt in *.
  rewrite map_cons, concat_cons, nonspace_app, IH.
  rewrite (map_cons i_text n), concat_cons, nonspace_app. f_equal.
  destruct (is_text n && next_plain_is_sep t); [|reflexivity]. simpl. apply nonspace_rstrip.
Qed.

Theorem format_italics_nonspace : forall l, wf_nodes l ->
  nonspace (concat (map i_text (format_italics l))) = nonspace (concat (map i_text l)).
Proof.
  intros l H. apply wf_nodes_Forall in H.
  rewrite format_italics_is.
  change (nonspace (txt (strip_line_ends (passes16 l))) = nonspace (txt l)).
  rewrite strip_line_ends_nonspace, (passes16_txt _ H). reflexivity.
Qed.

(* ================================================================================================ *)
(* D. Caption building conserves text                                                               *)
(* ================================================================================================ *)

Definition ctext (n : cnode) : str := match n with CText s _ => s | _ => [] end.

Theorem build_captions_text : forall l start e done cur, (forall n, In n l -> is_text n = false -> i_text n = []) ->
  concat (map (fun c => concat (map ctext (pc_nodes c))) (build_captions l start e done cur))
  = concat (map (fun c => concat (map ctext (pc_nodes c))) done) ++ concat (map ctext (pc_nodes cur)) ++ concat (map i_text l).
Proof.
  assert (Snoc : forall l x, concat (map ctext (l ++ [x])) = concat (map ctext l) ++ ctext x).
  { intros l x. rewrite map_app, concat_app. cbn [map concat]. rewrite app_nil_r. reflexivity. }
  induction l as [|n t IH]; intros start e done cur H.
  - simpl. rewrite map_app, concat_app. simpl. rewrite !app_nil_r. reflexivity.
  - assert (Ht : forall n0, In n0 t -> is_text n0 = false -> i_text n0 = [])
      by (intros n0 Hin; apply H; right; exact Hin).
    assert (Hn : is_text n = false -> i_text n = []) by (apply H; left; reflexivity).
    destruct n as [k x p]; destruct k; simpl in *.
    (* a break or italics node has no text and becomes a node without text *)
    2-4: rewrite (Hn eq_refl), (IH _ _ _ _ Ht); unfold add_node; simpl; rewrite Snoc, app_nil_r; reflexivity.
    + destruct x as [|c x']; simpl; rewrite (IH _ _ _ _ Ht); [reflexivity|].
      simpl. rewrite Snoc, <- app_assoc. reflexivity.
    + rewrite (Hn eq_refl), (IH _ _ _ _ Ht). simpl. rewrite map_app, concat_app. simpl.
      rewrite app_nil_r, <- !app_assoc. reflexivity.
Qed.
