(* C04 end to end, on the models: what the reader models return for the SPEC serialisation of abstract cue content is
   what a conformant consumer displays (spec display), judged by the harness oracle ok_lines_a.
   Part 1: SRT and MicroDVD (plain text formats).  Part 2 (TextReadEndVttFacts.v): WebVTT. *)
From Coq Require Import List ZArith Bool.
From PV Require Import lib.Sx lib.Str model.TextNodes model.TextRead.
From PV Require Import spec.SpecTextLines spec.SpecTextRead proofs.TextLinesFacts proofs.TextBlocksFacts.
From PV Require proofs.TextReadFacts proofs.TextReadEndVttFacts.
Import ListNotations.
Open Scope Z_scope.

Definition text_break (ks : list str) : list node := flat_map (fun l => [NText l; NBreak]) ks.

Lemma node_lines_text_break : forall ks, ks <> [] -> node_lines (removelast (text_break ks)) = ks.
Proof. exact TextReadFacts.node_lines_text_break. Qed.

Lemma norm_line_a_nil : norm_line_a [] = [].
Proof. reflexivity. Qed.

Lemma norm_lines_a_filter : forall ls, norm_lines_a (filter nonempty ls) = norm_lines_a ls.
Proof.
  unfold norm_lines_a. induction ls as [|l ls IH]; [reflexivity|].
  destruct l as [|c l]; cbn [filter nonempty map].
  - rewrite norm_line_a_nil. cbn [filter nonempty]. exact IH.
  - cbn [map filter]. rewrite IH. reflexivity.
Qed.

Lemma norm_lines_a_lines_or_empty : forall ks,
  norm_lines_a (match ks with [] => [[]] | _ => ks end) = norm_lines_a ks.
Proof. intros [|k ks]; reflexivity. Qed.

Lemma norm_nodes_of_lines : forall ks,
  norm_lines_a (node_lines (removelast (text_break ks))) = norm_lines_a ks.
Proof.
  intros [|k ks]; [reflexivity|]. rewrite node_lines_text_break by discriminate. reflexivity.
Qed.

Lemma mdvd_text_nodes_lines : forall txt,
  norm_lines_a (node_lines (mdvd_text_nodes txt)) = norm_lines_a (split_ch 124 txt).
Proof.
  intros txt. unfold mdvd_text_nodes. rewrite TextReadFacts.mdvd_nodes_filter. fold (text_break (filter nonempty (split_ch 124 txt))).
  rewrite norm_nodes_of_lines. apply norm_lines_a_filter.
Qed.

Fixpoint srt_kept (lines : list str) (have : bool) : list str :=
  match lines with
  | [] => []
  | l :: t => if negb have || negb (match l with [] => true | _ => false end)
              then l :: srt_kept t true else srt_kept t have
  end.
Lemma srt_aux_kept : forall ls have, srt_text_nodes_aux ls have = text_break (srt_kept ls have).
Proof.
  induction ls as [|l ls IH]; intros have; [reflexivity|]. cbn [srt_text_nodes_aux srt_kept].
  destruct (negb have || negb (match l with [] => true | _ => false end)).
  - unfold text_break in *. cbn [flat_map app]. rewrite IH. reflexivity.
  - apply IH.
Qed.
Lemma srt_kept_norm : forall ls have, norm_lines_a (srt_kept ls have) = norm_lines_a ls.
Proof.
  unfold norm_lines_a. induction ls as [|l ls IH]; intros have; [reflexivity|]. cbn [srt_kept].
  destruct l as [|c l].
  - destruct have; cbn [negb orb map filter]; rewrite ?norm_line_a_nil; cbn [filter nonempty]; apply IH.
  - replace (negb have || negb false) with true by (destruct have; reflexivity). cbn [map filter]. rewrite IH. reflexivity.
Qed.
Lemma srt_text_nodes_lines : forall ls, norm_lines_a (node_lines (srt_text_nodes ls)) = norm_lines_a ls.
Proof. intros ls. unfold srt_text_nodes. rewrite srt_aux_kept, norm_nodes_of_lines. apply srt_kept_norm. Qed.

(* domain: no separator inside text; the WebVTT-only items (voice, unknown tag) do not exist in these formats *)
Definition plain_ok (sep : Z) (it : item) : bool :=
  match it with
  | ITxt cs => forallb (fun c => negb (c =? sep)) (chars cs)
  | IEnt _ c => negb (c =? sep)
  | IVoice _ _ => false
  | IUnk _ _ => false
  | _ => true
  end.

Lemma spell_all_plain : forall fmt cs, (fmt = F_SRT \/ fmt = F_MDVD) -> spell_all fmt cs = chars cs.
Proof.
  intros fmt cs H. unfold spell_all, chars. induction cs as [|[c sp] cs IH]; [reflexivity|].
  cbn [flat_map map fst]. rewrite IH. destruct H as [-> | ->]; reflexivity.
Qed.

Section plain.
  Variables (fmt sep : Z).
  Hypothesis Hf : (fmt = F_SRT /\ sep = 10) \/ (fmt = F_MDVD /\ sep = 124).

  Lemma plain_fmt : fmt = F_SRT \/ fmt = F_MDVD.
  Proof. destruct Hf as [[-> _]|[-> _]]; auto. Qed.

  Lemma plain_item : forall it, plain_ok sep it = true -> TextReadEndVttFacts.not_br it = true ->
    ser_item fmt it = TextReadEndVttFacts.disp_item it /\ forallb (fun c => negb (c =? sep)) (ser_item fmt it) = true.
  Proof.
    intros [cs|n|nm c| |k|k|cls nm|s|cl nm|s|s] H Hb; cbn [plain_ok] in H; try discriminate;
      try (destruct Hf as [[-> ->]|[-> ->]]; split; reflexivity).
    - cbn [ser_item]. rewrite (spell_all_plain fmt cs plain_fmt). split; [reflexivity|exact H].
    - destruct Hf as [[-> ->]|[-> ->]]; (split; [reflexivity|]); exact (proj2 (andb_true_iff _ _) (conj H eq_refl)).
  Qed.

  Lemma plain_split : forall items cur, forallb (plain_ok sep) items = true ->
    forallb (fun c => negb (c =? sep)) cur = true ->
    split_ch sep (cur ++ serialise fmt items) = display_aux items cur.
  Proof.
    intros items cur. rewrite (TextReadEndVttFacts.display_split items cur).
    apply (TextReadEndVttFacts.serialise_lines (ser_item fmt) TextReadEndVttFacts.disp_item sep (plain_ok sep)); [|exact plain_item].
    destruct Hf as [[-> ->]|[-> ->]]; reflexivity.
  Qed.
End plain.

Theorem srt_end_to_end : forall items, forallb (plain_ok 10) items = true ->
  ok_lines_a (display items) (node_lines (read_srt items)) = true.
Proof.
  intros items H. unfold ok_lines_a, read_srt. rewrite srt_text_nodes_lines.
  rewrite <- (app_nil_l (serialise F_SRT items)).
  rewrite (plain_split F_SRT 10 (or_introl (conj eq_refl eq_refl)) items [] H eq_refl).
  apply strs_eqb_refl.
Qed.

Theorem mdvd_end_to_end : forall items, forallb (plain_ok 124) items = true ->
  ok_lines_a (display items) (node_lines (read_mdvd items)) = true.
Proof.
  intros items H. unfold ok_lines_a, read_mdvd. rewrite mdvd_text_nodes_lines.
  rewrite <- (app_nil_l (serialise F_MDVD items)).
  rewrite (plain_split F_MDVD 124 (or_intror (conj eq_refl eq_refl)) items [] H eq_refl).
  apply strs_eqb_refl.
Qed.

Example plain_ok_example :
  forallb (plain_ok 10) [ITxt [(97, 0); (38, 1)]; IOpen 0; IWrap 3; IEnt (lit "eacute") 233; IClose 0; IBr; ITxt [(60, 2)]] = true.
Proof. reflexivity. Qed.
