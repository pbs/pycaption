(* C17: line lengths of a text by one scan (`runs_ok s k`: no run of non-newline characters, the first one
   continuing a run of k, exceeds 32), its algebra, and the link to the reader's line-length scan
   (model/SccLen.v length_check): texts whose runs are short are never refused. *)
From Coq Require Import List ZArith Lia Bool ZifyBool Arith.
From PV Require Import lib.Sx lib.Str model.SccLen spec.SpecSccLen.
From PV Require proofs.SccLenFacts.
Import ListNotations.
Open Scope Z_scope.

Fixpoint runs_ok (s : str) (k : nat) : bool :=
  match s with
  | [] => true
  | c :: t => if c =? 10 then runs_ok t 0 else (S k <=? 32)%nat && runs_ok t (S k)
  end.
Definition short (s : str) : bool := runs_ok s 0.
Definition no_nl (s : str) : bool := forallb (fun c => negb (c =? 10)) s.

Lemma runs_ok_app_nl : forall a b k, runs_ok (a ++ 10 :: b) k = runs_ok a k && runs_ok b 0.
Proof.
  induction a as [|c t IH]; intros b k; [reflexivity|]. cbn [app runs_ok]. destruct (c =? 10); [apply IH|].
  rewrite IH, andb_assoc. reflexivity.
Qed.

Lemma runs_ok_mono : forall s k k', (k <= k')%nat -> runs_ok s k' = true -> runs_ok s k = true.
Proof.
  induction s as [|c t IH]; intros k k' H R; [reflexivity|]. cbn [runs_ok] in *. destruct (c =? 10); [exact R|].
  apply andb_prop in R. destruct R as [R1 R2]. apply Nat.leb_le in R1.
  rewrite (IH (S k) (S k') ltac:(lia) R2), andb_true_r. apply Nat.leb_le. lia.
Qed.

Lemma runs_ok_line : forall line k, no_nl line = true -> (k + length line <= 32)%nat -> runs_ok line k = true.
Proof.
  induction line as [|c t IH]; intros k N L; [reflexivity|]. cbn [no_nl forallb] in N. apply andb_prop in N. destruct N as [Nc Nt].
  cbn [runs_ok length] in *. apply negb_true_iff in Nc. rewrite Nc. rewrite (IH (S k) Nt ltac:(lia)), andb_true_r. apply Nat.leb_le. lia.
Qed.

Lemma runs_ok_skip : forall sp R k, no_nl sp = true -> runs_ok (sp ++ R) k = true -> runs_ok R k = true.
Proof.
  induction sp as [|c t IH]; intros R k N H; [exact H|]. cbn [no_nl forallb] in N. apply andb_prop in N. destruct N as [Nc Nt].
  cbn [app runs_ok] in H. apply negb_true_iff in Nc. rewrite Nc in H. apply andb_prop in H. destruct H as [_ H].
  apply (runs_ok_mono R k (S k)); [lia|]. exact (IH R (S k) Nt H).
Qed.

Lemma runs_ok_congr : forall y R R' k, (forall k, runs_ok R k = true -> runs_ok R' k = true) ->
  runs_ok (y ++ R) k = true -> runs_ok (y ++ R') k = true.
Proof.
  induction y as [|c t IH]; intros R R' k H X; [apply H; exact X|]. cbn [app runs_ok] in *. destruct (c =? 10); [exact (IH R R' 0%nat H X)|].
  apply andb_prop in X. destruct X as [X1 X2]. rewrite X1. exact (IH R R' (S k) H X2).
Qed.

Lemma runs_ok_split : forall s cur, runs_ok s (length cur) = true -> (length cur <= 32)%nat ->
  Forall (fun l => (length l <= 32)%nat) (split_ch_aux 10 s cur).
Proof.
  induction s as [|c t IH]; intros cur H L; cbn [split_ch_aux runs_ok] in *.
  - constructor; [rewrite rev_length; exact L|constructor].
  - destruct (c =? 10).
    + constructor; [rewrite rev_length; exact L|]. apply (IH []); [exact H|cbn; lia].
    + apply andb_prop in H. destruct H as [H1 H2]. apply Nat.leb_le in H1. apply (IH (c :: cur)); [exact H2|cbn [length]; lia].
Qed.

Lemma short_not_too_long : forall s, short s = true -> filter spec_long (spec_lines s) = [].
Proof.
  intros s H. pose proof (runs_ok_split s [] H ltac:(cbn; lia)) as F. unfold spec_lines, split_ch.
  induction F as [|l ls Hl F IH]; [reflexivity|]. cbn [filter]. unfold spec_long at 1.
  replace (32 <? Z.of_nat (length l)) with false by lia. exact IH.
Qed.

Theorem short_texts_pass_length_check : forall caps : list lcap, Forall (fun c => short (snd c) = true) caps ->
  length_check caps = None.
Proof.
  intros caps H. apply SccLenFacts.length_check_none_iff. unfold offending.
  induction H as [|c t Hc H IH]; [reflexivity|]. cbn [map concat]. rewrite (short_not_too_long _ Hc), IH. reflexivity.
Qed.
