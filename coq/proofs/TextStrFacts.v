(* String lemmas used by the text properties: Str.replace (fuel independence, unfolding, induction along it),
   escaping by a table (single-character patterns), lstrip_by, character predicates through strip. *)
From Coq Require Import List ZArith Bool Lia.
From PV Require Import lib.Sx lib.StrFacts lib.Str.
Import ListNotations.
Open Scope Z_scope.

Lemma skipn_pat_length : forall (p : str) c (t : str), p <> [] -> (length (skipn (length p) (c :: t)) <= length t)%nat.
Proof. intros [|x p] c t H; [congruence|]. cbn [length skipn]. rewrite skipn_length. lia. Qed.

Lemma replace_aux_fuel : forall p r f1 f2 s, p <> [] ->
  (length s < f1)%nat -> (length s < f2)%nat -> replace_aux f1 p r s = replace_aux f2 p r s.
Proof.
  intros p r f1. induction f1 as [|f1 IH]; intros f2 s Hp H1 H2; [lia|].
  destruct f2 as [|f2]; [lia|]. cbn [replace_aux].
  destruct s as [|c t]; [reflexivity|]. pose proof (skipn_pat_length p c t Hp). cbn [length] in *.
  destruct (is_prefix p (c :: t)); f_equal; apply IH; solve [exact Hp|lia].
Qed.

Lemma replace_nil : forall p r, replace p r [] = [].
Proof. intros [|x p] r; reflexivity. Qed.

Lemma replace_cons : forall p r c t, p <> [] ->
  replace p r (c :: t) =
  if is_prefix p (c :: t) then r ++ replace p r (skipn (length p) (c :: t)) else c :: replace p r t.
Proof.
  intros p r c t Hp. pose proof (skipn_pat_length p c t Hp).
  destruct p as [|x p]; [congruence|].
  change (replace (x :: p) r (c :: t)) with
    (if is_prefix (x :: p) (c :: t) then r ++ replace_aux (S (length t)) (x :: p) r (skipn (length (x :: p)) (c :: t))
     else c :: replace (x :: p) r t).
  destruct (is_prefix (x :: p) (c :: t)); [|reflexivity].
  f_equal. apply replace_aux_fuel; [exact Hp| |]; lia.
Qed.

(* induction along replace: what follows the pattern, or the tail *)
Lemma replace_ind : forall (p : str) (P : str -> Prop), p <> [] -> P [] ->
  (forall c t, (if is_prefix p (c :: t) then P (skipn (length p) (c :: t)) else P t) -> P (c :: t)) -> forall s, P s.
Proof.
  intros p P Hp H0 Hs s. assert (G : forall n s, (length s <= n)%nat -> P s); [|exact (G _ s (le_n _))].
  induction n as [|n IH]; intros [|c t] Hl; try exact H0; cbn [length] in Hl; [lia|].
  apply Hs. pose proof (skipn_pat_length p c t Hp). destruct (is_prefix p (c :: t)); apply IH; lia.
Qed.

Lemma replace_forallb : forall (P : Z -> bool) p r s, p <> [] -> forallb P r = true -> forallb P s = true ->
  forallb P (replace p r s) = true.
Proof.
  intros P p r s Hp Hr. pattern s. apply (replace_ind p); [exact Hp|intros _; rewrite replace_nil; reflexivity|].
  intros c t IH Hs. rewrite replace_cons by exact Hp. destruct (is_prefix p (c :: t)).
  - rewrite forallb_app, Hr. apply IH, forallb_skipn, Hs.
  - cbn [forallb] in Hs |- *. apply andb_true_iff in Hs. destruct Hs as [Hc Ht]. rewrite Hc. exact (IH Ht).
Qed.

Lemma flat_map_ext_str : forall (f g : Z -> str) s, (forall x, f x = g x) -> flat_map f s = flat_map g s.
Proof. intros f g s H. induction s as [|c t IH]; [reflexivity|]. cbn [flat_map]. rewrite H, IH. reflexivity. Qed.

(* ---- escaping by a table: a key is written as its replacement, any other character as itself.
   Every chain of single-character str.replace calls of the writers is one such table. ------------------------- *)
Fixpoint esc (tab : list (Z * str)) (x : Z) : str :=
  match tab with [] => [x] | (k, r) :: t => if x =? k then r else esc t x end.

Lemma replace_single : forall c0 r s, replace [c0] r s = flat_map (esc [(c0, r)]) s.
Proof.
  intros c0 r s. induction s as [|c t IH]; [reflexivity|].
  rewrite replace_cons by discriminate. cbn [is_prefix length skipn flat_map esc].
  rewrite andb_true_r. rewrite Z.eqb_sym. destruct (c =? c0); rewrite IH; reflexivity.
Qed.

(* one more replace after the table: a new row, provided the character is neither a key nor in a replacement *)
Lemma replace_esc : forall c0 r tab s,
  forallb (fun kv => negb (fst kv =? c0) && forallb (fun y => negb (y =? c0)) (snd kv)) tab = true ->
  replace [c0] r (flat_map (esc tab) s) = flat_map (esc (tab ++ [(c0, r)])) s.
Proof.
  intros c0 r tab s H. rewrite replace_single, flat_map_flat_map. apply flat_map_ext_str. intros x.
  induction tab as [|[k r'] tab IH]; [apply app_nil_r|].
  cbn [forallb fst snd] in H. apply andb_true_iff in H. destruct H as [H Ht].
  apply andb_true_iff in H. destruct H as [_ Hr]. cbn [app esc]. destruct (x =? k); [|exact (IH Ht)].
  clear -Hr. induction r' as [|y r' IH]; [reflexivity|]. cbn [forallb] in Hr. apply andb_true_iff in Hr.
  destruct Hr as [Hy Hr]. apply negb_true_iff in Hy. cbn [flat_map esc]. rewrite Hy, (IH Hr). reflexivity.
Qed.

Lemma esc_avoids : forall c tab x, forallb (fun kv => forallb (fun y => negb (y =? c)) (snd kv)) tab = true ->
  (x =? c) = false \/ existsb (fun kv => fst kv =? c) tab = true ->
  forallb (fun y => negb (y =? c)) (esc tab x) = true.
Proof.
  intros c tab x. induction tab as [|[k r] tab IH]; intros Hv Hx.
  - destruct Hx as [Hx|Hx]; [cbn; rewrite Hx; reflexivity|discriminate].
  - cbn [forallb snd] in Hv. apply andb_true_iff in Hv. destruct Hv as [Hr Hv]. cbn [esc].
    destruct (Z.eqb_spec x k) as [->|Hk]; [exact Hr|]. apply (IH Hv).
    destruct Hx as [Hx|Hx]; [left; exact Hx|]. cbn [existsb fst] in Hx.
    destruct (Z.eqb_spec k c) as [->|_]; [left; apply Z.eqb_neq; exact Hk|right; exact Hx].
Qed.

Definition escaped (c : Z) (tab : list (Z * str)) : bool :=
  existsb (fun kv => fst kv =? c) tab && forallb (fun kv => forallb (fun y => negb (y =? c)) (snd kv)) tab.

Lemma flat_esc_avoids : forall c tab s, escaped c tab = true -> forallb (fun y => negb (y =? c)) (flat_map (esc tab) s) = true.
Proof.
  intros c tab s H. apply andb_true_iff in H. destruct H as [Hk Hv].
  apply forallb_flat_map_in. intros x _. apply esc_avoids; [exact Hv|right; exact Hk].
Qed.

Lemma lstrip_by_app_nonspace : forall f a c b, f c = false ->
  forallb f a = true -> lstrip_by f (a ++ c :: b) = c :: b.
Proof. intros f a c b Hc Ha. rewrite lstrip_by_drop_while. exact (drop_while_stops f a (c :: b) Ha Hc). Qed.

Lemma lstrip_by_all : forall f a, forallb f a = true -> lstrip_by f a = [].
Proof. intros f a Ha. rewrite lstrip_by_drop_while. apply drop_while_nil, Ha. Qed.

Lemma lstrip_by_idem : forall f s, lstrip_by f (lstrip_by f s) = lstrip_by f s.
Proof.
  intros f s. induction s as [|c t IH]; [reflexivity|].
  cbn [lstrip_by]. destruct (f c) eqn:E; [exact IH|]. cbn [lstrip_by]. rewrite E. reflexivity.
Qed.

Lemma forallb_lstrip_by : forall (P f : Z -> bool) s, forallb P s = true -> forallb P (lstrip_by f s) = true.
Proof. intros P f s H. rewrite lstrip_by_drop_while. apply forallb_drop_while, H. Qed.

Lemma forallb_rstrip_by : forall (P f : Z -> bool) s, forallb P s = true -> forallb P (rstrip_by f s) = true.
Proof. intros P f s H. unfold rstrip_by. rewrite forallb_rev. apply forallb_lstrip_by. rewrite forallb_rev. exact H. Qed.

Lemma forallb_strip : forall (P : Z -> bool) s, forallb P s = true -> forallb P (strip s) = true.
Proof. intros P s H. apply forallb_rstrip_by, forallb_lstrip_by, H. Qed.

