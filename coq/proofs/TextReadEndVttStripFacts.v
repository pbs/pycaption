(* C04 end to end, WebVTT: the reader's strip of every source line commutes with the three substitutions up to white
   space at the ends of the line - so the end-to-end theorem needs no hypothesis about the ends of the lines. *)
From Coq Require Import List ZArith Bool.
From PV Require Import lib.Sx lib.Str lib.StrFacts model.TextNodes model.TextRead.
From PV Require Import spec.SpecTextLines spec.SpecTextRead proofs.TextLinesFacts proofs.TextBlocksFacts proofs.TextStrFacts.
From PV Require Import proofs.TextReadVttFacts proofs.TextReadVttTagFacts proofs.TextReadEndVttFacts.
From PV Require lib.StrSplit.
Import ListNotations.
Open Scope Z_scope.

Definition hd_ok (s : str) : bool := match s with [] => true | c :: _ => negb (is_space c) end.

Lemma strip_pad : forall ws1 s ws2, forallb is_space ws1 = true -> forallb is_space ws2 = true ->
  strip (ws1 ++ s ++ ws2) = strip s.
Proof.
  induction ws1 as [|w ws1 IH]; intros s ws2 H1 H2.
  - cbn [app]. clear H1. induction ws2 as [|w ws2 IH2] using rev_ind; [rewrite app_nil_r; reflexivity|].
    rewrite forallb_app in H2. apply andb_true_iff in H2. destruct H2 as [Ha Hw]. cbn [forallb] in Hw. apply andb_true_iff in Hw.
    rewrite app_assoc, strip_snoc_space by apply Hw. apply IH2, Ha.
  - cbn [forallb] in H1. apply andb_true_iff in H1. destruct H1 as [Hw H1]. cbn [app]. rewrite strip_cons_space by exact Hw.
    apply IH; assumption.
Qed.

Lemma strip_edges : forall s, hd_ok s = true -> hd_ok (rev s) = true -> strip s = s.
Proof.
  intros s H1 H2. destruct s as [|c t]; [reflexivity|]. unfold strip, strip_by. cbn [hd_ok] in H1.
  cbn [lstrip_by]. destruct (is_space c); [discriminate|]. unfold rstrip_by.
  destruct (rev (c :: t)) as [|z r] eqn:E; [apply (f_equal (@length Z)) in E; rewrite rev_length in E; discriminate|].
  cbn [hd_ok] in H2. cbn [lstrip_by]. destruct (is_space z); [discriminate|]. rewrite <- E. apply rev_involutive.
Qed.

Lemma norm_line_a_pad : forall ws1 s ws2, forallb is_space ws1 = true -> forallb is_space ws2 = true ->
  norm_line_a (ws1 ++ s ++ ws2) = norm_line_a s.
Proof. intros. unfold norm_line_a. rewrite strip_pad by assumption. reflexivity. Qed.
Lemma lstrip_hd : forall x, hd_ok (lstrip_by is_space x) = true.
Proof.
  intros x. destruct (lstrip_by is_space x) as [|c t] eqn:E; [reflexivity|]. cbn [hd_ok].
  rewrite (StrSplit.lstrip_by_head _ _ _ _ E). reflexivity.
Qed.

Lemma norm_line_a_strip : forall s, norm_line_a (strip s) = norm_line_a s.
Proof.
  intros s. unfold norm_line_a. f_equal. f_equal.
  (* strip is idempotent: both ends of strip s are no white space *)
  apply strip_edges; unfold strip, strip_by.
  - pose proof (lstrip_hd s) as Hs. induction (lstrip_by is_space s) as [|w y IH] using rev_ind; [reflexivity|].
    rewrite rstrip_by_snoc. destruct (is_space w); [|exact Hs]. destruct y as [|a y']; [reflexivity|]. apply IH, Hs.
  - unfold rstrip_by. rewrite rev_involutive. apply lstrip_hd.
Qed.

Definition sp_piece (p : piece) : bool := match p with PRaw c => is_space c | PEnt _ => false end.
Definition D (l : list ltok) : str := prender (map decode_piece (flat_map lpieces l)).

Lemma lrender_all_app : forall a b, lrender_all (a ++ b) = lrender_all a ++ lrender_all b.
Proof. intros. apply flat_map_app. Qed.
Lemma D_app : forall a b, D (a ++ b) = D a ++ D b.
Proof. intros. unfold D. rewrite flat_map_app, map_app. apply prender_app. Qed.

(* one piece per text token, so that white space at the ends of a line is whole tokens *)
Definition flat1 (t : ltok) : list ltok := match t with LText ps => map (fun p => LText [p]) ps | _ => [t] end.
Definition flatten (l : list ltok) : list ltok := flat_map flat1 l.
Definition flat_tok (t : ltok) : bool := match t with LText [_] => true | LText _ => false | _ => true end.
Definition sp_tok (t : ltok) : bool := match t with LText ps => forallb sp_piece ps | _ => false end.

Lemma flat1_facts : forall t, ltok_ok t = true ->
  lrender_all (flat1 t) = lrender t /\ D (flat1 t) = D [t] /\
  forallb ltok_ok (flat1 t) = true /\ forallb flat_tok (flat1 t) = true.
Proof.
  intros [ps|b|b|cls pn] H; cbn [flat1];
    try (unfold lrender_all, D; cbn [flat_map forallb flat_tok]; rewrite ?app_nil_r, H; auto).
  cbn [ltok_ok] in H. apply andb_true_iff in H. destruct H as [Hok Hlt].
  unfold lrender_all, D. cbn [flat_map lpieces]. rewrite app_nil_r.
  induction ps as [|p ps IH]; [auto|]. cbn [forallb] in Hok, Hlt.
  apply andb_true_iff in Hok. destruct Hok as [Hp Hok]. apply andb_true_iff in Hlt. destruct Hlt as [Hq Hlt].
  destruct (IH Hok Hlt) as (A & B & C & E).
  cbn [map flat_map lrender lpieces forallb ltok_ok flat_tok app]. unfold prender in *. cbn [flat_map map].
  rewrite A, B, C, E, Hp, Hq, app_nil_r. auto.
Qed.

Lemma flatten_facts : forall l, forallb ltok_ok l = true ->
  lrender_all (flatten l) = lrender_all l /\ D (flatten l) = D l /\
  forallb ltok_ok (flatten l) = true /\ forallb flat_tok (flatten l) = true.
Proof.
  induction l as [|t l IH]; intros H; [auto|]. cbn [forallb] in H. apply andb_true_iff in H. destruct H as [Ht Hl].
  destruct (flat1_facts t Ht) as (A & B & C & E). destruct (IH Hl) as (A' & B' & C' & E').
  unfold flatten in *. cbn [flat_map]. rewrite lrender_all_app, D_app, !forallb_app, A, A', B, B', C, C', E, E'.
  repeat split. symmetry. apply (D_app [t] l).
Qed.

Fixpoint ldrop {A : Type} (f : A -> bool) (l : list A) : list A :=
  match l with x :: r => if f x then ldrop f r else l | [] => [] end.

Lemma ldrop_split : forall (A : Type) (f : A -> bool) l, exists a, forallb f a = true /\ l = a ++ ldrop f l.
Proof.
  induction l as [|x l (a & Ha & E)]; [exists []; auto|]. cbn [ldrop]. destruct (f x) eqn:Fx; [|exists []; auto].
  exists (x :: a). cbn [forallb app]. rewrite Fx, Ha, <- E. auto.
Qed.
Lemma ldrop_head : forall (A : Type) (f : A -> bool) l x r, ldrop f l = x :: r -> f x = false.
Proof.
  induction l as [|y l IH]; intros x r H; [discriminate|]. cbn [ldrop] in H.
  destruct (f y) eqn:Fy; [apply (IH x r H)|]. injection H as <- _. exact Fy.
Qed.
Lemma forallb_ldrop : forall (A : Type) (P f : A -> bool) l, forallb P l = true -> forallb P (ldrop f l) = true.
Proof.
  intros A P f l H. destruct (ldrop_split A f l) as (a & _ & E). rewrite E, forallb_app in H. apply andb_true_iff in H. apply H.
Qed.
Definition ltrim (l : list ltok) : list ltok := ldrop sp_tok (flatten l).
Definition rtrim (l : list ltok) : list ltok := rev (ldrop sp_tok (rev l)).

Lemma sp_pieces_render : forall ws, forallb sp_piece ws = true ->
  forallb is_space (prender ws) = true /\ prender (map decode_piece ws) = prender ws.
Proof.
  unfold prender. induction ws as [|[c|n] ws IH]; intros H; [auto| |discriminate]. cbn [forallb sp_piece] in H.
  apply andb_true_iff in H. destruct H as [Hc Hws]. destruct (IH Hws) as [A B].
  cbn [flat_map map decode_piece render_piece app forallb]. rewrite Hc, A, B. auto.
Qed.

Lemma sp_toks_render : forall a, forallb sp_tok a = true -> forallb is_space (lrender_all a) = true /\ D a = lrender_all a.
Proof.
  induction a as [|t a IH]; intros H; [auto|]. cbn [forallb] in H. apply andb_true_iff in H. destruct H as [Ht Ha].
  destruct (IH Ha) as [A B]. change (t :: a) with ([t] ++ a). rewrite lrender_all_app, D_app, forallb_app, A, B.
  destruct t as [ps| | |]; try discriminate. destruct (sp_pieces_render ps Ht) as [P1 P2].
  unfold lrender_all, D. cbn [flat_map lrender lpieces]. rewrite !app_nil_r, P1, P2. auto.
Qed.

Lemma tok_hd : forall t r, flat_tok t = true -> sp_tok t = false -> hd_ok (lrender_all (t :: r)) = true.
Proof.
  intros [[|[c|n] [|q ps]]|b|b|cls pn] r F S; try discriminate; try reflexivity.
  cbn [sp_tok forallb sp_piece] in S. rewrite andb_true_r in S. unfold lrender_all, prender. cbn. rewrite S. reflexivity.
Qed.

Lemma tok_last : forall t q, flat_tok t = true -> sp_tok t = false -> hd_ok (rev (lrender_all (q ++ [t]))) = true.
Proof.
  intros t q F S. rewrite lrender_all_app, rev_app_distr. unfold lrender_all at 1. cbn [flat_map]. rewrite app_nil_r.
  destruct t as [[|[c|n] [|p ps]]|b|b|cls pn]; try discriminate; cbn [lrender]; unfold prender; cbn [flat_map render_piece];
    rewrite ?app_nil_r, ?app_assoc; cbn [rev]; rewrite ?rev_app_distr; try reflexivity.
  (* a reference ends in ';', a tag in '>'; left: the text of one raw character *)
  cbn [sp_tok forallb sp_piece] in S. rewrite andb_true_r in S. cbn [rev app hd_ok]. rewrite S. reflexivity.
Qed.

Theorem strip_line : forall l, forallb ltok_ok l = true -> exists l2 ws1 ws2,
  forallb is_space ws1 = true /\ forallb is_space ws2 = true /\ forallb ltok_ok l2 = true /\
  strip (lrender_all l) = lrender_all l2 /\ D l = ws1 ++ D l2 ++ ws2.
Proof.
  intros l H. destruct (flatten_facts l H) as (R & Dl & Hok & Hfl).
  destruct (ldrop_split _ sp_tok (flatten l)) as (a & Ha & Ea). fold (ltrim l) in Ea.
  destruct (ldrop_split _ sp_tok (rev (ltrim l))) as (b & Hb & Eb).
  apply (f_equal (@rev ltok)) in Eb. rewrite rev_involutive, rev_app_distr in Eb. fold (rtrim (ltrim l)) in Eb.
  remember (rtrim (ltrim l)) as l2 eqn:E2.
  destruct (sp_toks_render a Ha) as [Sa Da]. destruct (sp_toks_render (rev b) (eq_trans (forallb_rev _ _) Hb)) as [Sb Db].
  assert (Hok1 : forallb ltok_ok (ltrim l) = true) by (apply forallb_ldrop, Hok).
  assert (Hfl1 : forallb flat_tok (ltrim l) = true) by (apply forallb_ldrop, Hfl).
  exists l2, (lrender_all a), (lrender_all (rev b)). split; [exact Sa|]. split; [exact Sb|]. split; [|split].
  - rewrite E2. unfold rtrim. rewrite forallb_rev. apply forallb_ldrop. rewrite forallb_rev. exact Hok1.
  - rewrite <- R, Ea, Eb, !lrender_all_app, strip_pad by assumption. apply strip_edges.
    + destruct l2 as [|t r]; [reflexivity|]. rewrite Eb in Hfl1. cbn [app forallb] in Hfl1.
      apply andb_true_iff in Hfl1. apply tok_hd; [apply Hfl1|]. apply (ldrop_head _ sp_tok (flatten l) t (r ++ rev b)). exact Eb.
    + rewrite E2. unfold rtrim. destruct (ldrop sp_tok (rev (ltrim l))) as [|x r'] eqn:E3; [reflexivity|]. cbn [rev].
      apply tok_last.
      * pose proof (forallb_ldrop _ flat_tok sp_tok _ (eq_trans (forallb_rev _ _) Hfl1)) as F. rewrite E3 in F. cbn [forallb] in F.
        apply andb_true_iff in F. apply F.
      * apply (ldrop_head _ _ _ _ _ E3).
  - rewrite <- Dl, Ea, Eb, !D_app, Da, Db. reflexivity.
Qed.

Theorem line_end_to_end_any : forall its, forallb line_item_ok its = true ->
  norm_line_a (vtt_decode true (ser_line its)) = norm_line_a (disp_line its).
Proof.
  intros its H. destruct (line_facts its H) as (A & B & C & _).
  destruct (strip_line _ B) as (l2 & ws1 & ws2 & W1 & W2 & Hok & Hs & Hd).
  unfold vtt_decode. rewrite A, Hs, (line_decode _ Hok). fold (D l2).
  rewrite <- C. fold (D (flat_map toks its)). rewrite Hd. symmetry. apply norm_line_a_pad; assumption.
Qed.

(* WebVTT end to end, no condition on the ends of the lines *)
Theorem vtt_end_to_end_any : forall items, forallb vtt_item_ok items = true ->
  ok_lines_a (SpecTextRead.display items) (node_lines (read_vtt true items)) = true.
Proof.
  intros items H. destruct (read_vtt_lines items H) as (R & P & _ & L). unfold ok_lines_a, norm_lines_a. rewrite R, P, !map_map.
  rewrite (map_ext_in _ (fun x => norm_line_a (vtt_decode true (ser_line x)))); [apply strs_eqb_refl|].
  intros x Hx. symmetry. apply line_end_to_end_any. rewrite forallb_forall in L. apply L, Hx.
Qed.

Example vtt_any_example :
  let items := [ITxt [(32, 0); (160, 0); (97, 0); (32, 0)]; IOpen 1; ITxt [(32, 0)]; IBr; IWrap 0; ITxt [(160, 1); (98, 0)]; IClose 1; ITxt [(9, 0)]] in
  forallb vtt_item_ok items = true /\ lines_trimmed items = false /\
  node_lines (read_vtt true items) = [[97; 32]; [160; 98]] /\ SpecTextRead.display items = [[32; 160; 97; 32; 32]; [32; 160; 98; 9]].
Proof. repeat split; vm_compute; reflexivity. Qed.
