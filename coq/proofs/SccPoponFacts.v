(* C06: the queue + stash logic of the pop-on reader (model/SccPopon.v), run on any sequence of display events with
   positive instants, yields exactly the spans of the statement (spec/SpecSccTime.v, expected_with). *)
From Coq Require Import List ZArith QArith Lia Bool ZifyBool Lqa.
From PV Require Import lib.Sx lib.Str lib.Result model.SccLen model.SccStash model.SccPopon
  spec.SpecSccLen spec.SpecSccTime proofs.SccLenFacts proofs.SccStashFacts.
Import ListNotations.
Local Open Scope Q_scope.
Local Arguments stash_extend : simpl never.

Definition to_pev (e : ev) : pev := match e with Show t => PShow t | Clear t => PHide t end.
Definition ev_time (e : ev) : Q := match e with Show t => t | Clear t => t end.
Definition positive (evs : list ev) : Prop := forall e, In e evs -> (0 < ev_time e)%Q.

Definition deflt (p : Q * option Q) : Q * Q := (fst p, match snd p with Some e => e | None => 0 end).
Definition stores (q : option Q) (evs : list ev) : list (Q * Q) := map deflt (raw_spans evs q).
Definition cue' (p : Q * Q) : precap := cue (fst p) (snd p).
Definition ext1 (st : stash) (p : Q * Q) : stash := stash_extend st [cue' p].

Definition pfinish (st : stash * option Q) : stash :=
  let '(s, q) := st in match q with Some s0 => stash_extend s [cue s0 0] | None => s end.

Lemma prun_gen : forall evs st q,
  pfinish (fold_left pstep (map to_pev evs) (st, q)) = fold_left ext1 (stores q evs) st.
Proof.
  induction evs as [|e evs IH]; intros st q.
  - destruct q; reflexivity.
  - unfold stores in *. destruct e as [t|t]; destruct q as [s0|]; cbn [map fold_left to_pev pstep raw_spans app];
      rewrite IH; reflexivity.
Qed.

Lemma prun_stores : forall evs, prun (map to_pev evs) = fold_left ext1 (stores None evs) stash0.
Proof. intros evs. rewrite <- prun_gen. reflexivity. Qed.

(* a fold of single-caption extends only ever modifies the last element *)
(* the lookahead form of what the stash does: the end of an element is decided when the next one is stored *)
Fixpoint closeM (l : list (Q * Q)) : list (Q * Q) :=
  match l with
  | [] => []
  | (s, e) :: r =>
      (s, match r with
          | (s', _) :: _ => if Qeq_bool e 0 || negb (Qle_bool join_threshold (s' - e)) then s' else e
          | [] => e
          end) :: closeM r
  end.

Lemma ext1_first : forall p, ext1 stash0 p = mkStash ([] ++ [cue' p]) 1.
Proof. intros p. reflexivity. Qed.

Lemma ext1_snoc : forall acc p p',
  ext1 (mkStash (acc ++ [cue' p]) 1) p' =
  mkStash ((acc ++ [cue' (fst p, if Qeq_bool (snd p) 0 || negb (Qle_bool join_threshold (fst p' - snd p))
                                  then fst p' else snd p)]) ++ [cue' p']) 1.
Proof.
  intros acc p p'. unfold ext1, stash_extend. change (filter has_nodes [cue' p']) with [cue' p'].
  cbn [length]. f_equal. f_equal.
  unfold update_last_batch. cbn [st_caps st_batch]. rewrite skipn_snoc. cbn [map last].
  change (pc_end (cue' p)) with (snd p). change (pc_start (cue' p')) with (fst p').
  destruct (_ || _).
  - rewrite map_tail_1_snoc. reflexivity.
  - destruct p; reflexivity.
Qed.

Lemma fold_ext1 : forall r acc p,
  fold_left ext1 r (mkStash (acc ++ [cue' p]) 1) = mkStash (acc ++ map cue' (closeM (p :: r))) 1.
Proof.
  induction r as [|p' r IH]; intros acc p.
  - destruct p. reflexivity.
  - cbn [fold_left]. rewrite ext1_snoc, IH. rewrite <- app_assoc. destruct p as [s e], p' as [s' e']. reflexivity.
Qed.

Lemma fold_ext1_stash0 : forall l,
  fold_left ext1 l stash0 = match l with [] => stash0 | _ => mkStash (map cue' (closeM l)) 1 end.
Proof.
  intros [|p r]; [reflexivity|]. cbn [fold_left]. rewrite ext1_first, fold_ext1. reflexivity.
Qed.

(* every start is positive; every explicit end is positive; only the last span may lack an end *)
Fixpoint good (r : list (Q * option Q)) : Prop :=
  match r with
  | [] => True
  | (s, oe) :: t => 0 < s /\ match oe with Some e => 0 < e | None => t = [] end /\ good t
  end.

Lemma raw_spans_good : forall evs q, positive evs -> (forall s, q = Some s -> 0 < s) -> good (raw_spans evs q).
Proof.
  induction evs as [|e evs IH]; intros q Hp Hq.
  - destruct q as [s|]; cbn; [|exact I]. repeat split. apply Hq. reflexivity.
  - assert (Hp' : positive evs) by (intros x Hx; apply Hp; right; exact Hx).
    assert (Ht : 0 < ev_time e) by (apply Hp; left; reflexivity).
    destruct e as [t|t]; cbn [ev_time] in Ht; cbn [raw_spans].
    + assert (G : good (raw_spans evs (Some t))) by (apply IH; [exact Hp'|intros s Hs; inversion Hs; subst; exact Ht]).
      destruct q as [s|]; [|exact G]. cbn [app good]. repeat split; [apply Hq; reflexivity|exact Ht|exact G].
    + assert (G : good (raw_spans evs None)) by (apply IH; [exact Hp'|intros s Hs; discriminate]).
      destruct q as [s|]; [|exact G]. cbn [app good]. repeat split; [apply Hq; reflexivity|exact Ht|exact G].
Qed.

Lemma Qeq_bool_pos_false : forall e : Q, 0 < e -> Qeq_bool e 0 = false.
Proof.
  intros e H. destruct (Qeq_bool e 0) eqn:E; [|reflexivity].
  apply Qeq_bool_iff in E. rewrite E in H. exfalso. exact (Qlt_irrefl _ H).
Qed.

Definition pos_end (p : Q * Q) : Prop := 0 < snd p.

(* what the stash holds before fix_last, against the spans of the statement: equal, except that a last span without
   an explicit end is held with the sentinel end 0 *)
Lemma close_shape : forall r, good r ->
  (Forall pos_end (close_gaps join_threshold r) /\ closeM (map deflt r) = close_gaps join_threshold r) \/
  (exists l s, Forall pos_end l /\ 0 < s /\ closeM (map deflt r) = l ++ [(s, 0)] /\
               close_gaps join_threshold r = l ++ [(s, s + four_s)]).
Proof.
  induction r as [|[s oe] t IH]; intros G.
  - left. split; [constructor|reflexivity].
  - cbn [good] in G. destruct G as [Hs [He Gt]]. destruct t as [|[s' oe'] t'].
    + destruct oe as [e|].
      * left. split; [|reflexivity]. constructor; [exact He|constructor].
      * right. exists [], s. repeat split; [constructor|exact Hs].
    + destruct oe as [e|]; [|discriminate].
      assert (Hs' : 0 < s') by (cbn [good] in Gt; apply Gt).
      set (h := (s, if Qle_bool join_threshold (s' - e) then e else s')).
      assert (Hh : pos_end h).
      { unfold pos_end, h. cbn [snd]. destruct (Qle_bool _ _); assumption. }
      assert (EM : closeM (map deflt ((s, Some e) :: (s', oe') :: t')) = h :: closeM (map deflt ((s', oe') :: t'))).
      { cbn [map deflt closeM fst snd]. rewrite (Qeq_bool_pos_false e He). cbn [orb]. unfold h.
        destruct (Qle_bool _ _); reflexivity. }
      assert (ES : close_gaps join_threshold ((s, Some e) :: (s', oe') :: t') =
                   h :: close_gaps join_threshold ((s', oe') :: t')) by reflexivity.
      rewrite EM, ES. destruct (IH Gt) as [[HF HE]|[l [s0 [HF [H0 [HE HG]]]]]].
      * left. split; [constructor; assumption|]. rewrite HE. reflexivity.
      * right. exists (h :: l), s0. repeat split; [constructor; assumption|exact H0| |].
        -- rewrite HE. reflexivity.
        -- rewrite HG. reflexivity.
Qed.

Lemma offending_cues : forall l, offending (map to_lcap (map cue' l)) = [].
Proof. induction l as [|p l IH]; [reflexivity|]. unfold offending in *. cbn [map concat]. rewrite IH. reflexivity. Qed.

Lemma length_check_cues : forall l, length_check (map to_lcap (map cue' l)) = None.
Proof. intros l. apply length_check_none_iff. apply offending_cues. Qed.

Lemma existsb_flash_cues : forall l, existsb is_flash (map cue' l) = existsb flash l.
Proof. induction l as [|p l IH]; [reflexivity|]. cbn [map existsb]. rewrite IH. reflexivity. Qed.

Lemma spans_cues : forall l, map (fun c => (pc_start c, pc_end c)) (map cue' l) = l.
Proof. induction l as [|[s e] l IH]; [reflexivity|]. cbn [map]. rewrite IH. reflexivity. Qed.

Lemma cues_ended : forall l, Forall pos_end l -> forall c, In c (map cue' l) -> Qeq_bool (pc_end c) 0 = false.
Proof.
  intros l H c Hc. apply in_map_iff in Hc. destruct Hc as [p [<- Hp]].
  rewrite Forall_forall in H. apply Qeq_bool_pos_false. apply (H p Hp).
Qed.

Lemma pending_not_flash : forall s : Q, 0 < s -> is_flash (cue s 0) = false.
Proof.
  intros s H. unfold is_flash. cbn [cue pc_start pc_end].
  assert (E : Qle_bool (0 - s) 0 = true) by (apply Qle_bool_iff; lra).
  rewrite E. reflexivity.
Qed.

Lemma four_s_not_flash : forall s : Q, flash (s, s + four_s) = false.
Proof.
  intros s. unfold flash, four_s. cbn [fst snd]. rewrite four_s_not_short. apply andb_false_r.
Qed.

(* Leibniz equality: both sides only copy the given instants; the 4 s end is `s + inject_Z 4000000` on the model side
   and `s + four_s` on the statement side, and four_s unfolds to inject_Z 4000000. *)
Theorem popon_read_expected : forall evs, positive evs ->
  popon_read (map to_pev evs) = expected_with join_threshold evs.
Proof.
  intros evs Hp. unfold popon_read, expected_with. rewrite prun_stores, fold_ext1_stash0. unfold stores.
  assert (G : good (raw_spans evs None)) by (apply raw_spans_good; [exact Hp|intros s Hs; discriminate]).
  destruct (raw_spans evs None) as [|p0 r0] eqn:Er; [reflexivity|].
  rewrite <- Er in *.
  assert (Hne : map deflt (raw_spans evs None) <> []) by (rewrite Er; discriminate).
  destruct (map deflt (raw_spans evs None)) as [|d0 dl] eqn:Ed; [congruence|]. rewrite <- Ed. clear Hne.
  assert (Hgne : close_gaps join_threshold (raw_spans evs None) <> []) by (rewrite Er; destruct p0; discriminate).
  unfold finish_read. cbn [st_caps]. rewrite length_check_cues.
  destruct (close_shape _ G) as [[HF HE]|[l [s [HF [Hs [HE HG]]]]]].
  - rewrite HE. rewrite existsb_flash_cues.
    destruct (close_gaps join_threshold (raw_spans evs None)) as [|g0 gl]; [congruence|].
    destruct (existsb flash _); [reflexivity|].
    cbn [map]. change (cue' g0 :: map cue' gl) with (map cue' (g0 :: gl)). cbn [spans_of].
    rewrite fix_last_ended by (apply cues_ended; exact HF). rewrite spans_cues. reflexivity.
  - rewrite HE, HG. rewrite map_app, !existsb_app, existsb_flash_cues. cbn [map existsb].
    change (cue' (s, 0)) with (cue s 0). rewrite pending_not_flash by exact Hs. rewrite four_s_not_flash.
    destruct (existsb flash l); [reflexivity|]. cbn [orb].
    assert (E1 : forall (A : Type) (x : A) (k : list A) (R : Type) (a b : R),
                   match k ++ [x] with [] => a | _ :: _ => b end = b) by (intros A x [|y k] R a b; reflexivity).
    rewrite !E1. cbn [spans_of].
    rewrite fix_last_spec_all.
    + rewrite map_app, spans_cues. reflexivity.
    + intros c [<-|[]]. reflexivity.
    + apply cues_ended. exact HF.
Qed.

(* the known defect: an offset larger than the timecodes floors instants to 0, and 0 is the code's "not ended yet"
   sentinel: a caption shown at 0 and cleared at 0 comes out lasting 4 s *)
Theorem end_zero_sentinel_refuted :
  popon_read (map to_pev [Show 0; Clear 0]) = Ok [(0, 0 + inject_Z 4000000)]%Q /\
  expected_with join_threshold [Show 0; Clear 0] = Ok [(0%Q, 0%Q)].
Proof. split; vm_compute; reflexivity. Qed.
