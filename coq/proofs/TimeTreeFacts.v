(* Proofs for C01 at abstract-tree level: DFXP documents (several <div>, language resolution, paragraphs
   with and without text, attribute dictionaries) and SAMI documents (several languages over one list of
   <sync>) are read to exactly the captions they denote. *)
From Coq Require Import List ZArith Lia Bool ZifyBool.
From PV Require Import lib.Sx lib.Str lib.Result lib.ResultFacts lib.Dec.
From PV Require Import model.Langs model.TimeRead model.TimeTree spec.SpecTime spec.SpecTimeTree.
From PV Require Import proofs.TimeStrFacts proofs.TimeReadFacts.
Import ListNotations.
Open Scope Z_scope.

Definition aget_step (name : str) (acc : option str) (nv : str * str) : option str :=
  if str_eqb (fst nv) name then Some (snd nv) else acc.

Lemma attr_get_fold : forall name l acc,
  fold_left (aget_step name) l acc = match fold_left (aget_step name) l None with Some v => Some v | None => acc end.
Proof.
  intros name. induction l as [|nv l IH]; intros acc; [reflexivity|].
  cbn [fold_left]. rewrite IH. rewrite (IH (aget_step name None nv)).
  destruct (fold_left (aget_step name) l None); [reflexivity|].
  unfold aget_step. destruct (str_eqb (fst nv) name); reflexivity.
Qed.

Lemma attr_get_app : forall name a b,
  attr_get name (a ++ b) = match attr_get name b with Some v => Some v | None => attr_get name a end.
Proof.
  intros name a b. unfold attr_get. change (fun acc nv => if str_eqb (fst nv) name then Some (snd nv) else acc) with (aget_step name).
  rewrite fold_left_app. apply attr_get_fold.
Qed.

Lemma attr_get_free : forall name a, is_time_name name = true -> time_free a = true -> attr_get name a = None.
Proof.
  intros name a Hn. unfold attr_get. change (fun acc nv => if str_eqb (fst nv) name then Some (snd nv) else acc) with (aget_step name).
  induction a as [|nv a IH]; intros H; [reflexivity|].
  cbn [time_free forallb] in H. apply andb_true_iff in H. destruct H as [H1 H2].
  cbn [fold_left]. rewrite attr_get_fold. rewrite (IH H2).
  unfold aget_step. destruct (str_eqb (fst nv) name) eqn:E; [|reflexivity].
  apply str_eqb_eq in E. rewrite E in H1. rewrite Hn in H1. discriminate.
Qed.

Lemma xp_times_render : forall ex t, time_free ex = true ->
  xp_times (ap_render (APText ex t)) = dfxp_p_attrs t.
Proof.
  intros ex t H. unfold xp_times, ap_render, dfxp_p_attrs, time_attrs. cbn [xp_attrs].
  rewrite !attr_get_app.
  rewrite !(attr_get_free _ ex) by (first [reflexivity|exact H]).
  destruct (p_is_dur t); reflexivity.
Qed.

(* one <div>: the paragraphs with text, in order; the others are not even looked at *)
Lemma dfxp_div_caps_exact : forall ps, forallb ap_dom ps = true ->
  dfxp_div_caps (map ap_render ps) = Ok (ap_expected ps).
Proof.
  unfold dfxp_div_caps, dfxp_div_times. induction ps as [|p ps IH]; intros H; [reflexivity|].
  cbn [forallb] in H. apply andb_true_iff in H. destruct H as [Hp Hps].
  destruct p as [ex t|a]; cbn [map ap_render filter xp_text ap_expected flat_map app]; [|exact (IH Hps)].
  cbn [ap_dom] in Hp. apply andb_true_iff in Hp. destruct Hp as [Hf Ht].
  change (mkXp (ex ++ time_attrs t) true) with (ap_render (APText ex t)).
  cbn [map res_map]. rewrite (xp_times_render ex t Hf), (dfxp_p_exact t Ht). cbn [bind].
  fold (ap_expected ps). rewrite (IH Hps). reflexivity.
Qed.

Lemma dfxp_blank_ignored : forall a ps, dfxp_div_caps (mkXp a false :: ps) = dfxp_div_caps ps.
Proof. reflexivity. Qed.

Lemma dict_set_fresh : forall (V : Type) k (v : V) d,
  forallb (fun kv => negb (str_eqb (fst kv) k)) d = true -> dict_set k v d = d ++ [(k, v)].
Proof.
  intros V k v. induction d as [|[k' v'] d IH]; intros H; [reflexivity|].
  cbn [forallb fst] in H. apply andb_true_iff in H. destruct H as [H1 H2].
  cbn [dict_set]. destruct (str_eqb k' k); [discriminate|]. rewrite (IH H2). reflexivity.
Qed.

Lemma distinct_app_fresh : forall a k b, distinct (a ++ k :: b) = true ->
  forallb (fun x => negb (str_eqb x k)) a = true /\ distinct ((a ++ [k]) ++ b) = true.
Proof.
  intros a k b H. split.
  - induction a as [|x a IH]; [reflexivity|].
    cbn [app distinct] in H. apply andb_true_iff in H. destruct H as [H1 H2].
    cbn [forallb]. rewrite (IH H2). rewrite andb_true_r.
    rewrite existsb_app in H1. cbn [existsb] in H1.
    destruct (str_eqb x k); [|reflexivity]. rewrite orb_true_r in H1. discriminate.
  - rewrite <- app_assoc. exact H.
Qed.

Lemma as_dict_distinct_gen : forall (V : Type) (l acc : list (str * V)),
  distinct (map fst acc ++ map fst l) = true ->
  fold_left (fun d kv => dict_set (fst kv) (snd kv) d) l acc = acc ++ l.
Proof.
  intros V. induction l as [|[k v] l IH]; intros acc H; [rewrite app_nil_r; reflexivity|].
  cbn [map fst] in H. destruct (distinct_app_fresh _ _ _ H) as [F D].
  cbn [fold_left fst snd]. rewrite dict_set_fresh.
  - rewrite IH; [rewrite <- app_assoc; reflexivity|]. rewrite map_app. exact D.
  - rewrite forallb_forall in *. intros kv Hin. apply F. apply in_map. exact Hin.
Qed.

Lemma as_dict_distinct : forall (V : Type) (l : list (str * V)), distinct (map fst l) = true -> as_dict l = l.
Proof. intros V l H. unfold as_dict. rewrite as_dict_distinct_gen; [reflexivity|exact H]. Qed.

Lemma chain_lang_nearest : forall default tt ch, chain_lang default tt ch = nearest_lang default tt ch.
Proof. induction ch as [|[l|] t IH]; cbn [chain_lang nearest_lang]; [reflexivity|reflexivity|exact IH]. Qed.

Lemma first_seen_gen : forall ls acc,
  fold_left (fun acc l => if existsb (str_eqb l) acc then acc else acc ++ [l]) ls acc
  = acc ++ languages_in_order acc ls.
Proof.
  induction ls as [|l t IH]; intros acc; cbn [fold_left languages_in_order]; [rewrite app_nil_r; reflexivity|].
  destruct (existsb (str_eqb l) acc); rewrite IH; [reflexivity|]. rewrite <- app_assoc. reflexivity.
Qed.

Lemma first_seen_spec : forall ls, first_seen ls = languages_in_order [] ls.
Proof. intros. unfold first_seen. rewrite first_seen_gen. reflexivity. Qed.

Definition select_lang {A} (k : str) (caps : list (option (str * A))) : list A :=
  flat_map (fun o => match o with Some (l, c) => if str_eqb k l then [c] else [] | None => [] end) caps.

Lemma dict_push_fold : forall (A : Type) (caps : list (option (str * A))) (d : list (str * list A)),
  fold_left (fun d o => match o with Some (l, c) => dict_push l c d | None => d end) caps d
  = map (fun kv => (fst kv, snd kv ++ select_lang (fst kv) caps)) d.
Proof.
  intros A. induction caps as [|o caps IH]; intros d.
  - cbn [fold_left]. rewrite <- (map_id d) at 1. apply map_ext. intros [k v]. cbn [fst snd select_lang flat_map].
    rewrite app_nil_r. reflexivity.
  - cbn [fold_left]. rewrite IH. destruct o as [[l c]|].
    + unfold dict_push. rewrite map_map. apply map_ext. intros [k v]. cbn [fst snd].
      cbn [select_lang flat_map]. destruct (str_eqb k l); cbn [fst snd app].
      * rewrite <- app_assoc. reflexivity.
      * reflexivity.
    + apply map_ext. intros [k v]. reflexivity.
Qed.

Theorem dfxp_doc_exact : forall default tt divs ps, doc_dom divs ps = true ->
  dfxp_read_doc default tt divs (map (fun cp => (fst cp, ap_render (snd cp))) ps)
  = set_result (doc_expected default tt divs ps).
Proof.
  intros default tt divs ps H. unfold dfxp_read_doc.
  set (g := fun cp : option (list (option str)) * ap =>
              match fst cp, snd cp with
              | Some ch, APText _ t => Some (chain_lang default tt ch, dfxp_p_expected t)
              | _, _ => None
              end).
  rewrite (res_map_map_ok _ _ g).
  2:{ intros [och p] Hin. unfold doc_dom in H. rewrite forallb_forall in H.
      specialize (H _ Hin). apply andb_true_iff in H. destruct H as [Hd _]. unfold g. cbn [fst snd] in *.
      destruct och as [ch|]; [|reflexivity]. destruct p as [ex t|a]; [|reflexivity].
      cbn [ap_dom] in Hd. apply andb_true_iff in Hd. destruct Hd as [Hf Ht].
      cbn [xp_text]. rewrite (xp_times_render ex t Hf), (dfxp_p_exact t Ht). reflexivity. }
  cbn [bind]. rewrite dict_push_fold. rewrite map_map. cbn [fst snd app].
  rewrite first_seen_spec.
  assert (E : map (fun x : str => (x, select_lang x (map g ps)))
                  (languages_in_order [] (map (chain_lang default tt) divs))
              = doc_expected default tt divs ps).
  { unfold doc_expected, doc_expected_with.
    assert (M : map (chain_lang default tt) divs = map (nearest_lang default tt) divs)
      by (apply map_ext; intros; apply chain_lang_nearest).
    rewrite M. apply map_ext. intros l. f_equal.
    unfold select_lang. clear. induction ps as [|[och p] ps IH]; [reflexivity|].
    cbn [map flat_map fst snd]. rewrite IH. f_equal. unfold g. cbn [fst snd].
    destruct och as [ch|]; [|reflexivity]. destruct p as [ex t|a]; [|reflexivity].
    rewrite chain_lang_nearest. rewrite (str_eqb_sym l). reflexivity. }
  rewrite E. reflexivity.
Qed.

Lemma dfxp_missing_times_refused : forall b e d,
  dfxp_p_times None e d = Err ETiming /\ dfxp_p_times (Some []) e d = Err ETiming /\
  dfxp_p_times (Some b) None None = Err ETiming.
Proof.
  intros b e d. repeat split; try reflexivity. unfold dfxp_p_times. destruct (truthy (Some b)); reflexivity.
Qed.

Lemma sami_select_render : forall lg body,
  sami_select lg (map async_render body)
  = map (fun p => (Some (sami_render_start p), sp_text p)) (sami_proj lg body).
Proof.
  intros lg body. unfold sami_select, sami_proj. induction body as [|[[k ms] ps] body IH]; [reflexivity|].
  cbn [map flat_map]. rewrite map_app, IH. f_equal.
  unfold async_render. cbn [fst snd]. rewrite map_map.
  apply map_ext. intros p. reflexivity.
Qed.

Theorem sami_tree_exact : forall langs body, sami_tree_dom langs body = true ->
  sami_read_tree langs (map async_render body) = set_result (sami_tree_expected langs body).
Proof.
  intros langs body H. unfold sami_tree_dom in H. apply andb_true_iff in H. destruct H as [Hd Hl].
  unfold sami_read_tree, sami_tree_expected. rewrite <- (map_id langs) at 1.
  rewrite (res_map_map_ok _ _ (fun lg => (lg, sami_expected (sami_abs_of (sami_proj lg body))))).
  2:{ intros lg Hlg. rewrite forallb_forall in Hl.
      rewrite sami_select_render, (sami_translate_str_exact _ (Hl lg Hlg)). reflexivity. }
  cbn [bind]. rewrite as_dict_distinct; [reflexivity|]. rewrite map_map. cbn [fst]. rewrite map_id. exact Hd.
Qed.
