(* C14: facts about the language model (model/Langs.v). *)
From Coq Require Import List ZArith Lia Bool.
From PV Require Import lib.Sx lib.Str lib.Dec lib.Result model.Langs spec.SpecLangs.
Import ListNotations.
Open Scope Z_scope.

Lemma str_eqb_spec : forall a b, reflect (a = b) (str_eqb a b).
Proof. intros a b. apply iff_reflect. symmetry. apply str_eqb_iff. Qed.
Lemma mem_In : forall l ls, mem l ls = true <-> In l ls.
Proof.
  intros l ls. unfold mem. rewrite existsb_exists. split.
  - intros [x [H1 H2]]. apply str_eqb_eq in H2. subst. exact H1.
  - intros H. exists l. split; [exact H|apply str_eqb_refl].
Qed.
Lemma mem_false : forall l ls, mem l ls = false <-> ~ In l ls.
Proof. intros l ls. rewrite <- not_true_iff_false, mem_In. reflexivity. Qed.

Lemma dict_set_keys : forall (V : Type) k (v : V) d,
  map fst (dict_set k v d) = if mem k (map fst d) then map fst d else map fst d ++ [k].
Proof.
  induction d as [|[k' v'] t IH]; [reflexivity|]. cbn [dict_set map fst mem existsb]. rewrite (str_eqb_sym k k').
  destruct (str_eqb k' k); cbn [orb map fst]; [reflexivity|]. rewrite IH. unfold mem.
  destruct (existsb (str_eqb k) (map fst t)); reflexivity.
Qed.
Lemma dict_set_fresh : forall (V : Type) k (v : V) d, mem k (map fst d) = false -> dict_set k v d = d ++ [(k, v)].
Proof.
  induction d as [|[k' v'] t IH]; intros H; [reflexivity|]. cbn [map fst mem existsb] in H. rewrite str_eqb_sym in H.
  apply orb_false_elim in H. destruct H as [H1 H2]. cbn [dict_set]. rewrite H1, (IH H2). reflexivity.
Qed.
Lemma dict_get_app : forall (V : Type) c (a b : list (str * V)),
  dict_get c (a ++ b) = match dict_get c a with Some v => Some v | None => dict_get c b end.
Proof. induction a as [|[k v] t IH]; intros b; [reflexivity|]. cbn [app dict_get]. destruct (str_eqb k c); [reflexivity|apply IH]. Qed.
Lemma dict_get_notin : forall (V : Type) c (d : list (str * V)), ~ In c (map fst d) -> dict_get c d = None.
Proof.
  induction d as [|[k v] t IH]; intros H; [reflexivity|]. cbn [dict_get].
  destruct (str_eqb_spec k c) as [E|_]; [destruct H; left; exact E|]. apply IH. intros C. apply H. right. exact C.
Qed.
Lemma dict_get_nodup : forall (V : Type) (d : list (str * V)) k v,
  NoDup (map fst d) -> In (k, v) d -> dict_get k d = Some v.
Proof.
  induction d as [|[k' v'] t IH]; intros k v N H; [destruct H|]. cbn [dict_get].
  inversion N as [|? ? N1 N2]; subst. destruct H as [H|H].
  - injection H as -> ->. rewrite str_eqb_refl. reflexivity.
  - destruct (str_eqb_spec k' k) as [->|_]; [|apply IH; assumption].
    destruct N1. apply (in_map fst _ _ H).
Qed.

Lemma get_captions_nodup : forall cs l c, NoDup (languages cs) -> In (l, c) cs -> get_captions cs l = c.
Proof. intros cs l c N H. unfold get_captions. rewrite (dict_get_nodup _ cs l c N H). reflexivity. Qed.

Lemma map_get_all : forall cs, NoDup (languages cs) ->
  map (fun l => (l, get_captions cs l)) (languages cs) = cs.
Proof.
  intros cs N. unfold languages. rewrite map_map. rewrite <- (map_id cs) at 2. apply map_ext_in.
  intros [l c] H. cbn [fst]. f_equal. apply get_captions_nodup; assumption.
Qed.

(* ---- lists: filters, and the entries of a key ------------------------------------------------------------- *)
Lemma filter_true : forall (A : Type) (l : list A), filter (fun _ => true) l = l.
Proof. induction l as [|x t IH]; [reflexivity|]. cbn [filter]. rewrite IH. reflexivity. Qed.

Lemma flat_map_map : forall (A B C : Type) (f : A -> B) (g : B -> list C) l,
  flat_map g (map f l) = flat_map (fun x => g (f x)) l.
Proof. induction l as [|x t IH]; [reflexivity|]. cbn [map flat_map]. rewrite IH. reflexivity. Qed.

Lemma filter_key_notin : forall (A : Type) (key : A -> str) l xs,
  ~ In l (map key xs) -> filter (fun x => str_eqb (key x) l) xs = [].
Proof.
  induction xs as [|x t IH]; intros H; [reflexivity|]. cbn [filter].
  destruct (str_eqb_spec (key x) l) as [E|_]; [destruct H; left; exact E|]. apply IH. intros C. apply H. right. exact C.
Qed.
Lemma filter_key_single : forall (A : Type) (key : A -> str) x xs, NoDup (map key xs) -> In x xs ->
  filter (fun y => str_eqb (key y) (key x)) xs = [x].
Proof.
  induction xs as [|y t IH]; intros N H; [destruct H|]. inversion N as [|? ? N1 N2]; subst. cbn [filter]. destruct H as [->|H].
  - rewrite str_eqb_refl, filter_key_notin by exact N1. reflexivity.
  - destruct (str_eqb_spec (key y) (key x)) as [E|_]; [|apply IH; assumption].
    destruct N1. rewrite E. apply in_map. exact H.
Qed.

Lemma filter_length_or : forall (A : Type) (p q : A -> bool) xs, (forall x, p x = true -> q x = false) ->
  (length (filter p xs) + length (filter q xs))%nat = length (filter (fun x => p x || q x) xs).
Proof.
  intros A p q xs D. induction xs as [|x t IH]; [reflexivity|]. cbn [filter]. specialize (D x).
  destruct (p x); [rewrite D by reflexivity|destruct (q x)]; cbn [orb length]; lia.
Qed.
Lemma group_sizes : forall (A : Type) (key : A -> str) (keep : A -> bool) xs ls, NoDup ls ->
  fold_right (fun l n => (length (filter (fun x => str_eqb (key x) l && keep x) xs) + n)%nat) 0%nat ls
  = length (filter (fun x => mem (key x) ls && keep x) xs).
Proof.
  induction ls as [|l r IH]; intros N; cbn [fold_right].
  - induction xs as [|x t IHx]; [reflexivity|exact IHx].
  - inversion N as [|? ? N1 N2]; subst. rewrite (IH N2), filter_length_or.
    + f_equal. apply filter_ext. intros x. symmetry. apply andb_orb_distrib_l.
    + intros x H. apply andb_prop in H. destruct H as [H _]. apply str_eqb_eq in H.
      rewrite H, (proj2 (mem_false l r) N1). reflexivity.
Qed.

Lemma uniq_In : forall x ls, In x (uniq ls) <-> In x ls.
Proof.
  induction ls as [|l t IH]; [reflexivity|]. cbn [uniq In]. rewrite filter_In, IH.
  destruct (str_eqb_spec x l) as [->|N]; [split; left; reflexivity|]. cbn [negb]. tauto.
Qed.
Lemma uniq_NoDup : forall ls, NoDup (uniq ls).
Proof.
  induction ls as [|l t IH]; cbn [uniq]; constructor; [|apply NoDup_filter, IH].
  rewrite filter_In, str_eqb_refl. intros [_ H]. discriminate.
Qed.
Lemma uniq_nodup_id : forall ls, NoDup ls -> uniq ls = ls.
Proof.
  induction ls as [|l t IH]; intros N; [reflexivity|]. inversion N; subst. cbn [uniq]. rewrite IH by assumption. f_equal.
  rewrite <- (filter_true _ t) at 2. apply filter_ext_in.
  intros x Hx. destruct (str_eqb_spec x l) as [->|_]; [contradiction|reflexivity].
Qed.

Definition fa_step (acc : list str) (l : str) : list str := if mem l acc then acc else acc ++ [l].

(* first_appearance is the specification's `uniq` (keep first occurrences) *)
Lemma fa_fold_uniq : forall ls acc,
  fold_left fa_step ls acc = acc ++ filter (fun x => negb (mem x acc)) (uniq ls).
Proof.
  induction ls as [|l t IH]; intros acc; cbn [fold_left uniq filter]; [rewrite app_nil_r; reflexivity|].
  unfold fa_step at 2. destruct (mem l acc) eqn:M; cbn [negb].
  - rewrite IH. f_equal. rewrite filter_filter. apply filter_ext_in. intros x _.
    destruct (str_eqb_spec x l) as [->|_]; [rewrite M|]; reflexivity.
  - rewrite IH, <- app_assoc. cbn [app]. f_equal. f_equal. rewrite filter_filter. apply filter_ext_in. intros x _.
    unfold mem. rewrite existsb_app. cbn [existsb]. rewrite orb_false_r, negb_orb, andb_comm. reflexivity.
Qed.
Theorem first_appearance_uniq : forall ls, first_appearance ls = uniq ls.
Proof. intros ls. unfold first_appearance. fold fa_step. rewrite fa_fold_uniq. apply filter_true. Qed.

Theorem first_appearance_spec : forall ls,
  NoDup (first_appearance ls) /\ (forall x, In x (first_appearance ls) <-> In x ls).
Proof. intros ls. rewrite first_appearance_uniq. split; [apply uniq_NoDup|intros x; apply uniq_In]. Qed.

Lemma list_eqb_refl : forall (A : Type) (e : A -> A -> bool) l, (forall x, e x x = true) -> list_eqb e l l = true.
Proof. induction l; intros H; simpl; auto. rewrite H. auto. Qed.
Lemma cue_eqb_refl : forall c, cue_eqb c c = true.
Proof. intros [s t]. unfold cue_eqb. cbn [fst snd]. rewrite Z.eqb_refl, str_eqb_refl. reflexivity. Qed.
Lemma lang_eqb_refl : forall c, lang_eqb c c = true.
Proof. intros [l cs]. unfold lang_eqb. cbn [fst snd]. rewrite str_eqb_refl, list_eqb_refl by apply cue_eqb_refl. reflexivity. Qed.
Lemma sset_eqb_refl : forall s, sset_eqb s s = true.
Proof. intros. apply list_eqb_refl. apply lang_eqb_refl. Qed.

(* ---- DFXP read ------------------------------------------------------------------------------------------- *)
Theorem dfxp_lang_of_div : forall own tt default,
  div_lang own tt default = match own with Some l => l | None => match tt with Some l => l | None => default end end
  /\ div_lang own tt default = effective_lang own tt default.
Proof. intros [o|] [t|] d; split; reflexivity. Qed.

Definition effs (default : str) (doc : dfxp_doc) : list str :=
  map (fun dv => div_lang (fst dv) (d_tt doc) default) (d_divs doc).

Lemma dict_extend_keys : forall k v d, map fst (dict_extend k v d) = map fst (dict_set k v d).
Proof.
  induction d as [|[k' v'] t IH]; [reflexivity|]. cbn [dict_extend dict_set].
  destruct (str_eqb k' k); cbn [map]; [|rewrite IH]; reflexivity.
Qed.
Lemma dict_extend_get : forall k v d l,
  get_captions (dict_extend k v d) l = if str_eqb k l then get_captions d l ++ v else get_captions d l.
Proof.
  unfold get_captions. induction d as [|[k' v'] t IH]; intros l; cbn [dict_extend dict_get].
  - destruct (str_eqb k l); reflexivity.
  - destruct (str_eqb_spec k' k) as [->|N]; cbn [dict_get].
    + destruct (str_eqb k l); reflexivity.
    + destruct (str_eqb_spec k' l) as [->|_]; [|apply IH].
      rewrite (str_eqb_neq k l) by congruence. reflexivity.
Qed.

Lemma spec_group_map : forall (A : Type) (f : A -> str) (g : A -> list scue) xs,
  spec_group (map (fun x => (f x, g x)) xs)
  = map (fun l => (l, flat_map g (filter (fun x => str_eqb (f x) l) xs))) (uniq (map f xs)).
Proof.
  intros. unfold spec_group. rewrite map_map. apply map_ext. intros l. rewrite filter_map_swap, flat_map_map. reflexivity.
Qed.

(* caption_dict[f x].extend(g x) over any sequence xs *)
Lemma extend_fold_keys : forall (A : Type) (f : A -> str) (g : A -> list cue) xs d,
  languages (fold_left (fun d x => dict_extend (f x) (g x) d) xs d) = fold_left fa_step (map f xs) (languages d).
Proof.
  induction xs as [|x t IH]; intros d; [reflexivity|]. cbn [fold_left map]. rewrite IH. unfold languages.
  rewrite dict_extend_keys, dict_set_keys. reflexivity.
Qed.
Lemma extend_fold_get : forall (A : Type) (f : A -> str) (g : A -> list cue) xs d l,
  get_captions (fold_left (fun d x => dict_extend (f x) (g x) d) xs d) l
  = get_captions d l ++ flat_map g (filter (fun x => str_eqb (f x) l) xs).
Proof.
  induction xs as [|x t IH]; intros d l; cbn [fold_left filter flat_map]; [rewrite app_nil_r; reflexivity|].
  rewrite IH, dict_extend_get. destruct (str_eqb (f x) l); cbn [flat_map]; rewrite <- ?app_assoc; reflexivity.
Qed.
Theorem extend_fold_groups : forall (A : Type) (f : A -> str) (g : A -> list cue) xs,
  fold_left (fun d x => dict_extend (f x) (g x) d) xs [] = spec_group (map (fun x => (f x, g x)) xs).
Proof.
  intros A f g xs. set (r := fold_left (fun d x => dict_extend (f x) (g x) d) xs []).
  assert (K : languages r = uniq (map f xs)).
  { unfold r. rewrite extend_fold_keys. apply first_appearance_uniq. }
  rewrite spec_group_map, <- K, <- (map_get_all r) at 1 by (rewrite K; apply uniq_NoDup).
  apply map_ext. intros l. unfold r. rewrite extend_fold_get. reflexivity.
Qed.

(* DFXPReader model = the specification's grouping, for EVERY document: languages in order of first appearance; a
   language met again (a further div, a nested div) continues its list; no cue lost, none listed twice *)
Theorem dfxp_read_groups : forall default doc,
  dfxp_read default doc
  = spec_group (map (fun dv => (effective_lang (fst dv) (d_tt doc) default, snd dv)) (d_divs doc)).
Proof.
  (* effective_lang and div_lang are the same nested match, so the two sides are convertible *)
  intros default doc. exact (extend_fold_groups _ (fun dv => div_lang (fst dv) (d_tt doc) default) snd (d_divs doc)).
Qed.

(* the model meets the oracle on every document *)
Theorem dfxp_read_meets_oracle : forall default tt divs,
  ok_dfxp_read default tt divs (dfxp_read default (mkDfxp tt divs)) = true.
Proof. intros. unfold ok_dfxp_read. rewrite dfxp_read_groups. apply sset_eqb_refl. Qed.

(* the body tree: the tree read is the grouping of the segments (flatten_body), for every tree *)
Theorem dfxp_read_tree_groups : forall default tt nodes,
  dfxp_read_tree default tt nodes
  = spec_group (map (fun dv => (effective_lang (fst dv) tt default, snd dv)) (flatten_body nodes)).
Proof. intros. exact (dfxp_read_groups default (mkDfxp tt (flatten_body nodes))). Qed.
Theorem dfxp_read_tree_meets_oracle : forall default tt nodes,
  ok_dfxp_read default tt (flatten_body nodes) (dfxp_read_tree default tt nodes) = true.
Proof. intros. apply dfxp_read_meets_oracle. Qed.

Theorem dfxp_read_order : forall default doc,
  languages (dfxp_read default doc) = first_appearance (effs default doc).
Proof. intros. exact (extend_fold_keys _ (fun dv => div_lang (fst dv) (d_tt doc) default) snd (d_divs doc) []). Qed.

(* ---- DFXP write ------------------------------------------------------------------------------------------ *)
Theorem dfxp_write_order : forall force cs, mem force (languages cs) = false ->
  d_divs (dfxp_write force cs) = map (fun l => (Some l, get_captions cs l)) (languages cs).
Proof. intros force cs H. unfold dfxp_write. rewrite H. reflexivity. Qed.

Theorem force_selects : forall force cs, mem force (languages cs) = true ->
  dfxp_write force cs = mkDfxp (Some force) [(Some force, get_captions cs force)]
  /\ (force <> [] ->
      legacy_write force cs = Ok (mkDfxp (Some dfxp_default_language) [(Some force, get_captions cs force)])).
Proof.
  intros force cs H. unfold dfxp_write, legacy_write. rewrite H. split; [reflexivity|].
  intros N. destruct force as [|c f]; [congruence|reflexivity].
Qed.

Lemma spec_group_grouped : forall cs : sset, NoDup (map fst cs) -> spec_group cs = cs.
Proof.
  intros cs N. unfold spec_group. rewrite (uniq_nodup_id _ N), map_map. rewrite <- (map_id cs) at 2.
  apply map_ext_in. intros [l c] H. rewrite (filter_key_single _ fst (l, c) cs N H). cbn [flat_map fst snd].
  rewrite app_nil_r. reflexivity.
Qed.

(* writing and reading back: the same languages in the same order with the same cue lists *)
Theorem dfxp_roundtrip_unforced : forall default force cs, NoDup (languages cs) -> mem force (languages cs) = false ->
  dfxp_read default (dfxp_write force cs) = cs.
Proof.
  intros default force cs N H. rewrite dfxp_read_groups. unfold dfxp_write. rewrite H. cbn [d_divs d_tt].
  rewrite map_map. cbn [fst snd effective_lang]. rewrite (map_get_all cs N). apply spec_group_grouped, N.
Qed.
Theorem dfxp_roundtrip_langs : forall default cs, NoDup (languages cs) -> mem [] (languages cs) = false ->
  dfxp_read default (dfxp_write [] cs) = cs.
Proof. intros default. apply dfxp_roundtrip_unforced. Qed.
Theorem dfxp_roundtrip_force : forall default force cs, mem force (languages cs) = true ->
  dfxp_read default (dfxp_write force cs) = [(force, get_captions cs force)].
Proof. intros default force cs H. rewrite (proj1 (force_selects force cs H)). reflexivity. Qed.

(* ---- WebVTT lang= --------------------------------------------------------------------------------------- *)
Theorem vtt_lang_option : forall l cs c, NoDup (languages cs) -> In (l, c) cs -> vtt_select (Some l) cs = Ok c.
Proof. intros l cs c N H. unfold vtt_select. rewrite (get_captions_nodup cs l c N H). reflexivity. Qed.
Theorem vtt_lang_default : forall l c cs, vtt_select None ((l, c) :: cs) = Ok c.
Proof. intros. unfold vtt_select, get_captions. cbn [dict_get]. rewrite str_eqb_refl. reflexivity. Qed.

(* ---- SAMI read ---------------------------------------------------------------------------------------------- *)
Definition tag_of (default : str) (styles : sami_styles) (p : sami_p) : str := p_lang default (sp_attrs p) styles.

Lemma sami_read_by_tag : forall default styles ps,
  sami_read default styles ps
  = map (fun l => (l, map (fun p => (sp_start p * 1000, sp_text p))
                          (filter (fun p => str_eqb (tag_of default styles p) l && negb (is_blank_text (sp_text p))) ps)))
        (first_appearance (map (tag_of default styles) ps)).
Proof.
  intros. unfold sami_read. rewrite map_map. apply map_ext. intros l. rewrite filter_map_swap, map_map. reflexivity.
Qed.

Theorem sami_read_order : forall default styles ps,
  languages (sami_read default styles ps) = first_appearance (map (tag_of default styles) ps)
  /\ NoDup (languages (sami_read default styles ps)).
Proof.
  intros.
  assert (E : languages (sami_read default styles ps) = first_appearance (map (tag_of default styles) ps)).
  { rewrite sami_read_by_tag. unfold languages. rewrite map_map. apply map_id. }
  split; [exact E|]. rewrite E. apply first_appearance_spec.
Qed.

(* the cue list of a language is exactly the non-blank paragraphs resolved to that language, in document order *)
Theorem sami_read_lists : forall default styles ps l,
  In l (languages (sami_read default styles ps)) ->
  get_captions (sami_read default styles ps) l
  = map (fun p => (sp_start p * 1000, sp_text p))
        (filter (fun p => str_eqb (tag_of default styles p) l && negb (is_blank_text (sp_text p))) ps).
Proof.
  intros default styles ps l H. destruct (sami_read_order default styles ps) as [E N].
  apply get_captions_nodup; [exact N|]. rewrite E in H. rewrite sami_read_by_tag.
  apply (in_map (fun l => (l, _)) _ _ H).
Qed.

(* partition: summed over the languages listed, every non-blank paragraph is counted exactly once *)
Theorem sami_read_partition : forall default styles ps,
  fold_right (fun lc n => (length (snd lc) + n)%nat) 0%nat (sami_read default styles ps)
  = length (filter (fun p => negb (is_blank_text (sp_text p))) ps).
Proof.
  intros default styles ps. rewrite sami_read_by_tag.
  destruct (first_appearance_spec (map (tag_of default styles) ps)) as [N M].
  transitivity (fold_right (fun l n => (length (filter (fun p => str_eqb (tag_of default styles p) l
                                                            && negb (is_blank_text (sp_text p))) ps) + n)%nat)
                           0%nat (first_appearance (map (tag_of default styles) ps))).
  - clear. induction (first_appearance (map (tag_of default styles) ps)) as [|l r IH]; [reflexivity|].
    cbn [map fold_right snd]. rewrite map_length, IH. reflexivity.
  - rewrite (group_sizes _ _ _ ps _ N). f_equal. apply filter_ext_in. intros p Hp.
    rewrite (proj2 (mem_In _ _)) by (apply M, in_map, Hp). reflexivity.
Qed.

(* ---- _find_lang: a class that declares no language (or is unknown) does not end the lookup ---------------------- *)
Theorem find_lang_class_falls_through : forall name value rest styles,
  str_eqb (lower name) (lit "lang") = false -> str_eqb (lower name) (lit "class") = true ->
  (dict_get (lower value) styles = None \/ dict_get (lower value) styles = Some None) ->
  find_lang ((name, value) :: rest) styles = find_lang rest styles.
Proof. intros name value rest styles H1 H2 [H3|H3]; cbn [find_lang]; rewrite H1, H2, H3; reflexivity. Qed.

Theorem find_lang_inline : forall name value rest styles,
  str_eqb (lower name) (lit "lang") = true -> find_lang ((name, value) :: rest) styles = Some (firstn 2 value).
Proof. intros name value rest styles H. cbn [find_lang]. rewrite H. reflexivity. Qed.

Theorem find_lang_class_with_lang : forall name value l rest styles,
  str_eqb (lower name) (lit "lang") = false -> str_eqb (lower name) (lit "class") = true ->
  dict_get (lower value) styles = Some (Some l) -> find_lang ((name, value) :: rest) styles = Some l.
Proof. intros name value l rest styles H1 H2 H3. cbn [find_lang]. rewrite H1, H2, H3. reflexivity. Qed.

(* ---- the models meet the oracles ---------------------------------------------------------------------------- *)
(* SAMI read: the model equals the specification's grouping of the tagged paragraphs, blank paragraphs counting for
   the order of languages only - for every document *)
Definition sami_tagged (default : str) (styles : sami_styles) (ps : list sami_p) : list (str * scue * bool) :=
  map (fun p => (tag_of default styles p, (sp_start p * 1000, sp_text p), is_blank_text (sp_text p))) ps.

Theorem sami_read_groups : forall default styles ps,
  sami_read default styles ps
  = spec_group (map (fun t : str * scue * bool => (fst (fst t), if snd t then @nil scue else [snd (fst t)]))
                    (sami_tagged default styles ps)).
Proof.
  intros default styles ps. unfold sami_tagged. rewrite map_map. cbn [fst snd].
  rewrite (spec_group_map _ (tag_of default styles)), sami_read_by_tag, first_appearance_uniq.
  apply map_ext. intros l. f_equal. induction ps as [|p t IH]; [reflexivity|]. cbn [filter].
  destruct (str_eqb (tag_of default styles p) l); cbn [andb flat_map]; [|exact IH].
  destruct (is_blank_text (sp_text p)); cbn [negb map app]; rewrite IH; reflexivity.
Qed.

Theorem sami_read_meets_oracle : forall default styles ps,
  ok_sami_read (sami_tagged default styles ps) (sami_read default styles ps) = true.
Proof. intros. unfold ok_sami_read. rewrite sami_read_groups. apply sset_eqb_refl. Qed.

(* DFXP write: the divs written, as (language, cues) *)
Definition doc_sset (d : dfxp_doc) : sset :=
  map (fun dv => (match fst dv with Some l => l | None => [] end, snd dv)) (d_divs d).

Lemma subseq_refl : forall cs, subseq cs cs = true.
Proof. induction cs as [|c t IH]; [reflexivity|]. cbn [subseq]. rewrite lang_eqb_refl. exact IH. Qed.
Lemma subseq_single : forall cs c, In c cs -> subseq [c] cs = true.
Proof.
  induction cs as [|x t IH]; intros c H; [destruct H|]. cbn [subseq]. destruct (lang_eqb c x) eqn:E; [destruct t; reflexivity|].
  destruct H as [H|H]; [subst; rewrite lang_eqb_refl in E; discriminate|apply IH, H].
Qed.
Lemma get_in : forall cs l, NoDup (languages cs) -> mem l (languages cs) = true -> In (l, get_captions cs l) cs.
Proof.
  intros cs l N H. apply mem_In in H. unfold languages in H. apply in_map_iff in H. destruct H as [[k c] [E H]].
  cbn [fst] in E. subst k. rewrite (get_captions_nodup cs l c N H). exact H.
Qed.
Lemma doc_sset_all : forall cs tt, NoDup (languages cs) ->
  doc_sset (mkDfxp tt (map (fun l => (Some l, get_captions cs l)) (languages cs))) = cs.
Proof. intros cs tt N. unfold doc_sset. cbn [d_divs]. rewrite map_map. cbn [fst snd]. apply map_get_all. exact N. Qed.

(* the two shapes of what a writer puts out: every language, or one language of the set *)
Lemma ok_write_all : forall force cs, mem force (languages cs) = false -> ok_dfxp_write force cs cs = true.
Proof.
  intros force cs M. unfold ok_dfxp_write. change (smem force (map fst cs)) with (mem force (languages cs)).
  rewrite M, subseq_refl. destruct force; [apply sset_eqb_refl|reflexivity].
Qed.
Lemma ok_write_one : forall force cs l, NoDup (languages cs) -> mem l (languages cs) = true ->
  (if mem force (languages cs) then l = force else force <> []) ->
  ok_dfxp_write force cs [(l, get_captions cs l)] = true.
Proof.
  intros force cs l N Hl Hf. unfold ok_dfxp_write. change (smem force (map fst cs)) with (mem force (languages cs)).
  apply andb_true_intro. split; [apply subseq_single, get_in; assumption|]. destruct (mem force (languages cs)).
  - rewrite Hf. apply str_eqb_refl.
  - destruct force; [contradiction|reflexivity].
Qed.

Theorem dfxp_write_meets_oracle : forall force cs, NoDup (languages cs) ->
  ok_dfxp_write force cs (doc_sset (dfxp_write force cs)) = true.
Proof.
  intros force cs N. unfold dfxp_write. destruct (mem force (languages cs)) eqn:M.
  - apply (ok_write_one force cs force N M). rewrite M. reflexivity.
  - rewrite (doc_sset_all cs _ N). apply ok_write_all, M.
Qed.

(* legacy writer: `if force:` - an empty force writes every language; an absent one the last language *)
Theorem legacy_write_meets_oracle : forall force cs d, NoDup (languages cs) -> mem [] (languages cs) = false ->
  legacy_write force cs = Ok d -> ok_dfxp_write force cs (doc_sset d) = true.
Proof.
  intros force cs d N E0 H. unfold legacy_write in H. destruct force as [|c0 f].
  - injection H as <-. rewrite (doc_sset_all cs _ N). apply ok_write_all, E0.
  - destruct (mem (c0 :: f) (languages cs)) eqn:M.
    + injection H as <-. apply (ok_write_one (c0 :: f) cs (c0 :: f) N M). rewrite M. reflexivity.
    + destruct (rev (languages cs)) as [|l r] eqn:R; [discriminate|]. injection H as <-.
      apply (ok_write_one (c0 :: f) cs l N); [|rewrite M; discriminate].
      apply mem_In, in_rev. rewrite R. left. reflexivity.
Qed.

(* language pick (WebVTT lang=) *)
Theorem vtt_select_meets_oracle : forall lang cs obs, NoDup (languages cs) -> vtt_select lang cs = Ok obs ->
  ok_pick lang cs obs = true.
Proof.
  intros lang cs obs _ H. unfold vtt_select in H. unfold ok_pick. destruct lang as [l|].
  - injection H as <-. clear. unfold get_captions.
    induction cs as [|[k c] t IH]; [reflexivity|]. cbn [filter fst dict_get].
    destruct (str_eqb k l); [|exact IH]. apply list_eqb_refl, cue_eqb_refl.
  - destruct cs as [|[l c] t]; [discriminate|]. injection H as <-. unfold get_captions. cbn [dict_get snd].
    rewrite str_eqb_refl. apply list_eqb_refl, cue_eqb_refl.
Qed.

(* ---- the class layer of the SAMI writer: the class written on a paragraph resolves to its language ------------- *)
(* a language gets no block of its own when a style of its name declares it *)
Definition declared (styles : list (str * option str)) (l : str) : bool :=
  match dict_get l styles with Some (Some l') => str_eqb l' l | _ => false end.

(* the blocks are looked up last first; the styles' blocks repeat no class, the languages' blocks all say (l, l) *)
Lemma style_blocks_resolve : forall (styles : list (str * option str)) c, NoDup (map fst styles) ->
  dict_get c (rev (flat_map (fun cl => match snd cl with Some l => [(fst cl, l)] | None => [] end) styles))
  = match dict_get c styles with Some (Some l) => Some l | _ => None end.
Proof.
  induction styles as [|[k o] t IH]; intros c N; [reflexivity|]. inversion N as [|? ? N1 N2]; subst.
  cbn [flat_map fst snd]. rewrite rev_app_distr, dict_get_app, (IH c N2). cbn [dict_get].
  destruct (str_eqb_spec k c) as [->|Ne].
  - rewrite (dict_get_notin _ c t N1). destruct o; cbn [rev app dict_get]; rewrite ?str_eqb_refl; reflexivity.
  - apply str_eqb_false_iff in Ne. destruct (dict_get c t) as [[l|]|]; try reflexivity;
      destruct o; cbn [rev app dict_get]; rewrite ?Ne; reflexivity.
Qed.
Lemma lang_blocks_resolve : forall (styles : list (str * option str)) langs c,
  dict_get c (rev (flat_map (fun l => if declared styles l then [] else [(l, l)]) langs))
  = if mem c langs && negb (declared styles c) then Some c else None.
Proof.
  induction langs as [|l t IH]; intros c; [reflexivity|]. cbn [flat_map]. rewrite rev_app_distr, dict_get_app, IH.
  unfold mem. cbn [existsb]. rewrite (str_eqb_sym c l). destruct (str_eqb_spec l c) as [->|Ne]; cbn [orb].
  - destruct (existsb (str_eqb c) t), (declared styles c); cbn [andb negb rev app dict_get]; rewrite ?str_eqb_refl; reflexivity.
  - destruct (existsb (str_eqb c) t && negb (declared styles c)); [reflexivity|]. apply str_eqb_false_iff in Ne.
    destruct (declared styles l); cbn [rev app dict_get]; rewrite ?Ne; reflexivity.
Qed.
Lemma sheet_resolves : forall styles langs c, NoDup (map fst styles) ->
  resolve_class c (sheet_langs styles langs)
  = if mem c langs && negb (declared styles c) then Some c
    else match dict_get c styles with Some (Some l) => Some l | _ => None end.
Proof.
  intros styles langs c N. unfold resolve_class, sheet_langs.
  rewrite rev_app_distr, dict_get_app, (style_blocks_resolve styles c N).
  rewrite (flat_map_ext _ (fun l => if declared styles l then [] else [(l, l)])), lang_blocks_resolve.
  - destruct (mem c langs && negb (declared styles c)); reflexivity.
  - intros l. unfold declared. destruct (dict_get l styles) as [[l'|]|]; reflexivity.
Qed.

(* for every language l of the set: whatever class the caption carries, the class the (repaired) writer puts on the
   paragraph resolves - through the stylesheet it writes, later blocks winning - to l.  Hypothesis: a style named like a
   language of the set does not declare a DIFFERENT language (otherwise two blocks of one class name contradict) *)
Theorem class_resolves : forall styles langs l cap_class,
  NoDup (map fst styles) -> NoDup langs -> In l langs ->
  (forall l0 l', In l0 langs -> dict_get l0 styles = Some (Some l') -> l' = l0) ->
  resolve_class (p_class l cap_class styles) (sheet_langs styles langs) = Some l.
Proof.
  intros styles langs l cap_class Ns _ Hl Hc.
  assert (Own : resolve_class l (sheet_langs styles langs) = Some l).
  { rewrite (sheet_resolves styles langs l Ns), (proj2 (mem_In l langs) Hl). unfold declared.
    destruct (dict_get l styles) as [[l'|]|]; try reflexivity. destruct (str_eqb_spec l' l) as [->|_]; reflexivity. }
  unfold p_class. destruct cap_class as [c|]; [|exact Own].
  destruct (dict_get c styles) as [[l0|]|] eqn:D; try exact Own.
  destruct (str_eqb_spec l0 l) as [->|_]; [|exact Own].
  (* the caption's class declares l: as a language of the set it is l itself; its own block, or the style's, says l *)
  rewrite (sheet_resolves styles langs c Ns). unfold declared. rewrite D.
  destruct (mem c langs) eqn:M; [|reflexivity]. apply mem_In in M. rewrite (Hc c l M D), str_eqb_refl. reflexivity.
Qed.
