(* C14: merge_concurrent_captions (model.LangsMerge) against the specification's grouping of equal-span runs. *)
From Coq Require Import List ZArith Lia Bool ZifyBool.
From PV Require Import lib.Sx lib.Str lib.StrFacts lib.Result model.Langs spec.SpecLangs spec.SpecFindLang model.LangsMerge proofs.LangsFacts proofs.FindLangFacts.
Import ListNotations.
Open Scope Z_scope.

Lemma same_span_eq : forall a b : mcue, same_span a b = true <-> fst a = fst b.
Proof.
  intros [[s1 e1] n1] [[s2 e2] n2]. unfold same_span, mc_start, mc_end. cbn [fst snd]. split; intros H.
  - f_equal; lia.
  - inversion H; subst. lia.
Qed.
Lemma same_span_spec : forall a b : mcue, reflect (fst a = fst b) (same_span a b).
Proof. intros a b. apply iff_reflect. symmetry. apply same_span_eq. Qed.

Lemma spec_merge_cons : forall (c : mcue) t,
  spec_merge (c :: t) = match spec_merge t with
                        | m :: r => if same_span c m then (fst c, join_nodes (snd c) (snd m)) :: r else c :: m :: r
                        | [] => [c]
                        end.
Proof. intros [[s e] n] t. reflexivity. Qed.

Lemma spec_merge_hd : forall (c : mcue) t, exists m r, spec_merge (c :: t) = m :: r /\ fst m = fst c.
Proof.
  intros c t. rewrite spec_merge_cons. destruct (spec_merge t) as [|m r]; [exists c, []; split; reflexivity|].
  destruct (same_span c m); eexists; eexists; split; reflexivity.
Qed.
Lemma spec_merge_nil : forall caps, spec_merge caps = [] -> caps = [].
Proof. intros [|c t] H; [reflexivity|]. destruct (spec_merge_hd c t) as [m [r [Q _]]]. rewrite H in Q. discriminate. Qed.

Lemma spec_merge_cons_other : forall (x : mcue) caps, match caps with [] => True | c :: _ => fst c <> fst x end ->
  spec_merge (x :: caps) = x :: spec_merge caps.
Proof.
  intros x [|c t] H; [reflexivity|]. rewrite spec_merge_cons. destruct (spec_merge_hd c t) as [m [r [S Q]]]. rewrite S.
  destruct (same_span_spec x m) as [E|_]; [congruence|reflexivity].
Qed.

Lemma spans_differ_hd : forall (a a' : mcue) r, fst a = fst a' -> spans_differ (a :: r) = spans_differ (a' :: r).
Proof.
  intros a a' [|b r] E; [reflexivity|]. cbn [spans_differ]. unfold same_span, mc_start, mc_end. rewrite E. reflexivity.
Qed.

(* in the grouped list no two neighbours share a span *)
Theorem spec_merge_spans_differ : forall caps, spans_differ (spec_merge caps) = true.
Proof.
  induction caps as [|c t IH]; [reflexivity|]. rewrite spec_merge_cons. destruct (spec_merge t) as [|m r]; [reflexivity|].
  destruct (same_span c m) eqn:E.
  - rewrite <- IH. apply spans_differ_hd. apply same_span_eq, E.
  - change (negb (same_span c m) && spans_differ (m :: r) = true). rewrite E, IH. reflexivity.
Qed.

Definition node_texts (ns : list mnode) : list str := flat_map (fun n => match n with Some t => [t] | None => [] end) ns.
Lemma texts_of_cons : forall (c : mcue) t, texts_of (c :: t) = node_texts (snd c) ++ texts_of t.
Proof. reflexivity. Qed.

(* the texts of the language, in order, are conserved: none lost, repeated, or reordered *)
Theorem spec_merge_texts : forall caps, texts_of (spec_merge caps) = texts_of caps.
Proof.
  induction caps as [|c t IH]; [reflexivity|]. rewrite spec_merge_cons, (texts_of_cons c t), <- IH.
  destruct (spec_merge t) as [|m r]; [reflexivity|]. destruct (same_span c m); [|reflexivity].
  rewrite !texts_of_cons. unfold join_nodes, node_texts. cbn [snd]. rewrite flat_map_app. cbn [flat_map app].
  rewrite <- app_assoc. reflexivity.
Qed.

(* a list without equal-span neighbours is left alone; hence grouping twice = grouping once *)
Theorem spec_merge_no_runs_id : forall caps, spans_differ caps = true -> spec_merge caps = caps.
Proof.
  induction caps as [|a t IH]; intros H; [reflexivity|]. destruct t as [|b t]; [reflexivity|].
  change (negb (same_span a b) && spans_differ (b :: t) = true) in H. apply andb_prop in H. destruct H as [H1 H2].
  rewrite spec_merge_cons_other, (IH H2); [reflexivity|].
  destruct (same_span_spec a b) as [_|N]; [discriminate|]. congruence.
Qed.
Theorem spec_merge_idempotent : forall caps, spec_merge (spec_merge caps) = spec_merge caps.
Proof. intros. apply spec_merge_no_runs_id. apply spec_merge_spans_differ. Qed.

(* the spans of the output are the spans of the input with neighbouring repetitions dropped *)
Fixpoint squeeze (l : list (Z * Z)) : list (Z * Z) :=
  match l with
  | a :: ((b :: _) as t) => if (fst a =? fst b) && (snd a =? snd b) then squeeze t else a :: squeeze t
  | _ => l
  end.
Theorem spec_merge_spans : forall caps : list mcue, map fst (spec_merge caps) = squeeze (map fst caps).
Proof.
  induction caps as [|c t IH]; [reflexivity|]. destruct t as [|b t]; [reflexivity|]. rewrite spec_merge_cons.
  destruct (spec_merge_hd b t) as [m [r [Sm Hd]]]. rewrite Sm in *.
  change (squeeze (map fst (c :: b :: t)))
    with (if (fst (fst c) =? fst (fst b)) && (snd (fst c) =? snd (fst b)) then squeeze (map fst (b :: t)) else fst c :: squeeze (map fst (b :: t))).
  rewrite <- IH, <- Hd. change (_ && _) with (same_span c m).
  destruct (same_span_spec c m) as [E|_]; [|reflexivity]. cbn [map fst]. rewrite E. reflexivity.
Qed.

(* ---- the loop of pycaption = the specification's grouping -------------------------------------------------- *)
Definition joinr (run : list cap) : list node :=
  match run with
  | [] => []
  | x :: t => cap_nodes x ++ flat_map (fun y => None :: cap_nodes y) t
  end.

(* concurrent_captions between two pushes: not empty, of one span, every caption with a node *)
Definition run_of (sp : Z * Z) (conc : list cap) : Prop :=
  conc <> [] /\ forall x, In x conc -> fst x = sp /\ cap_nodes x <> [].

Lemma run_of_single : forall c : cap, cap_nodes c <> [] -> run_of (fst c) [c].
Proof. intros c H. split; [discriminate|]. intros x [<-|[]]. split; [reflexivity|exact H]. Qed.
Lemma run_of_snoc : forall sp conc (c : cap), run_of sp conc -> fst c = sp -> cap_nodes c <> [] -> run_of sp (conc ++ [c]).
Proof.
  intros sp conc c [Ne All] E H. split; [destruct conc; discriminate|].
  intros x Hx. apply in_app_iff in Hx. destruct Hx as [Hx|[<-|[]]]; [apply All, Hx|split; assumption].
Qed.

Lemma run_then_other : forall (conc : list cap) sp, run_of sp conc ->
  forall caps : list cap, match caps with [] => True | c :: _ => fst c <> sp end ->
  spec_merge (conc ++ caps) = (sp, joinr conc) :: spec_merge caps.
Proof.
  induction conc as [|x t IH]; intros sp [Ne All] caps Hd; [contradiction|].
  destruct (All x (or_introl eq_refl)) as [<- _]. destruct t as [|y t].
  - cbn [app joinr flat_map]. rewrite spec_merge_cons_other, app_nil_r by exact Hd. destruct x as [sp n]. reflexivity.
  - change ((x :: y :: t) ++ caps) with (x :: (y :: t) ++ caps).
    rewrite spec_merge_cons, (IH (fst x)); [|split; [discriminate|intros z Hz; apply All; right; exact Hz]|exact Hd].
    destruct (same_span_spec x (fst x, joinr (y :: t))) as [_|N]; [reflexivity|destruct N; reflexivity].
Qed.

Lemma merge_nodes_acc : forall (run : list cap) acc, acc <> [] ->
  fold_left (fun acc c => (match acc with [] => acc | _ => acc ++ [None] end) ++ cap_nodes c) run acc
  = acc ++ flat_map (fun y => None :: cap_nodes y) run.
Proof.
  induction run as [|x t IH]; intros acc Ne; cbn [fold_left flat_map]; [rewrite app_nil_r; reflexivity|].
  destruct acc as [|a acc]; [contradiction|]. rewrite IH by discriminate. rewrite <- !app_assoc. reflexivity.
Qed.

Lemma push_run_spec : forall (conc : list cap) sp merged, run_of sp conc -> push_run conc merged = merged ++ [(sp, joinr conc)].
Proof.
  intros [|c t] sp merged [Ne All]; [contradiction|]. destruct (All c (or_introl eq_refl)) as [<- Nn].
  unfold push_run, merge_run, merge_nodes. cbn [fold_left app joinr]. rewrite (merge_nodes_acc t _ Nn).
  destruct c as [[s e] n]. reflexivity.
Qed.

Lemma close_run : forall (conc : list cap) sp merged caps, run_of sp conc ->
  match caps with [] => True | c :: _ => fst c <> sp end ->
  push_run conc merged ++ spec_merge caps = merged ++ spec_merge (conc ++ caps).
Proof.
  intros conc sp merged caps R Hd. rewrite (push_run_spec conc sp merged R), (run_then_other conc sp R caps Hd), <- app_assoc.
  reflexivity.
Qed.

Definition finish (st : merge_state) : list cap :=
  match st with (_, conc, merged) => match conc with [] => merged | _ => push_run conc merged end end.

Lemma loop_inv : forall (caps : list cap) lc conc merged, run_of (fst lc) conc ->
  (forall x, In x caps -> cap_nodes x <> []) ->
  finish (fold_left merge_step caps (Some lc, conc, merged)) = merged ++ spec_merge (conc ++ caps).
Proof.
  induction caps as [|c t IH]; intros lc conc merged R Nc.
  - rewrite <- (close_run conc (fst lc) merged [] R I), app_nil_r. cbn [fold_left finish].
    destruct conc; [destruct R as [[] _]|]; reflexivity.
  - cbn [fold_left merge_step]. change (_ && _) with (same_span c lc).
    pose proof (Nc c (or_introl eq_refl)) as Nn. pose proof (fun x Hx => Nc x (or_intror Hx)) as Nt.
    destruct (same_span_spec c lc) as [E|N].
    + rewrite IH, <- app_assoc; [reflexivity| |exact Nt]. rewrite E. apply run_of_snoc; assumption.
    + rewrite IH; [|apply run_of_single, Nn|exact Nt]. apply (close_run conc (fst lc) merged (c :: t) R N).
Qed.

(* the loop with last_caption / concurrent_captions / merged_captions computes the grouping of the specification,
   for every caption list whose captions have at least one node (the Caption constructor refuses an empty node list) *)
Theorem merge_lang_is_spec : forall caps : list cap, (forall x, In x caps -> cap_nodes x <> []) -> merge_lang caps = spec_merge caps.
Proof.
  intros [|c t] Nn; [reflexivity|]. unfold merge_lang. cbn [fold_left merge_step].
  change (finish (fold_left merge_step t (Some c, [c], [])) = spec_merge (c :: t)).
  apply (loop_inv t c [c] []); [apply run_of_single, Nn; left; reflexivity|]. intros x Hx. apply Nn. right. exact Hx.
Qed.

Definition nodes_nonempty (cs : list (str * list cap)) : Prop :=
  forall l caps x, In (l, caps) cs -> In x caps -> cap_nodes x <> [].

Theorem merge_concurrent_is_spec : forall cs, nodes_nonempty cs -> merge_concurrent cs = spec_merge_set cs.
Proof.
  intros cs H. unfold merge_concurrent, spec_merge_set. apply map_ext_in. intros [l caps] Hin. cbn [fst snd]. f_equal.
  rewrite merge_lang_is_spec by (intros x Hx; eapply H; eassumption).
  destruct (spec_merge caps) eqn:E; [|reflexivity]. apply spec_merge_nil in E. exact E.
Qed.

(* languages are not touched, and every language keeps exactly its texts in order: no cue moves to another language *)
Theorem merge_concurrent_keeps_languages : forall cs, nodes_nonempty cs ->
  map (fun lc => (fst lc, texts_of (snd lc))) (merge_concurrent cs) = map (fun lc => (fst lc, texts_of (snd lc))) cs.
Proof.
  intros cs H. rewrite merge_concurrent_is_spec by exact H. unfold spec_merge_set. rewrite map_map. apply map_ext.
  intros [l caps]. cbn [fst snd]. rewrite spec_merge_texts. reflexivity.
Qed.

(* a grouped caption has a node: merging again is within the theorem above *)
Lemma spec_merge_nonempty : forall caps : list cap, (forall x, In x caps -> cap_nodes x <> []) ->
  forall x, In x (spec_merge caps) -> cap_nodes x <> [].
Proof.
  induction caps as [|c t IH]; intros H x Hx; [destruct Hx|]. rewrite spec_merge_cons in Hx.
  specialize (IH (fun y Hy => H y (or_intror Hy))). destruct (spec_merge t) as [|m r].
  - destruct Hx as [<-|[]]. apply H. left. reflexivity.
  - destruct (same_span c m).
    + destruct Hx as [<-|Hx]; [|apply IH; right; exact Hx].
      unfold cap_nodes, join_nodes. cbn [snd]. intros Q. apply app_eq_nil in Q. destruct Q as [_ Q]. discriminate.
    + destruct Hx as [<-|Hx]; [apply H; left; reflexivity|apply IH; exact Hx].
Qed.

Theorem merge_concurrent_idempotent : forall cs, nodes_nonempty cs -> merge_concurrent (merge_concurrent cs) = merge_concurrent cs.
Proof.
  intros cs H. rewrite (merge_concurrent_is_spec cs H), merge_concurrent_is_spec.
  - unfold spec_merge_set. rewrite map_map. apply map_ext. intros [l caps]. cbn [fst snd]. rewrite spec_merge_idempotent. reflexivity.
  - intros l caps x Hin. unfold spec_merge_set in Hin. apply in_map_iff in Hin. destruct Hin as [[l0 caps0] [E Hin]].
    injection E as _ <-. apply spec_merge_nonempty. intros y Hy. exact (H l0 caps0 y Hin Hy).
Qed.

Lemma mnodes_eqb_refl : forall l, mnodes_eqb l l = true.
Proof. induction l as [|[x|] l IH]; [reflexivity| |]; cbn; rewrite ?str_eqb_refl, IH; reflexivity. Qed.
Lemma mcues_eqb_refl : forall l, mcues_eqb l l = true.
Proof.
  induction l as [|x l IH]; [reflexivity|]. cbn [mcues_eqb]. unfold mcue_eqb.
  rewrite (proj2 (same_span_eq x x) eq_refl), mnodes_eqb_refl, IH. reflexivity.
Qed.
Lemma mset_eqb_refl : forall s, mset_eqb s s = true.
Proof. induction s as [|x s IH]; [reflexivity|]. cbn [mset_eqb]. rewrite str_eqb_refl, mcues_eqb_refl, IH. reflexivity. Qed.

Lemma spec_merge_set_names : forall cs, map fst (spec_merge_set cs) = map fst cs.
Proof. intros. unfold spec_merge_set. rewrite map_map. reflexivity. Qed.

Theorem merge_concurrent_meets_oracle : forall cs, nodes_nonempty cs -> ok_merge cs (merge_concurrent cs) = true.
Proof.
  intros cs H. rewrite merge_concurrent_is_spec by exact H. unfold ok_merge.
  rewrite spec_merge_set_names, strs_eqb_refl, mset_eqb_refl. cbn [andb]. unfold spec_merge_set. rewrite forallb_forall.
  intros x Hx. apply in_map_iff in Hx. destruct Hx as [[l caps] [<- _]]. cbn [snd]. apply spec_merge_spans_differ.
Qed.

(* ---- the writers that merge first ------------------------------------------------------------------------------ *)
Lemma flat_set_languages : forall cs, languages (flat_set cs) = map fst cs.
Proof. intros. unfold languages, flat_set. rewrite map_map. reflexivity. Qed.

(* what is written is judged against the GROUPED set: the divs are its languages in order with identical cue lists,
   a present force selects exactly that language *)
Theorem single_write_meets_oracle : forall force cs, nodes_nonempty cs -> NoDup (map fst cs) ->
  ok_dfxp_write force (flat_set (spec_merge_set cs)) (doc_sset (single_write force cs)) = true.
Proof.
  intros force cs Nn N. unfold single_write. rewrite merge_concurrent_is_spec by exact Nn.
  apply dfxp_write_meets_oracle. rewrite flat_set_languages, spec_merge_set_names. exact N.
Qed.
Theorem legacy_merge_write_meets_oracle : forall force cs d, nodes_nonempty cs -> NoDup (map fst cs) ->
  mem [] (map fst cs) = false -> legacy_merge_write force cs = Ok d ->
  ok_dfxp_write force (flat_set (spec_merge_set cs)) (doc_sset d) = true.
Proof.
  intros force cs d Nn N Ne H. unfold legacy_merge_write in H. rewrite merge_concurrent_is_spec in H by exact Nn.
  apply legacy_write_meets_oracle in H; [exact H| |]; rewrite flat_set_languages, spec_merge_set_names; assumption.
Qed.
(* write (single-positioning writer, no force), then read: the grouped set comes back - same languages, same order,
   each language with its grouped cue list *)
Theorem single_write_roundtrip : forall default cs, nodes_nonempty cs -> NoDup (map fst cs) -> mem [] (map fst cs) = false ->
  dfxp_read default (single_write [] cs) = flat_set (spec_merge_set cs).
Proof.
  intros default cs Nn N Ne. unfold single_write. rewrite merge_concurrent_is_spec by exact Nn.
  apply dfxp_roundtrip_langs; rewrite flat_set_languages, spec_merge_set_names; assumption.
Qed.
