(* Facts about the text-level front end of the SCC reader (model/SccTokenise.v):
   tokenise (render ls) = ls for the canonical SCC text and its upper-case / CRLF / CR variants, so that
   every statement about `read off ls` is a statement about the SCC TEXT `render ls`. *)
From Coq Require Import List ZArith Lia Bool ZifyBool QArith.
From PV Require Import lib.Sx lib.Str lib.StrFacts model.SccDecoder model.SccTokenise proofs.TimeStrFacts proofs.TextLinesFacts.
Import ListNotations.
Open Scope Z_scope.

Lemma lstrip_by_app_stop f a c r :
  f c = false -> lstrip_by f (a ++ c :: r) <> [].
Proof.
  induction a as [|x a IH]; simpl; intros Hc.
  - rewrite Hc. discriminate.
  - destruct (f x); [apply IH; assumption | discriminate].
Qed.

Lemma strip_by_nonempty f c r : f c = false -> strip_by f (c :: r) <> [].
Proof.
  intros Hc. unfold strip_by, rstrip_by. cbn [lstrip_by]. rewrite Hc.
  simpl rev at 2. intros H. apply (f_equal (@rev Z)) in H. rewrite rev_involutive in H. simpl in H.
  revert H. apply lstrip_by_app_stop. assumption.
Qed.

Lemma map_join {f : Z -> Z} sep l : map f (join sep l) = join (map f sep) (map (map f) l).
Proof.
  induction l as [|a l IH]; [reflexivity|].
  destruct l as [|b l]; [reflexivity|].
  change (join sep (a :: b :: l)) with (a ++ sep ++ join sep (b :: l)).
  rewrite !map_app, IH. reflexivity.
Qed.

Lemma forallb_join f sep l :
  forallb f sep = true -> Forall (fun t => forallb f t = true) l -> forallb f (join sep l) = true.
Proof.
  intros Hs H. induction H as [|a l Ha Hl IH]; [reflexivity|].
  destruct l as [|b l]; [exact Ha|].
  change (join sep (a :: b :: l)) with (a ++ sep ++ join sep (b :: l)).
  rewrite !forallb_app, Ha, Hs, IH. reflexivity.
Qed.

Lemma split_ch_join sep t ts :
  Forall (fun t => forallb (fun c => negb (c =? sep)) t = true) (t :: ts) ->
  split_ch sep (join [sep] (t :: ts)) = t :: ts.
Proof.
  intros H. apply TimeStrFacts.split_ch_join; [discriminate|]. apply forallb_forall. rewrite Forall_forall in H. exact H.
Qed.

Definition no_break (s : str) : bool := forallb (fun c => negb (is_linebreak c)) s.

Definition good_eol (eol : str) : Prop := eol = eol_lf \/ eol = eol_crlf \/ eol = eol_cr.

Lemma splitlines_aux_line a eol t cur st :
  no_break a = true -> good_eol eol -> (eol = eol_cr -> hd 0 t <> 10) ->
  splitlines_aux (a ++ eol ++ t) cur st = (rev cur ++ a) :: splitlines_aux t [] false.
Proof.
  intros Ha He Ht. revert cur st. induction a as [|x a IH]; intros cur st.
  - rewrite app_nil_r. destruct He as [->|[->| ->]]; try reflexivity.
    specialize (Ht eq_refl). simpl. destruct t as [|y t]; [reflexivity|].
    simpl in Ht. destruct y as [|p|p]; try reflexivity.
    do 4 (destruct p as [p|p|]; try reflexivity). congruence.
  - simpl in Ha. apply andb_true_iff in Ha. destruct Ha as [Hx Ha].
    simpl. destruct (is_linebreak x); [discriminate|]. rewrite IH by assumption.
    simpl. rewrite <- app_assoc. reflexivity.
Qed.

Lemma splitlines_line a eol t :
  no_break a = true -> good_eol eol -> (eol = eol_cr -> hd 0 t <> 10) ->
  splitlines (a ++ eol ++ t) = a :: splitlines t.
Proof. intros. unfold splitlines. rewrite splitlines_aux_line by assumption. reflexivity. Qed.

Lemma tc_char_facts c :
  is_tc_char c = true ->
  is_space c = false /\ is_linebreak c = false /\ lower_ch c = c /\ c <> 10.
Proof.
  unfold is_tc_char, is_digit, is_space, is_linebreak, lower_ch. intros H.
  assert (48 <= c <= 59) by lia.
  repeat split; try lia.
  destruct ((65 <=? c) && (c <=? 90)) eqn:E; lia.
Qed.

Lemma hex_digit_facts up d :
  0 <= d < 16 ->
  let c := hex_digit up d in
  is_space c = false /\ is_linebreak c = false /\
  lower_ch c = hex_digit false d /\ hex_val (hex_digit false d) = Some d /\ (c =? c_sp) = false.
Proof.
  intros Hd.
  assert (E : d = 0 \/ d = 1 \/ d = 2 \/ d = 3 \/ d = 4 \/ d = 5 \/ d = 6 \/ d = 7 \/ d = 8 \/ d = 9 \/
              d = 10 \/ d = 11 \/ d = 12 \/ d = 13 \/ d = 14 \/ d = 15) by lia.
  repeat (destruct E as [E|E]; [subst d; destruct up; vm_compute; repeat split; reflexivity|]).
  subst d; destruct up; vm_compute; repeat split; reflexivity.
Qed.

Lemma hex_recompose w :
  0 <= w < 65536 ->
  ((w / 4096 * 16 + (w / 256) mod 16) * 16 + (w / 16) mod 16) * 16 + w mod 16 = w /\
  0 <= w / 4096 < 16.
Proof. intros H. Z.to_euclidean_division_equations. lia. Qed.

Lemma hex4_facts up w :
  0 <= w < 65536 ->
  lower (hex4 up w) = hex4 false w /\
  strip (hex4 false w) = hex4 false w /\
  word_of_token (hex4 false w) = w /\
  forallb (fun c => negb (c =? c_sp)) (hex4 up w) = true /\
  no_break (hex4 up w) = true /\
  is_space (hd 0 (hex4 up w)) = false.
Proof.
  intros Hw. destruct (hex_recompose w Hw) as [Hv H3].
  assert (H2 : 0 <= (w / 256) mod 16 < 16) by (apply Z.mod_pos_bound; lia).
  assert (H1 : 0 <= (w / 16) mod 16 < 16) by (apply Z.mod_pos_bound; lia).
  assert (H0 : 0 <= w mod 16 < 16) by (apply Z.mod_pos_bound; lia).
  pose proof (hex_digit_facts up _ H3) as (A3 & B3 & C3 & D3 & E3).
  pose proof (hex_digit_facts up _ H2) as (A2 & B2 & C2 & D2 & E2).
  pose proof (hex_digit_facts up _ H1) as (A1 & B1 & C1 & D1 & E1).
  pose proof (hex_digit_facts up _ H0) as (A0 & B0 & C0 & D0 & E0).
  pose proof (hex_digit_facts false _ H3) as (A3' & _).
  pose proof (hex_digit_facts false _ H2) as (A2' & _).
  pose proof (hex_digit_facts false _ H1) as (A1' & _).
  pose proof (hex_digit_facts false _ H0) as (A0' & _).
  cbv zeta in *.
  unfold hex4. repeat split.
  - cbn [lower map]. rewrite C3, C2, C1, C0. reflexivity.
  - apply strip_by_clean; [discriminate|]. cbn [forallb]. rewrite A3', A2', A1', A0'. reflexivity.
  - unfold word_of_token. rewrite D3, D2, D1, D0. exact Hv.
  - cbn [forallb]. rewrite E3, E2, E1, E0. reflexivity.
  - unfold no_break. cbn [forallb]. rewrite B3, B2, B1, B0. reflexivity.
  - exact A3.
Qed.

Lemma lower_tc tc : forallb is_tc_char tc = true -> lower tc = tc.
Proof.
  unfold lower. induction tc as [|c tc IH]; [reflexivity|]. cbn [map forallb]. intros H.
  apply andb_true_iff in H. destruct H as [Hc H]. destruct (tc_char_facts c Hc) as (_ & _ & E & _).
  rewrite E, IH by assumption. reflexivity.
Qed.

Lemma no_break_tc tc : forallb is_tc_char tc = true -> no_break tc = true.
Proof.
  induction tc as [|c tc IH]; [reflexivity|]. simpl. intros H. apply andb_true_iff in H.
  destruct H as [Hc H]. destruct (tc_char_facts c Hc) as (_ & -> & _ & _). simpl. apply IH, H.
Qed.

Lemma lower_words up ws :
  Forall (fun w => 0 <= w < 65536) ws ->
  lower (join [c_sp] (map (hex4 up) ws)) = join [c_sp] (map (hex4 false) ws).
Proof.
  intros H. unfold lower. rewrite map_join. f_equal. rewrite map_map.
  induction H as [|w ws Hw _ IH]; [reflexivity|]. cbn [map]. rewrite IH. f_equal.
  apply (hex4_facts up w Hw).
Qed.

Lemma lower_render_line up l : wf_sline l -> lower (render_line up l) = render_line false l.
Proof.
  intros (_ & Htc & Hws). unfold render_line, lower. rewrite !map_app.
  fold (lower (fst l)). rewrite lower_tc by assumption.
  fold (lower (join [c_sp] (map (hex4 up) (snd l)))). rewrite lower_words by assumption. reflexivity.
Qed.

Lemma words_of_tokens ws :
  Forall (fun w => 0 <= w < 65536) ws ->
  map word_of_token (filter is_word_token (map strip (map (hex4 false) ws))) = ws.
Proof.
  induction 1 as [|w ws Hw _ IH]; [reflexivity|].
  destruct (hex4_facts false w Hw) as (_ & Hs & Hv & _).
  cbn [map]. unfold strip in *. rewrite Hs. cbn [filter]. change (is_word_token (hex4 false w)) with true.
  cbn [map]. rewrite Hv, IH. reflexivity.
Qed.

Lemma raw_tokens_render_line up l :
  wf_sline l ->
  raw_tokens (render_line up l) = match snd l with [] => [[]] | ws => map (hex4 false) ws end.
Proof.
  intros Hwf. pose proof Hwf as (Hne & Htc & Hws). unfold raw_tokens, line_rest.
  rewrite (lower_render_line up l Hwf). unfold render_line. cbn [app].
  rewrite drop_while_stops by (assumption || reflexivity).
  destruct (snd l) as [|w ws]; [reflexivity|].
  change (drop_while is_space (c_tab :: ?x)) with (drop_while is_space x).
  inversion Hws as [|? ? Hw _]; subst. destruct (hex4_facts false w Hw) as (_ & _ & _ & _ & _ & Hh).
  assert (Hj : forall r, drop_while is_space (join [c_sp] (hex4 false w :: r)) = join [c_sp] (hex4 false w :: r)).
  { intros [|t ts]; unfold hex4 in *; cbn [hd] in Hh; cbn [join app drop_while]; rewrite Hh; reflexivity. }
  cbn [map]. rewrite Hj. apply split_ch_join. change (Forall ?P (?a :: map ?f ?t)) with (Forall P (map f (w :: ws))).
  apply Forall_map. eapply Forall_impl; [|exact Hws]. intros a Ha. apply (hex4_facts false a Ha).
Qed.

Theorem tokenise_render_line up l : wf_sline l -> tokenise_line (render_line up l) = Some l.
Proof.
  intros Hwf. pose proof Hwf as (Hne & Htc & Hws). unfold tokenise_line.
  assert (Hb : is_blank (render_line up l) = false).
  { unfold is_blank, render_line. destruct (fst l) as [|c tc]; [congruence|].
    simpl in Htc. apply andb_true_iff in Htc. destruct Htc as [Hc _].
    destruct (tc_char_facts c Hc) as (Hs & _).
    pose proof (strip_by_nonempty is_space c (tc ++ [c_tab] ++ join [c_sp] (map (hex4 up) (snd l))) Hs) as Hn.
    unfold strip. cbn [app] in *. destruct (strip_by is_space _); [congruence | reflexivity]. }
  rewrite Hb. unfold line_timecode, line_words, tokens.
  rewrite (raw_tokens_render_line up l Hwf), (lower_render_line up l Hwf). unfold render_line. cbn [app].
  rewrite take_while_stops by (assumption || reflexivity).
  destruct l as [tc [|w ws]]; [reflexivity|]. cbn [fst snd]. rewrite (words_of_tokens (w :: ws) Hws). reflexivity.
Qed.

Lemma tokenise_lines_app l1 l2 : tokenise_lines (l1 ++ l2) = tokenise_lines l1 ++ tokenise_lines l2.
Proof. unfold tokenise_lines. apply flat_map_app. Qed.

Theorem tokenise_lines_blank l1 b l2 :
  is_blank b = true -> tokenise_lines (l1 ++ b :: l2) = tokenise_lines (l1 ++ l2).
Proof.
  intros Hb. rewrite !tokenise_lines_app. f_equal. unfold tokenise_lines. cbn [flat_map].
  unfold tokenise_line at 1. rewrite Hb. reflexivity.
Qed.

(* the same on the text: a text given as lines, each one closed by the same line end *)
Definition unlines (eol : str) (lines : list str) : str := concat (map (fun l => l ++ eol) lines).

Lemma splitlines_unlines eol lines :
  good_eol eol -> Forall (fun l => no_break l = true) lines -> splitlines (unlines eol lines) = lines.
Proof.
  intros He H. induction H as [|a lines Ha Hl IH]; [reflexivity|].
  unfold unlines. cbn [map concat]. fold (unlines eol lines). rewrite <- app_assoc.
  rewrite splitlines_line; [rewrite IH; reflexivity | assumption | assumption |].
  intros ->. destruct Hl as [|b lines Hb _]; [simpl; lia|].
  unfold unlines. cbn [map concat]. destruct b as [|c b]; [simpl; unfold c_cr; lia|].
  simpl in Hb. apply andb_true_iff in Hb. destruct Hb as [Hc _]. simpl.
  intros ->. discriminate.
Qed.

Theorem tokenise_unlines eol h lines :
  good_eol eol -> Forall (fun l => no_break l = true) (h :: lines) ->
  tokenise (unlines eol (h :: lines)) = tokenise_lines lines.
Proof. intros He H. unfold tokenise. rewrite splitlines_unlines by assumption. reflexivity. Qed.

Theorem tokenise_blank_line eol h l1 b l2 :
  good_eol eol -> Forall (fun l => no_break l = true) (h :: l1 ++ b :: l2) -> is_blank b = true ->
  tokenise (unlines eol (h :: l1 ++ b :: l2)) = tokenise (unlines eol (h :: l1 ++ l2)).
Proof.
  intros He H Hb. rewrite !tokenise_unlines; try assumption.
  - apply tokenise_lines_blank, Hb.
  - inversion H as [|? ? Hh Hr]; subst. constructor; [assumption|].
    rewrite Forall_app in *. destruct Hr as [Hr1 Hr2]. inversion Hr2; subst. split; assumption.
Qed.

Lemma no_break_render_line up l : wf_sline l -> no_break (render_line up l) = true.
Proof.
  intros (_ & Htc & Hws). unfold render_line, no_break. rewrite !forallb_app.
  fold (no_break (fst l)). rewrite no_break_tc by assumption. cbn [forallb andb].
  change (negb (is_linebreak c_tab)) with true. cbn [andb]. apply forallb_join; [reflexivity|].
  induction Hws as [|w ws Hw _ IH]; constructor; [|exact IH]. apply (hex4_facts up w Hw).
Qed.

Lemma render_gen_unlines up eol ls :
  render_gen up eol ls = unlines eol (scc_header :: [] :: flat_map (fun l => [render_line up l; []]) ls).
Proof.
  unfold render_gen, unlines. cbn [map concat app]. rewrite <- app_assoc. do 3 f_equal.
  induction ls as [|l ls IH]; [reflexivity|]. cbn [map concat flat_map app]. rewrite IH, <- !app_assoc. reflexivity.
Qed.

(* all variants at once: lower / upper case digits, \n, \r\n or \r line ends *)
Theorem tokenise_render_gen up eol ls :
  good_eol eol -> Forall wf_sline ls -> tokenise (render_gen up eol ls) = ls.
Proof.
  intros He H. rewrite render_gen_unlines, tokenise_unlines; [|exact He|].
  - unfold tokenise_lines. cbn [flat_map]. change (tokenise_line []) with (@None sline). cbn [app].
    induction H as [|l ls Hl _ IH]; [reflexivity|]. cbn [flat_map app]. change (tokenise_line []) with (@None sline).
    rewrite (tokenise_render_line up l Hl). cbn [app]. rewrite IH. reflexivity.
  - do 2 (constructor; [reflexivity|]). induction H as [|l ls Hl _ IH]; [constructor|]. cbn [flat_map app].
    constructor; [apply no_break_render_line, Hl|]. constructor; [reflexivity|exact IH].
Qed.

Theorem tokenise_render ls : Forall wf_sline ls -> tokenise (render ls) = ls.
Proof. apply tokenise_render_gen. left. reflexivity. Qed.

Theorem tokenise_render_upper ls : Forall wf_sline ls -> tokenise (render_upper ls) = ls.
Proof. apply tokenise_render_gen. left. reflexivity. Qed.

Theorem tokenise_render_crlf ls : Forall wf_sline ls -> tokenise (render_crlf ls) = ls.
Proof. apply tokenise_render_gen. right. left. reflexivity. Qed.

Theorem tokenise_render_upper_crlf ls : Forall wf_sline ls -> tokenise (render_upper_crlf ls) = ls.
Proof. apply tokenise_render_gen. right. left. reflexivity. Qed.

Theorem tokenise_render_cr ls : Forall wf_sline ls -> tokenise (render_cr ls) = ls.
Proof. apply tokenise_render_gen. right. right. reflexivity. Qed.

Theorem read_tokenise_render off ls :
  Forall wf_sline ls -> read off (tokenise (render ls)) = read off ls.
Proof. intros H. rewrite tokenise_render by assumption. reflexivity. Qed.

Theorem read_tokenise_render_gen off up eol ls :
  good_eol eol -> Forall wf_sline ls -> read off (tokenise (render_gen up eol ls)) = read off ls.
Proof. intros He H. rewrite tokenise_render_gen by assumption. reflexivity. Qed.

Lemma space_facts c : is_space c = true -> is_tc_char c = false /\ lower_ch c = c.
Proof.
  unfold is_space, is_tc_char, is_digit, lower_ch. intros H. split; [lia|].
  destruct ((65 <=? c) && (c <=? 90)) eqn:E; lia.
Qed.

(* a whitespace character after the last raw token is stripped from it *)
Lemma kept_map_last w l : is_space w = true ->
  filter is_word_token (map strip (map_last (fun t => t ++ [w]) l)) = filter is_word_token (map strip l).
Proof.
  intros Hw. induction l as [|t l IH]; [reflexivity|]. destruct l as [|u l].
  - cbn [map_last map]. rewrite strip_snoc_space by exact Hw. reflexivity.
  - change (map_last ?f (t :: u :: l)) with (t :: map_last f (u :: l)). cbn [map filter] in *. rewrite IH. reflexivity.
Qed.

(* one whitespace character: a blank ends the last raw token and opens an empty one, any other one is stripped *)
Lemma tokenise_line_snoc_space line w : is_space w = true -> tokenise_line (line ++ [w]) = tokenise_line line.
Proof.
  intros Hw. destruct (space_facts w Hw) as [Htc Hlow]. unfold tokenise_line, is_blank.
  rewrite strip_snoc_space by exact Hw. destruct (strip line); [reflexivity|]. f_equal.
  unfold line_timecode, line_words, tokens, raw_tokens, line_rest, lower. rewrite map_app. cbn [map]. rewrite Hlow.
  rewrite (take_while_before is_tc_char _ w [] Htc), (drop_while_before is_tc_char _ w [] Htc). f_equal. f_equal.
  change drop_while with lstrip_by. rewrite lstrip_by_snoc_space by exact Hw.
  destruct (lstrip_by is_space (lstrip_by is_tc_char (map lower_ch line))) as [|c r]; [reflexivity|].
  destruct (Z.eqb_spec w c_sp) as [->|Hn].
  - rewrite split_ch_snoc_sep, map_app, filter_app. apply app_nil_r.
  - rewrite split_ch_snoc_other by exact Hn. apply kept_map_last, Hw.
Qed.

Theorem tokenise_line_trailing_space line ws :
  forallb is_space ws = true -> tokenise_line (line ++ ws) = tokenise_line line.
Proof.
  revert line. induction ws as [|w ws IH]; intros line H; [rewrite app_nil_r; reflexivity|].
  cbn [forallb] in H. apply andb_true_iff in H. destruct H as [Hw Hws].
  change (line ++ w :: ws) with (line ++ [w] ++ ws). rewrite app_assoc, IH by exact Hws.
  apply tokenise_line_snoc_space, Hw.
Qed.

Theorem tokenise_trailing_space eol h l1 l ws l2 :
  good_eol eol -> Forall (fun l => no_break l = true) (h :: l1 ++ (l ++ ws) :: l2) ->
  forallb is_space ws = true ->
  tokenise (unlines eol (h :: l1 ++ (l ++ ws) :: l2)) = tokenise (unlines eol (h :: l1 ++ l :: l2)).
Proof.
  intros He H Hws. rewrite !tokenise_unlines; try assumption.
  - rewrite !tokenise_lines_app. f_equal. unfold tokenise_lines. cbn [flat_map].
    rewrite tokenise_line_trailing_space by assumption. reflexivity.
  - inversion H as [|? ? Hh Hr]; subst. constructor; [assumption|].
    rewrite Forall_app in *. destruct Hr as [Hr1 Hr2]. inversion Hr2 as [|? ? Hl Hr3]; subst.
    split; [assumption|]. constructor; [|assumption].
    unfold no_break in *. rewrite forallb_app in Hl. apply andb_true_iff in Hl. apply Hl.
Qed.

Lemma regular_tokens_cons t r :
  regular_tokens (t :: r)
  = (is_word_token t && str_eqb (strip t) t && regular_tokens r) || match r with [] => is_empty (strip t) | _ => false end.
Proof. destruct r; cbn [regular_tokens]; [rewrite andb_true_r|rewrite orb_false_r]; reflexivity. Qed.

(* on a regular token list the kept words are the raw tokens themselves, in order, apart from a
   last token that is blank: the raw token after a kept word is the next kept word, or that blank
   token, or nothing *)
Theorem regular_tokens_kept ts :
  regular_tokens ts = true ->
  exists ws last, ts = ws ++ last /\ (last = [] \/ exists t, last = [t] /\ strip t = []) /\
                  filter is_word_token (map strip ts) = ws.
Proof.
  induction ts as [|t ts IH]; intros H; [exists [], []; repeat split; left; reflexivity|].
  rewrite regular_tokens_cons in H. apply orb_true_iff in H. destruct H as [H|H].
  - rewrite !andb_true_iff in H. destruct H as [[Hw He] Hr]. apply str_eqb_eq in He.
    destruct (IH Hr) as (ws & last & E1 & E2 & E3).
    exists (t :: ws), last. repeat split; [rewrite E1; reflexivity | exact E2 |]. cbn [map filter]. rewrite He, Hw, E3. reflexivity.
  - destruct ts; [|discriminate]. assert (E : strip t = []) by (destruct (strip t); [reflexivity | discriminate]).
    exists [], [t]. repeat split; [right; exists t; split; [reflexivity | exact E]|]. cbn [map filter]. rewrite E. reflexivity.
Qed.

(* rendered lines are regular: on them the lookahead of the real code and of the model coincide *)
Theorem tokens_regular_render_line up l : wf_sline l -> tokens_regular (render_line up l) = true.
Proof.
  intros Hwf. unfold tokens_regular. rewrite (raw_tokens_render_line up l Hwf).
  destruct Hwf as (_ & _ & Hws). destruct (snd l) as [|w ws]; [reflexivity|].
  induction Hws as [|x xs Hx _ IH]; [reflexivity|]. destruct (hex4_facts false x Hx) as (_ & Hs & _).
  cbn [map]. rewrite regular_tokens_cons, Hs, str_eqb_refl, IH. reflexivity.
Qed.

(* examples, cross-checked against harness/sccobs.py parse_lines *)

Definition nl2 : str := [10; 10].
Definition tab : str := [9].

Example tokenise_ex1 :
  tokenise (lit "Scenarist_SCC V1.0" ++ nl2 ++ lit "00:00:01:00" ++ tab ++ lit "94AE 9420 9470 6162 942F" ++ nl2
            ++ lit "00:00:03:00" ++ tab ++ lit "942c" ++ nl2)
  = [ (lit "00:00:01:00", [38062; 37920; 38000; 24930; 37935]);   (* 0x94ae 0x9420 0x9470 0x6162 0x942f *)
      (lit "00:00:03:00", [37932]) ].                              (* 0x942c *)
Proof. vm_compute. reflexivity. Qed.

(* CRLF line ends, drop-frame timecode, trailing blanks, a blank line made of blanks and tabs *)
Example tokenise_ex2 :
  tokenise (lit "Scenarist_SCC V1.0" ++ [13; 10; 13; 10] ++ lit "00:00:01;00" ++ tab ++ lit "94ae 94ae   " ++ [13; 10]
            ++ lit "  " ++ tab ++ [13; 10] ++ lit "00:00:03;00" ++ tab ++ lit "942C" ++ tab ++ [13; 10])
  = [ (lit "00:00:01;00", [38062; 38062]); (lit "00:00:03;00", [37932]) ].
Proof. vm_compute. reflexivity. Qed.

(* a double blank (empty token, dropped), a non-hexadecimal 4-character token (0), tokens of other lengths
   (dropped), a token with a tab in front (stripped, kept), blanks instead of the tab after the timecode, no final
   line end *)
Example tokenise_ex3 :
  tokenise (lit "anything" ++ [10] ++ lit "00:00:01:00  9420  9470 zz61 942 94200 " ++ tab ++ lit "942f")
  = [ (lit "00:00:01:00", [37920; 38000; 0; 37935]) ].
Proof. vm_compute. reflexivity. Qed.

(* the header is skipped whatever it is, even when it is a data line; a line without timecode *)
Example tokenise_ex4 :
  tokenise (lit "00:00:00:00" ++ tab ++ lit "9420" ++ [10] ++ lit "x 9420" ++ [13] ++ lit "01:02:03:04" ++ [10])
  = [ ([], [37920]); (lit "01:02:03:04", []) ].
Proof. vm_compute. reflexivity. Qed.

Example render_ex1 :
  render [ (lit "00:00:01:00", [38062; 37920]); (lit "00:00:03:00", [37932]) ]
  = lit "Scenarist_SCC V1.0" ++ nl2 ++ lit "00:00:01:00" ++ tab ++ lit "94ae 9420" ++ nl2
    ++ lit "00:00:03:00" ++ tab ++ lit "942c" ++ nl2.
Proof. vm_compute. reflexivity. Qed.

Example render_ex2 :
  render_upper_crlf [ (lit "00:00:01:00", [38062; 10]) ]
  = lit "Scenarist_SCC V1.0" ++ [13; 10; 13; 10] ++ lit "00:00:01:00" ++ tab ++ lit "94AE 000A" ++ [13; 10; 13; 10].
Proof. vm_compute. reflexivity. Qed.

(* a double blank makes a line irregular (the real lookahead of the first 9420 is "", the model's is 9470);
   the canonical text is regular *)
Example tokens_regular_ex :
  tokens_regular (lit "00:00:01:00" ++ tab ++ lit "9420  9470") = false /\
  tokens_regular (lit "00:00:01:00" ++ tab ++ lit "9420 9470") = true /\
  tokens_regular (lit "00:00:01:00" ++ tab ++ lit "9420 9470 ") = true /\
  tokens_regular (lit "00:00:01:00" ++ tab ++ lit "9420 947 942c") = false.
Proof. vm_compute. repeat split. Qed.

Print Assumptions tokenise_render_line.
Print Assumptions tokenise_render_gen.
Print Assumptions tokenise_render.
Print Assumptions tokenise_render_upper.
Print Assumptions tokenise_render_crlf.
Print Assumptions tokenise_render_upper_crlf.
Print Assumptions tokenise_render_cr.
Print Assumptions read_tokenise_render.
Print Assumptions read_tokenise_render_gen.
Print Assumptions tokenise_blank_line.
Print Assumptions tokenise_line_trailing_space.
Print Assumptions tokenise_trailing_space.
Print Assumptions regular_tokens_kept.
Print Assumptions tokens_regular_render_line.
