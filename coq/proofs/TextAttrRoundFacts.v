(* C03 / C11: the payload round-trip theorems of proofs/TextRoundtripFacts.v for style dictionaries WITH a colour
   (any string over XML Char, written through quoteattr): well-formed payload, visible characters, italic flags. *)
From Coq Require Import List ZArith Bool.
From PV Require Import lib.Sx lib.Str model.TextWrite model.TextRead.
From PV Require Import spec.SpecTextXml spec.SpecTextStyle.
From PV Require Import proofs.TextReadFacts proofs.TextPayloadFacts proofs.TextStyleFacts.
From PV Require Import proofs.TextRoundtripFacts proofs.TextAttrFacts.
Import ListNotations.
Open Scope Z_scope.

Lemma dfxp_agree_c : forall region st, color_style st = true ->
  mask3 m_i (stack_flags [st]) = cfl m_i (tstk_of dfxp_est (dfxp_atok_c region) (Some st)).
Proof.
  intros region [i b u c] H. destruct c as [c|].
  - destruct region, i, b, u; reflexivity.
  - destruct region, i, b, u; reflexivity.
Qed.

Lemma dfxp_color_core : forall region ns, nodes_ok color_style ns = true -> flat_balanced ns = true ->
  exists t, content_parse (dfxp_payload (extra_of region) ns) = Some t /\ vis (flat_map tree_flat t) = vis (node_flat ns) /\
            flat_map (dfxp_nodes true) t = tok_nodes (dfxp_nodes true) dfxp_est (abs_tokens [] a_close (dfxp_atok_c region) ns) [] /\
            ok_flags m_i ns (flat_map (dfxp_nodes true) t) = true.
Proof.
  intros region ns Hn. apply (dfxp_core color_style _ (dfxp_agree_c region) eq_refl a_ok_close vis_close
                               (close_spec_new m_i dfxp_est a_close eq_refl)); [|exact Hn].
  apply dfxp_payload_parse_c, Hn.
Qed.

Theorem dfxp_payload_wellformed_c : forall region ns, nodes_ok color_style ns = true -> flat_balanced ns = true ->
  exists t, content_parse (dfxp_payload (extra_of region) ns) = Some t /\
            vis (flat_map tree_flat t) = vis (node_flat ns).
Proof. intros region ns Hn Hf. destruct (dfxp_color_core region ns Hn Hf) as (t & Ht & Hv & _). exists t. split; assumption. Qed.

Theorem legacy_payload_wellformed_c : forall ns, nodes_ok color_style ns = true -> flat_balanced ns = true ->
  exists t, content_parse (legacy_payload ns) = Some t /\ vis (flat_map tree_flat t) = vis (node_flat ns).
Proof. intros ns. rewrite legacy_payload_dfxp. exact (dfxp_payload_wellformed_c false ns). Qed.

Theorem dfxp_roundtrip_flags_c : forall region ns, nodes_ok color_style ns = true -> flat_balanced ns = true ->
  exists t, content_parse (dfxp_payload (extra_of region) ns) = Some t /\
            ok_flags m_i ns (flat_map (dfxp_nodes true) t) = true /\
            balanced (flat_map (dfxp_nodes true) t) = true.
Proof.
  intros region ns Hn Hf. destruct (dfxp_color_core region ns Hn Hf) as (t & Ht & _ & _ & Hfl). exists t.
  split; [exact Ht|]. split; [exact Hfl|apply dfxp_reader_p_balanced].
Qed.

Theorem legacy_roundtrip_flags_c : forall ns, nodes_ok color_style ns = true -> flat_balanced ns = true ->
  exists t, content_parse (legacy_payload ns) = Some t /\
            ok_flags m_i ns (flat_map (dfxp_nodes true) t) = true /\
            balanced (flat_map (dfxp_nodes true) t) = true.
Proof. intros ns. rewrite legacy_payload_dfxp. exact (dfxp_roundtrip_flags_c false ns). Qed.
