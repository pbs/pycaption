(* C08: the DFXP hop at DOCUMENT level (string level): DFXPWriter's document for captions given as clean text
   lines, read back by the string-level reader model, returns the captions with times floored to the millisecond AND
   the text lines unchanged; chains over SRT, MicroDVD, WebVTT and DFXP document hops. *)
From Coq Require Import List ZArith QArith Lia Bool ZifyBool Arith.
From PV Require Import lib.Sx lib.Str lib.Result lib.Dec.
From PV Require Import model.TimeRead model.TimeTree model.XmlRead model.Chain model.DfxpWriteDoc model.DfxpReadLines.
From PV Require Import spec.SpecTime spec.SpecTimeTree spec.SpecXmlDocT spec.SpecChain.
From PV Require Import proofs.TimeStrFacts proofs.XmlReadFacts proofs.DfxpWriteDocFacts.
From PV Require Import proofs.ChainFacts proofs.ChainDocFacts proofs.ChainSrtDocFacts proofs.ChainVttDocFacts.
Import ListNotations.
Open Scope Z_scope.

(* a NavigableString of the written document reads as its line *)
Lemma string_text_line : forall l tail, clean_line l = true -> (tail = [] \/ tail = DfxpWriteDoc.nl 3%nat) ->
  dfxp_string_text (DfxpWriteDoc.nl 4%nat ++ l ++ tail) = Some l.
Proof.
  intros l tail Hl Ht. destruct (clean_line_parts l Hl) as (Hnb & (c & t & El & Hc) & _).
  assert (Hnl : forallb not_nl l = true).
  { revert Hnb. unfold no_lb. apply forallb_weaken. intros x Hx. unfold not_nl. destruct (x =? 10); [discriminate|reflexivity]. }
  assert (Hst : stops not_nl tail) by (destruct Ht; subst tail; reflexivity).
  unfold dfxp_string_text. cbn [DfxpWriteDoc.nl repeat app take_while drop_while].
  change (is_nlcr 10) with true. change (is_nlcr 32) with false. change (is_space 32) with true. cbv iota.
  rewrite El in *. cbn [app drop_while]. change (is_space 32) with true. cbv iota. rewrite Hc.
  assert (E10 : (c =? 10) = false) by (unfold is_space in Hc; lia). rewrite E10.
  change (c :: t ++ tail) with ((c :: t) ++ tail).
  rewrite (take_while_stops not_nl (c :: t) tail Hnl Hst), (drop_while_stops not_nl (c :: t) tail Hnl Hst).
  destruct Ht; subst tail; cbn; rewrite app_nil_r; reflexivity.
Qed.

Lemma text_nodes_nl : forall k s, text_nodes (DfxpWriteDoc.nl k ++ s) = [HText (DfxpWriteDoc.nl k ++ s)].
Proof. reflexivity. Qed.

Lemma content_tree_last : forall l,
  tree_of_content (wcontent [l]) = [HText (DfxpWriteDoc.nl 4%nat ++ l ++ DfxpWriteDoc.nl 3%nat)].
Proof. intros l. unfold tree_of_content. cbn [wcontent fst snd tree_of_items flat_map app]. rewrite tstr_val_lits. reflexivity. Qed.

Lemma content_tree_cons : forall l l2 t,
  tree_of_content (wcontent (l :: l2 :: t))
  = HText (DfxpWriteDoc.nl 4%nat ++ l) :: HElem (lit "br") [] [] :: tree_of_content (wcontent (l2 :: t)).
Proof.
  intros l l2 t. rewrite wcontent_cons2. unfold tree_of_content, tree_of_items. cbn [fst snd flat_map tree_of_pel].
  rewrite tstr_val_lits, text_nodes_nl. rewrite <- !app_assoc. reflexivity.
Qed.

Lemma p_lines_content : forall lines, lines <> [] -> forallb clean_line lines = true ->
  p_lines (tree_of_content (wcontent lines)) = Some lines.
Proof.
  induction lines as [|l t IH]; intros Hne H; [congruence|]. cbn [forallb] in H. apply andb_true_iff in H. destruct H as [Hl Ht].
  destruct t as [|l2 t].
  - rewrite content_tree_last. cbn [p_lines]. rewrite (string_text_line l _ Hl (or_intror eq_refl)). reflexivity.
  - rewrite content_tree_cons. cbn [p_lines]. change (str_eqb (lit "br") (lit "br")) with true. cbv iota.
    pose proof (string_text_line l [] Hl (or_introl eq_refl)) as E. rewrite app_nil_r in E. rewrite E.
    rewrite (IH ltac:(discriminate) Ht). reflexivity.
Qed.

Lemma ps_kids_content : forall b lines, flat_map (ps_kids b) (tree_of_content (wcontent lines)) = [].
Proof.
  intros b. induction lines as [|l t IH]; [reflexivity|]. destruct t as [|l2 t].
  - rewrite content_tree_last. reflexivity.
  - rewrite content_tree_cons. cbn [flat_map ps_kids app]. change (str_eqb (lit "br") (lit "p")) with false.
    cbn [andb app flat_map]. exact IH.
Qed.

Lemma ps_kids_wps : forall cs, forallb wcap_ok cs = true ->
  flat_map (ps_kids true) (tree_of (wps cs)) = map (fun c : wcap => tree_of_content (wcontent (snd c))) cs.
Proof.
  induction cs as [|c cs IH]; intros H; [reflexivity|].
  cbn [forallb] in H. apply andb_true_iff in H. destruct H as [Hc Hcs].
  destruct (wcap_ok_parts c Hc) as (_ & _ & V).
  cbn [wps tree_of map].
  change (text_nodes (DfxpWriteDoc.nl 3%nat)) with [HText (DfxpWriteDoc.nl 3%nat)].
  cbn [app flat_map ps_kids]. change (str_eqb (lit "p") (lit "p")) with true. change (str_eqb (lit "p") (lit "div")) with false.
  rewrite h_text_content, visible_has, (wcontent_visible _ V). cbn [andb orb app].
  rewrite ps_kids_content. cbn [app]. rewrite (IH Hcs). reflexivity.
Qed.

Lemma ps_kids_doc : forall lang cs,
  flat_map (ps_kids false) (tree_doc (wdoc lang cs)) = flat_map (ps_kids true) (tree_of (wps cs)).
Proof.
  intros lang cs. unfold tree_doc, wdoc, whead.
  cbn [xd_pre xd_l1 xd_lang xd_l2 xd_body xd_post tree_of]. generalize (tree_of (wps cs)). intros X.
  (* around the kids X of the <div> stands a closed skeleton without any <p>: evaluation leaves the walk through X *)
  cbn. rewrite !app_nil_r. reflexivity.
Qed.

Definition in_day (cs : list wcap) : Prop :=
  Forall (fun c : wcap => 0 <= fst (fst c) < day /\ 0 <= snd (fst c) < day) cs.

Lemma clean_line_visible : forall l, clean_line l = true -> has_visible_char l = true.
Proof.
  intros l H. destruct (clean_line_parts l H) as (_ & (c & t & El & Hc) & _). subst l.
  unfold has_visible_char. cbn [existsb]. rewrite Hc. reflexivity.
Qed.

Lemma clean_lines_parts : forall ls, clean_lines ls = true ->
  ls <> [] /\ forallb clean_line ls = true /\ existsb has_visible_char ls = true.
Proof.
  intros ls H. unfold clean_lines in H. destruct ls as [|l t]; [discriminate|]. repeat split; [discriminate|exact H|].
  cbn [forallb] in H. apply andb_true_iff in H. destruct H as [Hl _]. cbn [existsb]. rewrite (clean_line_visible l Hl). reflexivity.
Qed.

Lemma caps_wcap_ok : forall cs, in_day cs -> text_dom cs = true -> forallb wcap_ok cs = true.
Proof.
  induction cs as [|c cs IH]; intros D T; [reflexivity|]. inversion D as [|? ? Dc Dcs]; subst.
  unfold text_dom in T. cbn [forallb] in T. apply andb_true_iff in T. destruct T as [Tc Tcs].
  cbn [forallb]. rewrite (IH Dcs Tcs), andb_true_r. unfold wcap_ok.
  rewrite (proj2 (proj2 (clean_lines_parts _ Tc))). unfold day in *. lia.
Qed.

Lemma opt_all_lines : forall cs, text_dom cs = true ->
  opt_all (map p_lines (map (fun c : wcap => tree_of_content (wcontent (snd c))) cs)) = Some (map snd cs).
Proof.
  induction cs as [|c cs IH]; intros T; [reflexivity|].
  unfold text_dom in T. cbn [forallb] in T. apply andb_true_iff in T. destruct T as [Tc Tcs].
  cbn [map opt_all]. destruct (clean_lines_parts _ Tc) as (N & C & _).
  rewrite (p_lines_content _ N C), (IH Tcs). reflexivity.
Qed.

Lemma combine_floor : forall cs : list wcap,
  map (fun tl : (Z * Z) * list str => (fst (fst tl), snd (fst tl), snd tl)) (combine (map floor_cue cs) (map snd cs))
  = floor_caps 1000 cs.
Proof. induction cs as [|c cs IH]; [reflexivity|]. cbn [map combine]. rewrite IH. reflexivity. Qed.

Theorem dfxp_roundtrip_string : forall cs, cs <> [] -> in_day cs -> text_dom cs = true ->
  hop_doc FDfxp cs = Ok (floor_caps 1000 cs).
Proof.
  intros cs Hne D T. pose proof (caps_wcap_ok cs D T) as W.
  cbn [hop_doc]. unfold dfxp_read_lines.
  rewrite (dfxp_document_string [] (lit "en-US") cs Hne W).
  unfold dfxp_write_doc. rewrite (parse_doc_render _ (wdoc_ok (lit "en-US") cs W)).
  rewrite ps_kids_doc, (ps_kids_wps cs W), (opt_all_lines cs T).
  rewrite !map_length, Nat.eqb_refl. rewrite combine_floor. reflexivity.
Qed.

Lemma dom_u_in_day : forall u lo cs, 0 <= lo -> 0 < u -> dom_u u lo (times_of_caps cs) -> in_day cs.
Proof. intros u lo cs Hlo Hu D. exact (proj1 (Forall_map _ _ cs) (proj1 (dom_u_hop u lo _ Hu Hlo D))). Qed.

Definition line_fmt4 (f : fmt) : bool := match f with FSrt | FMdvd | FVtt | FDfxp => true | _ => false end.

Lemma line4_hop_keeps : forall f cs lo, line_fmt4 f = true -> cs <> [] -> 0 <= lo -> dom_u 40000 lo (times_of_caps cs) ->
  text_doms cs -> hop_keeps f cs.
Proof.
  intros f cs lo Hf Hne Hlo D T. destruct (line_fmt3 f) eqn:E; [exact (line_hop_keeps f cs lo E Hne Hlo D T)|].
  destruct f; try discriminate. apply floor_hop_keeps; [reflexivity|exact Hne|].
  rewrite (dfxp_roundtrip_string cs Hne (dom_u_in_day 40000 lo cs Hlo ltac:(lia) D) (proj1 T)).
  destruct cs; [congruence|reflexivity].
Qed.

Theorem run_doc_text4 : forall chain cs lo, forallb line_fmt4 chain = true -> cs <> [] -> 0 <= lo ->
  dom_u 40000 lo (times_of_caps cs) -> text_dom cs = true -> srt_text_dom cs = true -> vtt_text_dom cs = true ->
  exists out, run_doc chain cs = Ok out /\ times_of_caps out = run chain (times_of_caps cs) /\ map snd out = map snd cs.
Proof.
  intros chain cs lo Hc Hne Hlo D T1 T2 T3.
  exact (run_doc_hops line_fmt4 text_doms text_doms_snd line4_hop_keeps chain cs lo Hc Hne Hlo D (conj T1 (conj T2 T3))).
Qed.
