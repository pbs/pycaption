(* C17: the writer model's whole document read back by the SCC reader model (model/SccDecoder.v) - decoder, caption
   store (TimingCorrectingCaptionList.extend / _update_last_batch) and clock - for EVERY caption list of the domain.
     reread_stash : the decoder never raises on the writer's document; the caption store it ends with holds exactly one
                    caption per cue, in order, whose words refine the cue's words (a word split only when longer than 32)
                    and whose start is the instant of the load's End-Of-Caption, within three frames of the cue's start.
     reread_conditional : hence, whenever the reader returns captions at all, they satisfy the property's re-read clause
                    (spec.SpecSccw.ok_reread = 0).
     reread_store : the two refusals at the end of SCCReader.read (line-length scan, flash check < 0.05 s) do not fire on
                    that store, so the reader returns these captions. *)
From Coq Require Import List ZArith QArith Qround Qabs Lia Lqa Bool.
From PV Require Import lib.Sx lib.Str lib.StrFacts lib.Result model.SccLen model.SccStash model.SccDecoder.
From PV Require Import model.SccWrite spec.SpecSccw model.SccRoundTrip.
From PV Require Import proofs.SccWriteFacts proofs.SccTimingFacts proofs.SccWordsFacts proofs.SccDecodeFacts
     proofs.SccLayoutFacts proofs.SccDocFacts proofs.SccComposeFacts proofs.SccwBridgeFacts.
From PV Require Import proofs.SccRereadNodes proofs.SccRereadLines proofs.SccRereadLoad proofs.SccRereadTime.
From PV Require proofs.SccPoponStage2c.
Import ListNotations.
Open Scope Z_scope.

Definition okc (c : Z) : bool := negb (is_space c) || is_blank c.

Lemma words_aux_blanks : forall sp R cur, forallb is_blank sp = true -> blank_head R ->
  words_aux (sp ++ R) cur = words_aux R cur.
Proof.
  induction sp as [|c t IH]; intros R cur H HR; [reflexivity|]. cbn [forallb] in H. apply andb_prop in H. destruct H as [Hc Ht].
  cbn [app words_aux]. rewrite Hc. rewrite (words_aux_blank_head R cur HR).
  destruct cur as [|x cur']; cbn [flushw app]; rewrite (IH R [] Ht HR); reflexivity.
Qed.

Lemma space_sub_blank : forall s sp, forallb okc s = true -> (forall c, In c sp -> In c s) -> forallb is_space sp = true ->
  forallb is_blank sp = true.
Proof.
  intros s sp T Sub S. apply forallb_forall. intros c Hc. rewrite forallb_forall in T, S.
  specialize (T c (Sub c Hc)). specialize (S c Hc). unfold okc in T. rewrite S in T. exact T.
Qed.

Lemma words_strip : forall s, forallb okc s = true -> words (strip s) = words s.
Proof.
  intros s T. unfold strip, strip_by. destruct (StrFacts.lstrip_split is_space s) as (sp1 & E1 & S1).
  set (x := lstrip_by is_space s) in *. destruct (StrFacts.rstrip_split x) as (sp2 & E2 & S2).
  change (rstrip_by is_space x) with (rstrip x).
  assert (B1 : forallb is_blank sp1 = true).
  { apply (space_sub_blank s sp1 T); [|exact S1]. intros c Hc. rewrite E1. apply in_or_app. left. exact Hc. }
  assert (B2 : forallb is_blank sp2 = true).
  { apply (space_sub_blank s sp2 T); [|exact S2]. intros c Hc. rewrite E1, E2. apply in_or_app. right. apply in_or_app. right. exact Hc. }
  clearbody x. rewrite E1, words_skip_blanks by exact B1. rewrite E2 at 2. unfold words.
  rewrite <- (app_nil_r (rstrip x)) at 1. apply words_aux_app_eq. intros cur.
  rewrite <- (app_nil_r sp2). symmetry. apply words_aux_blanks; [exact B2|left; reflexivity].
Qed.

Lemma tame_okc : forall s, tame s = true -> forallb okc s = true.
Proof.
  intros s H. unfold tame in H. apply forallb_forall. intros c Hc. rewrite forallb_forall in H. specialize (H c Hc). unfold okc.
  destruct (is_space c); [|reflexivity]. cbn [negb orb] in *. assert (c = 32) by lia. subst. reflexivity.
Qed.

Lemma ntext_okc : forall l, plain l = true -> forallb tame_node l = true -> forallb okc (ntext l) = true.
Proof.
  induction l as [|n t IH]; intros P T; [reflexivity|]. apply plain_cons in P. destruct P as [Pn Pt]. cbn [forallb] in T.
  apply andb_prop in T. destruct T as [Tn Tt]. change (ntext (n :: t)) with (node_str n ++ ntext t). rewrite forallb_app, (IH Pt Tt), andb_true_r.
  destruct n as [k tx p]. unfold plain_node, is_text, is_break in Pn. cbn [i_kind] in Pn. unfold node_str. cbn [i_kind i_text].
  destruct k; try discriminate; [apply tame_okc; exact Tn|reflexivity].
Qed.

Lemma sle_tame : forall l, forallb tame_node l = true -> forallb tame_node (strip_line_ends l) = true.
Proof.
  induction l as [|n t IH]; intros T; [reflexivity|]. cbn [forallb] in T. apply andb_prop in T. destruct T as [Tn Tt].
  cbn [strip_line_ends forallb]. rewrite (IH Tt), andb_true_r. destruct (is_text n && next_plain_is_sep t); [|exact Tn].
  unfold tame_node, rstrip_node. cbn [i_text]. unfold tame_node in Tn. destruct (StrFacts.rstrip_split (i_text n)) as (sp & E & _).
  unfold tame in *. rewrite E, forallb_app in Tn. apply andb_prop in Tn. exact (proj1 Tn).
Qed.

Lemma words_not_empty : forall nodes, plain nodes = true -> words (ntext nodes) <> [] -> cr_is_empty (mkCr nodes SNone) = false.
Proof.
  intros nodes P W. apply not_true_is_false. intros E. apply W. rewrite <- (app_nil_r (ntext nodes)). apply words_skip_blanks.
  clear W. induction nodes as [|n t IH]; [reflexivity|]. apply plain_cons in P. destruct P as [Pn Pt].
  unfold cr_is_empty in *. cbn [cr_nodes existsb] in *. apply negb_true_iff in E. apply orb_false_iff in E. destruct E as [E1 E2].
  change (ntext (n :: t)) with (node_str n ++ ntext t). rewrite forallb_app, (IH Pt), andb_true_r by (apply negb_true_iff; exact E2).
  destruct n as [k tx p]. unfold plain_node, is_text, is_break in Pn. cbn [i_kind i_text] in *. unfold node_str. cbn [i_kind i_text].
  destruct k; try discriminate; [|reflexivity]. destruct tx; [reflexivity|discriminate].
Qed.

Lemma all32_no_nl : forall sp, forallb (fun c => c =? 32) sp = true -> no_nl sp = true.
Proof.
  intros sp H. unfold no_nl. apply forallb_forall. intros c Hc. rewrite forallb_forall in H. specialize (H c Hc).
  assert (c = 32) by lia. subst. reflexivity.
Qed.

Lemma sle_runs : forall l, plain l = true -> forallb tame_node l = true ->
  forall k, runs_ok (ntext l) k = true -> runs_ok (ntext (strip_line_ends l)) k = true.
Proof.
  induction l as [|n t IH]; intros P T k H; [exact H|]. apply plain_cons in P. destruct P as [Pn Pt].
  cbn [forallb] in T. apply andb_prop in T. destruct T as [Tn Tt]. cbn [strip_line_ends].
  change (ntext (n :: t)) with (node_str n ++ ntext t) in H.
  match goal with |- context [ntext (?x :: strip_line_ends t)] =>
    change (ntext (x :: strip_line_ends t)) with (node_str x ++ ntext (strip_line_ends t)) end.
  destruct n as [k0 tx p]. unfold plain_node, is_text, is_break in Pn. cbn [i_kind] in Pn.
  destruct k0; try discriminate.
  - unfold is_text at 1. cbn [i_kind andb]. destruct (next_plain_is_sep t).
    + unfold rstrip_node, node_str in *. cbn [i_kind i_text i_pos] in *. destruct (tame_split tx Tn) as (sp & E & Sp).
      set (y := rstrip tx) in *. clearbody y. subst tx. rewrite <- app_assoc in H.
      apply (runs_ok_congr y (sp ++ ntext t)); [|exact H]. intros k1 X. apply (IH Pt Tt).
      apply (runs_ok_skip sp); [apply all32_no_nl; exact Sp|exact X].
    + unfold node_str in *. cbn [i_kind i_text] in *. apply (runs_ok_congr tx (ntext t)); [exact (IH Pt Tt)|exact H].
  - unfold is_text at 1. cbn [i_kind andb]. unfold node_str in *. cbn [i_kind] in *.
    apply (runs_ok_congr [10] (ntext t)); [exact (IH Pt Tt)|exact H].
Qed.

(* the caption built from a plain buffer, as the property observes it (text stripped) *)
Lemma caption_strip_short : forall nodes s e, plain nodes = true -> forallb tame_node nodes = true ->
  exists cn lay, build_captions (format_italics nodes) s e [] (mkPre s e [] None) = [mkPre s e cn lay]
                 /\ words (strip (concat (map node_text cn))) = words (ntext nodes)
                 /\ (short (ntext nodes) = true -> short (concat (map node_text cn)) = true).
Proof.
  intros nodes s e P T. rewrite (format_plain nodes P).
  destruct (skip_empty_plain nodes P) as [P2 N2]. pose proof (sle_plain _ P2) as P3.
  destruct (build_plain (strip_line_ends (skip_empty_text nodes)) s e [] (mkPre s e [] None) P3) as (lay & E).
  cbn [pc_start pc_end pc_nodes app] in E. eexists _, lay. split; [exact E|]. rewrite (cnode_text _ P3). split.
  - rewrite words_strip by (apply ntext_okc; [exact P3|apply sle_tame, skip_empty_tame; exact T]).
    unfold words. destruct (sle_words (skip_empty_text nodes) P2 (skip_empty_tame nodes T)) as (W & _). rewrite W, N2. reflexivity.
  - intros Sh. unfold short. apply sle_runs; [exact P2|apply skip_empty_tame; exact T|]. rewrite N2. exact Sh.
Qed.

Lemma caption_strip : forall nodes s e, plain nodes = true -> forallb tame_node nodes = true ->
  exists cn lay, build_captions (format_italics nodes) s e [] (mkPre s e [] None) = [mkPre s e cn lay]
                 /\ words (strip (concat (map node_text cn))) = words (ntext nodes).
Proof. intros nodes s e P T. destruct (caption_strip_short nodes s e P T) as (cn & lay & B & W & _). exists cn, lay. auto. Qed.

(* ---- the caption store ---------------------------------------------------------------------------------------------- *)
Definition tol : Q := 3 * frame_us + (1 # 1024).
Definition obs (c : precap) : Q * str := (pc_start c, strip (cap_text c)).
Definition R (cap : wcap) (pc : precap) : Prop :=
  refines 32 (words (w_text cap)) (words (strip (cap_text pc))) = true /\ q_within (pc_start pc) (w_start cap) tol = true.

Lemma Forall2_map_tail : forall caps l n e, Forall2 R caps l -> Forall2 R caps (map_tail n (set_end e) l).
Proof.
  intros caps l n e H. unfold map_tail. set (k := (length l - n)%nat). rewrite <- (firstn_skipn k l) in H.
  apply Forall2_app_inv_r in H. destruct H as (c1 & c2 & H1 & H2 & ->). apply Forall2_app; [exact H1|].
  induction H2 as [|cap [s e0 nd ly] ? ? Hx]; cbn [map]; constructor; [exact Hx|assumption].
Qed.

Lemma ulb_R : forall caps st new, Forall2 R caps (st_caps st) -> Forall2 R caps (update_last_batch st new).
Proof.
  intros caps st new H. unfold update_last_batch. destruct new as [|n0 rest]; [exact H|].
  destruct (last (map Some (skipn (length (st_caps st) - st_batch st) (st_caps st))) None) as [b|]; [|exact H].
  destruct (Qeq_bool (pc_end b) 0 || negb (Qle_bool join_threshold (pc_start n0 - pc_end b))); [|exact H].
  apply Forall2_map_tail. exact H.
Qed.

Lemma ok_reread_R : forall caps pcs, Forall2 R caps pcs -> ok_reread (map to_cue caps) (map obs pcs) = 0.
Proof.
  intros caps pcs H. induction H as [|cap pc caps pcs [R1 R2] H IH]; [reflexivity|].
  cbn [map ok_reread obs to_cue q_text q_start]. rewrite R1. cbn [negb]. fold tol. rewrite R2. cbn [negb]. exact IH.
Qed.

Lemma obs_fix_last : forall l, map obs (fix_last l) = map obs l.
Proof.
  assert (A : forall l, map obs (fix_last_rev l) = map obs l).
  { induction l as [|c t IH]; [reflexivity|]. cbn [fix_last_rev]. destruct (Qeq_bool (pc_end c) 0); [|reflexivity].
    cbn [map]. rewrite IH. reflexivity. }
  intros l. unfold fix_last. rewrite map_rev, A, <- map_rev, rev_involutive. reflexivity.
Qed.

Lemma finish_obs : forall st pcs, finish_read st = ROk pcs -> map obs pcs = map obs (st_caps st).
Proof.
  intros st pcs H. unfold finish_read in H. destruct (length_check (map to_lcap (st_caps st))); [discriminate|].
  destruct (existsb is_flash (st_caps st)); [discriminate|]. destruct (st_caps st) as [|c t] eqn:E; [discriminate|].
  inversion H; subst. apply obs_fix_last.
Qed.

Lemma closed_parts : forall st nodes a t, plain nodes = true -> forallb tame_node nodes = true -> words (ntext nodes) <> [] ->
  exists cn lay, closed st (Some (mkCr nodes SNone, a)) t
                 = mkStash (update_last_batch st [mkPre a t cn lay] ++ [mkPre a t cn lay]) 1
                 /\ words (strip (concat (map node_text cn))) = words (ntext nodes)
                 /\ (short (ntext nodes) = true -> short (concat (map node_text cn)) = true).
Proof.
  intros st nodes a t P T W. unfold closed, create_and_store. rewrite (words_not_empty nodes P W). cbn [cr_nodes].
  destruct (caption_strip_short nodes a t P T) as (cn & lay & B & Wd & S). rewrite B.
  exists cn, lay. split; [|split; assumption]. unfold stash_extend. cbn [filter].
  assert (N : has_nodes (mkPre a t cn lay) = true).
  { unfold has_nodes. cbn [pc_nodes]. destruct cn; [|reflexivity]. exfalso. apply W. rewrite <- Wd. reflexivity. }
  rewrite N. reflexivity.
Qed.

Definition fr (k : Z) : Q := inject_Z k * mpc.
(* a stored caption: short lines; displayed from frame ks to frame ke, at least two frames, its start at least two frames
   before frame B *)
Definition capG (B : Z) (pc : precap) : Prop :=
  short (cap_text pc) = true /\
  exists ks ke, 0 <= ks /\ pc_start pc == fr ks /\ pc_end pc == fr ke /\ ks + 2 <= ke /\ ks + 2 <= B.

Lemma capG_weaken : forall B B' pc, B <= B' -> capG B pc -> capG B' pc.
Proof. intros B B' pc H (S & ks & ke & A1 & A2 & A3 & A4 & A5). split; [exact S|]. exists ks, ke. repeat split; try assumption; lia. Qed.

Lemma capG_set_end : forall B pc a ka, capG B pc -> a == fr ka -> B <= ka -> capG B (set_end a pc).
Proof.
  intros B [s e n l] a ka (S & ks & ke & A1 & A2 & A3 & A4 & A5) Ea Hk. split; [exact S|]. exists ks, ka.
  cbn [set_end pc_start pc_end] in *. repeat split; try assumption; lia.
Qed.

Lemma Forall_map_tail : forall B l n a ka, Forall (capG B) l -> a == fr ka -> B <= ka ->
  Forall (capG B) (map_tail n (set_end a) l).
Proof.
  intros B l n a ka H Ea Hk. unfold map_tail. set (k := (length l - n)%nat). rewrite <- (firstn_skipn k l) in H.
  apply Forall_app in H. destruct H as [H1 H2]. apply Forall_app. split; [exact H1|].
  apply Forall_forall. intros x Hx. apply in_map_iff in Hx. destruct Hx as (y & <- & Hy). rewrite Forall_forall in H2.
  exact (capG_set_end B y a ka (H2 y Hy) Ea Hk).
Qed.

Lemma ulb_G : forall B st P rest ka, Forall (capG B) (st_caps st) -> pc_start P == fr ka -> B <= ka ->
  Forall (capG B) (update_last_batch st (P :: rest)).
Proof.
  intros B st P rest ka H Ea Hk. unfold update_last_batch.
  destruct (last (map Some (skipn (length (st_caps st) - st_batch st) (st_caps st))) None) as [b|]; [|exact H].
  destruct (Qeq_bool (pc_end b) 0 || negb (Qle_bool join_threshold (pc_start P - pc_end b))); [|exact H].
  exact (Forall_map_tail B _ _ _ ka H Ea Hk).
Qed.

Lemma frames_le : forall k t, (fr k <= t)%Q -> k <= tc_frames t.
Proof.
  intros k t H. unfold tc_frames. rewrite <- (Qfloor_Z k). apply Qfloor_resp_le. unfold fr, mpc in H.
  change (inject_Z k * (1001000 # 30) <= t)%Q in H. nra.
Qed.

Lemma capG_not_flash : forall B pc, capG B pc -> is_flash pc = false.
Proof.
  intros B pc (_ & ks & ke & _ & A2 & A3 & A4 & _). unfold is_flash.
  assert (X : (inject_Z 50000 <= pc_end pc - pc_start pc)%Q).
  { rewrite A2, A3. unfold fr, mpc.
    assert (Y : (inject_Z ks + 2 <= inject_Z ke)%Q) by (change 2%Q with (inject_Z 2); rewrite <- inject_Z_plus, <- Zle_Qle; exact A4).
    change (inject_Z 50000) with (50000 # 1)%Q. lra. }
  apply Qle_bool_iff in X. rewrite X. apply andb_false_r.
Qed.

(* ---- one cue: its load line and, if kept, its clear line ----------------------------------------------------------------- *)
Definition has_word (c : wcap) : Prop := words (w_text c) <> [].
Definition below_100h (c : wcap) : Prop := (w_end c < 360000000000)%Q.
Notation ST0 := (ST creator0 creator0 0).

Lemma frames_range : forall t, (0 <= t)%Q -> (t < 360000000000)%Q -> 0 <= tc_frames t < 10800000.
Proof.
  intros t H0 H1. unfold tc_frames. split.
  - change 0 with (Qfloor 0). apply Qfloor_resp_le. change (0 <= t * (30 # 1001000))%Q. nra.
  - rewrite Zlt_Qlt. eapply Qle_lt_trans; [apply Qfloor_le|]. change (inject_Z 10800000) with (10800000 # 1)%Q. nra.
Qed.

(* After the cues `done`, the last of which starts at p.  Every stored caption answers its cue (R) and is displayed for
   whole frames (capG); a queued plain buffer holds the last cue's words and becomes visible at frame ka, two frames
   before the frame of p *)
Inductive ginv (done : list wcap) (p : Q) (st : stash) : option (creator * Q) -> Prop :=
| GNone : Forall2 R done (st_caps st) -> Forall (capG (tc_frames p)) (st_caps st) -> ginv done p st None
| GSome : forall done' cap nodes a ka, done = done' ++ [cap] -> Forall2 R done' (st_caps st) -> Forall (capG ka) (st_caps st) ->
    plain nodes = true -> forallb tame_node nodes = true -> words (ntext nodes) <> [] -> short (ntext nodes) = true ->
    refines 32 (words (w_text cap)) (words (ntext nodes)) = true -> q_within a (w_start cap) tol = true ->
    a == fr ka -> 0 <= ka -> ka + 2 <= tc_frames p -> ginv done p st (Some (mkCr nodes SNone, a)).

(* closing the caption on display, at any instant for R, at a frame kp not before the frame of p for capG *)
Lemma closed_ginv : forall done p st q t, ginv done p st q ->
  Forall2 R done (st_caps (closed st q t))
  /\ forall kp, t == fr kp -> tc_frames p <= kp -> Forall (capG (tc_frames p)) (st_caps (closed st q t)).
Proof.
  intros done p st q t H. destruct H as [H HG|done' cap nodes a ka -> H HG P T W Sh Rf Qw Ea K0 K2]; [split; [exact H|intros; exact HG]|].
  destruct (closed_parts st nodes a t P T W) as (cn & lay & -> & Wd & S). cbn [st_caps]. split.
  - apply Forall2_app; [apply ulb_R; exact H|]. constructor; [|constructor].
    split; [unfold cap_text; cbn [pc_nodes]; rewrite Wd; exact Rf|exact Qw].
  - intros kp Et Hk. apply Forall_app. split.
    + pose proof (ulb_G ka st (mkPre a t cn lay) [] ka HG Ea (Z.le_refl ka)) as U.
      eapply Forall_impl; [|exact U]. intros x X. apply (capG_weaken ka); [lia|exact X].
    + constructor; [|constructor]. split; [exact (S Sh)|]. exists ka, kp. cbn [pc_start pc_end]. repeat split; try assumption; lia.
Qed.

(* the clock of one load of ws words, for a cue that can be sent after p: its line is stamped with a frame of the reader's
   range, not before p's; its End-Of-Caption, |ws| + 6 frames later, is within three frames of the start and at least two
   whole frames before the start's frame *)
Lemma load_clock : forall ws start p, (0 <= p)%Q -> (p <= start - inject_Z (Z.of_nat (length ws) + 8) * mpc)%Q ->
  (0 <= start)%Q -> (start < 360000000000)%Q ->
  let s := pre_roll (render_words ws) start in let k := tc_frames s + (Z.of_nat (length ws) + 6) in
  0 <= tc_frames s < 10800000 /\ tc_frames p <= tc_frames s /\ k + 2 <= tc_frames start
  /\ forall t, t == fr k -> q_within t start tol = true.
Proof.
  intros ws start p P0 Sp S1 H100 s k. rewrite <- code_words_render in Sp.
  assert (S0 : (0 <= start - code_words (render_words ws) * mpc)%Q) by lra.
  destruct (pre_roll_le (render_words ws) start S1) as [Pl Ps]. fold s in Pl, Ps.
  pose proof (visible_within_3_frames (render_words ws) start S0) as Vis. cbv zeta in Vis. rewrite render_words_length in Vis.
  replace (Z.of_nat (5 * length ws) / 5) with (Z.of_nat (length ws)) in Vis
    by (rewrite Nat2Z.inj_mul; change (Z.of_nat 5) with 5; rewrite Z.mul_comm, Z.div_mul; lia).
  fold s k in Vis. destruct Vis as [V1 V2]. pose proof mpc_pos as M.
  split; [apply frames_range; [exact Ps|lra]|]. split; [|split].
  - apply tc_frames_mono. unfold s. rewrite (pre_roll_exact _ _ S0). exact Sp.
  - apply frames_le. unfold fr. rewrite inject_Z_plus. change (inject_Z 2) with (2 # 1)%Q. lra.
  - intros t Et. unfold fr in Et. unfold q_within, tol. apply Qle_bool_iff, Qabs_Qle_condition. change frame_us with mpc. split; lra.
Qed.

(* the rows of a cue of the domain, as the decoder lemmas want them *)
Lemma cue_rows : forall cap, cap_dom cap -> has_word cap ->
  let lines := split_ch 10 (layout_line (w_text cap)) in let first := 16 - Z.of_nat (length lines) in
  1 <= first /\ first + Z.of_nat (length lines) <= 16 /\ Forall (fun line => forallb is_basic line = true) lines
  /\ rows_short lines /\ refines 32 (words (w_text cap)) (flat_map words lines) = true /\ flat_map words lines <> [].
Proof.
  intros cap [B L] HW lines first.
  assert (Er : layout_rows (w_text cap) = number_rows first lines) by reflexivity.
  pose proof (layout_rows_count (w_text cap)) as C. rewrite Er, number_rows_length in C, L.
  assert (Rf : refines 32 (words (w_text cap)) (flat_map words lines) = true).
  { pose proof (layout_refines_words_basic (w_text cap) B) as X. rewrite Er, number_rows_snd in X. exact X. }
  split; [unfold first; lia|]. split; [unfold first; lia|]. split; [|split; [|split; [exact Rf|]]].
  - apply Forall_forall. intros line Hl. pose proof (layout_rows_basic (w_text cap) B) as RB. rewrite Er in RB.
    rewrite <- (number_rows_snd lines first) in Hl. apply in_map_iff in Hl. destruct Hl as (r & <- & Hr). exact (RB r Hr).
  - apply Forall_forall. intros line Hl. apply (rows_le_32 (w_text cap)). rewrite Er, number_rows_snd. exact Hl.
  - intros E. rewrite E in Rf. unfold has_word in HW. destruct (words (w_text cap)); [exact (HW eq_refl)|discriminate].
Qed.

Lemma item_run : forall cap y p, good cap y -> cap_dom cap -> has_word cap -> below_100h cap ->
  (0 <= p)%Q -> (p <= w_start cap - cap_words cap * mpc)%Q -> (0 <= w_start cap)%Q -> (w_start cap <= w_end cap)%Q ->
  forall done st tk ds nodes q tm tc frm, ginv done p st q ->
  exists st' tk' ds' nodes' q' tm' tc' fr',
    fold_left translate_line (map to_sline (map pline (item_ls y))) (ST0 st tk LNone ds nodes q tm tc frm)
    = ST0 st' tk' LNone ds' nodes' q' tm' tc' fr' /\ ginv (done ++ [cap]) (w_start cap) st' q'.
Proof.
  intros cap [[ws s] eo] p (G1 & G2 & G3 & G4) D HW H100 P0p Sp S1 S2 done st tk ds nodes q tm tc frm I. cbn [fst snd] in *.
  destruct (cue_rows cap D HW) as (H1f & H2f & Bl & Rs & Rf & Wn). destruct D as [B L].
  pose proof (text_words_explicit (w_text cap) ws L B G1) as Ews.
  set (lines := split_ch 10 (layout_line (w_text cap))) in *. set (first := 16 - Z.of_nat (length lines)) in *.
  change (layout_rows (w_text cap)) with (number_rows first lines) in Ews. subst ws.
  set (ws := flat_map roww (number_rows first lines)) in *.
  unfold cap_words in Sp. rewrite G1 in Sp.
  destruct (load_clock ws (w_start cap) p P0p Sp S1 ltac:(unfold below_100h in H100; lra)) as (Fr & Fp & Ka & Qw). rewrite <- G3 in Fr, Fp, Ka, Qw.
  set (n := Z.of_nat (length ws)) in *.
  destruct (get_time_frames (tc_frames s) (n + 4) Fr ltac:(lia)) as (t1 & Gt1 & Et1).
  destruct (get_time_frames (tc_frames s) (n + 6) Fr ltac:(lia)) as (t2 & Gt2 & Et2).
  (* the load line *)
  unfold item_ls, cap_lines, unw. cbn [fst snd map].
  change (to_sline (pline (s, pre4 ++ ws ++ post3, EOC)))
    with (format_frames (tc_frames s), map word_z ((pre4 ++ ws ++ post3) ++ [EOC])).
  change (map word_z ((pre4 ++ ws ++ post3) ++ [EOC])) with (load_words first lines). cbn [fold_left].
  destruct (load_line_run creator0 creator0 0 lines first st tk ds nodes q tm tc frm (format_frames (tc_frames s)) t1 t2
              H1f H2f Bl Gt1 Gt2) as (tk1 & ds1 & nodes1 & E1 & P1 & T1 & W1 & Sh1).
  rewrite E1.
  assert (Wne : words (ntext nodes1) <> []) by (rewrite W1; exact Wn).
  unfold after_eoc, queued. rewrite (words_not_empty nodes1 P1 Wne).
  assert (I1 : ginv (done ++ [cap]) (w_start cap) (closed st q t1) (Some (mkCr nodes1 SNone, t2))).
  { destruct (closed_ginv done p st q t1 I) as [CR CG].
    apply (GSome _ _ _ done cap nodes1 t2 (tc_frames s + (n + 6)));
      [reflexivity|exact CR| |exact P1|exact T1|exact Wne|exact (Sh1 Rs)|rewrite W1; exact Rf|exact (Qw t2 Et2)|exact Et2|lia|lia].
    eapply Forall_impl; [|exact (CG (tc_frames s + (n + 4)) Et1 ltac:(lia))]. intros x. apply capG_weaken. lia. }
  destruct eo as [e|].
  - destruct G4 as [G4|G4]; [|discriminate]. inversion G4; subst e. cbn [map fold_left].
    change (to_sline (pline (w_end cap, [EDM], EDM))) with (format_frames (tc_frames (w_end cap)), [w_edm; w_edm]).
    assert (Fe : 0 <= tc_frames (w_end cap) < 10800000) by (apply frames_range; [lra|exact H100]).
    destruct (get_time_frames (tc_frames (w_end cap)) 0 Fe ltac:(lia)) as (t3 & Gt3 & Et3).
    destruct (clear_line_run creator0 creator0 0 (closed st q t1) tk1 ds1 [] (Some (mkCr nodes1 SNone, t2)) t2
                (format_frames (tc_frames s)) (Z.of_nat (length (flat_map roww (number_rows first lines))) + 8)
                (format_frames (tc_frames (w_end cap))) t3 Gt3) as (ds2 & E2).
    rewrite E2. eexists _, _, _, _, _, _, _, _. split; [reflexivity|].
    destruct (closed_ginv _ _ _ _ t3 I1) as [CR CG]. apply GNone; [exact CR|].
    apply (CG (tc_frames (w_end cap) + 0) Et3). pose proof (tc_frames_mono _ _ S2). lia.
  - cbn [map fold_left]. eexists _, _, _, _, _, _, _, _. split; [reflexivity|exact I1].
Qed.

(* the spacing hypothesis without `end <= next start`: a cue may end after the next one starts (the writer then drops its
   clear line; the next load's EDM closes it) *)
Fixpoint spaced_w (prev_start : Q) (caps : list wcap) : Prop :=
  match caps with
  | [] => True
  | c :: t => (prev_start <= w_start c - cap_words c * mpc)%Q /\ (w_start c <= w_end c)%Q /\ spaced_w (w_start c) t
  end.
Lemma spaced_w_of : forall caps p, caps_spaced p caps -> spaced_w p caps.
Proof. induction caps as [|c t IH]; intros p S; [exact I|]. destruct S as (S1 & S2 & _ & S4). cbn [spaced_w]. auto. Qed.
Lemma spaced_w_each : forall caps prev, (0 <= prev)%Q -> spaced_w prev caps ->
  Forall (fun c => (0 <= w_start c - cap_words c * mpc)%Q /\ (0 <= w_start c)%Q /\ (0 <= w_end c)%Q) caps.
Proof.
  induction caps as [|c t IH]; intros prev P S; [constructor|]. destruct S as (S1 & S2 & S4).
  pose proof (cap_words_nonneg c) as CW.
  constructor; [split; [lra|split; lra]|]. apply (IH (w_start c)); [lra|exact S4].
Qed.

Lemma items_run : forall caps out, Forall2 good caps out ->
  forall p, (0 <= p)%Q -> spaced_w p caps -> Forall cap_dom caps -> Forall has_word caps -> Forall below_100h caps ->
  forall done st tk ds nodes q tm tc frm, ginv done p st q ->
  exists st' tk' ds' nodes' q' tm' tc' fr' p',
    fold_left translate_line (map to_sline (map pline (flat_map item_ls out))) (ST0 st tk LNone ds nodes q tm tc frm)
    = ST0 st' tk' LNone ds' nodes' q' tm' tc' fr' /\ ginv (done ++ caps) p' st' q'.
Proof.
  intros caps out G. induction G as [|cap y caps out Gy G IH]; intros p P0 S D HW H100 done st tk ds nodes q tm tc frm I.
  - cbn [flat_map map fold_left]. rewrite app_nil_r. eexists _, _, _, _, _, _, _, _, p. split; [reflexivity|exact I].
  - pose proof (spaced_w_each (cap :: caps) p P0 S) as Each. inversion Each as [|? ? (E1 & E2 & E3) _]; subst.
    destruct S as (S1 & S2 & S4).
    inversion D as [|? ? Dc Dt]; subst. inversion HW as [|? ? Wc Wt]; subst. inversion H100 as [|? ? Hc Ht]; subst.
    cbn [flat_map]. rewrite !map_app, fold_left_app.
    destruct (item_run cap y p Gy Dc Wc Hc P0 S1 E2 S2 done st tk ds nodes q tm tc frm I)
      as (st1 & tk1 & ds1 & n1 & q1 & tm1 & tc1 & fr1 & Ex & I1).
    rewrite Ex. destruct (IH (w_start cap) E2 S4 Dt Wt Ht (done ++ [cap]) st1 tk1 ds1 n1 q1 tm1 tc1 fr1 I1)
      as (st2 & tk2 & ds2 & n2 & q2 & tm2 & tc2 & fr2 & p2 & E2' & I2).
    rewrite E2'. rewrite <- app_assoc in I2. eexists _, _, _, _, _, _, _, _, p2. split; [reflexivity|exact I2].
Qed.

(* the store at the end of the document: nothing for the two final checks of SCCReader.read to refuse *)
Lemma final_G : forall done p st q, ginv done p st q ->
  Forall (fun pc => is_flash pc = false /\ short (cap_text pc) = true) (st_caps (closed st q 0)).
Proof.
  intros done p st q H. destruct H as [_ H|done' cap nodes a ka _ _ H P T W Sh _ _ Ea K0 _].
  - cbn [closed]. eapply Forall_impl; [|exact H]. intros x X. split; [exact (capG_not_flash _ x X)|exact (proj1 X)].
  - destruct (closed_parts st nodes a 0 P T W) as (cn & lay & -> & _ & S). cbn [st_caps]. apply Forall_app. split.
    + eapply Forall_impl; [|exact (ulb_G ka st (mkPre a 0 cn lay) [] ka H Ea (Z.le_refl ka))].
      intros x X. split; [exact (capG_not_flash _ x X)|exact (proj1 X)].
    + constructor; [|constructor]. split; [|exact (S Sh)]. unfold is_flash. cbn [pc_start pc_end].
      assert (X : (0 - a <= 0)%Q).
      { rewrite Ea. unfold fr. assert (0 <= inject_Z ka)%Q by (change 0%Q with (inject_Z 0); rewrite <- Zle_Qle; exact K0).
        pose proof mpc_pos. nra. }
      apply Qle_bool_iff in X. rewrite X. reflexivity.
Qed.

Definition caps_ok (caps : list wcap) : Prop :=
  Forall cap_dom caps /\ spaced_w 0 caps /\ Forall has_word caps /\ Forall below_100h caps.

Lemma caps_ok_of_composed : forall caps, Forall cap_dom caps -> caps_spaced 0 caps -> Forall has_word caps ->
  Forall below_100h caps -> caps_ok caps.
Proof. intros caps D S W H. split; [exact D|split; [apply spaced_w_of; exact S|split; assumption]]. Qed.

Theorem reread_stash : forall caps, caps_ok caps ->
  exists stf, reread caps = RRRead (finish_read stf)
              /\ ok_reread (map to_cue caps) (map obs (st_caps stf)) = 0
              /\ length (st_caps stf) = length caps
              /\ Forall (fun pc => is_flash pc = false /\ short (cap_text pc) = true) (st_caps stf).
Proof.
  intros caps (D & S & HW & H100).
  destruct (write_total caps) as (doc & W).
  { intros c Hc. exact (proj2 (proj1 (Forall_forall _ _) D c Hc)). }
  destruct (doc_lines caps doc W D (spaced_w_each caps 0 (Qle_refl 0) S)) as (_ & out & _ & _ & G & PD).
  unfold reread. rewrite W, PD.
  destruct (items_run caps out G 0%Q (Qle_refl 0) S D HW H100 [] stash0 tracker0 false [] None 0%Q (lit "00:00:00;00") 0
              (GNone [] 0 stash0 (Forall2_nil R) (Forall_nil _)))
    as (st' & tk' & ds' & n' & q' & tm' & tc' & fr' & p' & E & I).
  cbn [app] in I. pose proof (proj1 (closed_ginv caps p' st' q' 0 I)) as X.
  exists (closed st' q' 0). split; [|split; [|split]].
  - unfold read, run_lines. change (rstate0 0) with (ST0 stash0 tracker0 LNone false [] None 0%Q (lit "00:00:00;00") 0).
    rewrite E. cbn [r_err ST]. unfold flush_implicit. cbn [r_active r_queue ST].
    destruct q' as [[c0 a]|]; reflexivity.
  - apply ok_reread_R. exact X.
  - clear - X. induction X; cbn [length]; congruence.
  - exact (final_G caps p' st' q' I).
Qed.

(* THE RE-READ CLAUSE, unconditional on the domain: the reader model returns captions for the writer model's document, one
   per cue, with the cue's words and a start within three frames *)
Theorem reread_store : forall caps, caps_ok caps -> caps <> [] ->
  exists pcs, reread caps = RRRead (ROk pcs) /\ ok_reread (map to_cue caps) (map obs pcs) = 0 /\ length pcs = length caps.
Proof.
  intros caps H Ne. destruct (reread_stash caps H) as (stf & E & O & L & F).
  assert (LC : length_check (map to_lcap (st_caps stf)) = None).
  { apply short_texts_pass_length_check. apply Forall_forall. intros c Hc. apply in_map_iff in Hc. destruct Hc as (pc & <- & Hp).
    rewrite Forall_forall in F. exact (proj2 (F pc Hp)). }
  assert (FL : existsb is_flash (st_caps stf) = false).
  { apply not_true_is_false. intros X. apply existsb_exists in X. destruct X as (pc & Hp & Hf). rewrite Forall_forall in F.
    rewrite (proj1 (F pc Hp)) in Hf. discriminate. }
  assert (FR : finish_read stf = ROk (fix_last (st_caps stf))).
  { unfold finish_read. rewrite LC, FL. destruct (st_caps stf) as [|c t] eqn:Ec; [|reflexivity].
    destruct caps; [congruence|discriminate]. }
  exists (fix_last (st_caps stf)). split; [rewrite E, FR; reflexivity|]. split.
  - rewrite obs_fix_last. exact O.
  - rewrite <- L. rewrite <- (map_length obs), obs_fix_last, map_length. reflexivity.
Qed.

Theorem reread_conditional : forall caps o, caps_ok caps -> reread_obs caps = Some o -> ok_reread (map to_cue caps) o = 0.
Proof.
  intros caps o H. destruct (reread_stash caps H) as (stf & E & O & _ & _). unfold reread_obs. rewrite E.
  destruct (finish_read stf) as [pcs| |] eqn:F; try discriminate. intros X. inversion X; subst o.
  change (map (fun c => (pc_start c, strip (cap_text c))) pcs) with (map obs pcs). rewrite (finish_obs stf pcs F). exact O.
Qed.

(* the only ways the reader model could refuse the writer's document are the two final checks of SCCReader.read (and by
   reread_store neither fires) *)
Theorem reread_refusals : forall caps, caps_ok caps -> caps <> [] ->
  (exists pcs, reread caps = RRRead (ROk pcs)) \/ (exists m, reread caps = RRRead (RLen m)) \/ reread caps = RRRead (RErr ETiming).
Proof.
  intros caps H Ne. destruct (reread_store caps H Ne) as (pcs & E & _). left. exists pcs. exact E.
Qed.

(* in the terms of the boolean the harness evaluates: on the domain, the composition check succeeds as soon as
   the reader model returns captions *)
Theorem roundtrip_ok_when_read : forall caps pcs, caps_ok caps -> reread caps = RRRead (ROk pcs) -> roundtrip_ok caps = true.
Proof.
  intros caps pcs H E. unfold roundtrip_ok.
  assert (O : reread_obs caps = Some (map obs pcs)) by (unfold reread_obs; rewrite E; reflexivity).
  rewrite O. change (map (fun c => mkCue (w_text c) (w_start c) (w_end c)) caps) with (map to_cue caps).
  rewrite (reread_conditional caps _ H O). reflexivity.
Qed.

Theorem roundtrip_ok_all : forall caps, caps_ok caps -> caps <> [] -> roundtrip_ok caps = true.
Proof. intros caps H Ne. destruct (reread_store caps H Ne) as (pcs & E & _). exact (roundtrip_ok_when_read caps pcs H E). Qed.
