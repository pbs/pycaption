(* C12: precedence of style-carried tts:textAlign on read, and the alignment a written <p> / <span> reads back. *)
From Coq Require Import List ZArith.
From PV Require Import model.Geometry model.DfxpAlign model.DfxpStyleAlign.
From PV Require Import proofs.Pos12AlignFacts.
Import ListNotations.
Open Scope Z_scope.

Definition plain (s : asource) : Prop := src_own s = None /\ Forall (fun v => v = None) (src_styles s).

Lemma styles_value_skip : forall pre rest, Forall (fun v => v = None) pre -> styles_value (pre ++ rest) None = styles_value rest None.
Proof. intros pre rest H. induction H as [|x t -> _ IH]; [reflexivity|exact IH]. Qed.

Lemma plain_none : forall s, plain s -> on_element_or_styles s = None.
Proof.
  intros [o st] [H1 H2]. cbn in *. subst o. rewrite <- (app_nil_r st). exact (styles_value_skip st [] H2).
Qed.

Lemma parents_value_skip : forall pre rest, Forall plain pre -> parents_value (pre ++ rest) None = parents_value rest None.
Proof.
  intros pre rest H. induction H as [|p t Hp _ IH]; [reflexivity|]. cbn [app parents_value]. rewrite (plain_none p Hp). exact IH.
Qed.

(* 1. the element's own attribute wins over everything *)
Theorem own_attribute_wins : forall v st parents region, find_text_align (Some (mkSrc (Some v) st)) parents region = Some v.
Proof. reflexivity. Qed.

(* 2. no own attribute: the first style source of the element that has a (non-empty) value *)
Theorem first_style_wins : forall pre c v post parents region, Forall (fun x => x = None) pre ->
  find_text_align (Some (mkSrc None (pre ++ Some (c :: v) :: post))) parents region = Some (c :: v).
Proof.
  intros pre c v post parents region H. unfold find_text_align, on_element_or_styles. cbn [src_own src_styles].
  rewrite styles_value_skip by assumption. reflexivity.
Qed.

(* 3. nothing on the element: the NEAREST parent that has a value (own attribute or style), parents further out and the
      region are not consulted *)
Theorem nearest_parent_wins : forall e pre p c v outer region, plain e -> Forall plain pre ->
  on_element_or_styles p = Some (c :: v) ->
  find_text_align (Some e) (pre ++ p :: outer) region = Some (c :: v).
Proof.
  intros e pre p c v outer region He Hpre Hp. unfold find_text_align.
  rewrite (plain_none e He), parents_value_skip by assumption. cbn [parents_value]. rewrite Hp. reflexivity.
Qed.

(* 4. nothing on the element and its parents: the region's value (own attribute, else its styles) *)
Theorem region_is_last : forall e parents region, plain e -> Forall plain parents ->
  find_text_align (Some e) parents region = on_element_or_styles region.
Proof.
  intros e parents region He Hp. unfold find_text_align.
  rewrite (plain_none e He), <- (app_nil_r parents), parents_value_skip by assumption. reflexivity.
Qed.

(* ---- what a WRITTEN element reads back ------------------------------------------------------------------------------ *)
(* the region the writer made from the alignment a (written_alignment: only the components that are set) *)
Definition region_ta (a : option alignment) : asource := mkSrc (fst (written_alignment a)) [].
Definition region_da (a : option alignment) : asource := mkSrc (snd (written_alignment a)) [].
Definition h_of (a : option alignment) : halign := match a with Some al => match al_h al with Some h => h | None => HStart end | None => HStart end.
Definition v_of (a : option alignment) : valign := match a with Some al => match al_v al with Some v => v | None => VBottom end | None => VBottom end.

Lemma region_source_value : forall o, on_element_or_styles (mkSrc o []) = o.
Proof. intros [x|]; reflexivity. Qed.

(* an element without any text-align on itself and its parents (no caption style text-align): the layout's alignment,
   absent parts start / after - the case C12_dfxp_layout_roundtrip_written_corollary is about *)
Theorem written_plain_alignment : forall e parents a, plain e -> Forall plain parents ->
  element_alignment (Some e) parents (region_ta a) (region_da a) = Some (mkAlign (Some (h_of a)) (Some (v_of a))).
Proof.
  intros e parents a He Hp. unfold element_alignment. rewrite region_is_last by assumption.
  unfold region_ta, region_da. rewrite !region_source_value. apply alignment_strings_roundtrip.
Qed.

(* a <p> / <span> carrying tts:textAlign = the name of t (caption style / style node 'text-align': t, written by
   _recreate_style) - directly, through a style class, or on the nearest styled ancestor: the horizontal alignment read
   back is t, whatever the layout's alignment says; the vertical one is the layout's (default after) *)
Theorem written_styled_alignment : forall e parents a t,
  find_text_align (Some e) parents (region_ta a) = Some (halign_name t) ->
  element_alignment (Some e) parents (region_ta a) (region_da a) = Some (mkAlign (Some t) (Some (v_of a))).
Proof.
  intros e parents a t H. unfold element_alignment. rewrite H. unfold region_da. rewrite region_source_value.
  unfold read_alignment, written_alignment. cbn [snd].
  change (Some (halign_name t)) with (option_map halign_name (Some t)). rewrite read_halign_written, read_valign_written.
  destruct a as [[h v]|]; reflexivity.
Qed.
