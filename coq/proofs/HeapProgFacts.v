(* HeapProgFacts.v - soundness of the ownership analysis of model/HeapProg.v, for every program; the writer programs pass it
   (the variants that break the copy discipline: HeapProgHist.v). *)
From Coq Require Import List ZArith Bool Arith Lia.
From PV Require Import lib.Sx lib.Str lib.Result model.Store model.Iso model.HeapProg proofs.StoreFacts proofs.IsoFacts
                       proofs.DeepcopyFacts.
Import ListNotations.
Open Scope Z_scope.

Lemma own_filter : forall (f : nat -> bool) a r, own (filter f a) r = own a r && f r.
Proof.
  intros f a r. unfold own. induction a as [|y t IH]; simpl; [reflexivity|].
  destruct (f y) eqn:Ey; simpl; rewrite IH.
  - destruct (Nat.eqb r y) eqn:Ery; simpl; [|reflexivity]. apply Nat.eqb_eq in Ery. subst. rewrite Ey. reflexivity.
  - destruct (Nat.eqb r y) eqn:Ery; simpl; [|reflexivity]. apply Nat.eqb_eq in Ery. subst. rewrite Ey.
    rewrite andb_false_r. reflexivity.
Qed.

Lemma own_aset : forall a x b r, own (aset a x b) r = if Nat.eqb r x then b else own a r.
Proof.
  intros a x b r. unfold aset. destruct b.
  - unfold own. simpl. destruct (Nat.eqb r x); reflexivity.
  - rewrite own_filter. destruct (Nat.eqb r x); simpl; [apply andb_false_r|apply andb_true_r].
Qed.

Lemma own_meet : forall a a' r, own (meet a a') r = own a r && own a' r.
Proof. intros. unfold meet. apply own_filter. Qed.

Lemma sub_own : forall a a' r, sub a a' = true -> own a r = true -> own a' r = true.
Proof.
  intros a a' r Hs Ho. unfold sub in Hs. rewrite forallb_forall in Hs. unfold own in Ho at 1.
  apply existsb_exists in Ho. destruct Ho as (y & Hy & E). apply Nat.eqb_eq in E. subst. auto.
Qed.

Definition senv (m n : nat) (a : aenv) (env : reg -> val) : Prop := forall r, own a r = true -> inr m n (env r).

Lemma senv_mono : forall m n n' a env, senv m n a env -> (n <= n')%nat -> senv m n' a env.
Proof. intros m n n' a env H Hn r Hr. eapply inr_mono; eauto. Qed.

Lemma senv_setr : forall m n a env x b v,
  senv m n a env -> (b = true -> inr m n v) -> senv m n (aset a x b) (setr env x v).
Proof.
  intros m n a env x b v H Hv r Hr. rewrite own_aset in Hr. unfold setr.
  destruct (Nat.eqb r x); auto.
Qed.

Lemma inr_scal : forall m n v, inr m n (scal v).
Proof. intros m n v. destruct v; exact I. Qed.

Lemma vkey_inr : forall m n t, inr m n (vkey_of_tree t).
Proof. intros m n t. destruct t; exact I. Qed.

Lemma ev_inr : forall m n a env o e, senv m n a env -> eown a e = true -> inr m n (ev o env e).
Proof.
  intros m n a env o e H He. destruct e; cbn in *; try exact I; auto. apply vkey_inr.
Qed.

Lemma map_ev_inr : forall m n a env o its,
  senv m n a env -> forallb (fun p => eown a (fst p) && eown a (snd p)) its = true ->
  items_inr m n (map (fun p => (ev o env (fst p), ev o env (snd p))) its).
Proof.
  intros m n a env o its H Hf. unfold items_inr. rewrite Forall_forall. intros kv Hin.
  apply in_map_iff in Hin. destruct Hin as (p & <- & Hp). rewrite forallb_forall in Hf.
  specialize (Hf p Hp). apply andb_true_iff in Hf. destruct Hf as [A B]. cbn [fst snd].
  split; eapply ev_inr; eauto.
Qed.

Lemma keys_inr : forall m n its, items_inr m n (map (fun kv : val * val => (VNone, scal (fst kv))) its).
Proof.
  intros m n its. unfold items_inr. rewrite Forall_forall. intros kv Hin.
  apply in_map_iff in Hin. destruct Hin as (p & <- & _). cbn [fst snd]. split; [exact I|apply inr_scal].
Qed.

Lemma sel_items_incl : forall eo its kv, In kv (sel_items eo its) -> In kv its.
Proof. intros eo its kv H. unfold sel_items in H. destruct eo; [apply filter_In in H; tauto|exact H]. Qed.

Definition enter (h : hstate) (k x : reg) (kv : val * val) : hstate :=
  mkH (h_st h) (setr (setr (h_env h) k (fst kv)) x (snd kv)) (h_lim h) (h_log h) (h_copies h) (h_out h).

Definition exec_loop (o : wopts) (k x : reg) (body : cmd) : list (val * val) -> hstate -> hstate * option err :=
  fix loop l h :=
    match l with
    | [] => (h, None)
    | kv :: r => match exec o body (enter h k x kv) with (h1, None) => loop r h1 | res => res end
    end.

Lemma exec_CLoop : forall o eo k x y body h,
  exec o (CLoop eo k x y body) h = exec_loop o k x body (sel_items eo (items_of (h_st h) (h_env h y))) h.
Proof. reflexivity. Qed.

(* a loop invariant: Inv holds between the rounds and at the normal exit, Exit after a round that raised *)
Lemma exec_loop_inv : forall o k x body (Inv Exit : hstate -> Prop) (Q : val * val -> Prop),
  (forall kv h h1 e, Q kv -> Inv h -> exec o body (enter h k x kv) = (h1, e) ->
                     match e with None => Inv h1 | Some _ => Exit h1 end) ->
  forall l h h' e, Forall Q l -> Inv h -> exec_loop o k x body l h = (h', e) ->
                   match e with None => Inv h' | Some _ => Exit h' end.
Proof.
  intros o k x body Inv Exit Q Hstep. induction l as [|kv r IH]; intros h h' e Hl Hi He; cbn in He.
  - inversion He; subst. exact Hi.
  - inversion Hl as [|? ? Hkv Hr]; subst. pose proof (Hstep kv h) as Hs.
    destruct (exec o body (enter h k x kv)) as [h1 [e1|]].
    + inversion He; subst. exact (Hs _ _ Hkv Hi eq_refl).
    + exact (IH h1 h' e Hr (Hs _ _ Hkv Hi eq_refl) He).
Qed.

(* ---- soundness: a program that passes the analysis assigns only inside what the call allocated itself ------------------ *)
Definition exec_ok (st0 : store) (a' : aenv) (h h' : hstate) (e : option err) : Prop :=
  inv st0 (h_st h') /\ (length (h_st h) <= length (h_st h'))%nat /\
  (e = None -> senv (length st0) (length (h_st h')) a' (h_env h')).

Lemma ok_env : forall st0 a' h env lim log cp out e,
  inv st0 (h_st h) -> (e = None -> senv (length st0) (length (h_st h)) a' env) ->
  exec_ok st0 a' h (mkH (h_st h) env lim log cp out) e.
Proof. intros. split; [assumption|]. split; [apply Nat.le_refl|assumption]. Qed.

Lemma ok_alloc : forall st0 a h x st1 v lim log cp out,
  senv (length st0) (length (h_st h)) a (h_env h) ->
  inv st0 st1 -> (length (h_st h) <= length st1)%nat -> inr (length st0) (length st1) v ->
  exec_ok st0 (aset a x true) h (mkH st1 (setr (h_env h) x v) lim log cp out) None.
Proof.
  intros st0 a h x st1 v lim log cp out Hs I1 L1 V1. split; [exact I1|]. split; [exact L1|]. intros _.
  apply senv_setr; [eapply senv_mono; eauto|intros _; exact V1].
Qed.

Lemma ok_new_obj : forall st0 a h x kind its st1 v lim log cp out,
  inv st0 (h_st h) -> senv (length st0) (length (h_st h)) a (h_env h) ->
  items_inr (length st0) (length (h_st h)) its -> new_obj (h_st h) kind its = (st1, v) ->
  exec_ok st0 (aset a x true) h (mkH st1 (setr (h_env h) x v) lim log cp out) None.
Proof.
  intros st0 a h x kind its st1 v lim log cp out Hinv Hs Hits En.
  destruct (inv_new_obj _ _ _ _ _ _ Hinv Hits En) as (A & B & C). apply ok_alloc; assumption.
Qed.

Lemma ok_store : forall st0 a h st' lim log cp out,
  inv st0 st' -> length st' = length (h_st h) -> senv (length st0) (length (h_st h)) a (h_env h) ->
  exec_ok st0 a h (mkH st' (h_env h) lim log cp out) None.
Proof.
  intros st0 a h st' lim log cp out I1 L1 Hs. split; [exact I1|]. cbn [h_st h_env]. rewrite L1.
  split; [apply Nat.le_refl|intros _; exact Hs].
Qed.

Lemma exec_sound : forall o c a a' st0 h h' e,
  check c a = Some a' -> inv st0 (h_st h) -> senv (length st0) (length (h_st h)) a (h_env h) ->
  exec o c h = (h', e) -> exec_ok st0 a' h h' e.
Proof.
  intros o c.
  induction c as [ |c1 IHc1 c2 IHc2|x e1|x y|x y|x y k1|x y|x k1 e1|x k1|x e1|x kind its|x f e1|b c1 IHc1 c2 IHc2
                 |eo k x y c IHc|e1|er];
    intros a a' st0 h h' e Hc Hinv Hs He; [| | | | | | | | | | | | |rewrite exec_CLoop in He| |]; cbn [check exec] in *.
  - injection Hc as <-; inversion He; subst. destruct h'. apply ok_env; auto.
  - destruct (check c1 a) as [a1|] eqn:E1; [|discriminate].
    destruct (exec o c1 h) as [h1 [ee|]] eqn:X1; destruct (IHc1 _ _ _ _ _ _ E1 Hinv Hs X1) as (A & B & C).
    + inversion He; subst. split; [exact A|]. split; [exact B|]. discriminate.
    + destruct (IHc2 _ _ _ _ _ _ Hc A (C eq_refl) He) as (A2 & B2 & C2). split; [exact A2|]. split; [lia|exact C2].
  - injection Hc as <-; inversion He; subst. apply ok_env; auto. intros _.
    apply senv_setr; auto. intros Hb. eapply ev_inr; eauto.
  - injection Hc as <-. destruct (deepcopy (dc_fuel (h_st h)) (h_st h) (h_env h y)) as [[st1 v]|] eqn:Ed.
    + inversion He; subst. destruct (deepcopy_inv _ _ _ _ _ _ Hinv Ed) as (A & B & C). apply ok_alloc; auto.
      destruct (h_env h y); try (subst v; exact I). exact C.
    + inversion He; subst. destruct h'. apply ok_env; auto. discriminate.
  - destruct (own a y) eqn:Oy; [|discriminate]. injection Hc as <-. pose proof (Hs y Oy) as Hy.
    destruct (h_env h y) as [z|s| |l] eqn:Ey;
      try (inversion He; subst; apply ok_env; auto; intros _; apply (senv_setr _ _ _ _ _ true); auto).
    destruct (new_obj (h_st h) (kind_of (h_st h) (VLoc l)) (items_of (h_st h) (VLoc l))) as [st1 v] eqn:En.
    inversion He; subst. eapply ok_new_obj; eauto. apply (items_of_inr _ _ _ Hinv Hy).
  - injection Hc as <-; inversion He; subst. apply ok_env; auto. intros _.
    apply senv_setr; auto. intros Hb. apply field_inr; auto.
  - injection Hc as <-.
    destruct (new_obj (h_st h) KList (map (fun kv : val * val => (VNone, scal (fst kv))) (items_of (h_st h) (h_env h y))))
      as [st1 v] eqn:En.
    inversion He; subst. eapply ok_new_obj; eauto. apply keys_inr.
  - destruct (own a x && eown a k1 && eown a e1) eqn:Eo; [|discriminate].
    apply andb_true_iff in Eo. destruct Eo as [Eo E3]. apply andb_true_iff in Eo. destruct Eo as [E1 E2].
    injection Hc as <-; inversion He; subst. apply ok_store; auto using length_set_field.
    apply inv_set_field; auto; eapply ev_inr; eauto.
  - destruct (own a x) eqn:E1; [|discriminate]. injection Hc as <-; inversion He; subst.
    apply ok_store; auto using length_del_field. apply inv_del_field; auto.
  - destruct (own a x && eown a e1) eqn:Eo; [|discriminate]. apply andb_true_iff in Eo. destruct Eo as [E1 E2].
    injection Hc as <-; inversion He; subst. apply ok_store; auto using length_append_item.
    apply inv_append_item; auto. eapply ev_inr; eauto.
  - destruct (forallb (fun p => eown a (fst p) && eown a (snd p)) its) eqn:Ef; [|discriminate]. injection Hc as <-.
    destruct (new_obj (h_st h) kind (map (fun p => (ev o (h_env h) (fst p), ev o (h_env h) (snd p))) its)) as [st1 v] eqn:En.
    inversion He; subst. eapply ok_new_obj; eauto. eapply map_ev_inr; eauto.
  - injection Hc as <-. destruct (prim o f (ev o (h_env h) e1)) as [v|er]; inversion He; subst.
    + apply ok_env; auto. intros _. apply (senv_setr _ _ _ _ _ true); auto. intros _. apply inr_scal.
    + destruct h'. apply ok_env; auto. discriminate.
  - (* CIf: whichever branch runs, what both branches own is owned *)
    destruct (check c1 a) as [a1|] eqn:E1; [|discriminate].
    destruct (check c2 a) as [a2|] eqn:E2; [|discriminate]. injection Hc as <-.
    assert (H12 : exists ai, exec_ok st0 ai h h' e /\ forall r, own (meet a1 a2) r = true -> own ai r = true).
    { destruct (evb o (h_st h) (h_env h) b); [exists a1|exists a2]; (split; [eauto|]);
        intros r Hr; rewrite own_meet in Hr; apply andb_true_iff in Hr; [exact (proj1 Hr)|exact (proj2 Hr)]. }
    destruct H12 as (ai & (A & B & C) & Hsub). split; [exact A|]. split; [exact B|]. intros En r Hr. apply (C En), Hsub, Hr.
  - (* CLoop: between the rounds the registers owned before the loop and at the head of the body are owned *)
    set (a0 := aset (aset a k (own a y)) x (own a y)) in *.
    destruct (check c a0) as [a1|] eqn:E1; [|discriminate].
    destruct (sub a0 a1) eqn:Esub; [|discriminate]. injection Hc as <-.
    pose (Exit := fun hc => inv st0 (h_st hc) /\ (length (h_st h) <= length (h_st hc))%nat).
    pose (Inv := fun hc => Exit hc /\ senv (length st0) (length (h_st hc)) (meet a0 a) (h_env hc)).
    pose (Q := fun kv : val * val => own a y = true ->
                 inr (length st0) (length (h_st h)) (fst kv) /\ inr (length st0) (length (h_st h)) (snd kv)).
    assert (G : match e with None => Inv h' | Some _ => Exit h' end).
    { apply (exec_loop_inv o k x c Inv Exit Q) with (4 := He).
      - intros kv hc h1 e1 Hkv [[Ic Lc] Sc] X1.
        assert (S0 : senv (length st0) (length (h_st hc)) a0 (h_env (enter hc k x kv))).
        { intros r0 Hr0. pose proof Hr0 as Hr1. unfold a0 in Hr1. rewrite !own_aset in Hr1. cbn [enter h_env]. unfold setr.
          assert (Hkv' : own a y = true -> inr (length st0) (length (h_st hc)) (fst kv) /\
                                            inr (length st0) (length (h_st hc)) (snd kv)).
          { intros Hy. destruct (Hkv Hy). split; eapply inr_mono; eauto. }
          destruct (Nat.eqb r0 x); [apply Hkv'; exact Hr1|]. destruct (Nat.eqb r0 k); [apply Hkv'; exact Hr1|].
          apply Sc. rewrite own_meet, Hr0, Hr1. reflexivity. }
        destruct (IHc _ _ st0 (enter hc k x kv) _ _ E1 Ic S0 X1) as (A & B & C). cbn [enter h_st] in B.
        assert (Ex : Exit h1) by (split; [exact A|lia]). destruct e1; [exact Ex|]. split; [exact Ex|].
        intros r0 Hr0. rewrite own_meet in Hr0. apply andb_true_iff in Hr0. exact (C eq_refl r0 (sub_own _ _ _ Esub (proj1 Hr0))).
      - rewrite Forall_forall. intros kv Hin Hy. apply sel_items_incl in Hin.
        pose proof (items_of_inr _ _ _ Hinv (Hs y Hy)) as Hi. unfold items_inr in Hi. rewrite Forall_forall in Hi. auto.
      - split; [split; [exact Hinv|apply Nat.le_refl]|]. intros r Hr. rewrite own_meet in Hr. apply andb_true_iff in Hr.
        exact (Hs r (proj2 Hr)). }
    destruct e; [destruct G as [A B]|destruct G as [[A B] C]]; (split; [exact A|]; split; [exact B|]); [discriminate|auto].
  - injection Hc as <-; inversion He; subst. apply ok_env; auto.
  - injection Hc as <-; inversion He; subst. destruct h'. apply ok_env; auto.
Qed.

Lemma senv_nil : forall m n env, senv m n [] env.
Proof. intros m n env r Hr. discriminate. Qed.

(* THE FRAME THEOREM: any program the analysis accepts, run on any store with any register file (argument, instance state)
   and options, leaves every location that existed before the call as it was and allocates a region closed under
   references - on the normal exit and on every raising exit. *)
Theorem prog_footprint_env : forall p a' o st env,
  check p [] = Some a' -> inv st (h_st (fst (exec o p (mkH st env (length st) [] 0 [])))).
Proof.
  intros p a' o st env Hc. destruct (exec o p (mkH st env (length st) [] 0 [])) as [h' e] eqn:E.
  destruct (exec_sound o p [] a' st (mkH st env (length st) [] 0 []) h' e Hc (inv_refl st) (senv_nil _ _ _) E) as (A & _).
  exact A.
Qed.

Theorem prog_footprint : forall p a' o st s,
  check p [] = Some a' -> inv st (h_st (fst (run_prog p o st s))).
Proof. intros. unfold run_prog, hstate0. eapply prog_footprint_env; eauto. Qed.

Theorem prog_preserves_store : forall p a' o st s l,
  check p [] = Some a' -> (l < length st)%nat -> get (h_st (fst (run_prog p o st s))) l = get st l.
Proof. intros. apply (inv_agree _ _ (prog_footprint p a' o st s H)). assumption. Qed.

Theorem prog_preserves_snapshots : forall p a' o st s fuel v,
  check p [] = Some a' -> wf st -> below (length st) v ->
  snap fuel (h_st (fst (run_prog p o st s))) v = snap fuel st v.
Proof. intros. apply snap_agree; auto. apply (inv_agree _ _ (prog_footprint p a' o st s H)). Qed.

Definition own_kinds : list Z := [W_DFXP; W_SAMI; W_LEGACY; W_SINGLE; W_VTT; W_SCC].

Lemma kind_cases : forall k, In k own_kinds \/ (body_of k = prog_copy_only /\ is_span_kind k = false).
Proof.
  intros k. unfold body_of, is_span_kind, own_kinds.
  destruct (Z.eqb_spec k W_DFXP) as [->|_]; [left; auto 7 using in_eq, in_cons|].
  destruct (Z.eqb_spec k W_SAMI) as [->|_]; [left; auto 7 using in_eq, in_cons|].
  destruct (Z.eqb_spec k W_LEGACY) as [->|_]; [left; auto 7 using in_eq, in_cons|].
  destruct (Z.eqb_spec k W_SINGLE) as [->|_]; [left; auto 7 using in_eq, in_cons|].
  destruct (Z.eqb_spec k W_VTT) as [->|_]; [left; auto 7 using in_eq, in_cons|].
  destruct (Z.eqb_spec k W_SCC) as [->|_]; [left; auto 7 using in_eq, in_cons|].
  right. split; reflexivity.
Qed.

(* the obligation of the eight writers: their programs pass the analysis (with and without the open_span reset line) *)
Theorem writers_owned : forall reset k, exists a', check (prog_with reset k) [] = Some a'.
Proof.
  intros reset k. destruct (kind_cases k) as [Hk|[Hb Hs]].
  - assert (H : forallb (fun k => if check (prog_with reset k) [] then true else false) own_kinds = true)
      by (destruct reset; vm_compute; reflexivity).
    rewrite forallb_forall in H. specialize (H k Hk). destruct (check (prog_with reset k) []); [eauto|discriminate].
  - unfold prog_with, reset_line. rewrite Hb, Hs, andb_false_r. eexists. reflexivity.
Qed.

Lemma wr_store_writeP : forall c k o i st s,
  wr_store (writeP c k o i st s) = h_st (fst (exec o (prog_with (fix15 c) k) (mkH st (inst_env i s) (length st) [] 0 []))).
Proof. intros. unfold writeP. destruct (exec o (prog_with (fix15 c) k) _) as [h e]. reflexivity. Qed.

Theorem writeP_inv : forall c k o i st s, inv st (wr_store (writeP c k o i st s)).
Proof.
  intros. rewrite wr_store_writeP. destruct (writers_owned (fix15 c) k) as [a' Ha]. eapply prog_footprint_env; eauto.
Qed.
Theorem writeP_preserves_input : forall c k o i st s fuel v,
  wf st -> below (length st) v -> snap fuel (wr_store (writeP c k o i st s)) v = snap fuel st v.
Proof. intros. apply snap_agree; auto. apply (inv_agree _ _ (writeP_inv c k o i st s)). Qed.

(* one program write inside a history *)
Theorem stepP_write_preserves : forall c w wid k o si,
  wf_world w ->
  let w' := fst (stepP c w (OWrite wid k o si)) in
  wf_world w' /\ w_sets w' = w_sets w /\
  (forall fuel v, below (length (w_st w)) v -> snap fuel (w_st w') v = snap fuel (w_st w) v).
Proof.
  intros c w wid k o si Hw. cbv zeta. unfold stepP.
  destruct (nth_error (w_sets w) si) as [s|] eqn:Es; cbn [fst w_st w_sets].
  - set (wi := match lookup wid (w_writers w) with Some x => x | None => winst0 end).
    destruct (inv_step_world w _ (w_readers w) (set_assoc wid (wr_inst (writeP c k o wi (w_st w) s)) (w_writers w)) Hw
                (writeP_inv c k o wi (w_st w) s)) as [A B]. split; [exact A|]. split; [reflexivity|exact B].
  - split; [exact Hw|]. split; reflexivity.
Qed.
