(* SccReadFacts.v - C10: the SCC reader model (result assembled from the PreCaption stash by folds) also returns a
   snapshot that is a function of the document; with RegionFacts.snap_build this covers all six reader models. *)
From Coq Require Import List ZArith Bool Arith Lia.
From PV Require Import lib.Sx lib.Str lib.StrFacts lib.Result model.Store model.Iso proofs.StoreFacts proofs.IsoFacts proofs.RegionFacts.
Import ListNotations.

Definition sc_tree (t : tree) : tree := match t with TInt z => TInt z | TStr s => TStr s | _ => TNone end.

Lemma snap_vkey : forall n st t, snap n st (vkey_of_tree t) = sc_tree t.
Proof. intros n st []; destruct n; reflexivity. Qed.

Definition scc_cap_expected (n : nat) (cap : tree) : tree :=
  TNode KCaption [(TInt 1, sc_tree (tfield cap 1)); (TInt 2, sc_tree (tfield cap 2));
                  (TInt 3, clean_trunc n (tfield cap 3)); (TInt 4, clean_trunc n (tfield cap 4));
                  (TInt 5, clean_trunc n (tfield cap 5))].

Definition scc_expected (n : nat) (t : tree) : tree :=
  let kv := match set_langs_t t with x :: _ => x | [] => (TNone, TNone) end in
  TNode KSet [(TInt 1, TNode KDict [(sc_tree (fst kv),
                                     TNode KCapList ((TInt 1, TNone) ::
                                                     map (fun cap => (TNone, scc_cap_expected n cap)) (telems (snd kv))))]);
              (TInt 2, TNode KDict []); (TInt 3, TNone)].

Definition stable (s0 : store) (v : val) (t : tree) : Prop :=
  forall sc n, ext s0 sc -> snap n sc v = clean_trunc n t.

Lemma stable_ext : forall s0 s1 v t, stable s0 v t -> ext s0 s1 -> stable s1 v t.
Proof. intros s0 s1 v t H X sc n Xc. apply H. eapply ext_trans; eauto. Qed.

Lemma build_stable : forall c t st st' v, fix2 c = true -> build (dflt c) t st = (st', v) -> stable st' v t.
Proof.
  intros c t st st' v Hc H sc n X.
  destruct (build_inv c t st st st' v Hc (inv_refl _) H) as (I1 & L1 & V1).
  rewrite (snap_built_stable st st' sc v n I1 X V1). eapply snap_build; eauto.
Qed.

Definition pre_obj (cap : tree) (vn vs vl : val) : obj :=
  mkObj KPre [(VInt 1, vkey_of_tree (tfield cap 1)); (VInt 2, vkey_of_tree (tfield cap 2));
              (VInt 3, vn); (VInt 4, vs); (VInt 5, vl)].

Definition pre_ok (s0 : store) (p : val) (cap : tree) : Prop :=
  exists ln vn vs vl, p = VLoc ln /\ get s0 ln = Some (pre_obj cap vn vs vl) /\
    stable s0 vn (tfield cap 3) /\ stable s0 vs (tfield cap 4) /\ stable s0 vl (tfield cap 5).

Lemma pre_ok_ext : forall s0 s1 p cap, pre_ok s0 p cap -> ext s0 s1 -> pre_ok s1 p cap.
Proof.
  intros s0 s1 p cap (ln & vn & vs & vl & E & G & A & B & C) X.
  exists ln, vn, vs, vl. split; [exact E|]. split.
  - destruct X as [Xa _]. rewrite Xa; [exact G|]. eapply get_some_lt; eauto.
  - split; [|split]; eapply stable_ext; eauto.
Qed.

Lemma scc_pre_ok : forall c st cap st' p,
  fix2 c = true -> scc_pre c st cap = (st', p) -> ext st st' /\ pre_ok st' p cap.
Proof.
  intros c st cap st' p Hc H. unfold scc_pre in H.
  destruct (build (dflt c) (tfield cap 3) st) as [st1 nodes] eqn:E1.
  destruct (build (dflt c) (tfield cap 4) st1) as [st2 style] eqn:E2.
  destruct (build (dflt c) (tfield cap 5) st2) as [st3 lay] eqn:E3.
  pose proof (build_ext c _ _ _ _ Hc E1) as X1. pose proof (build_ext c _ _ _ _ Hc E2) as X2.
  pose proof (build_ext c _ _ _ _ Hc E3) as X3.
  unfold new_obj, alloc in H. inversion H; subst. clear H.
  pose proof (ext_alloc st3 (pre_obj cap nodes style lay)) as X4. unfold pre_obj in X4.
  split; [eapply ext_trans; [exact X1|eapply ext_trans; [exact X2|eapply ext_trans; eauto]]|].
  exists (length st3), nodes, style, lay. split; [reflexivity|]. split; [apply get_app_new|].
  split; [|split].
  - eapply stable_ext; [eapply build_stable; eauto|]. eapply ext_trans; [exact X2|eapply ext_trans; eauto].
  - eapply stable_ext; [eapply build_stable; eauto|]. eapply ext_trans; eauto.
  - eapply stable_ext; [eapply build_stable; eauto|]. exact X4.
Qed.

Lemma pres_fold_ok : forall c, fix2 c = true ->
  forall caps s0 l done s1 pres,
    Forall2 (pre_ok s0) l done ->
    fold_left (fun (acc : store * list val) cap =>
                 let (s0, l) := acc in let (s1, p) := scc_pre c s0 cap in (s1, l ++ [p])) caps (s0, l) = (s1, pres) ->
    ext s0 s1 /\ Forall2 (pre_ok s1) pres (done ++ caps).
Proof.
  intros c Hc. induction caps as [|cap t IH]; intros s0 l done s1 pres Hl H; simpl in H.
  - inversion H; subst. rewrite app_nil_r. split; [apply ext_refl|exact Hl].
  - destruct (scc_pre c s0 cap) as [sa p] eqn:Ep.
    destruct (scc_pre_ok c s0 cap sa p Hc Ep) as (Xa & Pa).
    assert (Hl' : Forall2 (pre_ok sa) (l ++ [p]) (done ++ [cap])).
    { apply Forall2_app; [|constructor; [exact Pa|constructor]].
      eapply Forall2_weaken; [|exact Hl]. intros x y Hxy. eapply pre_ok_ext; eauto. }
    destruct (IH sa (l ++ [p]) (done ++ [cap]) s1 pres Hl' H) as (Xb & Hb).
    split; [eapply ext_trans; eauto|]. rewrite <- app_assoc in Hb. exact Hb.
Qed.

Lemma snap_S_loc : forall n st l o, get st l = Some o ->
  snap (S n) st (VLoc l) = TNode (o_kind o) (map (fun kv => (snap n st (fst kv), snap n st (snd kv))) (o_items o)).
Proof. intros n st l o H. cbn [snap]. rewrite H. reflexivity. Qed.
Lemma snap_int : forall n st z, snap n st (VInt z) = TInt z.
Proof. intros [] st z; reflexivity. Qed.
Lemma snap_none : forall n st, snap n st VNone = TNone.
Proof. intros [] st; reflexivity. Qed.

Definition cap_ok (s0 : store) (cp : val) (cap : tree) : Prop :=
  exists lc, cp = VLoc lc /\ forall sc n, ext s0 sc -> snap (S n) sc cp = scc_cap_expected n cap.

Lemma cap_ok_ext : forall s0 s1 cp cap, cap_ok s0 cp cap -> ext s0 s1 -> cap_ok s1 cp cap.
Proof.
  intros s0 s1 cp cap (lc & E & H) X. exists lc. split; [exact E|]. intros sc n Xc. apply H. eapply ext_trans; eauto.
Qed.

Lemma get_ext_new : forall s0 o sc, ext (s0 ++ [o]) sc -> get sc (length s0) = Some o.
Proof.
  intros s0 o sc [A L]. rewrite A; [apply get_app_new|]. rewrite app_length. simpl. lia.
Qed.

Lemma cap_of_pre_ok : forall s0 p cap s1 cp,
  pre_ok s0 p cap -> cap_of_pre s0 p = (s1, cp) -> ext s0 s1 /\ cap_ok s1 cp cap.
Proof.
  intros s0 p cap s1 cp (ln & vn & vs & vl & E & G & A & B & C) H. subst p.
  unfold cap_of_pre, new_obj, alloc in H. unfold field, items_of in H. rewrite G in H. unfold pre_obj in H.
  cbn [o_items assoc val_eqb Z.eqb Pos.eqb] in H. inversion H; subst. clear H.
  split; [apply ext_alloc|].
  exists (length s0). split; [reflexivity|]. intros sc n X.
  rewrite (snap_S_loc _ _ _ _ (get_ext_new _ _ _ X)). cbn [o_kind o_items map fst snd].
  assert (X0 : ext s0 sc) by (eapply ext_trans; [apply ext_alloc|exact X]).
  unfold scc_cap_expected. repeat rewrite snap_vkey. repeat rewrite snap_int.
  rewrite (A sc n X0), (B sc n X0), (C sc n X0). reflexivity.
Qed.

Definition cell_ok (s0 : store) (kv : val * val) (cap : tree) : Prop := fst kv = VNone /\ cap_ok s0 (snd kv) cap.

Lemma caps_fold_ok : forall pres s0 l done caps s1 out,
  Forall2 (cell_ok s0) l done -> Forall2 (pre_ok s0) pres caps ->
  fold_left (fun (acc : store * list (val * val)) p =>
               let (s0, l) := acc in let (s1, cp) := cap_of_pre s0 p in (s1, l ++ [(VNone, cp)])) pres (s0, l) = (s1, out) ->
  ext s0 s1 /\ Forall2 (cell_ok s1) out (done ++ caps).
Proof.
  induction pres as [|p t IH]; intros s0 l done caps s1 out Hl Hp H; cbn [fold_left] in H.
  - inversion Hp; subst. inversion H; subst. rewrite app_nil_r. split; [apply ext_refl|exact Hl].
  - inversion Hp as [|? cap ? caps' Hpc Hpt]; subst.
    destruct (cap_of_pre s0 p) as [sa cp] eqn:Ec.
    destruct (cap_of_pre_ok s0 p cap sa cp Hpc Ec) as (Xa & Ca).
    assert (Hl' : Forall2 (cell_ok sa) (l ++ [(VNone, cp)]) (done ++ [cap])).
    { apply Forall2_app; [|constructor; [split; [reflexivity|exact Ca]|constructor]].
      eapply Forall2_weaken; [|exact Hl]. intros x y [Hx Hy]. split; [exact Hx|eapply cap_ok_ext; eauto]. }
    assert (Hp' : Forall2 (pre_ok sa) t caps').
    { eapply Forall2_weaken; [|exact Hpt]. intros x y Hxy. eapply pre_ok_ext; eauto. }
    destruct (IH sa _ (done ++ [cap]) caps' s1 out Hl' Hp' H) as (Xb & Hb).
    split; [eapply ext_trans; eauto|]. rewrite <- app_assoc in Hb. exact Hb.
Qed.

Lemma cells_snap : forall s0 sc n out caps,
  Forall2 (cell_ok s0) out caps -> ext s0 sc ->
  map (fun kv => (snap (S n) sc (fst kv), snap (S n) sc (snd kv))) out
  = map (fun cap => (TNone, scc_cap_expected n cap)) caps.
Proof.
  intros s0 sc n out caps H X. induction H as [|[k v] cap t tc [Hk (lc & E & Hc)] Ht IH]; [reflexivity|].
  cbn [map fst snd] in *. subst k. rewrite IH. f_equal. rewrite (Hc sc n X). reflexivity.
Qed.

Theorem scc_read_result_function_of_document : forall c ri t st st' ri' s n,
  fix2 c = true -> fix3 c = true -> read c R_SCC ri t st = (st', ri', s) ->
  snap (S (S (S (S n)))) st' s = scc_expected n t.
Proof.
  intros c ri t st st' ri' s n Hc2 Hc3 H. unfold read in H. rewrite Z.eqb_refl in H. rewrite Hc3 in H. cbn [app] in H.
  set (kv := match set_langs_t t with x :: _ => x | [] => (TNone, TNone) end) in *.
  match type of H with (let '(_, _) := ?X in _) = _ => destruct X as [st1 pres] eqn:E1 end.
  destruct (pres_fold_ok c Hc2 _ _ _ [] _ _ (Forall2_nil _) E1) as (X1 & P1). cbn [app] in P1.
  match type of H with (let '(_, _) := ?X in _) = _ => destruct X as [st2 caps] eqn:E2 end.
  destruct (caps_fold_ok _ _ _ [] _ _ _ (Forall2_nil _) P1 E2) as (X2 & C2). cbn [app] in C2.
  unfold new_obj, alloc in H. unfold dflt in H. rewrite Hc2 in H. unfold new_obj, alloc in H.
  inversion H; subst. clear H.
  remember (mkObj KCapList ((VInt 1, VNone) :: caps)) as ocl eqn:Eocl.
  remember (st2 ++ [ocl]) as st3 eqn:E3.
  remember (mkObj KDict [(vkey_of_tree (fst kv), VLoc (length st2))]) as od eqn:Eod.
  remember (st3 ++ [od]) as st4 eqn:E4.
  remember (mkObj KDict []) as osty eqn:Eosty.
  remember (st4 ++ [osty]) as st5 eqn:E5.
  remember (mkObj KSet [(VInt 1, VLoc (length st3)); (VInt 2, VLoc (length st4)); (VInt 3, VNone)]) as os eqn:Eos.
  remember (st5 ++ [os]) as st6 eqn:E6.
  assert (X56 : ext st5 st6) by (rewrite E6; apply ext_alloc).
  assert (X45 : ext st4 st5) by (rewrite E5; apply ext_alloc).
  assert (X34 : ext st3 st4) by (rewrite E4; apply ext_alloc).
  assert (X23 : ext st2 st3) by (rewrite E3; apply ext_alloc).
  assert (X46 : ext st4 st6) by (eapply ext_trans; eauto).
  assert (X36 : ext st3 st6) by (eapply ext_trans; eauto).
  assert (X26 : ext st2 st6) by (eapply ext_trans; eauto).
  assert (Gs : get st6 (length st5) = Some os) by (rewrite E6; apply get_app_new).
  assert (Gsty : get st6 (length st4) = Some osty) by (apply (get_ext_new st4 osty st6); rewrite <- E5; exact X56).
  assert (Gd : get st6 (length st3) = Some od) by (apply (get_ext_new st3 od st6); rewrite <- E4; exact X46).
  assert (Gcl : get st6 (length st2) = Some ocl) by (apply (get_ext_new st2 ocl st6); rewrite <- E3; exact X36).
  rewrite (snap_S_loc _ _ _ _ Gs). rewrite Eos. cbn [o_kind o_items map fst snd].
  rewrite (snap_S_loc _ _ _ _ Gd), (snap_S_loc _ _ _ _ Gsty). rewrite Eod, Eosty. cbn [o_kind o_items map fst snd].
  rewrite (snap_S_loc _ _ _ _ Gcl). rewrite Eocl. cbn [o_kind o_items map fst snd].
  repeat rewrite snap_int. repeat rewrite snap_none. rewrite snap_vkey. unfold scc_expected. fold kv.
  rewrite (cells_snap st2 st6 n caps (telems (snd kv)) C2 X26). reflexivity.
Qed.

(* ---- all six reader models ------------------------------------------------------------------------------------------- *)
Definition expected (n : nat) (rk : Z) (t : tree) : tree :=
  if (rk =? R_SCC)%Z then scc_expected n t else clean_trunc (S (S (S (S n)))) (unshare (mark_defaults rk t)).

Theorem read_result_function_of_document : forall c rk ri t st st' ri' s n,
  repaired c -> (n <= 60)%nat -> read c rk ri t st = (st', ri', s) ->
  snap (S (S (S (S n)))) st' s = expected n rk t.
Proof.
  intros c rk ri t st st' ri' s n [Hc2 Hc3] Hn H. unfold expected.
  destruct (rk =? R_SCC)%Z eqn:K.
  - apply Z.eqb_eq in K. subst rk. eapply scc_read_result_function_of_document; eauto.
  - eapply read_result_function_of_document_partial; eauto. unfold FUEL. lia.
Qed.

(* two reads of the same result tree by the same kind of reader model - whatever the stores, whatever the reader
   objects' past - return equal snapshots (depths 4 .. 64; the snapshots the model itself takes have depth FUEL = 64) *)
Corollary read_same_document_same_result : forall c rk ri1 ri2 t st1 st2 st1' st2' r1 r2 s1 s2 n,
  repaired c -> (n <= 60)%nat -> read c rk ri1 t st1 = (st1', r1, s1) -> read c rk ri2 t st2 = (st2', r2, s2) ->
  snap (S (S (S (S n)))) st1' s1 = snap (S (S (S (S n)))) st2' s2.
Proof.
  intros. erewrite read_result_function_of_document; eauto. erewrite read_result_function_of_document; eauto.
Qed.
