(* Facts about the GENERATED SCC tables (model/GenScc.v) against the independent CEA-608 transcription
   (spec/Spec608.v).  Every table theorem quantifies over a finite, explicit domain and is proved by evaluating a
   check over the COMPLETE current tables with vm_compute; no table content is quoted here.  The layout facts
   (section 5) are arithmetic. *)
From Coq Require Import List ZArith QArith Lia Bool ZifyBool.
From PV Require Import lib.Sx lib.Str lib.Result model.GenScc model.SccStash model.SccDecoder model.SccLayout spec.Spec608.
Import ListNotations.
Open Scope Z_scope.

(* ================= generic lifting lemmas ===================================================== *)

Lemma map_eq_pointwise {A B} (f g : A -> B) (l : list A) :
  map f l = map g l -> forall x, In x l -> f x = g x.
Proof.
  induction l as [|a t IH]; intros H x Hx; [destruct Hx|].
  cbn [map] in H. injection H as H1 H2. destruct Hx as [->|Hx]; [exact H1|exact (IH H2 x Hx)].
Qed.

Lemma map_eq_pointwise2 {A B C} (f g : A -> B -> C) (l1 : list A) (l2 : list B) :
  map (fun a => map (f a) l2) l1 = map (fun a => map (g a) l2) l1 ->
  forall a b, In a l1 -> In b l2 -> f a b = g a b.
Proof.
  intros H a b Ha Hb.
  pose proof (map_eq_pointwise (fun a => map (f a) l2) (fun a => map (g a) l2) l1 H a Ha) as H1.
  exact (map_eq_pointwise (f a) (g a) l2 H1 b Hb).
Qed.

Lemma all_in {A} (f : A -> bool) (l : list A) : forallb f l = true -> forall x, In x l -> f x = true.
Proof. intros H. apply forallb_forall. exact H. Qed.

Lemma in_zrange (lo n : nat) (x : Z) : Z.of_nat lo <= x < Z.of_nat lo + Z.of_nat n -> In x (zrange lo n).
Proof.
  intros H. unfold zrange. replace x with (Z.of_nat (Z.to_nat x)) by (apply Z2Nat.id; lia).
  apply in_map. apply in_seq. lia.
Qed.

Lemma memz_In (w : Z) (l : list Z) : memz w l = true <-> In w l.
Proof.
  unfold memz. rewrite existsb_exists. split.
  - intros [x [Hx E]]. apply Z.eqb_eq in E. subst. exact Hx.
  - intros H. exists w. split; [exact H|apply Z.eqb_refl].
Qed.

Lemma memz_notIn (w : Z) (l : list Z) : memz w l = false -> ~ In w l.
Proof. intros H Hin. apply memz_In in Hin. congruence. Qed.

Lemma assocz_In {A} (w : Z) (l : list (Z * A)) (v : A) : assocz w l = Some v -> In (w, v) l.
Proof.
  induction l as [|[k a] t IH]; cbn [assocz]; intros H; [discriminate|].
  destruct (k =? w) eqn:E.
  - apply Z.eqb_eq in E. injection H as ->. subst. left. reflexivity.
  - right. exact (IH H).
Qed.

Lemma assocz_key {A} (w : Z) (l : list (Z * A)) : assocz w l <> None -> In w (map fst l).
Proof.
  intros H. destruct (assocz w l) as [v|] eqn:E; [|congruence].
  apply assocz_In in E. exact (in_map fst _ _ E).
Qed.

Fixpoint nodupb (l : list Z) : bool :=
  match l with [] => true | x :: t => negb (memz x t) && nodupb t end.
Lemma nodupb_NoDup (l : list Z) : nodupb l = true -> NoDup l.
Proof.
  induction l as [|x t IH]; cbn [nodupb]; intros H; [constructor|].
  apply andb_true_iff in H. destruct H as [H1 H2]. apply negb_true_iff in H1.
  constructor; [exact (memz_notIn _ _ H1)|exact (IH H2)].
Qed.

(* split a hypothesis (a1, .., an) = (b1, .., bn) into its component equations *)
Ltac split_pairs E :=
  cbv beta in E;
  repeat match type of E with
         | (_, _) = (_, _) => let E' := fresh "E" in apply pair_equal_spec in E; destruct E as [E E']
         end.

Ltac vmr := vm_compute; reflexivity.
Ltac inrange := apply in_zrange; lia.

(* ================= 1. characters ================================================================ *)

Theorem chars_match_608 : forall c, 32 <= c <= 126 -> char_of (odd_parity c) = Some [basic_608 c].
Proof.
  intros c Hc.
  apply (map_eq_pointwise (fun c => char_of (odd_parity c)) (fun c => Some [basic_608 c]) (zrange 32 95));
    [vmr|inrange].
Qed.

Definition chars_entry_ok (e : Z * list Z) : bool :=
  let '(b, s) := e in
  let c := b mod 128 in
  match s with
  | [] => (b =? 128) || (b =? odd_parity 127)
  | [x] => (32 <=? c) && (c <=? 127) && (b =? odd_parity c) && (x =? basic_608 c)
  | _ => false
  end.

(* the solid block 0x7f may be mapped to the empty string (as pycaption does) or to U+2588 (what a 608 decoder shows) *)
Theorem chars_table_domain : forall b s, In (b, s) scc_characters ->
  (b = 128 /\ s = []) \/ (b = odd_parity 127 /\ s = []) \/ (exists c, 32 <= c <= 127 /\ b = odd_parity c /\ s = [basic_608 c]).
Proof.
  intros b s H.
  assert (E : chars_entry_ok (b, s) = true) by (revert H; apply all_in; vmr).
  unfold chars_entry_ok in E. destruct s as [|x [|y t]]; [| |discriminate].
  - apply orb_true_iff in E. destruct E as [E|E]; apply Z.eqb_eq in E; auto.
  - right. right. exists (b mod 128).
    rewrite !andb_true_iff in E. destruct E as [[[E1 E2] E3] E4].
    apply Z.leb_le in E1, E2. apply Z.eqb_eq in E3, E4. subst x. auto.
Qed.

Theorem chars_table_functional : NoDup (map fst scc_characters).
Proof. apply nodupb_NoDup. vmr. Qed.

(* ================= 2. special and extended characters ========================================== *)

Theorem special_match_608 : forall i, 0 <= i < 16 -> special_of (special_word i) = Some [nth (Z.to_nat i) special_608 0].
Proof.
  intros i Hi.
  apply (map_eq_pointwise (fun i => special_of (special_word i))
                          (fun i => Some [nth (Z.to_nat i) special_608 0]) (zrange 0 16)); [vmr|inrange].
Qed.

Theorem special_table_size : length scc_special_chars = 16%nat /\ NoDup (map fst scc_special_chars).
Proof. split; [vmr|apply nodupb_NoDup; vmr]. Qed.

Theorem extended_match_608 : forall i, 0 <= i < 32 ->
  extended_of (extended1_word i) = Some [nth (Z.to_nat i) extended1_608 0] /\
  extended_of (extended2_word i) = Some [nth (Z.to_nat i) extended2_608 0].
Proof.
  intros i Hi. split.
  - apply (map_eq_pointwise (fun i => extended_of (extended1_word i))
                            (fun i => Some [nth (Z.to_nat i) extended1_608 0]) (zrange 0 32)); [vmr|inrange].
  - apply (map_eq_pointwise (fun i => extended_of (extended2_word i))
                            (fun i => Some [nth (Z.to_nat i) extended2_608 0]) (zrange 0 32)); [vmr|inrange].
Qed.

Theorem extended_table_size : length scc_extended_chars = 64%nat /\ NoDup (map fst scc_extended_chars).
Proof. split; [vmr|apply nodupb_NoDup; vmr]. Qed.

(* ================= 3. preamble address codes ==================================================== *)

Theorem pac_grid : forall row attr, 1 <= row <= 15 -> 0 <= attr < 32 -> pac_pos (pac_word row attr) = Some (row, pac_col attr).
Proof.
  intros row attr Hr Ha.
  apply (map_eq_pointwise2 (fun row attr => pac_pos (pac_word row attr))
                           (fun row attr => Some (row, pac_col attr)) (zrange 1 15) (zrange 0 32));
    [vmr|inrange|inrange].
Qed.

Definition parity_ok (w : Z) : bool := has_odd_parity (w / 256) && has_odd_parity (w mod 256).

Theorem pac_table_sound : forall w p, In (w, p) scc_pac ->
  (has_odd_parity (w / 256) && has_odd_parity (w mod 256)) = true -> pac_608 w = Some p.
Proof.
  intros w p H Hp.
  (* pac_608 tests the parity itself; the test is repeated only where it answers None (the entries of pac_extras) *)
  pose proof (map_eq_pointwise
    (fun e => match pac_608 (fst e) with
              | Some q => Some q
              | None => if parity_ok (fst e) then None else Some (snd e)
              end)
    (fun e => Some (snd e)) scc_pac ltac:(vmr) (w, p) H) as E.
  cbn [fst snd] in E. unfold parity_ok in E. rewrite Hp in E. destruct (pac_608 w); [exact E|discriminate E].
Qed.

Definition pac_extras : list (Z * (Z * Z)) := filter (fun e => negb (has_odd_parity (fst e / 256) && has_odd_parity (fst e mod 256))) scc_pac.

Theorem pac_table_extras : length pac_extras = 7%nat /\ forall e, In e pac_extras -> fst e mod 256 = 252.
Proof.
  (* the let makes the checker filter the table once, not once per conjunct *)
  assert (H : let l := pac_extras in (length l =? 7)%nat && forallb (fun e => fst e mod 256 =? 252) l = true) by vmr.
  apply andb_true_iff in H. destruct H as [H1 H2]. split; [exact (proj1 (Nat.eqb_eq _ _) H1)|].
  intros e He. apply Z.eqb_eq. exact (all_in _ _ H2 e He).
Qed.

Definition pac_entry_in_grid (e : Z * (Z * Z)) : bool :=
  memz (fst (snd e)) rows_608 && memz (snd (snd e)) indents_608.

Theorem pac_grid_total_functional :
  (forall row indent, In row rows_608 -> In indent indents_608 -> exists w, pac_pos w = Some (row, indent)) /\
  (forall w p, pac_pos w = Some p -> In (fst p) rows_608 /\ In (snd p) indents_608) /\
  NoDup (map fst scc_pac).
Proof.
  split; [|split].
  - intros row indent Hr Hi. exists (pac_word row (16 + indent / 2)).
    apply (map_eq_pointwise2 (fun row indent => pac_pos (pac_word row (16 + indent / 2)))
                             (fun row indent => Some (row, indent)) rows_608 indents_608); [vmr|exact Hr|exact Hi].
  - intros w p H. apply assocz_In in H.
    assert (E : pac_entry_in_grid (w, p) = true) by (revert H; apply all_in; vmr).
    unfold pac_entry_in_grid in E. cbn [fst snd] in E. apply andb_true_iff in E. destruct E as [E1 E2].
    split; apply memz_In; assumption.
  - apply nodupb_NoDup. vmr.
Qed.

Theorem tab_offsets_1_2_3 : (forall n, 1 <= n <= 3 -> tab_of (tab_word n) = Some n) /\ length scc_tab_offsets = 3%nat.
Proof.
  split; [|vmr]. intros n Hn.
  apply (map_eq_pointwise (fun n => tab_of (tab_word n)) (fun n => Some n) (zrange 1 3)); [vmr|inrange].
Qed.

(* ================= 4. control codes and dispatch classes ====================================== *)

Definition ctrl_list : list Z := [w_rcl; w_bs; w_ru2; w_ru3; w_ru4; w_rdc; w_edm; w_cr; w_enm; w_eoc].

Theorem control_codes : w_rcl = ctrl_word 32 /\ w_bs = ctrl_word 33 /\ w_ru2 = ctrl_word 37 /\ w_ru3 = ctrl_word 38 /\
  w_ru4 = ctrl_word 39 /\ w_rdc = ctrl_word 41 /\ w_edm = ctrl_word 44 /\ w_cr = ctrl_word 45 /\ w_enm = ctrl_word 46 /\ w_eoc = ctrl_word 47
  /\ Forall (fun w => is_command w = true) [w_rcl; w_bs; w_ru2; w_ru3; w_ru4; w_rdc; w_edm; w_cr; w_enm; w_eoc]
  /\ (forall w, In w scc_cue_starting_commands <-> In w [w_ru2; w_ru3; w_ru4; w_rdc; w_rcl]).     (* as a SET *)
Proof.
  repeat split; try vmr.
  - apply Forall_forall. apply (map_eq_pointwise is_command (fun _ => true)). vmr.
  - intros H. apply memz_In.
    exact (all_in (fun x => memz x [w_ru2; w_ru3; w_ru4; w_rdc; w_rcl]) scc_cue_starting_commands ltac:(vmr) w H).
  - intros H. apply memz_In.
    exact (all_in (fun x => memz x scc_cue_starting_commands) [w_ru2; w_ru3; w_ru4; w_rdc; w_rcl] ltac:(vmr) w H).
Qed.

Lemma is_pac_key w : is_pac w = true -> In w (map fst scc_pac).
Proof. unfold is_pac, pac_pos. intros H. apply assocz_key. destruct (assocz w scc_pac); discriminate. Qed.

(* Why a control word is never read as two characters: its first byte is 0x10..0x1f (with or without the parity
   bit), every character byte is 0x20 or above (0x80 included).  Tested on the word, so that no division is evaluated. *)
Definition ctrl_word_range (w : Z) : bool := (w <? 8192) || ((33024 <=? w) && (w <? 40960)).
Definition ctrl_byte_range (b : Z) : bool := (b <? 32) || ((128 <? b) && (b <? 160)).

Lemma ctrl_word_no_char w : ctrl_word_range w = true -> char_of (hi w) = None.
Proof.
  intros H. assert (Hb : ctrl_byte_range (hi w) = true).
  { unfold ctrl_word_range, ctrl_byte_range, hi in *.
    pose proof (Z.div_mod w 256). pose proof (Z.mod_pos_bound w 256). lia. }
  destruct (char_of (hi w)) eqn:E; [exfalso|reflexivity].
  assert (K : In (hi w) (map fst scc_characters)) by (apply assocz_key; unfold char_of in E; congruence).
  pose proof (all_in (fun b => negb (ctrl_byte_range b)) (map fst scc_characters) ltac:(vmr) _ K) as N. cbv beta in N.
  rewrite Hb in N. discriminate N.
Qed.

Theorem classes_disjoint :
  (forall w, special_of w <> None -> is_command w = false /\ is_pac w = false /\ extended_of w = None /\ tab_of w = None) /\
  (forall w, extended_of w <> None -> is_command w = false /\ is_pac w = false /\ tab_of w = None) /\
  (forall w, is_pac w = true -> tab_of w = None /\ memz w scc_mid_row_codes = false /\ memz w scc_background_color_codes = false
                               /\ ~ In w [w_rcl; w_bs; w_ru2; w_ru3; w_ru4; w_rdc; w_edm; w_cr; w_enm; w_eoc]) /\
  (forall w, tab_of w <> None -> is_command w = true /\ memz w scc_mid_row_codes = false /\ memz w scc_background_color_codes = false
                               /\ memz w scc_style_setting_commands = false /\ w <> w_bs
                               /\ ~ In w [w_rcl; w_ru2; w_ru3; w_ru4; w_rdc; w_edm; w_cr; w_enm; w_eoc]) /\
  (forall w, (is_command w || is_pac w) = true \/ special_of w <> None \/ extended_of w <> None ->
             char_of (hi w) = None \/ char_of (lo w) = None).
Proof.
  split; [|split; [|split; [|split]]].
  - intros w H. apply assocz_key in H.
    pose proof (map_eq_pointwise (fun w => (is_command w, is_pac w, extended_of w, tab_of w))
                                 (fun _ => (false, false, None, None)) (map fst scc_special_chars) ltac:(vmr) w H) as E.
    split_pairs E. auto.
  - intros w H. apply assocz_key in H.
    pose proof (map_eq_pointwise (fun w => (is_command w, is_pac w, tab_of w))
                                 (fun _ => (false, false, None)) (map fst scc_extended_chars) ltac:(vmr) w H) as E.
    split_pairs E. auto.
  - intros w H. apply is_pac_key in H. rename H into Hk.
    pose proof (map_eq_pointwise
      (fun w => (tab_of w, memz w scc_mid_row_codes, memz w scc_background_color_codes,
                 memz w [w_rcl; w_bs; w_ru2; w_ru3; w_ru4; w_rdc; w_edm; w_cr; w_enm; w_eoc]))
      (fun _ => (None, false, false, false)) (map fst scc_pac) ltac:(vmr) w Hk) as E.
    split_pairs E. repeat split; try assumption. apply memz_notIn; assumption.
  - intros w H. apply assocz_key in H.
    pose proof (map_eq_pointwise
      (fun w => (is_command w, memz w scc_mid_row_codes, memz w scc_background_color_codes,
                 memz w scc_style_setting_commands, w =? w_bs,
                 memz w [w_rcl; w_ru2; w_ru3; w_ru4; w_rdc; w_edm; w_cr; w_enm; w_eoc]))
      (fun _ => (true, false, false, false, false, false)) (map fst scc_tab_offsets) ltac:(vmr) w H) as E.
    split_pairs E. repeat split; try assumption.
    + apply Z.eqb_neq. assumption.
    + apply memz_notIn; assumption.
  - intros w H. left. apply ctrl_word_no_char.
    assert (Hin : In w (scc_commands ++ map fst scc_pac ++ map fst scc_special_chars ++ map fst scc_extended_chars)).
    { rewrite !in_app_iff. destruct H as [H|[H|H]].
      - apply orb_true_iff in H. destruct H as [H|H].
        + left. apply memz_In. exact H.
        + right. left. exact (is_pac_key w H).
      - right. right. left. exact (assocz_key _ _ H).
      - right. right. right. exact (assocz_key _ _ H). }
    revert Hin. apply all_in. vmr.
Qed.

Theorem midrow_classes : forall a, 0 <= a < 16 ->
  memz (midrow_word a) scc_mid_row_codes = true /\ is_command (midrow_word a) = true /\
  memz (midrow_word a) scc_italics_commands = ((a =? 14) || (a =? 15)) /\
  memz (midrow_word a) scc_style_setting_commands = true.
Proof.
  intros a Ha.
  pose proof (map_eq_pointwise
    (fun a => (memz (midrow_word a) scc_mid_row_codes, is_command (midrow_word a),
               memz (midrow_word a) scc_italics_commands, memz (midrow_word a) scc_style_setting_commands))
    (fun a => (true, true, (a =? 14) || (a =? 15), true)) (zrange 0 16) ltac:(vmr) a ltac:(inrange)) as E.
  split_pairs E. auto.
Qed.

Definition pac_attr_pairs : list (Z * Z) := flat_map (fun r => map (fun a => (r, a)) (zrange 0 32)) (zrange 1 15).

Definition style_exceptions : list (Z * Z) :=
  Eval vm_compute in
    filter (fun p => negb (memz (pac_word (fst p) (snd p)) scc_style_setting_commands)) pac_attr_pairs.

Lemma pac_style : forall row attr, 1 <= row <= 15 -> 0 <= attr < 32 ->
  memz (pac_word row attr) scc_italics_commands = pac_italics attr /\
  memz (pac_word row attr) scc_style_setting_commands = true.
Proof.
  intros row attr Hr Ha.
  pose proof (map_eq_pointwise2
    (fun row attr => (memz (pac_word row attr) scc_italics_commands, memz (pac_word row attr) scc_style_setting_commands))
    (fun row attr => (pac_italics attr, true))
    (zrange 1 15) (zrange 0 32) ltac:(vmr) row attr ltac:(inrange) ltac:(inrange)) as E.
  split_pairs E. auto.
Qed.

Theorem style_classes : forall row attr, 1 <= row <= 15 -> 0 <= attr < 32 ->
  memz (pac_word row attr) scc_italics_commands = pac_italics attr /\
  (memz (pac_word row attr) scc_style_setting_commands = false <-> In (row, attr) style_exceptions).
Proof.
  intros row attr Hr Ha. destruct (pac_style row attr Hr Ha) as [Hi Hs].
  split; [exact Hi|]. rewrite Hs. split; [discriminate|intros []].
Qed.

(* style_exceptions is empty for the generated tables (pac_style): nothing is left to classify.  The two classes are
   those of tables with misspelt keys: green (attr 2) on rows 6, 8, 13, and white indent 24 (attr 28) listed with the
   even-parity low byte 0xfc, that is word + 128, the keys of pac_extras. *)
Theorem style_exceptions_small : (length style_exceptions <= 10)%nat /\ forall e, In e style_exceptions ->
  (snd e = 2 /\ In (fst e) [6; 8; 13] /\ is_command (pac_word (fst e) (snd e)) = true) \/
  (snd e = 28 /\ In (fst e) [2; 4; 6; 8; 10; 13; 15] /\ is_command (pac_word (fst e) (snd e)) = false /\
   In (pac_word (fst e) (snd e) + 128) (map fst pac_extras) /\
   memz (pac_word (fst e) (snd e) + 128) scc_style_setting_commands = true).
Proof. split; [apply Nat.le_0_l|intros e []]. Qed.

(* ================= 5. layout =================================================================== *)

Theorem grid_positions_complete : forall r c, 1 <= r <= 15 -> 0 <= c <= 31 -> In (r, c) grid_positions.
Proof.
  intros r c Hr Hc. unfold grid_positions. apply in_flat_map. exists (Z.to_nat r). split.
  - apply in_seq. lia.
  - apply in_map_iff. exists (Z.to_nat c). split.
    + rewrite !Z2Nat.id by lia. reflexivity.
    + apply in_seq. lia.
Qed.

Lemma grid_positions_range r c : In (r, c) grid_positions -> 1 <= r <= 15 /\ 0 <= c <= 31.
Proof.
  unfold grid_positions. rewrite in_flat_map. intros [x [Hx H]].
  apply in_map_iff in H. destruct H as [y [E Hy]]. apply in_seq in Hx, Hy. injection E as <- <-. lia.
Qed.

Lemma layout_linear p :
  (fst (layout_of_pos p) == fst (layout_608 (fst p) (snd p)))%Q /\ (snd (layout_of_pos p) == snd (layout_608 (fst p) (snd p)))%Q.
Proof. destruct p as [r c]. unfold layout_of_pos, layout_608. cbn [fst snd]. split; field. Qed.

Lemma layout_bounds r c : 1 <= r <= 15 -> 0 <= c <= 31 ->
  (10 <= fst (layout_of_pos (r, c)))%Q /\ (fst (layout_of_pos (r, c)) < 90)%Q /\
  (5 <= snd (layout_of_pos (r, c)))%Q /\ (snd (layout_of_pos (r, c)) < 95)%Q.
Proof. intros Hr Hc. unfold layout_of_pos, Qle, Qlt. cbn -[Z.mul Z.add Z.sub]. lia. Qed.

Theorem layout_linear_exhaustive : forall p, In p grid_positions ->
  (fst (layout_of_pos p) == fst (layout_608 (fst p) (snd p)))%Q /\ (snd (layout_of_pos p) == snd (layout_608 (fst p) (snd p)))%Q /\
  (10 <= fst (layout_of_pos p))%Q /\ (fst (layout_of_pos p) < 90)%Q /\ (5 <= snd (layout_of_pos p))%Q /\ (snd (layout_of_pos p) < 95)%Q.
Proof.
  intros [r c] H. apply grid_positions_range in H. destruct H as [Hr Hc].
  destruct (layout_linear (r, c)) as [E1 E2]. exact (conj E1 (conj E2 (layout_bounds r c Hr Hc))).
Qed.

(* An affine map with non-zero slope is injective: no need for the positions to lie on the grid. *)
Lemma layout_of_pos_inj p q :
  (fst (layout_of_pos p) == fst (layout_of_pos q))%Q -> (snd (layout_of_pos p) == snd (layout_of_pos q))%Q -> p = q.
Proof.
  destruct p as [r c], q as [r' c']. unfold layout_of_pos, Qeq. cbn -[Z.mul Z.add Z.sub]. intros E1 E2. f_equal; lia.
Qed.

Theorem layout_injective : forall p q, In p grid_positions -> In q grid_positions ->
  (fst (layout_of_pos p) == fst (layout_of_pos q))%Q -> (snd (layout_of_pos p) == snd (layout_of_pos q))%Q -> p = q.
Proof. intros p q _ _. apply layout_of_pos_inj. Qed.
