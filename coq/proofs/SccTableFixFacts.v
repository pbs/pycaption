(* After the table repair (misspelt keys of plain preamble codes), EVERY preamble address code is a style-setting
   command: a plain one ends italics, an italic one starts them. Recomputed against the generated tables on every run. *)
From Coq Require Import List ZArith Bool.
From PV Require Import model.GenScc model.SccDecoder spec.Spec608 proofs.SccTableFacts.
Import ListNotations.
Open Scope Z_scope.

Theorem style_exceptions_none : style_exceptions = [].
Proof. reflexivity. Qed.

Theorem every_pac_sets_style : forall row attr, 1 <= row <= 15 -> 0 <= attr < 32 ->
  memz (pac_word row attr) scc_style_setting_commands = true /\
  memz (pac_word row attr) scc_italics_commands = pac_italics attr.
Proof. intros row attr Hr Ha. destruct (pac_style row attr Hr Ha) as [Hi Hs]. exact (conj Hs Hi). Qed.
