(* C18: equality of geometry values is component-wise; equal values have equal hashes. *)
From Coq Require Import List ZArith QArith Bool Lia.
From PV Require Import lib.Sx lib.Str lib.Result model.Geometry spec.SpecGeom.
Import ListNotations.

Lemma unit_eqb_eq : forall a b, unit_eqb a b = true <-> a = b.
Proof. intros [] []; cbn; split; intros H; try reflexivity; try discriminate. Qed.
Lemma halign_eqb_eq : forall a b, halign_eqb a b = true <-> a = b.
Proof. intros [] []; cbn; split; intros H; try reflexivity; try discriminate. Qed.
Lemma valign_eqb_eq : forall a b, valign_eqb a b = true <-> a = b.
Proof. intros [] []; cbn; split; intros H; try reflexivity; try discriminate. Qed.

Lemma opt_eqb_rel : forall {A} (f : A -> A -> bool) (R : A -> A -> Prop),
  (forall x y, f x y = true <-> R x y) -> forall a b, opt_eqb f a b = true <-> opt_rel R a b.
Proof.
  intros A f R H [x|] [y|]; cbn; try apply H; split; intros; try reflexivity; try discriminate; try contradiction; exact I.
Qed.

Lemma opt_eqb_eq : forall {A} (f : A -> A -> bool), (forall x y, f x y = true <-> x = y) ->
  forall a b, opt_eqb f a b = true <-> a = b.
Proof.
  intros A f H [x|] [y|]; cbn; split; intros E; try reflexivity; try discriminate.
  - apply H in E. congruence.
  - inversion E; subst. apply H. reflexivity.
Qed.

Lemma size_eqb_iff : forall a b, size_eqb a b = true <-> size_equiv a b.
Proof.
  intros a b. unfold size_eqb, size_equiv. rewrite andb_true_iff, Qeq_bool_iff, unit_eqb_eq. reflexivity.
Qed.

Lemma point_eqb_iff : forall a b, point_eqb a b = true <-> point_equiv a b.
Proof. intros. unfold point_eqb, point_equiv. rewrite andb_true_iff, !size_eqb_iff. reflexivity. Qed.

Lemma stretch_eqb_iff : forall a b, stretch_eqb a b = true <-> stretch_equiv a b.
Proof. intros. unfold stretch_eqb, stretch_equiv. rewrite andb_true_iff, !size_eqb_iff. reflexivity. Qed.

Lemma padding_eqb_iff : forall a b, padding_eqb a b = true <-> padding_equiv a b.
Proof.
  intros. unfold padding_eqb, padding_equiv. rewrite !andb_true_iff, !size_eqb_iff. tauto.
Qed.

Lemma alignment_eqb_iff : forall a b, alignment_eqb a b = true <-> alignment_equiv a b.
Proof.
  intros. unfold alignment_eqb, alignment_equiv.
  rewrite andb_true_iff, (opt_eqb_eq _ halign_eqb_eq), (opt_eqb_eq _ valign_eqb_eq). reflexivity.
Qed.

Lemma layout_eqb_iff : forall a b, layout_eqb a b = true <-> layout_equiv a b.
Proof.
  intros. unfold layout_eqb, layout_equiv. rewrite !andb_true_iff.
  rewrite (opt_eqb_rel _ _ point_eqb_iff), (opt_eqb_rel _ _ stretch_eqb_iff),
          (opt_eqb_rel _ _ padding_eqb_iff), (opt_eqb_rel _ _ alignment_eqb_iff). tauto.
Qed.

(* the model's __eq__ is the spec's component-wise function, on every pair of operands *)
Lemma layout_eqb_spec : forall a b, layout_eqb a b = spec_layout_eq a b.
Proof. reflexivity. Qed.

Lemma gval_eqb_spec : forall a b, gval_eqb a b = spec_gval_eq a b.
Proof. intros [] []; reflexivity. Qed.

Lemma size_equiv_refl : forall a, size_equiv a a.
Proof. intros a. split; reflexivity. Qed.

Lemma opt_rel_refl : forall {A} (R : A -> A -> Prop), (forall x, R x x) -> forall a, opt_rel R a a.
Proof. intros A R H [x|]; cbn; auto. Qed.

Lemma opt_rel_map_eq : forall {A B} (R : A -> A -> Prop) (f : A -> B), (forall x y, R x y -> f x = f y) ->
  forall a b, opt_rel R a b -> option_map f a = option_map f b.
Proof. intros A B R f H [x|] [y|] E; cbn in *; try contradiction; [rewrite (H x y E)|]; reflexivity. Qed.

Lemma opt_rel_map_eqb : forall {A} (R : A -> A -> Prop) (g : A -> A) (f : A -> A -> bool), (forall x y, R x (g y) -> f x y = true) ->
  forall a b, opt_rel R a (option_map g b) -> opt_eqb f a b = true.
Proof. intros A R g f H [x|] [y|] E; cbn in *; try contradiction; auto. Qed.

Lemma opt_res_rel : forall {A S B} (R : B -> B -> Prop) (Q : A -> Prop) (pr : A -> S) (rd : S -> result B) (g : A -> B),
  (forall a, Q a -> exists b, rd (pr a) = Ok b /\ R b (g a)) ->
  forall o, match o with Some a => Q a | None => True end ->
  exists o', opt_res rd (option_map pr o) = Ok o' /\ opt_rel R o' (option_map g o).
Proof.
  intros A S B R Q pr rd g H [a|] Ho; [|exists None; split; [reflexivity|exact I]].
  destruct (H a Ho) as (b & E & Rb). exists (Some b). cbn [option_map opt_res]. rewrite E. split; [reflexivity|exact Rb].
Qed.

Lemma point_equiv_refl : forall a, point_equiv a a.
Proof. intros a. split; apply size_equiv_refl. Qed.
Lemma stretch_equiv_refl : forall a, stretch_equiv a a.
Proof. intros a. split; apply size_equiv_refl. Qed.
Lemma padding_equiv_refl : forall a, padding_equiv a a.
Proof. intros a. repeat split; reflexivity. Qed.
Lemma alignment_equiv_refl : forall a, alignment_equiv a a.
Proof. intros a. split; reflexivity. Qed.
Lemma layout_equiv_refl : forall a, layout_equiv a a.
Proof.
  intros a. unfold layout_equiv. repeat split; apply opt_rel_refl;
  [apply point_equiv_refl|apply stretch_equiv_refl|apply padding_equiv_refl|apply alignment_equiv_refl].
Qed.

(* equality = identity of normal forms: a characterisation that shares no recursion with the model *)
Lemma size_eqb_norm : forall a b, size_eqb a b = true <-> norm_size a = norm_size b.
Proof.
  intros a b. rewrite size_eqb_iff. unfold size_equiv, norm_size. split.
  - intros [H1 H2]. rewrite (Qred_complete _ _ H1), H2. reflexivity.
  - intros H. pose proof (f_equal s_val H) as H1. pose proof (f_equal s_unit H) as H2. cbn [s_val s_unit] in H1, H2.
    split; [|exact H2]. rewrite <- (Qred_correct (s_val a)), <- (Qred_correct (s_val b)), H1. reflexivity.
Qed.

Lemma point_eqb_norm : forall a b, point_eqb a b = true <-> norm_point a = norm_point b.
Proof.
  intros a b. unfold point_eqb, norm_point. rewrite andb_true_iff, !size_eqb_norm. split.
  - intros [H1 H2]. rewrite H1, H2. reflexivity.
  - intros H. split; [exact (f_equal p_x H)|exact (f_equal p_y H)].
Qed.

Lemma stretch_eqb_norm : forall a b, stretch_eqb a b = true <-> norm_stretch a = norm_stretch b.
Proof.
  intros a b. unfold stretch_eqb, norm_stretch. rewrite andb_true_iff, !size_eqb_norm. split.
  - intros [H1 H2]. rewrite H1, H2. reflexivity.
  - intros H. split; [exact (f_equal st_h H)|exact (f_equal st_v H)].
Qed.

Lemma padding_eqb_norm : forall a b, padding_eqb a b = true <-> norm_padding a = norm_padding b.
Proof.
  intros a b. unfold padding_eqb, norm_padding. rewrite !andb_true_iff, !size_eqb_norm. split.
  - intros [[[H1 H2] H3] H4]. rewrite H1, H2, H3, H4. reflexivity.
  - intros H. repeat split; [exact (f_equal pd_before H)|exact (f_equal pd_after H)|exact (f_equal pd_start H)|exact (f_equal pd_end H)].
Qed.

Lemma opt_eqb_map : forall {A} (f : A -> A -> bool) (n : A -> A), (forall x y, f x y = true <-> n x = n y) ->
  forall a b, opt_eqb f a b = true <-> option_map n a = option_map n b.
Proof.
  intros A f n H [x|] [y|]; cbn [opt_eqb option_map]; split; intros E; try discriminate; try reflexivity.
  - f_equal. apply H. exact E.
  - inversion E. apply H. assumption.
Qed.

Lemma alignment_eqb_eq : forall a b, alignment_eqb a b = true <-> a = b.
Proof.
  intros [h v] [h' v']. rewrite alignment_eqb_iff. unfold alignment_equiv. cbn [al_h al_v]. split.
  - intros [-> ->]. reflexivity.
  - intros E. inversion E. split; reflexivity.
Qed.

Theorem layout_eqb_norm : forall a b, layout_eqb a b = true <-> norm_layout a = norm_layout b.
Proof.
  intros a b. unfold layout_eqb, norm_layout. rewrite !andb_true_iff.
  rewrite (opt_eqb_map _ _ point_eqb_norm), (opt_eqb_map _ _ stretch_eqb_norm), (opt_eqb_map _ _ padding_eqb_norm).
  rewrite (opt_eqb_eq _ alignment_eqb_eq). split.
  - intros [[[H1 H2] H3] H4]. rewrite H1, H2, H3, H4. reflexivity.
  - intros H. repeat split; [exact (f_equal l_origin H)|exact (f_equal l_extent H)|exact (f_equal l_padding H)|exact (f_equal l_alignment H)].
Qed.

Lemma eqb_sym_trans : forall {A B} (f : A -> A -> bool) (n : A -> B), (forall a b, f a b = true <-> n a = n b) ->
  (forall a b, f a b = f b a) /\ (forall a b c, f a b = true -> f b c = true -> f a c = true).
Proof.
  intros A B f n H. split.
  - intros a b. apply eq_true_iff_eq. rewrite !H. split; intros E; symmetry; exact E.
  - intros a b c. rewrite !H. intros E1 E2. rewrite E1. exact E2.
Qed.

Theorem layout_eqb_equivalence :
  (forall a, layout_eqb a a = true)
  /\ (forall a b, layout_eqb a b = layout_eqb b a)
  /\ (forall a b c, layout_eqb a b = true -> layout_eqb b c = true -> layout_eqb a c = true).
Proof. split; [intros a; apply layout_eqb_norm; reflexivity|exact (eqb_sym_trans _ _ layout_eqb_norm)]. Qed.

Lemma gval_eqb_iff : forall a b, gval_eqb a b = true <-> gval_equiv a b.
Proof.
  intros [] []; cbn [gval_eqb gval_equiv]; try (split; [discriminate|contradiction]).
  - apply size_eqb_iff. - apply point_eqb_iff. - apply stretch_eqb_iff.
  - apply padding_eqb_iff. - apply alignment_eqb_iff. - apply layout_eqb_iff.
Qed.

Theorem gval_eqb_laws :
  (forall a, a <> GOther -> gval_eqb a a = true)
  /\ (forall a b, gval_eqb a b = gval_eqb b a)
  /\ (forall a b c, gval_eqb a b = true -> gval_eqb b c = true -> gval_eqb a c = true).
Proof.
  pose proof (eqb_sym_trans _ _ size_eqb_norm) as [S1 T1]. pose proof (eqb_sym_trans _ _ point_eqb_norm) as [S2 T2].
  pose proof (eqb_sym_trans _ _ stretch_eqb_norm) as [S3 T3]. pose proof (eqb_sym_trans _ _ padding_eqb_norm) as [S4 T4].
  pose proof (eqb_sym_trans _ (fun a => a) alignment_eqb_eq) as [S5 T5]. pose proof (eqb_sym_trans _ _ layout_eqb_norm) as [S6 T6].
  split; [|split].
  - intros a Ha. apply gval_eqb_iff. destruct a; cbn [gval_equiv]; try congruence;
    [apply size_equiv_refl|apply point_equiv_refl|apply stretch_equiv_refl|apply padding_equiv_refl
     |apply alignment_equiv_refl|apply layout_equiv_refl].
  - intros [] []; cbn [gval_eqb]; auto.
  - intros [] [] []; cbn [gval_eqb]; try discriminate; eauto.
Qed.

(* hashing, for EVERY choice of the primitive hash functions *)
Section HashCoherent.
  Variable hq : Q -> Z.
  Variable hu : unit_ -> Z.
  Variable hh : option halign -> Z.
  Variable hv : option valign -> Z.
  Variable hnone : Z.
  Variable hint : Z -> Z.

  Lemma size_hash_eq : forall a b, size_eqb a b = true -> size_hash hq hu hint a = size_hash hq hu hint b.
  Proof.
    intros a b H. apply size_eqb_iff in H. destruct H as [H1 H2]. unfold size_hash.
    rewrite (Qred_complete _ _ H1), H2. reflexivity.
  Qed.

  Lemma point_hash_eq : forall a b, point_eqb a b = true -> point_hash hq hu hint a = point_hash hq hu hint b.
  Proof.
    intros a b H. unfold point_eqb in H. apply andb_true_iff in H. destruct H as [H1 H2]. unfold point_hash.
    rewrite (size_hash_eq _ _ H1), (size_hash_eq _ _ H2). reflexivity.
  Qed.

  Lemma stretch_hash_eq : forall a b, stretch_eqb a b = true -> stretch_hash hq hu hint a = stretch_hash hq hu hint b.
  Proof.
    intros a b H. unfold stretch_eqb in H. apply andb_true_iff in H. destruct H as [H1 H2]. unfold stretch_hash.
    rewrite (size_hash_eq _ _ H1), (size_hash_eq _ _ H2). reflexivity.
  Qed.

  Lemma padding_hash_eq : forall a b, padding_eqb a b = true -> padding_hash hq hu hint a = padding_hash hq hu hint b.
  Proof.
    intros a b H. unfold padding_eqb in H. rewrite !andb_true_iff in H. destruct H as [[[H1 H2] H3] H4]. unfold padding_hash.
    rewrite (size_hash_eq _ _ H1), (size_hash_eq _ _ H2), (size_hash_eq _ _ H3), (size_hash_eq _ _ H4). reflexivity.
  Qed.

  Lemma alignment_hash_eq : forall a b, alignment_eqb a b = true -> alignment_hash hh hv hint a = alignment_hash hh hv hint b.
  Proof.
    intros a b H. apply alignment_eqb_iff in H. destruct H as [H1 H2]. unfold alignment_hash. rewrite H1, H2. reflexivity.
  Qed.

  Lemma opt_hash_eq : forall {A} (f : A -> A -> bool) (h : A -> Z), (forall x y, f x y = true -> h x = h y) ->
    forall a b, opt_eqb f a b = true -> opt_hash hnone h a = opt_hash hnone h b.
  Proof. intros A f h H [x|] [y|]; cbn; intros E; try discriminate; auto. Qed.

  Lemma layout_hash_eq : forall a b, layout_eqb a b = true ->
    layout_hash hq hu hh hv hnone hint a = layout_hash hq hu hh hv hnone hint b.
  Proof.
    intros a b H. unfold layout_eqb in H. rewrite !andb_true_iff in H. destruct H as [[[H1 H2] H3] H4]. unfold layout_hash.
    rewrite (opt_hash_eq _ _ point_hash_eq _ _ H1), (opt_hash_eq _ _ stretch_hash_eq _ _ H2),
            (opt_hash_eq _ _ padding_hash_eq _ _ H3), (opt_hash_eq _ _ alignment_hash_eq _ _ H4). reflexivity.
  Qed.
  Lemma gval_hash_eq : forall a b, gval_eqb a b = true ->
    gval_hash hq hu hh hv hnone hint a = gval_hash hq hu hh hv hnone hint b.
  Proof.
    intros [] []; cbn [gval_eqb gval_hash]; intros H; try discriminate;
    [apply size_hash_eq|apply point_hash_eq|apply stretch_hash_eq|apply padding_hash_eq|apply alignment_hash_eq
     |apply layout_hash_eq]; exact H.
  Qed.
End HashCoherent.

(* the Coq oracle accepts what the model computes (refinement shape), for every pair *)
Lemma ok_eq_model : forall hq hu hh hv hnone hint a b,
  ok_eq a b (layout_eqb a b) (negb (layout_eqb a b))
        (Z.eqb (layout_hash hq hu hh hv hnone hint a) (layout_hash hq hu hh hv hnone hint b)) = true.
Proof.
  intros. pose proof (layout_eqb_spec a b) as S. unfold ok_eq. rewrite <- S. rewrite !eqb_reflx. cbn [andb].
  destruct (layout_eqb a b) eqn:E; [|reflexivity].
  rewrite (layout_hash_eq hq hu hh hv hnone hint _ _ E), Z.eqb_refl. reflexivity.
Qed.

