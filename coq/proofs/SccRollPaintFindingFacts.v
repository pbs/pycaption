(* C16: the two known findings about rows without a displayable character, as facts about the decoder MODEL
   (which mirrors the code): on well-formed roll-up / paint-on streams the clause "each caption ends exactly when the next
   one begins" fails.  Witnesses of known_findings.d/C16-gap-after-empty-row.json and C16-blank-only-row.json. *)
From Coq Require Import List ZArith QArith Bool.
From PV Require Import lib.Sx lib.Str lib.Result model.SccStash model.SccDecoder model.SccPopon.
Import ListNotations.
Open Scope Z_scope.

(* 9425 94ad 9470 6162 | 9429 9470 8080 | 9425 94ad 9470 e364 : roll-up 'ab', a paint-on passage of null padding, roll-up 'cd' *)
Definition gap_witness : list sline :=
  [ (lit "00:00:01:00", [37925; 38061; 38000; 24930]); (lit "00:00:02:00", [37929; 38000; 32896]);
    (lit "00:00:03:00", [37925; 38061; 38000; 58212]) ].
(* 9426 94ad 9470 6162 | 9426 94ad 2020 2020 | 94ad 9470 e364 : roll-up 'ab', a row of four blanks, 'cd' *)
Definition blank_row_witness : list sline :=
  [ (lit "00:00:01:00", [37926; 38061; 38000; 24930]); (lit "00:00:01:16", [37926; 38061; 8224; 8224]);
    (lit "00:00:01:22", [38061; 38000; 58212]) ].

Example gap_after_empty_row_refuted : exists s1 e1 s2 e2,
  spans_of (read 0 gap_witness) = Ok [(s1, e1); (s2, e2)] /\ (s1 < e1)%Q /\ (e1 < s2)%Q.
Proof. eexists _, _, _, _. split; [vm_compute; reflexivity|]. split; vm_compute; reflexivity. Qed.

Example blank_only_row_refuted : exists s1 e1 s2 e2,
  spans_of (read 0 blank_row_witness) = Ok [(s1, e1); (s2, e2)] /\ (0 < s1)%Q /\ (e1 == 0)%Q /\ (s1 < s2)%Q.
Proof. eexists _, _, _, _. split; [vm_compute; reflexivity|]. repeat split; vm_compute; reflexivity. Qed.
