(* C03: the WebVTT document the model writes for captions with node-level layouts (vtt_doc_g) is accepted by the
   reference block grammar (spec/SpecTextVtt.v vtt_cues) and read as exactly one cue per layout group whose payload lines
   are the lines of that group's cue text: no cue created, lost, split or merged, for any texts without line ends (cap_ok).
   First: every group's cue text is non-empty, has no empty line inside, no CR.  Then: lines and the grammar. *)
From Coq Require Import List ZArith Bool.
From PV Require Import lib.Sx lib.Str lib.StrFacts model.TextNodes model.TextWrite model.TextWriteVtt spec.SpecTextVtt.
From PV Require Import proofs.TextStrFacts proofs.TextLinesFacts proofs.TextBlocksFacts proofs.TextVttFacts proofs.TextVttGroupFacts.
From PV Require lib.StrSplit.
Import ListNotations.
Open Scope Z_scope.

Definition no_cr (s : str) : bool := forallb (fun c => negb (c =? 13)) s.
Definition node_ok (n : node) : Prop := match n with NText t => no_nl t = true /\ no_cr t = true | _ => True end.

Lemma no_cr_app : forall a b, no_cr (a ++ b) = no_cr a && no_cr b.
Proof. intros. unfold no_cr. apply forallb_app. Qed.

Lemma no_cr_rep : forall s, no_cr s = true -> no_cr (rep s) = true.
Proof. intros s H. unfold rep, no_cr. apply replace_forallb; [discriminate|reflexivity|exact H]. Qed.

Lemma no_cr_vtt_text : forall t, no_cr t = true -> no_cr (vtt_text t) = true.
Proof.
  intros t H. unfold vtt_text.
  assert (E : no_cr (vtt_encode t) = true).
  { unfold vtt_encode, no_cr. repeat (apply replace_forallb; [discriminate|reflexivity|]). exact H. }
  destruct (vtt_encode t); [reflexivity|exact E].
Qed.
Lemma no_cr_open : forall st, no_cr (vtt_open st) = true. Proof. intros [[] [] [] c]; reflexivity. Qed.
Lemma no_cr_close : forall st, no_cr (vtt_close st) = true. Proof. intros [[] [] [] c]; reflexivity. Qed.

Definition good_text (s : str) : Prop := nl_ok true s = true /\ s <> [] /\ no_cr s = true.

Lemma vtt_step_no_cr : forall acc n, no_cr (fst (fst acc)) = true -> node_ok n ->
  no_cr (fst (fst (vtt_step true acc n))) = true.
Proof.
  intros [[s first] prev] n Hc Hn. cbn [fst] in Hc. destruct n as [t| |[] sty]; cbn [vtt_step fst].
  - change (arrow_fix (s ++ vtt_text t)) with (rep (s ++ vtt_text t)). apply no_cr_rep.
    rewrite no_cr_app, Hc. apply no_cr_vtt_text, Hn.
  - rewrite !no_cr_app, Hc. destruct first; [reflexivity|]. destruct prev; reflexivity.
  - rewrite no_cr_app, Hc. apply no_cr_open.
  - rewrite no_cr_app, Hc. apply no_cr_close.
Qed.

Theorem vtt_groups_good : forall lns, Forall (fun ln => node_ok (snd ln)) lns ->
  Forall (fun g => good_text (fst g)) (vtt_groups lns).
Proof.
  apply (vtt_groups_inv (fun acc => vinv acc /\ no_cr (fst (fst acc)) = true) node_ok good_text).
  - split; [|reflexivity]. exists true. split; [reflexivity|]. intros _. left. reflexivity.
  - intros acc n [Hv Hc] Hn. split; [|exact (vtt_step_no_cr acc n Hc Hn)].
    apply (vtt_step_vinv acc n Hv). destruct n; [apply Hn|exact I|exact I].
  - intros s f p [[st [Hv _]] Hc] Hne. cbn [fst] in *. split; [|split; assumption]. rewrite nl_ok_run, Hv. reflexivity.
Qed.

(* no empty line inside any group's cue text (the last line may be empty: a trailing break) *)
Corollary vtt_groups_no_blank_line : forall lns, Forall (fun ln => node_ok (snd ln)) lns ->
  Forall (fun g => forallb str_nonempty (removelast (split_ch 10 (fst g))) = true) (vtt_groups lns).
Proof.
  intros lns H. pose proof (vtt_groups_good lns H) as G. rewrite Forall_forall in *. intros g Hg.
  rewrite <- nl_ok_lines. apply (G g Hg).
Qed.

Definition lc (l : str) : bool := forallb (fun c => negb (c =? 10) && negb (c =? 13)) l.

Lemma lf_lines_join : forall ls, ls <> [] -> Forall (fun l => lc l = true) ls -> lf_lines (join [10] ls) = ls.
Proof. exact lf_lines_joined. Qed.

Definition nl (l : str) : str := l ++ [10].
Lemma join_nl : forall ls, join [10] (ls ++ [[]]) = concat (map nl ls).
Proof.
  induction ls as [|a ls IH]; [reflexivity|]. destruct ls as [|b ls].
  - cbn. rewrite !app_nil_r. reflexivity.
  - change (join [10] ((a :: b :: ls) ++ [[]])) with (a ++ [10] ++ join [10] ((b :: ls) ++ [[]])). rewrite IH.
    cbn [map concat]. unfold nl. rewrite <- !app_assoc. reflexivity.
Qed.

Lemma text_nl_lines : forall s, s ++ [10] = concat (map nl (split_ch 10 s)).
Proof.
  intros s. change (s ++ [10] = nl_terminated (split_ch 10 s)).
  rewrite <- join_terminated by apply split_ch_nonempty. rewrite StrSplit.split_ch_join. reflexivity.
Qed.

(* the block grammar as ONE pass over the lines *)
Definition emit (cur : option (list str)) : list (list str) := match cur with Some p => [rev p] | None => [] end.
Fixpoint stream (ls : list str) (cur : option (list str)) : list (list str) :=
  match ls with
  | [] => emit cur
  | l :: t =>
      if is_empty l then emit cur ++ stream t None
      else if has_arrow l then emit cur ++ stream t (Some [])
      else match cur with Some p => stream t (Some (l :: p)) | None => stream t None end
  end.

Lemma runs_stream : forall ls run E cur,
  (forall X, block_cues (rev run ++ X) None = E ++ block_cues X cur) ->
  flat_map (fun b => block_cues b None) (runs_by is_empty ls run) = E ++ stream ls cur.
Proof.
  induction ls as [|l t IH]; intros run E cur P.
  - pose proof (P []) as P0. rewrite app_nil_r in P0. change (block_cues [] cur) with (emit cur) in P0.
    cbn [runs_by stream]. destruct run as [|r run']; [exact P0|]. cbn [flat_map]. rewrite app_nil_r. exact P0.
  - cbn [runs_by stream]. destruct (is_empty l) eqn:El.
    + pose proof (P []) as P0. rewrite app_nil_r in P0. change (block_cues [] cur) with (emit cur) in P0.
      assert (IH0 : flat_map (fun b => block_cues b None) (runs_by is_empty t []) = stream t None).
      { apply (IH [] [] None). intros X. reflexivity. }
      rewrite app_assoc, <- P0. destruct run as [|r run']; [exact IH0|]. cbn [flat_map]. rewrite IH0. reflexivity.
    + destruct (has_arrow l) eqn:Ea.
      * rewrite app_assoc. apply IH. intros X. cbn [rev]. rewrite <- app_assoc. cbn [app]. rewrite P. cbn [block_cues]. rewrite Ea.
        change (match cur with Some p => [rev p] | None => [] end) with (emit cur). rewrite app_assoc. reflexivity.
      * destruct cur as [p|]; apply IH; intros X; cbn [rev]; rewrite <- app_assoc; cbn [app]; rewrite P; cbn [block_cues]; rewrite Ea; reflexivity.
Qed.

Definition emitting (rest : list str) : Prop :=
  match rest with [] => True | l :: _ => is_empty l = true \/ has_arrow l = true end.

Lemma stream_emitting : forall rest p, emitting rest -> stream rest (Some p) = rev p :: stream rest None.
Proof.
  intros [|l t] p H; [reflexivity|]. cbn [stream emitting] in *. destruct (is_empty l); [reflexivity|].
  destruct H as [H|H]; [discriminate|]. rewrite H. reflexivity.
Qed.

Definition pline (l : str) : Prop := is_empty l = false /\ has_arrow l = false.

Lemma stream_payload : forall P rest p, Forall pline P -> stream (P ++ rest) (Some p) = stream rest (Some (rev P ++ p)).
Proof.
  induction P as [|l P IH]; intros rest p H; [reflexivity|]. inversion H as [|x y [He Ha] HP]; subst.
  cbn [app stream]. rewrite He, Ha, (IH rest (l :: p) HP). cbn [rev]. rewrite <- app_assoc. reflexivity.
Qed.

(* the payload the grammar returns for a cue text: its lines, a final empty line (trailing break) dropped *)
Definition cue_payload (txt : str) : list str :=
  let ls := split_ch 10 txt in if is_empty (last ls []) then removelast ls else ls.

Lemma stream_group : forall T txt rest, has_arrow T = true -> is_empty T = false ->
  Forall pline (removelast (split_ch 10 txt)) -> has_arrow (last (split_ch 10 txt) []) = false -> emitting rest ->
  stream ((T :: split_ch 10 txt) ++ rest) None = cue_payload txt :: stream rest None.
Proof.
  intros T txt rest HT HTe HL Hlast Hr. unfold cue_payload. cbv zeta.
  remember (removelast (split_ch 10 txt)) as L eqn:EL. remember (last (split_ch 10 txt) []) as z eqn:Ez0.
  assert (Hs : split_ch 10 txt = L ++ [z]) by (subst L z; apply app_removelast_last, split_ch_nonempty).
  rewrite Hs. clear Hs EL Ez0.
  cbn [app stream]. rewrite HTe, HT. cbn [emit app]. rewrite <- app_assoc, (stream_payload L _ [] HL). cbn [app stream].
  destruct (is_empty z) eqn:Ez.
  - cbn [emit]. rewrite app_nil_r, rev_involutive. reflexivity.
  - rewrite Hlast, (stream_emitting rest _ Hr). cbn [rev]. rewrite rev_app_distr, rev_involutive. reflexivity.
Qed.

(* ---- lines of a cue text: no arrow, no line end characters ---------------------------------------------------------------- *)
Lemma line_no_infix : forall p txt l, is_infix p txt = false -> In l (split_ch 10 txt) -> is_infix p l = false.
Proof.
  intros p txt l H Hin. destruct (is_infix p l) eqn:E; [|reflexivity]. destruct (StrSplit.split_ch_part 10 txt l Hin) as (a & b & Eq).
  rewrite Eq, (is_infix_app_r p a (l ++ b) (is_infix_app_l p l b E)) in H. discriminate.
Qed.

Lemma removelast_last_In : forall {A} (l : list A) d x, l <> [] -> In x (removelast l) \/ x = last l d -> In x l.
Proof.
  intros A l d x Hl H. rewrite (app_removelast_last d Hl). apply in_or_app. destruct H as [H| ->]; [left; exact H|right; left; reflexivity].
Qed.

Definition glines (settings : Z -> str) (c : str * list lnode) : list str :=
  flat_map (fun g => (fst c ++ settings (snd g)) :: split_ch 10 (fst g)) (vtt_groups (snd c)).

Lemma caption_str : forall settings c, vtt_caption_g settings c = concat (map nl (glines settings c)).
Proof.
  intros settings c. unfold vtt_caption_g, glines. induction (vtt_groups (snd c)) as [|g gs IH]; [reflexivity|].
  cbn [map concat flat_map]. rewrite IH, map_app, concat_app.
  assert (E : forall T S, concat (map nl (T :: S)) = (T ++ [10]) ++ concat (map nl S)) by reflexivity.
  rewrite E, <- (text_nl_lines (fst g)), <- !app_assoc. reflexivity.
Qed.

Fixpoint DL (Xs : list (list str)) : list str :=
  match Xs with [] => [] | [X] => X | X :: t => X ++ [] :: DL t end.

Lemma body_str : forall Xs, join [10] (map (fun X => concat (map nl X)) Xs) = concat (map nl (DL Xs)).
Proof.
  induction Xs as [|X Xs IH]; [reflexivity|]. destruct Xs as [|Y Xs]; [reflexivity|].
  change (join [10] (map (fun X => concat (map nl X)) (X :: Y :: Xs)))
    with (concat (map nl X) ++ [10] ++ join [10] (map (fun X => concat (map nl X)) (Y :: Xs))).
  rewrite IH. change (DL (X :: Y :: Xs)) with (X ++ [] :: DL (Y :: Xs)). rewrite map_app, concat_app. reflexivity.
Qed.

Definition cap_ok (settings : Z -> str) (c : str * list lnode) : Prop :=
  (forall l, has_arrow (fst c ++ settings l) = true /\ lc (fst c ++ settings l) = true) /\
  Forall (fun ln => node_ok (snd ln)) (snd c).

Lemma arrow_nonempty : forall T, has_arrow T = true -> is_empty T = false.
Proof. intros [|c T] H; [discriminate|reflexivity]. Qed.

Lemma stream_glines : forall settings c rest, cap_ok settings c -> emitting rest ->
  stream (glines settings c ++ rest) None = map (fun g => cue_payload (fst g)) (vtt_groups (snd c)) ++ stream rest None.
Proof.
  intros settings c rest [HT Hn] Hr. unfold glines.
  pose proof (vtt_groups_good (snd c) Hn) as G. pose proof (vtt_groups_no_arrow (snd c)) as A.
  induction (vtt_groups (snd c)) as [|g gs IH]; [reflexivity|].
  inversion G as [|x y (Gnl & Gne & Gcr) Gs]; subst. inversion A as [|x y Ag As]; subst.
  cbn [flat_map map]. rewrite <- app_assoc. destruct (HT (snd g)) as [Ha _].
  rewrite (stream_group (fst c ++ settings (snd g)) (fst g)); [cbn [app]; f_equal; exact (IH Gs As)|exact Ha|apply arrow_nonempty; exact Ha| | |].
  - rewrite nl_ok_lines in Gnl. apply Forall_forall. intros l Hl. split.
    + rewrite forallb_forall in Gnl. specialize (Gnl l Hl). destruct l; [discriminate|reflexivity].
    + apply (line_no_infix _ (fst g) l Ag), (removelast_last_In _ [] l (split_ch_nonempty 10 _)). left. exact Hl.
  - apply (line_no_infix _ (fst g) _ Ag), (removelast_last_In _ [] _ (split_ch_nonempty 10 _)). right. reflexivity.
  - destruct gs as [|g2 gs]; [exact Hr|]. cbn [flat_map app emitting]. right. apply (HT (snd g2)).
Qed.

Lemma stream_DL : forall settings caps rest, Forall (cap_ok settings) caps -> emitting rest ->
  stream (DL (map (glines settings) caps) ++ rest) None =
  map (fun g => cue_payload (fst g)) (flat_map (fun c => vtt_groups (snd c)) caps) ++ stream rest None.
Proof.
  intros settings. induction caps as [|c caps IH]; intros rest H Hr; [reflexivity|]. inversion H as [|x y Hc Hcs]; subst.
  destruct caps as [|c2 caps].
  - cbn [map DL flat_map]. rewrite app_nil_r. apply stream_glines; assumption.
  - change (DL (map (glines settings) (c :: c2 :: caps))) with (glines settings c ++ [] :: DL (map (glines settings) (c2 :: caps))).
    rewrite <- app_assoc. rewrite (stream_glines settings c _ Hc); [|left; reflexivity].
    cbn [app stream is_empty emit]. rewrite (IH rest Hcs Hr).
    change (flat_map (fun c0 => vtt_groups (snd c0)) (c :: c2 :: caps))
      with (vtt_groups (snd c) ++ flat_map (fun c0 => vtt_groups (snd c0)) (c2 :: caps)).
    rewrite map_app, <- app_assoc. reflexivity.
Qed.

Lemma DL_Forall : forall (P : str -> Prop) Xs, P [] -> Forall (Forall P) Xs -> Forall P (DL Xs).
Proof.
  intros P Xs P0. induction Xs as [|X Xs IH]; intros H; [constructor|]. inversion H as [|x y HX HXs]; subst. destruct Xs as [|Y Xs]; [exact HX|].
  change (DL (X :: Y :: Xs)) with (X ++ [] :: DL (Y :: Xs)). apply Forall_app. split; [exact HX|]. constructor; [exact P0|apply IH; exact HXs].
Qed.

Lemma glines_lc : forall settings c, cap_ok settings c -> Forall (fun l => lc l = true) (glines settings c).
Proof.
  intros settings c [HT Hn]. unfold glines. pose proof (vtt_groups_good (snd c) Hn) as G.
  induction (vtt_groups (snd c)) as [|g gs IH]; [constructor|]. inversion G as [|x y (_ & _ & Gcr) Gs]; subst.
  cbn [flat_map]. apply Forall_app. split; [|apply IH; exact Gs]. constructor; [apply (HT (snd g))|].
  apply Forall_forall. intros l Hl. apply (split_line_no_eol (fst g) l Gcr Hl).
Qed.

Theorem vtt_doc_cues : forall settings caps, Forall (cap_ok settings) caps ->
  vtt_cues (vtt_doc_g settings caps) =
  Some (map (fun g => cue_payload (fst g)) (flat_map (fun c => vtt_groups (snd c)) caps)).
Proof.
  intros settings caps H. unfold vtt_doc_g.
  assert (Em : map (vtt_caption_g settings) caps = map (fun X => concat (map nl X)) (map (glines settings) caps)).
  { rewrite map_map. apply map_ext. intros c. apply caption_str. }
  rewrite Em, body_str. set (D := DL (map (glines settings) caps)).
  assert (Ed : lit "WEBVTT" ++ [10; 10] ++ concat (map nl D) = join [10] ((lit "WEBVTT" :: [] :: D) ++ [[]])).
  { rewrite join_nl. cbn [map concat]. unfold nl. rewrite <- app_assoc. reflexivity. }
  rewrite Ed. unfold vtt_cues.
  assert (HD : Forall (fun l => lc l = true) D).
  { apply DL_Forall; [reflexivity|]. apply Forall_forall. intros X HX. apply in_map_iff in HX. destruct HX as (c & <- & Hc).
    rewrite Forall_forall in H. apply glines_lc. apply H. exact Hc. }
  rewrite lf_lines_join; [|discriminate|].
  - cbn [app]. change (is_prefix (lit "WEBVTT") (lit "WEBVTT") && match skipn 6 (lit "WEBVTT") with [] => true | c :: _ => (c =? 32) || (c =? 9) end) with true.
    cbv iota. cbn [drop_header is_empty].
    rewrite (runs_stream _ [] [] None) by (intros X; reflexivity). cbn [app stream is_empty emit].
    unfold D. rewrite (stream_DL settings caps [[]] H (or_introl eq_refl)). cbn [stream is_empty emit app]. rewrite app_nil_r. reflexivity.
  - cbn [app]. constructor; [reflexivity|]. constructor; [reflexivity|]. apply Forall_app. split; [exact HD|constructor; [reflexivity|constructor]].
Qed.
