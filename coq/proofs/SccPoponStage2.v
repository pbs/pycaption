(* C05, stage 2 of the pop-on refinement: a single load with ONE row whose items are basic characters, special
   characters, extended characters (with their stand-in) and explicit backspaces (no mid-row codes), preamble of any
   colour / underline (stage 2: non-italic) or italic (stage 2b), control codes single or doubled. The decoder queues
   exactly one text node carrying the characters of the 608 screen row (preceded by one italics-on node for an italic
   preamble); read-level corollaries and the link to ok_c05.
   The token run of a row (Section Run: atoks_run) is stated for any buffer whose last node is, or is going to be, the
   row's text node, and the preamble unit (pac_unit_run) for any buffer, tracker and style; row_run puts the two
   together, so that the rows of stages 5 and 8 run through them as well.
   Not covered here: rows containing mid-row codes (stage 2c), loads of several rows (stage 5), several loads (stage 7). *)
From Coq Require Import List ZArith QArith Qabs Lia Bool ZifyBool.
From PV Require Import lib.Sx lib.Str lib.Result model.GenScc model.SccLen model.SccTime model.SccStash model.SccDecoder model.SccLayout
                       spec.Spec608 spec.SpecScc05 spec.SpecSccLen proofs.SccTableFacts proofs.SccTableFixFacts proofs.SccDoubleFacts
                       proofs.SccLenFacts proofs.SccStashFacts proofs.SccPoponStage1.
Import ListNotations. Open Scope Z_scope.

(* performance only (see stage 1): the conversion must never evaluate the filter inside basic_code on a variable *)
Local Strategy 1000 [basic_code is_basic].

Definition rich_item (it : item) : bool := match it with Mid _ => false | _ => true end.
(* one row without mid-row codes, any preamble *)
Definition rich_row_any (r : row) : bool := row_ok r && forallb rich_item (rw_items r).
(* ... with a non-italic preamble (stage 2) / an italic preamble (stage 2b) *)
Definition rich_row (r : row) : bool := row_ok r && negb (rw_ital r) && forallb rich_item (rw_items r).
Definition rich_row_ital (r : row) : bool := row_ok r && rw_ital r && forallb rich_item (rw_items r).
(* the characters the 608 screen shows: the cells of the row (no Opt cell occurs without mid-row codes) *)
Definition cell_char (c : cell) : Z := match c with Cell ch _ => ch | Opt => 32 end.
Definition rich_text (r : row) : str := map cell_char (cells_of r).

Lemma rich_row_gen : forall r, rich_row r = true -> rich_row_any r = true /\ rw_ital r = false.
Proof.
  intros r. unfold rich_row, rich_row_any. destruct (row_ok r), (rw_ital r), (forallb rich_item (rw_items r)); intros H;
    try discriminate H; split; reflexivity.
Qed.

Lemma rich_row_ital_gen : forall r, rich_row_ital r = true -> rich_row_any r = true /\ rw_ital r = true.
Proof.
  intros r. unfold rich_row_ital, rich_row_any. destruct (row_ok r), (rw_ital r), (forallb rich_item (rw_items r)); intros H;
    try discriminate H; split; reflexivity.
Qed.

(* no basic character is the value of an extended-character code: the stand-in is always removed *)
Lemma basic_not_extended : forall c, is_basic c = true -> is_extended_value c = false.
Proof.
  intros c H. destruct (basic_code_range c H) as [R E]. rewrite <- E. clear E H. revert R. generalize (basic_code c). intros b R.
  assert (F : forallb (fun b => negb (is_extended_value (basic_608 b))) (zrange 32 95) = true) by vmr.
  apply negb_true_iff. apply (all_in _ _ F). inrange.
Qed.

(* a character of a caption row: not a control character, and white space only if it is the blank *)
Definition gcharb (c : Z) : bool := (32 <=? c) && (negb (is_space c) || (c =? 32)).

Lemma gchar_tables : forall c, In c (special_608 ++ extended1_608 ++ extended2_608) -> gcharb c = true.
Proof. apply all_in. vmr. Qed.

Lemma gchar_basic : forall c, is_basic c = true -> gcharb c = true.
Proof.
  intros c H. pose proof (is_basic_ge32 c H) as H1. pose proof (basic_space c H) as H2. clear H. unfold gcharb.
  apply andb_true_iff. split; [apply Z.leb_le; exact H1|].
  destruct (is_space c); [|reflexivity]. rewrite (H2 eq_refl). reflexivity.
Qed.

Lemma gchar_special : forall i, 0 <= i < 16 -> gcharb (nth (Z.to_nat i) special_608 0) = true.
Proof.
  intros i Hi. apply gchar_tables. apply in_or_app. left. apply nth_In.
  change (length special_608) with 16%nat. lia.
Qed.

Lemma gchar_ext : forall g i, 0 <= i < 32 -> gcharb (ext_char g i) = true.
Proof.
  intros g i Hi. apply gchar_tables. apply in_or_app. right. apply in_or_app. unfold ext_char.
  destruct (g =? 0); [left|right]; apply nth_In;
    [change (length extended1_608) with 32%nat|change (length extended2_608) with 32%nat]; lia.
Qed.

Lemma ext_word_ok : forall g i, 0 <= i < 32 -> extended_of (ext_word g i) = Some [ext_char g i].
Proof.
  intros g i Hi. unfold ext_word, ext_char. destruct (extended_match_608 i Hi) as [E1 E2].
  destruct (g =? 0); assumption.
Qed.

(* the first byte tells special characters, the two extended sets and the miscellaneous control codes apart *)
Lemma hi_word2 : forall a b, hi (word a b) = odd_parity a.
Proof. intros a b. unfold word. apply hi_word. apply odd_parity_range. Qed.

Lemma hi_special : forall i, hi (special_word i) = 145.
Proof. intros i. unfold special_word. rewrite hi_word2. reflexivity. Qed.

Lemma hi_ext : forall g i, hi (ext_word g i) = 146 \/ hi (ext_word g i) = 19.
Proof.
  intros g i. unfold ext_word, extended1_word, extended2_word. destruct (g =? 0); rewrite hi_word2; [left|right]; reflexivity.
Qed.

Lemma hi_bs : hi w_bs = 148.
Proof. reflexivity. Qed.

Lemma special_word_inj : forall i j, 0 <= i < 16 -> 0 <= j < 16 -> special_word i = special_word j -> i = j.
Proof.
  intros i j Hi Hj E.
  pose proof (map_eq_pointwise2 (fun i j => (special_word i =? special_word j)) (fun i j => (i =? j)) (zrange 0 16) (zrange 0 16)
                ltac:(vmr) i j ltac:(inrange) ltac:(inrange)) as F.
  cbv beta in F. rewrite E, Z.eqb_refl in F. symmetry in F. apply Z.eqb_eq in F. exact F.
Qed.

(* a word of one of the three code kinds sent inside a row *)
Inductive kind : Type := KSp (ch : Z) | KExt (ch : Z) | KBs.
Definition kind_ok (w : Z) (k : kind) : Prop :=
  match k with
  | KSp ch => special_of w = Some [ch]
  | KExt ch => extended_of w = Some [ch]
  | KBs => w = w_bs
  end.

Definition codeword (w : Z) : Prop := (is_command w || is_pac w) = true \/ special_of w <> None \/ extended_of w <> None.

Record cclass (w : Z) : Prop := mkCc {
  cc_pac : is_pac w = false; cc_tab : tab_of w = None; cc_cue : is_cue_start w = false;
  cc_eoc : (w =? w_eoc) = false; cc_code : codeword w }.

Lemma bs_facts : is_command w_bs = true /\ is_pac w_bs = false /\ special_of w_bs = None /\ extended_of w_bs = None /\
  tab_of w_bs = None /\ pac_pos w_bs = None /\ is_cue_start w_bs = false /\
  memz w_bs scc_background_color_codes = false /\ memz w_bs scc_style_setting_commands = false /\
  memz w_bs scc_mid_row_codes = false /\ ~ In w_bs ctl_words.
Proof.
  repeat split; try vmr. intros H. apply (memz_In w_bs ctl_words) in H. revert H. vm_compute. discriminate.
Qed.

Lemma not_command_class : forall w, is_command w = false -> is_cue_start w = false /\ (w =? w_eoc) = false.
Proof.
  intros w Hc. split.
  - destruct (is_cue_start w) eqn:E; [|reflexivity]. apply cue_command in E. congruence.
  - destruct (Z.eqb_spec w w_eoc) as [->|]; [|reflexivity]. rewrite w_eoc_command in Hc. discriminate.
Qed.

Lemma kind_class : forall w k, kind_ok w k -> cclass w.
Proof.
  intros w k H. destruct k as [ch|ch|]; cbn [kind_ok] in H.
  - assert (X : special_of w <> None) by congruence.
    destruct classes_disjoint as (D & _). destruct (D w X) as (Hc & Hp & He & Ht). destruct (not_command_class w Hc) as [Hq He'].
    split; try assumption. right. left. exact X.
  - assert (X : extended_of w <> None) by congruence.
    destruct classes_disjoint as (_ & D & _). destruct (D w X) as (Hc & Hp & Ht). destruct (not_command_class w Hc) as [Hq He'].
    split; try assumption. right. right. exact X.
  - subst w. destruct bs_facts as (Hc & Hp & _ & _ & Ht & _ & Hq & _).
    split; try assumption; try reflexivity. left. rewrite Hc. reflexivity.
Qed.

Inductive atok : Type := ACh (b c : Z) | ACode (w : Z) (k : kind).

Fixpoint apack (d : bool) (ts : list atok) (pend : option Z) : list Z :=
  match ts with
  | [] => flush pend
  | ACh b _ :: t => match pend with
                    | None => apack d t (Some b)
                    | Some b0 => (b0 * 256 + b) :: apack d t None
                    end
  | ACode w _ :: t => flush pend ++ ctl d w ++ apack d t None
  end.

Definition atoks_of_item (it : item) : list atok :=
  match it with
  | Ch c => [ACh (bc c) c]
  | Sp i => [ACode (special_word i) (KSp (nth (Z.to_nat i) special_608 0))]
  | Ext s g i => [ACh (bc s) s; ACode (ext_word g i) (KExt (ext_char g i))]
  | Mid _ => []
  | Bs => [ACode w_bs KBs]
  end.

Lemma pack_apack : forall d its pend, forallb rich_item its = true ->
  pack d (flat_map toks_of_item its) pend = apack d (flat_map atoks_of_item its) pend.
Proof.
  intros d. induction its as [|it t IH]; intros pend H; [reflexivity|].
  rewrite forallb_cons in H. apply andb_true_iff in H. destruct H as [Hi Ht].
  destruct it; try discriminate Hi; cbn [flat_map toks_of_item atoks_of_item app pack apack].
  - destruct pend; rewrite (IH _ Ht); reflexivity.
  - rewrite (IH _ Ht). reflexivity.
  - destruct pend; cbn [flush app]; rewrite (IH _ Ht); reflexivity.
  - rewrite (IH _ Ht). reflexivity.
Qed.

(* what the decoder's text becomes: a special character is appended, an extended character replaces the last
   character, a backspace removes it *)
Definition ksem (k : kind) (vt : str) : str :=
  match k with KSp ch => vt ++ [ch] | KExt ch => removelast vt ++ [ch] | KBs => removelast vt end.
(* a backspace (explicit, or the implicit one of an extended character) finds a character of its own row, so that
   get_previous_text_node never reaches back into an earlier row *)
Definition kpre (k : kind) (vt : str) : Prop :=
  match k with KExt _ => vt <> [] /\ is_extended_value (last vt 0) = false | KBs => vt <> [] | KSp _ => True end.

(* vt: the text transmitted so far; pc: the code word sent last if the last token was a code word *)
Fixpoint aok (ts : list atok) (vt : str) (pc : option Z) : Prop :=
  match ts with
  | [] => True
  | ACh b c :: t => carries b c /\ aok t (vt ++ [c]) None
  | ACode w k :: t => pc <> Some w /\ kind_ok w k /\ kpre k vt /\ aok t (ksem k vt) (Some w)
  end.
Fixpoint asem (ts : list atok) (vt : str) : str :=
  match ts with
  | [] => vt
  | ACh _ c :: t => asem t (vt ++ [c])
  | ACode _ k :: t => asem t (ksem k vt)
  end.

Definition pc_of (prev : option item) : option Z :=
  match prev with
  | Some (Sp j) => Some (special_word j)
  | Some (Ext _ g i) => Some (ext_word g i)
  | Some Bs => Some w_bs
  | _ => None
  end.
Definition prev_good (prev : option item) : Prop := match prev with Some (Sp j) => 0 <= j < 16 | _ => True end.
Definition prev_char (prev : option item) : Prop :=
  match prev with Some (Ch _) | Some (Sp _) | Some (Ext _ _ _) => True | _ => False end.

Lemma snoc_not_nil : forall A (l : list A) x, l ++ [x] <> [].
Proof. intros A l x E. apply app_eq_nil in E. destruct E as [_ E]. discriminate. Qed.

Lemma map_removelast : forall A B (f : A -> B) l, map f (removelast l) = removelast (map f l).
Proof.
  intros A B f. induction l as [|x t IH]; [reflexivity|].
  destruct t as [|y t']; [reflexivity|]. change (f x :: map f (removelast (y :: t')) = f x :: removelast (map f (y :: t'))).
  rewrite IH. reflexivity.
Qed.

Lemma word_neq_hi : forall a b, hi a <> hi b -> Some a <> Some b.
Proof. intros a b H E. injection E as ->. apply H. reflexivity. Qed.

(* the items of a row, seen as abstract tokens, are well formed and compute the cells of the 608 screen *)
Lemma items_aok : forall ital its prev acc, items_ok its prev = true -> forallb rich_item its = true -> prev_good prev ->
  (prev_char prev -> acc <> []) ->
  aok (flat_map atoks_of_item its) (map cell_char acc) (pc_of prev) /\
  asem (flat_map atoks_of_item its) (map cell_char acc) = map cell_char (row_cells its acc ital).
Proof.
  intros ital. induction its as [|it t IH]; intros prev acc Hok Hr Hg Hp; [split; [exact I|reflexivity]|].
  rewrite forallb_cons in Hr. apply andb_true_iff in Hr. destruct Hr as [Hi Hr].
  destruct (items_ok_inv it t prev Hok) as [Hok' Hit].
  destruct it as [c|i|s g i|a|]; try discriminate Hi; cbn [flat_map atoks_of_item app aok asem row_cells].
  - destruct (IH (Some (Ch c)) (acc ++ [Cell c ital]) Hok' Hr I (fun _ => snoc_not_nil _ _ _)) as [A B].
    rewrite map_app in A, B. cbn [map cell_char pc_of] in A, B.
    split; [split; [exact (carries_bc c Hit)|exact A]|exact B].
  - destruct Hit as [Hi' Hne].
    destruct (IH (Some (Sp i)) (acc ++ [Cell (nth (Z.to_nat i) special_608 0) ital]) Hok' Hr Hi' (fun _ => snoc_not_nil _ _ _)) as [A B].
    rewrite map_app in A, B. cbn [map cell_char pc_of] in A, B. cbn [ksem kind_ok kpre].
    split; [|exact B]. split; [|split; [exact (special_match_608 i Hi')|split; [exact I|exact A]]].
    destruct prev as [[c|j|s g j|a|]|]; cbn [pc_of]; try discriminate.
    + intros E. injection E as E. apply (Hne j eq_refl). symmetry. exact (special_word_inj j i Hg Hi' E).
    + apply word_neq_hi. rewrite hi_special. destruct (hi_ext g j) as [->| ->]; discriminate.
    + apply word_neq_hi. rewrite hi_special, hi_bs. discriminate.
  - destruct Hit as [Hs Hi'].
    destruct (IH (Some (Ext s g i)) (acc ++ [Cell (ext_char g i) ital]) Hok' Hr I (fun _ => snoc_not_nil _ _ _)) as [A B].
    rewrite map_app in A, B. cbn [map cell_char pc_of] in A, B. cbn [ksem kind_ok kpre].
    rewrite removelast_last, last_last.
    split; [|exact B]. split; [exact (carries_bc s Hs)|]. split; [discriminate|]. split; [exact (ext_word_ok g i Hi')|].
    split; [|exact A]. split; [apply snoc_not_nil|exact (basic_not_extended s Hs)].
  - destruct (IH (Some Bs) (removelast acc) Hok' Hr I (fun X : prev_char (Some Bs) => match X with end)) as [A B].
    rewrite map_removelast in A, B. cbn [pc_of] in A, B. cbn [ksem kind_ok kpre].
    split; [|exact B]. split; [|split; [reflexivity|split; [|exact A]]].
    + destruct Hit as [[c ->]|[[j ->]|[s [g [i ->]]]]]; cbn [pc_of]; try discriminate.
      * apply word_neq_hi. rewrite hi_special, hi_bs. discriminate.
      * apply word_neq_hi. rewrite hi_bs. destruct (hi_ext g i) as [->| ->]; discriminate.
    + intros E. apply map_eq_nil in E. revert E. apply Hp. destruct Hit as [[c ->]|[[j ->]|[s [g [i ->]]]]]; exact I.
Qed.

Lemma interp_bs : forall tk c n, interpret_command tk c w_bs n = (tk, handle_backspace w_bs c, None).
Proof.
  intros tk c n. destruct bs_facts as (_ & _ & _ & _ & Ht & Hp & _ & Hbg & Hst & Hmid & _).
  unfold interpret_command, update_positioning. cbv zeta. rewrite Ht, Hp, Z.eqb_refl, Hbg, Hst, Hmid.
  cbv beta iota. cbn [andb]. destruct (prev_text (cr_nodes (handle_backspace w_bs c))) as [[x y]|]; reflexivity.
Qed.

(* a command that is neither backspace, background colour, style-setting nor mid-row only moves the cursor *)
Lemma interp_plain : forall tk c w n, (w =? w_bs) = false -> memz w scc_background_color_codes = false ->
  memz w scc_style_setting_commands = false -> memz w scc_mid_row_codes = false ->
  interpret_command tk c w n = (update_positioning tk c w, c, None).
Proof.
  intros tk c w n Hbs Hbg Hst Hmid. unfold interpret_command. cbv zeta. rewrite Hbs, Hbg, Hst, Hmid.
  cbv beta iota. cbn [andb]. destruct (prev_text (cr_nodes c)) as [[x y]|]; reflexivity.
Qed.

Lemma dt_code : forall w k s, kind_ok w k -> doubled_type s w = true.
Proof.
  intros w k s Hk. unfold doubled_type. destruct k as [ch|ch|]; cbn [kind_ok] in Hk.
  - rewrite Hk. rewrite orb_true_r. reflexivity.
  - rewrite Hk. apply orb_true_r.
  - subst w. reflexivity.
Qed.

(* what the double-command memory may hold before a code word: never that code word (unless it was just sent) *)
Definition lgood (l : lastcmd) (pc : option Z) : Prop :=
  forall w, codeword w -> is_pac w = false -> pc <> Some w -> last_is l w = false.
Definition linv (l : lastcmd) (pc : option Z) : Prop := lgood l pc /\ last_is l w_eoc = false.

Lemma linv_none : forall pc, linv LNone pc.
Proof. intros pc. split; [intros w _ _ _|]; reflexivity. Qed.

Lemma linv_char : forall w a b, char_of (hi w) = Some a -> char_of (lo w) = Some b -> linv (LWord w) None.
Proof.
  intros w a b Ha Hb. split.
  - intros w' Hc _ _. cbn [last_is]. destruct (Z.eqb_spec w w') as [E|]; [|reflexivity]. exfalso. subst w'.
    destruct classes_disjoint as (_ & _ & _ & _ & D). destruct (D w Hc); congruence.
  - cbn [last_is]. destruct (char_word_class w a b Ha Hb) as (Hc & _).
    destruct (Z.eqb_spec w w_eoc) as [->|]; [discriminate Hc|reflexivity].
Qed.

Lemma linv_code : forall w, cclass w -> linv (LWord w) (Some w).
Proof.
  intros w C. split.
  - intros w' _ _ Hne. cbn [last_is]. destruct (Z.eqb_spec w w') as [E|]; [|reflexivity]. congruence.
  - cbn [last_is]. exact (cc_eoc w C).
Qed.

Lemma prev_text_snoc : forall pre c0 t p, prev_text (pre ++ [mkI IText (c0 :: t) p]) = Some (c0 :: t, false).
Proof. intros pre c0 t p. unfold prev_text. rewrite rev_unit. reflexivity. Qed.

Lemma upd_snoc : forall f pre c0 t p,
  upd_prev_text f (pre ++ [mkI IText (c0 :: t) p]) = pre ++ [mkI IText (f (c0 :: t)) p].
Proof.
  intros f pre c0 t p. unfold upd_prev_text. rewrite rev_unit.
  cbn [upd_prev_text_rev is_text i_kind i_text i_pos nonempty andb rev]. rewrite rev_involutive. reflexivity.
Qed.

Lemma hb_ext : forall w x vt pre p sty, extended_of w = Some x -> vt <> [] -> is_extended_value (last vt 0) = false ->
  handle_backspace w (mkCr (pre ++ [mkI IText vt p]) sty) = mkCr (pre ++ [mkI IText (removelast vt) p]) sty.
Proof.
  intros w x vt pre p sty He Hne Hl. destruct vt as [|c0 t]; [congruence|].
  unfold handle_backspace. cbn [cr_nodes cr_style]. rewrite prev_text_snoc, He. unfold last_char. rewrite Hl.
  cbn [andb negb orb]. rewrite upd_snoc. reflexivity.
Qed.

Lemma hb_bs : forall vt pre p sty, vt <> [] ->
  handle_backspace w_bs (mkCr (pre ++ [mkI IText vt p]) sty) = mkCr (pre ++ [mkI IText (removelast vt) p]) sty.
Proof.
  intros vt pre p sty Hne. destruct vt as [|c0 t]; [congruence|].
  unfold handle_backspace. cbn [cr_nodes cr_style]. rewrite prev_text_snoc, Z.eqb_refl, orb_true_r, upd_snoc. reflexivity.
Qed.

(* what the double-command memory holds after a word of a row's text: nothing a preamble address code could match *)
Definition rowlast (l : lastcmd) : Prop := forall p, is_pac p = true -> last_contains l p = false.

Lemma rowlast_none : rowlast LNone.
Proof. intros p _. reflexivity. Qed.

Lemma rowlast_word : forall w, is_pac w = false -> rowlast (LWord w).
Proof.
  intros w Hw p Hp. cbn [last_contains]. destruct (Z.eqb_spec w p) as [E|]; [|reflexivity]. congruence.
Qed.

(* the token run of a row on a buffer whose last node is (going to be) the row's text node: after a break or a reposition
   the row starts in a pending state, and the first add_chars call materialises the BREAK / REPOSITION nodes *)
Section Run.
Variables (st : stash) (d : bool) (sty : istyle) (pa ro : creator) (q : option (creator * Q)) (tm : Q) (tc : str) (off : Q).

(* r_dstart = d: the doubled RCL of the prologue sets double_starter *)
Definition RS (tk : tracker) (l : lastcmd) (nodes : list inode) (fr : Z) : rstate :=
  mkR st tk l d (mkCr nodes sty) pa ro MPop q tm tc fr off None.

Lemma d_cases : d = true \/ d = false.
Proof. case d; auto. Qed.

Section Toks.
Variables (tk0 tk1 : tracker) (nodes0 pre : list inode) (p : pos).
Hypothesis H0 : forall s, add_chars tk0 (mkCr nodes0 sty) s = (tk1, mkCr (pre ++ [mkI IText s p]) sty).
Hypothesis H1 : forall txt s, add_chars tk1 (mkCr (pre ++ [mkI IText txt p]) sty) s
                              = (tk1, mkCr (pre ++ [mkI IText (txt ++ s) p]) sty).

(* pending (nothing of the row received yet), or the row's text node is the last node *)
Definition holds (tk : tracker) (l : lastcmd) (nodes : list inode) (txt : str) : Prop :=
  (tk = tk0 /\ nodes = nodes0 /\ txt = []) \/ (tk = tk1 /\ nodes = pre ++ [mkI IText txt p] /\ rowlast l).

Lemma holds_text : forall l txt, rowlast l -> holds tk1 l (pre ++ [mkI IText txt p]) txt.
Proof. intros l txt H. right. repeat split. exact H. Qed.

Lemma add_held : forall tk l nodes txt s, holds tk l nodes txt ->
  add_chars tk (mkCr nodes sty) s = (tk1, mkCr (pre ++ [mkI IText (txt ++ s) p]) sty).
Proof. intros tk l nodes txt s [(-> & -> & ->)|(-> & -> & _)]; [apply H0|apply H1]. Qed.

(* the first copy of a code word of the three kinds *)
Lemma tw_code : forall w k vt tk l nodes fr n, kind_ok w k -> kpre k vt -> last_is l w = false -> holds tk l nodes vt ->
  translate_word (RS tk l nodes fr) w n = RS tk1 (LWord w) (pre ++ [mkI IText (ksem k vt) p]) (fr + 1).
Proof.
  intros w k vt tk l nodes fr n Hk Hp Hl Hh. destruct (kind_class w k Hk) as [Cp Ct Cq _ _].
  destruct k as [ch|ch|]; cbn [kind_ok kpre ksem] in *.
  - assert (X : special_of w <> None) by congruence.
    destruct classes_disjoint as (D & _). destruct (D w X) as (Hc & _).
    unfold RS, translate_word. proj_red. rewrite (hd_code _ _ _ _ _ _ _ _ _ _ _ _ _ Cp Ct Cq Hl). proj_red.
    rewrite Hc, Cp. proj_red. rewrite Hk. unfold add_to_buf. proj_red.
    rewrite (add_held tk l nodes vt [ch] Hh). proj_red. reflexivity.
  - assert (X : extended_of w <> None) by congruence.
    destruct classes_disjoint as (D1 & D & _). destruct (D w X) as (Hc & _).
    assert (Hs : special_of w = None).
    { destruct (special_of w) eqn:E; [|reflexivity]. exfalso.
      assert (Y : special_of w <> None) by congruence. destruct (D1 w Y) as (_ & _ & Z0 & _). congruence. }
    destruct Hp as [Hne Hlast].
    destruct Hh as [(_ & _ & ->)|(-> & -> & Hr)]; [congruence|].
    unfold RS, translate_word. proj_red. rewrite (hd_code _ _ _ _ _ _ _ _ _ _ _ _ _ Cp Ct Cq Hl). proj_red.
    rewrite Hc, Cp. proj_red. rewrite Hs, Hk. unfold add_to_buf. proj_red.
    rewrite (hb_ext w [ch] vt pre p sty Hk Hne Hlast), H1. proj_red. reflexivity.
  - subst w. destruct bs_facts as (Hc & _ & _ & _ & _ & _ & _ & _ & _ & _ & Hn).
    destruct Hh as [(_ & _ & ->)|(-> & -> & Hr)]; [congruence|].
    unfold RS, translate_word. proj_red. rewrite (hd_code _ _ _ _ _ _ _ _ _ _ _ _ _ Cp Ct Cq Hl). proj_red.
    rewrite Hc. proj_red. rewrite (translate_command_other _ w_bs n Hn). unfold do_interpret. proj_red.
    rewrite interp_bs, (hb_bs vt pre p sty Hp). proj_red. reflexivity.
Qed.

(* a code word, sent once or twice *)
Lemma code_run : forall w k vt pc tk l nodes fr nx, kind_ok w k -> kpre k vt -> pc <> Some w ->
  holds tk l nodes vt -> linv l pc ->
  exists l', tws (RS tk l nodes fr) (ctl d w) nx
             = RS tk1 l' (pre ++ [mkI IText (ksem k vt) p]) (fr + Z.of_nat (length (ctl d w))) /\
             rowlast l' /\ linv l' (Some w).
Proof.
  intros w k vt pc tk l nodes fr nx Hk Hp Hpc Hh [Hg _]. pose proof (kind_class w k Hk) as C.
  assert (Hl : last_is l w = false) by (apply Hg; [exact (cc_code w C)|exact (cc_pac w C)|exact Hpc]).
  pose proof (fun n => tw_code w k vt tk l nodes fr n Hk Hp Hl Hh) as E1.
  destruct d_cases as [Ed|Ed]; rewrite Ed; cbn [ctl tws length].
  - exists LNone. split; [|split; [apply rowlast_none|apply linv_none]].
    rewrite E1. rewrite tw_second; [|reflexivity|reflexivity|exact (dt_code w k _ Hk)].
    rewrite (cc_cue w C). unfold RS, bump, set_dbl, set_clock. proj_red. f_equal. clear. lia.
  - exists (LWord w). split; [|split; [exact (rowlast_word w (cc_pac w C))|exact (linv_code w C)]].
    rewrite E1. reflexivity.
Qed.

Definition rgoal (tk : tracker) (l : lastcmd) (nodes : list inode) (fr : Z) (nx : option Z) (ws : list Z) (txt' : str) : Prop :=
  exists tk' l' nodes', tws (RS tk l nodes fr) ws nx = RS tk' l' nodes' (fr + Z.of_nat (length ws)) /\
                        holds tk' l' nodes' txt' /\ last_is l' w_eoc = false.

Lemma rgoal_step : forall tk l nodes fr nx a rest txt' tk1' l1 nodes1,
  tws (RS tk l nodes fr) a (nxt rest nx) = RS tk1' l1 nodes1 (fr + Z.of_nat (length a)) ->
  rgoal tk1' l1 nodes1 (fr + Z.of_nat (length a)) nx rest txt' -> rgoal tk l nodes fr nx (a ++ rest) txt'.
Proof.
  intros tk l nodes fr nx a rest txt' tk1' l1 nodes1 E (tk' & l' & nodes' & E' & Hh & Hl). exists tk', l', nodes'.
  rewrite tws_app, E, E'. split; [|split; assumption]. f_equal. rewrite app_length. lia.
Qed.

(* one word of characters, then the rest *)
Lemma rgoal_char : forall tk l nodes txt fr nx w a b rest txt',
  char_of (hi w) = Some a -> char_of (lo w) = Some b -> holds tk l nodes txt ->
  (forall l1 fr1, rowlast l1 -> linv l1 None -> rgoal tk1 l1 (pre ++ [mkI IText (txt ++ a ++ b) p]) fr1 nx rest txt') ->
  rgoal tk l nodes fr nx (w :: rest) txt'.
Proof.
  intros tk l nodes txt fr nx w a b rest txt' Ha Hb Hh K.
  apply (rgoal_step tk l nodes fr nx [w] rest txt' tk1 (LWord w) (pre ++ [mkI IText (txt ++ a ++ b) p])).
  - cbn [tws length]. exact (tw_chars _ _ _ _ _ _ _ _ _ _ _ _ w a b _ _ _ Ha Hb (add_held tk l nodes txt (a ++ b) Hh)).
  - apply K; [|exact (linv_char w a b Ha Hb)].
    destruct (char_word_class w a b Ha Hb) as (_ & Hp & _). exact (rowlast_word w Hp).
Qed.

(* a character token takes the next one into its word if that is a character too, the filler otherwise *)
Lemma apack_char : forall b c ts, apack d (ACh b c :: ts) None
  = match ts with ACh b' _ :: t => (b * 256 + b') :: apack d t None | _ => (b * 256 + 128) :: apack d ts None end.
Proof. intros b c [|[b' c'|w k] t]; reflexivity. Qed.

Lemma atoks_run : forall nx ts vt pc tk l nodes fr, aok ts vt pc -> holds tk l nodes vt -> linv l pc ->
  rgoal tk l nodes fr nx (apack d ts None) (asem ts vt).
Proof.
  intros nx ts. induction ts as [ts IH] using (induction_ltof1 _ (@length atok)). unfold ltof in IH.
  intros vt pc tk l nodes fr Hok Hh Hl. destruct ts as [|[b c|w k] ts].
  - destruct Hl as [_ Hl]. exists tk, l, nodes. cbn [apack flush tws length asem]. rewrite Z.add_0_r. auto.
  - destruct Hok as [[Rg Hc] Hok]. cbn [asem]. rewrite apack_char.
    assert (Hhi : forall x, 0 <= x < 256 -> char_of (hi (b * 256 + x)) = Some [c])
      by (intros x Hx; rewrite hi_word by exact Hx; exact Hc).
    assert (Pad : rgoal tk l nodes fr nx ((b * 256 + 128) :: apack d ts None) (asem ts (vt ++ [c]))).
    { apply (rgoal_char tk l nodes vt fr nx _ [c] [] _ _ (Hhi 128 ltac:(lia))); [rewrite lo_word by lia; exact char_of_pad|exact Hh|].
      rewrite app_nil_r. intros l1 fr1 Hr1 Hl1. exact (IH ts ltac:(cbn; lia) _ None tk1 l1 _ fr1 Hok (holds_text l1 _ Hr1) Hl1). }
    destruct ts as [|[b' c'|w k] t]; [exact Pad| |exact Pad].
    destruct Hok as [[Rg' Hc'] Hok']. cbn [asem].
    apply (rgoal_char tk l nodes vt fr nx _ [c] [c'] _ _ (Hhi b' Rg')); [rewrite lo_word by exact Rg'; exact Hc'|exact Hh|].
    intros l1 fr1 Hr1 Hl1.
    apply (IH t ltac:(cbn; lia) ((vt ++ [c]) ++ [c']) None tk1 l1 _ fr1 Hok'); [rewrite <- app_assoc; exact (holds_text l1 _ Hr1)|exact Hl1].
  - destruct Hok as (Hpc & Hk & Hp & Hok). cbn [apack flush app asem].
    destruct (code_run w k vt pc tk l nodes fr (nxt (apack d ts None) nx) Hk Hp Hpc Hh Hl) as (l1 & E1 & Hr1 & Hl1).
    apply (rgoal_step tk l nodes fr nx (ctl d w) _ _ tk1 l1 _ E1).
    exact (IH ts ltac:(cbn; lia) _ _ tk1 l1 _ _ Hok (holds_text l1 _ Hr1) Hl1).
Qed.
End Toks.
End Run.

Lemma row_ok_style : forall r, row_ok r = true -> 0 <= rw_style r < 18 /\ (rw_indent r = 0 \/ rw_style r <= 1).
Proof.
  intros r. unfold row_ok. cbv zeta. generalize (cells_of r) (items_ok (rw_items r) None). intros cs io H.
  repeat (apply andb_true_iff in H; let H' := fresh "H" in destruct H as [H H']).
  lia.
Qed.

(* every cell is a character cell with the italic attribute of the preamble *)
Definition gcell (ital : bool) (c : cell) : Prop := c = Cell (cell_char c) ital /\ gcharb (cell_char c) = true.

Lemma Forall_removelast : forall A (P : A -> Prop) l, Forall P l -> Forall P (removelast l).
Proof.
  intros A P. induction l as [|x t IH]; intros H; [constructor|]. destruct t as [|y t']; [constructor|].
  inversion H; subst. change (Forall P (x :: removelast (y :: t'))). constructor; [assumption|apply IH; assumption].
Qed.

Lemma cells_good : forall ital its prev acc, items_ok its prev = true -> forallb rich_item its = true ->
  Forall (gcell ital) acc -> Forall (gcell ital) (row_cells its acc ital).
Proof.
  intros ital. induction its as [|it t IH]; intros prev acc Hok Hr Ha; [exact Ha|].
  rewrite forallb_cons in Hr. apply andb_true_iff in Hr. destruct Hr as [Hi Hr].
  destruct (items_ok_inv it t prev Hok) as [Hok' Hit].
  assert (S : forall ch, gcharb ch = true -> Forall (gcell ital) (acc ++ [Cell ch ital])).
  { intros ch Hch. apply Forall_app. split; [exact Ha|]. constructor; [|constructor]. split; [reflexivity|exact Hch]. }
  destruct it as [c|i|s g i|a|]; try discriminate Hi; cbn [row_cells]; apply (IH _ _ Hok' Hr).
  - exact (S _ (gchar_basic c Hit)).
  - exact (S _ (gchar_special i (proj1 Hit))).
  - exact (S _ (gchar_ext g i (proj2 Hit))).
  - apply Forall_removelast. exact Ha.
Qed.

Lemma gcell_map : forall ital cs, Forall (gcell ital) cs ->
  cs = map (fun c => Cell c ital) (map cell_char cs) /\ Forall (fun c => gcharb c = true) (map cell_char cs).
Proof.
  intros ital. induction cs as [|c t IH]; intros H; [split; [reflexivity|constructor]|].
  inversion H as [|x y [H1 H2] H3]; subst. destruct (IH H3) as [E F]. cbn [map]. split.
  - rewrite <- E, <- H1. reflexivity.
  - constructor; assumption.
Qed.

Lemma gcharb_parts : forall c, gcharb c = true -> 32 <= c /\ (is_space c = true -> c = 32).
Proof.
  intros c H. unfold gcharb in H. apply andb_true_iff in H. destruct H as [H1 H2]. apply Z.leb_le in H1.
  split; [exact H1|]. intros E. rewrite E in H2. cbn [negb orb] in H2. apply Z.eqb_eq in H2. exact H2.
Qed.

Lemma rich_facts : forall r, rich_row_any r = true ->
  1 <= rw_row r <= 15 /\ In (rw_indent r) indents_608 /\ 0 <= rw_tab r <= 3 /\
  0 <= rw_style r < 18 /\ (rw_indent r = 0 \/ rw_style r <= 1) /\
  aok (flat_map atoks_of_item (rw_items r)) [] None /\ asem (flat_map atoks_of_item (rw_items r)) [] = rich_text r /\
  cells_of r = map (fun c => Cell c (rw_ital r)) (rich_text r) /\ Forall (fun c => gcharb c = true) (rich_text r) /\
  rich_text r <> [] /\ is_space (last (rich_text r) 0) = false /\
  rw_indent r + rw_tab r + Z.of_nat (length (rich_text r)) <= 32.
Proof.
  intros r H. unfold rich_row_any in H. apply andb_true_iff in H. destruct H as [Hok Hb].
  destruct (row_ok_parts r Hok) as (Hr & Hm & Ht & Hio & Hv & Hl & Hn).
  destruct (row_ok_style r Hok) as [Hs1 Hs2].
  destruct (items_aok (rw_ital r) (rw_items r) None [] Hio Hb I (fun X : prev_char None => match X with end)) as [A B]. cbn [map pc_of] in A, B.
  pose proof (cells_good (rw_ital r) (rw_items r) None [] Hio Hb (Forall_nil _)) as G. fold (cells_of r) in G, B.
  destruct (gcell_map _ _ G) as [E F]. fold (rich_text r) in E, F, B.
  assert (Hne : cells_of r <> []) by (intros X; rewrite X in Hv; discriminate Hv).
  assert (Hne' : rich_text r <> []) by (unfold rich_text; intros X; apply map_eq_nil in X; congruence).
  assert (Hlast : is_space (last (rich_text r) 0) = false).
  { unfold rich_text. destruct (exists_last Hne) as (l' & x & Ex). rewrite Ex in Hl, G |- *.
    rewrite map_app. cbn [map]. rewrite last_last in Hl |- *.
    apply Forall_app in G. destruct G as [_ G]. inversion G as [|x0 y0 [G1 G2] G3]; subst x0 y0.
    destruct (gcharb_parts _ G2) as [_ Q]. rewrite G1 in Hl. cbn [cell_space] in Hl.
    destruct (is_space (cell_char x)); [|reflexivity]. rewrite (Q eq_refl) in Hl. discriminate. }
  assert (Hlen : length (cells_of r) = length (rich_text r)) by (unfold rich_text; rewrite map_length; reflexivity).
  rewrite Hlen in Hn.
  exact (conj Hr (conj (mem_In _ _ Hm) (conj Ht (conj Hs1 (conj Hs2 (conj A (conj B (conj E (conj F (conj Hne' (conj Hlast Hn))))))))))).
Qed.

Lemma pac_attr_facts2 : forall r, In (rw_indent r) indents_608 -> 0 <= rw_style r < 18 -> (rw_indent r = 0 \/ rw_style r <= 1) ->
  0 <= pac_attr r < 32 /\ pac_col (pac_attr r) = rw_indent r /\ pac_italics (pac_attr r) = rw_ital r.
Proof.
  intros [rr ind tab sty its]. unfold pac_attr, rw_ital. cbn [rw_indent rw_style]. intros Hin Hs Hor.
  unfold indents_608 in Hin. cbn [In] in Hin. destruct Hin as [<-|Hin].
  - cbn [Z.eqb andb]. unfold pac_col. destruct (sty <? 16) eqn:E16; [split; [lia|split; reflexivity]|].
    (* the indent form of the preamble address code with indent 0 (attributes 16 / 17: white, optional underline) *)
    assert (Hs' : sty = 16 \/ sty = 17) by lia. destruct Hs' as [->| ->]; (split; [lia|split; vm_compute; reflexivity]).
  - repeat (destruct Hin as [<-|Hin];
            [assert (Hs' : sty = 0 \/ sty = 1) by lia; destruct Hs' as [->| ->];
             (split; [split; [apply Z.leb_le|apply Z.ltb_lt]; vm_compute; reflexivity|split; vm_compute; reflexivity])|]).
    destruct Hin.
Qed.

Lemma pac_row_facts2 : forall r, rich_row_any r = true ->
  let p := pac_word (rw_row r) (pac_attr r) in
  pac_pos p = Some (rw_row r, rw_indent r) /\ is_pac p = true /\ tab_of p = None /\ ctlfree p /\
  memz p scc_style_setting_commands = true /\ memz p scc_italics_commands = rw_ital r.
Proof.
  intros r H p. destruct (rich_facts r H) as (Hr & Hin & _ & Hs1 & Hs2 & _).
  destruct (pac_attr_facts2 r Hin Hs1 Hs2) as (Ha & Hc & Hit).
  destruct (pac_word_facts _ _ Hr Ha) as (Hp & Hpac & Ht & _ & C). destruct (every_pac_sets_style _ _ Hr Ha) as [Hst Hi].
  fold p in Hp, Hpac, Ht, C, Hst, Hi. rewrite Hc in Hp. rewrite Hit in Hi. auto 10.
Qed.

Definition pre_of (r : row) : list inode := if rw_ital r then [mkI IItalOn [] (rw_row r, rw_indent r)] else [].
Definition sty_of (r : row) : istyle := if rw_ital r then SOn else SNone.

Lemma pre_of_cases : forall r, pre_of r = [] \/ exists p0, pre_of r = [mkI IItalOn [] p0].
Proof. intros r. unfold pre_of. destruct (rw_ital r); [right; eexists; reflexivity|left; reflexivity]. Qed.

Definition tw_cmd := tw_interp.

(* up_pac_ready (stage 1) for a buffer of any style *)
Lemma up_pac5 : forall tk nodes sty p pos, tab_of p = None -> pac_pos p = Some pos -> pac_ready tk nodes ->
  update_positioning tk (mkCr nodes sty) p = tracker_update tk pos.
Proof.
  intros tk nodes sty p pos Ht Hp [Hn|Hr].
  - apply up_pac; assumption.
  - rewrite (up_pac_gen _ _ _ _ Ht Hp). cbn [cr_nodes]. destruct nodes; [rewrite Hr|]; reflexivity.
Qed.

Definition pac_style (it : bool) (sty : istyle) (t : tracker) (nodes : list inode) : tracker * creator :=
  let cur := current_position t in
  if it then
    match sty with
    | SOn => (t, mkCr nodes sty)
    | _ => let '(t1, nodes1) := if break_required t then (ack_break t, nodes ++ [mkI IBreak [] cur]) else (t, nodes) in
           (t1, mkCr (nodes1 ++ [mkI IItalOn [] cur]) SOn)
    end
  else
    match sty with
    | SOn => let nodes1 := nodes ++ [mkI IItalOff [] cur] in
             if break_required t then (ack_break t, mkCr (nodes1 ++ [mkI IBreak [] cur]) SOff) else (t, mkCr nodes1 SOff)
    | _ => (t, mkCr nodes sty)
    end.

Lemma interp_pac5b : forall tk nodes sty w n pos it tk' c', ctlfree w -> memz w scc_style_setting_commands = true ->
  memz w scc_italics_commands = it -> tab_of w = None -> pac_pos w = Some pos -> pac_ready tk nodes ->
  pac_style it sty (tracker_update tk pos) nodes = (tk', c') ->
  interpret_command tk (mkCr nodes sty) w n = (tk', c', None).
Proof.
  intros tk nodes sty w n pos it tk' c' C Hst Hit Ht Hp Hrd Hps. unfold interpret_command. cbv zeta.
  rewrite (up_pac5 _ _ _ _ _ Ht Hp Hrd), (cf_bs _ C), (cf_bg _ C), Hst, Hit, (cf_mid _ C). cbn [cr_style cr_nodes andb].
  unfold pac_style in Hps. cbv zeta in Hps.
  destruct it; destruct sty; try destruct (break_required (tracker_update tk pos)); injection Hps as <- <-;
    cbn [cr_style cr_nodes]; match goal with |- context [prev_text ?x] => destruct (prev_text x) as [[? ?]|] end; reflexivity.
Qed.

Lemma linv_pac : forall r, rich_row_any r = true -> linv (LWord (pac_word (rw_row r) (pac_attr r))) None.
Proof.
  intros r Hrow. destruct (pac_row_facts2 r Hrow) as (_ & Hpac & _ & C & _). split.
  - intros w _ Hw _. cbn [last_is]. destruct (Z.eqb_spec (pac_word (rw_row r) (pac_attr r)) w) as [E|]; [|reflexivity]. rewrite <- E in Hw. congruence.
  - cbn [last_is]. apply Z.eqb_neq. intros E. apply (cf_ctl _ C). rewrite E. unfold ctl_words. cbn [In]. tauto.
Qed.

Section PacUnit.
Variables (st : stash) (ds : bool) (pa ro : creator) (q : option (creator * Q)) (tm : Q) (tc : str) (off : Q).

Definition SQ (c : creator) (tk : tracker) (l : lastcmd) (fr : Z) : rstate := mkR st tk l ds c pa ro MPop q tm tc fr off None.

(* the preamble unit (address code, optional tab offset) of a row on any buffer: the address code moves the tracker and
   sets the style (pac_style); a tab offset right after a materialised BREAK is ignored (has_break_before) *)
Lemma pac_unit_run : forall d r sty tk l nodes fr nx tk' nodes' sty', rich_row_any r = true ->
  pac_style (rw_ital r) sty (tracker_update tk (rw_row r, rw_indent r)) nodes = (tk', mkCr nodes' sty') ->
  last_contains l (pac_word (rw_row r) (pac_attr r)) = false -> pac_ready tk nodes ->
  exists l', tws (SQ (mkCr nodes sty) tk l fr) (pac_unit d r) nx
             = SQ (mkCr nodes' sty')
                  (if has_break_before nodes' then tk'
                   else if 0 <? rw_tab r then tracker_update tk' (fst (tk_default tk'), snd (tk_default tk') + rw_tab r) else tk')
                  l' (fr + Z.of_nat (length (pac_unit d r)))
             /\ linv l' None.
Proof.
  intros d r sty tk l nodes fr nx tk' nodes' sty' Hrow Hps Hl Hrd.
  set (p := pac_word (rw_row r) (pac_attr r)) in *. set (t := tab_word (rw_tab r)).
  destruct (rich_facts r Hrow) as (_ & _ & Hk & _).
  destruct (pac_row_facts2 r Hrow) as (Hp & Hpac & Ht & C & Hst & Hit). fold p in Hp, Hpac, Ht, C, Hst, Hit.
  assert (Spac : forall n, translate_word (SQ (mkCr nodes sty) tk l fr) p n = SQ (mkCr nodes' sty') tk' (LWord p) (fr + 1)).
  { intros n. unfold SQ.
    apply (tw_cmd _ _ _ _ _ _ _ _ _ _ _ _ p n (LWord p) _ _ (cf_cp _ C) (cf_ctl _ C)
             (hd_pac _ _ _ _ _ _ _ _ _ _ _ _ _ Hpac Hl)).
    exact (interp_pac5b tk nodes sty p n _ _ _ _ C Hst Hit Ht Hp Hrd Hps). }
  rewrite (unit_pair d r nx _ _ (SQ (mkCr nodes' sty')
                                    (if has_break_before nodes' then tk'
                                     else tracker_update tk' (fst (tk_default tk'), snd (tk_default tk') + rw_tab r))
                                    (LPacTo p t) (fr + 1 + 1)) Hpac Spac eq_refl eq_refl).
  - unfold pac_unit. destruct (0 <? rw_tab r) eqn:Et.
    + destruct d; eexists; (split; [unfold SQ, set_clock, set_dbl; proj_red; cbn [length app]; f_equal; clear; lia|]);
        [apply linv_none|split; [intros w _ _ _|]; reflexivity].
    + replace (if has_break_before nodes' then tk' else tk') with tk' by (destruct (has_break_before nodes'); reflexivity).
      destruct d; eexists; (split; [unfold SQ, set_clock, set_dbl; proj_red; cbn [length app]; f_equal; clear; lia|]);
        [apply linv_none|exact (linv_pac r Hrow)].
  - intros H0. assert (Hk' : 1 <= rw_tab r <= 3) by (clear -Hk H0; lia). destruct (tab_row_facts _ Hk') as [Htab It]. fold t in Htab, It.
    assert (X : tab_of t <> None) by congruence.
    destruct classes_disjoint as (_ & _ & _ & D & _). destruct (D _ X) as (_ & _ & _ & Hstt & _).
    split; [exact X|split; [|split; reflexivity]]. intros n. unfold SQ.
    apply (tw_cmd _ _ _ _ _ _ _ _ _ _ _ _ t n (LPacTo p t) _ _ (in_cp _ It) (in_ctl _ It)
             (hd_tab _ _ _ _ _ _ _ _ _ _ _ _ _ _ Hpac Htab)).
    rewrite (interp_plain _ _ t n (in_bs _ It) (in_bg _ It) Hstt (in_mid _ It)).
    unfold update_positioning. rewrite Htab. reflexivity.
Qed.
End PacUnit.

(* ... on the empty buffer the prologue leaves: an italic preamble opens italics, the tab offset is never ignored *)
Lemma first_pac_style : forall r dflt,
  pac_style (rw_ital r) SNone (tracker_update (mkTk [] None false dflt) (rw_row r, rw_indent r)) []
  = (mkTk [(rw_row r, rw_indent r)] None false (rw_row r, rw_indent r), mkCr (pre_of r) (sty_of r)).
Proof. intros r dflt. rewrite tracker_first. unfold pac_style, pre_of, sty_of. destruct (rw_ital r); reflexivity. Qed.

Lemma first_tab : forall r, 0 <= rw_tab r <= 3 ->
  let tk0 := mkTk [(rw_row r, rw_indent r)] None false (rw_row r, rw_indent r) in
  (if has_break_before (pre_of r) then tk0
   else if 0 <? rw_tab r then tracker_update tk0 (fst (tk_default tk0), snd (tk_default tk0) + rw_tab r) else tk0)
  = mkTk [row_pos r] None false (row_pos r).
Proof.
  intros r Hk tk0. replace (has_break_before (pre_of r)) with false by (unfold pre_of; destruct (rw_ital r); reflexivity).
  unfold row_pos, tk0. cbn [tk_default fst snd]. destruct (0 <? rw_tab r) eqn:Et.
  - rewrite tracker_tab by lia. reflexivity.
  - replace (rw_tab r) with 0 by lia. rewrite Z.add_0_r. reflexivity.
Qed.

Lemma pac_unit_run2 : forall r, rich_row_any r = true -> forall st ds pa ro q tm tc off d dflt l fr nx,
  last_contains l (pac_word (rw_row r) (pac_attr r)) = false ->
  exists l', tws (SQ st ds pa ro q tm tc off creator0 (mkTk [] None false dflt) l fr) (pac_unit d r) nx
             = SQ st ds pa ro q tm tc off (mkCr (pre_of r) (sty_of r)) (mkTk [row_pos r] None false (row_pos r)) l'
                  (fr + Z.of_nat (length (pac_unit d r)))
             /\ linv l' None.
Proof.
  intros r Hrow st ds pa ro q tm tc off d dflt l fr nx Hl. destruct (rich_facts r Hrow) as (_ & _ & Hk & _).
  destruct (pac_unit_run st ds pa ro q tm tc off d r SNone (mkTk [] None false dflt) l [] fr nx _ (pre_of r) (sty_of r) Hrow
              (first_pac_style r dflt) Hl (or_intror eq_refl)) as (l' & E & Hl').
  exists l'. split; [|exact Hl']. refine (eq_trans E _). rewrite (first_tab r Hk). reflexivity.
Qed.

(* a whole row: preamble unit, then the token run on the buffer the first add_chars call produces *)
Lemma row_run : forall st d pa ro q tm tc off r sty tk l nodes fr nx tk' nodes' sty' tk0 tk1 pre p, rich_row_any r = true ->
  pac_style (rw_ital r) sty (tracker_update tk (rw_row r, rw_indent r)) nodes = (tk', mkCr nodes' sty') ->
  last_contains l (pac_word (rw_row r) (pac_attr r)) = false -> pac_ready tk nodes ->
  (if has_break_before nodes' then tk'
   else if 0 <? rw_tab r then tracker_update tk' (fst (tk_default tk'), snd (tk_default tk') + rw_tab r) else tk') = tk0 ->
  (forall s, add_chars tk0 (mkCr nodes' sty') s = (tk1, mkCr (pre ++ [mkI IText s p]) sty')) ->
  (forall txt s, add_chars tk1 (mkCr (pre ++ [mkI IText txt p]) sty') s = (tk1, mkCr (pre ++ [mkI IText (txt ++ s) p]) sty')) ->
  exists l', tws (RS st d sty pa ro q tm tc off tk l nodes fr) (emit_row d r) nx
             = RS st d sty' pa ro q tm tc off tk1 l' (pre ++ [mkI IText (rich_text r) p]) (fr + Z.of_nat (length (emit_row d r)))
             /\ rowlast l' /\ last_is l' w_eoc = false.
Proof.
  intros st d pa ro q tm tc off r sty tk l nodes fr nx tk' nodes' sty' tk0 tk1 pre p Hrow Hps Hl Hrd Etk H0 H1.
  destruct (rich_facts r Hrow) as (_ & _ & _ & _ & _ & Hok & Hsem & _ & _ & Hne & _).
  pose proof (proj2 (proj1 (andb_true_iff _ _) Hrow)) as Hb.
  unfold emit_row. rewrite (pack_apack d _ None Hb), tws_app, app_length, Nat2Z.inj_add.
  set (toks := apack d (flat_map atoks_of_item (rw_items r)) None) in *.
  destruct (pac_unit_run st d pa ro q tm tc off d r sty tk l nodes fr (nxt toks nx) tk' nodes' sty' Hrow Hps Hl Hrd) as (l1 & E1 & Hl1).
  rewrite Etk in E1.
  destruct (atoks_run st d sty' pa ro q tm tc off tk0 tk1 nodes' pre p H0 H1 nx (flat_map atoks_of_item (rw_items r))
              [] None tk0 l1 nodes' (fr + Z.of_nat (length (pac_unit d r))) Hok (or_introl (conj eq_refl (conj eq_refl eq_refl))) Hl1)
    as (tk2 & l2 & nodes2 & E2 & Hh2 & Hl2).
  fold toks in E2. rewrite Hsem in Hh2. destruct Hh2 as [(_ & _ & X)|(-> & -> & Hr2)]; [congruence|].
  exists l2. split; [|split; assumption].
  refine (eq_trans (f_equal (fun s => tws s toks nx) E1) _). refine (eq_trans E2 _). unfold RS. f_equal. clear. lia.
Qed.

(* the first row of a load, from the state the prologue leaves *)
Lemma first_rich_row : forall st d pa ro q tm tc off dflt r l fr nx, rich_row_any r = true ->
  last_contains l (pac_word (rw_row r) (pac_attr r)) = false ->
  exists l1, tws (RS st d SNone pa ro q tm tc off (mkTk [] None false dflt) l [] fr) (emit_row d r) nx
             = RS st d (sty_of r) pa ro q tm tc off (mkTk [row_pos r] None false (row_pos r)) l1
                  (pre_of r ++ [mkI IText (rich_text r) (row_pos r)]) (fr + Z.of_nat (length (emit_row d r)))
             /\ rowlast l1 /\ last_is l1 w_eoc = false.
Proof.
  intros st d pa ro q tm tc off dflt r l fr nx H Hl. destruct (rich_facts r H) as (_ & _ & Hk & _).
  apply (row_run st d pa ro q tm tc off r SNone (mkTk [] None false dflt) l [] fr nx _ (pre_of r) (sty_of r) _ _ (pre_of r) (row_pos r)
           H (first_pac_style r dflt) Hl (or_intror eq_refl) (first_tab r Hk)).
  - intros s. unfold pre_of, sty_of. destruct (rw_ital r); reflexivity.
  - intros txt s. apply add_chars_append.
Qed.

Lemma nonempty_not_empty : forall pre c0 txt p sty,
  pre = [] \/ (exists p0, pre = [mkI IItalOn [] p0]) -> cr_is_empty (mkCr (pre ++ [mkI IText (c0 :: txt) p]) sty) = false.
Proof. intros pre c0 txt p sty [->|[p0 ->]]; reflexivity. Qed.

Lemma stage2_state : forall d r off tc nx t, rich_row_any r = true ->
  get_time tc (Z.of_nat (length (emit_load d [r])) - (if d then 2 else 1)) off = Ok t ->
  exists l ds,
   tws (start_state off tc) (emit_load d [r]) nx =
     mkR stash0 (mkTk [row_pos r] None false (row_pos r)) l ds creator0 creator0 creator0 MPop
         (Some (mkCr (pre_of r ++ [mkI IText (rich_text r) (row_pos r)]) (sty_of r), t)) t tc
         (Z.of_nat (length (emit_load d [r]))) off None
   /\ last_is l w_edm = false.
Proof.
  intros d r off tc nx t H Hg. destruct (rich_facts r H) as (_ & _ & _ & _ & _ & _ & _ & _ & _ & Hne & _).
  destruct (pac_row_facts2 r H) as (_ & Hpac & _).
  destruct (first_rich_row stash0 d creator0 creator0 None 0%Q tc off (14, 0) r _ (0 + (if d then 4 else 2))
              (nxt (ctl d (ctrl_word 47)) nx) H (no_pac_after_prologue d _ Hpac)) as (l2 & E & _ & Hl2).
  destruct (load_run d [r] stash0 tracker0 LNone false creator0 creator0 creator0 None 0%Q tc 0 off nx t
              (mkTk [row_pos r] None false (row_pos r)) l2 (mkCr (pre_of r ++ [mkI IText (rich_text r) (row_pos r)]) (sty_of r))
              eq_refl) as (l & ds & E' & Hl).
  - destruct (rich_text r) as [|c0 txt]; [congruence|]. apply nonempty_not_empty. apply pre_of_cases.
  - exact Hl2.
  - exact Hg.
  - cbn [flat_map]. rewrite app_nil_r. exact E.
  - exists l, ds. split; [exact E'|destruct Hl as [->| ->]; reflexivity].
Qed.

Lemma popon_stage2_any : forall d r off tc, rich_row_any r = true ->
  (forall k, 0 <= k -> exists t, get_time tc k off = Ok t) ->
  let ws := emit_load d [r] in
  let s := translate_words (start_state off tc) ws in
  r_err s = None /\ r_stash s = stash0 /\ buf s = creator0 /\ r_active s = MPop /\
  exists t, get_time tc (Z.of_nat (length ws) - (if d then 2 else 1)) off = Ok t /\
            r_queue s = Some (mkCr (pre_of r ++ [mkI IText (rich_text r) (row_pos r)]) (sty_of r), t).
Proof.
  intros d r off tc Ha Ht ws s. destruct (Ht _ (emit_load_room d [r])) as [t Hg].
  destruct (stage2_state d r off tc None t Ha Hg) as (l & ds & E & _).
  unfold s, ws. rewrite tws_words, E. cbn [r_err r_stash buf r_active r_pop r_queue].
  repeat split. exists t. split; [exact Hg|reflexivity].
Qed.

(* STAGE 2: the decoder queues exactly one text node with the characters of the 608 screen row *)
Theorem popon_stage2 : forall d r off tc, rich_row r = true ->
  (forall k, 0 <= k -> exists t, get_time tc k off = Ok t) ->
  let ws := emit_load d [r] in
  let s := translate_words (start_state off tc) ws in
  r_err s = None /\ r_stash s = stash0 /\ buf s = creator0 /\ r_active s = MPop /\
  exists t, get_time tc (Z.of_nat (length ws) - (if d then 2 else 1)) off = Ok t /\
            r_queue s = Some (mkCr [mkI IText (rich_text r) (row_pos r)] SNone, t).
Proof.
  intros d r off tc H Ht. destruct (rich_row_gen r H) as [Ha Hi].
  pose proof (popon_stage2_any d r off tc Ha Ht) as P. unfold pre_of, sty_of in P. rewrite Hi in P. exact P.
Qed.

(* STAGE 2b: an italic preamble adds one italics-on node (at the preamble's address, before the tab offset) *)
Theorem popon_stage2_ital : forall d r off tc, rich_row_ital r = true ->
  (forall k, 0 <= k -> exists t, get_time tc k off = Ok t) ->
  let ws := emit_load d [r] in
  let s := translate_words (start_state off tc) ws in
  r_err s = None /\ r_stash s = stash0 /\ buf s = creator0 /\ r_active s = MPop /\
  exists t, get_time tc (Z.of_nat (length ws) - (if d then 2 else 1)) off = Ok t /\
            r_queue s = Some (mkCr [mkI IItalOn [] (rw_row r, rw_indent r); mkI IText (rich_text r) (row_pos r)] SOn, t).
Proof.
  intros d r off tc H Ht. destruct (rich_row_ital_gen r H) as [Ha Hi].
  pose proof (popon_stage2_any d r off tc Ha Ht) as P. unfold pre_of, sty_of in P. rewrite Hi in P. exact P.
Qed.

Lemma rich_text_facts : forall r, rich_row_any r = true ->
  rstrip (rich_text r) = rich_text r /\ forall k : str, offending [(k, rich_text r)] = [].
Proof.
  intros r H. destruct (rich_facts r H) as (_ & Hin & Hk & _ & _ & _ & _ & _ & Hg & Hne & Hl & Hn). apply indents_range in Hin.
  split; [exact (rstrip_id _ Hne Hl)|]. intros k. apply one_short_line; [lia|].
  intros c Hc. rewrite Forall_forall in Hg. exact (proj1 (gcharb_parts c (Hg c Hc))).
Qed.

Lemma format_ital_one : forall c0 txt p0 p,
  format_italics [mkI IItalOn [] p0; mkI IText (c0 :: txt) p]
  = [mkI IItalOn [] p0; mkI IText (rstrip (c0 :: txt)) p; mkI IItalOff [] p0].
Proof. reflexivity. Qed.

(* the text in front of the closing italics-off node (added by pass 5) is right-stripped by pass 7 *)
Lemma store_ital : forall c0 txt p0 p t1 t2, rstrip (c0 :: txt) = c0 :: txt ->
  create_and_store stash0 (mkCr [mkI IItalOn [] p0; mkI IText (c0 :: txt) p] SOn) t1 t2
  = mkStash [mkPre t1 t2 [CStyle true p0; CText (c0 :: txt) p; CStyle false p0] (Some p)] 1.
Proof.
  intros c0 txt p0 p t1 t2 H. unfold create_and_store. cbn [cr_is_empty cr_nodes existsb i_text nonempty orb negb].
  rewrite format_ital_one, H. reflexivity.
Qed.

Lemma read_gen : forall d r off tc tc2 t1 t2 nodes, rich_row_any r = true ->
  get_time tc (Z.of_nat (length (emit_load d [r])) - (if d then 2 else 1)) off = Ok t1 ->
  get_time tc2 0 off = Ok t2 -> Qeq_bool t2 0 = false -> is_flash (mkPre t1 t2 [] None) = false ->
  create_and_store stash0 (mkCr (pre_of r ++ [mkI IText (rich_text r) (row_pos r)]) (sty_of r)) t1 t2
    = mkStash [mkPre t1 t2 nodes (Some (row_pos r))] 1 ->
  concat (map node_text nodes) = rich_text r ->
  read off [(tc, emit_load d [r]); (tc2, emit_clear d)] = ROk [mkPre t1 t2 nodes (Some (row_pos r))].
Proof.
  intros d r off tc tc2 t1 t2 nodes H Hg1 Hg2 Hz Hfl Hst Htxt.
  destruct (stage2_state d r off tc None t1 H Hg1) as (l & ds & E & Hl).
  rewrite (read_load_clear d off tc _ tc2 _ l ds _ t1 t2 _ E Hl Hg2), Hst. apply finish_read_ok.
  - discriminate.
  - cbn [map]. unfold to_lcap, cap_text. cbn [pc_nodes]. rewrite Htxt. apply (rich_text_facts r H).
  - cbn [existsb]. change (is_flash (mkPre t1 t2 _ _)) with (is_flash (mkPre t1 t2 [] None)). rewrite Hfl. reflexivity.
  - intros c [<-|[]]. exact Hz.
Qed.

Theorem popon_stage2_read : forall d r off tc tc2 t1 t2, rich_row r = true ->
  get_time tc (Z.of_nat (length (emit_load d [r])) - (if d then 2 else 1)) off = Ok t1 ->
  get_time tc2 0 off = Ok t2 -> Qeq_bool t2 0 = false -> is_flash (mkPre t1 t2 [] None) = false ->
  read off [(tc, emit_load d [r]); (tc2, emit_clear d)] =
  ROk [mkPre t1 t2 [CText (rich_text r) (row_pos r)] (Some (row_pos r))].
Proof.
  intros d r off tc tc2 t1 t2 H Hg1 Hg2 Hz Hfl. destruct (rich_row_gen r H) as [Ha Hi].
  destruct (rich_text_facts r Ha) as [Hrs _].
  destruct (rich_facts r Ha) as (_ & _ & _ & _ & _ & _ & _ & _ & _ & Hne & _).
  apply (read_gen d r off tc tc2 t1 t2 _ Ha Hg1 Hg2 Hz Hfl).
  - unfold pre_of, sty_of. rewrite Hi. cbn [app]. destruct (rich_text r) as [|c0 txt]; [congruence|]. exact (store_one c0 txt _ t1 t2 Hrs).
  - cbn [map node_text concat]. apply app_nil_r.
Qed.

Theorem popon_stage2_ital_read : forall d r off tc tc2 t1 t2, rich_row_ital r = true ->
  get_time tc (Z.of_nat (length (emit_load d [r])) - (if d then 2 else 1)) off = Ok t1 ->
  get_time tc2 0 off = Ok t2 -> Qeq_bool t2 0 = false -> is_flash (mkPre t1 t2 [] None) = false ->
  read off [(tc, emit_load d [r]); (tc2, emit_clear d)] =
  ROk [mkPre t1 t2 [CStyle true (rw_row r, rw_indent r); CText (rich_text r) (row_pos r); CStyle false (rw_row r, rw_indent r)]
             (Some (row_pos r))].
Proof.
  intros d r off tc tc2 t1 t2 H Hg1 Hg2 Hz Hfl. destruct (rich_row_ital_gen r H) as [Ha Hi].
  destruct (rich_text_facts r Ha) as [Hrs _].
  destruct (rich_facts r Ha) as (_ & _ & _ & _ & _ & _ & _ & _ & _ & Hne & _).
  apply (read_gen d r off tc tc2 t1 t2 _ Ha Hg1 Hg2 Hz Hfl).
  - unfold pre_of, sty_of. rewrite Hi. cbn [app]. destruct (rich_text r) as [|c0 txt]; [congruence|]. exact (store_ital c0 txt _ _ t1 t2 Hrs).
  - cbn [map node_text concat app]. apply app_nil_r.
Qed.

Lemma ok_gen : forall d r t1 t2 nodes, rich_row_any r = true -> (t1 < t2)%Q ->
  obs_lines nodes [] false = [map (fun c => (c, rw_ital r)) (rich_text r)] -> balanced nodes false = true ->
  ok_c05 (mkProg d [[r]]) (Ok [mkO t1 t2 nodes (Some (layout_of_pos (row_pos r)))]) = true.
Proof.
  intros d r t1 t2 nodes H Hlt Hobs Hbal.
  destruct (rich_facts r H) as (Hr & Hin & Hk & _ & _ & _ & _ & Hc & _ & Hne & _ & Hn). apply indents_range in Hin.
  assert (Hlen : (0 < length (rich_text r))%nat) by (destruct (rich_text r); [congruence|cbn; lia]).
  apply ok_one_cap.
  apply (cap_ok_intro (mkE (rw_row r) (rw_indent r + rw_tab r) [cells_of r]) t1 t2 nodes Hr);
    [cbn [e_col]; lia|exact Hlt| |exact Hbal].
  cbn [e_lines]. rewrite Hobs. cbn [match_lines]. rewrite Hc, match_line_basic. reflexivity.
Qed.

Theorem popon_stage2_ok : forall d r t1 t2, rich_row r = true -> (t1 < t2)%Q ->
  ok_c05 (mkProg d [[r]]) (Ok [mkO t1 t2 [OText (rich_text r)] (Some (layout_of_pos (row_pos r)))]) = true.
Proof.
  intros d r t1 t2 H Hlt. destruct (rich_row_gen r H) as [Ha Hi].
  apply (ok_gen d r t1 t2 _ Ha Hlt); [rewrite Hi|]; reflexivity.
Qed.

(* all cells of the row are italic, and the observation shows the text between italics on / off *)
Theorem popon_stage2_ital_ok : forall d r t1 t2, rich_row_ital r = true -> (t1 < t2)%Q ->
  cells_of r = map (fun c => Cell c true) (rich_text r) /\
  ok_c05 (mkProg d [[r]])
         (Ok [mkO t1 t2 [OStyle true; OText (rich_text r); OStyle false] (Some (layout_of_pos (row_pos r)))]) = true.
Proof.
  intros d r t1 t2 H Hlt. destruct (rich_row_ital_gen r H) as [Ha Hi]. split.
  - destruct (rich_facts r Ha) as (_ & _ & _ & _ & _ & _ & _ & Hc & _). rewrite Hi in Hc. exact Hc.
  - apply (ok_gen d r t1 t2 _ Ha Hlt); [rewrite Hi|]; reflexivity.
Qed.

(* the hypotheses are satisfiable: rows mixing all four item kinds, coloured-underlined and italic preambles *)
Example rich_row_inhabited :
  rich_row (mkRow 3 0 1 13 [Ch 97; Ext 101 1 5; Sp 3; Bs; Ch 98; Sp 1]) = true /\
  rich_row (mkRow 15 24 3 1 [Sp 0; Ch 32; Ext 97 0 0; Bs; Ext 101 0 8]) = true /\
  rich_row_ital (mkRow 3 0 1 14 [Ch 97; Ext 101 1 5; Sp 3; Bs; Ch 98; Sp 1]) = true.
Proof. vm_compute. repeat split. Qed.
