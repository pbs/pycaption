(* Proofs for C08.  Part 1: the projection algebra (pure arithmetic on Z).
   Part 2: a hop of the model (C02 writer model, then C01 reader model, through the printed
   tokens) is the projection pi_F, and a chain of hops is the closed form. *)
From Coq Require Import List ZArith QArith Qround Lia Bool ZifyBool.
From PV Require Import lib.Sx lib.Str lib.Result lib.ResultFacts lib.Dec.
From PV Require Import model.Base spec.SpecBase proofs.BaseFacts.
From PV Require Import model.TimeRead spec.SpecTime proofs.TimeStrFacts proofs.TimeReadFacts.
From PV Require Import model.TimeWrite spec.SpecTimeW proofs.TimeWriteFacts.
From PV Require Import model.Chain spec.SpecChain.
From PV Require model.DfxpWriteDoc.
Import ListNotations.
Open Scope Z_scope.
#[local] Ltac Zify.zify_post_hook ::= Z.to_euclidean_division_equations.

Definition is_unit (u : Z) : Prop := u = 1 \/ u = 1000 \/ u = 40000.

Lemma unit_of_is_unit : forall f, is_unit (unit_of f).
Proof. intros []; unfold is_unit, unit_of; lia. Qed.

Lemma is_unit_pos : forall u, is_unit u -> 0 < u.
Proof. unfold is_unit. lia. Qed.

Lemma is_unit_max : forall u v, is_unit u -> is_unit v -> is_unit (Z.max u v).
Proof. unfold is_unit. lia. Qed.

(* all the algebra needs of the units: they divide one another in order, and four seconds *)
Lemma unit_chain : forall u v, is_unit u -> is_unit v -> u <= v -> (u | v).
Proof.
  intros u v Hu Hv L. exists (v / u). unfold is_unit in *.
  destruct Hu as [->|[->| ->]], Hv as [->|[->| ->]]; try reflexivity; lia.
Qed.

Lemma unit_divides_4s : forall u, is_unit u -> (u | 4000000).
Proof. intros u Hu. exists (4000000 / u). destruct Hu as [->|[->| ->]]; reflexivity. Qed.

Lemma fl_le : forall u t, 0 < u -> fl u t <= t.
Proof. intros u t Hu. unfold fl. rewrite Z.mul_comm. apply Z.mul_div_le. exact Hu. Qed.

Lemma fl_mono : forall u a b, 0 < u -> a <= b -> fl u a <= fl u b.
Proof. intros u a b Hu H. unfold fl. apply Z.mul_le_mono_nonneg_r; [lia|apply Z.div_le_mono; assumption]. Qed.

Lemma fl_nonneg : forall u t, 0 < u -> 0 <= t -> 0 <= fl u t.
Proof. intros u t Hu Ht. unfold fl. apply Z.mul_nonneg_nonneg; [apply Z.div_pos; assumption|lia]. Qed.

Lemma fl_add : forall u d t, 0 < u -> (u | d) -> fl u (t + d) = fl u t + d.
Proof. intros u d t Hu [k ->]. unfold fl. rewrite Z.div_add by lia. ring. Qed.

Lemma fl_fl_dvd : forall u v t, 0 < u -> 0 < v -> (u | v) -> fl v (fl u t) = fl v t /\ fl u (fl v t) = fl v t.
Proof.
  intros u v t Hu Hv [k ->]. assert (Hk : 0 < k) by (apply (Z.mul_pos_cancel_r k u Hu), Hv). rewrite (Z.mul_comm k u). unfold fl. split.
  - f_equal. rewrite <- Z.div_div, Z.div_mul by lia. apply Z.div_div; lia.
  - replace (t / (u * k) * (u * k)) with (t / (u * k) * k * u) by ring. rewrite Z.div_mul by lia. reflexivity.
Qed.

Lemma fl_fl : forall u v t, is_unit u -> is_unit v -> fl v (fl u t) = fl (Z.max u v) t.
Proof.
  intros u v t Hu Hv. pose proof (is_unit_pos u Hu). pose proof (is_unit_pos v Hv).
  destruct (Z.le_ge_cases u v) as [L|L].
  - rewrite Z.max_r by exact L. apply fl_fl_dvd; auto using unit_chain.
  - rewrite Z.max_l by exact L. apply fl_fl_dvd; auto using unit_chain.
Qed.

Lemma fl_idem : forall u t, is_unit u -> fl u (fl u t) = fl u t.
Proof. intros. rewrite fl_fl by assumption. rewrite Z.max_id. reflexivity. Qed.

Lemma fl_plus_4s : forall u t, is_unit u -> fl u (fl u t + 4000000) = fl u t + 4000000.
Proof. intros u t Hu. rewrite fl_add, fl_idem by auto using is_unit_pos, unit_divides_4s. reflexivity. Qed.

Lemma map_map_pt : forall u v cs, is_unit u -> is_unit v ->
  map (pi_pt v) (map (pi_pt u) cs) = map (pi_pt (Z.max u v)) cs.
Proof.
  intros u v cs Hu Hv. rewrite map_map. apply map_ext. intros [s e]. unfold pi_pt. cbn [fst snd].
  rewrite !fl_fl by assumption. reflexivity.
Qed.

Lemma set_last_end_cons2 : forall c c' t, set_last_end (c :: c' :: t) = c :: set_last_end (c' :: t).
Proof. reflexivity. Qed.

Lemma set_last_end_nonempty : forall c t, set_last_end (c :: t) <> [].
Proof. intros c [|c' t]; discriminate. Qed.

Lemma set_last_end_idem : forall cs, set_last_end (set_last_end cs) = set_last_end cs.
Proof.
  induction cs as [|c [|c' t] IH]; [reflexivity|reflexivity|].
  rewrite set_last_end_cons2. destruct (set_last_end (c' :: t)) as [|d dt] eqn:E.
  - exfalso. exact (set_last_end_nonempty _ _ E).
  - rewrite set_last_end_cons2, IH. reflexivity.
Qed.

(* a pointwise floor commutes with the four-second tail: four seconds are a multiple of every unit *)
Lemma map_pt_set_last_end : forall v cs, is_unit v ->
  map (pi_pt v) (set_last_end cs) = set_last_end (map (pi_pt v) cs).
Proof.
  intros v cs Hv. induction cs as [|[s e] [|c' t] IH]; [reflexivity| |].
  - unfold pi_pt. cbn [map set_last_end fst snd]. rewrite fl_add by auto using is_unit_pos, unit_divides_4s. reflexivity.
  - rewrite set_last_end_cons2. cbn [map] in *. rewrite set_last_end_cons2, IH. reflexivity.
Qed.

Lemma nf_nf : forall u v b c cs, is_unit u -> is_unit v -> nf v c (nf u b cs) = nf (Z.max u v) (b || c) cs.
Proof.
  intros u v b c cs Hu Hv. unfold nf.
  destruct b, c; cbn [orb]; rewrite ?map_pt_set_last_end, ?map_map_pt, ?set_last_end_idem by assumption; reflexivity.
Qed.

Lemma pi_as_nf : forall f cs, pi f cs = nf (unit_of f) (is_sami f) cs.
Proof. intros [] cs; reflexivity. Qed.

Lemma nf_id : forall cs, nf 1 false cs = cs.
Proof.
  intros cs. unfold nf. rewrite <- (map_id cs) at 2. apply map_ext.
  intros [s e]. unfold pi_pt, fl. cbn [fst snd]. rewrite !Z.div_1_r, !Z.mul_1_r. reflexivity.
Qed.

Lemma coarsest_unit : forall chain, is_unit (coarsest chain).
Proof.
  intros [|f t]; unfold coarsest, is_unit; [lia|]. destruct (existsb is_mdvd (f :: t)); lia.
Qed.

Lemma coarsest_cons : forall f t, coarsest (f :: t) = Z.max (unit_of f) (coarsest t).
Proof.
  intros f [|g t]; [destruct f; reflexivity|]. unfold coarsest. cbn [existsb].
  destruct f; cbn [is_mdvd orb unit_of]; destruct (is_mdvd g || existsb is_mdvd t); reflexivity.
Qed.

Lemma run_nf : forall chain u b cs, is_unit u ->
  run chain (nf u b cs) = nf (Z.max u (coarsest chain)) (b || existsb is_sami chain) cs.
Proof.
  induction chain as [|f t IH]; intros u b cs Hu.
  - cbn [run fold_left coarsest existsb]. rewrite Z.max_l by (apply is_unit_pos in Hu; lia).
    rewrite orb_false_r. reflexivity.
  - change (run (f :: t) (nf u b cs)) with (run t (pi f (nf u b cs))).
    rewrite pi_as_nf, nf_nf, IH by auto using is_unit_max, unit_of_is_unit.
    rewrite coarsest_cons, Z.max_assoc. cbn [existsb]. rewrite orb_assoc. reflexivity.
Qed.

(* a chain of hops = every time floored to the coarsest resolution on the chain, and the
   four-second tail if SAMI is on the chain *)
Theorem run_closed_form : forall chain cs, run chain cs = expected chain cs.
Proof.
  intros chain cs. rewrite <- (nf_id cs) at 1. rewrite run_nf by (left; reflexivity).
  rewrite Z.max_r by (pose proof (is_unit_pos _ (coarsest_unit chain)); lia). reflexivity.
Qed.

Lemma nf_idem : forall u b cs, is_unit u -> nf u b (nf u b cs) = nf u b cs.
Proof. intros u b cs Hu. rewrite nf_nf, Z.max_id, orb_diag by exact Hu. reflexivity. Qed.

Theorem pi_idempotent : forall f cs, pi f (pi f cs) = pi f cs.
Proof. intros f cs. rewrite !pi_as_nf. apply nf_idem. apply unit_of_is_unit. Qed.

Theorem chain_fixpoint : forall chain cs, run chain (run chain cs) = run chain cs.
Proof.
  intros chain cs. rewrite !run_closed_form. unfold expected. apply nf_idem. apply coarsest_unit.
Qed.

Theorem pi_compose : forall f g cs,
  pi g (pi f cs) = nf (Z.max (unit_of f) (unit_of g)) (is_sami f || is_sami g) cs.
Proof. intros f g cs. rewrite !pi_as_nf. apply nf_nf; apply unit_of_is_unit. Qed.

Theorem pi_commute : forall f g cs, pi g (pi f cs) = pi f (pi g cs).
Proof. intros. rewrite !pi_compose. rewrite Z.max_comm, orb_comm. reflexivity. Qed.

Lemma nth_set_last_end : forall cs i c, nth_error cs i = Some c ->
  nth_error (set_last_end cs) i = Some (if (S i =? length cs)%nat then (fst c, fst c + 4000000) else c).
Proof.
  induction cs as [|d [|d' t] IH]; intros i c H.
  - destruct i; discriminate H.
  - destruct i as [|[|i]]; try discriminate H. injection H as ->. reflexivity.
  - rewrite set_last_end_cons2. destruct i as [|i]; [exact H|]. exact (IH i c H).
Qed.

(* every start and every non-final end of the result is the floor to the coarsest unit *)
Theorem chain_times_coarsest : forall chain cs i c,
  nth_error cs i = Some c ->
  exists c', nth_error (run chain cs) i = Some c' /\
             fst c' = fl (coarsest chain) (fst c) /\
             ((S i < length cs)%nat \/ existsb is_sami chain = false -> snd c' = fl (coarsest chain) (snd c)) /\
             (S i = length cs -> existsb is_sami chain = true -> snd c' = fl (coarsest chain) (fst c) + 4000000).
Proof.
  intros chain cs i c Hn. rewrite run_closed_form. unfold expected, nf.
  pose proof (map_nth_error (pi_pt (coarsest chain)) i cs Hn) as M.
  destruct (existsb is_sami chain).
  - rewrite (nth_set_last_end _ _ _ M), map_length. eexists. split; [reflexivity|].
    destruct (S i =? length cs)%nat eqn:E; [apply Nat.eqb_eq in E|apply Nat.eqb_neq in E]; cbn [pi_pt fst snd].
    + split; [reflexivity|]. split; [intros [H|H]; [lia|discriminate H]|reflexivity].
    + split; [reflexivity|]. split; [reflexivity|]. intros H. contradiction.
  - exists (pi_pt (coarsest chain) c). split; [exact M|]. split; [reflexivity|]. split; [reflexivity|discriminate].
Qed.

Lemma two_padded : forall h, 0 <= h < 100 -> two h = padded (if h <? 10 then 1%nat else 0%nat) h.
Proof.
  intros h Hh. apply str_eqb_eq.
  apply (range_forall (fun z => str_eqb (two z) (padded (if z <? 10 then 1%nat else 0%nat) z)) 100);
    [vm_compute; reflexivity|lia].
Qed.

Lemma format_ts_int : forall sep t, 0 <= t < 86400000000 ->
  format_ts sep (inject_Z t) = two (f_h t) ++ 58 :: two (f_m t) ++ 58 :: two (f_s t) ++ sep :: three (f_ms t).
Proof. intros sep t Ht. rewrite format_ts_shape; rewrite rhe_int; [reflexivity|exact Ht]. Qed.

Lemma clock_us : forall t, 0 <= t < 86400000000 ->
  us (inject_Z (secs (f_h t) (f_m t) (f_s t)) + (f_ms t # 1000)) = fl 1000 t.
Proof.
  intros t Ht. destruct (clock_fields t Ht) as (_ & _ & _ & Hf & E). rewrite us_split. unfold fl. rewrite E.
  unfold secs. lia.
Qed.

(* what a clock formatter prints for t is a timestamp of the reader's specification, in its domain, denoting fl 1000 t *)
Definition srt_stamp_of (t : Z) : srt_stamp :=
  mkSrt (if f_h t <? 10 then 1%nat else 0%nat) (f_h t) (f_m t) (f_s t) (Some (f_ms t)).

Lemma srt_ts_stamp : forall t, 0 <= t < 86400000000 ->
  srt_ts (inject_Z t) = srt_render_stamp (srt_stamp_of t) /\ srt_stamp_dom (srt_stamp_of t) = true
  /\ us (srt_instant (srt_stamp_of t)) = fl 1000 t.
Proof.
  intros t Ht. destruct (clock_fields t Ht) as (Hh & Hm & Hs & Hf & _). split; [|split].
  - rewrite srt_ts_full by (rewrite rhe_int; exact Ht). rewrite format_ts_int by exact Ht.
    rewrite (two_padded (f_h t)) by lia. reflexivity.
  - unfold srt_stamp_dom, srt_stamp_of. cbn [sr_h sr_m sr_s sr_ms]. lia.
  - exact (clock_us t Ht).
Qed.

Lemma hop_time_srt_exact : forall t, 0 <= t < 86400000000 -> hop_time_srt t = Ok (fl 1000 t).
Proof.
  intros t Ht. destruct (srt_ts_stamp t Ht) as (R & D & U).
  unfold hop_time_srt. rewrite R, (srt_stamp_exact _ D), U. reflexivity.
Qed.

Definition vtt_stamp_of (t : Z) : vtt_stamp :=
  mkVtt (if f_h t =? 0 then None else Some ((if f_h t <? 10 then 1%nat else 0%nat), f_h t)) (f_m t) (f_s t) (f_ms t).

Lemma vtt_ts_stamp : forall t, 0 <= t < 86400000000 ->
  vtt_ts (inject_Z t) = vtt_render_stamp (vtt_stamp_of t) /\ vtt_stamp_dom (vtt_stamp_of t) = true
  /\ us (vtt_instant (vtt_stamp_of t)) = fl 1000 t.
Proof.
  intros t Ht. destruct (clock_fields t Ht) as (Hh & Hm & Hs & Hf & _).
  pose proof (vtt_ts_shape (inject_Z t)) as S. rewrite rhe_int in S. specialize (S Ht). cbv zeta in S.
  unfold vtt_stamp_of. split; [|split].
  - rewrite S. unfold vtt_render_stamp. cbn [vt_h vt_m vt_s vt_ms]. destruct (f_h t =? 0); [reflexivity|].
    rewrite (two_padded (f_h t)) by lia. rewrite <- app_assoc. reflexivity.
  - unfold vtt_stamp_dom. cbn [vt_h vt_m vt_s vt_ms]. destruct (f_h t =? 0); lia.
  - rewrite <- (clock_us t Ht). unfold vtt_instant. cbn [vt_h vt_m vt_s vt_ms].
    destruct (f_h t =? 0) eqn:H0; [|reflexivity]. apply Z.eqb_eq in H0. rewrite H0. reflexivity.
Qed.

Lemma hop_time_vtt_exact : forall t, 0 <= t < 86400000000 -> hop_time_vtt t = Ok (fl 1000 t).
Proof.
  intros t Ht. destruct (vtt_ts_stamp t Ht) as (R & D & U).
  unfold hop_time_vtt. rewrite R, <- (app_nil_r (vtt_render_stamp _)), (vtt_stamp_exact _ _ D), U. reflexivity.
Qed.

Lemma ts_texpr_fields : forall t,
  DfxpWriteDoc.ts_texpr t
  = Clock (if f_h t <? 10 then 1%nat else 0%nat) (f_h t) (f_m t) (f_s t)
          (Frac [f_ms t / 100; f_ms t / 10 mod 10; f_ms t mod 10]).
Proof. reflexivity. Qed.

Lemma ts_texpr_render : forall t, 0 <= t < 86400000000 -> dfxp_ts (inject_Z t) = texpr_render (DfxpWriteDoc.ts_texpr t).
Proof.
  intros t Ht. destruct (clock_fields t Ht) as (Hh & _). unfold dfxp_ts.
  rewrite format_ts_int by exact Ht. rewrite (two_padded (f_h t)) by lia. reflexivity.
Qed.

Lemma ts_texpr_dom : forall t, 0 <= t < 86400000000 -> texpr_dom (DfxpWriteDoc.ts_texpr t) = true.
Proof.
  intros t Ht. destruct (clock_fields t Ht) as (Hh & Hm & Hs & Hf & _). rewrite ts_texpr_fields.
  unfold texpr_dom, digits_ok. cbn [forallb length Nat.eqb negb]. lia.
Qed.

Lemma ts_texpr_us : forall t, 0 <= t < 86400000000 -> us (texpr_instant (DfxpWriteDoc.ts_texpr t)) = fl 1000 t.
Proof.
  intros t Ht. destruct (clock_fields t Ht) as (_ & _ & _ & Hf & _). rewrite <- (clock_us t Ht), ts_texpr_fields.
  unfold texpr_instant, tail_q, frac_q.
  replace (digits_num [f_ms t / 100; f_ms t / 10 mod 10; f_ms t mod 10]) with (f_ms t)
    by (cbn [digits_num fold_left]; lia).
  reflexivity.
Qed.

Lemma hop_time_dfxp_exact : forall t, 0 <= t < 86400000000 -> hop_time_dfxp t = Ok (fl 1000 t).
Proof.
  intros t Ht. unfold hop_time_dfxp.
  rewrite (ts_texpr_render t Ht), (dfxp_time_exact _ (ts_texpr_dom t Ht)), (ts_texpr_us t Ht). reflexivity.
Qed.

Lemma hop_time_mdvd_exact : forall t, 0 <= t -> hop_time_mdvd t = Ok (fl 40000 t).
Proof.
  intros t Ht. unfold hop_time_mdvd.
  destruct (mdvd_frame_int t Ht) as [P _]. unfold parse_int in P. unfold py_int. rewrite P.
  cbn [bind]. unfold frames_to_micro. cbn [fst snd]. change (25 =? 0) with false. cbv iota.
  f_equal. unfold fl. lia.
Qed.

(* ---- SRT, WebVTT, DFXP, MicroDVD hops need the times within the day and, for the SRT merge loop to leave the list
   alone, neighbours with different starts ---- *)
Definition cues_in_day (cs : list cue) : Prop :=
  Forall (fun c : cue => 0 <= fst c < 86400000000 /\ 0 <= snd c < 86400000000) cs.

Lemma hop_cues_floor : forall (f : Z -> result Z) v cs,
  (forall t, 0 <= t < 86400000000 -> f t = Ok (fl v t)) -> cues_in_day cs ->
  hop_cues f cs = Ok (map (pi_pt v) cs).
Proof.
  intros f v cs Hf D. unfold hop_cues. induction D as [|[s e] t [Hs He] _ IH]; [reflexivity|].
  cbn [res_map map fst snd] in *. rewrite (Hf s Hs), (Hf e He). cbn [bind]. rewrite IH. reflexivity.
Qed.

Fixpoint starts_differ (cs : list cue) : Prop :=
  match cs with
  | c :: (c' :: _) as t => fst c <> fst c' /\ starts_differ t
  | _ => True
  end.

Lemma same_span_cap_of : forall a b, fst a <> fst b -> same_span (cap_of a) (cap_of b) = false.
Proof.
  intros [s e] [s' e'] H. cbn [fst] in H. unfold same_span, cap_of. cbn [c_start c_end fst snd].
  assert (E : Qeq_bool (inject_Z s) (inject_Z s') = false).
  { destruct (Qeq_bool (inject_Z s) (inject_Z s')) eqn:Q; [|reflexivity].
    apply Qeq_bool_iff in Q. unfold Qeq, inject_Z in Q. cbn [Qnum Qden] in Q. lia. }
  rewrite E. reflexivity.
Qed.

Lemma srt_fold_distinct : forall t c acc, starts_differ (c :: t) ->
  fold_left srt_step (map cap_of t) (cap_of c :: acc) = rev (map cap_of t) ++ cap_of c :: acc.
Proof.
  induction t as [|d t IH]; intros c acc D; [reflexivity|]. destruct D as [N D].
  cbn [map fold_left srt_step]. rewrite same_span_cap_of by (apply not_eq_sym, N).
  rewrite (IH d (cap_of c :: acc) D). cbn [rev]. rewrite <- app_assoc. reflexivity.
Qed.

Lemma srt_written_id : forall cs, starts_differ cs -> srt_written cs = map cap_of cs.
Proof.
  intros [|c t] D; [reflexivity|]. unfold srt_written, srt_merge. cbn [map].
  rewrite (srt_fold_distinct t c [] D), rev_app_distr. cbn [rev app]. rewrite rev_involutive. reflexivity.
Qed.

Lemma pi_floor : forall f cs, is_sami f = false -> pi f cs = map (pi_pt (unit_of f)) cs.
Proof. intros [] cs H; try discriminate H; reflexivity. Qed.

Lemma hop_floor : forall f cs, is_sami f = false -> cues_in_day cs -> starts_differ cs -> hop f cs = Ok (pi f cs).
Proof.
  intros f cs Hf D S. rewrite (pi_floor f cs Hf). destruct f; try discriminate Hf; cbn [hop unit_of].
  - rewrite (srt_written_id cs S), <- (hop_cues_floor _ 1000 cs hop_time_srt_exact D). unfold hop_cues.
    clear. induction cs as [|c t IH]; [reflexivity|]. cbn [map res_map]. rewrite IH. reflexivity.
  - exact (hop_cues_floor _ 1000 cs hop_time_vtt_exact D).
  - exact (hop_cues_floor _ 1000 cs hop_time_dfxp_exact D).
  - apply hop_cues_floor; [|exact D]. intros t Ht. apply hop_time_mdvd_exact. lia.
Qed.

(* ---- invariant carried along a chain: sorted, non-overlapping, every cue at least u long ---- *)
Fixpoint dom_u (u lo : Z) (cs : list cue) : Prop :=
  match cs with
  | [] => True
  | (s, e) :: t => lo <= s /\ s + u <= e /\ s < 86396000000 /\ e < 86400000000 /\ dom_u u e t
  end.

Lemma dom_u_mono : forall u v lo lo' cs, v <= u -> lo' <= lo -> dom_u u lo cs -> dom_u v lo' cs.
Proof.
  intros u v lo lo' cs Hv. revert lo lo'. induction cs as [|[s e] t IH]; intros lo lo' Hlo D; [exact I|].
  cbn [dom_u] in *. destruct D as (D1 & D2 & D3 & D4 & D5). repeat split; try lia. exact (IH e e (Z.le_refl e) D5).
Qed.

Lemma sorted_from_dom_u : forall u lo cs, 0 <= u -> sorted_from u lo 86396000000 cs = true -> dom_u u lo cs.
Proof.
  intros u lo cs Hu. revert lo. induction cs as [|[s e] t IH]; intros lo H; [exact I|].
  cbn [sorted_from] in H. apply andb_true_iff in H. destruct H as [H H4].
  cbn [dom_u]. repeat split; try lia. exact (IH e H4).
Qed.

Lemma dom_u_hop : forall u lo cs, 0 < u -> 0 <= lo -> dom_u u lo cs -> cues_in_day cs /\ starts_differ cs.
Proof.
  intros u lo cs Hu. revert lo. induction cs as [|[s e] t IH]; intros lo Hlo D; [split; [constructor|exact I]|].
  cbn [dom_u] in D. destruct D as (D1 & D2 & D3 & D4 & D5). destruct (IH e ltac:(lia) D5) as [I1 I2].
  split; [constructor; [cbn [fst snd]; lia|exact I1]|].
  destruct t as [|[s' e'] t]; [exact I|]. split; [cbn [dom_u fst] in *; lia|exact I2].
Qed.

Lemma dom_u_floor : forall u v lo cs, 0 < v -> (v | u) -> dom_u u lo cs -> dom_u u (fl v lo) (map (pi_pt v) cs).
Proof.
  intros u v lo cs Hv Hd. revert lo. induction cs as [|[s e] t IH]; intros lo D; [exact I|].
  cbn [dom_u] in D. destruct D as (D1 & D2 & D3 & D4 & D5).
  cbn [map dom_u pi_pt fst snd]. pose proof (fl_le v s Hv). pose proof (fl_le v e Hv).
  split; [apply fl_mono; assumption|]. split; [rewrite <- (fl_add v u s Hv Hd); apply fl_mono; assumption|].
  split; [lia|]. split; [lia|]. exact (IH e D5).
Qed.

Lemma dom_u_set_last_end : forall u lo cs, u <= 4000000 -> dom_u u lo cs -> dom_u u lo (set_last_end cs).
Proof.
  intros u lo cs Hu. revert lo. induction cs as [|[s e] [|c' t] IH]; intros lo D; [exact I| |].
  - cbn [dom_u set_last_end fst] in *. lia.
  - rewrite set_last_end_cons2. cbn [dom_u] in *. destruct D as (D1 & D2 & D3 & D4 & D5).
    repeat split; try assumption. exact (IH e D5).
Qed.

Definition big_unit (u : Z) : Prop := u = 1000 \/ u = 40000.

Lemma unit_of_divides : forall f u, big_unit u -> unit_of f <= u -> (unit_of f | u).
Proof.
  intros f u Hu Hf. apply unit_chain; [apply unit_of_is_unit|unfold big_unit, is_unit in *; tauto|exact Hf].
Qed.

(* ---- SAMI hop: sync rule (C02), then back-filling (C01) --------------------------------- *)
Fixpoint sami_abs (cs : list cue) : list (Z * bool) :=
  match cs with
  | [] => []
  | (s, e) :: t =>
      (s / 1000, true)
      :: (match t with
          | (s', _) :: _ => if s' / 1000 =? e / 1000 then [] else [(e / 1000, false)]
          | [] => []
          end) ++ sami_abs t
  end.

Definition ev_abs (e : sev) : Z * bool :=
  match e with SCue ms _ => (ms, true) | SBlank ms => (ms, false) end.

Definition flip_blank (p : Z * bool) : Z * bool := (fst p, negb (snd p)).

Lemma sami_rule_abs : forall cs, map flip_blank (sami_rule (map cue_q cs)) = sami_abs cs.
Proof.
  induction cs as [|[s e] t IH]; [reflexivity|].
  cbn [map cue_q sami_rule fst snd sami_abs flip_blank negb]. rewrite floor_ms_inj. f_equal.
  rewrite map_app, IH.
  destruct t as [|[s' e'] t']; [reflexivity|].
  cbn [map cue_q fst snd]. rewrite !floor_ms_inj.
  destruct (s' / 1000 =? e / 1000); reflexivity.
Qed.

Lemma sami_spec_abs : forall cs, map ev_abs (sami_write (map cue_q cs)) = sami_abs cs.
Proof.
  intros cs. rewrite <- sami_rule_abs, <- sami_sync_rule. rewrite map_map. apply map_ext.
  intros [ms i|ms]; reflexivity.
Qed.

Lemma sami_abs_incr : forall cs lo b, dom_u 1000 lo cs ->
  (forall s e t, cs = (s, e) :: t -> b < s / 1000) ->
  sami_incr_from b (sami_abs cs) = true.
Proof.
  induction cs as [|[s e] t IH]; intros lo b D Hb; [reflexivity|].
  cbn [dom_u] in D. destruct D as [D1 [D2 [D3 [D4 D5]]]].
  specialize (Hb s e t eq_refl).
  cbn [sami_abs sami_incr_from app].
  assert (Hlt : (b <? s / 1000) = true) by lia. rewrite Hlt. cbn [andb].
  destruct t as [|[s' e'] t']; [reflexivity|].
  assert (T : forall b', b' < s' / 1000 -> sami_incr_from b' (sami_abs ((s', e') :: t')) = true).
  { intros b' Hb'. apply (IH e b' D5). intros s0 e0 t0 H0. inversion H0; subst. exact Hb'. }
  cbn [dom_u] in D5. destruct D5 as [E1 _].
  destruct (s' / 1000 =? e / 1000) eqn:Q; cbn [app sami_incr_from].
  - apply T. lia.
  - assert (H1 : (s / 1000 <? e / 1000) = true) by lia. rewrite H1. apply T. lia.
Qed.

Lemma sami_expected_blank : forall ms rest, sami_expected ((ms, false) :: rest) = sami_expected rest.
Proof. intros. reflexivity. Qed.

Lemma sami_abs_expected : forall cs lo, dom_u 1000 lo cs ->
  sami_expected (sami_abs cs) = set_last_end (map (pi_pt 1000) cs).
Proof.
  induction cs as [|[s e] t IH]; intros lo D; [reflexivity|].
  cbn [dom_u] in D. destruct D as [D1 [D2 [D3 [D4 D5]]]].
  destruct t as [|[s' e'] t'].
  - cbn [sami_abs app sami_expected map set_last_end pi_pt fst snd]. unfold fl. f_equal. f_equal. lia.
  - specialize (IH e D5).
    cbn [map]. rewrite set_last_end_cons2. cbn [map] in IH. rewrite <- IH.
    cbn [sami_abs].
    destruct (s' / 1000 =? e / 1000) eqn:Q.
    + cbn [app]. cbn [sami_abs] in *.
      change (sami_expected ((s / 1000, true) :: (s' / 1000, true) :: ?x))
        with ((s / 1000 * 1000, s' / 1000 * 1000) :: sami_expected ((s' / 1000, true) :: x)).
      cbn [sami_expected app]. unfold pi_pt, fl. cbn [fst snd]. apply Z.eqb_eq in Q. rewrite Q. reflexivity.
    + cbn [app sami_expected]. unfold pi_pt, fl. cbn [fst snd]. reflexivity.
Qed.

Lemma sami_abs_dom : forall cs lo, 0 <= lo -> dom_u 1000 lo cs -> sami_dom (sami_abs cs) = true.
Proof. intros cs lo Hlo D. apply (sami_abs_incr cs lo (-1) D). intros s e t ->. cbn [dom_u] in D. lia. Qed.

Lemma hop_sami_floor : forall lo cs, 0 <= lo -> dom_u 1000 lo cs -> hop FSami cs = Ok (pi FSami cs).
Proof.
  intros lo cs Hlo D1. cbn [hop pi].
  (* the events as abstract paragraphs with unpadded start strings *)
  set (evs := sami_write (map cue_q cs)).
  assert (A : map ev_abs evs = sami_abs cs) by apply sami_spec_abs.
  pose (ps := map (fun p : Z * bool => mkSp 0 (fst p) (snd p)) (sami_abs cs)).
  assert (P1 : map (fun p => (sp_ms p, sp_text p)) ps = sami_abs cs).
  { unfold ps. rewrite map_map. cbn [sp_ms sp_text]. rewrite <- (map_id (sami_abs cs)) at 2.
    apply map_ext. intros [a b]. reflexivity. }
  assert (P2 : map sami_p_of evs = map (fun p => (Some (sami_render_start p), sp_text p)) ps).
  { unfold ps. rewrite <- A. rewrite !map_map. apply map_ext_in. intros ev Hin.
    assert (N : 0 <= fst (ev_abs ev)).
    { apply (sami_incr_nonneg _ (-1) ltac:(lia) (sami_abs_dom cs lo Hlo D1)). rewrite <- A. apply in_map. exact Hin. }
    destruct ev as [ms i|ms]; cbn [ev_abs fst snd sami_p_of sami_render_start sp_pad sp_ms sp_text] in *;
      unfold sami_token, padded; rewrite dec_z_nonneg by exact N; reflexivity. }
  rewrite P2. rewrite sami_translate_str_exact.
  - rewrite P1. rewrite (sami_abs_expected cs lo D1). reflexivity.
  - rewrite P1. exact (sami_abs_dom cs lo Hlo D1).
Qed.

Lemma hop_exact : forall f u lo cs, big_unit u -> unit_of f <= u -> 0 <= lo -> dom_u u lo cs ->
  hop f cs = Ok (pi f cs) /\ dom_u u (fl (unit_of f) lo) (pi f cs).
Proof.
  intros f u lo cs Hu Hf Hlo D. pose proof (unit_of_divides f u Hu Hf) as Hd. unfold big_unit in Hu.
  destruct (is_sami f) eqn:S.
  - destruct f; try discriminate S. split.
    + apply (hop_sami_floor lo); [exact Hlo|apply (dom_u_mono u 1000 lo lo); [lia|lia|exact D]].
    + apply dom_u_set_last_end; [lia|]. apply dom_u_floor; [reflexivity|exact Hd|exact D].
  - split.
    + destruct (dom_u_hop u lo cs ltac:(lia) Hlo D). apply hop_floor; assumption.
    + rewrite (pi_floor f cs S). apply dom_u_floor; [apply is_unit_pos, unit_of_is_unit|exact Hd|exact D].
Qed.

Lemma run_model_inv : forall (I : list cue -> Prop) (ok : fmt -> Prop),
  (forall f cs, ok f -> I cs -> hop f cs = Ok (pi f cs) /\ I (pi f cs)) ->
  forall chain cs, Forall ok chain -> I cs -> run_model chain cs = Ok (run chain cs) /\ I (run chain cs).
Proof.
  intros I ok Hop. induction chain as [|f t IH]; intros cs Hc D; [split; [reflexivity|exact D]|].
  inversion Hc as [|x l Hf Ht]; subst. destruct (Hop f cs Hf D) as [H1 H2].
  cbn [run_model run fold_left]. rewrite H1. exact (IH _ Ht H2).
Qed.

Lemma run_model_exact_gen : forall chain u lo cs, big_unit u ->
  Forall (fun f => unit_of f <= u) chain -> 0 <= lo -> dom_u u lo cs ->
  run_model chain cs = Ok (run chain cs) /\ exists lo', 0 <= lo' /\ dom_u u lo' (run chain cs).
Proof.
  intros chain u lo cs Hu Hc Hlo D.
  apply (run_model_inv (fun c => exists l, 0 <= l /\ dom_u u l c) (fun f => unit_of f <= u)); [|exact Hc|exists lo; auto].
  intros f c Hf (l & Hl & Dc). destruct (hop_exact f u l c Hu Hf Hl Dc) as [E Dc']. split; [exact E|].
  exists (fl (unit_of f) l). split; [apply fl_nonneg; [apply is_unit_pos, unit_of_is_unit|exact Hl]|exact Dc'].
Qed.

Lemma chain_units_le : forall chain f, In f chain -> unit_of f <= coarsest chain /\ big_unit (coarsest chain).
Proof.
  intros chain f Hin. unfold coarsest, big_unit. destruct chain as [|f0 t0]; [destruct Hin|].
  destruct (existsb is_mdvd (f0 :: t0)) eqn:E; [destruct f; cbn [unit_of]; lia|].
  destruct f; cbn [unit_of]; try lia.
  assert (X : existsb is_mdvd (f0 :: t0) = true) by (apply existsb_exists; exists FMdvd; auto). congruence.
Qed.

(* ---- chains without SAMI: cues may be shorter than the unit, neighbours start in different units ---- *)
Fixpoint dom_s (u lo : Z) (cs : list cue) : Prop :=
  match cs with
  | [] => True
  | (s, e) :: t =>
      lo <= s /\ s <= e /\ e < 86400000000
      /\ match t with (s', _) :: _ => fl u s < fl u s' | [] => True end
      /\ dom_s u e t
  end.

Lemma starts_apart_dom_s : forall u lo cs, starts_apart u lo 86400000000 cs = true -> dom_s u lo cs.
Proof.
  intros u lo cs. revert lo. induction cs as [|[s e] t IH]; intros lo H; [exact I|].
  cbn [starts_apart] in H. apply andb_true_iff in H. destruct H as [H H5].
  cbn [dom_s]. repeat split; try lia; [|exact (IH e H5)]. destruct t as [|[s' e'] t']; [exact I|lia].
Qed.

Lemma dom_s_hop : forall u lo cs, 0 <= lo -> dom_s u lo cs -> cues_in_day cs /\ starts_differ cs.
Proof.
  intros u lo cs. revert lo. induction cs as [|[s e] t IH]; intros lo Hlo D; [split; [constructor|exact I]|].
  cbn [dom_s] in D. destruct D as (D1 & D2 & D3 & D4 & D5). destruct (IH e ltac:(lia) D5) as [I1 I2].
  split; [constructor; [cbn [fst snd]; lia|exact I1]|].
  destruct t as [|[s' e'] t]; [exact I|]. split; [cbn [fst]; intros ->; lia|exact I2].
Qed.

Lemma dom_s_floor : forall u v lo cs, 0 < v -> 0 < u -> (v | u) -> dom_s u lo cs -> dom_s u (fl v lo) (map (pi_pt v) cs).
Proof.
  intros u v lo cs Hv Hu Hd. revert lo. induction cs as [|[s e] t IH]; intros lo D; [exact I|].
  cbn [dom_s] in D. destruct D as (D1 & D2 & D3 & D4 & D5).
  cbn [map dom_s pi_pt fst snd]. pose proof (fl_le v e Hv).
  split; [apply fl_mono; assumption|]. split; [apply fl_mono; assumption|]. split; [lia|]. split; [|exact (IH e D5)].
  destruct t as [|[s' e'] t']; [exact I|]. cbn [map pi_pt fst snd].
  rewrite !(proj1 (fl_fl_dvd v u _ Hv Hu Hd)). exact D4.
Qed.

Lemma hop_exact_s : forall f u lo cs, big_unit u -> is_sami f = false -> unit_of f <= u -> 0 <= lo ->
  dom_s u lo cs ->
  hop f cs = Ok (pi f cs) /\ dom_s u (fl (unit_of f) lo) (pi f cs).
Proof.
  intros f u lo cs Hu Hs Hf Hlo D. pose proof (unit_of_divides f u Hu Hf) as Hd. unfold big_unit in Hu. split.
  - destruct (dom_s_hop u lo cs Hlo D). apply hop_floor; assumption.
  - rewrite (pi_floor f cs Hs). apply dom_s_floor; [apply is_unit_pos, unit_of_is_unit|lia|exact Hd|exact D].
Qed.

(* what a chain's domain hands from hop to hop *)
Definition chain_inv (chain : list fmt) (cs : list cue) : Prop :=
  exists lo, 0 <= lo /\
    if existsb is_sami chain then dom_u (coarsest chain) lo cs else dom_s (coarsest chain) lo cs.

Lemma chain_dom_inv : forall chain cs, chain_dom chain cs = true -> chain_inv chain cs.
Proof.
  intros chain cs D. exists 0. split; [lia|]. unfold chain_dom in D. destruct (existsb is_sami chain).
  - apply sorted_from_dom_u; [pose proof (is_unit_pos _ (coarsest_unit chain)); lia|exact D].
  - apply andb_true_iff in D. apply starts_apart_dom_s, D.
Qed.

Lemma hop_chain_inv : forall chain f cs, In f chain -> chain_inv chain cs ->
  hop f cs = Ok (pi f cs) /\ chain_inv chain (pi f cs).
Proof.
  intros chain f cs Hin (lo & Hlo & D). destruct (chain_units_le chain f Hin) as [Hf Hb].
  assert (Hl : 0 <= fl (unit_of f) lo) by (apply fl_nonneg; [apply is_unit_pos, unit_of_is_unit|exact Hlo]).
  unfold chain_inv. destruct (existsb is_sami chain) eqn:ES.
  - destruct (hop_exact f _ lo cs Hb Hf Hlo D) as [E D']. split; [exact E|]. exists (fl (unit_of f) lo). auto.
  - assert (Hs : is_sami f = false).
    { destruct (is_sami f) eqn:E; [|reflexivity]. rewrite <- ES. symmetry. apply existsb_exists. exists f. auto. }
    destruct (hop_exact_s f _ lo cs Hb Hs Hf Hlo D) as [E D']. split; [exact E|]. exists (fl (unit_of f) lo). auto.
Qed.

(* the chain of model hops - printing every timing token with the writer models and parsing it
   back with pycaption's own reader models - is the closed form, on the whole domain; the first pass
   returns a list that has the invariant again, so the same statement serves for the second *)
Lemma run_model_twice_gen : forall chain cs, chain_dom chain cs = true ->
  run_model chain cs = Ok (run chain cs) /\ run_model chain (run chain cs) = Ok (run chain (run chain cs)).
Proof.
  intros chain cs D.
  pose proof (run_model_inv (chain_inv chain) (fun f => In f chain) (hop_chain_inv chain) chain) as H.
  assert (A : Forall (fun f => In f chain) chain) by (apply Forall_forall; auto).
  destruct (H cs A (chain_dom_inv chain cs D)) as [E1 I1]. split; [exact E1|exact (proj1 (H _ A I1))].
Qed.

Theorem run_model_exact : forall chain cs, chain_dom chain cs = true ->
  run_model chain cs = Ok (expected chain cs).
Proof.
  intros chain cs D. rewrite <- run_closed_form. exact (proj1 (run_model_twice_gen chain cs D)).
Qed.

(* the SECOND pass of the model over its own output changes nothing *)
Theorem run_model_second_pass : forall chain cs, chain_dom chain cs = true ->
  (do o1 <- run_model chain cs; run_model chain o1) = Ok (expected chain cs).
Proof.
  intros chain cs D. destruct (run_model_twice_gen chain cs D) as [E1 E2].
  rewrite E1. cbn [bind]. rewrite E2. rewrite chain_fixpoint, run_closed_form. reflexivity.
Qed.

(* the first pass gives the closed form, which is a fixpoint of the projection run; the oracle ok_chain is met in
   run_model_meets_oracle *)
Theorem run_model_ok : forall chain cs, chain_dom chain cs = true ->
  exists o1, run_model chain cs = Ok o1 /\ o1 = expected chain cs /\ run chain o1 = o1.
Proof.
  intros chain cs D. exists (expected chain cs). split; [apply run_model_exact; exact D|].
  split; [reflexivity|]. rewrite <- run_closed_form. apply chain_fixpoint.
Qed.

(* ---- outside the domain: cues shorter than the resolution (recorded findings) ------------- *)
(* sorted, non-overlapping, positive length - but shorter than one millisecond *)
Lemma short_cues_srt_merge_refuted :
  exists chain cs, sorted_from 1 0 86396000000 cs = true /\ run_model chain cs <> Ok (expected chain cs).
Proof.
  exists [FDfxp; FSrt], [(1000, 1400); (1500, 1900); (5000, 9000)].
  split; [reflexivity|]. vm_compute. discriminate.
Qed.

Lemma short_cue_sami_end_refuted :
  exists cs, sorted_from 1 0 86396000000 cs = true /\ hop FSami cs <> Ok (pi FSami cs).
Proof.
  exists [(1000, 1400); (3000, 4000)]. split; [reflexivity|]. vm_compute. discriminate.
Qed.

Lemma cues_eqb_refl : forall a, cues_eqb a a = true.
Proof.
  intros a. unfold cues_eqb. rewrite Nat.eqb_refl. cbn [andb].
  induction a as [|c t IH]; [reflexivity|]. cbn [combine forallb fst snd]. rewrite !Z.eqb_refl, IH. reflexivity.
Qed.

Lemma near_fl : forall u t, is_unit u -> near u t (fl u t) = true.
Proof. intros u t Hu. unfold near, fl, is_unit in *. destruct Hu as [->|[->| ->]]; lia. Qed.

Lemma within_nf : forall u b cs, is_unit u -> within u b cs (nf u b cs) = true.
Proof.
  intros u b cs Hu. unfold nf. induction cs as [|[s e] t IH]; [destruct b; reflexivity|].
  destruct b.
  - destruct t as [|c' t'].
    + cbn [map set_last_end within pi_pt fst snd]. rewrite near_fl by exact Hu. reflexivity.
    + cbn [map] in *. rewrite set_last_end_cons2. cbn [within pi_pt fst snd].
      rewrite !near_fl by exact Hu. cbn [andb orb]. exact IH.
  - cbn [map within pi_pt fst snd]. rewrite !near_fl by exact Hu. rewrite orb_true_r. cbn [andb]. exact IH.
Qed.

(* the chain of model hops, REALLY run twice, satisfies the property oracle on the whole domain *)
Theorem run_model_meets_oracle : forall chain cs, chain_dom chain cs = true ->
  ok_chain chain cs (run_model chain cs) (do o1 <- run_model chain cs; run_model chain o1) = true.
Proof.
  intros chain cs D. rewrite run_model_second_pass by exact D. rewrite run_model_exact by exact D. unfold ok_chain.
  unfold expected at 1. rewrite within_nf by apply coarsest_unit. apply cues_eqb_refl.
Qed.

(* ---- several languages through DFXP / SAMI ---------------------------------------------------------- *)
Lemma run_model_set_inv : forall (I : list cue -> Prop) (ok : fmt -> Prop),
  (forall f cs, ok f -> I cs -> hop f cs = Ok (pi f cs) /\ I (pi f cs)) ->
  forall chain (cs : capset), Forall ok chain -> forallb carries_languages chain = true ->
  (forall lc, In lc cs -> I (snd lc)) ->
  run_model_set chain cs = Ok (map (fun lc => (fst lc, run chain (snd lc))) cs).
Proof.
  intros I ok Hop. induction chain as [|f t IH]; intros cs Hc Hl D.
  - cbn [run_model_set run fold_left]. f_equal. rewrite <- (map_id cs) at 1. apply map_ext. intros [l c]. reflexivity.
  - inversion Hc as [|x l Hf Ht]; subst. cbn [forallb] in Hl. apply andb_true_iff in Hl. destruct Hl as [Lf Lt].
    cbn [run_model_set]. unfold hop_set. rewrite Lf.
    rewrite (res_map_ok_in _ (fun lc => (fst lc, pi f (snd lc))))
      by (intros lc Hin; rewrite (proj1 (Hop f _ Hf (D lc Hin))); reflexivity).
    cbn [bind]. rewrite (IH _ Ht Lt).
    + rewrite map_map. reflexivity.
    + intros lc' Hin. apply in_map_iff in Hin. destruct Hin as [lc [<- Hin]]. exact (proj2 (Hop f _ Hf (D lc Hin))).
Qed.

Theorem run_model_set_exact : forall chain cs, set_dom chain cs = true ->
  run_model_set chain cs = Ok (expected_set chain cs).
Proof.
  intros chain cs H. unfold set_dom in H. apply andb_true_iff in H. destruct H as [Hc Hd]. rewrite forallb_forall in Hd.
  assert (A : Forall (fun f => In f chain) chain) by (apply Forall_forall; auto).
  rewrite (run_model_set_inv _ _ (hop_chain_inv chain) chain cs A Hc (fun lc Hin => chain_dom_inv _ _ (Hd lc Hin))).
  unfold expected_set. f_equal. apply map_ext. intros lc. rewrite run_closed_form. reflexivity.
Qed.
