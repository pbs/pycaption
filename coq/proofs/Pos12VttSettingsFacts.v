(* C12: cue settings of a timing line are kept verbatim by the reader, and survive write -> read. *)
From Coq Require Import List ZArith Bool.
From PV Require Import lib.Sx lib.Str lib.StrFacts model.Positioning model.TimeRead model.VttSettings.
From PV Require Import proofs.GeomStr.
Import ListNotations.
Open Scope Z_scope.

(* a token: non-empty, no white space; white space: non-empty, white space only; settings: non-empty, no white space at
   either end (inside anything but a line feed is allowed - blanks, tabs, commas, upper case) *)
Definition token (t : str) : Prop := t <> [] /\ forallb not_space t = true.
Definition blanks (w : str) : Prop := w <> [] /\ forallb is_space w = true.
Definition clean_settings (s : str) : Prop :=
  exists a mid, (s = [a] \/ exists b, s = a :: mid ++ [b] /\ is_space b = false) /\ is_space a = false.

Lemma clean_nonempty : forall s, clean_settings s -> exists a t, s = a :: t /\ is_space a = false.
Proof. intros s (a & mid & [->|(b & -> & _)] & Ha); eauto. Qed.

Lemma clean_last : forall s, clean_settings s -> s <> [] /\ is_space (last s 0) = false.
Proof.
  intros s (a & mid & [->|(b & -> & Hb)] & Ha); (split; [discriminate|]).
  - exact Ha.
  - change (a :: mid ++ [b]) with ((a :: mid) ++ [b]). rewrite last_last. exact Hb.
Qed.

Lemma not_space_false : forall c, is_space c = true -> not_space c = false.
Proof. intros c H. unfold not_space. rewrite H. reflexivity. Qed.
Lemma not_space_true : forall c, is_space c = false -> not_space c = true.
Proof. intros c H. unfold not_space. rewrite H. reflexivity. Qed.

Lemma stops_blanks : forall w rest, blanks w -> stops not_space (w ++ rest).
Proof.
  intros [|c w] rest [Hn Hw]; [contradiction|]. cbn [app stops]. cbn [forallb] in Hw. apply andb_true_iff in Hw.
  apply not_space_false. exact (proj1 Hw).
Qed.

Lemma starts_blanks : forall w rest, blanks w -> starts_space (w ++ rest) = true.
Proof.
  intros [|c w] rest [Hn Hw]; [contradiction|]. cbn [forallb] in Hw. apply andb_true_iff in Hw. exact (proj1 Hw).
Qed.

Lemma stops_token : forall t rest, token t -> stops is_space (t ++ rest).
Proof.
  intros [|c t] rest [Hn Ht]; [contradiction|]. cbn [app stops]. cbn [forallb] in Ht. apply andb_true_iff in Ht.
  destruct Ht as [Hc _]. unfold not_space in Hc. destruct (is_space c); [discriminate|reflexivity].
Qed.

Lemma lstrip_blanks : forall w s, forallb is_space w = true -> stops is_space s -> lstrip_by is_space (w ++ s) = s.
Proof. intros w s Hw Hs. rewrite lstrip_by_drop_while. exact (drop_while_stops is_space w s Hw Hs). Qed.

Lemma rstrip_blanks : forall s w, forallb is_space w = true -> s <> [] -> is_space (last s 0) = false ->
  rstrip_by is_space (s ++ w) = s.
Proof.
  intros s w Hw Hn Hl. unfold rstrip_by. rewrite rev_app_distr.
  rewrite lstrip_blanks.
  - apply rev_involutive.
  - rewrite forallb_forall in *. intros x Hx. apply Hw. apply in_rev. exact Hx.
  - destruct (exists_last Hn) as (l & x & ->). rewrite last_last in Hl. rewrite rev_unit. cbn [stops]. exact Hl.
Qed.

Lemma strip_settings : forall w3 s w4, forallb is_space w3 = true -> forallb is_space w4 = true -> clean_settings s ->
  strip (w3 ++ s ++ w4) = s.
Proof.
  intros w3 s w4 H3 H4 Hs. unfold strip, strip_by. destruct (clean_nonempty s Hs) as (a & t & Es & Ha). destruct (clean_last s Hs) as [Hn Hl].
  rewrite lstrip_blanks; [|exact H3|rewrite Es; cbn [app stops]; exact Ha].
  apply rstrip_blanks; assumption.
Qed.

Definition arrow : str := lit "-->".

(* shape of every timing line the pattern accepts with settings: token, blanks, "-->", blanks, token, blanks, settings,
   optional trailing blanks *)
Section Line.
  Variables t1 t2 w1 w2 : str.
  Hypothesis T1 : token t1.
  Hypothesis T2 : token t2.
  Hypothesis W1 : blanks w1.
  Hypothesis W2 : blanks w2.

  Lemma arrow_stops_space : forall rest, stops is_space (arrow ++ rest).
  Proof. reflexivity. Qed.

  (* the line matches the pattern, and what the reader strips is everything after the second token *)
  Lemma settings_of_tail : forall tail, stops not_space tail ->
    vtt_cue_settings (t1 ++ w1 ++ arrow ++ w2 ++ t2 ++ tail)
    = match strip tail with [] => Some None | c :: t => Some (Some (c :: t)) end.
  Proof.
    intros tail Htail. unfold vtt_cue_settings, vtt_timing_line.
    destruct T1 as [N1 F1], T2 as [N2 F2], W1 as [M1 G1], W2 as [M2 G2].
    rewrite (take_while_stops not_space t1 _ F1 (stops_blanks w1 _ W1)), (drop_while_stops not_space t1 _ F1 (stops_blanks w1 _ W1)).
    rewrite (drop_while_stops is_space w1 (arrow ++ w2 ++ t2 ++ tail) G1 (arrow_stops_space (w2 ++ t2 ++ tail))).
    change (skipn 3 (arrow ++ w2 ++ t2 ++ tail)) with (w2 ++ t2 ++ tail).
    rewrite (drop_while_stops is_space w2 _ G2 (stops_token t2 tail T2)).
    rewrite (take_while_stops not_space t2 _ F2 Htail), (drop_while_stops not_space t2 _ F2 Htail).
    rewrite (starts_blanks w1 _ W1), (starts_blanks w2 _ W2).
    change (is_prefix (lit "-->") (arrow ++ w2 ++ t2 ++ tail)) with true.
    destruct t1; [contradiction|]. destruct t2; [contradiction|]. reflexivity.
  Qed.

  (* the reader keeps the settings exactly: inner blanks, tabs, case, unknown keys - whatever stands between the white
     space after the end time and the trailing white space *)
  Theorem reader_keeps_settings : forall w3 s w4, blanks w3 -> forallb is_space w4 = true -> clean_settings s ->
    vtt_cue_settings (t1 ++ w1 ++ arrow ++ w2 ++ t2 ++ w3 ++ s ++ w4) = Some (Some s).
  Proof.
    intros w3 s w4 W3 H4 Hs. rewrite (settings_of_tail _ (stops_blanks w3 _ W3)), (strip_settings w3 s w4 (proj2 W3) H4 Hs).
    destruct (clean_nonempty s Hs) as (a & t & -> & _). reflexivity.
  Qed.

  (* a timing line without settings (nothing, or white space only, after the end time) gives no layout *)
  Theorem reader_no_settings : forall w4, forallb is_space w4 = true ->
    vtt_cue_settings (t1 ++ w1 ++ arrow ++ w2 ++ t2 ++ w4) = Some None.
  Proof.
    intros w4 H4. rewrite settings_of_tail.
    - unfold strip, strip_by. rewrite <- (app_nil_r w4), (lstrip_blanks w4 [] H4 I). reflexivity.
    - destruct w4 as [|c w]; [exact I|]. cbn [stops]. cbn [forallb] in H4. apply andb_true_iff in H4. apply not_space_false. exact (proj1 H4).
  Qed.
End Line.

(* whatever the reader keeps is clean: no white space at either end - so it is a fixed point of write -> read *)
Lemma lstrip_stops : forall s, stops is_space (lstrip_by is_space s).
Proof. intros s. rewrite lstrip_by_drop_while. apply stops_drop_while. Qed.

Lemma strip_clean_or_empty : forall r, strip r = [] \/ clean_settings (strip r).
Proof.
  intros r. unfold strip, strip_by, rstrip_by. pose proof (lstrip_stops r) as Hl. set (l := lstrip_by is_space r) in *.
  destruct (StrSplit.lstrip_by_suffix is_space (rev l)) as [p Hp]. pose proof (lstrip_stops (rev l)) as Hb.
  destruct (lstrip_by is_space (rev l)) as [|b u]; [left; reflexivity|right]. cbn [stops] in Hb.
  (* l = rev u ++ b :: rev p: the result rev u ++ [b] starts as l does and ends with b *)
  apply (f_equal (@rev Z)) in Hp. rewrite rev_involutive, rev_app_distr in Hp. cbn [rev] in Hp |- *. rewrite <- app_assoc in Hp.
  rewrite Hp in Hl. destruct (rev u) as [|a m]; cbn [app stops] in Hl |- *.
  - exists b, []. split; [left; reflexivity|exact Hb].
  - exists a, m. split; [right; exists b; split; [reflexivity|exact Hb]|exact Hl].
Qed.

Theorem reader_settings_clean : forall line s, vtt_cue_settings line = Some (Some s) -> clean_settings s.
Proof.
  intros line s H. unfold vtt_cue_settings in H. destruct (vtt_timing_line line); [|discriminate].
  match type of H with context [strip ?r] => pose proof (strip_clean_or_empty r) as C; destruct (strip r) end; [discriminate|].
  inversion H; subst. destruct C as [C|C]; [discriminate|exact C].
Qed.

(* write -> read: the line the writer prints for raw settings s (two time stamps, " --> ", one blank, s) reads back as s *)
Theorem settings_survive_write_read : forall ts1 ts2 s, token ts1 -> token ts2 -> clean_settings s ->
  vtt_cue_settings (vtt_timing_text ts1 ts2 (VRaw s)) = Some (Some s).
Proof.
  intros ts1 ts2 s H1 H2 Hs. assert (B : blanks [32]) by (split; [discriminate|reflexivity]).
  pose proof (reader_keeps_settings ts1 ts2 [32] [32] H1 H2 B B [32] s [] B eq_refl Hs) as K.
  rewrite app_nil_r in K. exact K.
Qed.

(* read -> write -> read: what was read from a file is what a second reading of the written file gives *)
Theorem settings_read_write_read : forall line s ts1 ts2, vtt_cue_settings line = Some (Some s) -> token ts1 -> token ts2 ->
  vtt_cue_settings (vtt_timing_text ts1 ts2 (VRaw s)) = Some (Some s).
Proof. intros line s ts1 ts2 H H1 H2. apply settings_survive_write_read; try assumption. eapply reader_settings_clean; eauto. Qed.
