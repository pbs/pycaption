(* C17: the CEA-608 decoder of the specification (spec.SpecSccw.decode_body), run on the word stream the
   writer model emits for a text over the basic character set, returns exactly the laid-out rows. *)
From Coq Require Import List ZArith Lia Bool ZifyBool Arith.
From PV Require Import lib.Sx lib.Str lib.Result model.GenSccw model.SccWrap model.SccWrite spec.SpecSccw
     proofs.SccWriteFacts.
Import ListNotations.
Open Scope Z_scope.
Ltac Zify.zify_post_hook ::= Z.to_euclidean_division_equations.

Definition is_basic (c : Z) : bool := match assoc c sccw_character_to_code with Some _ => true | None => false end.
Definition byte_of (c : Z) : Z := match assoc c sccw_character_to_code with Some b => b | None => 0 end.

Fixpoint pair_up (bs : list Z) : list (Z * Z) :=
  match bs with
  | a :: b :: t => (a, b) :: pair_up t
  | [a] => [(a, 128)]
  | [] => []
  end.

Definition opt_list (p : option Z) : list Z := match p with Some q => [q] | None => [] end.

(* ---- encoder side: a row of basic characters becomes the bytes, paired up, padded with the filler ---- *)
Lemma ws_line_basic : forall line ws p, forallb is_basic line = true ->
  ws_align (ws_line (ws, p) line) = (rev (pair_up (opt_list p ++ map byte_of line)) ++ ws, None).
Proof.
  induction line as [|c t IH]; intros ws p H.
  - destruct p; reflexivity.
  - simpl in H. apply andb_prop in H. destruct H as [H1 H2].
    unfold ws_line. cbn [fold_left]. fold (ws_line (ws_char (ws, p) c) t).
    unfold ws_char, char_code. unfold is_basic in H1. unfold byte_of at 1.
    destruct (assoc c sccw_character_to_code) as [b|] eqn:E; [|discriminate].
    destruct p as [q|].
    + rewrite IH by exact H2. cbn [opt_list app map pair_up rev]. rewrite E. rewrite <- app_assoc. reflexivity.
    + rewrite IH by exact H2. cbn [opt_list app map]. rewrite E. reflexivity.
Qed.

Definition basic_byte (b : Z) : Prop := exists c, cea_basic (b mod 128) = Some c.
Definition dec_byte (b : Z) : Z := match cea_basic (b mod 128) with Some c => c | None => 0 end.
Definition prev_ok (prev : option (Z * Z)) : Prop :=
  match prev with None => True | Some p => is_control p = false end.

Lemma basic_byte_facts : forall b, basic_byte b -> 32 <= b mod 128 /\ cea_basic (b mod 128) = Some (dec_byte b).
Proof.
  intros b [c H]. unfold dec_byte. rewrite H. split; [|reflexivity].
  unfold cea_basic in H. destruct ((b mod 128 <? 32) || (127 <? b mod 128)) eqn:E; [discriminate|]. lia.
Qed.

Lemma decode_text_word : forall a b t prev r txt rows c1,
  is_control (a, b) = false -> cea_basic (a mod 128) = Some c1 ->
  decode_body ((a, b) :: t) prev ((r, txt) :: rows)
  = if b mod 128 =? 0 then decode_body t (Some (a, b)) ((r, c1 :: txt) :: rows)
    else match cea_basic (b mod 128) with
         | Some c2 => decode_body t (Some (a, b)) ((r, c2 :: c1 :: txt) :: rows)
         | None => None
         end.
Proof.
  intros a b t prev r txt rows c1 C A. cbn [decode_body fst snd]. rewrite C, A. reflexivity.
Qed.

Lemma basic_not_control : forall a b, 32 <= a mod 128 -> is_control (a, b) = false.
Proof. intros a b H. unfold is_control. cbn [fst]. lia. Qed.

Lemma decode_pairs : forall n bs rest prev r txt rows, (length bs <= n)%nat ->
  (forall b, In b bs -> basic_byte b) -> prev_ok prev ->
  exists prev', prev_ok prev' /\
    decode_body (pair_up bs ++ rest) prev ((r, txt) :: rows)
    = decode_body rest prev' ((r, rev (map dec_byte bs) ++ txt) :: rows).
Proof.
  induction n as [|n IH]; intros bs rest prev r txt rows L B P.
  - destruct bs; [|simpl in L; lia]. exists prev. split; [exact P|reflexivity].
  - destruct bs as [|a [|b t]]; [exists prev; split; [exact P|reflexivity]| |];
      destruct (basic_byte_facts a (B a (or_introl eq_refl))) as [A1 A2]; cbn [pair_up app].
    + exists (Some (a, 128)). split; [exact (basic_not_control a 128 A1)|].
      rewrite (decode_text_word _ _ _ _ _ _ _ _ (basic_not_control a 128 A1) A2). reflexivity.
    + destruct (basic_byte_facts b (B b (or_intror (or_introl eq_refl)))) as [B1 B2].
      destruct (IH t rest (Some (a, b)) r (dec_byte b :: dec_byte a :: txt) rows) as (prev' & P' & E);
        [simpl in L; lia|intros x Hx; apply B; right; right; exact Hx|exact (basic_not_control a b A1)|].
      exists prev'. split; [exact P'|].
      rewrite (decode_text_word _ _ _ _ _ _ _ _ (basic_not_control a b A1) A2).
      replace (b mod 128 =? 0) with false by lia. rewrite B2. etransitivity; [exact E|].
      cbn [map rev]. rewrite <- !app_assoc. reflexivity.
Qed.

(* the PAC of a valid row, sent twice, opens that row *)
Lemma tbl_pac_control :
  forallb (fun row => match py_index sccw_pac_high_byte_by_row row, py_index sccw_pac_low_byte_by_row_restricted row with
                      | Ok h, Ok l => is_control (h, l) | _, _ => false end) (map Z.of_nat (seq 1 15)) = true.
Proof. vm_compute. reflexivity. Qed.

Lemma w_eqb_refl : forall w, w_eqb w w = true.
Proof. intros [a b]. unfold w_eqb. cbn [fst snd]. rewrite !Z.eqb_refl. reflexivity. Qed.
Lemma w_eqb_control : forall p w, w_eqb p w = true -> is_control p = is_control w.
Proof.
  intros [a b] [c d] H. unfold w_eqb in H. cbn [fst snd] in H. apply andb_prop in H. destruct H as [H _].
  assert (a = c) by lia. subst. reflexivity.
Qed.

Lemma decode_pac : forall row h l rest prev rows, 1 <= row <= 15 ->
  py_index sccw_pac_high_byte_by_row row = Ok h -> py_index sccw_pac_low_byte_by_row_restricted row = Ok l ->
  prev_ok prev ->
  decode_body ((h, l) :: (h, l) :: rest) prev rows = decode_body rest None ((row, []) :: rows).
Proof.
  intros row h l rest prev rows R Hh Hl P.
  pose proof (pac_ok_row row R) as K. unfold pac_ok in K. rewrite Hh, Hl in K.
  assert (C : is_control (h, l) = true).
  { pose proof tbl_pac_control as T. rewrite forallb_forall in T.
    assert (I : In row (map Z.of_nat (seq 1 15))).
    { apply in_map_iff. exists (Z.to_nat row). split; [lia|]. apply in_seq. lia. }
    specialize (T row I). rewrite Hh, Hl in T. exact T. }
  destruct (pac_row h l) as [r'|] eqn:PR; [|rewrite andb_false_r in K; discriminate].
  destruct (pac_indent l) as [[| |]|] eqn:PI; try (rewrite andb_false_r in K; discriminate).
  assert (r' = row) by lia. subst r'.
  cbn [decode_body]. rewrite C.
  assert (N : match prev with Some p => w_eqb p (h, l) | None => false end = false).
  { destruct prev as [p|]; [|reflexivity]. destruct (w_eqb p (h, l)) eqn:Q; [|reflexivity].
    apply w_eqb_control in Q. unfold prev_ok in P. congruence. }
  rewrite N. cbn [fst snd]. rewrite PR, PI, w_eqb_refl. reflexivity.
Qed.

Definition rows_basic (rows : list (Z * str)) : Prop := forall r, In r rows -> forallb is_basic (snd r) = true.

Lemma is_basic_byte : forall c, is_basic c = true -> basic_byte (byte_of c) /\ dec_byte (byte_of c) = c.
Proof.
  intros c H. unfold is_basic in H. unfold byte_of, basic_byte, dec_byte.
  destruct (assoc c sccw_character_to_code) as [b|] eqn:E; [|discriminate].
  apply assoc_in in E. pose proof tbl_basic_is_cea as T. rewrite forallb_forall in T. specialize (T _ E).
  cbn [fst snd] in T. destruct (cea_basic (b mod 128)) as [c'|]; [|discriminate].
  assert (c' = c) by lia. subst. split; [eexists; reflexivity|reflexivity].
Qed.

Lemma words_rows_decode : forall rows ws0 s', rows_valid rows -> rows_basic rows ->
  words_rows (ws0, None) rows = Ok s' ->
  exists new, s' = (rev new ++ ws0, None) /\
    forall rest prev acc, prev_ok prev ->
      exists prev', prev_ok prev' /\
        decode_body (new ++ rest) prev acc
        = decode_body rest prev' (rev (map (fun r => (fst r, rev (snd r))) rows) ++ acc).
Proof.
  induction rows as [|[row line] t IH]; intros ws0 s' V B H; cbn [words_rows] in H.
  - inversion H; subst. exists []. split; [reflexivity|]. intros rest prev acc P. exists prev. split; [exact P|reflexivity].
  - assert (R : 1 <= row <= 15) by (apply (V (row, line)); left; reflexivity).
    destruct (py_index sccw_pac_high_byte_by_row row) as [h|] eqn:Hh; [|discriminate].
    destruct (py_index sccw_pac_low_byte_by_row_restricted row) as [l|] eqn:Hl; [|discriminate].
    cbn [bind] in H.
    assert (Bl : forallb is_basic line = true) by (apply (B (row, line)); left; reflexivity).
    rewrite ws_line_basic in H by exact Bl. cbn [opt_list app] in H.
    destruct (IH _ _ (fun r Hr => V r (or_intror Hr)) (fun r Hr => B r (or_intror Hr)) H) as (new & E & D).
    exists ((h, l) :: (h, l) :: pair_up (map byte_of line) ++ new). split.
    + rewrite E. cbn [rev]. rewrite rev_app_distr, <- !app_assoc. reflexivity.
    + intros rest prev acc P. cbn [app]. rewrite (decode_pac row h l _ prev acc R Hh Hl P).
      rewrite <- app_assoc.
      destruct (decode_pairs (length (map byte_of line)) (map byte_of line) (new ++ rest) None row [] acc
                  (le_n _)) as (prev1 & P1 & E1).
      { intros b Hb. apply in_map_iff in Hb. destruct Hb as [c [<- Hc]].
        rewrite forallb_forall in Bl. apply is_basic_byte. apply Bl. exact Hc. }
      { exact I. }
      destruct (D rest prev1 ((row, rev (map dec_byte (map byte_of line)) ++ []) :: acc) P1) as (prev2 & P2 & E2).
      exists prev2. split; [exact P2|]. etransitivity; [exact E1|]. etransitivity; [exact E2|]. cbn [map rev fst snd]. rewrite <- app_assoc. cbn [app].
      rewrite app_nil_r, map_map.
      assert (M : map (fun x => dec_byte (byte_of x)) line = line).
      { rewrite forallb_forall in Bl. rewrite <- (map_id line) at 2. apply map_ext_in. intros c Hc.
        apply is_basic_byte. apply Bl. exact Hc. }
      rewrite M. reflexivity.
Qed.

Theorem decode_rows : forall text, (length (layout_rows text) <= 15)%nat -> rows_basic (layout_rows text) ->
  exists ws, text_to_words text = Ok ws /\ decode_body ws None [] = Some (layout_rows text).
Proof.
  intros text L B. destruct (all_bytes_odd_parity text L) as (ws & E & _). exists ws. split; [exact E|].
  unfold text_to_words in E. destruct (words_rows ([], None) (layout_rows text)) as [s'|] eqn:W; [|discriminate].
  cbn [bind] in E. inversion E; subst ws. clear E.
  destruct (words_rows_decode _ _ _ (layout_rows_valid text L) B W) as (new & E & D).
  subst s'. cbn [fst]. rewrite app_nil_r, rev_involutive.
  destruct (D [] None [] I) as (prev' & _ & E2). rewrite app_nil_r in E2. rewrite E2. cbn [decode_body].
  rewrite app_nil_r, <- map_rev, rev_involutive, map_map. f_equal.
  rewrite <- (map_id (layout_rows text)) at 2. apply map_ext. intros [r t]. cbn [fst snd]. rewrite rev_involutive. reflexivity.
Qed.
