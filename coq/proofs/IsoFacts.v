(* IsoFacts.v - C09 / C10 theorems about the writer / reader / edit models of model/Iso.v. *)
From Coq Require Import List ZArith Bool Arith Lia Permutation.
From PV Require Import lib.Sx lib.Str lib.Result model.Store model.Iso proofs.StoreFacts proofs.DeepcopyFacts.
Import ListNotations.

Ltac inr_up := eapply inr_mono; [eassumption|lia].

Lemma Forall_inr_mono : forall mark n n' l, Forall (inr mark n) l -> (n <= n')%nat -> Forall (inr mark n') l.
Proof. intros. eapply Forall_impl; [|eassumption]. intros. eapply inr_mono; eauto. Qed.

(* ---- navigation stays in the new region -------------------------------------------------------------------------- *)
Lemma elems_all : forall (P : val -> Prop) st v, items_all P (items_of st v) -> Forall P (elems st v).
Proof.
  intros P st v H. unfold elems. induction H as [|[k x] t [A B] Ht IH]; simpl; [constructor|]. destruct k; simpl; auto.
Qed.

Lemma remove_nth_elem_all : forall (P : val -> Prop) n its, items_all P its -> items_all P (remove_nth_elem n its).
Proof.
  intros P n its H. revert n. induction H as [|[k x] t AB Ht IH]; intros n; simpl; [constructor|].
  destruct k; try (constructor; [exact AB|apply IH]). destruct n; [exact Ht|constructor; [exact AB|apply IH]].
Qed.

Lemma elems_inr : forall st0 st v,
  inv st0 st -> inr (length st0) (length st) v -> Forall (inr (length st0) (length st)) (elems st v).
Proof. intros. apply elems_all, items_of_inr; auto. Qed.

Lemma set_langs_inr : forall st0 st s,
  inv st0 st -> inr (length st0) (length st) s -> items_inr (length st0) (length st) (set_langs st s).
Proof. intros. unfold set_langs. apply items_of_inr; auto. apply field_inr; auto. Qed.

Lemma filter_items_inr : forall mark n f its, items_inr mark n its -> items_inr mark n (filter f its).
Proof.
  intros mark n f its H. unfold items_inr in *. induction H; simpl; [constructor|].
  destruct (f x); auto.
Qed.

Lemma sel_langs_inr : forall st0 st s keys,
  inv st0 st -> inr (length st0) (length st) s -> items_inr (length st0) (length st) (sel_langs st s keys).
Proof. intros. unfold sel_langs. apply filter_items_inr. apply set_langs_inr; auto. Qed.

Definition slot_inr (mark n : nat) (sl : slot) : Prop := inr mark n (fst (fst sl)).

Lemma cap_slots_inr : forall st0 st cap,
  inv st0 st -> inr (length st0) (length st) cap -> Forall (slot_inr (length st0) (length st)) (cap_slots st cap).
Proof.
  intros st0 st cap Hinv Hc. unfold cap_slots. constructor; [exact Hc|].
  apply Forall_map. eapply Forall_impl; [|apply elems_inr; [exact Hinv|apply field_inr; auto]].
  intros a Ha. exact Ha.
Qed.

Lemma Forall_flat_map : forall (A B : Type) (P : B -> Prop) (Q : A -> Prop) (f : A -> list B) (l : list A),
  Forall Q l -> (forall a, Q a -> Forall P (f a)) -> Forall P (flat_map f l).
Proof.
  intros A B P Q f l H Hf. induction H; simpl; [constructor|]. apply Forall_app. split; auto.
Qed.

Lemma caps_slots_inr : forall st0 st cl,
  inv st0 st -> inr (length st0) (length st) cl ->
  Forall (slot_inr (length st0) (length st)) (flat_map (cap_slots st) (elems st cl)).
Proof.
  intros st0 st cl Hinv Hcl. eapply Forall_flat_map; [apply elems_inr; eauto|].
  intros a Ha. apply cap_slots_inr; auto.
Qed.

Lemma dfxp_slots_inr : forall st0 st langs,
  inv st0 st -> items_inr (length st0) (length st) langs ->
  Forall (slot_inr (length st0) (length st)) (dfxp_slots st langs).
Proof.
  intros st0 st langs Hinv Hl. unfold dfxp_slots. eapply Forall_flat_map; [exact Hl|].
  intros [k cl] [_ Hcl]. constructor; [exact Hcl|]. apply caps_slots_inr; auto.
Qed.

Lemma inline_slot_inr : forall mark n o s, inr mark n s -> Forall (slot_inr mark n) (inline_slot o s).
Proof. intros. unfold inline_slot. destruct (wo_inline o); constructor; [exact H|constructor]. Qed.

Lemma sami_slots_inr : forall st0 st s,
  inv st0 st -> inr (length st0) (length st) s -> Forall (slot_inr (length st0) (length st)) (sami_slots st s).
Proof.
  intros st0 st s Hinv Hs. unfold sami_slots. constructor; [exact Hs|].
  eapply Forall_flat_map; [apply set_langs_inr; eauto|].
  intros [k cl] [_ Hcl]. constructor; [exact Hcl|]. apply caps_slots_inr; auto.
Qed.

Lemma span_slots_inr : forall st0 st o s keys,
  inv st0 st -> inr (length st0) (length st) s ->
  Forall (slot_inr (length st0) (length st)) (inline_slot o s ++ dfxp_slots st (sel_langs st s keys)).
Proof.
  intros. apply Forall_app. split; [apply inline_slot_inr; assumption|].
  apply dfxp_slots_inr; auto. apply sel_langs_inr; auto.
Qed.

(* ---- the assignments of the writers stay in the new region ------------------------------------------------------- *)
Lemma apply_slots_inv : forall st0 slots st acts log st' log',
  inv st0 st -> Forall (slot_inr (length st0) (length st)) slots ->
  apply_slots st slots acts log = (st', log') ->
  inv st0 st' /\ (length st <= length st')%nat.
Proof.
  intros st0. induction slots as [|[[ob f] asn] ts IH]; intros st acts log st' log' Hinv Hs H.
  - simpl in H. inversion H; subst. split; auto.
  - destruct acts as [|a ta]; [simpl in H; inversion H; subst; split; auto|].
    inversion Hs as [|? ? Hob Hts]; subst. unfold slot_inr in Hob. simpl in Hob. cbn [apply_slots] in H.
    (* every branch assigns to the slot, in a store that may have grown by a new layout object, and goes on *)
    assert (K : forall s x lg, inv st0 s -> (length st <= length s)%nat -> inr (length st0) (length s) x ->
                apply_slots (set_field s ob (VInt f) x) ts ta lg = (st', log') ->
                inv st0 st' /\ (length st <= length st')%nat).
    { intros s x lg Is Ls Hx E. apply IH in E.
      - rewrite length_set_field in E. split; [apply E|]. destruct E. lia.
      - apply inv_set_field; auto; [inr_up|exact I].
      - rewrite length_set_field. eapply Forall_impl; [|exact Hts]. intros sl Hsl. unfold slot_inr in *. inr_up. }
    destruct a as [c'|]; [|destruct asn].
    + destruct (new_obj st KLayout [(VInt 1, VInt c'); (VInt 2, VNone)]) as [st1 nl] eqn:En.
      assert (Hits : items_inr (length st0) (length st) [(VInt 1, VInt c'); (VInt 2, VNone)]) by (repeat constructor).
      destruct (inv_new_obj _ _ _ _ _ _ Hinv Hits En) as (I1 & V1 & L1).
      exact (K _ _ _ I1 L1 V1 H).
    + exact (K _ VNone _ Hinv (Nat.le_refl _) I H).
    + exact (K _ _ _ Hinv (Nat.le_refl _) (field_inr _ _ _ _ Hinv Hob) H).
Qed.

Lemma runs_of_inr : forall mark n st caps,
  Forall (inr mark n) caps ->
  Forall (fun r => inr mark n (fst r) /\ Forall (inr mark n) (snd r)) (runs_of st caps).
Proof.
  intros mark n st caps H. induction H as [|c t Hc Ht IH]; simpl; [constructor|].
  destruct (runs_of st t) as [|[d ds] rest] eqn:E.
  - constructor; [split; [exact Hc|constructor]|constructor].
  - inversion IH as [|? ? [Hd Hds] Hrest]; subst. simpl in *.
    destruct (same_span st c d).
    + constructor; [split; [exact Hc|constructor; assumption]|assumption].
    + constructor; [split; [exact Hc|constructor]|]. constructor; [split; assumption|assumption].
Qed.

(* The loops of the writers are instances of StoreFacts.fold_inv: each proof below names what is known of the list
   elements (Q) and of the payload (R) and shows one round. *)
Lemma merge_run_inv : forall st0 st c cs st' v,
  inv st0 st -> inr (length st0) (length st) c -> Forall (inr (length st0) (length st)) cs ->
  merge_run st (c, cs) = (st', v) ->
  inv st0 st' /\ (length st <= length st')%nat /\ inr (length st0) (length st') v.
Proof.
  intros st0 st c cs st' v Hinv Hc Hcs H. unfold merge_run in H.
  match type of H with (let '(_, _) := ?X in _) = _ => destruct X as [st1 nodes] eqn:Ef end.
  assert (HP : inv st0 st1 /\ (length st <= length st1)%nat /\ items_inr (length st0) (length st1) nodes).
  { eapply (fold_inv _ _ st0 (inr (length st0)) (items_inr (length st0)));
      [apply inr_mono| |exact Hinv|exact Hcs| |exact Ef].
    - intros s0 ns x s1 ns' I0 _ Hx N0 E. cbv beta iota in E.
      destruct (new_obj s0 KNode _) as [s br] eqn:En. inversion E; subst.
      assert (Hits : items_inr (length st0) (length s0)
                       [(VInt 1, VInt 3%Z); (VInt 2, VNone); (VInt 3, VNone); (VInt 4, VNone); (VInt 5, VNone)])
        by (repeat constructor).
      destruct (inv_new_obj _ _ _ _ _ _ I0 Hits En) as (I1 & V1 & L1).
      split; [exact I1|]. split; [exact L1|]. unfold items_inr. apply Forall_app. split.
      + eapply items_inr_mono; [exact N0|exact L1].
      + constructor; [split; [exact I|exact V1]|].
        apply items_of_inr; auto. apply field_inr; auto. inr_up.
    - apply items_of_inr; auto. apply field_inr; auto. }
  destruct HP as (I1 & L1 & N1).
  destruct (new_obj st1 KList nodes) as [st2 nl] eqn:E2.
  destruct (inv_new_obj _ _ _ _ _ _ I1 N1 E2) as (I2 & V2 & L2).
  assert (Hf : forall k, inr (length st0) (length st2) (field st c k)).
  { intros k. eapply inr_mono; [apply field_inr; eauto|lia]. }
  assert (Hits : items_inr (length st0) (length st2)
                   [(VInt 1, field st c (VInt 1)); (VInt 2, field st c (VInt 2)); (VInt 3, nl);
                    (VInt 4, field st c (VInt 4)); (VInt 5, VNone)]).
  { repeat (constructor; [cbv beta; cbn [fst snd]; split; [exact I|first [exact I|auto]]|]). constructor. }
  destruct (inv_new_obj _ _ _ _ _ _ I2 Hits H) as (I3 & V3 & L3).
  split; [exact I3|]. split; [lia|exact V3].
Qed.

Lemma merge_lang_inv : forall st0 st s kv log st' log',
  inv st0 st -> inr (length st0) (length st) s ->
  inr (length st0) (length st) (fst kv) -> inr (length st0) (length st) (snd kv) ->
  merge_lang st s kv log = (st', log') ->
  inv st0 st' /\ (length st <= length st')%nat.
Proof.
  intros st0 st s kv log st' log' Hinv Hs Hk Hv H. unfold merge_lang in H.
  destruct (elems st (snd kv)) as [|c0 cr] eqn:Ec.
  - inversion H; subst. split; auto.
  - match type of H with (let '(_, _) := ?X in _) = _ => destruct X as [st1 merged] eqn:Ef end.
    assert (HP : inv st0 st1 /\ (length st <= length st1)%nat /\ items_inr (length st0) (length st1) merged).
    { eapply (fold_inv _ _ st0 (fun n r => inr (length st0) n (fst r) /\ Forall (inr (length st0) n) (snd r))
                (items_inr (length st0))); [| |exact Hinv| |constructor|exact Ef].
      - intros n n' r [A B] Hn. split; [inr_up|eapply Forall_inr_mono; eauto].
      - intros s0 l [c cs] s1 l' I0 _ [Hc Hcs] N0 E. cbv beta iota in E. cbn [fst snd] in Hc, Hcs.
        destruct (merge_run s0 (c, cs)) as [s2 m] eqn:Em. inversion E; subst.
        destruct (merge_run_inv _ _ _ _ _ _ I0 Hc Hcs Em) as (I1 & L1 & V1).
        split; [exact I1|]. split; [exact L1|]. unfold items_inr. apply Forall_app. split.
        + eapply items_inr_mono; [exact N0|exact L1].
        + constructor; [split; [exact I|exact V1]|constructor].
      - apply runs_of_inr. rewrite <- Ec. apply elems_inr; auto. }
    destruct HP as (I1 & L1 & N1).
    destruct (new_obj st1 KCapList ((VInt 1, VNone) :: merged)) as [st2 cl] eqn:E2.
    assert (Hits : items_inr (length st0) (length st1) ((VInt 1, VNone) :: merged)).
    { constructor; [split; exact I|exact N1]. }
    destruct (inv_new_obj _ _ _ _ _ _ I1 Hits E2) as (I2 & V2 & L2).
    inversion H; subst. split.
    + apply inv_set_field; auto.
      * apply field_inr; auto. inr_up.
      * inr_up.
    + rewrite length_set_field. lia.
Qed.

Lemma merge_all_inv : forall st0 st s log st' log',
  inv st0 st -> inr (length st0) (length st) s -> merge_all st s log = (st', log') ->
  inv st0 st' /\ (length st <= length st')%nat.
Proof.
  intros st0 st s log st' log' Hinv Hs H. unfold merge_all in H.
  eapply (fold_inv0 _ _ st0 (kv_inr (length st0)));
    [apply kv_inr_mono| |exact Hinv| |exact H].
  - intros s0 lg kv s1 lg1 I0 L0 [Hk Hv] E. cbv beta in E. cbn [fst snd] in E.
    eapply merge_lang_inv; [exact I0| |exact Hk|exact Hv|exact E]. inr_up.
  - apply set_langs_inr; auto.
Qed.

Lemma legacy_styles_inv : forall st0 st langs log st' log',
  inv st0 st -> items_inr (length st0) (length st) langs -> legacy_styles st langs log = (st', log') ->
  inv st0 st' /\ (length st <= length st')%nat.
Proof.
  intros st0 st langs log st' log' Hinv Hl H. unfold legacy_styles in H.
  eapply (fold_inv0 _ _ st0 (inr (length st0))); [apply inr_mono| |exact Hinv| |exact H].
  - intros s0 lg cap s1 lg1 I0 _ Hc E. cbv beta iota zeta in E.
    destruct (items_of s0 (field s0 cap (VInt 4))); inversion E; subst; [split; auto|].
    rewrite length_set_field. split; [|apply Nat.le_refl].
    apply inv_set_field; auto; try exact I. apply field_inr; auto.
  - eapply Forall_flat_map; [exact Hl|]. intros [k cl] [_ Hcl]. apply elems_inr; auto.
Qed.

Lemma sami_styles_inv : forall st0 st s log st' log',
  inv st0 st -> inr (length st0) (length st) s -> sami_styles st s log = (st', log') ->
  inv st0 st' /\ (length st <= length st')%nat.
Proof.
  intros st0 st s log st' log' Hinv Hs H. unfold sami_styles in H.
  destruct (match field st (field st s (VInt 3)) (VInt 1) with VInt c => flag fP c | _ => false end);
    [|inversion H; subst; split; auto].
  eapply (fold_inv0 _ _ st0 (kv_inr (length st0)));
    [apply kv_inr_mono| |exact Hinv| |exact H].
  - intros s0 lg kv s1 lg1 I0 _ [_ Hv] E. cbv beta iota zeta in E.
    destruct (items_of s0 (snd kv)); inversion E; subst; [split; auto|].
    repeat rewrite length_set_field. split; [|apply Nat.le_refl].
    repeat (apply inv_set_field; try exact I; repeat rewrite length_set_field; auto).
  - apply items_of_inr; auto. apply field_inr; auto.
Qed.

Lemma single_assign_inv : forall st0 st s pc log st' log',
  inv st0 st -> inr (length st0) (length st) s -> single_assign st s pc log = (st', log') ->
  inv st0 st' /\ (length st <= length st')%nat.
Proof.
  intros st0 st s pc log st' log' Hinv Hs H. unfold single_assign in H.
  destruct (new_obj st KLayout [(VInt 1, VInt pc); (VInt 2, VNone)]) as [sta posv] eqn:En.
  assert (Hits : items_inr (length st0) (length st) [(VInt 1, VInt pc); (VInt 2, VNone)]) by (repeat constructor).
  destruct (inv_new_obj _ _ _ _ _ _ Hinv Hits En) as (Ia & Vp & La).
  assert (I1 : inv st0 (set_field sta s (VInt 3) posv)) by (apply inv_set_field; auto; [inr_up|exact I]).
  rewrite <- (length_set_field sta s (VInt 3) posv) in Vp, La.
  set (st1 := set_field sta s (VInt 3) posv) in *.
  match type of H with (let '(_, _) := ?X in _) = _ => destruct X as [st2 lg2] eqn:Ef end.
  assert (HP : inv st0 st2 /\ (length st1 <= length st2)%nat).
  { eapply (fold_inv0 _ _ st0 (kv_inr (length st0)));
      [apply kv_inr_mono| |exact I1| |exact Ef].
    - (* one language: its caption list, then every caption *)
      intros s0 lg kv s0' lg' I0 L0 [_ Hv] E. cbv beta iota zeta in E.
      assert (Hp0 : inr (length st0) (length s0) posv) by (eapply inr_mono; [exact Vp|exact L0]).
      assert (I1' : inv st0 (set_field s0 (snd kv) (VInt 1) posv)) by (apply inv_set_field; auto; exact I).
      rewrite <- (length_set_field s0 (snd kv) (VInt 1) posv) in Hp0, Hv |- *.
      set (s1 := set_field s0 (snd kv) (VInt 1) posv) in *.
      eapply (fold_inv0 _ _ st0 (inr (length st0))); [apply inr_mono| |exact I1'| |exact E].
      + (* one caption: its layout slot, then every node *)
        intros s2 lg2' cap s2' lg2'' I2 L2 Hc E2. cbv beta iota zeta in E2.
        assert (Hp2 : inr (length st0) (length s2) posv) by (eapply inr_mono; [exact Hp0|exact L2]).
        assert (I3 : inv st0 (set_field s2 cap (VInt 5) posv)) by (apply inv_set_field; auto; exact I).
        rewrite <- (length_set_field s2 cap (VInt 5) posv) in Hp2, Hc |- *.
        set (s3 := set_field s2 cap (VInt 5) posv) in *.
        eapply (fold_inv0 _ _ st0 (inr (length st0))); [apply inr_mono| |exact I3| |exact E2].
        * intros s4 lg4 n s4' lg4' I4 L4 Hn E4. cbv beta in E4. cbn [fst snd] in E4. inversion E4; subst.
          rewrite length_set_field. split; [|apply Nat.le_refl].
          apply inv_set_field; auto; [exact I|eapply inr_mono; [exact Hp2|exact L4]].
        * apply elems_inr; auto. apply field_inr; auto.
      + apply elems_inr; auto.
    - apply set_langs_inr; auto. inr_up. }
  destruct HP as [I2 L2].
  assert (HQ : inv st0 st' /\ (length st2 <= length st')%nat).
  { eapply (fold_inv0 _ _ st0 (kv_inr (length st0)));
      [apply kv_inr_mono| |exact I2| |exact H].
    - intros s0 lg kv s0' lg' I0 _ [_ Hv] E. cbv beta iota in E.
      destruct (assoc _ (items_of s0 (snd kv))); inversion E; subst; [|split; auto].
      rewrite length_del_field. split; [|apply Nat.le_refl]. apply inv_del_field; auto.
    - apply items_of_inr; auto. apply field_inr; auto. inr_up. }
  destruct HQ as [A B]. split; [exact A|lia].
Qed.

(* ---- C09, clause 1: a write assigns only to what it allocated itself ---------------------------------------------- *)
Theorem write_inv : forall c k o i st s, inv st (wr_store (write c k o i st s)).
Proof.
  intros c k o i st s. unfold write.
  destruct (((k =? W_VTT)%Z || (k =? W_SCC)%Z) && is_empty_set st s); [apply inv_refl|].
  destruct (deepcopy (dc_fuel st) st s) as [[st1 s1]|] eqn:Edc; [|apply inv_refl].
  destruct (deepcopy_inr st st _ s st1 s1 (inv_refl st) Edc) as (I1 & L1 & Hs1).
  destruct ((k =? W_SRT)%Z || (k =? W_MDVD)%Z || (k =? W_SCC)%Z); [exact I1|].
  destruct (k =? W_VTT)%Z; [exact I1|].
  destruct (k =? W_DFXP)%Z.
  { destruct (apply_slots st1 _ _ []) as [st2 lg] eqn:Ea.
    destruct (apply_slots_inv _ _ _ _ _ _ _ I1 (span_slots_inr _ _ _ _ _ I1 Hs1) Ea) as [A _].
    destruct (p_err _); exact A. }
  destruct (k =? W_SAMI)%Z.
  { destruct (apply_slots st1 _ _ []) as [st2 lg] eqn:Ea.
    destruct (apply_slots_inv _ _ _ _ _ _ _ I1 (sami_slots_inr _ _ _ I1 Hs1) Ea) as [A LA].
    destruct (p_err _); [exact A|].
    destruct (sami_styles st2 s1 lg) as [st3 lg3] eqn:Es.
    exact (proj1 (sami_styles_inv _ _ _ _ _ _ A (inr_mono _ _ _ _ Hs1 LA) Es)). }
  destruct (k =? W_LEGACY)%Z.
  { destruct (merge_all st1 s1 []) as [st2 lg] eqn:Em.
    destruct (merge_all_inv _ _ _ _ _ _ I1 Hs1 Em) as [A LA].
    destruct (_ && _); [exact A|].
    destruct (legacy_styles st2 _ lg) as [st3 lg3] eqn:El.
    exact (proj1 (legacy_styles_inv _ _ _ _ _ _ A (sel_langs_inr _ _ _ _ A (inr_mono _ _ _ _ Hs1 LA)) El)). }
  destruct (k =? W_SINGLE)%Z; [|apply inv_refl].
  destruct (merge_all st1 s1 []) as [st2 lg] eqn:Em.
  destruct (merge_all_inv _ _ _ _ _ _ I1 Hs1 Em) as [A LA].
  destruct (single_assign st2 s1 _ lg) as [st3 lg3] eqn:Es.
  destruct (single_assign_inv _ _ _ _ _ _ _ A (inr_mono _ _ _ _ Hs1 LA) Es) as [B LB].
  destruct (deepcopy (dc_fuel st3) st3 s1) as [[st4 s2]|] eqn:Edc2; [|exact B].
  destruct (deepcopy_inr st st3 _ s1 st4 s2 B Edc2) as (I4 & L4 & Hs2).
  destruct (apply_slots st4 _ _ lg3) as [st5 lg5] eqn:Ea.
  destruct (apply_slots_inv _ _ _ _ _ _ _ I4 (span_slots_inr _ _ _ _ _ I4 Hs2) Ea) as [C _].
  destruct (p_err _); exact C.
Qed.

(* every location that existed before the call holds the same object after it - also on the error exits *)
Theorem write_preserves_store : forall c k o i st s l,
  (l < length st)%nat -> get (wr_store (write c k o i st s)) l = get st l.
Proof. intros. apply (inv_agree _ _ (write_inv c k o i st s)). assumption. Qed.

(* hence the snapshot of every value of the old store - the written set and every other set - is unchanged *)
Theorem write_preserves_input : forall c k o i st s fuel v,
  wf st -> below (length st) v ->
  snap fuel (wr_store (write c k o i st s)) v = snap fuel st v.
Proof.
  intros. apply snap_agree; auto. apply (inv_agree _ _ (write_inv c k o i st s)).
Qed.

Theorem write_keeps_wf : forall c k o i st s, wf st -> wf (wr_store (write c k o i st s)).
Proof. intros. eapply inv_wf; eauto. apply write_inv. Qed.

(* ---- C09, clause 2: the result of a write does not depend on the writer's instance state -------------------------- *)
Definition is_span_writer (k : Z) : bool :=
  ((k =? W_DFXP) || (k =? W_SINGLE) || (k =? W_LEGACY) || (k =? W_SAMI))%Z.

Lemma sami_tokens_last_indep : forall o b l1 l2 langs,
  fst (fst (sami_tokens o b l1 langs)) = fst (fst (sami_tokens o b l2 langs)) /\
  snd (sami_tokens o b l1 langs) = snd (sami_tokens o b l2 langs).
Proof.
  intros o b l1 l2 langs. destruct langs as [|caps t]; simpl; [split; reflexivity|].
  destruct (sami_lang_tokens o b TNone caps) as [[o1 l1'] a]. split; reflexivity.
Qed.

(* what a plan contributes to the effect and to the result *)
Definition plan_core (p : plan) := (p_slots p, p_err p, p_open p, p_tokens p).

Lemma make_plan_last_indep : forall k o b l1 l2 t,
  plan_core (make_plan k o b l1 t) = plan_core (make_plan k o b l2 t).
Proof.
  intros k o b l1 l2 t. unfold make_plan, plan_core.
  destruct (k =? W_DFXP)%Z.
  { destruct (plan_slots o (_ ++ dfxp_codes (dfxp_langs o t))) as [sl [e|]]; [reflexivity|].
    destruct (caps_tokens o 4 None b _). reflexivity. }
  destruct (k =? W_SINGLE)%Z.
  { destruct (plan_slots o _) as [sl [e|]]; [reflexivity|].
    destruct (caps_tokens o 4 _ b _). reflexivity. }
  destruct (k =? W_LEGACY)%Z.
  { destruct (caps_tokens o 8 None b _). reflexivity. }
  destruct (k =? W_SAMI)%Z; [|reflexivity].
  destruct (plan_slots o (sami_codes t)) as [sl e].
  destruct (tr_code o (tcode (tfield t 3))); [|reflexivity].
  destruct (sami_langs_before o (set_langs_t t)) as [done fl].
  destruct (sami_tokens_last_indep o b l1 l2 done) as [A B].
  destruct (sami_tokens o b l1 done) as [[o1 x1] t1].
  destruct (sami_tokens o b l2 done) as [[o2 x2] t2]. simpl in A, B. subst. reflexivity.
Qed.

Lemma plan_core_inj : forall p q, plan_core p = plan_core q ->
  p_slots p = p_slots q /\ p_err p = p_err q /\ p_open p = p_open q /\ p_tokens p = p_tokens q.
Proof. intros p q H. unfold plan_core in H. inversion H. auto. Qed.

Lemma entry_inst_span : forall c k i, fix15 c = true -> is_span_writer k = true ->
  wi_open (entry_inst c k i) = false.
Proof.
  intros c k i Hf Hk. unfold entry_inst, is_span_writer in *. rewrite Hf. simpl. rewrite Hk. reflexivity.
Qed.

Lemma not_span_writer : forall k, is_span_writer k = false ->
  (k =? W_DFXP)%Z = false /\ (k =? W_SINGLE)%Z = false /\ (k =? W_LEGACY)%Z = false /\ (k =? W_SAMI)%Z = false.
Proof.
  intros k H. unfold is_span_writer in H. apply orb_false_iff in H. destruct H as [H S]. apply orb_false_iff in H.
  destruct H as [H L]. apply orb_false_iff in H. destruct H as [D G]. auto.
Qed.

Definition effect (r : wres) := (wr_store r, wr_result r, wr_fp r, wr_copies r).

Lemma write_effect_instance_independent : forall c k o i1 i2 st s,
  fix15 c = true -> effect (write c k o i1 st s) = effect (write c k o i2 st s).
Proof.
  intros c k o i1 i2 st s Hf. unfold write.
  destruct (((k =? W_VTT)%Z || (k =? W_SCC)%Z) && is_empty_set st s); [reflexivity|].
  destruct (deepcopy (dc_fuel st) st s) as [[st1 s1]|]; [|reflexivity].
  destruct ((k =? W_SRT)%Z || (k =? W_MDVD)%Z || (k =? W_SCC)%Z); [reflexivity|].
  destruct (k =? W_VTT)%Z; [reflexivity|].
  destruct (is_span_writer k) eqn:Hs.
  2:{ destruct (not_span_writer k Hs) as (D & G & L & S). rewrite D, S, L, G. reflexivity. }
  rewrite (entry_inst_span c k i1 Hf Hs), (entry_inst_span c k i2 Hf Hs).
  destruct (plan_core_inj _ _ (make_plan_last_indep k o false (wi_last (entry_inst c k i1))
                                 (wi_last (entry_inst c k i2)) (snap FUEL st1 s1))) as (A & B & C & D).
  cbv zeta. rewrite A, B, D.
  set (p2 := make_plan k o false (wi_last (entry_inst c k i2)) (snap FUEL st1 s1)) in *.
  destruct (k =? W_DFXP)%Z.
  { destruct (apply_slots st1 _ _ []) as [st2 lg]. cbv iota beta.
    destruct (p_err p2); reflexivity. }
  destruct (k =? W_SAMI)%Z.
  { destruct (apply_slots st1 _ _ []) as [st2 lg]. cbv iota beta.
    destruct (p_err p2); [reflexivity|]. destruct (sami_styles st2 s1 lg). reflexivity. }
  destruct (k =? W_LEGACY)%Z.
  { destruct (merge_all st1 s1 []) as [st2 lg]. cbv iota beta.
    destruct (_ && _); [reflexivity|].
    destruct (legacy_styles st2 _ lg). reflexivity. }
  destruct (k =? W_SINGLE)%Z; [|reflexivity].
  destruct (merge_all st1 s1 []) as [st2 lg]. cbv iota beta.
  destruct (single_assign st2 s1 _ lg) as [st3 lg3]. cbv iota beta.
  destruct (deepcopy (dc_fuel st3) st3 s1) as [[st4 s2]|]; [|reflexivity].
  destruct (apply_slots st4 _ _ lg3) as [st5 lg5]. cbv iota beta.
  destruct (p_err p2); reflexivity.
Qed.

(* store effect, result, footprint and copy count of a write are the same whatever the instance state at entry,
   once open_span is reset at entry (fix15).  `fresh object` = winst0, `used object` = any other state. *)
Theorem write_instance_independent : forall c k o i1 i2 st s,
  fix15 c = true ->
  let r1 := write c k o i1 st s in
  let r2 := write c k o i2 st s in
  wr_store r1 = wr_store r2 /\ wr_result r1 = wr_result r2 /\ wr_fp r1 = wr_fp r2 /\ wr_copies r1 = wr_copies r2.
Proof.
  intros c k o i1 i2 st s Hf r1 r2.
  pose proof (write_effect_instance_independent c k o i1 i2 st s Hf) as H.
  unfold effect in H. fold r1 r2 in H. inversion H. auto.
Qed.

(* ---- C09, clause 2 (continued): the result is a function of (writer kind, options, snapshot of the set) ----------- *)
(* the result of a write as a pure function of the snapshot t of the written set *)
Definition pure_result (k : Z) (o : wopts) (b : bool) (last : tree) (t : tree) : result out :=
  if ((k =? W_SRT) || (k =? W_MDVD) || (k =? W_SCC) || (k =? W_VTT))%Z then Ok (mkOut [] t)
  else if ((k =? W_DFXP) || (k =? W_SAMI) || (k =? W_SINGLE))%Z then
    let p := make_plan k o b last t in
    match p_err p with Some e => Err e | None => Ok (mkOut (p_tokens p) t) end
  else if (k =? W_LEGACY)%Z then
    if (match wo_lang o with TNone => false | _ => true end) && (match set_langs_t t with [] => true | _ => false end)
    then Err IndexError
    else Ok (mkOut (p_tokens (make_plan k o b last t)) t)
  else Err ENotImplemented.

Definition output_of (k : Z) (o : wopts) (t : tree) : result out := pure_result k o false TNone t.

Lemma pure_result_last_indep : forall k o b l1 l2 t, pure_result k o b l1 t = pure_result k o b l2 t.
Proof.
  intros. unfold pure_result.
  destruct (plan_core_inj _ _ (make_plan_last_indep k o b l1 l2 t)) as (A & B & C & D).
  cbv zeta. rewrite B, D. reflexivity.
Qed.

(* ---- the error exits of the plans are the modelled exceptions, never the model's own EOutOfFuel ------------------------ *)
Lemma tr_code_err : forall o c e, tr_code o c = Err e -> e <> EOutOfFuel.
Proof.
  intros o [c|] e H; unfold tr_code in H; [|discriminate H].
  destruct (negb (flag fT c)); [discriminate H|]. destruct (wo_rel o).
  - destruct (flag fA c && negb (wo_dims o)); [inversion H; subst; unfold ValueError; intros X; discriminate X|].
    destruct (wo_fit o && flag fT (relativized c) && flag fO (relativized c)); discriminate H.
  - destruct (wo_fit o); [|discriminate H]. destruct (flag fO c); [|discriminate H].
    destruct (flag fE c && flag fA c); [inversion H; subst; unfold ValueError; intros X; discriminate X|discriminate H].
Qed.

Lemma tr_scode_err : forall o sc e, tr_scode o sc = Err e -> e <> EOutOfFuel.
Proof.
  intros o [b c] e H. unfold tr_scode in H. cbn [fst snd] in H. destruct b; [|eapply tr_code_err; eauto].
  destruct c as [c|]; unfold tr_code_lang in H; [|discriminate H].
  destruct (flag fT c && wo_rel o); [|discriminate H].
  destruct (flag fA c && negb (wo_dims o)); [inversion H; subst; unfold ValueError; intros X; discriminate X|discriminate H].
Qed.

Lemma plan_slots_err : forall o codes sl e, plan_slots o codes = (sl, Some e) -> e <> EOutOfFuel.
Proof.
  intros o. induction codes as [|c t IH]; intros sl e H; simpl in H; [discriminate|].
  destruct (tr_scode o c) as [a|e'] eqn:E.
  - destruct (plan_slots o t) as [r e2]. inversion H; subst. eapply IH; reflexivity.
  - inversion H; subst. eapply tr_scode_err; eauto.
Qed.

Lemma make_plan_err : forall k o b l t e, p_err (make_plan k o b l t) = Some e -> e <> EOutOfFuel.
Proof.
  intros k o b l t e H. unfold make_plan in H.
  destruct (k =? W_DFXP)%Z.
  { destruct (plan_slots o _) as [sl [e1|]] eqn:E; simpl in H.
    - inversion H; subst. exact (plan_slots_err _ _ _ _ E).
    - destruct (caps_tokens o 4 None b _). discriminate. }
  destruct (k =? W_SINGLE)%Z.
  { destruct (plan_slots o _) as [sl [e1|]] eqn:E; simpl in H.
    - inversion H; subst. exact (plan_slots_err _ _ _ _ E).
    - destruct (caps_tokens o 4 _ b _). discriminate. }
  destruct (k =? W_LEGACY)%Z.
  { destruct (caps_tokens o 8 None b _). discriminate. }
  destruct (k =? W_SAMI)%Z; [|discriminate].
  destruct (plan_slots o (sami_codes t)) as [sl e1] eqn:E.
  assert (He : e1 = Some e -> e <> EOutOfFuel) by (intros ->; exact (plan_slots_err _ _ _ _ E)).
  destruct (tr_code o (tcode (tfield t 3))); [|apply He; exact H].
  destruct (sami_langs_before o (set_langs_t t)). destruct (sami_tokens o b l l0) as [[o1 l1] toks].
  apply He. exact H.
Qed.

Lemma pure_result_no_fuel : forall k o b l t, pure_result k o b l t <> Err EOutOfFuel.
Proof.
  intros k o b l t. unfold pure_result.
  destruct ((k =? W_SRT)%Z || (k =? W_MDVD)%Z || (k =? W_SCC)%Z || (k =? W_VTT)%Z); [discriminate|].
  destruct ((k =? W_DFXP)%Z || (k =? W_SAMI)%Z || (k =? W_SINGLE)%Z).
  { cbv zeta. destruct (p_err _) eqn:E; [|discriminate]. intros H. inversion H; subst. eapply make_plan_err; eauto. }
  destruct (k =? W_LEGACY)%Z; [|discriminate]. destruct (_ && _); discriminate.
Qed.

(* the store enters the result only through the snapshot of the written set: both deepcopy calls succeed
   (DeepcopyFacts.deepcopy_succeeds) and return a structure with the same snapshot (deepcopy_snapshot_eq) *)
Lemma write_result_pure : forall c k o i st s,
  wf st -> below (length st) s ->
  wr_result (write c k o i st s)
  = pure_result k o (wi_open (entry_inst c k i)) (wi_last (entry_inst c k i)) (snap FUEL st s).
Proof.
  intros c k o i st s Hwf Hb. unfold write, pure_result.
  destruct (((k =? W_VTT)%Z || (k =? W_SCC)%Z) && is_empty_set st s) eqn:Ee.
  { cbn [wr_result]. apply andb_true_iff in Ee. destruct Ee as [Ee _]. apply orb_true_iff in Ee.
    destruct Ee as [Ee|Ee]; rewrite Ee; repeat rewrite orb_true_r; reflexivity. }
  destruct (deepcopy_succeeds st s Hwf Hb) as (st1 & s1 & Edc). unfold dc_fuel. rewrite Edc.
  rewrite (deepcopy_snapshot_eq st _ s st1 s1 Hwf Hb Edc FUEL).
  destruct (k =? W_SRT)%Z; [reflexivity|].
  destruct (k =? W_MDVD)%Z; [reflexivity|].
  destruct (k =? W_SCC)%Z; [reflexivity|].
  destruct (k =? W_VTT)%Z; [reflexivity|].
  cbn [orb].
  destruct (k =? W_DFXP)%Z.
  { cbn [orb]. cbv zeta. destruct (apply_slots st1 _ _ []). destruct (p_err _); reflexivity. }
  destruct (k =? W_SAMI)%Z.
  { cbn [orb]. cbv zeta. destruct (apply_slots st1 _ _ []).
    destruct (p_err _); [reflexivity|]. destruct (sami_styles _ _ _). reflexivity. }
  destruct (k =? W_LEGACY)%Z eqn:K8.
  { destruct (k =? W_SINGLE)%Z eqn:K7.
    { exfalso. apply Z.eqb_eq in K7, K8. unfold W_SINGLE, W_LEGACY in *. lia. }
    cbn [orb]. destruct (merge_all st1 s1 []).
    match goal with |- context [if ?b then mkWres _ _ (Err IndexError) _ _ else _] => destruct b end;
      [reflexivity|]. cbv zeta. destruct (legacy_styles _ _ _). reflexivity. }
  destruct (k =? W_SINGLE)%Z eqn:K7; [|reflexivity].
  cbn [orb]. cbv zeta.
  destruct (deepcopy_inr st st _ s st1 s1 (inv_refl st) Edc) as (I1 & L1 & Hs1).
  destruct (merge_all st1 s1 []) as [st2 lg] eqn:Em.
  destruct (merge_all_inv _ _ _ _ _ _ I1 Hs1 Em) as [A LA].
  destruct (single_assign st2 s1 _ lg) as [st3 lg3] eqn:Es.
  destruct (single_assign_inv _ _ _ _ _ _ _ A (inr_mono _ _ _ _ Hs1 LA) Es) as [B LB].
  assert (Hb3 : below (length st3) s1) by (eapply inr_below; eapply inr_mono; [exact Hs1|lia]).
  destruct (deepcopy_succeeds st3 s1 (inv_wf _ _ Hwf B) Hb3) as (st4 & s2 & Edc2). rewrite Edc2.
  destruct (apply_slots st4 _ _ _). destruct (p_err _); reflexivity.
Qed.

Theorem write_never_out_of_fuel : forall c k o i st s,
  wf st -> below (length st) s -> wr_result (write c k o i st s) <> Err EOutOfFuel.
Proof. intros. rewrite write_result_pure by assumption. apply pure_result_no_fuel. Qed.

(* C09: on a well-formed store the result of write() IS output_of (kind, options, snapshot): nothing else of the store,
   nothing of the writer object's past *)
Theorem write_result_is_output_of : forall c k o i st s,
  fix15 c = true -> wf st -> below (length st) s ->
  wr_result (write c k o i st s) = output_of k o (snap FUEL st s).
Proof.
  intros c k o i st s Hf Hwf Hb. rewrite (write_result_pure c k o i st s Hwf Hb). unfold output_of.
  rewrite (pure_result_last_indep k o _ (wi_last (entry_inst c k i)) TNone).
  destruct (is_span_writer k) eqn:Hs.
  - rewrite (entry_inst_span c k i Hf Hs). reflexivity.
  - destruct (not_span_writer k Hs) as (D & G & L & S).
    unfold pure_result. rewrite D, S, G, L. cbn [orb].
    destruct ((k =? W_SRT)%Z || (k =? W_MDVD)%Z || (k =? W_SCC)%Z || (k =? W_VTT)%Z); reflexivity.
Qed.

Theorem write_result_function_of_snapshot : forall c k o i st s,
  fix15 c = true -> wf st -> below (length st) s ->
  wr_result (write c k o i st s) = Err EOutOfFuel \/
  wr_result (write c k o i st s) = output_of k o (snap FUEL st s).
Proof. intros. right. apply write_result_is_output_of; assumption. Qed.

Corollary write_same_snapshot_same_result_wf : forall c k o i1 i2 st1 st2 s1 s2,
  fix15 c = true -> wf st1 -> wf st2 -> below (length st1) s1 -> below (length st2) s2 ->
  snap FUEL st1 s1 = snap FUEL st2 s2 ->
  wr_result (write c k o i1 st1 s1) = wr_result (write c k o i2 st2 s2).
Proof.
  intros. rewrite !write_result_is_output_of by assumption. congruence.
Qed.

Corollary write_same_snapshot_same_result : forall c k o i1 i2 st1 st2 s1 s2,
  fix15 c = true -> wf st1 -> wf st2 -> below (length st1) s1 -> below (length st2) s2 ->
  snap FUEL st1 s1 = snap FUEL st2 s2 ->
  wr_result (write c k o i1 st1 s1) <> Err EOutOfFuel ->
  wr_result (write c k o i2 st2 s2) <> Err EOutOfFuel ->
  wr_result (write c k o i1 st1 s1) = wr_result (write c k o i2 st2 s2).
Proof. intros. apply write_same_snapshot_same_result_wf; assumption. Qed.

Definition is_write (o : op) : bool := match o with OWrite _ _ _ _ => true | _ => false end.

Definition wf_world (w : world) : Prop :=
  wf (w_st w) /\ Forall (below (length (w_st w))) (w_sets w).

Lemma nth_error_Forall : forall (A : Type) (P : A -> Prop) (l : list A) n x,
  Forall P l -> nth_error l n = Some x -> P x.
Proof. intros A P l n x H Hn. rewrite Forall_forall in H. apply H. eapply nth_error_In; eauto. Qed.

Lemma inv_step_world : forall w st' rs ws,
  wf_world w -> inv (w_st w) st' ->
  wf_world (mkWorld st' (w_sets w) rs ws) /\
  (forall fuel v, below (length (w_st w)) v -> snap fuel st' v = snap fuel (w_st w) v).
Proof.
  intros w st' rs ws [Hwf Hsets] Hinv. split; [split; cbn [w_st w_sets]|].
  - eapply inv_wf; eauto.
  - eapply Forall_impl; [|exact Hsets]. intros v Hv. eapply below_mono; [exact Hv|]. apply (inv_len _ _ Hinv).
  - intros fuel v Hv. apply snap_agree; auto. apply (inv_agree _ _ Hinv).
Qed.

(* one write step inside any history: every caption set keeps its snapshot, the world stays well formed *)
Theorem step_write_preserves : forall c w wid k o si,
  wf_world w ->
  let w' := fst (step c w (OWrite wid k o si)) in
  wf_world w' /\ w_sets w' = w_sets w /\
  (forall fuel v, below (length (w_st w)) v -> snap fuel (w_st w') v = snap fuel (w_st w) v).
Proof.
  intros c w wid k o si Hw. cbv zeta. unfold step.
  destruct (nth_error (w_sets w) si) as [s|] eqn:Es; cbn [fst w_st w_sets].
  - set (wi := match lookup wid (w_writers w) with Some x => x | None => winst0 end).
    destruct (inv_step_world w _ (w_readers w) (set_assoc wid (wr_inst (write c k o wi (w_st w) s)) (w_writers w)) Hw
                (write_inv c k o wi (w_st w) s)) as [A B]. split; [exact A|]. split; [reflexivity|exact B].
  - split; [exact Hw|]. split; reflexivity.
Qed.

(* any history of writes (any writers, any options, shared or fresh writer objects, error exits included) *)
Theorem writes_preserve_all_sets : forall c ops w,
  wf_world w -> forallb is_write ops = true ->
  let w' := run_world c w ops in
  wf_world w' /\ w_sets w' = w_sets w /\ (length (w_st w) <= length (w_st w'))%nat /\
  (forall fuel v, below (length (w_st w)) v -> snap fuel (w_st w') v = snap fuel (w_st w) v).
Proof.
  intros c ops. induction ops as [|o t IH]; intros w Hw Hall; cbv zeta.
  - simpl. split; [exact Hw|]. split; [reflexivity|]. split; [lia|]. intros. reflexivity.
  - simpl in Hall. apply andb_true_iff in Hall. destruct Hall as [Ho Ht].
    destruct o as [| |wid k o si|]; try discriminate.
    cbn [run_world].
    destruct (step_write_preserves c w wid k o si Hw) as (W1 & S1 & P1).
    set (w1 := fst (step c w (OWrite wid k o si))) in *.
    assert (L1 : (length (w_st w) <= length (w_st w1))%nat).
    { unfold w1, step. destruct (nth_error (w_sets w) si); cbn [fst w_st]; [|lia].
      apply (inv_len _ _ (write_inv _ _ _ _ _ _)). }
    destruct (IH w1 W1 Ht) as (W2 & S2 & L2 & P2).
    split; [exact W2|]. split; [congruence|]. split; [lia|].
    intros fuel v Hv. rewrite P2; [apply P1; exact Hv|]. eapply below_mono; eauto.
Qed.

Corollary writes_preserve_snapshots : forall c ops w,
  wf_world w -> forallb is_write ops = true ->
  forall fuel, map (snap fuel (w_st (run_world c w ops))) (w_sets (run_world c w ops))
             = map (snap fuel (w_st w)) (w_sets w).
Proof.
  intros c ops w Hw Hall fuel.
  destruct (writes_preserve_all_sets c ops w Hw Hall) as (W & S & L & P). rewrite S.
  apply map_ext_in. intros v Hv. apply P. destruct Hw as [_ Hs]. rewrite Forall_forall in Hs. auto.
Qed.

(* output (history ++ [write]) = output [write]: after ANY history of writes, whatever happened to the writer object,
   the result of writing set s is output_of (kind, options, snapshot of s BEFORE the history) *)
Theorem write_history_independent_wf : forall c ops w k o wi si s,
  fix15 c = true -> wf_world w -> forallb is_write ops = true -> nth_error (w_sets w) si = Some s ->
  wr_result (write c k o wi (w_st (run_world c w ops)) s) = output_of k o (snap FUEL (w_st w) s).
Proof.
  intros c ops w k o wi si s Hf Hw Hall Hs.
  destruct (writes_preserve_all_sets c ops w Hw Hall) as (W & S & L & P).
  assert (Hb : below (length (w_st w)) s) by (eapply nth_error_Forall; [exact (proj2 Hw)|exact Hs]).
  rewrite <- (P FUEL s Hb).
  apply write_result_is_output_of; auto; [exact (proj1 W)|eapply below_mono; eauto].
Qed.

Theorem write_history_independent : forall c ops w k o wi si s,
  fix15 c = true -> wf_world w -> forallb is_write ops = true ->
  nth_error (w_sets w) si = Some s ->
  let w' := run_world c w ops in
  wr_result (write c k o wi (w_st w') s) = Err EOutOfFuel \/
  wr_result (write c k o wi (w_st w') s) = output_of k o (snap FUEL (w_st w) s).
Proof. intros. right. eapply write_history_independent_wf; eassumption. Qed.

Lemma wf_store0 : wf store0.
Proof.
  intros l o H. unfold get, store0 in H.
  destruct l as [|[|l]]; simpl in H.
  - inversion H; subst. constructor.
  - inversion H; subst. constructor.
  - destruct l; discriminate.
Qed.

Lemma wf_world0 : wf_world world0.
Proof. split; [exact wf_store0|constructor]. Qed.

(* ---- C09 determinism: the output does not depend on how a hash set enumerates ------------------------------------------ *)
Lemma existsb_perm : forall (A : Type) (f : A -> bool) l l', Permutation l l' -> existsb f l = existsb f l'.
Proof.
  intros A f l l' H. induction H; simpl; auto.
  - rewrite IHPermutation. reflexivity.
  - destruct (f x), (f y); reflexivity.
  - congruence.
Qed.

(* the hash set of assigned region ids is only asked for membership: ANY enumeration order gives the same document *)
Theorem regions_independent_of_set_enumeration : forall enum o t,
  (forall l, Permutation (enum l) l) ->
  dfxp_regions (fun l => l) enum o t = dfxp_regions (fun l => l) (fun l => l) o t.
Proof.
  intros enum o t H. unfold dfxp_regions, kept_regions. f_equal.
  apply filter_ext. intros p. apply existsb_perm. apply H.
Qed.

(* ... whereas the container of unique layouts MUST be iterated in a fixed order: with a hash-set-like enumeration
   (some permutation) of it the region ids change - the real code has to use an ordered container there (_OrderedSet) *)
Theorem regions_depend_on_unique_layout_order_refuted :
  exists iter codes, (forall l, Permutation (iter l) l) /\
    region_ids iter codes <> region_ids (fun l => l) codes.
Proof.
  exists (@rev Z), [Some 18%Z; Some (256 + 18)%Z]. split.
  - intros l. apply Permutation_sym. apply Permutation_rev.
  - vm_compute. discriminate.
Qed.
