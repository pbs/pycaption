(* C03 / C11, payload round trip on the models: what the strict parser builds from the payload a writer model
   assembles is well-formed for flat balanced spans, keeps every visible character and every break in order, and the
   reader model returns from it the same characters with the same style flags. *)
From Coq Require Import List ZArith Bool Lia.
From PV Require Import lib.Sx lib.Str lib.StrFacts model.TextNodes model.TextWrite model.TextRead.
From PV Require Import spec.SpecTextXml spec.SpecTextStyle.
From PV Require Import proofs.TextReadFacts proofs.TextPayloadFacts proofs.TextStyleFacts.
From PV Require lib.Dec.
Import ListNotations.
Open Scope Z_scope.

Definition span_tok (tk : xtok) : bool :=
  match tk with
  | TkText _ => true
  | TkOpen n _ => str_eqb n (lit "span")
  | TkClose n => str_eqb n (lit "span")
  | TkEmpty n _ => str_eqb n (lit "br")
  end.

Fixpoint tdepth (toks : list xtok) (d : nat) : option nat :=
  match toks with
  | [] => Some d
  | TkOpen _ _ :: t => tdepth t (S d)
  | TkClose _ :: t => match d with O => None | S d' => tdepth t d' end
  | _ :: t => tdepth t d
  end.

Lemma tdepth_app : forall a b d, tdepth (a ++ b) d = match tdepth a d with Some d' => tdepth b d' | None => None end.
Proof.
  induction a as [|tk a IH]; intros b d; [reflexivity|]. destruct tk; cbn [app tdepth]; try apply IH.
  destruct d; [reflexivity|apply IH].
Qed.

Definition stack_ok (stack : list (str * list (str * str) * list xnode)) : Prop :=
  Forall (fun e => fst (fst e) = lit "span") stack.

Lemma xbuild_ok : forall toks stack cur, forallb span_tok toks = true -> stack_ok stack ->
  tdepth toks (length stack) = Some 0%nat -> exists t, xbuild toks stack cur = Some t.
Proof.
  induction toks as [|tk toks IH]; intros stack cur Hs Hst Hd.
  - cbn [tdepth] in Hd. injection Hd as Hd. destruct stack; [|discriminate]. eexists. reflexivity.
  - cbn [forallb] in Hs. apply andb_true_iff in Hs. destruct Hs as [Htk Hs].
    destruct tk as [s|n a|n|n a]; cbn [tdepth xbuild span_tok] in *.
    + apply IH; assumption.
    + apply (IH ((n, a, cur) :: stack) []); [exact Hs| |exact Hd].
      constructor; [apply StrFacts.str_eqb_eq; exact Htk|exact Hst].
    + destruct stack as [|[[n' a'] prev] stack']; [discriminate|]. cbn [length] in Hd.
      inversion Hst as [|e l He Hl]; subst. cbn [fst] in He. subst n'. rewrite Htk. apply IH; assumption.
    + apply IH; assumption.
Qed.

Definition tok_flat1 (tk : xtok) : str :=
  match tk with TkText s => s | TkEmpty _ _ => [brk_mark] | _ => [] end.
Definition tok_flat (toks : list xtok) : str := flat_map tok_flat1 toks.

Fixpoint unwind_flat (stack : list (str * list (str * str) * list xnode)) (cur : list xnode) : str :=
  match stack with
  | [] => flat_map tree_flat (rev cur)
  | (_, _, prev) :: st => unwind_flat st prev ++ flat_map tree_flat (rev cur)
  end.

Lemma unwind_flat_cons : forall stack x cur, unwind_flat stack (x :: cur) = unwind_flat stack cur ++ tree_flat x.
Proof.
  intros stack x cur. destruct stack as [|[[n a] prev] st]; cbn [unwind_flat rev]; rewrite flat_map_app; cbn [flat_map];
    rewrite app_nil_r; [reflexivity|rewrite app_assoc; reflexivity].
Qed.

Lemma xbuild_flat : forall toks stack cur t, forallb span_tok toks = true -> stack_ok stack ->
  xbuild toks stack cur = Some t -> flat_map tree_flat t = unwind_flat stack cur ++ tok_flat toks.
Proof.
  induction toks as [|tk toks IH]; intros stack cur t Hs Hst H.
  - cbn [xbuild] in H. destruct stack; [|discriminate]. injection H as <-. cbn. rewrite app_nil_r. reflexivity.
  - cbn [forallb] in Hs. apply andb_true_iff in Hs. destruct Hs as [Htk Hs]. unfold tok_flat. cbn [flat_map]. fold (tok_flat toks).
    destruct tk as [s|n a|n|n a]; cbn [xbuild span_tok tok_flat1] in *.
    + rewrite (IH _ _ _ Hs Hst H), unwind_flat_cons, <- app_assoc. reflexivity.
    + assert (Hst2 : stack_ok ((n, a, cur) :: stack)) by (constructor; [apply StrFacts.str_eqb_eq; exact Htk|exact Hst]).
      rewrite (IH _ _ _ Hs Hst2 H). cbn [unwind_flat rev flat_map]. rewrite app_nil_r. reflexivity.
    + destruct stack as [|[[n' a'] prev] stack']; [discriminate|].
      inversion Hst as [|e l He Hl]; subst. cbn [fst] in He. subst n'. rewrite Htk in H.
      rewrite (IH _ _ _ Hs Hl H), unwind_flat_cons. cbn [tree_flat unwind_flat].
      apply StrFacts.str_eqb_eq in Htk. subst n. change (str_eqb (lit "span") (lit "br")) with false. cbv iota.
      reflexivity.
    + rewrite (IH _ _ _ Hs Hst H), unwind_flat_cons, <- app_assoc. cbn [tree_flat]. rewrite Htk. reflexivity.
Qed.

Definition bn (b : bool) : nat := if b then 1%nat else 0%nat.
Definition o_ok (out : list xtok) (open : bool) : Prop :=
  forallb span_tok out = true /\ tdepth (rev out) 0 = Some (bn open).

Lemma flush_ok : forall cur out o, o_ok out o -> o_ok (flush cur out) o.
Proof.
  intros cur out o [H1 H2]. unfold flush. destruct cur; [split; assumption|]. split.
  - cbn [forallb span_tok]. exact H1.
  - cbn [rev]. rewrite tdepth_app, H2. reflexivity.
Qed.

Definition a_ok (a : ast) (open : bool) : Prop := o_ok (a_out a) open.

Lemma a_ok_rstrip : forall a o, a_ok a o -> a_ok (a_rstrip a) o. Proof. intros; exact H. Qed.

(* a_ok looks at the tokens only: a tag token after the flush, whatever happens to the pending text around it *)
Lemma a_ok_mark : forall tk a o o', a_ok a o -> span_tok tk = true -> tdepth [tk] (bn o) = Some (bn o') ->
  a_ok (a_mark tk a) o'.
Proof.
  intros tk a o o' H Htk Hd. destruct (flush_ok (a_cur a) (a_out a) o H) as [H1 H2]. split.
  - cbn [a_mark a_out forallb]. rewrite Htk. exact H1.
  - cbn [a_mark a_out rev]. rewrite tdepth_app, H2. exact Hd.
Qed.
Lemma a_ok_br : forall a o, a_ok a o -> a_ok (a_br a) o.
Proof. intros a o H. apply (a_ok_mark (TkEmpty (lit "br") []) (a_rstrip a) o o H eq_refl). destruct o; reflexivity. Qed.
Lemma a_ok_close : forall a, a_ok a true -> a_ok (a_close a) false.
Proof. intros a H. exact (a_ok_mark (TkClose (lit "span")) a true false H eq_refl eq_refl). Qed.
Lemma a_ok_close_sp : forall a, a_ok a true -> a_ok (a_close_sp a) false.
Proof. intros a H. exact (a_ok_mark (TkClose (lit "span")) (a_rstrip a) true false H eq_refl eq_refl). Qed.

Definition opt_some {A} (o : option A) : bool := match o with Some _ => true | None => false end.
Definition flag_of (atok : style -> option (list (str * str))) (cur : option style) : bool :=
  match cur with Some st => opt_some (atok st) | None => false end.

(* along flat balanced spans: the open flag says whether the current span was written, depth = flag *)
Lemma abs_run_ok : forall sfx acl atok, (forall a, a_ok a true -> a_ok (acl a) false) ->
  forall ns cur, flat_aux ns cur = true -> forall a, a_ok a (flag_of atok cur) ->
  let r := fold_left (abs_step sfx acl atok) ns (a, flag_of atok cur) in a_ok (fst r) false /\ snd r = false.
Proof.
  intros sfx acl atok Hacl. refine (flat_aux_ind _ _ _ _ _ _); cbn [fold_left abs_step flag_of].
  - intros a Ha. split; [exact Ha|reflexivity].
  - intros s ns cur IH a Ha. apply IH. exact Ha.
  - intros ns cur IH a Ha. apply IH, a_ok_br, Ha.
  - intros st ns IH a Ha. cbn [flag_of] in IH. destruct (atok st) as [attrs|]; apply IH; [|exact Ha].
    exact (a_ok_mark (TkOpen (lit "span") attrs) a false true Ha eq_refl eq_refl).
  - intros st0 st ns _ IH a Ha. destruct (opt_some (atok st0)); apply IH; [apply Hacl|]; exact Ha.
Qed.

Theorem abs_tokens_balanced : forall sfx acl atok ns, (forall a, a_ok a true -> a_ok (acl a) false) ->
  flat_balanced ns = true ->
  forallb span_tok (abs_tokens sfx acl atok ns) = true /\ tdepth (abs_tokens sfx acl atok ns) 0 = Some 0%nat.
Proof.
  intros sfx acl atok ns Hacl H. unfold abs_tokens, abs_run.
  destruct (abs_run_ok sfx acl atok Hacl ns None H (mkA [] [])) as [[H1 H2] _]; [split; reflexivity|].
  cbn [flag_of] in *. set (a := fst (fold_left (abs_step sfx acl atok) ns (mkA [] [], false))) in *.
  destruct (flush_ok (a_cur (a_rstrip a)) (a_out (a_rstrip a)) false (conj H1 H2)) as [F1 F2].
  split; [rewrite forallb_rev; exact F1|exact F2].
Qed.

Definition a_flat (a : ast) : str := tok_flat (rev (a_out a)) ++ rev (a_cur a).

Lemma tok_flat_app : forall x y, tok_flat (x ++ y) = tok_flat x ++ tok_flat y.
Proof. intros. unfold tok_flat. apply flat_map_app. Qed.

Lemma flat_flush : forall cur out, tok_flat (rev (flush cur out)) = tok_flat (rev out) ++ rev cur.
Proof.
  intros cur out. unfold flush. destruct cur as [|c cur]; [cbn [rev]; rewrite app_nil_r; reflexivity|].
  cbn [rev]. rewrite tok_flat_app. unfold tok_flat at 2. cbn [flat_map tok_flat1]. rewrite app_nil_r. reflexivity.
Qed.

Lemma vis_drop_space_rev : forall cur, vis (rev (drop_while is_space cur)) = vis (rev cur).
Proof.
  induction cur as [|c cur IH]; [reflexivity|]. cbn [drop_while]. destruct (is_space c) eqn:E; [|reflexivity].
  rewrite IH. cbn [rev]. rewrite vis_app. unfold vis at 3. cbn [filter]. rewrite E. cbn [negb]. rewrite app_nil_r. reflexivity.
Qed.

Lemma vis_lit : forall ws, forallb lit_space ws = true -> vis ws = [].
Proof.
  induction ws as [|w ws IH]; intros H; [reflexivity|]. cbn [forallb] in H. apply andb_true_iff in H. destruct H as [Hw Hws].
  unfold vis. cbn [filter]. assert (is_space w = true) by (unfold lit_space in Hw; unfold is_space; lia).
  rewrite H. cbn [negb]. apply IH. exact Hws.
Qed.

Lemma vis_flat_text : forall s a, vis (a_flat (a_text s a)) = vis (a_flat a) ++ vis s.
Proof. intros. unfold a_flat, a_text. cbn [a_cur a_out]. rewrite rev_app_distr, rev_involutive, !vis_app, app_assoc. reflexivity. Qed.
Lemma vis_flat_lit : forall ws a, forallb lit_space ws = true -> vis (a_flat (a_lit ws a)) = vis (a_flat a).
Proof.
  intros. unfold a_flat, a_lit. cbn [a_cur a_out]. rewrite rev_app_distr, rev_involutive, !vis_app, (vis_lit ws H), app_nil_r. reflexivity.
Qed.
Lemma vis_flat_rstrip : forall a, vis (a_flat (a_rstrip a)) = vis (a_flat a).
Proof. intros. unfold a_flat, a_rstrip. cbn [a_cur a_out]. rewrite !vis_app, vis_drop_space_rev. reflexivity. Qed.
Lemma vis_flat_mark : forall tk a, vis (a_flat (a_mark tk a)) = vis (a_flat a) ++ vis (tok_flat1 tk).
Proof.
  intros. unfold a_flat, a_mark. cbn [a_cur a_out rev]. rewrite tok_flat_app, flat_flush. unfold tok_flat at 2.
  cbn [flat_map]. rewrite !app_nil_r, !vis_app. reflexivity.
Qed.

Lemma vis_brk : vis [brk_mark] = [brk_mark]. Proof. reflexivity. Qed.

Lemma vis_close : forall x, vis (a_flat (a_close x)) = vis (a_flat x).
Proof. intros x. unfold a_close. rewrite vis_flat_mark. cbn. rewrite app_nil_r. reflexivity. Qed.
Lemma vis_close_sp : forall x, vis (a_flat (a_close_sp x)) = vis (a_flat x).
Proof.
  intros x. unfold a_close_sp. rewrite vis_flat_lit by reflexivity. rewrite vis_flat_mark, vis_flat_rstrip. cbn. rewrite app_nil_r. reflexivity.
Qed.

Lemma abs_run_vis : forall sfx acl atok, (forall x, vis (a_flat (acl x)) = vis (a_flat x)) ->
  forall ns a open, forallb lit_space sfx = true ->
  vis (a_flat (fst (fold_left (abs_step sfx acl atok) ns (a, open)))) = vis (a_flat a) ++ vis (node_flat ns).
Proof.
  intros sfx acl atok Hclose ns a open Hsfx. revert a open. induction ns as [|n ns IH]; intros a open.
  - cbn. rewrite app_nil_r. reflexivity.
  - cbn [fold_left]. unfold node_flat. cbn [flat_map]. fold (node_flat ns). rewrite vis_app.
    destruct n as [s| |[] st]; cbn [abs_step node_flat1].
    + rewrite IH, vis_flat_lit by exact Hsfx. rewrite vis_flat_text, app_assoc. reflexivity.
    + rewrite IH. unfold a_br. rewrite vis_flat_lit by reflexivity. rewrite vis_flat_mark, vis_flat_rstrip, app_assoc. reflexivity.
    + cbn [vis filter app]. destruct (atok st) as [attrs|].
      * rewrite IH, vis_flat_mark. cbn [tok_flat1]. change (vis []) with (@nil Z). rewrite app_nil_r.
        destruct open; [rewrite Hclose|]; reflexivity.
      * apply IH.
    + cbn [vis filter app]. destruct open; rewrite IH; [rewrite Hclose|]; reflexivity.
Qed.

(* every visible character of every text node and every break, in order, nothing else *)
Theorem abs_tokens_visible : forall sfx acl atok ns, (forall x, vis (a_flat (acl x)) = vis (a_flat x)) ->
  forallb lit_space sfx = true ->
  vis (tok_flat (abs_tokens sfx acl atok ns)) = vis (node_flat ns).
Proof.
  intros sfx acl atok ns Hcl Hsfx. unfold abs_tokens, abs_run.
  set (a := fst (fold_left (abs_step sfx acl atok) ns (mkA [] [], false))).
  cbv zeta. rewrite flat_flush.
  change (tok_flat (rev (a_out (a_rstrip a))) ++ rev (a_cur (a_rstrip a))) with (a_flat (a_rstrip a)).
  rewrite vis_flat_rstrip. unfold a. rewrite (abs_run_vis sfx acl atok Hcl) by exact Hsfx. reflexivity.
Qed.

(* ---- the reader models on trees built from span / br tokens ------------------------------------------------------ *)
Definition somes (stk : list (option style)) : list style :=
  flat_map (fun o => match o with Some s => [s] | None => [] end) stk.

Section reader.
  Variable rd : xnode -> list node.
  Variable est : list (str * str) -> option style.
  Hypothesis rd_text : forall s, rd (XText s) = match text_node true s with Some t => [NText t] | None => [] end.
  Hypothesis rd_br : forall a k, rd (XElem (lit "br") a k) = [NBreak].
  Hypothesis rd_span : forall a k, rd (XElem (lit "span") a k) =
    match est a with Some st => [NStyle true st] ++ flat_map rd k ++ [NStyle false st] | None => flat_map rd k end.

  Definition open_piece (o : option style) : list node := match o with Some st => [NStyle true st] | None => [] end.
  Definition close_piece (o : option style) : list node := match o with Some st => [NStyle false st] | None => [] end.

  Fixpoint tok_nodes (toks : list xtok) (stk : list (option style)) : list node :=
    match toks with
    | [] => []
    | TkText s :: t => rd (XText s) ++ tok_nodes t stk
    | TkEmpty _ _ :: t => NBreak :: tok_nodes t stk
    | TkOpen _ a :: t => open_piece (est a) ++ tok_nodes t (est a :: stk)
    | TkClose _ :: t => close_piece (hd None stk) ++ tok_nodes t (tl stk)
    end.

  Fixpoint unwind_nodes (stack : list (str * list (str * str) * list xnode)) (cur : list xnode) : list node :=
    match stack with
    | [] => flat_map rd (rev cur)
    | (_, a, prev) :: st => unwind_nodes st prev ++ open_piece (est a) ++ flat_map rd (rev cur)
    end.

  Lemma unwind_nodes_cons : forall stack x cur, unwind_nodes stack (x :: cur) = unwind_nodes stack cur ++ rd x.
  Proof.
    intros stack x cur. destruct stack as [|[[n a] prev] st]; cbn [unwind_nodes rev]; rewrite flat_map_app; cbn [flat_map];
      rewrite app_nil_r; [reflexivity|rewrite !app_assoc; reflexivity].
  Qed.

  Lemma xbuild_nodes : forall toks stack cur t, forallb span_tok toks = true -> stack_ok stack ->
    xbuild toks stack cur = Some t ->
    flat_map rd t = unwind_nodes stack cur ++ tok_nodes toks (map (fun e => est (snd (fst e))) stack).
  Proof.
    induction toks as [|tk toks IH]; intros stack cur t Hs Hst H.
    - cbn [xbuild] in H. destruct stack; [|discriminate]. injection H as <-. cbn. rewrite app_nil_r. reflexivity.
    - cbn [forallb] in Hs. apply andb_true_iff in Hs. destruct Hs as [Htk Hs].
      destruct tk as [s|n a|n|n a]; cbn [xbuild span_tok tok_nodes] in *.
      + rewrite (IH _ _ _ Hs Hst H), unwind_nodes_cons, <- app_assoc. reflexivity.
      + assert (Hst2 : stack_ok ((n, a, cur) :: stack)) by (constructor; [apply StrFacts.str_eqb_eq; exact Htk|exact Hst]).
        rewrite (IH _ _ _ Hs Hst2 H). cbn [unwind_nodes rev flat_map map fst snd]. rewrite app_nil_r, <- !app_assoc. reflexivity.
      + destruct stack as [|[[n' a'] prev] stack']; [discriminate|].
        inversion Hst as [|e l He Hl]; subst. cbn [fst] in He. subst n'. rewrite Htk in H.
        rewrite (IH _ _ _ Hs Hl H), unwind_nodes_cons. apply StrFacts.str_eqb_eq in Htk. subst n. rewrite rd_span.
        cbn [unwind_nodes map fst snd hd tl]. destruct (est a') as [st|]; cbn [open_piece close_piece app];
          rewrite <- ?app_assoc; cbn [app]; rewrite <- ?app_assoc; reflexivity.
      + rewrite (IH _ _ _ Hs Hst H), unwind_nodes_cons, <- app_assoc. apply StrFacts.str_eqb_eq in Htk. subst n. rewrite rd_br. reflexivity.
  Qed.

  Fixpoint tflags (toks : list xtok) (stk : list (option style)) : list (Z * flag3) :=
    match toks with
    | [] => []
    | TkText s :: t => map (fun c => (c, stack_flags (somes stk))) (vis s) ++ tflags t stk
    | TkEmpty _ _ :: t => tflags t stk
    | TkOpen _ a :: t => tflags t (est a :: stk)
    | TkClose _ :: t => tflags t (tl stk)
    end.
  Fixpoint tstack (toks : list xtok) (stk : list (option style)) : list (option style) :=
    match toks with
    | [] => stk
    | TkOpen _ a :: t => tstack t (est a :: stk)
    | TkClose _ :: t => tstack t (tl stk)
    | _ :: t => tstack t stk
    end.

  Lemma tflags_app : forall a b stk, tflags (a ++ b) stk = tflags a stk ++ tflags b (tstack a stk).
  Proof.
    induction a as [|tk a IH]; intros b stk; [reflexivity|]. destruct tk; cbn [app tflags tstack]; rewrite ?IH, <- ?app_assoc; reflexivity.
  Qed.
  Lemma tstack_app : forall a b stk, tstack (a ++ b) stk = tstack b (tstack a stk).
  Proof. induction a as [|tk a IH]; intros b stk; [reflexivity|]. destruct tk; cbn [app tstack]; apply IH. Qed.

  Lemma flags_tok_nodes : forall toks stk, flags_aux (tok_nodes toks stk) (somes stk) = tflags toks stk.
  Proof.
    induction toks as [|tk toks IH]; intros stk; [reflexivity|]. destruct tk as [s|n a|n|n a]; cbn [tok_nodes tflags].
    - rewrite rd_text. pose proof (vis_text_node s) as V.
      destruct (text_node true s) as [t|] eqn:E.
      + cbn [app flags_aux]. rewrite IH. fold (vis t). rewrite V. reflexivity.
      + cbn [app]. rewrite IH. rewrite <- V. reflexivity.
    - destruct (est a) as [st|] eqn:E; cbn [open_piece app flags_aux].
      + rewrite <- (IH (Some st :: stk)). reflexivity.
      + rewrite <- (IH (None :: stk)). reflexivity.
    - destruct stk as [|[st|] stk']; cbn [hd tl close_piece app flags_aux somes flat_map]; apply IH.
    - cbn [flags_aux]. apply IH.
  Qed.
End reader.

(* ---- flags along the abstract writer ------------------------------------------------------------------------------ *)
Definition mflags (m : flag3) (l : list (Z * flag3)) : list (Z * flag3) := map (fun p => (fst p, mask3 m (snd p))) l.
Definition cfl (m : flag3) (stk : list (option style)) : flag3 := mask3 m (stack_flags (somes stk)).

Lemma mflags_app : forall m a b, mflags m (a ++ b) = mflags m a ++ mflags m b.
Proof. intros. unfold mflags. apply map_app. Qed.

Lemma flag3_eqb_refl : forall f, flag3_eqb f f = true.
Proof. intros [[[] []] []]; reflexivity. Qed.

Lemma mask3_idem : forall m f, mask3 m (mask3 m f) = mask3 m f.
Proof. intros [[[] []] []] [[[] []] []]; reflexivity. Qed.

Lemma flags_eqb_of_mflags : forall m A B, mflags m A = mflags m B -> flags_eqb m A B = true.
Proof.
  intros m. induction A as [|[c f] A IH]; intros [|[d g] B] H; cbn [mflags map] in H; try discriminate; [reflexivity|].
  injection H as Hc Hf Hr. cbn [fst snd] in *. subst d. cbn [flags_eqb]. rewrite Z.eqb_refl, Hf, flag3_eqb_refl. cbn [andb].
  apply IH. exact Hr.
Qed.

Section writer_flags.
  Variable m : flag3.
  Variable est : list (str * str) -> option style.
  Variable sfx : str.
  Variable acl : ast -> ast.
  Variable atok : style -> option (list (str * str)).
  Variable dom : style -> bool.

  Definition tstk_of (cur : option style) : list (option style) :=
    match cur with
    | Some st => match atok st with Some attrs => [est attrs] | None => [] end
    | None => []
    end.
  Definition nstk_of (cur : option style) : list style := match cur with Some st => [st] | None => [] end.

  Hypothesis agree : forall st, dom st = true -> mask3 m (stack_flags [st]) = cfl m (tstk_of (Some st)).

  Definition shown (a : ast) (tstk : list (option style)) : list (Z * flag3) :=
    mflags m (tflags est (rev (a_out a)) []) ++ map (fun c => (c, cfl m tstk)) (vis (rev (a_cur a))).

  Lemma map_vis_app : forall (f : flag3) x y,
    map (fun c => (c, f)) (vis (x ++ y)) = map (fun c => (c, f)) (vis x) ++ map (fun c => (c, f)) (vis y).
  Proof. intros. rewrite vis_app, map_app. reflexivity. Qed.

  Lemma shown_text : forall s a tstk,
    shown (a_text s a) tstk = shown a tstk ++ map (fun c => (c, cfl m tstk)) (vis s).
  Proof.
    intros. unfold shown, a_text. cbn [a_cur a_out]. rewrite rev_app_distr, rev_involutive, map_vis_app, app_assoc. reflexivity.
  Qed.
  Lemma shown_lit : forall ws a tstk, forallb lit_space ws = true -> shown (a_lit ws a) tstk = shown a tstk.
  Proof.
    intros. unfold shown, a_lit. cbn [a_cur a_out]. rewrite rev_app_distr, rev_involutive, map_vis_app, (vis_lit ws H).
    cbn [map]. rewrite app_nil_r. reflexivity.
  Qed.
  Lemma shown_rstrip : forall a tstk, shown (a_rstrip a) tstk = shown a tstk.
  Proof. intros. unfold shown, a_rstrip. cbn [a_cur a_out]. rewrite vis_drop_space_rev. reflexivity. Qed.

  Lemma tflags_flush : forall cur out,
    tflags est (rev (flush cur out)) [] =
    tflags est (rev out) [] ++ map (fun c => (c, stack_flags (somes (tstack est (rev out) [])))) (vis (rev cur)).
  Proof.
    intros cur out. unfold flush. destruct cur as [|c cur].
    - cbn [rev vis filter map]. rewrite app_nil_r. reflexivity.
    - cbn [rev]. rewrite tflags_app. cbn [tflags]. rewrite app_nil_r. reflexivity.
  Qed.
  Lemma tstack_flush : forall cur out, tstack est (rev (flush cur out)) [] = tstack est (rev out) [].
  Proof. intros cur out. unfold flush. destruct cur; [reflexivity|]. cbn [rev]. rewrite tstack_app. reflexivity. Qed.

  (* a tag token: the pending text is flushed under the stack in force, the stack then changes *)
  Lemma shown_mark : forall tk a tstk tstk', tstack est (rev (a_out a)) [] = tstk ->
    tflags est [tk] tstk = [] ->
    shown (a_mark tk a) tstk' = shown a tstk /\ tstack est (rev (a_out (a_mark tk a))) [] = tstack est [tk] tstk.
  Proof.
    intros tk a tstk tstk' Hst Htk. unfold shown, a_mark. cbn [a_cur a_out rev vis filter map]. rewrite app_nil_r. split.
    - rewrite tflags_app, tflags_flush, tstack_flush, Hst, Htk, app_nil_r, mflags_app. f_equal.
      unfold mflags, cfl. rewrite map_map. reflexivity.
    - rewrite tstack_app, tstack_flush, Hst. reflexivity.
  Qed.

  (* what the close operation does to the shown flags and to the token-level stack *)
  Definition close_spec : Prop := forall a e, tstack est (rev (a_out a)) [] = [e] ->
    shown (acl a) [] = shown a [e] /\ tstack est (rev (a_out (acl a))) [] = [].

  Lemma close_spec_new : acl = a_close -> close_spec.
  Proof.
    intros E a e Hst. rewrite E. unfold a_close.
    destruct (shown_mark (TkClose (lit "span")) a [e] [] Hst eq_refl) as [S T]. split; [exact S|exact T].
  Qed.
  Lemma close_spec_sp : acl = a_close_sp -> close_spec.
  Proof.
    intros E a e Hst. rewrite E. unfold a_close_sp. rewrite shown_lit by reflexivity. cbn [a_lit a_out].
    destruct (shown_mark (TkClose (lit "span")) (a_rstrip a) [e] [] Hst eq_refl) as [S T].
    split; [rewrite S; apply shown_rstrip|exact T].
  Qed.
  Hypothesis Hclose : close_spec.

  Lemma cfl_agree : forall cur, (match cur with Some st => dom st = true | None => True end) ->
    mask3 m (stack_flags (nstk_of cur)) = cfl m (tstk_of cur).
  Proof. intros [st|] H; [apply agree; exact H|reflexivity]. Qed.

  Lemma flags_run : forall ns a cur Fd, forallb lit_space sfx = true -> flat_aux ns cur = true -> nodes_ok dom ns = true ->
    (match cur with Some st => dom st = true | None => True end) ->
    tstack est (rev (a_out a)) [] = tstk_of cur -> mflags m Fd = shown a (tstk_of cur) ->
    let a' := fst (fold_left (abs_step sfx acl atok) ns (a, flag_of atok cur)) in
    mflags m (Fd ++ flags_aux ns (nstk_of cur)) = shown a' [] /\ tstack est (rev (a_out a')) [] = [].
  Proof.
    intros ns a cur Fd Hsfx Hf. revert a Fd. revert ns cur Hf.
    refine (flat_aux_ind _ _ _ _ _ _); cbn [fold_left abs_step nodes_ok flags_aux flag_of nstk_of].
    - intros a Fd _ _ Hst Hsh. rewrite app_nil_r. split; assumption.
    - intros s ns cur IH a Fd Hn Hd Hst Hsh. apply andb_true_iff in Hn. destruct Hn as [_ Hn]. rewrite app_assoc.
      apply IH; try assumption.
      rewrite shown_lit by exact Hsfx. rewrite shown_text, mflags_app, Hsh. f_equal.
      unfold mflags. rewrite map_map. cbn [fst snd]. rewrite (cfl_agree cur Hd). reflexivity.
    - intros ns cur IH a Fd Hn Hd Hst Hsh.
      destruct (shown_mark (TkEmpty (lit "br") []) (a_rstrip a) (tstk_of cur) (tstk_of cur) Hst eq_refl) as [S T].
      apply IH; try assumption. unfold a_br. rewrite shown_lit by reflexivity. rewrite S, shown_rstrip. exact Hsh.
    - intros st ns IH a Fd Hn _ Hst Hsh. apply andb_true_iff in Hn. destruct Hn as [Hdst Hn].
      cbn [flag_of nstk_of tstk_of] in IH. destruct (atok st) as [attrs|]; apply IH; try assumption.
      + destruct (shown_mark (TkOpen (lit "span") attrs) a [] [est attrs] Hst eq_refl) as [_ T]. exact T.
      + destruct (shown_mark (TkOpen (lit "span") attrs) a [] [est attrs] Hst eq_refl) as [S _]. rewrite S. exact Hsh.
    - intros st0 st ns _ IH a Fd Hn _ Hst Hsh. apply andb_true_iff in Hn. destruct Hn as [_ Hn].
      cbn [tstk_of] in *. destruct (atok st0) as [attrs|]; cbn [opt_some].
      + destruct (Hclose a (est attrs) Hst) as [S T]. apply IH; [exact Hn|exact I|exact T|]. rewrite S. exact Hsh.
      + apply IH; try assumption. exact I.
  Qed.

  (* the flags of the token-level reading of the abstract tokens are the authored ones, under the mask *)
  Lemma abs_tokens_flags : forall ns, forallb lit_space sfx = true -> flat_balanced ns = true -> nodes_ok dom ns = true ->
    mflags m (flags ns) = mflags m (tflags est (abs_tokens sfx acl atok ns) []).
  Proof.
    intros ns Hsfx Hf Hn. unfold flags, abs_tokens, abs_run.
    destruct (flags_run ns (mkA [] []) None [] Hsfx Hf Hn I eq_refl eq_refl) as [Q T]. cbn [flag_of nstk_of app] in Q, T.
    set (a := fst (fold_left (abs_step sfx acl atok) ns (mkA [] [], false))) in *.
    rewrite Q. cbv zeta. rewrite tflags_flush. cbn [a_rstrip a_cur a_out]. rewrite T, mflags_app, vis_drop_space_rev.
    unfold shown. f_equal. unfold mflags, cfl. rewrite map_map. reflexivity.
  Qed.
End writer_flags.

(* ---- writer model -> strict parser -> reader model, for flat balanced spans ---------------------------------------- *)
Section roundtrip.
  Variable rd : xnode -> list node.
  Variable est : list (str * str) -> option style.
  Hypothesis rd_text : forall s, rd (XText s) = match text_node true s with Some t => [NText t] | None => [] end.
  Hypothesis rd_br : forall a k, rd (XElem (lit "br") a k) = [NBreak].
  Hypothesis rd_span : forall a k, rd (XElem (lit "span") a k) =
    match est a with Some st => [NStyle true st] ++ flat_map rd k ++ [NStyle false st] | None => flat_map rd k end.
  Variables (m : flag3) (sfx : str) (acl : ast -> ast) (atok : style -> option (list (str * str))) (dom : style -> bool).
  Hypothesis agree : forall st, dom st = true -> mask3 m (stack_flags [st]) = cfl m (tstk_of est atok (Some st)).
  Hypothesis Hsfx : forallb lit_space sfx = true.
  Hypothesis acl_ok : forall a, a_ok a true -> a_ok (acl a) false.
  Hypothesis acl_vis : forall x, vis (a_flat (acl x)) = vis (a_flat x).
  Hypothesis acl_spec : close_spec m est acl.

  Theorem roundtrip_core : forall payload ns,
    content_parse payload = xbuild (abs_tokens sfx acl atok ns) [] [] -> nodes_ok dom ns = true -> flat_balanced ns = true ->
    exists t, content_parse payload = Some t /\ vis (flat_map tree_flat t) = vis (node_flat ns) /\
              flat_map rd t = tok_nodes rd est (abs_tokens sfx acl atok ns) [] /\ ok_flags m ns (flat_map rd t) = true.
  Proof.
    intros payload ns Hp Hn Hf. rewrite Hp.
    destruct (abs_tokens_balanced sfx acl atok ns acl_ok Hf) as [Hs Hd].
    destruct (xbuild_ok _ [] [] Hs (Forall_nil _) Hd) as [t Ht]. exists t.
    pose proof (xbuild_nodes rd est rd_br rd_span _ [] [] t Hs (Forall_nil _) Ht) as Hnodes.
    cbn [unwind_nodes rev flat_map app map] in Hnodes.
    split; [exact Ht|]. split; [|split; [exact Hnodes|]].
    - rewrite (xbuild_flat _ [] [] t Hs (Forall_nil _) Ht). apply abs_tokens_visible; assumption.
    - unfold ok_flags. apply flags_eqb_of_mflags. rewrite Hnodes. unfold flags at 2. change (@nil style) with (somes []).
      rewrite (flags_tok_nodes rd est rd_text). apply (abs_tokens_flags m est sfx acl atok dom agree acl_spec ns Hsfx Hf Hn).
  Qed.
End roundtrip.

(* ---- DFXP writer models -> strict parser -> DFXP reader model --------------------------------------------------------- *)
Definition dfxp_est (a : list (str * str)) : option style := Some (dfxp_style a).
Definition m_i : flag3 := (true, false, false).
Definition m_ibu : flag3 := (true, true, true).

Definition dfxp_core (dom : style -> bool) (atok : style -> option (list (str * str))) :=
  roundtrip_core (dfxp_nodes true) dfxp_est (fun _ => eq_refl) (fun _ _ => eq_refl) (fun _ _ => eq_refl) m_i [] a_close atok dom.

Lemma dfxp_agree : forall region st, plain_style st = true ->
  mask3 m_i (stack_flags [st]) = cfl m_i (tstk_of dfxp_est (dfxp_atok region) (Some st)).
Proof.
  intros region [i b u c] H. unfold plain_style in H. cbn [st_color] in H. destruct c; [discriminate|].
  destruct region, i, b, u; reflexivity.
Qed.

Lemma dfxp_plain_core : forall region ns, nodes_ok plain_style ns = true -> flat_balanced ns = true ->
  exists t, content_parse (dfxp_payload (extra_of region) ns) = Some t /\ vis (flat_map tree_flat t) = vis (node_flat ns) /\
            flat_map (dfxp_nodes true) t = tok_nodes (dfxp_nodes true) dfxp_est (abs_tokens [] a_close (dfxp_atok region) ns) [] /\
            ok_flags m_i ns (flat_map (dfxp_nodes true) t) = true.
Proof.
  intros region ns Hn. apply (dfxp_core plain_style _ (dfxp_agree region) eq_refl a_ok_close vis_close
                               (close_spec_new m_i dfxp_est a_close eq_refl)); [|exact Hn].
  apply dfxp_payload_parse, Hn.
Qed.

Theorem dfxp_payload_wellformed : forall region ns, nodes_ok plain_style ns = true -> flat_balanced ns = true ->
  exists t, content_parse (dfxp_payload (extra_of region) ns) = Some t /\
            vis (flat_map tree_flat t) = vis (node_flat ns).
Proof. intros region ns Hn Hf. destruct (dfxp_plain_core region ns Hn Hf) as (t & Ht & Hv & _). exists t. split; assumption. Qed.

Theorem legacy_payload_wellformed : forall ns, nodes_ok plain_style ns = true -> flat_balanced ns = true ->
  exists t, content_parse (legacy_payload ns) = Some t /\ vis (flat_map tree_flat t) = vis (node_flat ns).
Proof. intros ns. rewrite legacy_payload_dfxp. exact (dfxp_payload_wellformed false ns). Qed.

(* DFXPWriter / SinglePositioningDFXPWriter -> DFXPReader: well-formed, same italic characters, balanced nodes *)
Theorem dfxp_roundtrip_flags : forall region ns, nodes_ok plain_style ns = true -> flat_balanced ns = true ->
  exists t, content_parse (dfxp_payload (extra_of region) ns) = Some t /\
            ok_flags m_i ns (flat_map (dfxp_nodes true) t) = true /\
            balanced (flat_map (dfxp_nodes true) t) = true.
Proof.
  intros region ns Hn Hf. destruct (dfxp_plain_core region ns Hn Hf) as (t & Ht & _ & _ & Hfl). exists t.
  split; [exact Ht|]. split; [exact Hfl|apply dfxp_reader_p_balanced].
Qed.

Theorem legacy_roundtrip_flags : forall ns, nodes_ok plain_style ns = true -> flat_balanced ns = true ->
  exists t, content_parse (legacy_payload ns) = Some t /\
            ok_flags m_i ns (flat_map (dfxp_nodes true) t) = true /\
            balanced (flat_map (dfxp_nodes true) t) = true.
Proof. intros ns. rewrite legacy_payload_dfxp. exact (dfxp_roundtrip_flags false ns). Qed.

(* ---- SAMI writer model -> parser -> SAMI reader model: italic, bold and underline --------------------------------------- *)
Lemma sami_abs_flat : forall ns cur, flat_aux ns cur = true -> forall a,
  fold_left sami_abs_step ns (a, flag_of sami_atok cur) = fold_left (abs_step (lit " ") a_close_sp sami_atok) ns (a, flag_of sami_atok cur).
Proof.
  refine (flat_aux_ind _ _ _ _ _ _); cbn [fold_left sami_abs_step abs_step flag_of].
  - reflexivity.
  - intros s ns cur IH a. apply IH.
  - intros ns cur IH a. apply IH.
  - intros st ns IH a. cbn [flag_of] in IH. destruct (sami_atok st) as [attrs|]; apply IH.
  - intros st0 st ns _ IH a. destruct (opt_some (sami_atok st0)); apply IH.
Qed.

Lemma sami_abs_tokens_flat : forall ns, flat_balanced ns = true -> sami_abs_tokens ns = abs_tokens (lit " ") a_close_sp sami_atok ns.
Proof.
  intros ns H. unfold sami_abs_tokens, abs_tokens, abs_run. pose proof (sami_abs_flat ns None H (mkA [] [])) as Q.
  cbn [flag_of] in Q. rewrite Q. reflexivity.
Qed.

Lemma sami_agree : forall st, plain_style st = true ->
  mask3 m_ibu (stack_flags [st]) = cfl m_ibu (tstk_of sami_span_args sami_atok (Some st)).
Proof.
  intros [i b u c] H. unfold plain_style in H. cbn [st_color] in H. destruct c; [discriminate|].
  destruct i, b, u; vm_compute; reflexivity.
Qed.

Lemma sami_core : forall ns, nodes_ok plain_style ns = true -> flat_balanced ns = true ->
  exists t, content_parse (sami_payload ns) = Some t /\ vis (flat_map tree_flat t) = vis (node_flat ns) /\
            flat_map (sami_nodes true) t =
              tok_nodes (sami_nodes true) sami_span_args (abs_tokens (lit " ") a_close_sp sami_atok ns) [] /\
            ok_flags m_ibu ns (flat_map (sami_nodes true) t) = true.
Proof.
  intros ns Hn Hf.
  apply (roundtrip_core (sami_nodes true) sami_span_args (fun _ => eq_refl) (fun _ _ => eq_refl) (fun _ _ => eq_refl)
           m_ibu (lit " ") a_close_sp sami_atok plain_style sami_agree eq_refl a_ok_close_sp vis_close_sp
           (close_spec_sp m_ibu sami_span_args a_close_sp eq_refl)); [|exact Hn|exact Hf].
  unfold content_parse. rewrite (sami_payload_tokens ns Hn), (sami_abs_tokens_flat ns Hf). reflexivity.
Qed.

Theorem sami_roundtrip_flags : forall ns, nodes_ok plain_style ns = true -> flat_balanced ns = true ->
  exists t, content_parse (sami_payload ns) = Some t /\
            vis (flat_map tree_flat t) = vis (node_flat ns) /\
            ok_flags m_ibu ns (flat_map (sami_nodes true) t) = true /\
            balanced (flat_map (sami_nodes true) t) = true.
Proof.
  intros ns Hn Hf. destruct (sami_core ns Hn Hf) as (t & Ht & Hv & _ & Hfl). exists t.
  split; [exact Ht|]. split; [exact Hv|]. split; [exact Hfl|apply sami_reader_p_balanced].
Qed.

(* cross: the DFXP payload read by the SAMI reader model is not a format statement; the cross round trips of the
   property (DFXP document -> SAMI document) compose the two same-format theorems through the common node model:
   reading gives nodes with the same flags (above), and those nodes are again in the writers' domain. *)
