(* C03, SRT and MicroDVD: the cue content written for any node list has no blank line inside, carries the
   authored lines, and the documents are read back block by block by the reference grammars. *)
From Coq Require Import List ZArith Bool Lia.
From PV Require Import lib.Sx lib.Str lib.StrFacts model.TextNodes model.TextWrite.
From PV Require Import spec.SpecTextLines spec.SpecTextVtt spec.SpecTextBlocks.
From PV Require Import proofs.TextStrFacts proofs.TextLinesFacts.
From PV Require lib.Dec.
Import ListNotations.
Open Scope Z_scope.

Definition no_ch (x : Z) (s : str) : bool := forallb (fun c => negb (c =? x)) s.

Fixpoint texts_no (x : Z) (ns : list node) : bool :=
  match ns with
  | [] => true
  | NText s :: t => no_ch x s && texts_no x t
  | _ :: t => texts_no x t
  end.

Lemma no_ch_app : forall x a b, no_ch x (a ++ b) = no_ch x a && no_ch x b.
Proof. intros. unfold no_ch. apply forallb_app. Qed.

Lemma lstrip_by_snoc_keep : forall f a c, f c = false -> lstrip_by f (a ++ [c]) <> [].
Proof.
  intros f a c H. induction a as [|x a IH]; cbn [app lstrip_by].
  - rewrite H. discriminate.
  - destruct (f x); [exact IH|discriminate].
Qed.

Lemma strip_nil_iff : forall s, strip s = [] <-> forallb is_space s = true.
Proof.
  intros s. unfold strip, strip_by, rstrip_by. split.
  - intros H. apply (f_equal (@rev Z)) in H. rewrite rev_involutive in H. cbn [rev] in H.
    induction s as [|c t IH]; [reflexivity|].
    cbn [lstrip_by] in H. cbn [forallb]. destruct (is_space c) eqn:E; [apply IH; exact H|].
    exfalso. cbn [rev] in H. revert H. apply lstrip_by_snoc_keep. exact E.
  - intros H. rewrite (lstrip_by_all is_space s H). reflexivity.
Qed.

Lemma nonblank_not_blank : forall l, nonblank l = true -> is_blank l = false.
Proof.
  intros l H. unfold is_blank. destruct (forallb ascii_space l) eqn:F; [|reflexivity].
  assert (G : forallb is_space l = true).
  { apply forallb_forall. intros c Hc. rewrite forallb_forall in F. specialize (F c Hc). unfold ascii_space in F. unfold is_space. lia. }
  apply strip_nil_iff in G. unfold nonblank in H. rewrite G in H. discriminate.
Qed.

(* what the SRT and MicroDVD writers concatenate: a text as it is, a break as the line separator *)
Definition piece (sep : Z) (n : node) : str := match n with NText s => s | NBreak => [sep] | NStyle _ _ => [] end.

Lemma split_pieces : forall sep ns cur, texts_no sep ns = true -> no_ch sep cur = true ->
  split_ch sep (cur ++ concat (map (piece sep) ns)) = node_lines_aux ns cur.
Proof.
  intros sep. induction ns as [|n ns IH]; intros cur Ht Hc.
  - cbn [map concat node_lines_aux]. rewrite split_ch_app_nosep by exact Hc. cbn. rewrite app_nil_r. reflexivity.
  - destruct n as [s| |st sty]; cbn [map concat piece node_lines_aux texts_no] in *.
    + apply andb_true_iff in Ht. destruct Ht as [Hs Ht]. rewrite app_assoc.
      apply IH; [exact Ht|]. rewrite no_ch_app, Hc, Hs. reflexivity.
    + rewrite split_ch_app_nosep by exact Hc. cbn [app]. rewrite split_ch_cons_sep, app_nil_r.
      rewrite <- (IH [] Ht eq_refl). reflexivity.
    + cbn [app]. apply IH; assumption.
Qed.

Lemma pieces_no : forall x sep ns, x <> sep -> texts_no x ns = true -> no_ch x (concat (map (piece sep) ns)) = true.
Proof.
  intros x sep ns Hx. induction ns as [|n ns IH]; intros H; [reflexivity|].
  destruct n as [s| |a b]; cbn [map concat piece texts_no] in *.
  - apply andb_true_iff in H. destruct H as [Hs Ht]. rewrite no_ch_app, Hs, (IH Ht). reflexivity.
  - rewrite no_ch_app, (IH H). change (no_ch x [sep]) with (negb (sep =? x) && true).
    destruct (Z.eqb_spec sep x); [congruence|]. reflexivity.
  - exact (IH H).
Qed.

(* ---- SRT: content of one cue -------------------------------------------------------------- *)
Definition srt_content_lines (ns : list node) : list str := filter nonblank (split_ch 10 (srt_raw ns)).

(* the content, split at line feeds, is exactly the non-blank lines: no blank line inside, nothing lost *)
Theorem srt_content_split : forall ns, srt_content_lines ns <> [] ->
  split_ch 10 (srt_content ns) = srt_content_lines ns.
Proof.
  intros ns H. unfold srt_content. apply split_ch_join; [exact H|].
  intros l Hl. apply filter_In in Hl. apply (split_ch_no_sep 10 (srt_raw ns) l), Hl.
Qed.

Theorem srt_content_no_blank_line : forall ns, srt_content_lines ns <> [] ->
  forallb nonblank (split_ch 10 (srt_content ns)) = true.
Proof.
  intros ns H. rewrite srt_content_split by exact H. unfold srt_content_lines.
  apply forallb_forall. intros l Hl. apply filter_In in Hl. apply Hl.
Qed.

(* the pinned writer (srt_content_prefix: no filtering) leaves a blank line inside the cue *)
Theorem srt_double_break_refuted : exists ns,
  texts_no 10 ns = true /\ forallb nonblank (split_ch 10 (srt_content_prefix ns)) = false.
Proof. exists [NText (lit "a"); NBreak; NBreak; NText (lit "b")]. split; vm_compute; reflexivity. Qed.

Definition no_eol (l : str) : bool := forallb (fun c => negb (c =? 10) && negb (c =? 13)) l.

Lemma no_eol_chars : forall l, no_eol l = no_ch 10 l && no_ch 13 l.
Proof.
  unfold no_eol, no_ch. induction l as [|c l IH]; [reflexivity|]. cbn [forallb]. rewrite IH.
  destruct (negb (c =? 10)), (negb (c =? 13)); cbn [andb]; rewrite ?andb_false_r; reflexivity.
Qed.

Lemma no_eol_app : forall a b, no_eol (a ++ b) = no_eol a && no_eol b.
Proof. intros. unfold no_eol. apply forallb_app. Qed.

Lemma split_line_no_eol : forall s l, no_ch 13 s = true -> In l (split_ch 10 s) -> no_eol l = true.
Proof.
  intros s l H Hin. rewrite no_eol_chars. unfold no_ch.
  rewrite (split_ch_no_sep 10 s l Hin), (split_ch_forallb _ 10 s l H Hin). reflexivity.
Qed.

Lemma lf_aux_app : forall a rest cur, no_eol a = true -> lf_lines_aux (a ++ rest) cur = lf_lines_aux rest (rev a ++ cur).
Proof.
  induction a as [|c a IH]; intros rest cur H; [reflexivity|]. cbn [no_eol forallb] in H. apply andb_true_iff in H.
  destruct H as [Hc Ha]. apply andb_true_iff in Hc. destruct Hc as [H10 H13]. apply negb_true_iff in H10, H13.
  cbn [app lf_lines_aux]. rewrite H10, H13, (IH rest (c :: cur) Ha). cbn [rev]. rewrite <- app_assoc. reflexivity.
Qed.

Lemma lf_lines_join_aux : forall ls cur, ls <> [] -> Forall (fun l => no_eol l = true) ls ->
  lf_lines_aux (join [10] ls) cur = (rev cur ++ hd [] ls) :: tl ls.
Proof.
  induction ls as [|a ls IH]; intros cur Hne H; [congruence|]. inversion H as [|x y Ha Hls]; subst. destruct ls as [|b ls].
  - cbn [join hd tl]. rewrite <- (app_nil_r a) at 1. rewrite (lf_aux_app a [] cur Ha). cbn [lf_lines_aux]. rewrite rev_app_distr, rev_involutive. reflexivity.
  - change (join [10] (a :: b :: ls)) with (a ++ [10] ++ join [10] (b :: ls)). rewrite (lf_aux_app a _ cur Ha). cbn [app lf_lines_aux].
    change (10 =? 10) with true. cbv iota. rewrite (IH [] ltac:(discriminate) Hls). cbn [rev app hd tl]. rewrite rev_app_distr, rev_involutive. reflexivity.
Qed.

Lemma lf_lines_joined : forall ls, ls <> [] -> Forall (fun l => no_eol l = true) ls -> lf_lines (join [10] ls) = ls.
Proof. intros ls Hne H. unfold lf_lines. rewrite (lf_lines_join_aux ls [] Hne H). destruct ls; [congruence|reflexivity]. Qed.

Definition nl_terminated (ls : list str) : str := concat (map (fun l => l ++ [10]) ls).

Lemma lf_lines_terminated : forall ls, forallb no_eol ls = true -> lf_lines (nl_terminated ls) = ls ++ [[]].
Proof.
  induction ls as [|l ls IH]; intros H; [reflexivity|].
  cbn [forallb] in H. apply andb_true_iff in H. destruct H as [Hl Hls].
  unfold nl_terminated, lf_lines. cbn [map concat]. rewrite <- app_assoc, (lf_aux_app l _ [] Hl). cbn [app lf_lines_aux].
  change (10 =? 10) with true. cbv iota. rewrite app_nil_r, rev_involutive. f_equal. apply IH. exact Hls.
Qed.

Lemma join_terminated : forall ls, ls <> [] -> join [10] ls ++ [10] = nl_terminated ls.
Proof.
  induction ls as [|a ls IH]; intros H; [congruence|].
  destruct ls as [|b ls'].
  - cbn. rewrite app_nil_r. reflexivity.
  - change (join [10] (a :: b :: ls')) with (a ++ [10] ++ join [10] (b :: ls')).
    change (nl_terminated (a :: b :: ls')) with ((a ++ [10]) ++ nl_terminated (b :: ls')).
    rewrite <- IH by discriminate. rewrite <- !app_assoc. reflexivity.
Qed.

Lemma nl_terminated_app : forall a b, nl_terminated (a ++ b) = nl_terminated a ++ nl_terminated b.
Proof. intros. unfold nl_terminated. rewrite map_app, concat_app. reflexivity. Qed.

Lemma drop_last_snoc : forall (s : str) c, drop_last (s ++ [c]) = s.
Proof.
  intros s c. unfold drop_last. rewrite app_length. cbn [length].
  replace (length s + 1 - 1)%nat with (length s) by lia. apply firstn_app_exact.
Qed.

Lemma runs_by_nonblank_app : forall blank b rest cur, forallb (fun l => negb (blank l)) b = true ->
  runs_by blank (b ++ rest) cur = runs_by blank rest (rev b ++ cur).
Proof.
  intros blank b. induction b as [|l b IH]; intros rest cur H; [reflexivity|].
  cbn [forallb] in H. apply andb_true_iff in H. destruct H as [Hl Hb].
  cbn [app runs_by]. destruct (blank l); [discriminate|].
  rewrite IH by exact Hb. cbn [rev]. rewrite <- app_assoc. reflexivity.
Qed.

Lemma strip_no_outer_space : forall s, forallb (fun c => negb (is_space c)) s = true -> strip s = s.
Proof.
  intros s H. unfold strip, strip_by, rstrip_by.
  assert (L : forall x, forallb (fun c => negb (is_space c)) x = true -> lstrip_by is_space x = x).
  { intros [|c x] Hx; [reflexivity|]. cbn [forallb] in Hx. apply andb_true_iff in Hx. destruct Hx as [Hc _].
    cbn [lstrip_by]. destruct (is_space c); [discriminate|reflexivity]. }
  rewrite (L s H). rewrite L; [apply rev_involutive|]. rewrite forallb_rev. exact H.
Qed.

Lemma digits_facts : forall d, forallb is_digit d = true -> d <> [] ->
  strip d = d /\ isdigit d = true /\ nonblank d = true /\ no_eol d = true.
Proof.
  intros d Hd Hne.
  assert (F : forall Q : Z -> bool, (forall c, is_digit c = true -> Q c = true) -> forallb Q d = true).
  { intros Q HQ. apply forallb_forall. intros c Hc. rewrite forallb_forall in Hd. exact (HQ c (Hd c Hc)). }
  assert (Hs : strip d = d) by (apply strip_no_outer_space, F; intros c H; unfold is_digit in H; unfold is_space; lia).
  split; [exact Hs|]. split; [|split].
  - unfold isdigit. destruct d; [congruence|exact Hd].
  - unfold nonblank. rewrite Hs. destruct d; [congruence|reflexivity].
  - apply F. intros c H. unfold is_digit in H. lia.
Qed.

Lemma dec_z_facts : forall k, 0 <= k ->
  strip (dec_z k) = dec_z k /\ isdigit (dec_z k) = true /\ nonblank (dec_z k) = true /\ no_eol (dec_z k) = true.
Proof.
  intros k Hk. unfold dec_z. destruct (Z.ltb_spec k 0); [lia|].
  apply digits_facts; [apply Dec.dec_nonneg_digits; exact Hk|apply Dec.dec_nonneg_nonempty].
Qed.

(* ---- SRT: the document ------------------------------------------------------------------------ *)
(* hypotheses on one caption: its timing line (C02's business) is a line with an arrow; its texts contain no
   line ends; it shows something *)
Definition srt_cap_ok (c : str * list node) : Prop :=
  no_eol (fst c) = true /\ has_arrow (fst c) = true /\ nonblank (fst c) = true /\
  texts_no 10 (snd c) = true /\ texts_no 13 (snd c) = true /\ srt_content_lines (snd c) <> [].

Fixpoint srt_all_lines (k : Z) (caps : list (str * list node)) : list str :=
  match caps with
  | [] => []
  | (tl, ns) :: t => [dec_z k; tl] ++ srt_content_lines ns ++ [[]] ++ srt_all_lines (k + 1) t
  end.

Lemma srt_blocks_lines : forall caps k, Forall srt_cap_ok caps ->
  srt_blocks_from srt_content k caps = nl_terminated (srt_all_lines k caps).
Proof.
  induction caps as [|[tl ns] caps IH]; intros k H; [reflexivity|].
  inversion H as [|x l Hc Hrest]; subst. destruct Hc as (_ & _ & _ & _ & _ & Hne). cbn [snd] in Hne.
  cbn [srt_blocks_from srt_all_lines]. rewrite (IH (k + 1) Hrest).
  rewrite !nl_terminated_app.
  change (nl_terminated [dec_z k; tl]) with ((dec_z k ++ [10]) ++ (tl ++ [10]) ++ []).
  change (nl_terminated [[]]) with [10].
  rewrite <- (join_terminated (srt_content_lines ns) Hne). unfold srt_content, srt_content_lines.
  rewrite <- !app_assoc. reflexivity.
Qed.

Lemma srt_content_lines_no_eol : forall ns l, texts_no 13 ns = true -> In l (srt_content_lines ns) -> no_eol l = true.
Proof.
  intros ns l H13 Hl. apply filter_In in Hl. apply (split_line_no_eol (srt_raw ns)); [|apply Hl].
  apply forallb_strip, pieces_no; [discriminate|exact H13].
Qed.

Lemma srt_all_lines_no_eol : forall caps k, 0 <= k -> Forall srt_cap_ok caps ->
  forallb no_eol (srt_all_lines k caps) = true.
Proof.
  induction caps as [|[tl ns] caps IH]; intros k Hk H; [reflexivity|].
  inversion H as [|x l Hc Hrest]; subst. destruct Hc as (Htl & _ & _ & _ & H13 & _). cbn [fst snd] in *.
  cbn [srt_all_lines]. rewrite !forallb_app. cbn [forallb].
  destruct (dec_z_facts k Hk) as (_ & _ & _ & He).
  assert (Hk1 : 0 <= k + 1) by lia. pose proof (IH (k + 1) Hk1 Hrest) as Q. unfold str in *. rewrite He, Htl, Q.
  change (no_eol []) with true. cbn [andb]. rewrite andb_true_r.
  apply forallb_forall. intros l0 Hl0. apply (srt_content_lines_no_eol ns l0 H13 Hl0).
Qed.

Fixpoint srt_blocks (k : Z) (caps : list (str * list node)) : list (list str) :=
  match caps with
  | [] => []
  | (tl, ns) :: t => (dec_z k :: tl :: srt_content_lines ns) :: srt_blocks (k + 1) t
  end.

Lemma srt_runs : forall caps k, 0 <= k -> Forall srt_cap_ok caps ->
  runs_by is_blank (srt_all_lines k caps) [] = srt_blocks k caps.
Proof.
  induction caps as [|[tl ns] caps IH]; intros k Hk H; [reflexivity|].
  inversion H as [|x l Hc Hrest]; subst. destruct Hc as (_ & _ & Hnb & _ & _ & _). cbn [fst snd] in *.
  cbn [srt_all_lines srt_blocks].
  destruct (dec_z_facts k Hk) as (_ & _ & Hdn & _).
  rewrite app_assoc. rewrite runs_by_nonblank_app.
  2:{ rewrite forallb_app. cbn [forallb]. rewrite (nonblank_not_blank _ Hdn), (nonblank_not_blank _ Hnb). cbn [negb andb].
      apply forallb_forall. intros l0 Hl0. unfold srt_content_lines in Hl0. apply filter_In in Hl0.
      destruct Hl0 as [_ Hl0]. rewrite (nonblank_not_blank _ Hl0). reflexivity. }
  cbn [app runs_by]. change (is_blank []) with true. cbv iota.
  rewrite app_nil_r. destruct (rev (dec_z k :: tl :: srt_content_lines ns)) eqn:E.
  { apply (f_equal (@length str)) in E. rewrite rev_length in E. cbn in E. lia. }
  rewrite <- E, rev_involutive, (IH (k + 1) ltac:(lia) Hrest). reflexivity.
Qed.

Lemma srt_blocks_text : forall caps k, 0 <= k -> Forall srt_cap_ok caps ->
  opt_map srt_block_text (srt_blocks k caps) = Some (map (fun c => srt_content_lines (snd c)) caps).
Proof.
  induction caps as [|[tl ns] caps IH]; intros k Hk H; [reflexivity|].
  inversion H as [|x l Hc Hrest]; subst. destruct Hc as (_ & Har & _ & _ & _ & _). cbn [fst snd] in *.
  cbn [srt_blocks map opt_map snd]. unfold srt_block_text at 1.
  destruct (dec_z_facts k Hk) as (Hs & Hi & _ & _).
  rewrite Hs, Hi, Har. cbn [andb]. rewrite (IH (k + 1) ltac:(lia) Hrest). reflexivity.
Qed.

(* the reference SRT block grammar reads the written document back: one block per caption, in order, whose
   text lines are the caption's non-blank lines *)
Theorem srt_blocks_roundtrip : forall caps, caps <> [] -> Forall srt_cap_ok caps ->
  srt_cues (srt_doc_merged caps) = Some (map (fun c => srt_content_lines (snd c)) caps).
Proof.
  intros caps Hne H. unfold srt_cues, srt_doc_merged.
  rewrite srt_blocks_lines by exact H.
  rewrite <- join_terminated, drop_last_snoc, lf_lines_joined.
  - rewrite srt_runs by (try lia; exact H). apply srt_blocks_text; [lia|exact H].
  - destruct caps as [|[tl ns] caps]; [congruence|discriminate].
  - apply Forall_forall, forallb_forall, srt_all_lines_no_eol; [lia|exact H].
  - destruct caps as [|[tl ns] caps]; [congruence|discriminate].
Qed.

(* what the merge does: consecutive captions with the same timing line become one, joined by a break *)
Example srt_merge_example :
  srt_merge [(lit "t1", [NText (lit "a")]); (lit "t1", [NText (lit "b")]); (lit "t2", [NText (lit "c")])]
  = [(lit "t1", [NText (lit "a"); NBreak; NText (lit "b")]); (lit "t2", [NText (lit "c")])].
Proof. reflexivity. Qed.

(* ---- MicroDVD ---------------------------------------------------------------------------------- *)
Definition mdvd_raw (ns : list node) : str := concat (map mdvd_piece ns).
Definition is_pipe (c : Z) : bool := c =? 124.

(* texts without CR / LF (what every reader produces) are written as they are *)
Lemma mdvd_nl_id : forall s, no_ch 10 s = true -> no_ch 13 s = true -> mdvd_nl s = s.
Proof.
  induction s as [|c t IH]; intros H10 H13; [reflexivity|].
  cbn [no_ch forallb] in H10, H13. apply andb_true_iff in H10. apply andb_true_iff in H13.
  destruct H10 as [A10 B10]. destruct H13 as [A13 B13].
  cbn [mdvd_nl]. destruct (Z.eqb_spec c 13) as [->|_]; [discriminate|].
  destruct (Z.eqb_spec c 10) as [->|_]; [discriminate|]. f_equal. apply IH; assumption.
Qed.
Lemma mdvd_raw_plain : forall ns, texts_no 10 ns = true -> texts_no 13 ns = true ->
  mdvd_raw ns = concat (map (piece 124) ns).
Proof.
  unfold mdvd_raw. induction ns as [|n ns IH]; intros H10 H13; [reflexivity|].
  destruct n as [s| |a b]; cbn [map concat mdvd_piece piece texts_no] in *.
  - apply andb_true_iff in H10. apply andb_true_iff in H13. destruct H10 as [A B]. destruct H13 as [C D].
    rewrite (mdvd_nl_id s A C), (IH B D). reflexivity.
  - rewrite (IH H10 H13). reflexivity.
  - rewrite (IH H10 H13). reflexivity.
Qed.
(* a line end inside a text node becomes a line break, also at the edges of the node *)
Example mdvd_nl_example : mdvd_nl (lit "a" ++ [13; 10] ++ lit "b" ++ [13] ++ lit "c" ++ [10]) = lit "a|b|c|".
Proof. vm_compute. reflexivity. Qed.

(* the two while loops *)
Lemma no_double_nl : forall y, no_ch 10 y = true -> is_infix [10; 10] (y ++ [10]) = false.
Proof.
  induction y as [|c y IH]; intros H; [reflexivity|].
  cbn [no_ch forallb] in H. apply andb_true_iff in H. destruct H as [Hc Hy].
  cbn [app is_infix is_prefix]. destruct (Z.eqb_spec 10 c) as [<-|_]; [discriminate|]. cbn [andb orb]. apply IH. exact Hy.
Qed.

Lemma while_replace_noop : forall f p r s, is_infix p s = false -> while_replace f p r s = s.
Proof. intros [|f] p r s H; [reflexivity|]. cbn [while_replace]. rewrite H. reflexivity. Qed.

Definition pipe_nl : str := [124; 10].

Lemma pipe_nl_prefix : forall c d t, negb (d =? 10) = true -> is_prefix pipe_nl (c :: d :: t) = false.
Proof.
  intros c d t H. apply negb_true_iff in H. unfold pipe_nl. cbn [is_prefix]. rewrite (Z.eqb_sym 10 d), H.
  destruct (124 =? c); reflexivity.
Qed.

Lemma pipe_nl_infix : forall z, no_ch 10 z = true -> is_infix pipe_nl (z ++ [10]) = is_pipe (last z 0).
Proof.
  induction z as [|c z IH]; intros H; [reflexivity|]. cbn [no_ch forallb] in H. apply andb_true_iff in H. destruct H as [_ Hz].
  cbn [app is_infix]. rewrite (IH Hz). destruct z as [|d z].
  - unfold pipe_nl, is_pipe. cbn [app is_prefix last]. rewrite (Z.eqb_sym 124 c). destruct (c =? 124); reflexivity.
  - cbn [no_ch forallb] in Hz. apply andb_true_iff in Hz. cbn [app]. rewrite (pipe_nl_prefix c d _ (proj1 Hz)). reflexivity.
Qed.

Lemma replace_pipe_nl : forall y, no_ch 10 y = true ->
  replace pipe_nl [10] (y ++ pipe_nl) = y ++ [10].
Proof.
  induction y as [|c y IH]; intros H; [reflexivity|].
  cbn [no_ch forallb] in H. apply andb_true_iff in H. destruct H as [_ Hy].
  cbn [app]. rewrite replace_cons, (IH Hy) by discriminate.
  replace (is_prefix pipe_nl (c :: y ++ pipe_nl)) with false; [reflexivity|]. symmetry. destruct y as [|d y].
  - unfold pipe_nl. cbn [app is_prefix]. destruct (124 =? c); reflexivity.
  - cbn [no_ch forallb] in Hy. apply andb_true_iff in Hy. apply pipe_nl_prefix, Hy.
Qed.

Lemma while_pipe_nl : forall f y, (length y < f)%nat -> no_ch 10 y = true ->
  while_replace f pipe_nl [10] (y ++ [10]) = rstrip_by is_pipe y ++ [10].
Proof.
  induction f as [|f IH]; intros y Hl Hy; [lia|].
  cbn [while_replace]. rewrite pipe_nl_infix by exact Hy. destruct y as [|w y _] using rev_ind; [reflexivity|].
  rewrite last_last, rstrip_by_snoc. destruct (is_pipe w) eqn:E; [|reflexivity]. apply Z.eqb_eq in E. subst w.
  rewrite no_ch_app in Hy. apply andb_true_iff in Hy. destruct Hy as [Hy _].
  rewrite <- app_assoc. change ([124] ++ [10]) with pipe_nl. rewrite replace_pipe_nl by exact Hy.
  apply IH; [|exact Hy]. rewrite app_length in Hl. cbn in Hl. lia.
Qed.

Theorem mdvd_content_shape : forall ns, texts_no 10 ns = true -> texts_no 13 ns = true ->
  mdvd_content ns = rstrip_by is_pipe (strip (mdvd_raw ns)) ++ [10].
Proof.
  intros ns H H13. unfold mdvd_content. fold (mdvd_raw ns).
  assert (Hy : no_ch 10 (strip (mdvd_raw ns)) = true).
  { rewrite (mdvd_raw_plain ns H H13). apply forallb_strip, pieces_no; [discriminate|exact H]. }
  rewrite (while_replace_noop _ [10; 10] [10]) by (apply no_double_nl; exact Hy).
  change (lit "|" ++ [10]) with pipe_nl. apply while_pipe_nl; [|exact Hy].
  rewrite app_length. cbn. lia.
Qed.

Definition mdvd_text (ns : list node) : str := rstrip_by is_pipe (strip (mdvd_raw ns)).

Lemma take_drop_digits : forall d rest, forallb is_digit d = true ->
  (match rest with c :: _ => is_digit c = false | [] => True end) ->
  take_while is_digit (d ++ rest) = d /\ drop_while is_digit (d ++ rest) = rest.
Proof.
  induction d as [|c d IH]; intros rest Hd Hr.
  - cbn [app]. destruct rest as [|c r]; [split; reflexivity|]. cbn [take_while drop_while]. rewrite Hr. split; reflexivity.
  - cbn [forallb] in Hd. apply andb_true_iff in Hd. destruct Hd as [Hc Hd].
    cbn [app take_while drop_while]. rewrite Hc. destruct (IH rest Hd Hr) as [-> ->]. split; reflexivity.
Qed.

Lemma brace_num_ok : forall d rest, forallb is_digit d = true -> d <> [] ->
  brace_num ([123] ++ d ++ [125] ++ rest) = Some (d, rest).
Proof.
  intros d rest Hd Hn. cbn [app brace_num].
  destruct (take_drop_digits d (125 :: rest) Hd eq_refl) as [-> ->].
  destruct d; [congruence|reflexivity].
Qed.

Definition mdvd_prefix_of (a b : str) : str := [123] ++ a ++ [125] ++ [123] ++ b ++ [125].

Theorem mdvd_line_roundtrip : forall a b ns,
  forallb is_digit a = true -> a <> [] -> forallb is_digit b = true -> b <> [] ->
  mdvd_line (mdvd_prefix_of a b ++ mdvd_text ns) = Some (a, b, split_ch 124 (mdvd_text ns)).
Proof.
  intros a b ns Ha Hna Hb Hnb. unfold mdvd_line, mdvd_prefix_of.
  rewrite <- !app_assoc. rewrite (brace_num_ok a _ Ha Hna). rewrite (brace_num_ok b _ Hb Hnb). reflexivity.
Qed.

Definition mdvd_cap_ok (c : str * list node) : Prop :=
  (exists a b, fst c = mdvd_prefix_of a b /\ forallb is_digit a = true /\ a <> [] /\
               forallb is_digit b = true /\ b <> []) /\
  texts_no 10 (snd c) = true /\ texts_no 13 (snd c) = true.

Lemma mdvd_doc_lines : forall caps, Forall mdvd_cap_ok caps ->
  mdvd_doc caps = nl_terminated (map (fun c => fst c ++ mdvd_text (snd c)) caps).
Proof.
  induction caps as [|c caps IH]; intros H; [reflexivity|].
  inversion H as [|x l Hc Hrest]; subst. destruct Hc as (_ & H10 & H13).
  unfold mdvd_doc in *. cbn [map concat]. rewrite (IH Hrest).
  change (nl_terminated (?x :: ?l)) with ((x ++ [10]) ++ nl_terminated l).
  unfold nl_terminated. cbn [map concat]. rewrite mdvd_content_shape by assumption.
  unfold mdvd_text. rewrite <- !app_assoc. reflexivity.
Qed.

Lemma mdvd_line_no_eol : forall c, mdvd_cap_ok c -> no_eol (fst c ++ mdvd_text (snd c)) = true.
Proof.
  intros [p ns] ((a & b & Hp & Ha & Hna & Hb & Hnb) & H10 & H13). cbn [fst snd] in *. subst p.
  destruct (digits_facts a Ha Hna) as (_ & _ & _ & Ea). destruct (digits_facts b Hb Hnb) as (_ & _ & _ & Eb).
  unfold mdvd_prefix_of. rewrite !no_eol_app, Ea, Eb. change (no_eol [123]) with true. change (no_eol [125]) with true.
  cbn [andb]. rewrite no_eol_chars. unfold mdvd_text. rewrite (mdvd_raw_plain ns H10 H13).
  unfold no_ch. rewrite !forallb_rstrip_by; [reflexivity| |]; apply forallb_strip, pieces_no; (discriminate || assumption).
Qed.

Theorem mdvd_doc_roundtrip : forall caps, Forall mdvd_cap_ok caps ->
  mdvd_cues (mdvd_doc caps) = Some (map (fun c => split_ch 124 (mdvd_text (snd c))) caps).
Proof.
  intros caps H. unfold mdvd_cues. rewrite mdvd_doc_lines by exact H.
  rewrite lf_lines_terminated.
  2:{ apply forallb_forall. intros l Hl. apply in_map_iff in Hl. destruct Hl as [c [<- Hc]].
      rewrite Forall_forall in H. apply mdvd_line_no_eol. apply H. exact Hc. }
  rewrite filter_app. cbn [filter is_empty negb]. rewrite app_nil_r.
  induction caps as [|c caps IH]; [reflexivity|].
  inversion H as [|x l Hc Hrest]; subst.
  destruct Hc as ((a & b & Hp & Ha & Hna & Hb & Hnb) & H10 & H13).
  cbn [map filter].
  assert (Hne : is_empty (fst c ++ mdvd_text (snd c)) = false).
  { rewrite Hp. reflexivity. }
  unfold str in *. rewrite Hne. cbn [negb opt_map]. rewrite Hp at 1. rewrite mdvd_line_roundtrip by assumption.
  rewrite (IH Hrest). reflexivity.
Qed.

(* a document used by the non-vacuity examples of props/C03.v *)
Definition ex_caps : list (str * list node) :=
  [(lit "00:00:01,000 --> 00:00:02,000", [NText (lit "1"); NBreak; NBreak; NText (lit "00:00:05,000 --> x")]);
   (lit "00:00:03,000 --> 00:00:04,000", [NBreak; NText (lit "b"); NBreak; NText []; NBreak])].

(* the authored lines, as the oracles compare them: through a per-line normaliser blind to outer white space *)
Section authored_lines.
  Variable N : str -> str.
  Hypothesis N_cons : forall w s, is_space w = true -> N (w :: s) = N s.
  Hypothesis N_snoc : forall w s, is_space w = true -> N (s ++ [w]) = N s.
  Hypothesis N_nil : N [] = [].

  Lemma nlines_filter_nonblank : forall ls, nlines N (filter nonblank ls) = nlines N ls.
  Proof.
    induction ls as [|l ls IH]; [reflexivity|]. cbn [filter]. destruct (nonblank l) eqn:E.
    - rewrite !nlines_cons, IH. reflexivity.
    - rewrite nlines_cons, IH, (N_blank N N_cons N_nil l); [reflexivity|].
      apply strip_nil_iff. unfold nonblank in E. destruct (strip l); [reflexivity|discriminate].
  Qed.

  Lemma srt_lines : forall ns, texts_no 10 ns = true -> nlines N (srt_content_lines ns) = nlines N (node_lines ns).
  Proof.
    intros ns H. unfold srt_content_lines, srt_raw, node_lines.
    rewrite nlines_filter_nonblank, (nlines_split_strip N N_cons N_snoc N_nil), <- (split_pieces 10 ns [] H eq_refl). reflexivity.
  Qed.

  Lemma mdvd_lines : forall ns, texts_no 124 ns = true -> texts_no 10 ns = true -> texts_no 13 ns = true ->
    nlines N (split_ch 124 (mdvd_text ns)) = nlines N (node_lines ns).
  Proof.
    intros ns H H10 H13. unfold mdvd_text, is_pipe, node_lines. rewrite (mdvd_raw_plain ns H10 H13).
    rewrite (nlines_split_rstrip_sep N N_nil), (nlines_split_strip N N_cons N_snoc N_nil), <- (split_pieces 124 ns [] H eq_refl).
    reflexivity.
  Qed.
End authored_lines.

Theorem srt_content_authored_lines : forall ns, texts_no 10 ns = true ->
  norm_lines (srt_content_lines ns) = norm_lines (node_lines ns).
Proof. exact (srt_lines norm_line norm_line_cons_space norm_line_snoc_space eq_refl). Qed.

(* the text written for a caption, split at '|', carries the authored lines *)
Theorem mdvd_text_lines : forall ns, texts_no 124 ns = true -> texts_no 10 ns = true -> texts_no 13 ns = true ->
  norm_lines (split_ch 124 (mdvd_text ns)) = norm_lines (node_lines ns).
Proof. exact (mdvd_lines norm_line norm_line_cons_space norm_line_snoc_space eq_refl). Qed.

Lemma strs_eqb_refl : forall l, strs_eqb l l = true.
Proof.
  induction l as [|x l IH]; [reflexivity|]. cbn [strs_eqb]. rewrite IH, StrFacts.str_eqb_refl. reflexivity.
Qed.

Lemma ok_cues_strict_map : forall (A : Type) (f g : A -> list str) l,
  (forall x, In x l -> trim_lines (f x) = trim_lines (g x)) -> ok_cues_strict (map f l) (map g l) = true.
Proof.
  intros A f g l. induction l as [|x l IH]; intros H; [reflexivity|].
  cbn [map ok_cues_strict]. unfold ok_lines_strict. rewrite (H x (or_introl eq_refl)), strs_eqb_refl. cbn [andb].
  apply IH. intros y Hy. apply H. right. exact Hy.
Qed.

(* the document the SRT writer model produces is read by the reference block grammar as one cue per (merged)
   caption whose lines are the authored lines up to leading / trailing white space: the property oracle is true *)
Theorem srt_doc_meets_oracle : forall caps, srt_merge caps <> [] -> Forall srt_cap_ok (srt_merge caps) ->
  exists cues, srt_cues (srt_doc caps) = Some cues /\
               ok_cues_strict (map (fun c => node_lines (snd c)) (srt_merge caps)) cues = true.
Proof.
  intros caps Hne H. unfold srt_doc. rewrite (srt_blocks_roundtrip _ Hne H). eexists. split; [reflexivity|].
  apply ok_cues_strict_map. intros c Hc. symmetry. apply (srt_lines strip strip_cons_space strip_snoc_space eq_refl).
  rewrite Forall_forall in H. destruct (H c Hc) as (_ & _ & _ & H10 & _). exact H10.
Qed.

Theorem mdvd_doc_meets_oracle : forall caps, Forall mdvd_cap_ok caps ->
  (forall c, In c caps -> texts_no 124 (snd c) = true) ->
  exists cues, mdvd_cues (mdvd_doc caps) = Some cues /\
               ok_cues_strict (map (fun c => node_lines (snd c)) caps) cues = true.
Proof.
  intros caps H Hp. rewrite (mdvd_doc_roundtrip caps H). eexists. split; [reflexivity|].
  apply ok_cues_strict_map. intros c Hc. symmetry. rewrite Forall_forall in H. destruct (H c Hc) as (_ & H10 & H13).
  apply (mdvd_lines strip strip_cons_space strip_snoc_space eq_refl); [apply Hp; exact Hc|exact H10|exact H13].
Qed.

Example mdvd_cap_ok_example : Forall mdvd_cap_ok [(lit "{25}{50}", [NBreak; NText (lit " a{1}{2}"); NBreak; NText (lit "b ")])].
Proof.
  repeat constructor. exists (lit "25"), (lit "50"). repeat split; try reflexivity; discriminate.
Qed.
