(* C05 / C06 / C17: the Erase-Displayed-Memory code INSIDE a load line, before its End-Of-Caption
   (`94ae 94ae 9420 9420 <rows> 942c 942c 942f 942f`, the line pycaption's own SCCWriter produces).

   1. FRAME: a "quiet" word (anything but RDC, RU2/3/4, EOC, CR, EDM) in pop-on mode neither reads nor writes the
      display side of the reader state (caption stash, pop-on queue, self.time, the timecode string), nor the value of the
      frame counter: dress_tw, frame_tw / frame_tws.
   2. the prologue ENM RCL forgets last_command / double_starter / the buffer (prologue_det);
      EDM single or doubled on any pop-on state (edm_ctl); EOC forgets last_command (eoc_washout).
   3. INLINE: from any pop-on state, the line  ENM RCL body EDM EOC  (body quiet) leaves the reader in the same state -
      up to the representation of the clock - as the two lines  EDM | ENM RCL body EOC  stamped with the instants the
      EDM and EOC words have on the one line (inline_edm).
   4. load_quiet: the words of a well-formed load (load_wf) are quiet.
   5. whole programs: segments wseg = a pseg line (PLoad / PClear: the EDM on a line of its own) or a writer-style load
      line (WInline); a stream of segments is read like its expansion into pseg lines, segment by segment (run_segs);
      read_wsegs; popon_refines_608_inline, popon_times_inline.
   6. for rendered timecodes the side timecodes of a writer-style line exist (same_clock_shift, winline_clock). *)
From Coq Require Import List ZArith QArith Lia Bool ZifyBool.
From PV Require Import lib.Sx lib.Str lib.Result lib.ResultFacts model.GenScc model.SccLen model.SccTime model.SccStash model.SccDecoder model.SccPopon.
From PV Require Import spec.Spec608 spec.SpecScc05 spec.SpecScc05Inline spec.SpecSccTime.
From PV Require Import proofs.SccTableFacts proofs.SccTimeFacts proofs.SccPoponFacts proofs.SccPoponStage1 proofs.SccPoponStage2 proofs.SccPoponStage3 proofs.SccPoponStage4
                       proofs.SccPoponStage6 proofs.SccPoponStage7 proofs.SccPoponStage8 proofs.SccPoponStage9
                       proofs.SccLineLayoutFacts.
Import ListNotations.
Open Scope Z_scope.

Ltac dx x := destruct x as [st0 tk0 l0 ds0 po pa ro ac q0 tm0 tc0 fr0 off0 e0].

(* x with another display side *)
Definition fr_set (x : rstate) (st : stash) (q : option (creator * Q)) (tm : Q) (tc : str) : rstate :=
  mkR st (r_tk x) (r_last x) (r_dstart x) (r_pop x) (r_paint x) (r_roll x) (r_active x) q tm tc (r_frames x) (r_offset x)
      (r_err x).

Lemma fr_eta : forall x, fr_set x (r_stash x) (r_queue x) (r_time x) (r_tc x) = x.
Proof. intros x. destruct x. reflexivity. Qed.

Lemma quiet_parts : forall w, quiet w = true ->
  (w =? w_rdc) = false /\ (w =? w_ru2) = false /\ (w =? w_ru3) = false /\ (w =? w_ru4) = false /\ (w =? w_eoc) = false /\
  (w =? w_cr) = false /\ (w =? w_edm) = false.
Proof.
  intros w H. unfold quiet in H. apply negb_true_iff in H.
  repeat (apply orb_false_iff in H; let H' := fresh "H" in destruct H as [H H']). repeat split; assumption.
Qed.

Lemma tc_quiet : forall x w n, r_active x = MPop -> quiet w = true ->
  translate_command x w n
  = if w =? w_rcl then x
    else if w =? w_enm then set_tk (set_buf x creator0) (tracker_reset (r_tk x)) else do_interpret x w n.
Proof.
  intros x w n Ha Hq. destruct (quiet_parts w Hq) as (H1 & H2 & H3 & H4 & H5 & H6 & H7).
  unfold translate_command, activate. rewrite H1, H2, H3, H4, H5, H6, H7, Ha. reflexivity.
Qed.

(* x with another display side and the frame counter moved by k: fr_set is k = 0, a shifted counter keeps the display *)
Definition dress (x : rstate) (st : stash) (q : option (creator * Q)) (tm : Q) (tc : str) (k : Z) : rstate :=
  mkR st (r_tk x) (r_last x) (r_dstart x) (r_pop x) (r_paint x) (r_roll x) (r_active x) q tm tc (r_frames x + k) (r_offset x)
      (r_err x).

Lemma dress_0 : forall x st q tm tc, dress x st q tm tc 0 = fr_set x st q tm tc.
Proof. intros x st q tm tc. unfold dress, fr_set. rewrite Z.add_0_r. reflexivity. Qed.

Definition same_al (x y : rstate) : Prop := r_active y = r_active x /\ r_last y = r_last x.

Section Dress.
Variables (st : stash) (q : option (creator * Q)) (tm : Q) (tc : str) (k : Z).
Notation D x := (dress x st q tm tc k).

Lemma dress_hd : forall x w, handle_double (D x) w = (fst (handle_double x w), D (snd (handle_double x w))).
Proof. intros x w. destruct (hd_shape x (D x) w eq_refl eq_refl) as (b & l & d & -> & ->). dx x. reflexivity. Qed.

Lemma hd_active : forall x w, r_active (snd (handle_double x w)) = r_active x.
Proof. intros x w. destruct (hd_shape x x w eq_refl eq_refl) as (b & l & d & -> & _). dx x. reflexivity. Qed.

(* the pieces of a quiet word commute with D and keep the mode and last_command *)
Lemma dress_tc : forall x w n, r_active x = MPop -> quiet w = true ->
  translate_command (D x) w n = D (translate_command x w n) /\ same_al x (translate_command x w n).
Proof.
  intros x w n Ha Hq. rewrite (tc_quiet x w n Ha Hq), (tc_quiet (D x) w n Ha Hq).
  dx x. cbn [r_active] in Ha. subst ac. destruct (w =? w_rcl); [repeat split|]. destruct (w =? w_enm); [repeat split|].
  unfold do_interpret, dress. proj_red. destruct (interpret_command tk0 po w n) as [[t c] e]. destruct e; repeat split.
Qed.

Lemma dress_add : forall x txt, add_to_buf (D x) txt = D (add_to_buf x txt) /\ same_al x (add_to_buf x txt).
Proof.
  intros x txt. dx x. unfold add_to_buf, dress. proj_red.
  destruct ac; proj_red; match goal with |- context [add_chars ?a ?b ?c] => destruct (add_chars a b c) end; repeat split.
Qed.
Lemma dress_buf : forall x, buf (D x) = buf x.
Proof. intros x. dx x. destruct ac; reflexivity. Qed.
Lemma dress_set_buf : forall x c, set_buf (D x) c = D (set_buf x c) /\ same_al x (set_buf x c).
Proof. intros x c. dx x. destruct ac; repeat split. Qed.
Lemma dress_bump : forall x, bump (D x) = D (bump x).
Proof. intros x. dx x. unfold bump, dress, set_clock. proj_red. f_equal. lia. Qed.

Lemma dress_we : forall a w n, r_active a = MPop -> quiet w = true ->
  word_effect (D a) w n = D (word_effect a w n) /\ same_al a (word_effect a w n).
Proof.
  intros a w n Ha Hq. unfold word_effect. destruct (is_command w || is_pac w); [exact (dress_tc a w n Ha Hq)|].
  destruct (special_of w) as [txt|]; [exact (dress_add a txt)|].
  destruct (extended_of w) as [txt|].
  { rewrite dress_buf. destruct (dress_set_buf a (handle_backspace w (buf a))) as [-> [S1 S1']].
    destruct (dress_add (set_buf a (handle_backspace w (buf a))) txt) as [-> [S2 S2']]. repeat split; congruence. }
  destruct (char_of (hi w)) as [s1|]; [|repeat split].
  destruct (char_of (lo w)) as [s2|]; [exact (dress_add a (s1 ++ s2))|repeat split].
Qed.

Lemma quiet_step : forall x w n, r_active x = MPop -> quiet w = true -> r_err x = None ->
  translate_word (D x) w n = D (translate_word x w n) /\
  r_active (translate_word x w n) = MPop /\ r_last (translate_word x w n) = r_last (snd (handle_double x w)).
Proof.
  intros x w n Ha Hq He. rewrite !tw_eq. change (r_err (D x)) with (r_err x). rewrite He, dress_hd.
  pose proof (hd_active x w) as Hact. destruct (handle_double x w) as [b a]. cbn [fst snd] in *. rewrite Ha in Hact.
  destruct b; [split; [apply dress_bump|dx a; split; [exact Hact|reflexivity]]|]. cbv zeta.
  destruct (dress_we a w n Hact Hq) as [-> [Sa Sl]]. rewrite Hact in Sa. change (r_err (D ?y)) with (r_err y).
  destruct (r_err (word_effect a w n)); [repeat split; assumption|]. split; [apply dress_bump|].
  destruct (word_effect a w n). split; assumption.
Qed.
End Dress.

Theorem dress_tw : forall st q tm tc k x w n, r_active x = MPop -> quiet w = true ->
  translate_word (dress x st q tm tc k) w n = dress (translate_word x w n) st q tm tc k.
Proof.
  intros st q tm tc k x w n Ha Hq. destruct (r_err x) as [e|] eqn:He.
  - rewrite (tw_err x _ _ _ He), (tw_err (dress x st q tm tc k) _ _ e); [reflexivity|exact He].
  - exact (proj1 (quiet_step st q tm tc k x w n Ha Hq He)).
Qed.

Theorem frame_tw : forall x st q tm tc w n, r_active x = MPop -> quiet w = true ->
  translate_word (fr_set x st q tm tc) w n = fr_set (translate_word x w n) st q tm tc.
Proof. intros x st q tm tc w n Ha Hq. rewrite <- !dress_0. apply dress_tw; assumption. Qed.

Lemma quiet_word : forall x w n, r_active x = MPop -> quiet w = true -> r_err x = None ->
  r_active (translate_word x w n) = MPop /\ r_last (translate_word x w n) = r_last (snd (handle_double x w)).
Proof. intros x w n Ha Hq He. exact (proj2 (quiet_step (r_stash x) (r_queue x) (r_time x) (r_tc x) 0 x w n Ha Hq He)). Qed.

Lemma quiet_active : forall x w n, r_active x = MPop -> quiet w = true -> r_active (translate_word x w n) = MPop.
Proof.
  intros x w n Ha Hq. destruct (r_err x) eqn:He; [rewrite (tw_err _ _ _ _ He); exact Ha|exact (proj1 (quiet_word x w n Ha Hq He))].
Qed.

Theorem frame_tws : forall ws x st q tm tc nx, r_active x = MPop -> forallb quiet ws = true ->
  tws (fr_set x st q tm tc) ws nx = fr_set (tws x ws nx) st q tm tc /\ r_active (tws x ws nx) = MPop.
Proof.
  induction ws as [|w t IH]; intros x st q tm tc nx Ha Hq; [split; [reflexivity|exact Ha]|].
  rewrite forallb_cons in Hq. apply andb_true_iff in Hq. destruct Hq as [Hw Ht]. cbn [tws].
  rewrite (frame_tw x st q tm tc w _ Ha Hw). apply IH; [apply quiet_active; assumption|exact Ht].
Qed.

Corollary quiet_keeps : forall ws x nx, r_active x = MPop -> forallb quiet ws = true ->
  r_stash (tws x ws nx) = r_stash x /\ r_queue (tws x ws nx) = r_queue x /\ r_time (tws x ws nx) = r_time x /\
  r_active (tws x ws nx) = MPop.
Proof.
  intros ws x nx Ha Hq. destruct (frame_tws ws x (r_stash x) (r_queue x) (r_time x) (r_tc x) nx Ha Hq) as [E A].
  rewrite fr_eta in E. split; [|split; [|split; [|exact A]]]; rewrite E at 1; reflexivity.
Qed.

(* ENM RCL, single or doubled, from ANY pop-on state: the result does not depend on last_command (as long as it is not
   ENM), double_starter or the pop-on buffer *)
Lemma prologue_det : forall d st tk l ds c pa ro q tm tc fr off nx, last_is l w_enm = false ->
  tws (mkR st tk l ds c pa ro MPop q tm tc fr off None) (ctl d w_enm ++ ctl d w_rcl) nx
  = mkR st (tracker_reset tk) (if d then LNone else LWord w_rcl) d creator0 pa ro MPop q tm tc (fr + (if d then 4 else 2)) off None.
Proof.
  intros d st tk l ds c pa ro q tm tc fr off nx Hl. exact (prologue_any d st tk l ds c pa ro q tm tc fr off nx Hl).
Qed.

Lemma interp_edm_any : forall tk c n, interpret_command tk c w_edm n = (tk, c, None).
Proof.
  intros tk c n. unfold interpret_command, update_positioning.
  replace (tab_of w_edm) with (@None Z) by (vm_compute; reflexivity).
  replace (pac_pos w_edm) with (@None pos) by (vm_compute; reflexivity).
  replace (w_edm =? w_bs) with false by reflexivity.
  replace (memz w_edm scc_background_color_codes) with false by (vm_compute; reflexivity).
  replace (memz w_edm scc_style_setting_commands) with false by (vm_compute; reflexivity).
  replace (memz w_edm scc_mid_row_codes) with false by (vm_compute; reflexivity).
  cbn [andb]. destruct (prev_text (cr_nodes c)) as [[txt brk]|]; reflexivity.
Qed.

Lemma tw_edm_none_any : forall st tk l ds c pa ro tm tc fr off n, last_is l w_edm = false ->
  translate_word (mkR st tk l ds c pa ro MPop None tm tc fr off None) w_edm n
  = mkR st tk (LWord w_edm) ds c pa ro MPop None tm tc (fr + 1) off None.
Proof.
  intros st tk l ds c pa ro tm tc fr off n Hl.
  rewrite (tw_command _ w_edm n _ (hd_edm _ _ _ _ _ _ _ _ _ _ _ _ Hl) eq_refl eq_refl), translate_command_edm.
  proj_red. unfold do_interpret. proj_red. rewrite interp_edm_any. proj_red. reflexivity.
Qed.

(* EDM single or doubled on any pop-on state: a queued cue is stored with the instant of the first copy as its end; with
   nothing queued nothing happens (whatever last_command is) *)
Lemma edm_ctl : forall d st tk l ds c pa ro q tm tc fr off nx tE,
  match q with Some _ => get_time tc fr off = Ok tE /\ last_is l w_edm = false | None => True end ->
  exists l', tws (mkR st tk l ds c pa ro MPop q tm tc fr off None) (ctl d w_edm) nx
             = mkR (popped st q tE) tk l' ds c pa ro MPop None tm tc (fr + (if d then 2 else 1)) off None
             /\ (l' = LNone \/ l' = LWord w_edm).
Proof.
  intros d st tk l ds c pa ro q tm tc fr off nx tE Hq. destruct (last_is l w_edm) eqn:Hl.
  - assert (El : l = LWord w_edm).
    { destruct l as [|x|a b]; try discriminate Hl. cbn [last_is] in Hl. apply Z.eqb_eq in Hl. subst x. reflexivity. }
    destruct q as [[c0 t0]|]; [destruct Hq; discriminate|]. subst l. cbn [popped]. destruct d; cbn [ctl tws].
    + rewrite tw_edm_skip, tw_edm_none_any by reflexivity. exists (LWord w_edm). split; [f_equal; lia|right; reflexivity].
    + rewrite tw_edm_skip. exists LNone. split; [reflexivity|left; reflexivity].
  - assert (E : forall n, translate_word (mkR st tk l ds c pa ro MPop q tm tc fr off None) w_edm n
                          = mkR (popped st q tE) tk (LWord w_edm) ds c pa ro MPop None tm tc (fr + 1) off None).
    { intro n. destruct q as [[c0 t0]|]; [apply tw_edm_some; [exact Hl|apply Hq]|apply tw_edm_none_any, Hl]. }
    rewrite (ctl_run d w_edm nx _ _ E eq_refl eq_refl eq_refl). destruct d.
    + exists LNone. split; [unfold bump, set_dbl, set_clock; proj_red; f_equal; lia|left; reflexivity].
    + exists (LWord w_edm). split; [reflexivity|right; reflexivity].
Qed.

Lemma eoc_washout : forall d st tk l l' ds c pa ro q tm tc fr off nx, last_is l w_eoc = false -> last_is l' w_eoc = false ->
  tws (mkR st tk l ds c pa ro MPop q tm tc fr off None) (ctl d w_eoc) nx
  = tws (mkR st tk l' ds c pa ro MPop q tm tc fr off None) (ctl d w_eoc) nx.
Proof.
  intros d st tk l l' ds c pa ro q tm tc fr off nx Hl Hl'.
  assert (E : forall n, translate_word (mkR st tk l ds c pa ro MPop q tm tc fr off None) w_eoc n
                      = translate_word (mkR st tk l' ds c pa ro MPop q tm tc fr off None) w_eoc n).
  { intro n. unfold translate_word. proj_red. rewrite (hd_eoc _ _ _ _ _ _ _ _ _ _ _ _ Hl), (hd_eoc _ _ _ _ _ _ _ _ _ _ _ _ Hl').
    reflexivity. }
  destruct d; cbn [ctl tws]; rewrite E; reflexivity.
Qed.

Lemma tws_cons : forall x w t nx, tws x (w :: t) nx = tws (translate_word x w (nxt t nx)) t nx.
Proof. reflexivity. Qed.

Lemma tws_nx : forall ws x nx, next_punct nx = false -> tws x ws nx = tws x ws None.
Proof.
  induction ws as [|w t IH]; intros x nx H; [reflexivity|]. rewrite (tws_cons x w t nx), (tws_cons x w t None).
  destruct t as [|w' t']; [|apply IH, H]. cbn [nxt tws]. apply tw_next_irrelevant. rewrite H. apply orb_true_r.
Qed.

Lemma tws_error : forall ws x nx e, r_err x = Some e -> tws x ws nx = x.
Proof.
  induction ws as [|w t IH]; intros x nx e H; [reflexivity|]. cbn [tws]. rewrite (tw_err _ _ _ _ H). eapply IH, H.
Qed.

Lemma hd_last_ne : forall x w w0, (w =? w0) = false -> last_is (r_last x) w0 = false ->
  last_is (r_last (snd (handle_double x w))) w0 = false.
Proof.
  intros x w w0 Hne Hl. dx x. cbn [r_last] in Hl.
  unfold handle_double. proj_red. cbv zeta.
  repeat match goal with
         | |- context [if ?b then _ else _] => destruct b
         | |- context [match ?x with _ => _ end] => destruct x
         end; cbn [snd]; proj_red; cbn [last_is]; try reflexivity; try exact Hne; try exact Hl; try discriminate.
Qed.

Lemma quiet_last : forall w0, quiet w0 = false -> forall ws x nx, r_active x = MPop -> forallb quiet ws = true ->
  last_is (r_last x) w0 = false -> last_is (r_last (tws x ws nx)) w0 = false.
Proof.
  intros w0 H0. induction ws as [|w t IH]; intros x nx Ha Hq Hl; [exact Hl|].
  rewrite forallb_cons in Hq. apply andb_true_iff in Hq. destruct Hq as [Hw Ht]. cbn [tws].
  apply IH; [apply quiet_active; assumption|exact Ht|].
  destruct (r_err x) eqn:He; [rewrite (tw_err _ _ _ _ He); exact Hl|].
  rewrite (proj2 (quiet_word x w _ Ha Hw He)). apply hd_last_ne; [|exact Hl].
  destruct (Z.eqb_spec w w0) as [->|]; [congruence|reflexivity].
Qed.

(* the reader after ENM RCL at the head of a line, with an empty display side *)
Definition line_start (d : bool) (tk : tracker) (pa ro : creator) (off : Q) : rstate :=
  mkR stash0 (tracker_reset tk) (if d then LNone else LWord w_rcl) d creator0 pa ro MPop None 0%Q nil (0 + (if d then 4 else 2)) off None.

(* A load line from a pop-on state, up to the end of its quiet body: the display side and the timecode ride along
   (frame_tws); everything else is one state X, whatever the display side, last_command, the buffer and the timecode *)
Lemma load_line_body : forall d tk pa ro off body, forallb quiet body = true ->
  let X := tws (line_start d tk pa ro off) body None in
  r_active X = MPop /\ last_is (r_last X) w_eoc = false /\ last_is (r_last X) w_edm = false /\ r_offset X = off /\
  (r_err X = None -> r_frames X = (if d then 4 else 2) + Z.of_nat (length body)) /\
  forall st l ds c q tm tc0 fr0 tc tail, last_is l w_enm = false -> next_punct (nxt tail None) = false ->
    translate_line (mkR st tk l ds c pa ro MPop q tm tc0 fr0 off None) (tc, (ctl d w_enm ++ ctl d w_rcl ++ body) ++ tail)
    = tws (fr_set X st q tm tc) tail None.
Proof.
  intros d tk pa ro off body Hq. cbv zeta. set (P0 := line_start d tk pa ro off).
  destruct (quiet_keeps body P0 None eq_refl Hq) as (_ & _ & _ & K4).
  pose proof (tws_clock body P0) as (_ & C2 & C3). rewrite tws_words in C2, C3.
  split; [exact K4|]. split; [apply (quiet_last w_eoc eq_refl); [reflexivity|exact Hq|destruct d; reflexivity]|].
  split; [apply (quiet_last w_edm eq_refl); [reflexivity|exact Hq|destruct d; reflexivity]|].
  split; [exact C2|]. split; [exact C3|].
  intros st l ds c q tm tc0 fr0 tc tail Hl Hnx.
  unfold translate_line. cbn [r_err fst snd]. unfold set_clock. proj_red. rewrite tws_words.
  rewrite (SccPoponStage1.tws_app (ctl d w_enm ++ ctl d w_rcl ++ body)), (app_assoc (ctl d w_enm)),
          (SccPoponStage1.tws_app (ctl d w_enm ++ ctl d w_rcl)), prologue_det by assumption.
  rewrite (tws_nx body _ (nxt tail None)) by exact Hnx.
  change (mkR st (tracker_reset tk) (if d then LNone else LWord w_rcl) d creator0 pa ro MPop q tm tc (0 + (if d then 4 else 2)) off None)
    with (fr_set P0 st q tm tc).
  rewrite (proj1 (frame_tws body P0 st q tm tc None eq_refl Hq)). reflexivity.
Qed.

Theorem inline_edm : forall d s tc tcE tcL body',
  r_err s = None -> r_active s = MPop -> last_is (r_last s) w_enm = false ->
  (last_is (r_last s) w_edm = false \/ r_queue s = None) ->
  forallb quiet body' = true ->
  same_clock (r_offset s) tc (Z.of_nat (length (ctl d w_enm ++ ctl d w_rcl ++ body'))) tcE ->
  same_clock (r_offset s) tc (if d then 2 else 1) tcL ->
  r_err (translate_line (translate_line s (tcE, ctl d w_edm)) (tcL, (ctl d w_enm ++ ctl d w_rcl ++ body') ++ ctl d w_eoc)) = None ->
  state_eq (translate_line s (tc, (ctl d w_enm ++ ctl d w_rcl ++ body') ++ ctl d w_edm ++ ctl d w_eoc))
           (translate_line (translate_line s (tcE, ctl d w_edm)) (tcL, (ctl d w_enm ++ ctl d w_rcl ++ body') ++ ctl d w_eoc)).
Proof.
  intros d s tc tcE tcL body' He Ha Hl Hlq Hq HcE HcL Hne.
  destruct s as [st tk l ds c pa ro ac q tm tc0 fr0 off e]. cbn [r_err r_active r_last r_queue r_offset] in *. subst ac e.
  pose proof (load_line_body d tk pa ro off body' Hq) as HX. revert HX. cbv zeta.
  generalize (tws (line_start d tk pa ro off) body' None). intros X (HaX & K5 & K6 & HoX & HfX & Hline).
  set (k := if d then 4 else 2) in *.
  set (ee := if d then 2 else 1) in *.
  assert (Hlen : Z.of_nat (length (ctl d w_enm ++ ctl d w_rcl ++ body')) = k + Z.of_nat (length body')).
  { clear. rewrite !app_length, !Nat2Z.inj_add, !ctl_length. unfold k. destruct d; lia. }
  rewrite Hlen in HcE.
  (* the clear line of the two-line stream *)
  unfold translate_line at 3. unfold translate_line at 2 in Hne. cbn [r_err fst snd] in *. unfold set_clock in *. proj_red. rs_cbn_in Hne.
  rewrite tws_words in *.
  assert (HqE : exists tE, match q with Some _ => get_time tcE 0 off = Ok tE /\ last_is l w_edm = false | None => True end).
  { destruct q as [[c0 t0]|]; [|exists 0%Q; exact I].
    destruct Hlq as [Hl'|Hl']; [|discriminate Hl'].
    destruct (get_time tcE 0 off) as [tE|er] eqn:Hg; [exists tE; split; [reflexivity|exact Hl']|]. exfalso.
    assert (X0 : forall n, translate_word (mkR st tk l ds c pa ro MPop (Some (c0, t0)) tm tcE 0 off None) w_edm n
                           = mkR st tk (LWord w_edm) ds c pa ro MPop (Some (c0, t0)) tm tcE 0 off (Some er)).
    { intro n. rewrite (tw_command _ w_edm n _ (hd_edm _ _ _ _ _ _ _ _ _ _ _ _ Hl') eq_refl eq_refl), translate_command_edm.
      proj_red. unfold with_time. proj_red. rewrite Hg. reflexivity. }
    destruct d; cbn [ctl tws] in Hne; rewrite X0, ?(tw_err _ _ _ er) in Hne by reflexivity; discriminate Hne. }
  destruct HqE as [tE HqE].
  destruct (edm_ctl d st tk l ds c pa ro q tm tcE 0 off None tE HqE) as (lE & EE & HlE).
  rewrite EE in *. clear EE.
  assert (HlE1 : last_is lE w_enm = false) by (destruct HlE as [->| ->]; reflexivity).
  (* both load lines *)
  rewrite (Hline st l ds c q tm tc0 fr0 tc (ctl d w_edm ++ ctl d w_eoc) Hl) by (destruct d; reflexivity).
  rewrite (Hline (popped st q tE) lE ds c None tm tcE _ tcL (ctl d w_eoc) HlE1) in * by (destruct d; reflexivity).
  destruct X as [stX tkX lX dsX cX paX roX acX qX tmX tcX frX offX eX].
  cbn [r_active r_last r_offset r_err r_frames] in *. subst acX offX. unfold fr_set in *. proj_red. rs_cbn_in Hne.
  destruct eX as [er|]; [rewrite (tws_error _ _ _ er) in Hne by reflexivity; discriminate Hne|].
  specialize (HfX eq_refl). subst frX.
  (* the EDM of the one-line stream *)
  assert (HqX : match q with Some _ => get_time tc (k + Z.of_nat (length body')) off = Ok tE /\ last_is lX w_edm = false
                | None => True end).
  { destruct q as [[c0 t0]|]; [|exact I]. destruct HqE as [Hg _]. split; [|exact K6].
    rewrite <- Hg. replace (k + Z.of_nat (length body')) with (k + Z.of_nat (length body') + 0) by apply Z.add_0_r.
    apply HcE, Z.le_refl. }
  destruct (edm_ctl d st tkX lX dsX cX paX roX q tm tc (k + Z.of_nat (length body')) off (nxt (ctl d w_eoc) None) tE HqX)
    as (lX' & EX' & HlX').
  rewrite (SccPoponStage1.tws_app (ctl d w_edm)). rewrite EX'. clear EX'.
  assert (HlX1 : last_is lX' w_eoc = false) by (destruct HlX' as [->| ->]; reflexivity).
  rewrite (eoc_washout d _ _ lX' lX) by assumption.
  rewrite <- !tws_words. apply se_translate_words. apply se_mk. intros j Hj.
  fold ee. replace (k + Z.of_nat (length body') + ee + j) with (ee + (k + Z.of_nat (length body') + j)) by (clear; lia).
  apply HcL. clear - Hj. unfold k. destruct d; lia.
Qed.

Lemma word_quiet : forall b x, b <> 148 -> 0 <= x < 256 -> quiet (b * 256 + x) = true.
Proof.
  intros b x Hb Hx. unfold quiet. apply negb_true_iff. repeat (apply orb_false_iff; split); apply Z.eqb_neq;
    unfold w_rdc, w_ru2, w_ru3, w_ru4, w_eoc, w_cr, w_edm; lia.
Qed.

Definition byteq (y : Z) : Prop := 0 <= y < 256 /\ y <> 148.

Lemma forallb_zrange : forall (f : Z -> bool) lo n, forallb f (zrange lo n) = true ->
  forall x, Z.of_nat lo <= x < Z.of_nat lo + Z.of_nat n -> f x = true.
Proof. intros f lo n H x Hx. rewrite forallb_forall in H. apply H, in_zrange, Hx. Qed.

(* the parity-adjusted code of a basic character is a byte other than 94 (the codes that are not quiet), 97 (tab offsets)
   and 91 (special characters) *)
Lemma parity_bytes : forallb (fun y => negb (odd_parity y =? 148) && negb (odd_parity y =? 151) && negb (odd_parity y =? 145))
                             (0 :: zrange 32 95) = true.
Proof. vm_compute. reflexivity. Qed.

Lemma op_byte : forall c, 0 <= odd_parity (basic_code c) < 256 /\ odd_parity (basic_code c) <> 148 /\
                          odd_parity (basic_code c) <> 151 /\ odd_parity (basic_code c) <> 145.
Proof.
  intros c. split; [apply odd_parity_range|]. pose proof parity_bytes as T. rewrite forallb_forall in T.
  assert (H : In (basic_code c) (0 :: zrange 32 95)) by (destruct (basic_code_cases c) as [->|H]; [left; reflexivity|right; exact H]).
  specialize (T _ H). lia.
Qed.

Lemma opq : forall c, byteq (odd_parity (basic_code c)).
Proof. intros c. destruct (op_byte c) as (H & H1 & _). split; assumption. Qed.

Definition tokq (t : tok) : Prop := match t with TCh _ => True | TCode w => quiet w = true end.
Definition pendq (p : option Z) : Prop := match p with Some b => byteq b | None => True end.

Lemma forallb_app_true : forall (f : Z -> bool) a b, forallb f a = true -> forallb f b = true -> forallb f (a ++ b) = true.
Proof. intros f a b Ha Hb. rewrite forallb_app, Ha, Hb. reflexivity. Qed.

Lemma flush_quiet : forall p, pendq p -> forallb quiet (flush p) = true.
Proof.
  intros [b|] H; [|reflexivity]. cbn [flush forallb]. destruct H as [_ H]. rewrite (word_quiet b 128 H) by lia. reflexivity.
Qed.
Lemma ctl_quiet : forall d w, quiet w = true -> forallb quiet (ctl d w) = true.
Proof. intros [|] w H; cbn [ctl forallb]; rewrite H; reflexivity. Qed.

Lemma pack_quiet : forall d ts p, Forall tokq ts -> pendq p -> forallb quiet (pack d ts p) = true.
Proof.
  intros d. induction ts as [|t ts IH]; intros p F Hp; [apply flush_quiet, Hp|].
  inversion F as [|x y Ht F']; subst. destruct t as [c|w]; cbn [pack].
  - destruct p as [b|].
    + cbn [forallb]. destruct Hp as [_ Hb]. destruct (opq c) as [Hr _]. rewrite (word_quiet b _ Hb Hr).
      apply (IH None F' I).
    + apply (IH (Some (odd_parity (basic_code c))) F'). apply opq.
  - apply forallb_app_true; [apply flush_quiet, Hp|]. apply forallb_app_true; [apply ctl_quiet, Ht|]. apply (IH None F' I).
Qed.

(* the first byte of every code word other than a preamble code and backspace is not 94 *)
Lemma word2_quiet : forall a b, odd_parity a <> 148 -> quiet (word a b) = true.
Proof. intros a b H. apply word_quiet; [exact H|apply odd_parity_range]. Qed.

Lemma items_quiet : forall its prev, items_ok its prev = true -> Forall tokq (flat_map toks_of_item its).
Proof.
  induction its as [|it t IH]; intros prev H; [constructor|].
  cbn [items_ok] in H. apply andb_true_iff in H. destruct H as [_ H2]. cbn [flat_map]. apply Forall_app. split; [|exact (IH _ H2)].
  destruct it as [c|i|s g i|a|]; cbn [toks_of_item]; repeat (constructor; [try exact I|]); try constructor; cbn [tokq].
  - apply word2_quiet. vm_compute. discriminate.
  - unfold ext_word. destruct (g =? 0); apply word2_quiet; vm_compute; discriminate.
  - apply word2_quiet. vm_compute. discriminate.
Qed.

Lemma pac_words_quiet : forallb (fun r => forallb (fun a => quiet (pac_word r a)) (zrange 0 32)) (zrange 1 15) = true.
Proof. vm_compute. reflexivity. Qed.

Lemma row_quiet : forall d r, row_ok r = true -> forallb quiet (emit_row d r) = true.
Proof.
  intros d r H. destruct (row_ok_parts r H) as (Hr & Hm & _ & Hio & _). destruct (row_ok_style r H) as [Hs1 Hs2].
  destruct (pac_attr_facts2 r (mem_In _ _ Hm) Hs1 Hs2) as (Ha & _).
  unfold emit_row. apply forallb_app_true; [|apply pack_quiet; [exact (items_quiet _ _ Hio)|exact I]].
  assert (Hu : forallb quiet (pac_word (rw_row r) (pac_attr r) :: (if 0 <? rw_tab r then [tab_word (rw_tab r)] else [])) = true).
  { pose proof (forallb_zrange _ _ _ pac_words_quiet (rw_row r) ltac:(clear - Hr; lia)) as Hp. cbv beta in Hp.
    cbn [forallb]. rewrite (forallb_zrange _ _ _ Hp (pac_attr r) ltac:(clear - Ha; lia)).
    destruct (0 <? rw_tab r); [|reflexivity]. cbn [forallb]. unfold tab_word. rewrite word2_quiet by (vm_compute; discriminate).
    reflexivity. }
  unfold pac_unit. cbv zeta. destruct d; [apply forallb_app_true; exact Hu|exact Hu].
Qed.

Theorem load_quiet : forall d l, load_wf l = true -> forallb quiet (flat_map (emit_row d) l) = true.
Proof.
  intros d l H. unfold load_wf in H. destruct l as [|r0 t0]; [discriminate H|]. apply andb_true_iff in H. destruct H as [H _].
  revert H. generalize (r0 :: t0). induction l as [|r t IH]; intros H; [reflexivity|].
  rewrite forallb_cons in H. apply andb_true_iff in H. destruct H as [Hr Ht]. cbn [flat_map].
  apply forallb_app_true; [apply row_quiet, Hr|apply IH, Ht].
Qed.

(* a segment: a pseg line, or a writer-style load line  tc: ENM RCL rows EDM EOC.  tcE / tcL are timecodes
   denoting the instant of the line's EDM word / the instant (1 | 2) frames after tc: the line is then equivalent to the
   two lines  tcE: EDM | tcL: ENM RCL rows EOC  in which the EDM and the EOC keep their instants. For rendered timecodes
   such tcE / tcL exist (winline_clock below). *)
Inductive wseg : Type :=
| WSeg (p : pseg)
| WInline (tc tcE tcL : str) (l : load).

Definition wseg_line (d : bool) (s : wseg) : sline :=
  match s with WSeg p => pseg_line d p | WInline tc _ _ l => (tc, emit_load_w d l) end.
Definition wseg_expand (s : wseg) : list pseg :=
  match s with WSeg p => [p] | WInline _ tcE tcL l => [PClear tcE; PLoad tcL l] end.
Definition wseg_clock (d : bool) (off : Q) (s : wseg) : Prop :=
  match s with
  | WSeg _ => True
  | WInline tc tcE tcL l => same_clock off tc (Z.of_nat (length (load_body d l))) tcE /\
                            same_clock off tc (if d then 2 else 1) tcL
  end.
Definition wexpand (ws : list wseg) : list pseg := flat_map wseg_expand ws.

Definition binv (l : lastcmd) (q : option (creator * Q)) : Prop :=
  last_is l w_enm = false /\ (q = None \/ last_is l w_edm = false).

(* the reader between two segments: pop-on, nothing buffered, no error, binv *)
Definition bst (off : Q) (s : rstate) : Prop :=
  exists st tk l ds q tm tc fr, s = B off st tk l ds q tm tc fr /\ binv l q.

Lemma bst_B : forall off st tk l ds q tm tc fr, binv l q -> bst off (B off st tk l ds q tm tc fr).
Proof. intros off st tk l ds q tm tc fr H. exists st, tk, l, ds, q, tm, tc, fr. split; [reflexivity|exact H]. Qed.

Lemma pseg_step : forall d off p ev s, pseg_ok8 p = true -> pseg_event d off p = Ok ev -> bst off s ->
  bst off (translate_line s (pseg_line d p)).
Proof.
  intros d off p ev s Hok Hev (st & tk & l & ds & q & tm & tc & fr & -> & Hl1 & Hl2).
  destruct p as [tc1 ld|tc1]; cbn [pseg_ok8 pseg_event pseg_line] in *.
  - destruct (get_time tc1 _ off) as [t|x] eqn:Eg; [|discriminate].
    destruct (line8 d off ld st tk l ds q tm tc fr tc1 t Hok Hl1 Eg) as (cr & tk' & l' & ds' & fr' & E & _ & Hl' & Hl'').
    rewrite E. apply bst_B. split; [exact Hl''|right; exact Hl'].
  - destruct (get_time tc1 0 off) as [t|x] eqn:Eg; [|discriminate].
    rewrite translate_line_B. unfold emit_clear, B. change (ctrl_word 44) with w_edm.
    destruct (edm_ctl d st tk l ds creator0 creator0 creator0 q tm tc1 0 off None t) as (l' & -> & Hl').
    { destruct q; [split; [exact Eg|destruct Hl2; [discriminate|assumption]]|exact I]. }
    apply (bst_B off (popped st q t) tk l' ds None tm tc1). split; [destruct Hl' as [->| ->]; reflexivity|left; reflexivity].
Qed.

Lemma emit_load_shape : forall d l,
  emit_load d l = (ctl d w_enm ++ ctl d w_rcl ++ flat_map (emit_row d) l) ++ ctl d w_eoc.
Proof. intros d l. unfold emit_load. rewrite <- !app_assoc. reflexivity. Qed.

Lemma bst_facts : forall off s, bst off s ->
  r_err s = None /\ r_active s = MPop /\ r_offset s = off /\ binv (r_last s) (r_queue s).
Proof. intros off s (st & tk & l & ds & q & tm & tc & fr & -> & H). repeat split; apply H. Qed.

(* inline_edm from a state equivalent to one between two segments *)
Lemma inline_step : forall d off s1 s2 tc tcE tcL body, bst off s2 -> state_eq s1 s2 -> forallb quiet body = true ->
  same_clock off tc (Z.of_nat (length (ctl d w_enm ++ ctl d w_rcl ++ body))) tcE -> same_clock off tc (if d then 2 else 1) tcL ->
  r_err (translate_line (translate_line s2 (tcE, ctl d w_edm)) (tcL, (ctl d w_enm ++ ctl d w_rcl ++ body) ++ ctl d w_eoc)) = None ->
  state_eq (translate_line s1 (tc, (ctl d w_enm ++ ctl d w_rcl ++ body) ++ ctl d w_edm ++ ctl d w_eoc))
           (translate_line (translate_line s2 (tcE, ctl d w_edm)) (tcL, (ctl d w_enm ++ ctl d w_rcl ++ body) ++ ctl d w_eoc)).
Proof.
  intros d off s1 s2 tc tcE tcL body Hb Hse Hq HcE HcL Hne. destruct (bst_facts off s2 Hb) as (He & Ha & Ho & Hl1 & Hl2).
  pose proof (se_translate_line _ _ (tcL, (ctl d w_enm ++ ctl d w_rcl ++ body) ++ ctl d w_eoc)
                (se_translate_line _ _ (tcE, ctl d w_edm) Hse)) as Hs2.
  eapply se_trans; [|exact Hs2].
  apply inline_edm; rewrite ?(se_err _ _ Hs2), ?(se_err _ _ Hse), ?(se_active _ _ Hse), ?(se_last _ _ Hse), ?(se_queue _ _ Hse),
                            ?(se_offset _ _ Hse), ?Ho; try assumption.
  destruct Hl2; [right|left]; assumption.
Qed.

Lemma psegs_run : forall d off ps s, forallb pseg_ok8 ps = true ->
  Forall (fun p => exists ev, pseg_event d off p = Ok ev) ps -> bst off s -> bst off (run s (map (pseg_line d) ps)).
Proof.
  intros d off. induction ps as [|p ps IH]; intros s Hok Hev Hb; [exact Hb|].
  rewrite forallb_cons in Hok. apply andb_true_iff in Hok. destruct Hok as [Hp Hok].
  inversion Hev as [|p0 x0 [ev Hevp] Hev']; subst. exact (IH _ Hok Hev' (pseg_step d off p ev s Hp Hevp Hb)).
Qed.

(* a stream of segments of any kind, each read like its expansion into pseg lines *)
Lemma run_segs : forall (S : Type) (line : S -> sline) (expand : S -> list pseg) (ok : S -> Prop) d off,
  (forall x s1 s2, ok x -> forallb pseg_ok8 (expand x) = true ->
     Forall (fun p => exists ev, pseg_event d off p = Ok ev) (expand x) -> bst off s2 -> state_eq s1 s2 ->
     state_eq (translate_line s1 (line x)) (run s2 (map (pseg_line d) (expand x)))) ->
  forall xs, Forall ok xs -> forallb pseg_ok8 (flat_map expand xs) = true ->
  Forall (fun p => exists ev, pseg_event d off p = Ok ev) (flat_map expand xs) ->
  forall s1 s2, bst off s2 -> state_eq s1 s2 ->
  state_eq (run s1 (map line xs)) (run s2 (map (pseg_line d) (flat_map expand xs))).
Proof.
  intros S line expand ok d off Hstep. induction xs as [|x xs IH]; intros Hck Hok Hev s1 s2 Hb Hse; [exact Hse|].
  inversion Hck as [|x0 xs0 Hx Hck']; subst. cbn [flat_map map] in *.
  rewrite forallb_app in Hok. apply andb_true_iff in Hok. destruct Hok as [Hok1 Hok2].
  apply Forall_app in Hev. destruct Hev as [Hev1 Hev2]. rewrite map_app, run_app.
  exact (IH Hck' Hok2 Hev2 _ _ (psegs_run d off _ s2 Hok1 Hev1 Hb) (Hstep x s1 s2 Hx Hok1 Hev1 Hb Hse)).
Qed.

Lemma wseg_step : forall d off w s1 s2, wseg_clock d off w -> forallb pseg_ok8 (wseg_expand w) = true ->
  Forall (fun p => exists ev, pseg_event d off p = Ok ev) (wseg_expand w) -> bst off s2 -> state_eq s1 s2 ->
  state_eq (translate_line s1 (wseg_line d w)) (run s2 (map (pseg_line d) (wseg_expand w))).
Proof.
  intros d off [p|tc1 tcE tcL ld] s1 s2 Hw Hok Hev Hb Hse; cbn [wseg_expand wseg_line wseg_clock] in *.
  - apply se_translate_line, Hse.
  - pose proof (psegs_run d off _ s2 Hok Hev Hb) as Hb2. destruct Hw as [HcE HcL].
    cbn [forallb] in Hok. apply andb_true_iff in Hok. destruct Hok as [_ Hok]. apply andb_true_iff in Hok. destruct Hok as [Hld _].
    unfold run in *. cbn [map fold_left pseg_line] in *. rewrite emit_load_shape in *. unfold emit_clear in *.
    change (ctrl_word 44) with w_edm in *.
    exact (inline_step d off s1 s2 tc1 tcE tcL _ Hb Hse (load_quiet d ld Hld) HcE HcL (proj1 (bst_facts off _ Hb2))).
Qed.

Lemma run_wsegs : forall d off ws, Forall (wseg_clock d off) ws -> forallb pseg_ok8 (wexpand ws) = true ->
  Forall (fun p => exists ev, pseg_event d off p = Ok ev) (wexpand ws) ->
  forall s1 st tk l ds q tm tc fr, binv l q -> state_eq s1 (B off st tk l ds q tm tc fr) ->
  state_eq (run s1 (map (wseg_line d) ws)) (run (B off st tk l ds q tm tc fr) (map (pseg_line d) (wexpand ws))).
Proof.
  intros d off ws Hck Hok Hev s1 st tk l ds q tm tc fr Hinv.
  apply (run_segs _ (wseg_line d) wseg_expand (wseg_clock d off) d off (wseg_step d off)); try assumption.
  apply bst_B, Hinv.
Qed.

Lemma res_map_each : forall A B (f : A -> result B) l bs, res_map f l = Ok bs -> Forall (fun a => exists b, f a = Ok b) l.
Proof.
  intros A B f l bs H. apply res_map_Forall2 in H.
  induction H as [|a b l' bs' Hb _ IH]; constructor; [exists b; exact Hb|exact IH].
Qed.

(* reading the stream with writer-style load lines = reading the stream with the EDM on a line of its own *)
Theorem read_wsegs : forall d off ws evs, Forall (wseg_clock d off) ws -> forallb pseg_ok8 (wexpand ws) = true ->
  res_map (pseg_event d off) (wexpand ws) = Ok evs ->
  read off (map (wseg_line d) ws) = read off (map (pseg_line d) (wexpand ws)).
Proof.
  intros d off ws evs Hck Hok Hev. apply read_state_eq.
  exact (run_wsegs d off ws Hck Hok (res_map_each _ _ _ _ _ Hev) (rstate0 off) stash0 tracker0 LNone false None 0%Q
           (lit "00:00:00;00") 0 (conj eq_refl (or_introl eq_refl)) (se_refl _)).
Qed.

Theorem popon_refines_608_inline : forall d off ws evs spans,
  Forall (wseg_clock d off) ws -> forallb pseg_ok8 (wexpand ws) = true ->
  res_map (pseg_event d off) (wexpand ws) = Ok evs -> positive evs -> after_show None evs ->
  expected_with join_threshold evs = Ok spans ->
  exists caps, read off (map (wseg_line d) ws) = ROk caps /\
               ok_c05 (mkProg d (ploads_of (wexpand ws))) (Ok (map observe caps)) = true /\
               dom_c05 (mkProg d (ploads_of (wexpand ws))) = true.
Proof.
  intros d off ws evs spans Hck Hok Hev Hp Ha Hx. rewrite (read_wsegs d off ws evs Hck Hok Hev).
  exact (popon_refines_608 d off (wexpand ws) evs spans Hok Hev Hp Ha Hx).
Qed.

Theorem popon_times_inline : forall d off ws evs,
  Forall (wseg_clock d off) ws -> forallb pseg_ok8 (wexpand ws) = true ->
  res_map (pseg_event d off) (wexpand ws) = Ok evs -> positive evs ->
  spans_of (read off (map (wseg_line d) ws))
  = rmap (fun spans => flat_map bspans (combine (ploads_of (wexpand ws)) spans)) (expected_with join_threshold evs).
Proof.
  intros d off ws evs Hck Hok Hev Hp. rewrite (read_wsegs d off ws evs Hck Hok Hev).
  exact (popon_times d off (wexpand ws) evs Hok Hev Hp).
Qed.

Ltac Zify.zify_post_hook ::= Z.to_euclidean_division_equations.

Definition tc_total (t : timecode) : Z := (tc_h t * 3600 + tc_m t * 60 + tc_s t) * 30 + tc_f t.
(* the canonical timecode n frames later (frame field 0..29) *)
Definition tc_shift (t : timecode) (n : Z) : timecode :=
  let F := tc_total t + n in mkTc (F / 108000) ((F / 1800) mod 60) ((F / 30) mod 60) (tc_drop t) (F mod 30).

Lemma tc_shift_wf : forall t n, tc_wf t = true -> 0 <= n -> tc_total t + n < 10800000 -> tc_wf (tc_shift t n) = true.
Proof.
  intros t n W Hn Hb. assert (H0 : 0 <= tc_total t) by (unfold tc_total, tc_wf in *; lia).
  unfold tc_wf, tc_shift. cbn [tc_h tc_m tc_s tc_f tc_drop]. generalize dependent (tc_total t). intros T HT HT0. lia.
Qed.

Theorem same_clock_shift : forall off t n, tc_wf t = true -> 0 <= n -> tc_total t + n < 10800000 ->
  same_clock off (render_tc t) n (render_tc (tc_shift t n)).
Proof.
  intros off t n W Hn Hb.
  assert (H0 : 0 <= tc_total t) by (unfold tc_total, tc_wf in *; lia).
  apply same_clock_wf; try assumption.
  - apply tc_shift_wf; assumption.
  - reflexivity.
  - unfold tc_shift. cbn [tc_h tc_m tc_s tc_f tc_drop]. fold (tc_total t). generalize dependent (tc_total t). intros T HT HT0. lia.
Qed.

Definition winline (d : bool) (t : timecode) (l : load) : wseg :=
  WInline (render_tc t) (render_tc (tc_shift t (Z.of_nat (length (load_body d l)))))
          (render_tc (tc_shift t (if d then 2 else 1))) l.

Theorem winline_clock : forall d off t l, tc_wf t = true ->
  tc_total t + Z.of_nat (length (load_body d l)) + 2 < 10800000 -> wseg_clock d off (winline d t l).
Proof.
  intros d off t l W Hb. unfold winline, wseg_clock. split; apply same_clock_shift; try assumption; try lia; destruct d; lia.
Qed.

(* an instance: two writer-style lines (the second one directly after the first: no clear line in between, as the writer
   does when the next caption follows at once) and a final clear line, control codes doubled *)
Definition exw_l1 : load := [mkRow 14 0 0 16 [Ch 72; Ch 105]; mkRow 15 0 0 16 [Ch 116; Ch 104; Ch 101; Ch 114; Ch 101]].
Definition exw_l2 : load := [mkRow 15 0 0 16 [Ch 98; Ch 121; Ch 101]].
Definition exw_ws : list wseg :=
  [winline true (mkTc 0 0 1 false 0) exw_l1; winline true (mkTc 0 0 2 false 27) exw_l2; WSeg (PClear (lit "00:00:05:00"))].

(* 94ae 94ae 9420 9420 94d0 94d0 c8e9 9470 9470 f468 e5f2 e580 942c 942c 942f 942f : the words SCCWriter writes for "Hi\nthere" *)
Example exw_lines : map (wseg_line true) exw_ws =
  [ (lit "00:00:01:00", [38062; 38062; 37920; 37920; 38096; 38096; 51433; 38000; 38000; 62568; 58866; 58752; 37932; 37932; 37935; 37935]);
    (lit "00:00:02:27", [38062; 38062; 37920; 37920; 38000; 38000; 25209; 58752; 37932; 37932; 37935; 37935]);
    (lit "00:00:05:00", [37932; 37932]) ].
Proof. vm_compute. reflexivity. Qed.

Example exw_hyps : Forall (wseg_clock true 0) exw_ws /\ forallb pseg_ok8 (wexpand exw_ws) = true.
Proof.
  split; [|vm_compute; reflexivity].
  constructor; [apply winline_clock; [reflexivity|vm_compute; reflexivity]|].
  constructor; [apply winline_clock; [reflexivity|vm_compute; reflexivity]|]. constructor; [exact I|constructor].
Qed.

Example exw_runs :
  match res_map (pseg_event true 0) (wexpand exw_ws) with
  | Ok evs => match read 0 (map (wseg_line true) exw_ws) with
              | ROk caps => ok_c05 (mkProg true [exw_l1; exw_l2]) (Ok (map observe caps)) && Nat.eqb (length caps) 2
              | _ => false
              end
  | Err _ => false
  end = true.
Proof. vm_compute. reflexivity. Qed.
