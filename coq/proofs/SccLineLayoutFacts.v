(* LINE-LAYOUT INVARIANCE of the SCC reader model (C05 / C06).
   The refinement theorems of proofs/SccPoponStage9.v are stated for one stream layout (one load per timecode line,
   Erase-Displayed-Memory on lines of their own). Here: the reader model does not depend on how a word sequence is
   distributed over timecode lines, as long as every word keeps its instant (`same_clock`) and no line ends right
   after a word whose interpretation looks at the following word of the same line (mid-row codes, `split_ok`).

   1. same_clock, and frame arithmetic on rendered timecodes (same_clock_wf, same_clock_frames)
   2. state_eq: equality of reader states up to the representation (timecode string, frame counter) of the clock;
      the operations of a word neither write the clock nor read it except through get_time (`blind`), so
      translate_word / translate_words / translate_line / flush_implicit respect state_eq
   3. the clock along a run (tw_clock, tws_clock); the only use of `next`: tw_next_irrelevant; the split lemma split_line
   4. relayout (split / merge / empty lines, context, symmetry, transitivity) and read_layout_invariant
   5. the corollaries for popon_refines_608 / popon_times, a load split in two lines, two segments on one line
   6. a concrete example *)
From Coq Require Import List ZArith QArith Lia Bool.
From PV Require Import lib.Sx lib.Str lib.Result model.GenScc model.SccTime model.SccStash model.SccDecoder model.SccPopon.
From PV Require Import spec.Spec608 spec.SpecScc05 spec.SpecSccTime.
From PV Require Import proofs.SccTimeFacts proofs.SccPoponFacts proofs.SccPoponStage3 proofs.SccPoponStage6 proofs.SccPoponStage9.
Import ListNotations.
Open Scope Z_scope.

(* 1. clocks                                                                                           *)

(* the timecode tc' denotes the instant n frames after tc (as far as the time translator can tell) *)
Definition same_clock (off : Q) (tc : str) (n : Z) (tc' : str) : Prop :=
  forall k, 0 <= k -> get_time tc (n + k) off = get_time tc' k off.

(* get_time returns a fraction in lowest terms (or 0), so two readings that are == are equal *)
Lemma time_formula_red : forall h m s ff drop off, Qred (time_formula h m s ff drop off) = time_formula h m s ff drop off.
Proof. intros. unfold time_formula, floor0. destruct (Qle_bool 0 _); [apply Qred_complete, Qred_correct | reflexivity]. Qed.

Lemma get_time_red : forall tc k off t, get_time tc k off = Ok t -> Qred t = t.
Proof.
  intros tc k off t. unfold get_time, translate_time.
  destruct (int_of_digits (last2 tc)); [|discriminate]. destruct (negb _); [discriminate|].
  destruct (split_ch _ _) as [|a [|b [|c [|d r]]]]; try discriminate.
  destruct (int_of_digits a), (int_of_digits b), (int_of_digits c), (int_of_digits d); try discriminate.
  intros [= <-]. apply time_formula_red.
Qed.

(* get_time on a rendered timecode, as a Leibniz equality (get_time_exact gives the value up to ==) *)
Lemma get_time_formula : forall tc k off, tc_wf tc = true -> 0 <= k ->
  get_time (render_tc tc) k off = Ok (time_formula (tc_h tc) (tc_m tc) (tc_s tc) (tc_f tc + k) (tc_drop tc) off).
Proof.
  intros tc k off Hwf Hk. destruct (get_time_exact tc k off Hwf Hk) as (t & E & Ht).
  rewrite E, <- (get_time_red _ _ _ _ E), <- time_formula_red. f_equal. apply Qred_complete.
  rewrite Ht. symmetry. apply formula_spec.
Qed.

(* the formula only depends on the frame number (hh*3600 + mm*60 + ss) * 30 + ff *)
Lemma time_formula_frames : forall h m s ff h' m' s' ff' drop off,
  (h * 3600 + m * 60 + s) * 30 + ff = (h' * 3600 + m' * 60 + s') * 30 + ff' ->
  time_formula h m s ff drop off = time_formula h' m' s' ff' drop off.
Proof.
  intros h m s ff h' m' s' ff' drop off H. unfold time_formula. f_equal. apply Qred_complete.
  set (S := h * 3600 + m * 60 + s) in *. set (S' := h' * 3600 + m' * 60 + s') in *.
  assert (E : (inject_Z S + inject_Z ff / inject_Z 30 == inject_Z S' + inject_Z ff' / inject_Z 30)%Q).
  { replace ff' with (30 * (S - S') + ff) by lia.
    rewrite inject_Z_plus, inject_Z_mult. unfold Zminus. rewrite inject_Z_plus, inject_Z_opp.
    change (inject_Z 30) with (30 # 1)%Q. field. }
  rewrite E. reflexivity.
Qed.

(* frame arithmetic: two well-formed timecodes of the same kind, n frames apart in hh:mm:ss:ff counting *)
Theorem same_clock_wf : forall off t t' n, tc_wf t = true -> tc_wf t' = true -> tc_drop t = tc_drop t' -> 0 <= n ->
  (tc_h t * 3600 + tc_m t * 60 + tc_s t) * 30 + tc_f t + n = (tc_h t' * 3600 + tc_m t' * 60 + tc_s t') * 30 + tc_f t' ->
  same_clock off (render_tc t) n (render_tc t').
Proof.
  intros off t t' n W W' D Hn H k Hk.
  rewrite !get_time_formula by (assumption || lia). rewrite D. f_equal. apply time_formula_frames. lia.
Qed.

(* same hh:mm:ss, frame field ff + n (the field is two digits: ff + n < 100; it may exceed 29) *)
Corollary same_clock_frames : forall off t n, tc_wf t = true -> 0 <= n -> tc_f t + n < 100 ->
  same_clock off (render_tc t) n (render_tc (mkTc (tc_h t) (tc_m t) (tc_s t) (tc_drop t) (tc_f t + n))).
Proof.
  intros off t n W Hn Hf. apply same_clock_wf; try assumption; cbn [tc_h tc_m tc_s tc_f tc_drop]; try reflexivity.
  all: unfold tc_wf in *; cbn [tc_h tc_m tc_s tc_f tc_drop]; lia.
Qed.

Example same_clock_example : forall off, same_clock off (lit "00:00:01:00") 4 (lit "00:00:01:04").
Proof. intro off. exact (same_clock_frames off (mkTc 0 0 1 false 0) 4 eq_refl ltac:(lia) ltac:(cbn; lia)). Qed.

(* 26 frames before the next second: the frame field rolls over *)
Example same_clock_example_rollover : forall off, same_clock off (lit "00:00:01:26") 6 (lit "00:00:02:02").
Proof.
  intro off. exact (same_clock_wf off (mkTc 0 0 1 false 26) (mkTc 0 0 2 false 2) 6 eq_refl eq_refl eq_refl ltac:(lia) eq_refl).
Qed.

(* 2. states up to the representation of the clock                                                     *)

Definition clock_eq (s1 s2 : rstate) : Prop :=
  forall k, 0 <= k -> get_time (r_tc s1) (r_frames s1 + k) (r_offset s1) = get_time (r_tc s2) (r_frames s2 + k) (r_offset s2).

(* every field but (r_tc, r_frames) is equal; the two clocks denote the same instants now and after any number of
   further words *)
Record state_eq (s1 s2 : rstate) : Prop := mkSE {
  se_stash : r_stash s1 = r_stash s2;   se_tk : r_tk s1 = r_tk s2;         se_last : r_last s1 = r_last s2;
  se_dstart : r_dstart s1 = r_dstart s2; se_pop : r_pop s1 = r_pop s2;     se_paint : r_paint s1 = r_paint s2;
  se_roll : r_roll s1 = r_roll s2;       se_active : r_active s1 = r_active s2; se_queue : r_queue s1 = r_queue s2;
  se_time : r_time s1 = r_time s2;       se_offset : r_offset s1 = r_offset s2; se_err : r_err s1 = r_err s2;
  se_clock : clock_eq s1 s2 }.

Ltac rs_cbn_in H :=
  cbn [r_stash r_tk r_last r_dstart r_pop r_paint r_roll r_active r_queue r_time r_tc r_frames r_offset r_err
       set_dbl set_buf set_tk set_stash set_active set_queue set_time set_clock set_err buf bump fst snd] in H.

Lemma se_mk : forall st tk l ds po pa ro ac q tm off e tc1 f1 tc2 f2,
  (forall k, 0 <= k -> get_time tc1 (f1 + k) off = get_time tc2 (f2 + k) off) ->
  state_eq (mkR st tk l ds po pa ro ac q tm tc1 f1 off e) (mkR st tk l ds po pa ro ac q tm tc2 f2 off e).
Proof. intros. constructor; try reflexivity. exact H. Qed.

Lemma se_refl : forall s, state_eq s s.
Proof. intro s. constructor; try reflexivity. intros k _. reflexivity. Qed.
Lemma se_sym : forall s1 s2, state_eq s1 s2 -> state_eq s2 s1.
Proof. intros s1 s2 H. destruct H. constructor; try (symmetry; assumption). intros k Hk. symmetry. auto. Qed.
Lemma se_trans : forall s1 s2 s3, state_eq s1 s2 -> state_eq s2 s3 -> state_eq s1 s3.
Proof.
  intros s1 s2 s3 H1 H2. destruct H1, H2. constructor; try (etransitivity; eassumption).
  intros k Hk. etransitivity; [apply se_clock0 | apply se_clock1]; assumption.
Qed.

Lemma se_set_clock : forall s1 s2 tc f, state_eq s1 s2 -> state_eq (set_clock s1 tc f) (set_clock s2 tc f).
Proof. intros s1 s2 tc f H. destruct s1, s2, H. cbn in *. subst. apply se_mk. reflexivity. Qed.
Lemma se_bump : forall s1 s2, state_eq s1 s2 -> state_eq (bump s1) (bump s2).
Proof.
  intros s1 s2 H. destruct s1, s2, H as [? ? ? ? ? ? ? ? ? ? ? ? Hclk]. unfold clock_eq in Hclk. cbn in *. subst.
  apply se_mk. intros k Hk. rewrite <- !Z.add_assoc. apply Hclk. lia.
Qed.

(* Up to the bump that ends a word the decoder reads the clock (r_tc, r_frames, r_offset) through get_time only and
   never writes it.  Said once, as a logical relation: two states that agree on every other field and whose clocks are
   related by R - any relation that forces equal readings - stay so under every operation (`blind`).  With R := "the
   same instants from now on" this is the congruence of state_eq (blind_se); with R := "both are the clock of s" it says
   that the operation leaves the clock of s alone (blind_keeps). *)
Definition reads_agree (R : str -> Z -> Q -> str -> Z -> Q -> Prop) : Prop :=
  forall tc1 f1 o1 tc2 f2 o2, R tc1 f1 o1 tc2 f2 o2 -> get_time tc1 f1 o1 = get_time tc2 f2 o2.

Definition word_effect (s : rstate) (w : Z) (next : option Z) : rstate :=
  if is_command w || is_pac w then translate_command s w next
  else match special_of w with
       | Some txt => add_to_buf s txt
       | None =>
           match extended_of w with
           | Some txt => add_to_buf (set_buf s (handle_backspace w (buf s))) txt
           | None => match char_of (hi w), char_of (lo w) with Some a, Some b => add_to_buf s (a ++ b) | _, _ => s end
           end
       end.

Section ClockRel.
Variable R : str -> Z -> Q -> str -> Z -> Q -> Prop.
Hypothesis R_now : reads_agree R.

Record sim (s1 s2 : rstate) : Prop := mkSim {
  sm_stash : r_stash s1 = r_stash s2;   sm_tk : r_tk s1 = r_tk s2;         sm_last : r_last s1 = r_last s2;
  sm_dstart : r_dstart s1 = r_dstart s2; sm_pop : r_pop s1 = r_pop s2;     sm_paint : r_paint s1 = r_paint s2;
  sm_roll : r_roll s1 = r_roll s2;       sm_active : r_active s1 = r_active s2; sm_queue : r_queue s1 = r_queue s2;
  sm_time : r_time s1 = r_time s2;       sm_err : r_err s1 = r_err s2;
  sm_clock : R (r_tc s1) (r_frames s1) (r_offset s1) (r_tc s2) (r_frames s2) (r_offset s2) }.

Lemma sim_mk : forall st tk l ds po pa ro ac q tm e tc1 f1 o1 tc2 f2 o2, R tc1 f1 o1 tc2 f2 o2 ->
  sim (mkR st tk l ds po pa ro ac q tm tc1 f1 o1 e) (mkR st tk l ds po pa ro ac q tm tc2 f2 o2 e).
Proof. intros. constructor; try reflexivity. exact H. Qed.

(* open a hypothesis sim s1 s2 (s1, s2 variables): both states become constructor terms sharing all non-clock fields *)
Ltac sim_open H :=
  match type of H with
  | sim ?s1 ?s2 =>
      destruct s1, s2; destruct H;
      cbn [r_stash r_tk r_last r_dstart r_pop r_paint r_roll r_active r_queue r_time r_tc r_frames r_offset r_err] in *;
      subst
  end.

Lemma sim_buf : forall s1 s2, sim s1 s2 -> buf s1 = buf s2.
Proof. intros s1 s2 H. unfold buf. rewrite (sm_active _ _ H), (sm_pop _ _ H), (sm_paint _ _ H), (sm_roll _ _ H). reflexivity. Qed.

Lemma sim_set_buf : forall s1 s2 c, sim s1 s2 -> sim (set_buf s1 c) (set_buf s2 c).
Proof. intros s1 s2 c H. sim_open H. unfold set_buf. cbn [r_active]. destruct r_active0; apply sim_mk; assumption. Qed.
Lemma sim_set_stash : forall s1 s2 x, sim s1 s2 -> sim (set_stash s1 x) (set_stash s2 x).
Proof. intros s1 s2 x H. sim_open H. apply sim_mk; assumption. Qed.
Lemma sim_set_tk : forall s1 s2 x, sim s1 s2 -> sim (set_tk s1 x) (set_tk s2 x).
Proof. intros s1 s2 x H. sim_open H. apply sim_mk; assumption. Qed.
Lemma sim_set_dbl : forall s1 s2 l d, sim s1 s2 -> sim (set_dbl s1 l d) (set_dbl s2 l d).
Proof. intros s1 s2 l d H. sim_open H. apply sim_mk; assumption. Qed.
Lemma sim_set_active : forall s1 s2 m, sim s1 s2 -> sim (set_active s1 m) (set_active s2 m).
Proof. intros s1 s2 m H. sim_open H. apply sim_mk; assumption. Qed.
Lemma sim_set_queue : forall s1 s2 q, sim s1 s2 -> sim (set_queue s1 q) (set_queue s2 q).
Proof. intros s1 s2 q H. sim_open H. apply sim_mk; assumption. Qed.
Lemma sim_set_time : forall s1 s2 t, sim s1 s2 -> sim (set_time s1 t) (set_time s2 t).
Proof. intros s1 s2 t H. sim_open H. apply sim_mk; assumption. Qed.
Lemma sim_set_err : forall s1 s2 e, sim s1 s2 -> sim (set_err s1 e) (set_err s2 e).
Proof. intros s1 s2 e H. sim_open H. apply sim_mk; assumption. Qed.
Lemma sim_with_time : forall s1 s2 k1 k2, sim s1 s2 -> (forall t, sim (k1 t) (k2 t)) ->
  sim (with_time s1 k1) (with_time s2 k2).
Proof.
  intros s1 s2 k1 k2 H Hk. unfold with_time. rewrite (R_now _ _ _ _ _ _ (sm_clock _ _ H)).
  destruct (get_time (r_tc s2) (r_frames s2) (r_offset s2)); [apply Hk | apply sim_set_err; exact H].
Qed.

Lemma sim_store : forall s1 s2 c a b, sim s1 s2 -> sim (store s1 c a b) (store s2 c a b).
Proof. intros s1 s2 c a b H. unfold store. rewrite (sm_stash _ _ H). apply sim_set_stash, H. Qed.

Lemma sim_pop_on : forall s1 s2 e, sim s1 s2 -> sim (pop_on s1 e) (pop_on s2 e).
Proof.
  intros s1 s2 e H. unfold pop_on. rewrite (sm_queue _ _ H). destruct (r_queue s2) as [[c st]|].
  - apply sim_store, sim_set_queue, H.
  - apply sim_set_err, H.
Qed.

Lemma sim_flushed : forall s1 s2 c t, sim s1 s2 ->
  sim (set_buf (store s1 c t 0) creator0) (set_buf (store s2 c t 0) creator0).
Proof. intros s1 s2 c t H. apply sim_set_buf, sim_store, H. Qed.

Lemma sim_roll_up : forall s1 s2, sim s1 s2 -> sim (roll_up s1) (roll_up s2).
Proof.
  intros s1 s2 H. unfold roll_up. cbv zeta. rewrite (sim_buf _ _ H), (sm_time _ _ H).
  pose proof (sim_flushed _ _ (buf s2) (r_time s2) H) as HS.
  apply sim_with_time; [exact HS|]. intro t. rewrite (sm_stash _ _ HS). apply sim_set_stash, sim_set_time, HS.
Qed.

Lemma sim_flush_implicit : forall s1 s2, sim s1 s2 -> sim (flush_implicit s1) (flush_implicit s2).
Proof.
  intros s1 s2 H. unfold flush_implicit. rewrite (sm_active _ _ H), (sm_queue _ _ H), (sim_buf _ _ H), (sm_time _ _ H).
  destruct (r_active s2).
  - destruct (r_queue s2); [apply sim_pop_on, H | exact H].
  - destruct (cr_is_empty (buf s2)); [exact H | apply sim_flushed, H].
  - destruct (cr_is_empty (buf s2)); [exact H | apply sim_roll_up, H].
Qed.

Lemma sim_activate : forall s1 s2 m, sim s1 s2 -> sim (activate s1 m) (activate s2 m).
Proof.
  intros s1 s2 m H. unfold activate. rewrite (sm_active _ _ H).
  destruct (mode_eqb m (r_active s2)); [exact H | apply sim_set_active, sim_flush_implicit, H].
Qed.

Lemma sim_flush_buffer : forall s1 s2, sim s1 s2 -> sim (flush_buffer s1) (flush_buffer s2).
Proof.
  intros s1 s2 H. unfold flush_buffer. rewrite (sim_buf _ _ H), (sm_time _ _ H).
  destruct (cr_is_empty (buf s2)); [exact H | apply sim_flushed, H].
Qed.

Lemma sim_do_interpret : forall s1 s2 w n, sim s1 s2 -> sim (do_interpret s1 w n) (do_interpret s2 w n).
Proof.
  intros s1 s2 w n H. unfold do_interpret. rewrite (sm_tk _ _ H), (sim_buf _ _ H).
  destruct (interpret_command (r_tk s2) (buf s2) w n) as [[t c] e].
  assert (H1 : sim (set_buf (set_tk s1 t) c) (set_buf (set_tk s2 t) c)) by apply sim_set_buf, sim_set_tk, H.
  destruct e; [apply sim_set_err, H1 | exact H1].
Qed.

Lemma sim_add_to_buf : forall s1 s2 txt, sim s1 s2 -> sim (add_to_buf s1 txt) (add_to_buf s2 txt).
Proof.
  intros s1 s2 txt H. unfold add_to_buf. rewrite (sm_tk _ _ H), (sim_buf _ _ H).
  destruct (add_chars (r_tk s2) (buf s2) txt) as [t c]. apply sim_set_buf, sim_set_tk, H.
Qed.

(* a pop-on / roll-up / paint-on mode switch followed by the time stamp of the new cue *)
Lemma sim_stamp : forall s1 s2, sim s1 s2 ->
  sim (if (match r_err s1 with Some _ => true | None => false end) then s1 else with_time s1 (fun t => set_time s1 t))
           (if (match r_err s2 with Some _ => true | None => false end) then s2 else with_time s2 (fun t => set_time s2 t)).
Proof.
  intros s1 s2 H. rewrite (sm_err _ _ H). destruct (r_err s2); [exact H|].
  apply sim_with_time; [exact H|]. intro t. apply sim_set_time, H.
Qed.

Lemma sim_eoc : forall s1 s2 t, sim s1 s2 ->
  sim (let s := set_time s1 t in
            let s := match r_queue s with Some _ => pop_on s t | None => s end in
            if cr_is_empty (buf s) then s else set_buf (set_queue s (Some (buf s, t))) creator0)
           (let s := set_time s2 t in
            let s := match r_queue s with Some _ => pop_on s t | None => s end in
            if cr_is_empty (buf s) then s else set_buf (set_queue s (Some (buf s, t))) creator0).
Proof.
  intros s1 s2 t H. pose proof (sim_set_time _ _ t H) as H1. revert H1.
  generalize (set_time s1 t) (set_time s2 t). intros a1 a2 H1. cbv zeta.
  assert (H2 : sim (match r_queue a1 with Some _ => pop_on a1 t | None => a1 end)
                        (match r_queue a2 with Some _ => pop_on a2 t | None => a2 end)).
  { rewrite (sm_queue _ _ H1). destruct (r_queue a2); [apply sim_pop_on, H1 | exact H1]. }
  revert H2. generalize (match r_queue a1 with Some _ => pop_on a1 t | None => a1 end)
                        (match r_queue a2 with Some _ => pop_on a2 t | None => a2 end). intros b1 b2 H2.
  rewrite (sim_buf _ _ H2). destruct (cr_is_empty (buf b2)); [exact H2 | apply sim_set_buf, sim_set_queue, H2].
Qed.

Lemma sim_translate_command : forall s1 s2 w n, sim s1 s2 ->
  sim (translate_command s1 w n) (translate_command s2 w n).
Proof.
  intros s1 s2 w n H. unfold translate_command.
  destruct (w =? w_rcl); [apply sim_activate, H|].
  destruct (w =? w_rdc); [cbv zeta; apply sim_stamp, sim_flush_buffer, sim_activate, H|].
  destruct ((w =? w_ru2) || (w =? w_ru3) || (w =? w_ru4)); [cbv zeta; apply sim_stamp, sim_flush_buffer, sim_activate, H|].
  destruct (w =? w_enm); [rewrite (sm_tk _ _ H); apply sim_set_tk, sim_set_buf, H|].
  destruct (w =? w_eoc); [apply sim_with_time; [exact H | intro t; apply sim_eoc, H]|].
  destruct (w =? w_cr).
  { rewrite (sim_buf _ _ H). destruct (cr_is_empty (buf s2)); [exact H | apply sim_roll_up, H]. }
  rewrite (sm_queue _ _ H).
  destruct ((w =? w_edm) && (match r_queue s2 with Some _ => true | None => false end)).
  - apply sim_with_time; [exact H | intro t; apply sim_pop_on, H].
  - apply sim_do_interpret, H.
Qed.

Lemma sim_word_effect : forall w n s1 s2, sim s1 s2 -> sim (word_effect s1 w n) (word_effect s2 w n).
Proof.
  intros w n s1 s2 H. unfold word_effect.
  destruct (is_command w || is_pac w); [apply sim_translate_command, H|].
  destruct (special_of w); [apply sim_add_to_buf, H|].
  destruct (extended_of w).
  - rewrite (sim_buf _ _ H). apply sim_add_to_buf, sim_set_buf, H.
  - destruct (char_of (hi w)); [|exact H]. destruct (char_of (lo w)); [apply sim_add_to_buf, H | exact H].
Qed.
End ClockRel.

Definition blind (op : rstate -> rstate) : Prop :=
  forall R, reads_agree R -> forall s1 s2, sim R s1 s2 -> sim R (op s1) (op s2).

Definition ticks_agree (tc1 : str) (f1 : Z) (o1 : Q) (tc2 : str) (f2 : Z) (o2 : Q) : Prop :=
  o1 = o2 /\ forall k, 0 <= k -> get_time tc1 (f1 + k) o1 = get_time tc2 (f2 + k) o2.

Lemma se_sim : forall s1 s2, state_eq s1 s2 <-> sim ticks_agree s1 s2.
Proof.
  intros s1 s2. split.
  - intros []. constructor; try assumption. split; assumption.
  - intros [? ? ? ? ? ? ? ? ? ? ? [Ho Hc]]. constructor; assumption.
Qed.

Lemma blind_se : forall op, blind op -> forall s1 s2, state_eq s1 s2 -> state_eq (op s1) (op s2).
Proof.
  intros op Hop s1 s2 H. apply se_sim, Hop, se_sim, H.
  intros tc1 f1 o1 tc2 f2 o2 [_ Hc]. rewrite <- (Z.add_0_r f1), <- (Z.add_0_r f2). apply Hc. lia.
Qed.

Definition keeps (s s' : rstate) : Prop := r_tc s' = r_tc s /\ r_frames s' = r_frames s /\ r_offset s' = r_offset s.

Lemma blind_keeps : forall op, blind op -> forall s, keeps s (op s).
Proof.
  intros op Hop s.
  refine (proj1 (sm_clock _ _ _ (Hop (fun tc1 f1 o1 tc2 f2 o2 =>
            (tc1 = r_tc s /\ f1 = r_frames s /\ o1 = r_offset s) /\ tc2 = tc1 /\ f2 = f1 /\ o2 = o1) _ s s _))).
  - intros tc1 f1 o1 tc2 f2 o2 [_ (-> & -> & ->)]. reflexivity.
  - constructor; try reflexivity. repeat split.
Qed.

Lemma se_flush_implicit : forall s1 s2, state_eq s1 s2 -> state_eq (flush_implicit s1) (flush_implicit s2).
Proof. apply blind_se. exact sim_flush_implicit. Qed.

Lemma se_set_dbl : forall s1 s2 l d, state_eq s1 s2 -> state_eq (set_dbl s1 l d) (set_dbl s2 l d).
Proof. intros s1 s2 l d. apply (blind_se (fun s => set_dbl s l d)). intros R _ a1 a2. apply sim_set_dbl. Qed.

(* handle_double looks at last_command and double_starter only, and writes them only *)
Lemma hd_shape : forall s s' w, r_last s = r_last s' -> r_dstart s = r_dstart s' ->
  exists k l d, handle_double s w = (k, set_dbl s l d) /\ handle_double s' w = (k, set_dbl s' l d).
Proof.
  intros s s' w El Ed. unfold handle_double. cbv zeta. rewrite <- El, <- Ed.
  repeat match goal with
         | |- context [if ?b then _ else _] => destruct b
         | |- context [match ?x with _ => _ end] => destruct x
         end; eexists _, _, _; split; reflexivity.
Qed.

Lemma se_handle_double : forall s1 s2 w, state_eq s1 s2 ->
  fst (handle_double s1 w) = fst (handle_double s2 w) /\ state_eq (snd (handle_double s1 w)) (snd (handle_double s2 w)).
Proof.
  intros s1 s2 w H. destruct (hd_shape s1 s2 w (se_last _ _ H) (se_dstart _ _ H)) as (k & l & d & -> & ->).
  split; [reflexivity|apply se_set_dbl, H].
Qed.

Lemma k_handle_double : forall s w, keeps s (snd (handle_double s w)).
Proof. intros s w. destruct (hd_shape s s w eq_refl eq_refl) as (k & l & d & -> & _). destruct s. repeat split. Qed.
Lemma hd_err : forall s w, r_err (snd (handle_double s w)) = r_err s.
Proof. intros s w. destruct (hd_shape s s w eq_refl eq_refl) as (k & l & d & -> & _). destruct s; reflexivity. Qed.

Lemma tw_eq : forall s w n, translate_word s w n =
  match r_err s with
  | Some _ => s
  | None => let (skip, a) := handle_double s w in
            if skip then bump a else let b := word_effect a w n in match r_err b with Some _ => b | None => bump b end
  end.
Proof. reflexivity. Qed.

Theorem se_translate_word : forall s1 s2 w n, state_eq s1 s2 -> state_eq (translate_word s1 w n) (translate_word s2 w n).
Proof.
  intros s1 s2 w n H. rewrite !tw_eq, (se_err _ _ H). destruct (r_err s2); [exact H|].
  destruct (se_handle_double _ _ w H) as [Hf Hs].
  destruct (handle_double s1 w) as [k1 a1], (handle_double s2 w) as [k2 a2]. cbn [fst snd] in Hf, Hs. subst k2.
  destruct k1; [apply se_bump, Hs|]. cbv zeta.
  pose proof (blind_se _ (fun R HR => sim_word_effect R HR w n) _ _ Hs) as HB. cbv beta in HB.
  rewrite (se_err _ _ HB). destruct (r_err (word_effect a2 w n)); [exact HB | apply se_bump, HB].
Qed.

Theorem se_translate_words : forall ws s1 s2, state_eq s1 s2 -> state_eq (translate_words s1 ws) (translate_words s2 ws).
Proof. induction ws as [|w t IH]; intros s1 s2 H; [exact H|]. cbn [translate_words]. apply IH, se_translate_word, H. Qed.

Theorem se_translate_line : forall s1 s2 l, state_eq s1 s2 -> state_eq (translate_line s1 l) (translate_line s2 l).
Proof.
  intros s1 s2 l H. unfold translate_line. rewrite (se_err _ _ H). destruct (r_err s2); [exact H|].
  apply se_translate_words, se_set_clock, H.
Qed.

Theorem se_fold_lines : forall ls s1 s2, state_eq s1 s2 ->
  state_eq (fold_left translate_line ls s1) (fold_left translate_line ls s2).
Proof. induction ls as [|l t IH]; intros s1 s2 H; [exact H|]. cbn [fold_left]. apply IH, se_translate_line, H. Qed.

(* 3. the clock fields along a run; the only use of `next`; the split lemma                            *)

(* a word: the timecode string and the offset stay; unless a crash is recorded the frame counter advances by one *)
Lemma tw_clock : forall s w n,
  r_tc (translate_word s w n) = r_tc s /\ r_offset (translate_word s w n) = r_offset s /\
  (r_err (translate_word s w n) = None -> r_frames (translate_word s w n) = r_frames s + 1).
Proof.
  intros s w n. rewrite tw_eq. destruct (r_err s) eqn:Es; [repeat split; congruence|].
  pose proof (k_handle_double s w) as (K1 & K2 & K3). pose proof (hd_err s w) as He.
  destruct (handle_double s w) as [k a]. cbn [snd] in K1, K2, K3, He.
  destruct k.
  { destruct a; cbn in *. repeat split; congruence. }
  cbv zeta. destruct (blind_keeps _ (fun R HR => sim_word_effect R HR w n) a) as (B1 & B2 & B3).
  destruct (r_err (word_effect a w n)) eqn:Eb.
  - repeat split; congruence.
  - destruct (word_effect a w n); cbn in *. repeat split; congruence.
Qed.

Lemma tw_err : forall s w n e, r_err s = Some e -> translate_word s w n = s.
Proof. intros s w n e H. unfold translate_word. rewrite H. reflexivity. Qed.
Lemma tws_err : forall ws s e, r_err s = Some e -> translate_words s ws = s.
Proof. induction ws as [|w t IH]; intros s e H; [reflexivity|]. cbn [translate_words]. rewrite (tw_err _ _ _ _ H). eapply IH, H. Qed.

Lemma tws_clock : forall ws s,
  r_tc (translate_words s ws) = r_tc s /\ r_offset (translate_words s ws) = r_offset s /\
  (r_err (translate_words s ws) = None -> r_frames (translate_words s ws) = r_frames s + Z.of_nat (length ws)).
Proof.
  induction ws as [|w t IH]; intro s.
  - cbn [translate_words length]. repeat split. intros _. cbn. lia.
  - cbn [translate_words]. set (n := match t with n :: _ => Some n | [] => None end).
    destruct (tw_clock s w n) as (A1 & A2 & A3). destruct (IH (translate_word s w n)) as (B1 & B2 & B3).
    repeat split; try congruence. intro He.
    destruct (r_err (translate_word s w n)) eqn:E1.
    + rewrite (tws_err _ _ _ E1) in He. congruence.
    + rewrite B3, A3 by auto. cbn [length]. lia.
Qed.

Lemma tl_offset : forall s l, r_offset (translate_line s l) = r_offset s.
Proof.
  intros s l. unfold translate_line. destruct (r_err s); [reflexivity|].
  destruct (tws_clock (snd l) (set_clock s (fst l) 0)) as (_ & A & _). exact A.
Qed.
Lemma fold_offset : forall ls s, r_offset (fold_left translate_line ls s) = r_offset s.
Proof. induction ls as [|l t IH]; intro s; [reflexivity|]. cbn [fold_left]. rewrite IH. apply tl_offset. Qed.

(* `next` reaches interpret_command only, and there only the test "the following word starts with a punctuation
   character" of the space that a mid-row code may insert: the words whose translation consults `next` are the 19
   words of scc_mid_row_codes *)
Definition no_lookahead (w : Z) : bool := negb (memz w scc_mid_row_codes).
Definition next_punct (nx : option Z) : bool := match nx with Some nw => is_punct_hi (hi nw) | None => false end.
Definition nexto (b : list Z) : option Z := match b with n :: _ => Some n | [] => None end.
(* the line may end after `a` when `b` follows on the next line *)
Definition split_ok (a b : list Z) : bool := no_lookahead (last a 0) || negb (next_punct (nexto b)).

Lemma ic_next_irrelevant : forall t c w nx, no_lookahead w || negb (next_punct nx) = true ->
  interpret_command t c w nx = interpret_command t c w None.
Proof.
  intros t c w nx H. unfold interpret_command. unfold no_lookahead, next_punct in H.
  destruct (memz w scc_mid_row_codes) eqn:M.
  - cbn [negb orb] in H. apply negb_true_iff in H. rewrite H. reflexivity.
  - cbn [andb]. reflexivity.
Qed.

Theorem tw_next_irrelevant : forall s w nx, no_lookahead w || negb (next_punct nx) = true ->
  translate_word s w nx = translate_word s w None.
Proof.
  intros s w nx H. unfold translate_word. destruct (r_err s); [reflexivity|].
  destruct (handle_double s w) as [k a]. destruct k; [reflexivity|].
  destruct (is_command w || is_pac w); [|reflexivity].
  replace (translate_command a w nx) with (translate_command a w None); [reflexivity|].
  unfold translate_command, do_interpret. rewrite (ic_next_irrelevant _ _ _ _ H). reflexivity.
Qed.

Lemma tws_cons2 : forall s w w' t, translate_words s (w :: w' :: t) = translate_words (translate_word s w (Some w')) (w' :: t).
Proof. reflexivity. Qed.

Lemma tws_app : forall a b s, split_ok a b = true ->
  translate_words s (a ++ b) = translate_words (translate_words s a) b.
Proof.
  induction a as [|w a IH]; intros b s H; [reflexivity|].
  destruct a as [|w' a'].
  - cbn [app translate_words]. unfold split_ok in H. cbn [last] in H.
    change (match b with n :: _ => Some n | [] => None end) with (nexto b).
    rewrite (tw_next_irrelevant _ _ _ H). reflexivity.
  - change ((w :: w' :: a') ++ b) with (w :: w' :: (a' ++ b)).
    rewrite !tws_cons2. change (w' :: a' ++ b) with ((w' :: a') ++ b). apply IH.
    unfold split_ok in *. cbn [last] in *. exact H.
Qed.

Lemma se_reclock : forall s tc f,
  (forall k, 0 <= k -> get_time tc (f + k) (r_offset s) = get_time (r_tc s) (r_frames s + k) (r_offset s)) ->
  state_eq (set_clock s tc f) s.
Proof. intros s tc f H. destruct s as [st tk l ds po pa ro ac q tm tc0 f0 off e]. apply se_mk. exact H. Qed.

Theorem split_line : forall s tc a b tc', split_ok a b = true ->
  same_clock (r_offset s) tc (Z.of_nat (length a)) tc' ->
  state_eq (translate_line (translate_line s (tc, a)) (tc', b)) (translate_line s (tc, a ++ b)).
Proof.
  intros s tc a b tc' Hok Hck. unfold translate_line at 2 3. cbn [fst snd].
  destruct (r_err s) eqn:Es.
  { unfold translate_line. rewrite Es. apply se_refl. }
  rewrite (tws_app _ _ _ Hok). set (s1 := translate_words (set_clock s tc 0) a).
  unfold translate_line. cbn [fst snd].
  destruct (r_err s1) eqn:E1.
  { rewrite (tws_err _ _ _ E1). apply se_refl. }
  apply se_translate_words.
  destruct (tws_clock a (set_clock s tc 0)) as (A1 & A2 & A3). fold s1 in A1, A2, A3. specialize (A3 E1).
  cbn [set_clock r_tc r_offset r_frames Z.add] in A1, A2, A3.
  apply se_reclock. intros k Hk. rewrite A1, A2, A3. symmetry. apply Hck, Hk.
Qed.

(* in particular when the last word of the first piece is not a mid-row code *)
Corollary split_line_no_lookahead : forall s tc a b tc', r_err s = None -> a <> [] -> no_lookahead (last a 0) = true ->
  same_clock (r_offset s) tc (Z.of_nat (length a)) tc' ->
  state_eq (translate_line (translate_line s (tc, a)) (tc', b)) (translate_line s (tc, a ++ b)).
Proof. intros s tc a b tc' _ _ Hn Hck. apply split_line; try assumption. unfold split_ok. rewrite Hn. reflexivity. Qed.

(* 4. layouts                                                                                          *)

(* the equivalence on streams generated by: cutting a line in two (the second piece stamped with the instant of its
   first word; read right to left: joining two lines), dropping an empty line in front of another line, inside any
   context of lines. (rl_split with a = []: restamping a line with an equivalent timecode; with b = []: an empty
   line at the instant the clock has reached anyway.) *)
Inductive relayout (off : Q) : list sline -> list sline -> Prop :=
| rl_refl : forall ls, relayout off ls ls
| rl_sym : forall ls ls', relayout off ls ls' -> relayout off ls' ls
| rl_trans : forall l1 l2 l3, relayout off l1 l2 -> relayout off l2 l3 -> relayout off l1 l3
| rl_ctx : forall pre l1 l2 suf, relayout off l1 l2 -> relayout off (pre ++ l1 ++ suf) (pre ++ l2 ++ suf)
| rl_split : forall tc a b tc', split_ok a b = true -> same_clock off tc (Z.of_nat (length a)) tc' ->
    relayout off [(tc, a ++ b)] [(tc, a); (tc', b)]
| rl_empty : forall tc l, relayout off [(tc, []); l] [l].

Definition run (s : rstate) (ls : list sline) : rstate := fold_left translate_line ls s.

(* what a layout change preserves: from equivalent states (offset off) the two streams lead to equivalent states *)
Definition lay_eq (off : Q) (ls ls' : list sline) : Prop :=
  forall s1 s2, r_offset s1 = off -> state_eq s1 s2 -> state_eq (run s1 ls) (run s2 ls').

Lemma run_app : forall s l1 l2, run s (l1 ++ l2) = run (run s l1) l2.
Proof. intros. unfold run. apply fold_left_app. Qed.

Lemma empty_line : forall s tc l, translate_line (translate_line s (tc, [])) l = translate_line s l.
Proof.
  intros s tc l. unfold translate_line at 2. destruct (r_err s) eqn:E; [reflexivity|].
  cbn [fst snd translate_words]. unfold translate_line. destruct s. cbn in E. subst. reflexivity.
Qed.

Theorem relayout_sound : forall off ls ls', relayout off ls ls' -> lay_eq off ls ls'.
Proof.
  intros off ls ls' H. induction H; intros s1 s2 Ho Hs.
  - apply se_fold_lines, Hs.
  - apply se_sym. apply IHrelayout; [rewrite <- (se_offset _ _ Hs); exact Ho | apply se_sym, Hs].
  - eapply se_trans; [apply IHrelayout1; [exact Ho | exact Hs]|].
    apply IHrelayout2; [rewrite <- (se_offset _ _ Hs); exact Ho | apply se_refl].
  - rewrite !run_app. apply se_fold_lines. apply IHrelayout.
    + unfold run. rewrite fold_offset. exact Ho.
    + apply se_fold_lines, Hs.
  - unfold run. cbn [fold_left].
    eapply se_trans; [apply se_translate_line, Hs|]. apply se_sym, split_line; [assumption|].
    rewrite <- (se_offset _ _ Hs), Ho. assumption.
  - unfold run. cbn [fold_left]. rewrite empty_line. apply se_translate_line, Hs.
Qed.

Lemma read_state_eq : forall off ls ls', state_eq (run (rstate0 off) ls) (run (rstate0 off) ls') -> read off ls = read off ls'.
Proof.
  intros off ls ls' H0. unfold run in H0.
  assert (HR : state_eq (run_lines off ls) (run_lines off ls')).
  { unfold run_lines. cbv zeta. rewrite (se_err _ _ H0).
    destruct (r_err (fold_left translate_line ls' (rstate0 off))); [exact H0|apply se_flush_implicit, H0]. }
  unfold read. cbv zeta. rewrite (se_err _ _ HR), (se_stash _ _ HR). reflexivity.
Qed.

Theorem read_layout_invariant : forall off ls ls', relayout off ls ls' -> read off ls = read off ls'.
Proof. intros off ls ls' H. exact (read_state_eq off ls ls' (relayout_sound off ls ls' H (rstate0 off) _ eq_refl (se_refl _))). Qed.

Corollary read_split_invariant : forall off pre tc a b tc' suf, split_ok a b = true ->
  same_clock off tc (Z.of_nat (length a)) tc' ->
  read off (pre ++ [(tc, a); (tc', b)] ++ suf) = read off (pre ++ [(tc, a ++ b)] ++ suf).
Proof. intros. apply read_layout_invariant, rl_sym, rl_ctx, rl_split; assumption. Qed.

(* 5. the refinement theorems for every layout of the stream                                           *)

Theorem popon_refines_608_layout : forall d off segs evs spans ls',
  forallb pseg_ok8 segs = true -> res_map (pseg_event d off) segs = Ok evs -> positive evs -> after_show None evs ->
  expected_with join_threshold evs = Ok spans ->
  relayout off (map (pseg_line d) segs) ls' ->
  exists caps, read off ls' = ROk caps /\
               ok_c05 (mkProg d (ploads_of segs)) (Ok (map observe caps)) = true /\
               dom_c05 (mkProg d (ploads_of segs)) = true.
Proof.
  intros d off segs evs spans ls' H1 H2 H3 H4 H5 HL. rewrite <- (read_layout_invariant _ _ _ HL).
  exact (popon_refines_608 d off segs evs spans H1 H2 H3 H4 H5).
Qed.

Theorem popon_times_layout : forall d off segs evs ls',
  forallb pseg_ok8 segs = true -> res_map (pseg_event d off) segs = Ok evs -> positive evs ->
  relayout off (map (pseg_line d) segs) ls' ->
  spans_of (read off ls')
  = rmap (fun spans => flat_map bspans (combine (ploads_of segs) spans)) (expected_with join_threshold evs).
Proof.
  intros d off segs evs ls' H1 H2 H3 HL. rewrite <- (read_layout_invariant _ _ _ HL).
  exact (popon_times d off segs evs H1 H2 H3).
Qed.

Theorem popon_times_screens_layout : forall d off segs evs ls',
  forallb pseg_ok8 segs = true -> res_map (pseg_event d off) segs = Ok evs -> positive evs ->
  relayout off (map (pseg_line d) segs) ls' ->
  rmap screens (spans_of (read off ls')) = rmap screens (expected_with join_threshold evs).
Proof.
  intros d off segs evs ls' H1 H2 H3 HL. rewrite <- (read_layout_invariant _ _ _ HL).
  exact (popon_times_screens d off segs evs H1 H2 H3).
Qed.

(* (i) a load cut in two lines at any word boundary a | b allowed by split_ok *)
Lemma relayout_split_load : forall d off segs1 tc ld segs2 a b tc', emit_load d ld = a ++ b -> split_ok a b = true ->
  same_clock off tc (Z.of_nat (length a)) tc' ->
  relayout off (map (pseg_line d) (segs1 ++ PLoad tc ld :: segs2))
               (map (pseg_line d) segs1 ++ [(tc, a); (tc', b)] ++ map (pseg_line d) segs2).
Proof.
  intros d off segs1 tc ld segs2 a b tc' E Hok Hck. rewrite map_app. cbn [map pseg_line]. rewrite E.
  change ((tc, a ++ b) :: map (pseg_line d) segs2) with ([(tc, a ++ b)] ++ map (pseg_line d) segs2).
  apply rl_ctx, rl_split; assumption.
Qed.

(* (ii) two consecutive segments on one line: a segment ends with End-Of-Caption / Erase-Displayed-Memory, which do
   not look ahead *)
Lemma last_ctl : forall x d w, last (x ++ ctl d w) 0 = w.
Proof. intros x d w. destruct d; cbn [ctl]; [change [w; w] with ([w] ++ [w]); rewrite app_assoc|]; apply last_last. Qed.

Lemma seg_last_no_lookahead : forall d s, no_lookahead (last (snd (pseg_line d s)) 0) = true.
Proof.
  intros d s. destruct s as [tc l|tc]; cbn [pseg_line snd].
  - unfold emit_load. rewrite !app_assoc. rewrite last_ctl. vm_compute. reflexivity.
  - unfold emit_clear. rewrite <- (app_nil_l (ctl d (ctrl_word 44))). rewrite last_ctl. vm_compute. reflexivity.
Qed.

Lemma relayout_merge_segs : forall d off segs1 s1 s2 segs2,
  same_clock off (fst (pseg_line d s1)) (Z.of_nat (length (snd (pseg_line d s1)))) (fst (pseg_line d s2)) ->
  relayout off (map (pseg_line d) (segs1 ++ s1 :: s2 :: segs2))
               (map (pseg_line d) segs1 ++ [(fst (pseg_line d s1), snd (pseg_line d s1) ++ snd (pseg_line d s2))]
                ++ map (pseg_line d) segs2).
Proof.
  intros d off segs1 s1 s2 segs2 Hck. pose proof (seg_last_no_lookahead d s1) as HL. rewrite map_app. cbn [map].
  revert Hck HL. destruct (pseg_line d s1) as [tc1 w1]. destruct (pseg_line d s2) as [tc2 w2]. cbn [fst snd]. intros Hck HL.
  change ((tc1, w1) :: (tc2, w2) :: map (pseg_line d) segs2) with ([(tc1, w1); (tc2, w2)] ++ map (pseg_line d) segs2).
  apply rl_ctx, rl_sym, rl_split; [|exact Hck]. unfold split_ok. rewrite HL. reflexivity.
Qed.

Corollary popon_refines_608_split_load : forall d off segs1 tc ld segs2 a b tc' evs spans,
  let segs := segs1 ++ PLoad tc ld :: segs2 in
  forallb pseg_ok8 segs = true -> res_map (pseg_event d off) segs = Ok evs -> positive evs -> after_show None evs ->
  expected_with join_threshold evs = Ok spans ->
  emit_load d ld = a ++ b -> split_ok a b = true -> same_clock off tc (Z.of_nat (length a)) tc' ->
  exists caps, read off (map (pseg_line d) segs1 ++ [(tc, a); (tc', b)] ++ map (pseg_line d) segs2) = ROk caps /\
               ok_c05 (mkProg d (ploads_of segs)) (Ok (map observe caps)) = true /\
               dom_c05 (mkProg d (ploads_of segs)) = true.
Proof.
  intros d off segs1 tc ld segs2 a b tc' evs spans segs H1 H2 H3 H4 H5 E Hok Hck.
  eapply popon_refines_608_layout; try eassumption. apply relayout_split_load; assumption.
Qed.

Corollary popon_times_split_load : forall d off segs1 tc ld segs2 a b tc' evs,
  let segs := segs1 ++ PLoad tc ld :: segs2 in
  forallb pseg_ok8 segs = true -> res_map (pseg_event d off) segs = Ok evs -> positive evs ->
  emit_load d ld = a ++ b -> split_ok a b = true -> same_clock off tc (Z.of_nat (length a)) tc' ->
  spans_of (read off (map (pseg_line d) segs1 ++ [(tc, a); (tc', b)] ++ map (pseg_line d) segs2))
  = rmap (fun spans => flat_map bspans (combine (ploads_of segs) spans)) (expected_with join_threshold evs).
Proof.
  intros d off segs1 tc ld segs2 a b tc' evs segs H1 H2 H3 E Hok Hck.
  eapply popon_times_layout; try eassumption. apply relayout_split_load; assumption.
Qed.

Corollary popon_refines_608_merged : forall d off segs1 s1 s2 segs2 evs spans,
  let segs := segs1 ++ s1 :: s2 :: segs2 in
  forallb pseg_ok8 segs = true -> res_map (pseg_event d off) segs = Ok evs -> positive evs -> after_show None evs ->
  expected_with join_threshold evs = Ok spans ->
  same_clock off (fst (pseg_line d s1)) (Z.of_nat (length (snd (pseg_line d s1)))) (fst (pseg_line d s2)) ->
  exists caps, read off (map (pseg_line d) segs1 ++ [(fst (pseg_line d s1), snd (pseg_line d s1) ++ snd (pseg_line d s2))]
                         ++ map (pseg_line d) segs2) = ROk caps /\
               ok_c05 (mkProg d (ploads_of segs)) (Ok (map observe caps)) = true /\
               dom_c05 (mkProg d (ploads_of segs)) = true.
Proof.
  intros d off segs1 s1 s2 segs2 evs spans segs H1 H2 H3 H4 H5 Hck.
  eapply popon_refines_608_layout; try eassumption. apply relayout_merge_segs; assumption.
Qed.

Corollary popon_times_merged : forall d off segs1 s1 s2 segs2 evs,
  let segs := segs1 ++ s1 :: s2 :: segs2 in
  forallb pseg_ok8 segs = true -> res_map (pseg_event d off) segs = Ok evs -> positive evs ->
  same_clock off (fst (pseg_line d s1)) (Z.of_nat (length (snd (pseg_line d s1)))) (fst (pseg_line d s2)) ->
  spans_of (read off (map (pseg_line d) segs1 ++ [(fst (pseg_line d s1), snd (pseg_line d s1) ++ snd (pseg_line d s2))]
                      ++ map (pseg_line d) segs2))
  = rmap (fun spans => flat_map bspans (combine (ploads_of segs) spans)) (expected_with join_threshold evs).
Proof.
  intros d off segs1 s1 s2 segs2 evs segs H1 H2 H3 Hck.
  eapply popon_times_layout; try eassumption. apply relayout_merge_segs; assumption.
Qed.

(* building layouts: clocks compose, cuts can be iterated *)
Lemma same_clock_trans : forall off tc n tc' m tc'', 0 <= m ->
  same_clock off tc n tc' -> same_clock off tc' m tc'' -> same_clock off tc (n + m) tc''.
Proof.
  intros off tc n tc' m tc'' Hm H1 H2 k Hk. rewrite <- Z.add_assoc. rewrite H1 by lia. apply H2, Hk.
Qed.

Lemma rl_ctx_eq : forall off pre l1 l2 suf L L', L = pre ++ l1 ++ suf -> L' = pre ++ l2 ++ suf ->
  relayout off l1 l2 -> relayout off L L'.
Proof. intros; subst; apply rl_ctx; assumption. Qed.

(* cut off a first piece, lay out the rest in any way *)
Lemma relayout_split_cons : forall off tc a r tc' ls, split_ok a r = true ->
  same_clock off tc (Z.of_nat (length a)) tc' -> relayout off [(tc', r)] ls ->
  relayout off [(tc, a ++ r)] ((tc, a) :: ls).
Proof.
  intros off tc a r tc' ls Hok Hck H. eapply rl_trans; [apply rl_split; eassumption|].
  pose proof (rl_ctx off [(tc, a)] _ _ [] H) as H1. rewrite !app_nil_r in H1. exact H1.
Qed.

(* a line cut at any number of word boundaries: every piece stamped with the instant of its first word *)
Inductive cuts (off : Q) : str -> list Z -> list sline -> Prop :=
| cuts_one : forall tc ws, cuts off tc ws [(tc, ws)]
| cuts_cons : forall tc a tc' r ls, split_ok a r = true -> same_clock off tc (Z.of_nat (length a)) tc' ->
    cuts off tc' r ls -> cuts off tc (a ++ r) ((tc, a) :: ls).

Lemma cuts_relayout : forall off tc ws ls, cuts off tc ws ls -> relayout off [(tc, ws)] ls.
Proof.
  intros off tc ws ls H. induction H; [apply rl_refl|]. eapply relayout_split_cons; eassumption.
Qed.

Lemma relayout_app : forall off a a' b b', relayout off a a' -> relayout off b b' -> relayout off (a ++ b) (a' ++ b').
Proof.
  intros off a a' b b' Ha Hb. eapply rl_trans.
  - apply (rl_ctx off [] a a' b Ha).
  - pose proof (rl_ctx off a' b b' [] Hb) as H. rewrite !app_nil_r in H. exact H.
Qed.

(* every line of a stream cut independently (lines kept whole: cuts_one); read right to left: runs of lines joined *)
Lemma relayout_each : forall off (A : Type) (f : A -> sline) xs lss,
  Forall2 (fun x pieces => cuts off (fst (f x)) (snd (f x)) pieces) xs lss -> relayout off (map f xs) (concat lss).
Proof.
  intros off A f xs lss H. induction H as [|x pieces xs lss Hc _ IH]; [apply rl_refl|].
  cbn [map concat]. change (f x :: map f xs) with ([f x] ++ map f xs). apply relayout_app; [|exact IH].
  rewrite (surjective_pairing (f x)). apply cuts_relayout, Hc.
Qed.

(* the public theorems for a stream whose segments are each cut over several lines *)
Corollary popon_refines_608_cuts : forall d off segs evs spans lss,
  forallb pseg_ok8 segs = true -> res_map (pseg_event d off) segs = Ok evs -> positive evs -> after_show None evs ->
  expected_with join_threshold evs = Ok spans ->
  Forall2 (fun s pieces => cuts off (fst (pseg_line d s)) (snd (pseg_line d s)) pieces) segs lss ->
  exists caps, read off (concat lss) = ROk caps /\
               ok_c05 (mkProg d (ploads_of segs)) (Ok (map observe caps)) = true /\
               dom_c05 (mkProg d (ploads_of segs)) = true.
Proof.
  intros d off segs evs spans lss H1 H2 H3 H4 H5 HC. eapply popon_refines_608_layout; try eassumption.
  apply relayout_each, HC.
Qed.

Corollary popon_times_cuts : forall d off segs evs lss,
  forallb pseg_ok8 segs = true -> res_map (pseg_event d off) segs = Ok evs -> positive evs ->
  Forall2 (fun s pieces => cuts off (fst (pseg_line d s)) (snd (pseg_line d s)) pieces) segs lss ->
  spans_of (read off (concat lss))
  = rmap (fun spans => flat_map bspans (combine (ploads_of segs) spans)) (expected_with join_threshold evs).
Proof.
  intros d off segs evs lss H1 H2 H3 HC. eapply popon_times_layout; try eassumption.
  apply relayout_each, HC.
Qed.

(* 6. a concrete stream                                                                                *)

(* ENM RCL PAC(row 14) "ab" PAC(row 15) "cd" EOC at 00:00:01:00, cut after the fourth word; EDM at 00:00:03:00 *)
Definition ex_load : load := [mkRow 14 0 0 0 [Ch 97; Ch 98]; mkRow 15 0 0 0 [Ch 99; Ch 100]].
Definition ex_a : list Z := [38062; 37920; 37952; 24930].      (* 94ae 9420 9440 6162 *)
Definition ex_b : list Z := [38112; 58212; 37935].             (* 94e0 e364 942f *)
Definition ex_segs : list pseg := [PLoad (lit "00:00:01:00") ex_load; PClear (lit "00:00:03:00")].
Definition ex_one_line : list sline := [(lit "00:00:01:00", ex_a ++ ex_b); (lit "00:00:03:00", [37932])].
Definition ex_split : list sline :=
  [(lit "00:00:01:00", ex_a); (lit "00:00:01:04", ex_b); (lit "00:00:03:00", [37932])].
(* the Erase-Displayed-Memory on the line of the load, and a last layout with all three changes at once *)
Definition ex_merged : list sline := [(lit "00:00:01:00", ex_a ++ ex_b ++ [37932])].
Definition ex_words : list sline :=
  [(lit "00:00:01:00", [38062; 37920]); (lit "00:00:01:02", []); (lit "00:00:01:02", [37952; 24930; 38112]);
   (lit "00:00:01:05", [58212; 37935]); (lit "00:00:03:00", [37932])].

Example ex_is_pseg_stream : map (pseg_line false) ex_segs = ex_one_line.
Proof. vm_compute. reflexivity. Qed.

Example ex_relayout : forall off, relayout off ex_one_line ex_split.
Proof.
  intro off. eapply (rl_ctx_eq off [] [_] [_; _] [_]); [reflexivity | reflexivity |].
  apply rl_split; [vm_compute; reflexivity|]. exact (same_clock_example off).
Qed.

Example ex_read_values :
  read 0 ex_one_line = ROk [mkPre 1201200 3003000 [CText [97; 98] (14, 0); CBreak (14, 0); CText [99; 100] (14, 0)] (Some (14, 0))] /\
  read 0 ex_split = ROk [mkPre 1201200 3003000 [CText [97; 98] (14, 0); CBreak (14, 0); CText [99; 100] (14, 0)] (Some (14, 0))].
Proof. split; vm_compute; reflexivity. Qed.

Example ex_read_eq : forall off, read off ex_split = read off ex_one_line.
Proof. intro off. symmetry. apply read_layout_invariant, ex_relayout. Qed.

(* the public theorem, instantiated on the split layout *)
Example ex_refines : exists caps, read 0 ex_split = ROk caps /\
  ok_c05 (mkProg false [ex_load]) (Ok (map observe caps)) = true /\ dom_c05 (mkProg false [ex_load]) = true.
Proof.
  apply (popon_refines_608_layout false 0 ex_segs [Show 1201200; Clear 3003000] [(1201200%Q, 3003000%Q)]).
  - vm_compute. reflexivity.
  - vm_compute. reflexivity.
  - intros e [<-|[<-|[]]]; reflexivity.
  - cbn. repeat split.
  - vm_compute. reflexivity.
  - rewrite ex_is_pseg_stream. apply ex_relayout.
Qed.

(* EDM on the load's line: 00:00:03:00 is not 7 frames after 00:00:01:00, so the one-line stream is related to the
   two-line stream whose EDM line is stamped 00:00:01:07 *)
Example ex_relayout_merged : forall off,
  relayout off [(lit "00:00:01:00", ex_a ++ ex_b); (lit "00:00:01:07", [37932])] ex_merged.
Proof.
  intro off. apply rl_sym. unfold ex_merged. rewrite app_assoc. apply rl_split; [vm_compute; reflexivity|].
  exact (same_clock_frames off (mkTc 0 0 1 false 0) 7 eq_refl ltac:(lia) ltac:(cbn; lia)).
Qed.

(* several cuts and an empty line *)
Example ex_relayout_words : forall off, relayout off ex_one_line ex_words.
Proof.
  intro off. unfold ex_one_line, ex_words.
  eapply (rl_ctx_eq off [] [_] [_; _; _; _] [_]); [reflexivity | reflexivity |].
  change (ex_a ++ ex_b) with ([38062; 37920] ++ [37952; 24930; 38112; 58212; 37935]).
  eapply relayout_split_cons; [vm_compute; reflexivity | |].
  { exact (same_clock_frames off (mkTc 0 0 1 false 0) 2 eq_refl ltac:(lia) ltac:(cbn; lia)). }
  eapply rl_trans; [|apply rl_sym; eapply (rl_ctx_eq off [] [_; _] [_] [_]); [reflexivity | reflexivity | apply rl_empty]].
  cbn [app].
  change [37952; 24930; 38112; 58212; 37935] with ([37952; 24930; 38112] ++ [58212; 37935]).
  apply rl_split; [vm_compute; reflexivity|].
  exact (same_clock_frames off (mkTc 0 0 1 false 2) 3 eq_refl ltac:(lia) ltac:(cbn; lia)).
Qed.

(* the side condition is needed: a line ending right after a mid-row code (9120) whose next word starts with a
   punctuation character (".x" = aef8) is read differently ("ab .x" instead of "ab.x") *)
Example ex_side_condition_needed :
  split_ok [38062; 37920; 37952; 24930; 37152] [44792; 37935] = false /\
  read 0 [(lit "00:00:01:00", [38062; 37920; 37952; 24930; 37152] ++ [44792; 37935]); (lit "00:00:03:00", [37932])]
    = ROk [mkPre 1201200 3003000 [CText [97; 98; 46; 120] (14, 0)] (Some (14, 0))] /\
  read 0 [(lit "00:00:01:00", [38062; 37920; 37952; 24930; 37152]); (lit "00:00:01:05", [44792; 37935]); (lit "00:00:03:00", [37932])]
    = ROk [mkPre 1201200 3003000 [CText [97; 98; 32; 46; 120] (14, 0)] (Some (14, 0))].
Proof. repeat split; vm_compute; reflexivity. Qed.

Print Assumptions same_clock_wf.
Print Assumptions se_translate_word.
Print Assumptions split_line.
Print Assumptions read_layout_invariant.
Print Assumptions popon_refines_608_layout.
Print Assumptions popon_times_layout.
Print Assumptions popon_times_screens_layout.
Print Assumptions popon_refines_608_split_load.
Print Assumptions popon_times_split_load.
Print Assumptions popon_refines_608_merged.
Print Assumptions popon_times_merged.
Print Assumptions popon_refines_608_cuts.
Print Assumptions popon_times_cuts.
Print Assumptions ex_refines.
Print Assumptions ex_relayout_words.
Print Assumptions ex_side_condition_needed.
