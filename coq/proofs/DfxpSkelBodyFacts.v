(* C07: the ids and references READ FROM THE TREE (model/DfxpSkelBody.v: <style>, <region>, <div>, <p>, <span>
   dictionaries as DFXPWriter.write builds them) are those of the traversal model `summarize`; hence the oracle ok_refs
   holds of the tree itself. *)
From Coq Require Import List ZArith Bool.
From PV Require Import lib.Sx lib.Str model.DfxpXml model.DfxpRegion model.DfxpDoc model.DfxpSkelHead model.DfxpSkelBody spec.SpecXmlAttr.
From PV Require Import lib.Dec proofs.DfxpPayloadFacts proofs.DfxpDocFacts proofs.DfxpSkelHeadFacts.
Import ListNotations.
Open Scope Z_scope.

Lemma lookup_put_same : forall k v d, lookup k (dict_put k v d) = Some v.
Proof.
  intros k v d. induction d as [|[k' v'] t IH]; cbn [dict_put lookup].
  - rewrite str_eqb_refl. reflexivity.
  - destruct (str_eqb k' k) eqn:E; cbn [lookup]; rewrite E; [reflexivity|exact IH].
Qed.
Lemma lookup_put_other : forall k k2 v d, k <> k2 -> lookup k (dict_put k2 v d) = lookup k d.
Proof.
  intros k k2 v d N. induction d as [|[k' v'] t IH]; cbn [dict_put lookup].
  - rewrite str_eqb_neq; [reflexivity|intro E; apply N; symmetry; exact E].
  - destruct (str_eqb k' k2) eqn:E; cbn [lookup].
    + apply str_eqb_eq in E. subst k'. rewrite str_eqb_neq; [reflexivity|intro E; apply N; symmetry; exact E].
    + destruct (str_eqb k' k); [reflexivity|exact IH].
Qed.
Lemma lookup_notin : forall k d, ~ In k (map fst d) -> lookup k d = None.
Proof.
  intros k d. induction d as [|[k' v'] t IH]; intros N; [reflexivity|]. cbn [lookup].
  rewrite str_eqb_neq; [apply IH; intro H; apply N; right; exact H|intro E; apply N; left; exact E].
Qed.
(* dict.update with distinct keys: the update wins *)
Lemma lookup_update : forall k upd base, NoDup (map fst upd) ->
  lookup k (dict_update base upd) = match lookup k upd with Some v => Some v | None => lookup k base end.
Proof.
  intros k upd. unfold dict_update. induction upd as [|[k2 v2] t IH]; intros base N; [reflexivity|]. inversion N; subst.
  cbn [fold_left fst snd lookup]. rewrite IH by assumption. destruct (str_eqb k2 k) eqn:E.
  - apply str_eqb_eq in E. subst k2. rewrite lookup_notin by assumption. apply lookup_put_same.
  - rewrite lookup_put_other; [reflexivity|]. intros <-. rewrite str_eqb_refl in E. discriminate.
Qed.
Lemma lookup_update_other : forall k upd d, ~ In k (map fst upd) -> lookup k (dict_update d upd) = lookup k d.
Proof.
  intros k upd. unfold dict_update. induction upd as [|[k2 v2] t IH]; intros d N; [reflexivity|].
  cbn [fold_left fst snd]. rewrite IH.
  - apply lookup_put_other. intro E. apply N. left. symmetry. exact E.
  - intro H. apply N. right. exact H.
Qed.

Lemma style_region_neq : style_key <> region_key. Proof. discriminate. Qed.
Lemma region_style_neq : region_key <> style_key. Proof. discriminate. Qed.

Lemma div_style : forall code r inline, noref inline -> attr_ref style_key (divtag_attrs code r inline) = [].
Proof.
  intros code r inline (N1 & _ & _). unfold attr_ref, divtag_attrs.
  rewrite lookup_update_other by exact N1. rewrite lookup_put_other by exact style_region_neq. reflexivity.
Qed.
Lemma div_region : forall code r inline, noref inline -> attr_ref region_key (divtag_attrs code r inline) = [r].
Proof.
  intros code r inline (_ & N2 & _). unfold attr_ref, divtag_attrs.
  rewrite lookup_update_other by exact N2. rewrite lookup_put_same. reflexivity.
Qed.
Lemma p_region : forall written c r, noref (xc_inline c) -> attr_ref region_key (ptag_attrs written c r) = [r].
Proof.
  intros written c r (_ & N2 & _). unfold attr_ref, ptag_attrs.
  rewrite lookup_update_other by exact N2. rewrite lookup_put_same. reflexivity.
Qed.
Lemma p_style : forall written c r, noref (xc_inline c) ->
  attr_ref style_key (ptag_attrs written c r) = p_style_ref written (erase_cap c).
Proof.
  intros written c r (N1 & _ & _). unfold attr_ref, ptag_attrs, p_style_ref, cap_content, erase_cap. cbn [dc_style].
  rewrite lookup_update_other by exact N1. rewrite lookup_put_other by exact style_region_neq.
  rewrite lookup_update by apply recreate_style_NoDup. fold style_key.
  destruct (lookup style_key (recreate_style match xc_style c with Some s => s | None => [(lit "class", default_style_id)] end written));
    [reflexivity|].
  destruct (existsb (str_eqb (lit "p")) written); reflexivity.
Qed.
Lemma span_style : forall written n r, noref (xn_inline n) ->
  attr_ref style_key (span_dict written n r) =
  match lookup style_key (recreate_style (dn_content (xn_node n)) written) with Some cl => [cl] | None => [] end.
Proof.
  intros written n r (N1 & _ & _). unfold attr_ref, span_dict, span_attributes.
  destruct (truthy (rn_layout (dn_r (xn_node n)))); [|reflexivity].
  rewrite lookup_update_other by exact N1. rewrite lookup_put_other by exact style_region_neq. reflexivity.
Qed.
Lemma span_region : forall written n r, noref (xn_inline n) ->
  attr_ref region_key (span_dict written n r) = if truthy (rn_layout (dn_r (xn_node n))) then [r] else [].
Proof.
  intros written n r (_ & N2 & _). unfold attr_ref, span_dict, span_attributes.
  destruct (truthy (rn_layout (dn_r (xn_node n)))).
  - rewrite lookup_update_other by exact N2. rewrite lookup_put_same. reflexivity.
  - rewrite lookup_notin; [reflexivity|apply recreate_style_no_region].
Qed.

Lemma spans_style : forall written (rf : xnode -> str) ns, Forall (fun n => noref (xn_inline n)) ns ->
  flat_map (attr_ref style_key)
           (flat_map (fun n => if rn_span (dn_r (xn_node n)) then [span_dict written n (rf n)] else []) ns)
  = flat_map (fun n => if rn_span (dn_r n)
                       then match lookup (lit "style") (recreate_style (dn_content n) written) with Some cl => [cl] | None => [] end
                       else []) (map xn_node ns).
Proof.
  intros written rf ns H. induction H as [|n t Hn Ht IH]; [reflexivity|]. cbn [flat_map map].
  destruct (rn_span (dn_r (xn_node n))).
  - cbn [app flat_map]. rewrite (span_style _ _ _ Hn), IH. reflexivity.
  - cbn [app]. exact IH.
Qed.
Lemma spans_region : forall written (rz : rnode -> Z) ns, Forall (fun n => noref (xn_inline n)) ns ->
  flat_map (attr_ref region_key)
           (flat_map (fun n => if rn_span (dn_r (xn_node n)) then [span_dict written n (region_id_str (rz (dn_r (xn_node n))))] else []) ns)
  = map region_id_str (map rz (filter (fun n => rn_span n && truthy (rn_layout n)) (map dn_r (map xn_node ns)))).
Proof.
  intros written rz ns H. induction H as [|n t Hn Ht IH]; [reflexivity|]. cbn [flat_map map filter].
  destruct (rn_span (dn_r (xn_node n))); cbn [andb].
  - cbn [app flat_map]. rewrite (span_region _ _ _ Hn), IH.
    destruct (truthy (rn_layout (dn_r (xn_node n)))); reflexivity.
  - cbn [app]. exact IH.
Qed.

Definition cap_deco_ok (c : xcap) : Prop := noref (xc_inline c) /\ Forall (fun n => noref (xn_inline n)) (xc_nodes c).
Definition lang_deco_ok (l : xlang) : Prop := noref (xl_inline l) /\ Forall cap_deco_ok (xl_caps l).

Theorem body_style_refs_tree : forall written x, Forall lang_deco_ok (xs_langs x) ->
  body_refs style_key (body_tree written x) = body_style_refs written (erase x).
Proof.
  intros written x H. unfold body_refs, body_tree, body_style_refs, erase. cbn [ds_langs].
  set (m := region_map _). clearbody m.
  induction H as [|l t [Hl Hc] Ht IH]; [reflexivity|]. cbn [map flat_map fst snd].
  rewrite IH. f_equal. rewrite (div_style _ _ _ Hl). cbn [app erase_lang dl_caps].
  clear IH Ht Hl. induction Hc as [|c cs [Hc Hn] Hcs IHc]; [reflexivity|]. cbn [map flat_map fst snd].
  rewrite IHc. f_equal. rewrite (p_style _ _ _ Hc). f_equal.
  unfold span_style_refs, erase_cap. cbn [dc_nodes].
  exact (spans_style written _ _ Hn).
Qed.

Theorem body_region_refs_tree : forall written x, Forall lang_deco_ok (xs_langs x) ->
  body_refs region_key (body_tree written x) = map region_id_str (all_refs (to_rset (erase x))).
Proof.
  intros written x H. unfold body_refs, body_tree, all_refs, refs.
  set (m := region_map _). clearbody m.
  unfold to_rset, erase. cbn [ds_langs ds_layout rs_langs rs_layout].
  induction H as [|l t [Hl Hc] Ht IH]; [reflexivity|]. cbn [map flat_map fst snd].
  rewrite map_app, <- IH. f_equal. rewrite (div_region _ _ _ Hl). cbn [app map rl_layout rl_caps erase_lang dl_layout dl_caps].
  f_equal. clear IH Ht Hl. induction Hc as [|c cs [Hc Hn] Hcs IHc]; [reflexivity|]. cbn [map flat_map fst snd].
  rewrite map_app, <- IHc. f_equal. rewrite (p_region _ _ _ Hc). cbn [app map rc_layout rc_nodes erase_cap dc_layout dc_nodes].
  f_equal.
  exact (spans_region written (fun n => region_of m (pick (rn_layout n) (xc_layout c) (xl_layout l) (xs_layout x))) _ Hn).
Qed.

Lemma region_elems_ids : forall extra d, elem_ids (region_elems extra d) = map region_id_str (defined (to_rset d)).
Proof.
  intros extra d. unfold region_elems, elem_ids. induction (defined (to_rset d)) as [|id t IH]; [reflexivity|].
  cbn [map flat_map]. rewrite IH. reflexivity.
Qed.
Lemma region_elems_norefs : forall extra d, (forall id, noref (extra id)) ->
  elem_style_refs (region_elems extra d) = [] /\ flat_map (attr_ref region_key) (region_elems extra d) = [].
Proof.
  intros extra d H. unfold region_elems, elem_style_refs. induction (defined (to_rset d)) as [|id t [IH1 IH2]]; [split; reflexivity|].
  destruct (H id) as (N1 & N2 & _). cbn [map flat_map]. rewrite IH1, IH2. unfold attr_ref.
  assert (E1 : lookup (lit "style") ((xml_id, region_id_str id) :: extra id) = None)
    by (cbn [lookup]; change (str_eqb xml_id (lit "style")) with false; cbv iota; apply lookup_notin; exact N1).
  assert (E2 : lookup region_key ((xml_id, region_id_str id) :: extra id) = None)
    by (cbn [lookup]; change (str_eqb xml_id region_key) with false; cbv iota; apply lookup_notin; exact N2).
  rewrite E1, E2. split; reflexivity.
Qed.
Lemma style_elem_step_noregion : forall acc st,
  flat_map (attr_ref region_key) (snd acc) = [] -> flat_map (attr_ref region_key) (snd (style_elem_step acc st)) = [].
Proof.
  intros [w e] st H. unfold style_elem_step. destruct (snd st) as [|kv content] eqn:Es; [exact H|].
  destruct (recreate_style (kv :: content) w) as [|a0 attrs] eqn:Er; [exact H|]. cbn [snd] in *.
  rewrite flat_map_app, H. cbn [flat_map app]. rewrite app_nil_r. rewrite <- Er. unfold attr_ref. cbn [lookup].
  change (str_eqb xml_id region_key) with false. cbv iota.
  rewrite lookup_notin; [reflexivity|apply recreate_style_no_region].
Qed.
Lemma style_elems_noregion : forall styles, flat_map (attr_ref region_key) (style_elems styles) = [].
Proof.
  intros [|st t]; [reflexivity|]. unfold style_elems.
  assert (G : forall l acc, flat_map (attr_ref region_key) (snd acc) = [] ->
                            flat_map (attr_ref region_key) (snd (fold_left style_elem_step l acc)) = []).
  { induction l as [|s l IH]; intros acc H; [exact H|]. cbn [fold_left]. apply IH. apply style_elem_step_noregion. exact H. }
  apply G. reflexivity.
Qed.

Theorem tree_is_the_summary : forall extra x, deco_ok extra x ->
  let t := tree_of extra x in let s := summarize (erase x) in
  tree_ids t = s_ids s /\ tree_style_ids t = s_style_ids s /\ tree_region_ids t = s_region_ids s /\
  tree_style_refs t = s_style_refs s /\ tree_region_refs t = s_region_refs s.
Proof.
  intros extra x [He Hl]. cbn zeta.
  destruct (style_elems_summary (xs_styles x)) as [S1 S2].
  destruct (region_elems_norefs extra (erase x) He) as [R1 R2].
  unfold tree_ids, tree_style_ids, tree_region_ids, tree_style_refs, tree_region_refs, tree_of.
  cbn [t_styles t_regions t_body]. rewrite region_elems_ids, R1, R2, style_elems_noregion.
  rewrite body_style_refs_tree, body_region_refs_tree by exact Hl. rewrite S1, S2.
  unfold summarize. change (ds_styles (erase x)) with (xs_styles x).
  destruct (styling (xs_styles x)) as [written head_refs].
  cbn [fst snd s_ids s_style_ids s_region_ids s_style_refs s_region_refs app]. repeat split; reflexivity.
Qed.

Theorem document_references_resolved : forall extra x, deco_ok extra x -> dom_doc (erase x) = true ->
  let t := tree_of extra x in
  ok_refs (tree_ids t) (tree_style_ids t) (tree_region_ids t) (tree_style_refs t) (tree_region_refs t) = 0.
Proof.
  intros extra x D Dom. cbn zeta. destruct (tree_is_the_summary extra x D) as (E1 & E2 & E3 & E4 & E5).
  rewrite E1, E2, E3, E4, E5. exact (doc_consistent (erase x) Dom).
Qed.

(* every dset is the erasure of a decorated set: the theorem speaks about every caption set of the domain *)
Definition plain (d : dset) : xset :=
  mkXset (ds_layout d) (ds_styles d)
         (map (fun l => mkXlang (dl_layout l)
                                (map (fun c => mkXcap (dc_layout c) (dc_style c) (map (fun n => mkXnode n []) (dc_nodes c)) [] [] [])
                                     (dl_caps l)) [] []) (ds_langs d)).
Lemma erase_plain : forall d, erase (plain d) = d.
Proof.
  intros [l s ls]. unfold erase, plain. cbn [xs_layout xs_styles xs_langs ds_layout ds_styles ds_langs]. f_equal.
  rewrite map_map. rewrite <- (map_id ls) at 2. apply map_ext. intros [ll cs]. unfold erase_lang. cbn [xl_layout xl_caps dl_layout dl_caps].
  f_equal. rewrite map_map. rewrite <- (map_id cs) at 2. apply map_ext. intros [cl st ns]. unfold erase_cap.
  cbn [xc_layout xc_style xc_nodes dc_layout dc_style dc_nodes]. f_equal. rewrite map_map. rewrite <- (map_id ns) at 2. apply map_ext.
  intros n. reflexivity.
Qed.
Lemma plain_deco_ok : forall d, deco_ok (fun _ => []) (plain d).
Proof.
  intros d. assert (N : noref []) by (repeat split; intros []). split; [intros; exact N|]. unfold plain. cbn [xs_langs].
  apply Forall_forall. intros l Hl. apply in_map_iff in Hl. destruct Hl as [l0 [<- _]]. cbn [xl_inline xl_caps]. split; [exact N|].
  apply Forall_forall. intros c Hc. apply in_map_iff in Hc. destruct Hc as [c0 [<- _]]. cbn [xc_inline xc_nodes]. split; [exact N|].
  apply Forall_forall. intros n Hn. apply in_map_iff in Hn. destruct Hn as [n0 [<- _]]. exact N.
Qed.
Theorem every_set_has_a_resolved_tree : forall d, dom_doc d = true ->
  exists x, erase x = d /\ deco_ok (fun _ => []) x /\ let t := tree_of (fun _ => []) x in
            ok_refs (tree_ids t) (tree_style_ids t) (tree_region_ids t) (tree_style_refs t) (tree_region_refs t) = 0.
Proof.
  intros d D. exists (plain d). split; [apply erase_plain|]. split; [apply plain_deco_ok|].
  apply document_references_resolved; [apply plain_deco_ok|rewrite erase_plain; exact D].
Qed.
