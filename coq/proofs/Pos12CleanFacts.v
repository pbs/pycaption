(* C12: cleanup_regions (model/DfxpClean.v) - the reader never asks for a removed region, so the read-back of ANY
   document is unchanged by the cleanup; in the written document every referenced region is defined and every remaining
   region is referenced; the tree-level round trip theorem holds for the cleaned document. *)
From Coq Require Import List ZArith Bool.
From PV Require Import lib.Result lib.ResultFacts model.Geometry model.Positioning model.DfxpTree model.DfxpClean.
From PV Require Import proofs.DfxpTreeFacts proofs.Pos12RegionFacts.
Import ListNotations.
Open Scope Z_scope.

Lemma in_somes : forall {A} (l : list (option A)) r, In r (somes l) <-> In (Some r) l.
Proof.
  intros A l r. unfold somes. rewrite in_flat_map. split.
  - intros (o & Ho & Hr). destruct o as [a|]; [destruct Hr as [<-|[]]; exact Ho|destruct Hr].
  - intros H. exists (Some r). split; [exact H|left; reflexivity].
Qed.

Lemma rid_mem_iff : forall r l, rid_mem r l = true <-> In r l.
Proof.
  intros r l. unfold rid_mem. rewrite existsb_exists. split.
  - intros (x & Hx & E). apply region_id_eqb_eq in E. subst x. exact Hx.
  - intros H. exists r. split; [exact H|apply region_id_eqb_eq; reflexivity].
Qed.

Lemma find_filter : forall {A} (f g : A -> bool) l, (forall x, f x = true -> g x = true) ->
  List.find f (filter g l) = List.find f l.
Proof.
  intros A f g l H. induction l as [|x l IH]; [reflexivity|]. cbn [filter List.find].
  destruct (f x) eqn:Fx.
  - rewrite (H x Fx). cbn [List.find]. rewrite Fx. reflexivity.
  - destruct (g x); [cbn [List.find]; rewrite Fx|]; exact IH.
Qed.

(* induction over document items (spans hold lists of items) *)
Section XitemInd.
  Variable P : xitem -> Prop.
  Hypothesis Ht : forall w, P (XText w).
  Hypothesis Hb : P XBr.
  Hypothesis Hs : forall r body, Forall P body -> P (XSpan r body).
  Fixpoint xitem_ind' (it : xitem) : P it :=
    match it with
    | XText w => Ht w
    | XBr => Hb
    | XSpan r body =>
        Hs r body ((fix go (l : list xitem) : Forall P l :=
                      match l with [] => Forall_nil P | x :: t => Forall_cons x (xitem_ind' x) (go t) end) body)
    end.
End XitemInd.

(* ---- the reader only resolves ids that occur as region attributes ---------------------------------------------- *)
Lemma ancestors_in : forall anc r, region_from_ancestors anc = Some r -> In (Some r) anc.
Proof.
  induction anc as [|[a|] t IH]; intros r H; cbn [region_from_ancestors] in H; [discriminate| |right; apply IH; exact H].
  inversion H; subst. left. reflexivity.
Qed.

Lemma descendants_in : forall ds r, region_from_descendants ds = Some r -> In (Some r) ds.
Proof.
  intros [|d t] r H; cbn [region_from_descendants] in H; [discriminate|].
  destruct (forallb (opt_rid_eqb d) t); [subst d; left; reflexivity|discriminate].
Qed.

Lemma determine_in : forall own anc ds r, determine_region own anc ds = Some r -> In (Some r) (own :: anc ++ ds).
Proof.
  intros own anc ds r H. unfold determine_region in H. destruct own as [o|].
  - inversion H; subst. left. reflexivity.
  - right. apply in_or_app. destruct (region_from_ancestors anc) as [a|] eqn:E.
    + inversion H; subst. left. apply ancestors_in. exact E.
    + right. apply descendants_in. exact H.
Qed.

Section Cleanup.
  Variable regs : list (region_id * region_attrs).
  Variable R : list region_id.
  Let regs' := filter (fun kv : region_id * region_attrs => rid_mem (fst kv) R) regs.

  Lemma resolve_filter : forall id, (forall r, id = Some r -> In r R) -> resolve regs' id = resolve regs id.
  Proof.
    intros [r|] H; [|reflexivity]. unfold resolve, regs'.
    rewrite find_filter; [reflexivity|]. intros kv E. apply region_id_eqb_eq in E. rewrite E.
    apply rid_mem_iff. apply H. reflexivity.
  Qed.

  Lemma read_item_filter : forall it anc parent,
    (forall r, In (Some r) anc -> In r R) -> (forall r, In (Some r) (elem_regions it) -> In r R) ->
    read_item regs' anc parent it = read_item regs anc parent it.
  Proof.
    induction it as [w| |r body IH] using xitem_ind'; intros anc parent Ha Hi; [reflexivity|reflexivity|].
    rewrite !read_item_span_unfold. cbn [elem_regions] in Hi.
    rewrite resolve_filter.
    2:{ intros x Ex. apply determine_in in Ex. destruct Ex as [Ex|Ex].
        - apply Hi. left. exact Ex.
        - apply in_app_or in Ex. destruct Ex as [Ex|Ex]; [apply Ha; exact Ex|apply Hi; right; exact Ex]. }
    destruct (resolve regs _) as [lay|]; [|reflexivity]. cbn [bind].
    rewrite (res_map_ext_in (read_item regs' (r :: anc) lay) (read_item regs (r :: anc) lay)); [reflexivity|].
    intros x Hx. rewrite Forall_forall in IH. apply IH; [exact Hx| |].
    - intros y [Hy|Hy]; [apply Hi; left; exact Hy|apply Ha; exact Hy].
    - intros y Hy. apply Hi. right. apply in_flat_map. exists x. split; assumption.
  Qed.

  Lemma read_p_filter : forall dr p, (forall r, dr = Some r -> In r R) -> (forall r, In (Some r) (p_elem_regions p) -> In r R) ->
    read_p regs' dr p = read_p regs dr p.
  Proof.
    intros dr p Hd Hp. unfold read_p, p_elem_regions in *.
    rewrite resolve_filter.
    2:{ intros x Ex. apply determine_in in Ex. destruct Ex as [Ex|Ex]; [apply Hp; left; exact Ex|].
        apply in_app_or in Ex. destruct Ex as [[Ex|[]]|Ex]; [apply Hd; exact Ex|apply Hp; right; exact Ex]. }
    destruct (resolve regs _) as [lay|]; [|reflexivity]. cbn [bind].
    rewrite (res_map_ext_in (read_item regs' [xp_region p; dr] lay) (read_item regs [xp_region p; dr] lay)); [reflexivity|].
    intros x Hx. apply read_item_filter.
    - intros y [Hy|[Hy|[]]]; [apply Hp; left; exact Hy|apply Hd; exact Hy].
    - intros y Hy. apply Hp. right. apply in_flat_map. exists x. split; assumption.
  Qed.

  Lemma read_div_filter : forall d, (forall r, In r (div_refs d) -> In r R) -> read_div regs' d = read_div regs d.
  Proof.
    intros d Hd. unfold read_div.
    assert (H : forall r, In (Some r) (xd_region d :: flat_map p_elem_regions (xd_ps d)) -> In r R).
    { intros r Hr. apply Hd. unfold div_refs. apply in_somes. exact Hr. }
    rewrite resolve_filter.
    2:{ intros x Ex. apply determine_in in Ex. cbn [app] in Ex. apply H. exact Ex. }
    destruct (resolve regs _) as [lay|]; [|reflexivity]. cbn [bind].
    rewrite (res_map_ext_in (read_p regs' (xd_region d)) (read_p regs (xd_region d))); [reflexivity|].
    intros p Hp. apply read_p_filter.
    - intros r Er. apply H. left. exact Er.
    - intros r Hr. apply H. right. apply in_flat_map. exists p. split; assumption.
  Qed.
End Cleanup.

(* removing the regions no element refers to changes nothing of what the reader computes - for EVERY document *)
Theorem cleanup_read_invariant : forall d, read_doc (cleanup_regions d) = read_doc d.
Proof.
  intros d. unfold read_doc, cleanup_regions. cbn [x_regions x_divs]. apply res_map_ext_in. intros dv Hdv.
  apply read_div_filter. intros r Hr. unfold doc_refs. apply in_flat_map. exists dv. split; assumption.
Qed.

Theorem roundtrip_clean_eq : forall g s, dfxp_roundtrip_clean g s = dfxp_roundtrip g s.
Proof. intros g s. unfold dfxp_roundtrip_clean, write_doc_clean, dfxp_roundtrip. apply cleanup_read_invariant. Qed.

(* every region left in <layout> is referenced by an element, and was created by the writer *)
Theorem clean_regions_referenced : forall d id a, In (id, a) (x_regions (cleanup_regions d)) ->
  In id (doc_refs d) /\ In (id, a) (x_regions d).
Proof.
  intros d id a H. unfold cleanup_regions in H. cbn [x_regions] in H. apply filter_In in H. destruct H as [H1 H2].
  split; [apply rid_mem_iff; exact H2|exact H1].
Qed.

(* which ids the writer puts on elements: always an id of the region table *)
Definition id_in_table (m : list (layout * region_id)) (id : region_id) : Prop := exists k, In (k, id) m.

Section WrittenRefs.
  Variable m : list (layout * region_id).
  Hypothesis Hl : forall o, id_in_table m (region_lookup m o).

  Definition ok_item (x : xitem) : Prop := forall r, In (Some r) (elem_regions x) -> id_in_table m r.
  Definition open_ok (open : option (option region_id * list xitem)) : Prop :=
    match open with
    | Some (ro, body) => (forall r, ro = Some r -> id_in_table m r) /\ Forall ok_item body
    | None => True
    end.

  Lemma ok_text : forall w, ok_item (XText w).
  Proof. intros w r []. Qed.
  Lemma ok_br : ok_item XBr.
  Proof. intros r [H|[]]. discriminate. Qed.
  Lemma ok_span : forall ro body, (forall r, ro = Some r -> id_in_table m r) -> Forall ok_item body -> ok_item (XSpan ro body).
  Proof.
    intros ro body H1 H2 r Hr. cbn [elem_regions] in Hr. destruct Hr as [Hr|Hr]; [apply H1; exact Hr|].
    rewrite in_flat_map in Hr. destruct Hr as (x & Hx & Hxr). rewrite Forall_forall in H2. exact (H2 x Hx r Hxr).
  Qed.

  Lemma close_span_ok : forall open out, open_ok open -> Forall ok_item out -> Forall ok_item (close_span open out).
  Proof.
    intros [[ro body]|] out Ho Hout; cbn [close_span]; [|exact Hout]. destruct Ho as [H1 H2].
    constructor; [|exact Hout]. apply ok_span; [exact H1|apply Forall_rev; exact H2].
  Qed.

  Lemma write_nodes_ok : forall nodes open out, open_ok open -> Forall ok_item out ->
    Forall ok_item (write_nodes (region_lookup m) nodes open out).
  Proof.
    induction nodes as [|n t IH]; intros open out Ho Hout.
    - cbn [write_nodes]. apply Forall_rev. apply close_span_ok; assumption.
    - cbn [write_nodes].
      destruct (d_kind n =? 1).
      { destruct open as [[ro body]|]; apply IH; try exact Hout; try exact I.
        - destruct Ho as [H1 H2]. split; [exact H1|constructor; [apply ok_text|exact H2]].
        - constructor; [apply ok_text|exact Hout]. }
      destruct (d_kind n =? 3).
      { destruct open as [[ro body]|]; apply IH; try exact Hout; try exact I.
        - destruct Ho as [H1 H2]. split; [exact H1|constructor; [apply ok_br|exact H2]].
        - constructor; [apply ok_br|exact Hout]. }
      destruct (d_start n).
      + destruct (d_styled n || opt_layout_truthy (d_layout n)).
        * apply IH; [|apply close_span_ok; assumption]. split; [|constructor].
          intros r Er. destruct (opt_layout_truthy (d_layout n)); [inversion Er; subst; apply Hl|discriminate].
        * apply IH; assumption.
      + destruct open as [[ro body]|]; apply IH; try exact I; [apply close_span_ok; assumption|exact Hout].
  Qed.
End WrittenRefs.

(* no dangling reference: every region attribute of the written body names a region of the table ... *)
Theorem written_refs_in_table : forall g s r, In r (doc_refs (write_doc g s)) ->
  id_in_table (region_map (set_layouts s)) r.
Proof.
  intros g s r H. unfold doc_refs, write_doc in H. cbn [x_divs] in H. set (m := region_map (set_layouts s)) in *.
  assert (Hl : forall o, id_in_table m (region_lookup m o)) by (intros o; apply region_lookup_defined).
  rewrite in_flat_map in H. destruct H as (dv & Hdv & Hr). apply in_map_iff in Hdv. destruct Hdv as (lg & <- & _).
  unfold div_refs in Hr. apply in_somes in Hr. cbn [write_lang xd_region xd_ps] in Hr.
  destruct Hr as [Hr|Hr]; [inversion Hr; subst; apply Hl|].
  rewrite in_flat_map in Hr. destruct Hr as (p & Hp & Hr). apply in_map_iff in Hp. destruct Hp as (c & <- & _).
  unfold p_elem_regions, write_cap in Hr. cbn [xp_region xp_items] in Hr.
  destruct Hr as [Hr|Hr]; [inversion Hr; subst; apply Hl|].
  rewrite in_flat_map in Hr. destruct Hr as (x & Hx & Hxr).
  pose proof (write_nodes_ok m Hl (dc_nodes c) None [] I (Forall_nil _)) as W. rewrite Forall_forall in W.
  exact (W x Hx r Hxr).
Qed.

(* ... and that region is still in the document after the cleanup *)
Theorem written_refs_defined : forall g s r, In r (doc_refs (write_doc g s)) ->
  exists a, In (r, a) (x_regions (write_doc_clean g s)).
Proof.
  intros g s r H. destruct (written_refs_in_table g s r H) as (k & Hk).
  exists (layout_attrs k). unfold write_doc_clean, cleanup_regions. cbn [x_regions]. apply filter_In. split.
  - unfold write_doc. cbn [x_regions]. apply in_map_iff. exists (k, r). split; [reflexivity|exact Hk].
  - cbn [fst]. apply rid_mem_iff. exact H.
Qed.

(* both directions: the <region> elements of the written document are exactly the regions its elements refer to *)
Theorem written_regions_exact : forall g s r,
  In r (doc_refs (write_doc g s)) <-> exists a, In (r, a) (x_regions (write_doc_clean g s)).
Proof.
  intros g s r. split; [apply written_refs_defined|]. intros (a & Ha).
  exact (proj1 (clean_regions_referenced (write_doc g s) r a Ha)).
Qed.

Theorem clean_region_ids_unique : forall g s id a b,
  In (id, a) (x_regions (write_doc_clean g s)) -> In (id, b) (x_regions (write_doc_clean g s)) -> a = b.
Proof.
  intros g s id a b Ha Hb. apply (clean_regions_referenced (write_doc g s)), proj2 in Ha, Hb.
  unfold write_doc in Ha, Hb. cbn [x_regions] in Ha, Hb. apply in_map_iff in Ha, Hb.
  destruct Ha as ([ka ia] & Ea & Ia), Hb as ([kb ib] & Eb & Ib). cbn [fst snd] in Ea, Eb.
  inversion Ea; subst. inversion Eb; subst.
  rewrite (region_map_ids_unique _ _ _ _ Ia Ib). reflexivity.
Qed.

(* ---- the tree-level round trip on the document as it is written (with the cleanup) --------------------------- *)
Theorem dfxp_layout_roundtrip_clean : forall langs, Forall opt_nonneg (set_layouts (map to_dlang langs)) ->
  Forall lang_harmless langs ->
  exists obs, dfxp_roundtrip_clean None (map to_dlang langs) = Ok obs /\ Forall2 lang_rel obs langs.
Proof. intros langs NN HH. rewrite roundtrip_clean_eq. apply dfxp_layout_roundtrip; assumption. Qed.
