(* C17: the node layer of the reader model (model/SccDecoder.v) on the kind of buffer the SCC
   writer's loads produce - text and break nodes only, no italics, no repositioning.
     * add_chars on such a buffer appends the characters to the last text node, after an explicit break when the position
       tracker asks for one (`add_chars_plain`);
     * the seven passes of _format_italics change such a buffer only by dropping empty text nodes and stripping the
       whitespace in front of a break / the end (`format_plain`);
     * CaptionCreator.create_and_store builds exactly ONE caption from it, whose text has the same words (`caption_of_plain`).
   `ntext` is the text a buffer stands for (break = newline). *)
From Coq Require Import List ZArith QArith Lia Bool ZifyBool.
From PV Require Import lib.Sx lib.Str lib.StrFacts lib.Result model.SccLen model.SccStash model.SccDecoder spec.SpecSccw.
From PV Require proofs.SccPoponStage2c proofs.SccWordsFacts.
Import ListNotations.
Open Scope Z_scope.

Definition plain_node (n : inode) : bool := is_text n || is_break n.
Definition plain (l : list inode) : bool := forallb plain_node l.
Definition node_str (n : inode) : str :=
  match i_kind n with IText => i_text n | IBreak => [10] | _ => [] end.
Definition ntext (l : list inode) : str := concat (map node_str l).
Definition last_text (l : list inode) : bool :=
  match last (map Some l) None with Some n => is_text n | None => false end.

Lemma ntext_app : forall a b, ntext (a ++ b) = ntext a ++ ntext b.
Proof. intros. unfold ntext. rewrite map_app, concat_app. reflexivity. Qed.
Lemma plain_app : forall a b, plain (a ++ b) = plain a && plain b.
Proof. intros. unfold plain. apply forallb_app. Qed.

Lemma last_text_snoc : forall l n, last_text (l ++ [n]) = is_text n.
Proof. intros. unfold last_text. rewrite map_app. cbn [map]. rewrite last_last. reflexivity. Qed.

Lemma last_text_split : forall l, last_text l = true -> exists pre n, l = pre ++ [n] /\ is_text n = true.
Proof.
  intros l H. destruct (exists_last (l := l)) as (pre & n & E).
  - intros ->. discriminate.
  - exists pre, n. split; [exact E|]. rewrite E, last_text_snoc in H. exact H.
Qed.

(* all whitespace of the text is the blank (true for the CEA-608 basic set) *)
Definition tame (s : str) : bool := forallb (fun c => negb (is_space c) || (c =? 32)) s.
Definition tame_node (n : inode) : bool := tame (i_text n).

Definition brk_str (t : tracker) : str := if break_required t then [10] else [].

Lemma add_text_last : forall l s, last_text l = true -> plain l = true -> forallb tame_node l = true -> tame s = true ->
  plain (map_last (add_text s) l) = true /\ last_text (map_last (add_text s) l) = true
  /\ ntext (map_last (add_text s) l) = ntext l ++ s /\ forallb tame_node (map_last (add_text s) l) = true.
Proof.
  intros l s L P T S. destruct (last_text_split l L) as (pre & [k tx p] & -> & Hn).
  unfold is_text in Hn. cbn [i_kind] in Hn. destruct k; try discriminate.
  rewrite SccDoubleFacts.map_last_snoc, plain_app, last_text_snoc, !ntext_app, forallb_app in *.
  apply andb_prop in P, T. destruct P as [P1 _], T as [T1 T2]. rewrite P1, T1. repeat split.
  - unfold add_text, ntext. cbn. rewrite !app_nil_r, app_assoc. reflexivity.
  - cbn [forallb andb] in *. unfold tame_node, add_text, tame in *. cbn [i_text] in *.
    rewrite andb_true_r in *. rewrite forallb_app, T2, S. reflexivity.
Qed.

Lemma add_chars_plain : forall t nodes s, tk_repos t = false -> plain nodes = true ->
  forallb tame_node nodes = true -> tame s = true ->
  exists nodes',
    add_chars t (mkCr nodes SNone) s = (mkTk (tk_pos t) None false (tk_default t), mkCr nodes' SNone)
    /\ plain nodes' = true /\ last_text nodes' = true /\ ntext nodes' = ntext nodes ++ brk_str t ++ s
    /\ forallb tame_node nodes' = true.
Proof.
  intros t nodes s R P TN TS. unfold add_chars. cbn [cr_nodes cr_style]. rewrite R.
  replace (match last (map Some nodes) None with Some n => is_text n && negb false | None => false end) with (last_text nodes)
    by (unfold last_text; destruct (last (map Some nodes) None); [rewrite andb_true_r|]; reflexivity).
  set (cur := current_position t).
  set (nodes1 := if last_text nodes then nodes else nodes ++ [mkI IText [] cur]).
  assert (H1 : last_text nodes1 = true /\ plain nodes1 = true /\ ntext nodes1 = ntext nodes /\ forallb tame_node nodes1 = true).
  { unfold nodes1. destruct (last_text nodes) eqn:E; [auto|].
    rewrite last_text_snoc, plain_app, ntext_app, forallb_app, P, TN. unfold ntext at 2. cbn. rewrite app_nil_r. auto. }
  destruct H1 as (L1 & P1 & N1 & T1). unfold brk_str. destruct (break_required t) eqn:B.
  - exists (map_last (add_text s) (nodes1 ++ [mkI IBreak [] cur; mkI IText [] cur])). split; [reflexivity|].
    rewrite <- N1, (app_assoc (ntext nodes1)). change [10] with (ntext [mkI IBreak [] cur; mkI IText [] cur]). rewrite <- ntext_app.
    apply add_text_last; [|rewrite plain_app, P1; reflexivity|rewrite forallb_app, T1; reflexivity|exact TS].
    change [mkI IBreak [] cur; mkI IText [] cur] with ([mkI IBreak [] cur] ++ [mkI IText [] cur]).
    rewrite app_assoc. apply last_text_snoc.
  - exists (map_last (add_text s) nodes1). split.
    + destruct t as [tp [b|] tr td]; [discriminate|]. cbn [tk_repos] in R. subst tr. reflexivity.
    + rewrite <- N1. apply add_text_last; assumption.
Qed.

Lemma plain_cons : forall n l, plain (n :: l) = true -> plain_node n = true /\ plain l = true.
Proof. intros n l H. unfold plain in *. cbn [forallb] in H. apply andb_prop in H. exact H. Qed.

Lemma plain_kinds : forall n, plain_node n = true ->
  is_on n = false /\ is_off n = false /\ is_repos n = false.
Proof. intros [k t p] H. unfold plain_node, is_text, is_break, is_on, is_off, is_repos in *. cbn [i_kind] in *. destruct k; try discriminate; auto. Qed.

(* the six passes that only react to italics and repositioning nodes leave a plain buffer as it is *)
Lemma plain_passes : forall l, plain l = true ->
  (forall b, skip_initial_off l b = l) /\ (forall st, skip_redundant l st = l) /\
  (forall op, close_before_repos l op = l) /\ (forall op, final_on_pos l op = op) /\
  remove_on_off l None = l /\ remove_off_on l None = l.
Proof.
  induction l as [|n t IH]; intros H; [repeat split|]. apply plain_cons in H. destruct H as [Hn Ht].
  destruct (plain_kinds n Hn) as (A & B & C), (IH Ht) as (I1 & I2 & I3 & I4 & I5 & I6).
  repeat split; intros;
    cbn [skip_initial_off skip_redundant close_before_repos final_on_pos remove_on_off remove_off_on];
    rewrite A, B, ?C, ?I1, ?I2, ?I3, ?I4, ?I5, ?I6; reflexivity.
Qed.

Lemma skip_empty_plain : forall l, plain l = true -> plain (skip_empty_text l) = true /\ ntext (skip_empty_text l) = ntext l.
Proof.
  induction l as [|n t IH]; intros H; [split; reflexivity|]. apply plain_cons in H. destruct H as [Hn Ht].
  destruct (IH Ht) as [I1 I2]. unfold skip_empty_text in *. cbn [filter].
  destruct (is_text n && negb (nonempty (i_text n))) eqn:E; cbn [negb].
  - split; [exact I1|]. rewrite I2. apply andb_prop in E. destruct E as [E1 E2].
    destruct n as [k tx p]. unfold is_text in E1. cbn [i_kind i_text] in *. destruct k; try discriminate. destruct tx; [reflexivity|discriminate].
  - split.
    + unfold plain. cbn [forallb]. rewrite Hn. exact I1.
    + change (ntext (n :: filter (fun n0 => negb (is_text n0 && negb (nonempty (i_text n0)))) t))
        with (node_str n ++ ntext (filter (fun n0 => negb (is_text n0 && negb (nonempty (i_text n0)))) t)).
      rewrite I2. reflexivity.
Qed.

Lemma format_plain : forall l, plain l = true -> format_italics l = strip_line_ends (skip_empty_text l).
Proof.
  intros l H. unfold format_italics, ensure_final_closes. cbv zeta. rewrite (proj1 (plain_passes l H)).
  destruct (plain_passes _ (proj1 (skip_empty_plain l H))) as (_ & I2 & I3 & I4 & I5 & I6).
  rewrite I2, I3, I4, I5, I6. reflexivity.
Qed.

Definition flushw (cur : str) : list str := match cur with [] => [] | _ => [rev cur] end.
Lemma words_aux_blank_head : forall R cur, (R = [] \/ exists c R2, R = c :: R2 /\ is_blank c = true) ->
  words_aux R cur = flushw cur ++ words_aux R [].
Proof.
  intros R cur [->|(c & R2 & -> & Hc)].
  - cbn [words_aux]. rewrite app_nil_r. destruct cur; reflexivity.
  - cbn [words_aux]. rewrite Hc. destruct cur; reflexivity.
Qed.
Lemma words_aux_spaces : forall sp R cur, forallb (fun c => c =? 32) sp = true ->
  (R = [] \/ exists c R2, R = c :: R2 /\ is_blank c = true) ->
  words_aux (sp ++ R) cur = words_aux R cur.
Proof.
  induction sp as [|c t IH]; intros R cur H HR; [reflexivity|]. cbn [forallb] in H. apply andb_prop in H. destruct H as [Hc Ht].
  assert (c = 32) by lia. subst c. cbn [app words_aux]. change (is_blank 32) with true. cbv iota.
  rewrite (words_aux_blank_head R cur HR). destruct cur as [|x cur']; cbn [flushw app]; rewrite (IH R [] Ht HR); reflexivity.
Qed.
Lemma words_aux_app_eq : forall a R R' cur, (forall cur, words_aux R cur = words_aux R' cur) ->
  words_aux (a ++ R) cur = words_aux (a ++ R') cur.
Proof.
  induction a as [|c t IH]; intros R R' cur H; [apply H|]. cbn [app words_aux].
  destruct (is_blank c); [destruct cur|]; rewrite ?(IH R R' _ H); reflexivity.
Qed.

Lemma tame_split : forall x, tame x = true -> exists sp, x = rstrip x ++ sp /\ forallb (fun c => c =? 32) sp = true.
Proof.
  intros x T. destruct (StrFacts.rstrip_split x) as (sp & E & S). exists sp. split; [exact E|].
  apply forallb_forall. intros c Hc. unfold tame in T. rewrite forallb_forall in T, S.
  assert (In c x) by (rewrite E; apply in_or_app; right; exact Hc).
  specialize (T c H). specialize (S c Hc). rewrite S in T. exact T.
Qed.

Definition blank_head (R : str) : Prop := R = [] \/ exists c R2, R = c :: R2 /\ is_blank c = true.

Lemma break_blank_head : forall l, l = [] \/ is_break (hd (mkI IText [] (0,0)) l) = true -> blank_head (ntext l).
Proof.
  intros [|[k tx p] t] [X|X]; try discriminate; [left; reflexivity|].
  unfold is_break in X. cbn [hd i_kind] in X. destruct k; try discriminate. right. exists 10, (ntext t). split; reflexivity.
Qed.

(* R stands for R' as far as words go: the same words whatever word is being read, and R starts a new word if R' does *)
Definition weq (R R' : str) : Prop :=
  (forall cur, words_aux R cur = words_aux R' cur) /\ (blank_head R' -> blank_head R).

Lemma weq_app : forall a R R', weq R R' -> weq (a ++ R) (a ++ R').
Proof.
  intros a R R' [W B]. split; [intros cur; apply words_aux_app_eq, W|].
  destruct a as [|c a]; [exact B|]. intros [X|(c0 & R2 & X & Hc)]; [discriminate|].
  right. exists c, (a ++ R). split; [reflexivity|]. cbn [app] in X. inversion X; subst. exact Hc.
Qed.

(* only a text node in front of a break or the end loses anything: trailing blanks, where a new word starts anyway *)
Lemma sle_weq : forall l, plain l = true -> forallb tame_node l = true -> weq (ntext (strip_line_ends l)) (ntext l).
Proof.
  induction l as [|n t IH]; intros P T; [split; auto|].
  apply plain_cons in P. destruct P as [Pn Pt]. cbn [forallb] in T. apply andb_prop in T. destruct T as [Tn Tt].
  specialize (IH Pt Tt). cbn [strip_line_ends]. change (ntext (n :: t)) with (node_str n ++ ntext t).
  match goal with |- context [ntext (?x :: strip_line_ends t)] =>
    change (ntext (x :: strip_line_ends t)) with (node_str x ++ ntext (strip_line_ends t)) end.
  destruct (is_text n && next_plain_is_sep t) eqn:E; [|apply weq_app, IH].
  apply andb_prop in E. destruct E as [En Es].
  assert (S1 : blank_head (ntext t)).
  { apply break_blank_head. destruct t as [|m t']; [left; reflexivity|right]. cbn [next_plain_is_sep hd] in *.
    apply plain_cons in Pt. destruct Pt as [Pm _]. destruct (plain_kinds m Pm) as (A & B & C). rewrite A, B, C in Es.
    cbn [orb] in Es. rewrite orb_false_r in Es. exact Es. }
  destruct n as [k tx p]. unfold is_text in En. cbn [i_kind] in En. destruct k; try discriminate.
  unfold rstrip_node, node_str. cbn [i_kind i_text i_pos].
  destruct (tame_split tx Tn) as (sp & E & Sp). set (y := rstrip tx) in *. clearbody y. subst tx.
  rewrite <- app_assoc. apply weq_app. split; [|intros _; exact (proj2 IH S1)].
  intros cur. rewrite (proj1 IH). symmetry. apply words_aux_spaces; assumption.
Qed.

Lemma sle_words : forall l, plain l = true -> forallb tame_node l = true ->
  (forall cur, words_aux (ntext (strip_line_ends l)) cur = words_aux (ntext l) cur)
  /\ (blank_head (ntext l) -> blank_head (ntext (strip_line_ends l))) /\ (l = [] \/ is_break (hd (mkI IText [] (0,0)) l) = true -> blank_head (ntext l)).
Proof.
  intros l P T. destruct (sle_weq l P T) as [W B]. split; [exact W|]. split; [exact B|apply break_blank_head].
Qed.

Definition cnode_of (n : inode) : list cnode :=
  match i_kind n with
  | IText => if nonempty (i_text n) then [CText (i_text n) (i_pos n)] else []
  | IBreak => [CBreak (i_pos n)]
  | _ => []
  end.

Lemma build_plain : forall l s e done cur, plain l = true ->
  exists lay, build_captions l s e done cur
              = done ++ [mkPre (pc_start cur) (pc_end cur) (pc_nodes cur ++ flat_map cnode_of l) lay].
Proof.
  induction l as [|n t IH]; intros s e done cur P.
  - exists (pc_layout cur). cbn [build_captions flat_map]. rewrite app_nil_r. destruct cur; reflexivity.
  - apply plain_cons in P. destruct P as [Pn Pt]. destruct n as [k tx p]. unfold plain_node, is_text, is_break in Pn. cbn [i_kind] in Pn.
    destruct k; try discriminate; cbn [build_captions i_kind i_text i_pos flat_map].
    + unfold cnode_of at 1. cbn [i_kind i_text i_pos]. destruct (nonempty tx).
      * destruct (IH s e done (mkPre (pc_start cur) (pc_end cur) (pc_nodes cur ++ [CText tx p]) (Some p)) Pt) as (lay & E).
        exists lay. rewrite E. cbn [pc_start pc_end pc_nodes]. rewrite <- app_assoc. reflexivity.
      * destruct (IH s e done cur Pt) as (lay & E). exists lay. rewrite E. reflexivity.
    + unfold cnode_of at 1. cbn [i_kind i_pos].
      destruct (IH s e done (add_node cur (CBreak p)) Pt) as (lay & E). exists lay. rewrite E. unfold add_node.
      cbn [pc_start pc_end pc_nodes]. rewrite <- app_assoc. reflexivity.
Qed.

Lemma cnode_text : forall l, plain l = true -> concat (map node_text (flat_map cnode_of l)) = ntext l.
Proof.
  induction l as [|n t IH]; intros P; [reflexivity|]. apply plain_cons in P. destruct P as [Pn Pt].
  cbn [flat_map]. rewrite map_app, concat_app, (IH Pt). change (ntext (n :: t)) with (node_str n ++ ntext t). f_equal.
  destruct n as [k tx p]. unfold plain_node, is_text, is_break in Pn. cbn [i_kind] in Pn.
  destruct k; try discriminate; unfold cnode_of, node_str; cbn [i_kind i_text i_pos].
  - destruct tx; cbn [nonempty map concat node_text]; rewrite ?app_nil_r; reflexivity.
  - reflexivity.
Qed.

Lemma sle_plain : forall l, plain l = true -> plain (strip_line_ends l) = true.
Proof.
  induction l as [|n t IH]; intros P; [reflexivity|]. apply plain_cons in P. destruct P as [Pn Pt]. cbn [strip_line_ends].
  unfold plain. cbn [forallb]. fold (plain (strip_line_ends t)). rewrite (IH Pt), andb_true_r.
  destruct (is_text n && next_plain_is_sep t); [|exact Pn]. destruct n as [k tx p]. exact Pn.
Qed.

Lemma skip_empty_tame : forall l, forallb tame_node l = true -> forallb tame_node (skip_empty_text l) = true.
Proof.
  intros l H. apply forallb_forall. intros n Hn. unfold skip_empty_text in Hn. apply filter_In in Hn. destruct Hn as [Hn _].
  rewrite forallb_forall in H. apply H. exact Hn.
Qed.

Theorem caption_of_plain : forall nodes s e, plain nodes = true -> forallb tame_node nodes = true ->
  exists cn lay, build_captions (format_italics nodes) s e [] (mkPre s e [] None) = [mkPre s e cn lay]
                 /\ words (concat (map node_text cn)) = words (ntext nodes).
Proof.
  intros nodes s e P T. rewrite (format_plain nodes P).
  destruct (skip_empty_plain nodes P) as [P2 N2]. pose proof (sle_plain _ P2) as P3.
  destruct (build_plain (strip_line_ends (skip_empty_text nodes)) s e [] (mkPre s e [] None) P3) as (lay & E).
  cbn [pc_start pc_end pc_nodes app] in E. eexists _, lay. split; [exact E|].
  rewrite (cnode_text _ P3). unfold words.
  destruct (sle_words (skip_empty_text nodes) P2 (skip_empty_tame nodes T)) as (W & _). rewrite W, N2. reflexivity.
Qed.
