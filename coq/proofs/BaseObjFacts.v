(* C19, object level: the repaired adjust_caption_timing loop on a heap of Caption objects equals the value model
   for EVERY alias structure (an object listed under several languages, or several times in one list). *)
From Coq Require Import List ZArith QArith Bool Arith Lia.
From PV Require Import lib.Sx lib.StrFacts lib.Result model.Base model.BaseObj spec.SpecBase proofs.BaseFacts.
Import ListNotations.

Lemma upd_length : forall h k c, length (upd h k c) = length h.
Proof. induction h as [|x t IH]; intros k c; [reflexivity|]. destruct k; cbn; [reflexivity|]. rewrite IH. reflexivity. Qed.

Lemma deref_upd_same : forall h k c, (k < length h)%nat -> deref (upd h k c) k = c.
Proof.
  unfold deref. induction h as [|x t IH]; intros k c H; [cbn in H; lia|].
  destruct k; cbn; [reflexivity|]. apply IH. cbn in H. lia.
Qed.

Lemma deref_upd_other : forall h k j c, j <> k -> deref (upd h k c) j = deref h j.
Proof.
  unfold deref. induction h as [|x t IH]; intros k j c H; [reflexivity|].
  destruct k, j; cbn; try reflexivity; try congruence. apply IH. congruence.
Qed.

Lemma mem_nat_cons : forall j k l, mem_nat j (k :: l) = Nat.eqb j k || mem_nat j l.
Proof. reflexivity. Qed.

Section Adjust.
Variables (skew off : Q) (h0 : heap).

Definition inv (h : heap) (adj : list nat) : Prop :=
  length h = length h0 /\
  forall j, deref h j = if mem_nat j adj then retime skew off (deref h0 j) else deref h0 j.

Definition keep (k : nat) : bool := Qle_bool 0 (c_start (retime skew off (deref h0 k))).

Lemma step_spec : forall h adj out k, inv h adj -> (k < length h0)%nat ->
  exists h' adj',
    adjust_obj_step true skew off (h, adj, out) k = (h', adj', out ++ (if keep k then [k] else [])) /\
    inv h' adj' /\ mem_nat k adj' = true /\ (forall j, mem_nat j adj = true -> mem_nat j adj' = true).
Proof.
  intros h adj out k [Hlen Hd] Hk. unfold adjust_obj_step. cbn [andb].
  destruct (mem_nat k adj) eqn:Em.
  - exists h, adj. pose proof (Hd k) as Hk'. rewrite Em in Hk'. rewrite Hk'. fold (keep k).
    split; [destruct (keep k); [reflexivity|rewrite app_nil_r; reflexivity]|].
    split; [split; assumption|]. split; [exact Em|auto].
  - exists (upd h k (retime skew off (deref h k))), (k :: adj).
    rewrite deref_upd_same by lia.
    pose proof (Hd k) as Hk'. rewrite Em in Hk'. rewrite Hk'. fold (keep k).
    split; [destruct (keep k); [reflexivity|rewrite app_nil_r; reflexivity]|].
    split.
    + split; [rewrite upd_length; exact Hlen|].
      intros j. rewrite mem_nat_cons. destruct (Nat.eqb j k) eqn:Ej.
      * apply Nat.eqb_eq in Ej. subst j. cbn [orb]. apply deref_upd_same. lia.
      * cbn [orb]. apply Nat.eqb_neq in Ej. rewrite deref_upd_other by exact Ej. apply Hd.
    + split; [rewrite mem_nat_cons, Nat.eqb_refl; reflexivity|].
      intros j Hj. rewrite mem_nat_cons, Hj. apply orb_true_r.
Qed.

Lemma fold_spec : forall ids h adj out, inv h adj -> (forall k, In k ids -> (k < length h0)%nat) ->
  exists h' adj',
    fold_left (adjust_obj_step true skew off) ids (h, adj, out) = (h', adj', out ++ filter keep ids) /\
    inv h' adj' /\ (forall k, In k ids -> mem_nat k adj' = true) /\
    (forall j, mem_nat j adj = true -> mem_nat j adj' = true).
Proof.
  induction ids as [|k t IH]; intros h adj out Hinv Hids.
  - exists h, adj. cbn. rewrite app_nil_r. split; [reflexivity|]. split; [exact Hinv|].
    split; [intros k []|auto].
  - destruct (step_spec h adj out k Hinv (Hids k (or_introl eq_refl))) as [h1 [adj1 [E1 [I1 [M1 S1]]]]].
    destruct (IH h1 adj1 (out ++ (if keep k then [k] else [])) I1 (fun j Hj => Hids j (or_intror Hj)))
      as [h2 [adj2 [E2 [I2 [M2 S2]]]]].
    exists h2, adj2. cbn [fold_left filter]. rewrite E1, E2.
    split; [destruct (keep k); rewrite <- app_assoc; reflexivity|].
    split; [exact I2|]. split.
    + intros j [<-|Hj]; [apply S2; exact M1|apply M2; exact Hj].
    + intros j Hj. apply S2, S1, Hj.
Qed.

Lemma langs_spec : forall langs h adj, inv h adj ->
  (forall ids k, In ids langs -> In k ids -> (k < length h0)%nat) ->
  exists h' adj',
    adjust_obj_langs true skew off (h, adj) langs = ((h', adj'), map (filter keep) langs) /\
    inv h' adj' /\ (forall ids k, In ids langs -> In k ids -> mem_nat k adj' = true) /\
    (forall j, mem_nat j adj = true -> mem_nat j adj' = true).
Proof.
  induction langs as [|ids t IH]; intros h adj Hinv Hr.
  - exists h, adj. cbn. split; [reflexivity|]. split; [exact Hinv|]. split; [intros ids k []|auto].
  - destruct (fold_spec ids h adj [] Hinv (fun k Hk => Hr ids k (or_introl eq_refl) Hk))
      as [h1 [adj1 [E1 [I1 [M1 S1]]]]].
    destruct (IH h1 adj1 I1 (fun i k Hi Hk => Hr i k (or_intror Hi) Hk)) as [h2 [adj2 [E2 [I2 [M2 S2]]]]].
    exists h2, adj2. cbn [adjust_obj_langs map]. unfold adjust_obj_lang. cbn [fst snd].
    rewrite E1. cbn [app]. rewrite E2.
    split; [reflexivity|]. split; [exact I2|]. split.
    + intros i k [<-|Hi] Hk; [apply S2, M1, Hk|apply (M2 i k Hi Hk)].
    + intros j Hj. apply S2, S1, Hj.
Qed.

Lemma langs_heap : forall langs,
  (forall ids k, In ids langs -> In k ids -> (k < length h0)%nat) ->
  exists h' adj',
    adjust_obj_langs true skew off (h0, []) langs = ((h', adj'), map (filter keep) langs) /\
    length h' = length h0 /\
    forall ids k, In ids langs -> In k ids -> deref h' k = retime skew off (deref h0 k).
Proof.
  intros langs Hr.
  assert (Hinv0 : inv h0 []) by (split; [reflexivity|intros j; reflexivity]).
  destruct (langs_spec langs h0 [] Hinv0 Hr) as [h' [adj' [E [[Hl Hd] [M _]]]]].
  exists h', adj'. split; [exact E|]. split; [exact Hl|].
  intros ids k Hi Hk. rewrite Hd, (M ids k Hi Hk). reflexivity.
Qed.

Theorem adjust_objs_value : forall langs,
  (forall ids k, In ids langs -> In k ids -> (k < length h0)%nat) ->
  adjust_objs skew off h0 langs = adjust skew off (map (map (deref h0)) langs).
Proof.
  intros langs Hr. unfold adjust_objs, adjust_objs_gen.
  destruct (langs_heap langs Hr) as [h' [adj' [E [_ Hd]]]].
  rewrite E. unfold adjust. rewrite !map_map.
  apply map_ext_in. intros ids Hids.
  rewrite adjust_lang_filter_map, map_map.
  rewrite (filter_map_swap _ _ (fun k => retime skew off (deref h0 k)) (fun c => Qle_bool 0 (c_start c)) ids).
  apply map_ext_in. intros k Hk. apply filter_In in Hk. apply (Hd ids k Hids), Hk.
Qed.
End Adjust.

Lemma refs_ok_spec : forall h langs, refs_ok h langs = true ->
  forall ids k, In ids langs -> In k ids -> (k < length h)%nat.
Proof.
  intros h langs H ids k Hi Hk. unfold refs_ok in H. rewrite forallb_forall in H.
  specialize (H ids Hi). rewrite forallb_forall in H. specialize (H k Hk). apply Nat.ltb_lt. exact H.
Qed.

(* the object-level loop meets the property oracle on the values an observer sees, for every alias structure *)
Theorem adjust_objs_ok : forall skew off h langs, refs_ok h langs = true ->
  ok_adjust skew off (map (map (deref h)) langs) (adjust_objs skew off h langs) = true.
Proof.
  intros skew off h langs H. rewrite (adjust_objs_value skew off h langs (refs_ok_spec h langs H)).
  apply adjust_ok.
Qed.

(* the heap after adjust_caption_timing.  Whatever the alias structure (one Caption object listed under several
   languages, or several times in one list), every listed OBJECT holds its initial times retimed exactly once, and
   every language's new list (set_captions) holds, in order, the references whose retimed start is not negative. *)
Theorem adjust_objs_heap : forall skew off h0 langs,
  (forall ids k, In ids langs -> In k ids -> (k < length h0)%nat) ->
  exists h' adj',
    adjust_obj_langs true skew off (h0, []) langs = ((h', adj'), map (filter (keep skew off h0)) langs) /\
    length h' = length h0 /\
    forall ids k, In ids langs -> In k ids -> deref h' k = retime skew off (deref h0 k).
Proof. exact langs_heap. Qed.
