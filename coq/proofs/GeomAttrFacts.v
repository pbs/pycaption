(* C18: to_xml_attribute / from_xml_attribute of the composite values.
   Point / Stretch: "<x> <y>"; Padding: "<before> <end> <after> <start>".  Re-parsing a printed Point / Stretch / Padding
   reproduces it up to the two-decimal rounding of every component, and printing that again gives the same string
   (print o parse o print = print, component by component); TwoDimensionalObject.from_xml_attribute on token lists. *)
From Coq Require Import List ZArith QArith Qabs Bool Lia.
From PV Require Import lib.Sx lib.Str lib.Result model.Geometry model.Positioning spec.SpecGeom spec.SpecPos.
From PV Require Import proofs.GeomStr proofs.GeomEq proofs.GeomParse proofs.GeomPrint proofs.GeomLang proofs.GeomFacts proofs.PosFacts proofs.Pos12Facts.
Import ListNotations.
Open Scope Z_scope.

Lemma size_str_round2 : forall a, size_str (round2 a) = size_str a.
Proof. intros a. unfold size_str, round2. cbn [s_val s_unit]. rewrite hundredths_exact. reflexivity. Qed.

Lemma size_str_reparsed : forall z a, size_equiv z (round2 a) -> size_str z = size_str a.
Proof. intros z a H. rewrite (size_str_compat _ _ H). apply size_str_round2. Qed.

Theorem two_sizes_tokens : forall toks, toks <> [] -> Forall (free_of 32) toks ->
  two_sizes (join [32] toks)
  = match toks with
    | [a; b] => do x <- size_from_string a; do y <- size_from_string b; Ok (x, y)
    | _ => Err ValueError
    end.
Proof. intros toks Hn Hf. unfold two_sizes. rewrite (split_ch_of_join _ _ Hn Hf). reflexivity. Qed.

Theorem point_attr_roundtrip : forall p, (0 <= s_val (p_x p))%Q -> (0 <= s_val (p_y p))%Q ->
  exists p', point_of_attr (point_attr p) = Ok p'
    /\ size_equiv (p_x p') (round2 (p_x p)) /\ size_equiv (p_y p') (round2 (p_y p))
    /\ point_attr p' = point_attr p.
Proof.
  intros p Hx Hy. destruct (point_print p Hx Hy) as (p' & E & Qx & Qy). exists p'. split; [exact E|]. split; [exact Qx|]. split; [exact Qy|].
  unfold point_attr. rewrite (size_str_reparsed _ _ Qx), (size_str_reparsed _ _ Qy). reflexivity.
Qed.

Theorem stretch_attr_roundtrip : forall p, (0 <= s_val (st_h p))%Q -> (0 <= s_val (st_v p))%Q ->
  exists p', stretch_of_attr (stretch_attr p) = Ok p'
    /\ size_equiv (st_h p') (round2 (st_h p)) /\ size_equiv (st_v p') (round2 (st_v p))
    /\ stretch_attr p' = stretch_attr p.
Proof.
  intros p Hx Hy. destruct (stretch_print p Hx Hy) as (p' & E & Qx & Qy). exists p'. split; [exact E|]. split; [exact Qx|]. split; [exact Qy|].
  unfold stretch_attr. rewrite (size_str_reparsed _ _ Qx), (size_str_reparsed _ _ Qy). reflexivity.
Qed.

(* Padding.to_xml_attribute always prints four sizes in TTML order, so the four-value branch of the shorthand reads each
   component back into its own slot *)
Theorem padding_attr_roundtrip : forall p, (0 <= s_val (pd_before p))%Q -> (0 <= s_val (pd_after p))%Q ->
  (0 <= s_val (pd_start p))%Q -> (0 <= s_val (pd_end p))%Q ->
  exists p', padding_from_attr (padding_attr p) = Ok p'
    /\ size_equiv (pd_before p') (round2 (pd_before p)) /\ size_equiv (pd_after p') (round2 (pd_after p))
    /\ size_equiv (pd_start p') (round2 (pd_start p)) /\ size_equiv (pd_end p') (round2 (pd_end p))
    /\ padding_attr p' = padding_attr p.
Proof.
  intros p Hb Ha Hs He. destruct (padding_print p Hb Ha Hs He) as (p' & E & Qb & Qa & Qs & Qe). exists p'.
  split; [exact E|]. split; [exact Qb|]. split; [exact Qa|]. split; [exact Qs|]. split; [exact Qe|]. unfold padding_attr.
  rewrite (size_str_reparsed _ _ Qb), (size_str_reparsed _ _ Qa), (size_str_reparsed _ _ Qs), (size_str_reparsed _ _ Qe). reflexivity.
Qed.

(* equal values print the same attribute (the region table relies on it: one region per class of equal layouts) *)
Theorem point_attr_compat : forall p q, size_equiv (p_x p) (p_x q) -> size_equiv (p_y p) (p_y q) -> point_attr p = point_attr q.
Proof. intros p q Hx Hy. unfold point_attr. rewrite (size_str_compat _ _ Hx), (size_str_compat _ _ Hy). reflexivity. Qed.
