(* C13: SAMI and WebVTT down to the printed text: every margin / cue setting is a percentage that re-parses to
   the exact relativized value within 1/200. *)
From Coq Require Import List ZArith Qabs.
From PV Require Import lib.Sx lib.Result lib.ResultFacts model.Geometry model.Positioning model.Pos13Doc spec.SpecPos.
From PV Require Import proofs.GeomPrint proofs.PosFacts proofs.Pos13VttTextFacts.
Import ListNotations.
Open Scope Z_scope.

(* the text t printed for the exact length z: a number followed by "%", which Size.from_string reads as a percentage
   within 1/200 of z *)
Definition printed_pct_of (t : str) (z : size) : Prop :=
  t = size_str z /\ pct_text t
  /\ exists z', size_from_string t = Ok z' /\ s_unit z' = PCT /\ (Qabs (s_val z' - s_val z) <= 1 # 200)%Q.

Lemma printed_pct : forall z, s_unit z = PCT -> (0 <= s_val z)%Q -> printed_pct_of (size_str z) z.
Proof.
  intros z U N. split; [reflexivity|]. split; [apply pct_size_text; assumption|].
  destruct (print_parse z N) as (z' & E & _ & U'). destruct (print_parse_print z N) as (z2 & E2 & _ & C).
  rewrite E in E2. inversion E2; subst z2. exists z'. split; [exact E|]. split; [rewrite U'; exact U|exact C].
Qed.

(* ---- SAMI ------------------------------------------------------------------------------------------------------------ *)
Definition padding_sizes (o : option layout) : list size :=
  match o with
  | Some l => match l_padding l with Some p => [pd_before p; pd_end p; pd_after p; pd_start p] | None => [] end
  | None => []
  end.

Definition opt_pad_nonneg (o : option layout) : Prop := forall z, In z (padding_sizes o) -> (0 <= s_val z)%Q.

Lemma sami_margins_values : forall o k t, In (k, t) (sami_margins o) -> In t (map size_str (padding_sizes o)).
Proof.
  intros [l|] k t H; [|destruct H]. cbn [sami_margins padding_sizes] in *.
  destruct (layout_truthy l); [|destruct H]. destruct (l_padding l) as [p|]; [|destruct H].
  (* not by injection on the pairs: it would normalise the prints, here and again at Qed *)
  exact (in_combine_r [_; _; _; _] (map size_str [_; _; _; _]) k t H).
Qed.

(* every margin of a block is the print of a padding component of that level, a percentage within 1/200 *)
Lemma sami_margins_pct : forall o, opt_all_pct o = true -> opt_pad_nonneg o ->
  forall k t, In (k, t) (sami_margins o) -> exists z, In z (padding_sizes o) /\ printed_pct_of t z.
Proof.
  intros o P N k t Hin. apply sami_margins_values, in_map_iff in Hin. destruct Hin as (z & <- & Hz).
  exists z. split; [exact Hz|]. apply printed_pct; [|exact (N z Hz)].
  destruct o as [l|]; [|destruct Hz]. cbn [padding_sizes opt_all_pct] in *. apply all_pct_units in P.
  destruct (l_padding l) as [p|]; [|destruct Hz]. destruct P as (_ & _ & Ub & Ua & Us & Ue).
  destruct Hz as [<-|[<-|[<-|[<-|[]]]]]; assumption.
Qed.

Theorem sami_document_percent : forall c s s', w_rel c = true -> sami_transform c s = Ok s' ->
  Forall opt_pad_nonneg (ns_layout s' :: map nl_layout (ns_langs s')) ->
  Forall2 (fun block o => forall k t, In (k, t) block -> exists z, In z (padding_sizes o) /\ printed_pct_of t z)
          (sami_doc_margins s') (ns_layout s' :: map nl_layout (ns_langs s')).
Proof.
  intros c s s' Hr H NN. destruct (sami_writes_percentages c s s' Hr H) as [Pg Pw].
  unfold sami_doc_margins. constructor.
  - apply sami_margins_pct; [exact Pg|exact (Forall_inv NN)].
  - apply Forall_inv_tail in NN. rewrite forallb_forall in Pw.
    assert (L : forall lg, In lg (ns_langs s') -> opt_all_pct (nl_layout lg) = true).
    { intros lg Hlg. apply Pw. unfold written_layouts. apply in_flat_map. exists lg. split; [exact Hlg|left; reflexivity]. }
    revert NN L. generalize (ns_langs s'). induction l as [|lg t IH]; intros NN L; cbn [map]; constructor.
    + apply sami_margins_pct; [apply L; left; reflexivity|exact (Forall_inv NN)].
    + apply IH; [exact (Forall_inv_tail NN)|intros x Hx; apply L; right; exact Hx].
Qed.

Definition cue_text_pct (o : vtt_out) : Prop :=
  match o with
  | VSet v => vs_nonneg v -> forall z, In (Some z) [vs_position v; vs_line v; vs_size v] -> printed_pct_of (size_str z) z
  | _ => True
  end.

Lemma set_text_pct : forall v, vs_all_pct v = true -> cue_text_pct (VSet v).
Proof. intros v P N z Hz. apply printed_pct; [exact (vs_pct_unit v z P Hz)|exact (N z Hz)]. Qed.

(* every COMPUTED cue setting of the document (position / line / size of every cue of every caption of the written
   language) is printed as a percentage that re-parses within 1/200 of the exact value the model computed *)
Theorem vtt_document_percent : forall c lg outs, vtt_language c lg = Ok outs ->
  Forall (Forall cue_text_pct) outs.
Proof.
  intros c lg outs H. apply (res_map_Forall _ _ _ _ H). intros cp cues Hc. apply (res_map_Forall _ _ _ _ Hc).
  intros g [|raw|v] Ho; try exact I. apply set_text_pct. exact (vtt_only_percent c _ _ Ho).
Qed.
