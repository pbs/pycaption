(* StoreFacts.v - lemmas about the heap model (model/Store.v): the frame discipline of "a call that allocates at
   `mark` and afterwards assigns only through pointers of what it allocated", deepcopy, snapshots. *)
From Coq Require Import List ZArith Bool Arith Lia.
From PV Require Import lib.Sx lib.Str model.Store.
Import ListNotations.

Lemma length_upd : forall st l o, length (upd st l o) = length st.
Proof. induction st as [|x t IH]; intros [|n] o; simpl; auto. Qed.

Lemma get_upd_same : forall st l o, (l < length st)%nat -> get (upd st l o) l = Some o.
Proof.
  unfold get. induction st as [|x t IH]; intros [|n] o H; simpl in *; try lia; auto.
  apply IH. lia.
Qed.

Lemma get_upd_other : forall st l l' o, l <> l' -> get (upd st l o) l' = get st l'.
Proof.
  unfold get. induction st as [|x t IH]; intros [|n] [|m] o H; simpl; auto; try congruence.
Qed.

Lemma upd_out : forall st l o, (length st <= l)%nat -> upd st l o = st.
Proof.
  induction st as [|x t IH]; intros [|n] o H; simpl in *; auto; try lia.
  f_equal. apply IH. lia.
Qed.

Lemma get_some_lt : forall st l o, get st l = Some o -> (l < length st)%nat.
Proof. unfold get. intros st l o H. apply nth_error_Some. congruence. Qed.

Lemma get_none_ge : forall st l, (length st <= l)%nat -> get st l = None.
Proof. unfold get. intros. apply nth_error_None. assumption. Qed.

Lemma get_app_l : forall st ext l, (l < length st)%nat -> get (st ++ ext) l = get st l.
Proof. unfold get. intros. apply nth_error_app1. assumption. Qed.

Lemma get_app_new : forall st o, get (st ++ [o]) (length st) = Some o.
Proof. unfold get. intros. rewrite nth_error_app2 by lia. rewrite Nat.sub_diag. reflexivity. Qed.

Definition inr (mark n : nat) (v : val) : Prop :=
  match v with VLoc l => (mark <= l < n)%nat | _ => True end.

Definition below (n : nat) (v : val) : Prop :=
  match v with VLoc l => (l < n)%nat | _ => True end.

Definition items_inr (mark n : nat) (its : list (val * val)) : Prop :=
  Forall (fun kv => inr mark n (fst kv) /\ inr mark n (snd kv)) its.

Definition items_below (n : nat) (its : list (val * val)) : Prop :=
  Forall (fun kv => below n (fst kv) /\ below n (snd kv)) its.

Definition wf (st : store) : Prop :=
  forall l o, get st l = Some o -> items_below (length st) (o_items o).

Definition agree_below (mark : nat) (st st' : store) : Prop :=
  forall l, (l < mark)%nat -> get st' l = get st l.

(* The invariant of a call that started in st0 (mark = length st0):
   the old part is untouched, and what was allocated since points only into what was allocated since. *)
Record inv (st0 st : store) : Prop := mkInv {
  inv_agree : agree_below (length st0) st0 st;
  inv_len : (length st0 <= length st)%nat;
  inv_closed : forall l o, (length st0 <= l)%nat -> get st l = Some o ->
                           items_inr (length st0) (length st) (o_items o)
}.

Section ItemsAll.
  Variable P : val -> Prop.

  Definition items_all (its : list (val * val)) : Prop := Forall (fun kv => P (fst kv) /\ P (snd kv)) its.

  Lemma assoc_all : forall k its x, items_all its -> assoc k its = Some x -> P x.
  Proof.
    intros k its x H. induction H as [|[k' v'] t [A B] Ht IH]; simpl; [discriminate|].
    destruct (val_eqb k k'); [intros E; inversion E; subst; exact B|exact IH].
  Qed.

  Lemma assoc_set_all : forall k x its, items_all its -> P k -> P x -> items_all (assoc_set k x its).
  Proof.
    intros k x its H Hk Hx. induction H as [|[k' v'] t [A B] Ht IH]; simpl.
    - constructor; [split; assumption|constructor].
    - destruct (val_eqb k k'); constructor; auto; split; auto.
  Qed.

  Lemma assoc_del_all : forall k its, items_all its -> items_all (assoc_del k its).
  Proof.
    intros k its H. induction H as [|[k' v'] t AB Ht IH]; simpl; [constructor|].
    destruct (val_eqb k k'); [assumption|constructor; assumption].
  Qed.

  Lemma field_all : forall st v k, items_all (items_of st v) -> P VNone -> P (field st v k).
  Proof.
    intros st v k H Hn. unfold field. destruct (assoc k (items_of st v)) eqn:E; [eapply assoc_all; eauto|exact Hn].
  Qed.

  Lemma snap_closed : forall st st',
    (forall l o, P (VLoc l) -> get st l = Some o -> items_all (o_items o)) ->
    (forall l, P (VLoc l) -> get st' l = get st l) ->
    forall n v, P v -> snap n st' v = snap n st v.
  Proof.
    intros st st' Hc Ha. induction n as [|n IH]; intros v Hv; [destruct v; reflexivity|].
    destruct v as [| | |l]; try reflexivity. cbn [snap]. rewrite (Ha l Hv).
    destruct (get st l) as [o|] eqn:Hg; [|reflexivity]. f_equal. apply map_ext_in. intros [k x] Hin.
    specialize (Hc l o Hv Hg). unfold items_all in Hc. rewrite Forall_forall in Hc.
    destruct (Hc _ Hin) as [A B]. cbn [fst snd] in *. rewrite (IH k A), (IH x B). reflexivity.
  Qed.
End ItemsAll.

Lemma items_all_impl : forall (P Q : val -> Prop) its, (forall v, P v -> Q v) -> items_all P its -> items_all Q its.
Proof. intros P Q its H. apply Forall_impl. intros kv [A B]. split; apply H; assumption. Qed.

Lemma inr_mono : forall mark n n' v, inr mark n v -> (n <= n')%nat -> inr mark n' v.
Proof. intros mark n n' [] H Hn; simpl in *; auto. lia. Qed.

Lemma items_inr_mono : forall mark n n' its, items_inr mark n its -> (n <= n')%nat -> items_inr mark n' its.
Proof. intros mark n n' its H Hn. revert H. apply items_all_impl. intros v Hv. eapply inr_mono; eauto. Qed.

Lemma below_mono : forall n n' v, below n v -> (n <= n')%nat -> below n' v.
Proof. intros n n' [] H Hn; simpl in *; auto. lia. Qed.

Lemma inr_below : forall mark n v, inr mark n v -> below n v.
Proof. intros mark n [] H; simpl in *; auto. lia. Qed.

Lemma tree_ind2 : forall P : tree -> Prop,
  (forall z, P (TInt z)) -> (forall s, P (TStr s)) -> P TNone -> P TCut ->
  (forall k items, Forall (fun ab => P (fst ab) /\ P (snd ab)) items -> P (TNode k items)) ->
  forall t, P t.
Proof.
  intros P HI HS HN HC HNode. fix IH 1. intros [z|s| |k items|]; [apply HI|apply HS|exact HN| |exact HC].
  apply HNode. revert items. fix IHl 1. intros [|[a b] r]; constructor; [split; apply IH|apply IHl].
Qed.

Lemma inv_refl : forall st0, inv st0 st0.
Proof.
  intros st0. constructor.
  - intros l _. reflexivity.
  - lia.
  - intros l o Hl Hg. apply get_some_lt in Hg. lia.
Qed.

Lemma inv_wf : forall st0 st, wf st0 -> inv st0 st -> wf st.
Proof.
  intros st0 st Hwf [Ha Hl Hc] l o Hg.
  destruct (Nat.lt_ge_cases l (length st0)) as [Hlt|Hge].
  - rewrite Ha in Hg by assumption. generalize (Hwf l o Hg). apply items_all_impl. intros v Hv. eapply below_mono; eauto.
  - generalize (Hc l o Hge Hg). apply items_all_impl. intros v. apply inr_below.
Qed.

(* ---- primitive steps preserve the invariant --------------------------------------------------------------------- *)
Lemma inv_upd : forall st0 st l o,
  inv st0 st -> (length st0 <= l)%nat -> items_inr (length st0) (length st) (o_items o) ->
  inv st0 (upd st l o).
Proof.
  intros st0 st l o [Ha Hl Hc] Hge Hits. constructor.
  - intros l' Hl'. rewrite get_upd_other by lia. apply Ha. assumption.
  - rewrite length_upd. assumption.
  - intros l' o' Hl' Hg. rewrite length_upd.
    destruct (Nat.eq_dec l l') as [->|Hne].
    + destruct (Nat.lt_ge_cases l' (length st)) as [Hlt|Hge'].
      * rewrite get_upd_same in Hg by assumption. inversion Hg; subst. assumption.
      * rewrite upd_out in Hg by assumption. eapply Hc; eauto.
    + rewrite get_upd_other in Hg by assumption. eapply Hc; eauto.
Qed.

Lemma inv_alloc : forall st0 st o,
  inv st0 st -> items_inr (length st0) (length st) (o_items o) ->
  inv st0 (st ++ [o]) /\ inr (length st0) (length (st ++ [o])) (VLoc (length st)).
Proof.
  intros st0 st o [Ha Hl Hc] Hits. split.
  - constructor.
    + intros l Hl'. rewrite get_app_l by lia. apply Ha. assumption.
    + rewrite app_length. simpl. lia.
    + intros l o' Hl' Hg. rewrite app_length. simpl.
      destruct (Nat.lt_ge_cases l (length st)) as [Hlt|Hge].
      * rewrite get_app_l in Hg by assumption. eapply items_inr_mono; [eapply Hc; eauto|lia].
      * assert (l = length st).
        { apply get_some_lt in Hg. rewrite app_length in Hg. simpl in Hg. lia. }
        subst l. rewrite get_app_new in Hg. inversion Hg; subst.
        eapply items_inr_mono; eauto. lia.
  - unfold inr. rewrite app_length. simpl. lia.
Qed.

Lemma inv_new_obj : forall st0 st k its st' v,
  inv st0 st -> items_inr (length st0) (length st) its -> new_obj st k its = (st', v) ->
  inv st0 st' /\ inr (length st0) (length st') v /\ (length st <= length st')%nat.
Proof.
  intros st0 st k its st' v Hinv Hits H. unfold new_obj, alloc in H. inversion H; subst.
  destruct (inv_alloc st0 st (mkObj k its) Hinv Hits) as [A B].
  split; [exact A|]. split; [exact B|]. rewrite app_length. simpl. lia.
Qed.

Lemma items_of_inr : forall st0 st v,
  inv st0 st -> inr (length st0) (length st) v -> items_inr (length st0) (length st) (items_of st v).
Proof.
  intros st0 st v Hinv Hv. destruct v as [| | |l]; simpl; try constructor.
  destruct (get st l) as [o|] eqn:Hg; [|constructor].
  simpl in Hv. apply (inv_closed _ _ Hinv l o); [lia|exact Hg].
Qed.

Lemma field_inr : forall st0 st v k,
  inv st0 st -> inr (length st0) (length st) v -> inr (length st0) (length st) (field st v k).
Proof. intros. apply (field_all (inr _ _)); [apply items_of_inr; auto|exact I]. Qed.

(* ---- assignments through a pointer of the new region ------------------------------------------------------------ *)
Lemma inv_set_items : forall st0 st v its,
  inv st0 st -> inr (length st0) (length st) v -> items_inr (length st0) (length st) its ->
  inv st0 (set_items st v its).
Proof.
  intros st0 st v its Hinv Hv Hits. unfold set_items.
  destruct v as [| | |l]; auto. destruct (get st l) as [o|] eqn:Hg; auto.
  simpl in Hv. apply inv_upd; auto. lia.
Qed.

Lemma length_set_items : forall st v its, length (set_items st v its) = length st.
Proof.
  intros st v its. unfold set_items. destruct v; auto. destruct (get st l); auto. apply length_upd.
Qed.

Lemma inv_set_field : forall st0 st v k x,
  inv st0 st -> inr (length st0) (length st) v -> inr (length st0) (length st) k ->
  inr (length st0) (length st) x -> inv st0 (set_field st v k x).
Proof.
  intros. unfold set_field. apply inv_set_items; auto.
  apply (assoc_set_all (inr _ _)); auto. apply items_of_inr; auto.
Qed.

Lemma inv_del_field : forall st0 st v k,
  inv st0 st -> inr (length st0) (length st) v -> inv st0 (del_field st v k).
Proof.
  intros. unfold del_field. apply inv_set_items; auto. apply (assoc_del_all (inr _ _)). apply items_of_inr; auto.
Qed.

Lemma inv_append_item : forall st0 st v x,
  inv st0 st -> inr (length st0) (length st) v -> inr (length st0) (length st) x -> inv st0 (append_item st v x).
Proof.
  intros. unfold append_item. apply inv_set_items; auto.
  unfold items_inr. apply Forall_app. split; [apply items_of_inr; auto|].
  constructor; [split; [exact I|assumption]|constructor].
Qed.

Lemma length_set_field : forall st v k x, length (set_field st v k x) = length st.
Proof. intros. apply length_set_items. Qed.
Lemma length_del_field : forall st v k, length (del_field st v k) = length st.
Proof. intros. apply length_set_items. Qed.
Lemma length_append_item : forall st v x, length (append_item st v x) = length st.
Proof. intros. apply length_set_items. Qed.

(* A loop: a fold over (store, payload) whose rounds keep the invariant.  Q (what is known of the list elements) and R
   (of the payload) are indexed by the length of the store, since the new region grows along the loop; a round may use
   that the store is at least as long as at loop entry. *)
Lemma fold_inv : forall (B X : Type) st0 (Q : nat -> B -> Prop) (R : nat -> X -> Prop) (f : store * X -> B -> store * X),
  (forall n n' b, Q n b -> (n <= n')%nat -> Q n' b) ->
  forall l st x st' x',
  (forall s y b s' y', inv st0 s -> (length st <= length s)%nat -> Q (length s) b -> R (length s) y ->
     f (s, y) b = (s', y') -> inv st0 s' /\ (length s <= length s')%nat /\ R (length s') y') ->
  inv st0 st -> Forall (Q (length st)) l -> R (length st) x -> fold_left f l (st, x) = (st', x') ->
  inv st0 st' /\ (length st <= length st')%nat /\ R (length st') x'.
Proof.
  intros B X st0 Q R f HQ. induction l as [|b t IH]; intros st x st' x' Hf Hi Hl Hx H; cbn [fold_left] in H.
  - inversion H; subst. auto.
  - inversion Hl as [|? ? Hb Ht]; subst. destruct (f (st, x) b) as [s1 x1] eqn:E1.
    destruct (Hf _ _ _ _ _ Hi (Nat.le_refl _) Hb Hx E1) as (I1 & L1 & R1).
    destruct (IH s1 x1 st' x') as (I2 & L2 & R2); auto.
    + intros s y c s' y' Hs Hl'. apply Hf; auto. lia.
    + eapply Forall_impl; [|exact Ht]. intros c Hc. eapply HQ; eauto.
    + split; [exact I2|]. split; [lia|exact R2].
Qed.

Lemma fold_inv0 : forall (B X : Type) st0 (Q : nat -> B -> Prop) (f : store * X -> B -> store * X),
  (forall n n' b, Q n b -> (n <= n')%nat -> Q n' b) ->
  forall l st x st' x',
  (forall s y b s' y', inv st0 s -> (length st <= length s)%nat -> Q (length s) b ->
     f (s, y) b = (s', y') -> inv st0 s' /\ (length s <= length s')%nat) ->
  inv st0 st -> Forall (Q (length st)) l -> fold_left f l (st, x) = (st', x') ->
  inv st0 st' /\ (length st <= length st')%nat.
Proof.
  intros B X st0 Q f HQ l st x st' x' Hf Hi Hl H.
  destruct (fold_inv B X st0 Q (fun _ _ => True) f HQ l st x st' x') as (A & L & _); auto.
  intros s y b s' y' Hs Ls Hb _ E. destruct (Hf _ _ _ _ _ Hs Ls Hb E). auto.
Qed.

Definition kv_inr (mark n : nat) (kv : val * val) : Prop := inr mark n (fst kv) /\ inr mark n (snd kv).

Lemma kv_inr_mono : forall mark n n' kv, kv_inr mark n kv -> (n <= n')%nat -> kv_inr mark n' kv.
Proof. intros mark n n' kv [A B] Hn. split; eapply inr_mono; eauto. Qed.

(* ---- deepcopy: allocates above the mark, leaves everything below untouched, the copy is closed ------------------- *)
Definition memo_inr (mark n : nat) (m : memo) : Prop := Forall (fun ab => (mark <= snd ab < n)%nat) m.

Lemma mlookup_inr : forall mark n m l l', memo_inr mark n m -> mlookup l m = Some l' -> (mark <= l' < n)%nat.
Proof.
  intros mark n m l l' H. induction H as [|[a b] t Hab Ht IH]; simpl; [discriminate|].
  destruct (Nat.eqb l a); [intros E; inversion E; subst; exact Hab|exact IH].
Qed.

Lemma memo_inr_mono : forall mark n n' m, memo_inr mark n m -> (n <= n')%nat -> memo_inr mark n' m.
Proof. intros. unfold memo_inr in *. eapply Forall_impl; [|eassumption]. simpl. intros. lia. Qed.

(* the memo only grows, and what it gains points at or above n *)
Definition mext (m m' : memo) : Prop := forall a b, mlookup a m = Some b -> mlookup a m' = Some b.
Definition mnew (n : nat) (m m' : memo) : Prop :=
  forall a b, mlookup a m' = Some b -> mlookup a m = Some b \/ (n <= b)%nat.

Lemma mext_refl : forall m, mext m m.
Proof. intros m a b H. exact H. Qed.
Lemma mext_trans : forall m1 m2 m3, mext m1 m2 -> mext m2 m3 -> mext m1 m3.
Proof. intros m1 m2 m3 A B a b H. auto. Qed.
Lemma mnew_refl : forall n m, mnew n m m.
Proof. intros n m a b H. left. exact H. Qed.
Lemma mnew_trans : forall n n' m1 m2 m3, (n <= n')%nat -> mnew n m1 m2 -> mnew n' m2 m3 -> mnew n m1 m3.
Proof.
  intros n n' m1 m2 m3 Hn A B a b H. destruct (B a b H) as [H2|H2]; [|right; lia].
  apply A. exact H2.
Qed.

Lemma mlookup_cons_other : forall l l' a m, a <> l -> mlookup a ((l, l') :: m) = mlookup a m.
Proof. intros. simpl. destruct (Nat.eqb a l) eqn:E; auto. apply Nat.eqb_eq in E. congruence. Qed.

Lemma mlookup_cons_same : forall l l' m, mlookup l ((l, l') :: m) = Some l'.
Proof. intros. simpl. rewrite Nat.eqb_refl. reflexivity. Qed.

(* a target at or above n is the target of one key only *)
Definition monce (n : nat) (m : memo) : Prop :=
  forall a a' b, mlookup a m = Some b -> mlookup a' m = Some b -> (n <= b)%nat -> a = a'.

(* What one deepcopy call does to (store, memo).  inv, memo_inr and the length give the frame (deepcopy_inv); mext keeps
   what the simulation of DeepcopyFacts knows of earlier copies; monce makes the final memo injective
   (deepcopy_isomorphism), and mnew is what carries monce through two calls in a row (dc_step_trans). *)
Definition dc_step (st0 st : store) (m : memo) (st' : store) (m' : memo) : Prop :=
  inv st0 st' /\ memo_inr (length st0) (length st') m' /\ (length st <= length st')%nat /\
  mext m m' /\ mnew (length st) m m' /\ monce (length st) m'.

Lemma dc_step_refl : forall st0 st m, inv st0 st -> memo_inr (length st0) (length st) m -> dc_step st0 st m st m.
Proof.
  intros st0 st m Hi Hm. split; [assumption|]. split; [assumption|]. split; [apply Nat.le_refl|]. split; [apply mext_refl|].
  split; [apply mnew_refl|]. intros a a' b Ha _ Hb. pose proof (mlookup_inr _ _ _ _ _ Hm Ha). lia.
Qed.

Lemma dc_step_trans : forall st0 st1 m1 st2 m2 st3 m3,
  dc_step st0 st1 m1 st2 m2 -> dc_step st0 st2 m2 st3 m3 -> dc_step st0 st1 m1 st3 m3.
Proof.
  intros st0 st1 m1 st2 m2 st3 m3 (I2 & M2 & L2 & X2 & N2 & O2) (I3 & M3 & L3 & X3 & N3 & O3).
  split; [exact I3|]. split; [exact M3|]. split; [lia|]. split; [eapply mext_trans; eauto|].
  split; [eapply mnew_trans; eauto|]. intros a a' b Ha Ha' Hb.
  destruct (Nat.le_gt_cases (length st2) b) as [Hge|Hlt]; [eapply O3; eauto|].
  destruct (N3 a b Ha) as [R|R]; [|lia]. destruct (N3 a' b Ha') as [R'|R']; [|lia]. eapply O2; eauto.
Qed.

Definition dc_spec (st0 : store) (rec : store -> memo -> val -> dcres val) : Prop :=
  forall st m v st' m' v',
    inv st0 st -> memo_inr (length st0) (length st) m -> rec st m v = Some (st', m', v') ->
    dc_step st0 st m st' m' /\
    (match v with VLoc _ => inr (length st0) (length st') v' | _ => v' = v end).

Lemma dc_items_spec : forall st0 rec, dc_spec st0 rec ->
  forall its st m st' m' its',
    inv st0 st -> memo_inr (length st0) (length st) m -> dc_items rec its st m = Some (st', m', its') ->
    dc_step st0 st m st' m' /\ items_inr (length st0) (length st') its'.
Proof.
  intros st0 rec Hrec. induction its as [|[k x] t IH]; intros st m st' m' its' Hinv Hm H; simpl in H.
  - inversion H; subst. split; [apply dc_step_refl; auto|constructor].
  - destruct (rec st m k) as [[[st1 m1] k']|] eqn:E1; [|discriminate].
    destruct (rec st1 m1 x) as [[[st2 m2] x']|] eqn:E2; [|discriminate].
    destruct (dc_items rec t st2 m2) as [[[st3 m3] t']|] eqn:E3; [|discriminate].
    inversion H; subst. clear H.
    destruct (Hrec _ _ _ _ _ _ Hinv Hm E1) as (S1 & V1). pose proof S1 as (I1 & M1 & _).
    destruct (Hrec _ _ _ _ _ _ I1 M1 E2) as (S2 & V2). pose proof S2 as (I2 & M2 & L2 & _).
    destruct (IH _ _ _ _ _ I2 M2 E3) as (S3 & V3). pose proof S3 as (_ & _ & L3 & _).
    split; [eapply dc_step_trans; [exact S1|eapply dc_step_trans; eauto]|].
    constructor; [|exact V3]. simpl. split.
    + destruct k; try (subst k'; exact I). eapply inr_mono; [exact V1|lia].
    + destruct x; try (subst x'; exact I). eapply inr_mono; [exact V2|lia].
Qed.

Lemma dcv_spec : forall st0 fuel, dc_spec st0 (dcv fuel).
Proof.
  intros st0. induction fuel as [|f IH]; intros st m v st' m' v' Hinv Hm H.
  - destruct v as [| | |l]; simpl in H; try (inversion H; subst; split; [apply dc_step_refl|]; auto; fail).
    destruct (mlookup l m) as [l'|] eqn:El; [|discriminate].
    inversion H; subst. split; [apply dc_step_refl; auto|]. simpl. eapply mlookup_inr; eauto.
  - destruct v as [| | |l]; simpl in H; try (inversion H; subst; split; [apply dc_step_refl|]; auto; fail).
    destruct (mlookup l m) as [l'|] eqn:El.
    + inversion H; subst. split; [apply dc_step_refl; auto|]. simpl. eapply mlookup_inr; eauto.
    + destruct (get st l) as [o|] eqn:Hg; [|discriminate].
      destruct (dc_items (dcv f) (o_items o) (st ++ [mkObj (o_kind o) []]) ((l, length st) :: m))
        as [[[st2 m2] its']|] eqn:E; [|discriminate].
      inversion H; subst. clear H.
      assert (Hempty : items_inr (length st0) (length st) (o_items (mkObj (o_kind o) []))) by constructor.
      destruct (inv_alloc st0 st (mkObj (o_kind o) []) Hinv Hempty) as [I1 V1].
      assert (M1 : memo_inr (length st0) (length (st ++ [mkObj (o_kind o) []])) ((l, length st) :: m)).
      { constructor; [simpl in *; exact V1|]. eapply memo_inr_mono; [exact Hm|]. rewrite app_length. lia. }
      destruct (dc_items_spec st0 (dcv f) IH _ _ _ _ _ _ I1 M1 E) as ((I2 & M2 & L2 & X2 & N2 & O2) & V2).
      rewrite app_length in L2, N2, O2. simpl in L2, N2, O2.
      pose proof (inv_len _ _ Hinv) as Hl0.
      split; [split; [|split; [|split; [|split; [|split]]]]|].
      * apply inv_upd; auto.
      * rewrite length_upd. exact M2.
      * rewrite length_upd. lia.
      * intros a b Hab. apply X2. rewrite mlookup_cons_other; auto. intros ->. congruence.
      * intros a b Hab. destruct (N2 a b Hab) as [R|R]; [|right; lia].
        destruct (Nat.eq_dec a l) as [->|Hne].
        -- rewrite mlookup_cons_same in R. inversion R; subst. right. lia.
        -- rewrite mlookup_cons_other in R by assumption. left. exact R.
      * (* the only key with target length st is l *)
        intros a a' b Ha Ha' Hb. destruct (Nat.eq_dec b (length st)) as [->|Hne]; [|eapply O2; eauto; lia].
        assert (K : forall x, mlookup x m' = Some (length st) -> x = l).
        { intros x Hx. destruct (N2 x _ Hx) as [R|R]; [|lia]. destruct (Nat.eq_dec x l) as [|Hxl]; auto.
          rewrite mlookup_cons_other in R by assumption. pose proof (mlookup_inr _ _ _ _ _ Hm R). lia. }
        rewrite (K a Ha), (K a' Ha'). reflexivity.
      * simpl. rewrite length_upd. lia.
Qed.

Theorem deepcopy_inv : forall st0 st fuel v st' v',
  inv st0 st -> deepcopy fuel st v = Some (st', v') ->
  inv st0 st' /\ (length st <= length st')%nat /\
  (match v with VLoc _ => inr (length st0) (length st') v' | _ => v' = v end).
Proof.
  intros st0 st fuel v st' v' Hinv H. unfold deepcopy in H.
  destruct (dcv fuel st [] v) as [[[st1 m1] v1]|] eqn:E; [|discriminate]. inversion H; subst.
  destruct (dcv_spec st0 fuel _ _ _ _ _ _ Hinv (Forall_nil _) E) as ((A & _ & C & _) & D). auto.
Qed.

Corollary deepcopy_inr : forall st0 st fuel v st' v',
  inv st0 st -> deepcopy fuel st v = Some (st', v') ->
  inv st0 st' /\ (length st <= length st')%nat /\ inr (length st0) (length st') v'.
Proof.
  intros st0 st fuel v st' v' Hinv H. destruct (deepcopy_inv _ _ _ _ _ _ Hinv H) as (A & B & C).
  split; [exact A|]. split; [exact B|]. destruct v; try (subst v'; exact I). exact C.
Qed.

(* ---- snapshots only depend on what is reachable; the old part of a well-formed store is self-contained ------------ *)
Lemma snap_agree : forall st st' fuel v,
  wf st -> agree_below (length st) st st' -> below (length st) v -> snap fuel st' v = snap fuel st v.
Proof. intros st st' fuel v Hwf Ha. apply (snap_closed (below (length st))); [intros l o _; apply Hwf|exact Ha]. Qed.

(* ---- rebinding a slot to a value with the same snapshots changes no snapshot (up to the depth the agreement is known) -- *)
Lemma map_assoc_set_same : forall (f g : val * val -> tree * tree) k d old items,
  assoc k items = Some old ->
  (forall kv, In kv items -> f kv = g kv) ->
  (forall k', f (k', d) = g (k', old)) ->
  map f (assoc_set k d items) = map g items.
Proof.
  intros f g k d old items. induction items as [|[k' v'] t IH]; intros Ha Hfg Hd; simpl in *; [discriminate|].
  destruct (val_eqb k k') eqn:E.
  - inversion Ha; subst. simpl. f_equal; [apply Hd|]. apply map_ext_in. intros kv Hin. apply Hfg. right. exact Hin.
  - simpl. f_equal; [apply Hfg; left; reflexivity|]. apply IH; auto.
Qed.

Lemma snap_set_field_same : forall st h k d M,
  (match assoc k (items_of st h) with Some _ => True | None => False end) ->
  (forall m, (m <= M)%nat -> snap m st d = snap m st (field st h k)) ->
  forall n, (n <= S M)%nat -> forall v, snap n (set_field st h k d) v = snap n st v.
Proof.
  intros st h k d M Hhas Hsame.
  destruct h as [| | |l]; try (simpl in Hhas; contradiction).
  destruct (get st l) as [o|] eqn:Hg; [|simpl in Hhas; rewrite Hg in Hhas; simpl in Hhas; contradiction].
  assert (Hio : items_of st (VLoc l) = o_items o) by (simpl; rewrite Hg; reflexivity).
  rewrite Hio in Hhas. destruct (assoc k (o_items o)) as [old|] eqn:Ea; [|contradiction].
  assert (Hold : field st (VLoc l) k = old) by (unfold field; rewrite Hio, Ea; reflexivity).
  assert (Hst' : set_field st (VLoc l) k d = upd st l (mkObj (o_kind o) (assoc_set k d (o_items o)))).
  { unfold set_field, set_items. rewrite Hg, Hio. reflexivity. }
  rewrite Hst'. set (st' := upd st l (mkObj (o_kind o) (assoc_set k d (o_items o)))).
  induction n as [|n IH]; intros Hn v; [destruct v; reflexivity|].
  destruct v as [| | |l']; try reflexivity. cbn [snap].
  assert (IH' : forall x, snap n st' x = snap n st x) by (intros; apply IH; lia).
  destruct (Nat.eq_dec l l') as [<-|Hne].
  - unfold st'. rewrite get_upd_same by (eapply get_some_lt; eauto). rewrite Hg. cbn [o_kind o_items]. f_equal.
    apply (map_assoc_set_same _ _ k d old); auto.
    + intros [a b] _. cbn [fst snd]. fold st'. rewrite !IH'. reflexivity.
    + intros k'. cbn [fst snd]. fold st'. rewrite !IH'. f_equal. rewrite (Hsame n ltac:(lia)). rewrite Hold. reflexivity.
  - unfold st'. rewrite get_upd_other by assumption. destruct (get st l') as [o'|]; [|reflexivity]. f_equal.
    apply map_ext_in. intros [a b] _. cbn [fst snd]. fold st'. rewrite !IH'. reflexivity.
Qed.
