(* C13: relativization is exact or refused; fit-to-screen is safe; the writers leave only percentages. *)
From Coq Require Import List ZArith QArith Qabs Bool Lia Lqa Field.
From PV Require Import lib.Sx lib.Str lib.Result lib.ResultFacts model.Geometry model.Positioning spec.SpecGeom spec.SpecPos.
From PV Require Import proofs.GeomStr proofs.GeomEq proofs.GeomParse proofs.GeomLang proofs.GeomFacts.
Import ListNotations.
Open Scope Z_scope.

Lemma given_some : forall d q, given d = Some q -> d = Some q /\ ~ (q == 0)%Q.
Proof.
  intros [x|] q H; cbn [given] in H; [|discriminate]. destruct (Qeq_bool x 0) eqn:E; [discriminate|].
  inversion H; subst. split; [reflexivity|]. intros K. apply Qeq_bool_iff in K. congruence.
Qed.

Lemma given_idem : forall d, given (given d) = given d.
Proof. intros [x|]; cbn [given]; [|reflexivity]. destruct (Qeq_bool x 0) eqn:E; cbn [given]; [reflexivity|rewrite E; reflexivity]. Qed.

(* the call made for one axis: Size.as_percentage_of(video_width=d) or (video_height=d) *)
Definition axis_call (a : size) (hz : bool) (d : option Q) : result size :=
  size_as_pct a (if hz then d else None) (if hz then None else d).

Theorem size_as_pct_exact : forall a hz d,
  match spec_pct a hz (given d) with
  | Some v => exists z, axis_call a hz d = Ok z /\ s_unit z = PCT /\ (s_val z == v)%Q
  | None => axis_call a hz d = Err ERelativization
  end.
Proof.
  intros [v u] hz d. unfold axis_call, spec_pct, size_as_pct. cbn [s_unit s_val].
  assert (Gn : given None = None) by reflexivity.
  destruct u.
  all: try (destruct (given d) as [q|] eqn:G;
            [destruct (given_some _ _ G) as [-> Hq]; destruct hz; rewrite ?G, ?Gn;
             (eexists; split; [reflexivity|]; split; [reflexivity|]; cbn [s_val]; rewrite Qred_correct; first [reflexivity|field; exact Hq])
            |destruct hz; rewrite ?G, ?Gn; reflexivity]).
  eexists. split; [reflexivity|]. split; reflexivity.
Qed.

Lemma size_as_pct_err : forall a w h e, size_as_pct a w h = Err e -> e = ERelativization.
Proof.
  intros a w h e H. unfold size_as_pct in H.
  destruct (s_unit a); try discriminate; destruct (given w), (given h); try discriminate; inversion H; reflexivity.
Qed.

Theorem size_refused_iff : forall a hz d,
  (exists e, axis_call a hz d = Err e) <-> (s_unit a <> PCT /\ given d = None).
Proof.
  intros a hz d. pose proof (size_as_pct_exact a hz d) as H. unfold spec_pct in H. split.
  - intros [e He]. destruct (s_unit a) eqn:U; destruct (given d) eqn:G;
      try (destruct H as (z & Hz & _); congruence); split; congruence.
  - intros [U G]. rewrite G in H. destruct (s_unit a); try congruence; eauto.
Qed.

Theorem as_percentage_formulas : forall v d, ~ (d == 0)%Q ->
  let conv u hz := axis_call (mkSize v u) hz (Some d) in
  (forall hz, exists z, conv PX hz = Ok z /\ s_unit z = PCT /\ (s_val z == v * 100 / d)%Q)
  /\ (forall hz, exists z, conv EM hz = Ok z /\ s_unit z = PCT /\ (s_val z == v * 16 * 100 / d)%Q)
  /\ (forall hz, exists z, conv PT hz = Ok z /\ s_unit z = PCT /\ (s_val z == v * (4 # 3) * 100 / d)%Q)
  /\ (exists z, conv CELL true = Ok z /\ s_unit z = PCT /\ (s_val z == v * 100 / 32)%Q)
  /\ (exists z, conv CELL false = Ok z /\ s_unit z = PCT /\ (s_val z == v * 100 / 15)%Q)
  /\ (forall hz, conv PCT hz = Ok (mkSize v PCT)).
Proof.
  intros v d Hd conv.
  assert (G : given (Some d) = Some d).
  { cbn [given]. destruct (Qeq_bool d 0) eqn:E; [apply Qeq_bool_iff in E; contradiction|reflexivity]. }
  assert (H : forall u hz, match spec_pct (mkSize v u) hz (Some d) with
                           | Some x => exists z, conv u hz = Ok z /\ s_unit z = PCT /\ (s_val z == x)%Q
                           | None => conv u hz = Err ERelativization
                           end).
  { intros u hz. pose proof (size_as_pct_exact (mkSize v u) hz (Some d)) as K. rewrite G in K. exact K. }
  split; [|split; [|split; [|split; [|split]]]]; try intros hz;
    [exact (H PX hz)|exact (H EM hz)|exact (H PT hz)|exact (H CELL true)|exact (H CELL false)|].
  subst conv. unfold axis_call. destruct hz; reflexivity.
Qed.

Lemma q_rel_close_refl_eq : forall a b, (a == b)%Q -> q_rel_close a b = true.
Proof. exact q_rel_close_eq. Qed.

Theorem ok_size_pct_model : forall a hz d, ok_size_pct a hz d (axis_call a hz d) = true.
Proof.
  intros a hz d. unfold ok_size_pct. pose proof (size_as_pct_exact a hz d) as H.
  destruct (spec_pct a hz (given d)) as [v|].
  - destruct H as (z & Hz & Hu & Hv). rewrite Hz, Hu. cbn [unit_eqb andb]. apply q_rel_close_eq. exact Hv.
  - rewrite H. reflexivity.
Qed.

Lemma res_map_F2 : forall {A B} (f : A -> result B) l l', res_map f l = Ok l' -> Forall2 (fun a b => f a = Ok b) l l'.
Proof. exact @res_map_Forall2. Qed.

Definition conv_list (l : list (size * bool)) (w h : option Q) : result (list size) :=
  res_map (fun sh => axis_call (fst sh) (snd sh) (if snd sh then w else h)) l.

Definition spec_list (l : list (size * bool)) (w h : option Q) : list (option Q) :=
  map (fun sh => spec_pct (fst sh) (snd sh) (given (if snd sh then w else h))) l.

Lemma conv_list_spec : forall l w h,
  match all_some (spec_list l w h) with
  | Some vs => exists zs, conv_list l w h = Ok zs
                          /\ Forall2 (fun v z => s_unit z = PCT /\ (s_val z == v)%Q) vs zs
  | None => conv_list l w h = Err ERelativization
  end.
Proof.
  induction l as [|[a hz] l IH]; intros w h.
  - cbn. eexists. split; [reflexivity|constructor].
  - unfold conv_list, spec_list in *. cbn [map res_map all_some fst snd].
    pose proof (size_as_pct_exact a hz (if hz then w else h)) as H.
    destruct (spec_pct a hz (given (if hz then w else h))) as [v|].
    + destruct H as (z & Hz & Hu & Hv). rewrite Hz. cbn [bind]. specialize (IH w h).
      destruct (all_some (map (fun sh => spec_pct (fst sh) (snd sh) (given (if snd sh then w else h))) l)) as [vs|].
      * destruct IH as (zs & Hzs & HF). rewrite Hzs. cbn [bind]. eexists. split; [reflexivity|]. constructor; auto.
      * rewrite IH. reflexivity.
    + rewrite H. reflexivity.
Qed.

(* put converted sizes back into the layout's shape *)
Definition rebuild (l : layout) (zs : list size) : layout :=
  let '(o, zs1) := match l_origin l, zs with
                   | Some _, x :: y :: r => (Some (mkPoint x y), r)
                   | _, _ => (None, zs) end in
  let '(e, zs2) := match l_extent l, zs1 with
                   | Some _, x :: y :: r => (Some (mkStretch x y), r)
                   | _, _ => (None, zs1) end in
  let p := match l_padding l, zs2 with
           | Some _, b :: a :: s :: en :: _ => Some (mkPadding b a s en)
           | _, _ => None end in
  mkLayout o e p (l_alignment l) None.

Lemma layout_as_pct_conv : forall l w h,
  layout_as_pct l w h = match conv_list (sizes_axes l) w h with Ok zs => Ok (rebuild l zs) | Err e => Err e end.
Proof.
  intros [o e p al wv] w h. unfold layout_as_pct, conv_list, sizes_axes, rebuild, axis_call.
  cbn [l_origin l_extent l_padding l_alignment].
  destruct o as [[ox oy]|], e as [[eh ev]|], p as [[pb pa ps pe]|];
    unfold opt_res, point_as_pct, stretch_as_pct, padding_as_pct;
    cbn [opt_res point_as_pct stretch_as_pct padding_as_pct app res_map fst snd bind p_x p_y st_h st_v
         pd_before pd_after pd_start pd_end];
    repeat match goal with
           | |- context [size_as_pct ?a ?x ?y] =>
               destruct (size_as_pct a x y); cbn [bind]; try reflexivity
           end; reflexivity.
Qed.

Lemma layout_as_pct_err : forall l w h e, layout_as_pct l w h = Err e -> e = ERelativization.
Proof.
  intros l w h e H. rewrite layout_as_pct_conv in H. pose proof (conv_list_spec (sizes_axes l) w h) as S.
  destruct (all_some (spec_list (sizes_axes l) w h)).
  - destruct S as (zs & Hz & _). rewrite Hz in H. discriminate.
  - rewrite S in H. inversion H. reflexivity.
Qed.

Lemma needs_missing_all_some : forall w h l,
  needs_missing w h l = true <-> all_some (spec_list (sizes_axes l) w h) = None.
Proof.
  intros w h l. unfold needs_missing, spec_list. induction (sizes_axes l) as [|[a hz] t IH]; cbn [existsb map all_some fst snd].
  - split; discriminate.
  - destruct (spec_pct a hz (given (if hz then w else h))); cbn [orb].
    + rewrite IH. destruct (all_some _); split; congruence.
    + split; reflexivity.
Qed.

(* refused (with RelativizationError, nothing else) exactly when some length needs an absent dimension *)
Theorem layout_refused_iff : forall l w h,
  ((exists e, layout_as_pct l w h = Err e) <-> needs_missing w h l = true)
  /\ (forall e, layout_as_pct l w h = Err e -> e = ERelativization).
Proof.
  intros l w h. split; [|apply layout_as_pct_err].
  rewrite needs_missing_all_some, layout_as_pct_conv. pose proof (conv_list_spec (sizes_axes l) w h) as S.
  destruct (all_some (spec_list (sizes_axes l) w h)).
  - destruct S as (zs & Hz & _). rewrite Hz. split; [intros [e He]; discriminate|discriminate].
  - rewrite S. split; eauto.
Qed.

Lemma sizes_close_F2 : forall vs zs axes, Forall2 (fun v z => s_unit z = PCT /\ (s_val z == v)%Q) vs zs ->
  length axes = length zs -> sizes_close vs (combine zs axes) = true.
Proof.
  intros vs zs axes H. revert axes. induction H as [|v z vs zs [Hu Hv] HF IH]; intros axes Hl.
  - destruct axes; [reflexivity|discriminate].
  - destruct axes as [|b axes]; [discriminate|]. cbn [combine sizes_close]. rewrite Hu. cbn [unit_eqb andb].
    rewrite (q_rel_close_eq _ _ Hv). cbn [andb]. apply IH. cbn [length] in Hl. lia.
Qed.

Lemma opt_eqb_refl : forall {A} (f : A -> A -> bool), (forall x, f x x = true) -> forall a, opt_eqb f a a = true.
Proof. intros A f H [x|]; cbn; auto. Qed.

Lemma rebuild_axes : forall l zs, length zs = length (sizes_axes l) ->
  shape (rebuild l zs) = shape l /\ l_alignment (rebuild l zs) = l_alignment l
  /\ sizes_axes (rebuild l zs) = combine zs (map snd (sizes_axes l)).
Proof.
  intros [[[ox oy]|] [[eh ev]|] [[pb pa ps pe]|] al wv] zs H; unfold sizes_axes in H; cbn [l_origin l_extent l_padding app length] in H;
    do 8 (try (destruct zs as [|? zs]; [discriminate H|])); (destruct zs; [|discriminate H]); repeat split.
Qed.

(* the check's layout oracle holds of the model: every length is its exact percentage on its own axis, the
   shape and the alignment are kept - or the conversion is refused *)
Theorem ok_layout_pct_model : forall l w h, ok_layout_pct l w h (layout_as_pct l w h) = true.
Proof.
  intros l w h. unfold ok_layout_pct. fold (spec_list (sizes_axes l) w h).
  rewrite layout_as_pct_conv. pose proof (conv_list_spec (sizes_axes l) w h) as S.
  destruct (all_some (spec_list (sizes_axes l) w h)) as [vs|]; [|rewrite S; reflexivity].
  destruct S as (zs & Hz & HF). rewrite Hz.
  assert (Hlen : length zs = length (sizes_axes l)) by exact (res_map_length _ _ _ Hz).
  destruct (rebuild_axes l zs Hlen) as (-> & -> & ->).
  rewrite (sizes_close_F2 _ _ _ HF) by (rewrite map_length; symmetry; exact Hlen).
  rewrite (opt_eqb_refl alignment_eqb) by (intros a; apply alignment_eqb_iff, alignment_equiv_refl).
  rewrite andb_true_r. induction (shape l) as [|b t IH]; cbn [bools_eqb]; [reflexivity|]. rewrite eqb_reflx. exact IH.
Qed.

Lemma layout_as_pct_all_pct : forall l w h r, layout_as_pct l w h = Ok r -> all_pct r = true.
Proof.
  intros l w h r H. pose proof (ok_layout_pct_model l w h) as K. rewrite H in K. unfold ok_layout_pct in K.
  destruct (all_some _) as [vs|]; [|discriminate]. apply andb_true_iff in K. destruct K as [K _].
  apply andb_true_iff in K. destruct K as [_ K]. unfold all_pct.
  revert vs K. induction (sizes_axes r) as [|[s b] t IH]; intros vs K; [reflexivity|].
  destruct vs as [|v vs]; [discriminate|]. cbn [sizes_close] in K. apply andb_true_iff in K. destruct K as [K1 K2].
  apply andb_true_iff in K1. destruct K1 as [K1 _]. cbn [forallb fst]. rewrite K1. cbn [andb]. eapply IH. exact K2.
Qed.

Lemma size_add_pct : forall a b, s_unit a = PCT -> s_unit b = PCT ->
  size_add a b = Ok (mkSize (Qred (s_val a + s_val b)) PCT).
Proof. intros a b Ha Hb. unfold size_add. rewrite Ha, Hb. reflexivity. Qed.

Lemma all_pct_relative : forall l, all_pct l = true <-> layout_relative l.
Proof.
  intros l. unfold all_pct, layout_relative. rewrite forallb_forall, Forall_forall.
  split; intros H x Hx; apply unit_eqb_eq, H, Hx.
Qed.

Lemma all_pct_units : forall l, all_pct l = true <->
  match l_origin l with Some o => s_unit (p_x o) = PCT /\ s_unit (p_y o) = PCT | None => True end
  /\ match l_extent l with Some e => s_unit (st_h e) = PCT /\ s_unit (st_v e) = PCT | None => True end
  /\ match l_padding l with
     | Some p => s_unit (pd_before p) = PCT /\ s_unit (pd_after p) = PCT /\ s_unit (pd_start p) = PCT /\ s_unit (pd_end p) = PCT
     | None => True
     end.
Proof. intros l. rewrite all_pct_relative. apply (Forall_sizes_axes (fun s => s_unit s = PCT)). Qed.

Lemma in_safe_area_iff : forall o, in_safe_area o = true <->
  s_unit (p_x o) = PCT /\ s_unit (p_y o) = PCT /\ (0 <= s_val (p_x o) <= 90)%Q /\ (0 <= s_val (p_y o) <= 95)%Q.
Proof.
  intros o. unfold in_safe_area. rewrite !andb_true_iff, !unit_eqb_eq, !Qle_bool_iff. tauto.
Qed.

Lemma qle_red_true : forall q b, Qle_bool (Qred q) b = true -> (q <= b)%Q.
Proof. intros q b H. apply Qle_bool_iff in H. rewrite Qred_correct in H. exact H. Qed.
Lemma qle_red_false : forall q b, Qle_bool (Qred q) b = false -> ~ (q <= b)%Q.
Proof.
  intros q b H K. assert (F : Qle_bool (Qred q) b = true) by (apply Qle_bool_iff; rewrite Qred_correct; exact K). congruence.
Qed.

(* one axis of fit_to_screen (limit 90 across, 95 down): the default extent reaches the limit exactly; an extent that
   fits is kept, one that does not is replaced by the default *)
Lemma fit_default : forall x lim, (0 <= x <= lim)%Q -> (x + Qred (clamp0 (lim - x)) == lim)%Q.
Proof.
  intros x lim H. unfold clamp0. assert (K : Qle_bool 0 (lim - x) = true) by (apply Qle_bool_iff; lra).
  rewrite K, Qred_correct. ring.
Qed.

Lemma fit_axis : forall x e lim, s_unit e = PCT -> (0 <= s_val x <= lim)%Q ->
  let n := if Qle_bool (Qred (s_val x + s_val e)) lim then e else mkSize (Qred (clamp0 (lim - s_val x))) PCT in
  s_unit n = PCT /\ (s_val x + s_val n <= lim)%Q
  /\ ((s_val x + s_val e <= lim)%Q -> n = e) /\ (~ (s_val x + s_val e <= lim)%Q -> (s_val x + s_val n == lim)%Q).
Proof.
  intros x e lim Ue Hx n. pose proof (fit_default _ _ Hx) as Hd. subst n.
  destruct (Qle_bool (Qred (s_val x + s_val e)) lim) eqn:E; [apply qle_red_true in E|apply qle_red_false in E]; cbn [s_unit s_val].
  - repeat split; [exact Ue|exact E|contradiction].
  - repeat split; [rewrite Hd; apply Qle_refl|intros K; contradiction|intros _; exact Hd].
Qed.

(* the readable statement: origin in the safe area, extent absent or in percent *)
Theorem fit_safe : forall l o, l_origin l = Some o -> in_safe_area o = true ->
  match l_extent l with Some e => s_unit (st_h e) = PCT /\ s_unit (st_v e) = PCT | None => True end ->
  exists e', layout_fit l = Ok (mkLayout (Some o) (Some e') (l_padding l) (l_alignment l) None)
    /\ s_unit (st_h e') = PCT /\ s_unit (st_v e') = PCT
    /\ (s_val (p_x o) + s_val (st_h e') <= 90)%Q /\ (s_val (p_y o) + s_val (st_v e') <= 95)%Q
    /\ match l_extent l with
       | None => (s_val (p_x o) + s_val (st_h e') == 90)%Q /\ (s_val (p_y o) + s_val (st_v e') == 95)%Q
       | Some e =>
           ((s_val (p_x o) + s_val (st_h e) <= 90)%Q -> st_h e' = st_h e)
           /\ (~ (s_val (p_x o) + s_val (st_h e) <= 90)%Q -> (s_val (p_x o) + s_val (st_h e') == 90)%Q)
           /\ ((s_val (p_y o) + s_val (st_v e) <= 95)%Q -> st_v e' = st_v e)
           /\ (~ (s_val (p_y o) + s_val (st_v e) <= 95)%Q -> (s_val (p_y o) + s_val (st_v e') == 95)%Q)
       end.
Proof.
  intros l o Ho Hs He. apply in_safe_area_iff in Hs. destruct Hs as (Ux & Uy & Hx & Hy).
  unfold layout_fit. rewrite Ho. destruct (l_extent l) as [e|].
  - destruct He as [Uh Uv]. rewrite (size_add_pct _ _ Ux Uh), (size_add_pct _ _ Uy Uv). cbn [bind s_unit unit_eqb negb s_val].
    destruct (fit_axis (p_x o) (st_h e) 90 Uh Hx) as (A1 & A2 & A3 & A4).
    destruct (fit_axis (p_y o) (st_v e) 95 Uv Hy) as (B1 & B2 & B3 & B4).
    eexists. split; [reflexivity|]. cbn [st_h st_v]. repeat split; assumption.
  - eexists. split; [reflexivity|]. cbn [st_h st_v s_unit s_val].
    pose proof (fit_default _ _ Hx) as Dx. pose proof (fit_default _ _ Hy) as Dy.
    repeat split; try assumption; [rewrite Dx|rewrite Dy]; apply Qle_refl.
Qed.

Lemma q_close9_eq : forall a b, (a == b)%Q -> q_close9 a b = true.
Proof.
  intros a b H. unfold q_close9. apply Qle_bool_iff. rewrite H. setoid_replace (b - b)%Q with 0%Q by ring. cbn. lra.
Qed.

Lemma size_eqb_refl : forall a, size_eqb a a = true.
Proof. intros a. apply size_eqb_iff, size_equiv_refl. Qed.

Lemma ok_axis : forall x e e' lim, ((x + s_val e <= lim)%Q -> e' = e) -> (~ (x + s_val e <= lim)%Q -> (x + s_val e' == lim)%Q) ->
  (if Qle_bool (x + s_val e) lim then size_eqb e e' else q_close9 (x + s_val e') lim) = true.
Proof.
  intros x e e' lim Keep Fit. destruct (Qle_bool (x + s_val e) lim) eqn:E.
  - apply Qle_bool_iff in E. rewrite (Keep E). apply size_eqb_refl.
  - apply q_close9_eq, Fit. intros K. apply Qle_bool_iff in K. congruence.
Qed.

(* the check's fit oracle holds of the model on every layout *)
Theorem ok_fit_model : forall l, ok_fit l (layout_fit l) = true.
Proof.
  intros l. unfold ok_fit. destruct (l_origin l) as [o|] eqn:Ho.
  - destruct (in_safe_area o && extent_pct l) eqn:D; [|reflexivity].
    apply andb_true_iff in D. destruct D as [Hs He].
    assert (He' : match l_extent l with Some e => s_unit (st_h e) = PCT /\ s_unit (st_v e) = PCT | None => True end).
    { unfold extent_pct in He. destruct (l_extent l) as [e|]; [|exact I].
      rewrite !andb_true_iff, !unit_eqb_eq in He. tauto. }
    destruct (fit_safe l o Ho Hs He') as (e' & Hf & Uh & Uv & Rx & Ry & Hx). rewrite Hf.
    cbn [l_origin l_extent l_padding l_alignment].
    assert (P : point_eqb o o = true) by (apply point_eqb_iff, point_equiv_refl). rewrite P, Uh, Uv. cbn [unit_eqb andb].
    assert (L1 : Qle_bool (s_val (p_x o) + s_val (st_h e')) (90 + (1 # 1000000000)) = true) by (apply Qle_bool_iff; lra).
    assert (L2 : Qle_bool (s_val (p_y o) + s_val (st_v e')) (95 + (1 # 1000000000)) = true) by (apply Qle_bool_iff; lra).
    rewrite L1, L2. cbn [andb].
    rewrite (opt_eqb_refl padding_eqb) by (intros x; apply padding_eqb_iff, padding_equiv_refl).
    rewrite (opt_eqb_refl alignment_eqb) by (intros x; apply alignment_eqb_iff, alignment_equiv_refl).
    rewrite !andb_true_r.
    destruct (l_extent l) as [e|].
    + destruct Hx as (A1 & A2 & A3 & A4). rewrite (ok_axis _ _ _ _ A1 A2), (ok_axis _ _ _ _ A3 A4). reflexivity.
    + destruct Hx as [A1 A2]. rewrite (q_close9_eq _ _ A1), (q_close9_eq _ _ A2). reflexivity.
  - unfold layout_fit. rewrite Ho. apply layout_eqb_iff, layout_equiv_refl.
Qed.

Lemma layout_fit_all_pct : forall l r, all_pct l = true -> layout_fit l = Ok r -> all_pct r = true.
Proof.
  intros l r H Hf. apply all_pct_units. apply all_pct_units in H. destruct H as (Ho & He & Hp). apply layout_fit_cases in Hf.
  destruct (l_origin l) as [o|] eqn:Eo; [|subst r; rewrite Eo; auto].
  destruct Hf as (nh & nv & -> & Hh & Hv). cbn [l_origin l_extent l_padding st_h st_v]. split; [exact Ho|]. split; [|exact Hp].
  split; [destruct Hh as [->|(e & Ee & ->)]|destruct Hv as [->|(e & Ee & ->)]]; try reflexivity; rewrite Ee in He; tauto.
Qed.

Lemma layout_fit_pct_ok : forall l, all_pct l = true -> exists r, layout_fit l = Ok r.
Proof.
  intros l H. apply all_pct_units in H. destruct H as (Ho & He & _). unfold layout_fit.
  destruct (l_origin l) as [o|]; [|eauto]. destruct (l_extent l) as [e|]; [|eauto].
  rewrite (size_add_pct _ _ (proj1 Ho) (proj1 He)), (size_add_pct _ _ (proj2 Ho) (proj2 He)). cbn [bind s_unit unit_eqb negb]. eauto.
Qed.

Lemma falsy_all_pct : forall l, layout_truthy l = false -> all_pct l = true.
Proof.
  intros [o e p al wv] H. unfold layout_truthy in H. cbn in H.
  destruct o, e, p, al, wv as [[|]|]; try discriminate; reflexivity.
Qed.

(* BaseWriter._relativize_and_fit_to_screen with relativization on: a layout that is not positioned with comes back as it is;
   any other is converted and then, if asked, fitted - which cannot fail on percentages, so the only error is the conversion's *)
Lemma relativize_and_fit_cases : forall fit w h l,
  match relativize_and_fit true fit w h l with
  | Ok r => (layout_truthy l = false /\ r = l)
            \/ exists l1, layout_as_pct l w h = Ok l1 /\ all_pct l1 = true /\ if fit then layout_fit l1 = Ok r else r = l1
  | Err e => layout_truthy l = true /\ layout_as_pct l w h = Err e
  end.
Proof.
  intros fit w h l. unfold relativize_and_fit. destruct (layout_truthy l); [|left; auto].
  destruct (layout_as_pct l w h) as [l1|e] eqn:E; cbn [bind]; [|auto].
  pose proof (layout_as_pct_all_pct _ _ _ _ E) as P. destruct fit; [|right; eauto].
  destruct (layout_fit_pct_ok l1 P) as [r Hr]. rewrite Hr. right. eauto.
Qed.

Theorem relativize_and_fit_pct : forall fit w h l r,
  relativize_and_fit true fit w h l = Ok r -> all_pct r = true.
Proof.
  intros fit w h l r H. pose proof (relativize_and_fit_cases fit w h l) as C. rewrite H in C.
  destruct C as [[T ->]|(l1 & _ & P & F)]; [exact (falsy_all_pct _ T)|].
  destruct fit; [exact (layout_fit_all_pct _ _ P F)|subst r; exact P].
Qed.

Theorem relativize_and_fit_err : forall fit w h l e,
  relativize_and_fit true fit w h l = Err e -> e = ERelativization /\ needs_missing w h l = true.
Proof.
  intros fit w h l e H. pose proof (relativize_and_fit_cases fit w h l) as C. rewrite H in C. destruct C as [_ E].
  split; [exact (layout_as_pct_err _ _ _ _ E)|apply (proj1 (layout_refused_iff l w h)); eauto].
Qed.

(* what an Ok or an Err of a bind chain or of a res_map says of its parts *)
Lemma bind1_ok : forall {A B} (x : result A) (k : A -> B) r, (do a <- x; Ok (k a)) = Ok r -> exists a, x = Ok a /\ r = k a.
Proof. intros A B [a|e] k r H; [|discriminate]. inversion H. eauto. Qed.

Lemma bind2_ok : forall {A B C} (x : result A) (y : result B) (k : A -> B -> C) r,
  (do a <- x; do b <- y; Ok (k a b)) = Ok r -> exists a b, x = Ok a /\ y = Ok b /\ r = k a b.
Proof. intros A B C [a|e1] [b|e2] k r H; try discriminate. inversion H. eauto. Qed.

Lemma bind1_err : forall {A B} (x : result A) (k : A -> B) e, (do a <- x; Ok (k a)) = Err e -> x = Err e.
Proof. intros A B [a|e0] k e H; [discriminate|inversion H; reflexivity]. Qed.

Lemma bind2_err : forall {A B C} (x : result A) (y : result B) (k : A -> B -> C) e,
  (do a <- x; do b <- y; Ok (k a b)) = Err e -> x = Err e \/ y = Err e.
Proof. intros A B C [a|e1] [b|e2] k e H; try discriminate; inversion H; auto. Qed.

Lemma res_map_err_iff : forall {A B} (f : A -> result B) l,
  (exists e, res_map f l = Err e) <-> (exists x, In x l /\ exists e, f x = Err e).
Proof.
  intros A B f l. split.
  - intros [e H]. destruct (res_map_err _ _ _ H) as (x & Hx & Hf). eauto.
  - induction l as [|a l IH]; intros (x & Hx & e & He); [destruct Hx|]. cbn [res_map].
    destruct (f a) as [b|e0] eqn:Ea.
    + cbn [bind]. destruct Hx as [->|Hx]; [congruence|].
      destruct (IH (ex_intro _ x (conj Hx (ex_intro _ e He)))) as [e' He']. rewrite He'. cbn [bind]. exists e'. reflexivity.
    + cbn [bind]. exists e0. reflexivity.
Qed.

Lemma bind2_refused : forall {A B C} (x : result A) (y : result B) (k : A -> B -> C),
  (exists e, (do a <- x; do b <- y; Ok (k a b)) = Err e) <-> (exists e, x = Err e) \/ (exists e, y = Err e).
Proof.
  intros A B C [a|e1] [b|e2] k; cbn [bind]; split; eauto; try (intros [e H]; discriminate);
    intros [[e H]|[e H]]; discriminate.
Qed.

Lemma bind1_refused : forall {A B} (x : result A) (k : A -> B),
  (exists e, (do a <- x; Ok (k a)) = Err e) <-> (exists e, x = Err e).
Proof. intros A B [a|e1] k; cbn [bind]; split; eauto; intros [e H]; discriminate. Qed.

Lemma res_map_map_refused : forall {A B C} (f : A -> result B) (g : A -> C) P l,
  (forall x, (exists e, f x = Err e) <-> P (g x) = true) ->
  ((exists e, res_map f l = Err e) <-> existsb P (map g l) = true).
Proof.
  intros A B C f g P l Hf. rewrite res_map_err_iff, existsb_exists. split.
  - intros (x & Hx & He). exists (g x). split; [apply in_map; exact Hx|apply Hf; exact He].
  - intros (o & Ho & Hn). apply in_map_iff in Ho. destruct Ho as (x & <- & Hx). exists x. split; [exact Hx|apply Hf; exact Hn].
Qed.

Lemma res_map_flat_refused : forall {A B C} (f : A -> result B) (g : A -> list C) P l,
  (forall x, (exists e, f x = Err e) <-> existsb P (g x) = true) ->
  ((exists e, res_map f l = Err e) <-> existsb P (flat_map g l) = true).
Proof.
  intros A B C f g P l Hf. rewrite res_map_err_iff, existsb_exists. split.
  - intros (x & Hx & He). apply Hf, existsb_exists in He. destruct He as (o & Ho & Hn).
    exists o. split; [apply in_flat_map; eauto|exact Hn].
  - intros (o & Ho & Hn). apply in_flat_map in Ho. destruct Ho as (x & Hx & Ho). exists x. split; [exact Hx|].
    apply Hf, existsb_exists. eauto.
Qed.

Lemma Forall2_flat_map : forall {A B C} (R : A -> B -> Prop) (P : C -> Prop) (g : B -> list C) l l',
  (forall a b, R a b -> Forall P (g b)) -> Forall2 R l l' -> Forall P (flat_map g l').
Proof. intros A B C R P g l l' H F. induction F; [constructor|]. cbn [flat_map]. apply Forall_app. split; eauto. Qed.

(* raf: the model's name for _relativize_and_fit_to_screen applied to an optional layout *)
Lemma raf_pct : forall c o o', w_rel c = true -> raf c o = Ok o' -> opt_all_pct o' = true.
Proof.
  intros c [l|] o' Hr H; cbn [raf] in H; [|inversion H; reflexivity].
  rewrite Hr in H. apply bind1_ok in H. destruct H as (r & H & ->). exact (relativize_and_fit_pct _ _ _ _ _ H).
Qed.

(* a language as DFXPWriter and SAMIWriter transform it: its own layout by f (rel_only, raf), its captions by raf_cap *)
Definition lang_by (f : option layout -> result (option layout)) (c : wcfg) (lg : nlang) : result nlang :=
  do l <- f (nl_layout lg); do cs <- res_map (raf_cap c) (nl_caps lg); Ok (mkNlang l cs).

(* which layouts each writer transforms, level by level *)
Definition node_step (c : wcfg) (n n' : nnode) : Prop := raf c (n_layout n) = Ok (n_layout n') /\ n_kind n' = n_kind n.
Definition cap_step (c : wcfg) (cp cp' : ncap) : Prop :=
  raf c (nc_layout cp) = Ok (nc_layout cp') /\ Forall2 (node_step c) (nc_nodes cp) (nc_nodes cp').

Lemma nodes_step : forall c ns ns', res_map (raf_node c) ns = Ok ns' -> Forall2 (node_step c) ns ns'.
Proof.
  intros c ns ns'. apply res_map_step. intros n n' Hn. apply bind1_ok in Hn. destruct Hn as (l & E & ->). split; [exact E|reflexivity].
Qed.

Lemma raf_cap_step : forall c cp cp', raf_cap c cp = Ok cp' -> cap_step c cp cp'.
Proof.
  intros c cp cp' H. apply bind2_ok in H. destruct H as (l & ns & E1 & E2 & ->). split; [exact E1|exact (nodes_step _ _ _ E2)].
Qed.

Lemma caps_step : forall c caps caps', res_map (raf_cap c) caps = Ok caps' -> Forall2 (cap_step c) caps caps'.
Proof. intros c caps caps'. apply res_map_step. apply raf_cap_step. Qed.

Lemma langs_step : forall f c lgs lgs', res_map (lang_by f c) lgs = Ok lgs' ->
  Forall2 (fun lg lg' => f (nl_layout lg) = Ok (nl_layout lg') /\ Forall2 (cap_step c) (nl_caps lg) (nl_caps lg')) lgs lgs'.
Proof.
  intros f c lgs lgs'. apply res_map_step. intros lg lg' Hl. apply bind2_ok in Hl. destruct Hl as (l & cs & E1 & E2 & ->).
  split; [exact E1|exact (caps_step _ _ _ E2)].
Qed.

(* DFXPWriter (repaired): set level untouched, language level relativized (not fitted), caption and node level
   through _relativize_and_fit_to_screen; structure and node kinds kept *)
Theorem dfxp_transform_levels : forall c s s', dfxp_transform c s = Ok s' ->
  ns_layout s' = ns_layout s
  /\ Forall2 (fun lg lg' => rel_only c (nl_layout lg) = Ok (nl_layout lg') /\ Forall2 (cap_step c) (nl_caps lg) (nl_caps lg'))
             (ns_langs s) (ns_langs s').
Proof.
  intros c s s' H. apply bind1_ok in H. destruct H as (ls & E & ->). split; [reflexivity|exact (langs_step (rel_only c) c _ _ E)].
Qed.

(* SAMIWriter: all four levels through _relativize_and_fit_to_screen *)
Theorem sami_transform_levels : forall c s s', sami_transform c s = Ok s' ->
  raf c (ns_layout s) = Ok (ns_layout s')
  /\ Forall2 (fun lg lg' => raf c (nl_layout lg) = Ok (nl_layout lg') /\ Forall2 (cap_step c) (nl_caps lg) (nl_caps lg'))
             (ns_langs s) (ns_langs s').
Proof.
  intros c s s' H. apply bind2_ok in H. destruct H as (g & ls & Eg & E & ->). split; [exact Eg|exact (langs_step (raf c) c _ _ E)].
Qed.

(* what holds of every result of raf holds of every caption- and node-level layout of the transformed captions *)
Lemma step_nodes : forall (P : option layout -> Prop) c ns ns', (forall o o', raf c o = Ok o' -> P o') ->
  Forall2 (node_step c) ns ns' -> Forall P (map n_layout ns').
Proof. intros P c ns ns' HP H. induction H as [|n n' t t' [Hn _] _ IH]; constructor; eauto. Qed.

Lemma step_caps : forall (P : option layout -> Prop) c cs cs', (forall o o', raf c o = Ok o' -> P o') ->
  Forall2 (cap_step c) cs cs' -> Forall P (flat_map (fun cp => nc_layout cp :: map n_layout (nc_nodes cp)) cs').
Proof.
  intros P c cs cs' HP. apply Forall2_flat_map. intros cp cp' [Hc Hn].
  constructor; [exact (HP _ _ Hc)|exact (step_nodes P c _ _ HP Hn)].
Qed.

Lemma langs_pct : forall f c lgs lgs', w_rel c = true -> (forall o o', f o = Ok o' -> opt_all_pct o' = true) ->
  res_map (lang_by f c) lgs = Ok lgs' -> forallb opt_all_pct (flat_map written_layouts_lang lgs') = true.
Proof.
  intros f c lgs lgs' Hr Hf E. apply forallb_forall, Forall_forall. generalize (langs_step f c _ _ E). apply Forall2_flat_map.
  intros lg lg' [E1 Hc]. unfold written_layouts_lang. constructor; [exact (Hf _ _ E1)|].
  exact (step_caps (fun o => opt_all_pct o = true) c _ _ (fun o o' => raf_pct c o o' Hr) Hc).
Qed.

(* with relativization on, the language level of DFXPWriter is _relativize_and_fit_to_screen with fit off *)
Lemma rel_only_raf : forall c o, w_rel c = true -> rel_only c o = raf (mkCfg true false (w_w c) (w_h c)) o.
Proof.
  intros c [l|] Hr; [|reflexivity]. cbn [rel_only raf w_rel w_fit w_w w_h]. unfold relativize_and_fit. rewrite Hr, andb_true_r.
  destruct (layout_truthy l); [|reflexivity]. destruct (layout_as_pct l (w_w c) (w_h c)); reflexivity.
Qed.

Lemma rel_only_pct : forall c o o', w_rel c = true -> rel_only c o = Ok o' -> opt_all_pct o' = true.
Proof. intros c o o' Hr E. rewrite (rel_only_raf c o Hr) in E. exact (raf_pct (mkCfg true false (w_w c) (w_h c)) o o' eq_refl E). Qed.

(* DFXP (repaired): with relativization on, every layout written at language, caption or node level carries
   percentages only *)
Lemma dfxp_langs_pct : forall c lgs lgs', w_rel c = true -> res_map (dfxp_lang c) lgs = Ok lgs' ->
  forallb opt_all_pct (flat_map written_layouts_lang lgs') = true.
Proof. intros c lgs lgs' Hr. exact (langs_pct (rel_only c) c lgs lgs' Hr (fun o o' => rel_only_pct c o o' Hr)). Qed.

Theorem dfxp_writes_percentages : forall c s s', w_rel c = true -> dfxp_transform c s = Ok s' ->
  forallb opt_all_pct (written_layouts s') = true.
Proof.
  intros c s s' Hr H. apply bind1_ok in H. destruct H as (ls & E & ->). exact (dfxp_langs_pct _ _ _ Hr E).
Qed.

(* the code before the fix: a language-level px layout reaches the document unconverted *)
Theorem dfxp_lang_level_px_refuted : exists c s s',
  w_rel c = true /\ dfxp_transform_prefix c s = Ok s' /\ forallb opt_all_pct (written_layouts s') = false.
Proof.
  exists (mkCfg true true (Some (640 # 1)) (Some (360 # 1))).
  exists (mkNset None [mkNlang (Some (mkLayout (Some (mkPoint (mkSize (64 # 1) PX) (mkSize (36 # 1) PX))) None None None None))
                               [mkNcap None [mkNode 1 None]]]).
  eexists. split; [reflexivity|]. split; [vm_compute; reflexivity|vm_compute; reflexivity].
Qed.

(* and the repaired code converts it exactly: 64px of 640 = 10%, 36px of 360 = 10% *)
Example dfxp_lang_level_px_fixed :
  dfxp_transform (mkCfg true true (Some (640 # 1)) (Some (360 # 1)))
    (mkNset None [mkNlang (Some (mkLayout (Some (mkPoint (mkSize (64 # 1) PX) (mkSize (36 # 1) PX))) None None None None))
                          [mkNcap None [mkNode 1 None]]])
  = Ok (mkNset None [mkNlang (Some (mkLayout (Some (mkPoint (mkSize (10 # 1) PCT) (mkSize (10 # 1) PCT))) None None None None))
                             [mkNcap None [mkNode 1 None]]]).
Proof. vm_compute. reflexivity. Qed.

Theorem sami_writes_percentages : forall c s s', w_rel c = true -> sami_transform c s = Ok s' ->
  opt_all_pct (ns_layout s') = true /\ forallb opt_all_pct (written_layouts s') = true.
Proof.
  intros c s s' Hr H. apply bind2_ok in H. destruct H as (g & ls & Eg & E & ->). split; [exact (raf_pct _ _ _ Hr Eg)|].
  exact (langs_pct (raf c) c _ _ Hr (fun o o' => raf_pct c o o' Hr) E).
Qed.

(* with relativization on the only error a writer's transformation can end in is RelativizationError *)
Lemma raf_err : forall c o e, w_rel c = true -> raf c o = Err e -> e = ERelativization.
Proof.
  intros c [l|] e Hr H; cbn [raf] in H; [|discriminate]. apply bind1_err in H. rewrite Hr in H.
  exact (proj1 (relativize_and_fit_err _ _ _ _ _ H)).
Qed.

Lemma raf_cap_err : forall c cp e, w_rel c = true -> raf_cap c cp = Err e -> e = ERelativization.
Proof.
  intros c cp e Hr H. apply bind2_err in H. destruct H as [H|H]; [exact (raf_err _ _ _ Hr H)|].
  destruct (res_map_err _ _ _ H) as (n & _ & Hn). apply bind1_err in Hn. exact (raf_err _ _ _ Hr Hn).
Qed.

Theorem dfxp_refuses_with_relativization_error : forall c s e, w_rel c = true -> dfxp_transform c s = Err e -> e = ERelativization.
Proof.
  intros c s e Hr H. apply bind1_err in H. destruct (res_map_err _ _ _ H) as (lg & _ & Hl). apply bind2_err in Hl.
  destruct Hl as [Hl|Hl].
  - rewrite (rel_only_raf c _ Hr) in Hl. exact (raf_err (mkCfg true false (w_w c) (w_h c)) _ _ eq_refl Hl).
  - destruct (res_map_err _ _ _ Hl) as (cp & _ & Hc). exact (raf_cap_err _ _ _ Hr Hc).
Qed.

Lemma layout_is_relative_all_pct : forall l, layout_is_relative l = all_pct l.
Proof.
  intros [o e p al wv]. unfold layout_is_relative, all_pct, sizes_axes, size_is_relative.
  cbn [l_origin l_extent l_padding].
  destruct o as [[ox oy]|], e as [[eh ev]|], p as [[pb pa ps pe]|];
    cbn [app forallb fst p_x p_y st_h st_v pd_before pd_after pd_start pd_end]; rewrite ?andb_true_r, ?andb_assoc; reflexivity.
Qed.

Definition opt_pct (o : option size) : bool := match o with Some s => unit_eqb (s_unit s) PCT | None => true end.

Lemma vs_all_pct_opt : forall o, vs_all_pct o = opt_pct (vs_position o) && opt_pct (vs_line o) && opt_pct (vs_size o).
Proof. reflexivity. Qed.

Lemma size_sub_pct : forall a b, s_unit a = PCT -> s_unit b = PCT ->
  size_sub a b = Ok (mkSize (Qred (s_val a - s_val b)) PCT).
Proof. intros a b Ha Hb. unfold size_sub. rewrite Ha, Hb. reflexivity. Qed.

(* on percentages size_add and size_sub compute percentages, so the arithmetic never fails and leaves percentages *)
Lemma vtt_arith_pct : forall l, all_pct l = true -> exists s, vtt_arith l = Ok (VSet s) /\ vs_all_pct s = true.
Proof.
  intros l P. apply all_pct_units in P. destruct P as (Po & Pe & Pp). unfold vtt_arith.
  destruct (l_padding l) as [p|]; [destruct Pp as (V1 & _ & V3 & V4)|];
    (destruct (l_origin l) as [o|]; [destruct Po as [U1 U2]|]); (destruct (l_extent l) as [e|]; [destruct Pe as [U3 _]|]);
    cbn [option_map opt_bind];
    rewrite ?(size_add_pct _ _ U1 V3), ?(size_sub_pct _ _ U3 V3), ?(size_add_pct _ _ U2 V1); cbn [bind fst snd opt_bind];
    rewrite ?(size_sub_pct (mkSize _ PCT) _ eq_refl V4), ?(size_sub_pct _ _ U3 V4); cbn [bind];
    (eexists; split; [reflexivity|]); rewrite vs_all_pct_opt; cbn [vs_position vs_line vs_size opt_pct s_unit];
    rewrite ?U1, ?U2, ?U3; reflexivity.
Qed.

Lemma vtt_settings_pct : forall l2 out, all_pct l2 = true -> vtt_arith l2 = Ok out -> vtt_out_pct out = true.
Proof. intros l2 out P H. destruct (vtt_arith_pct l2 P) as (s & E & Ps). rewrite E in H. inversion H; subst out. exact Ps. Qed.

Lemma vtt_convert_settings : forall c l, layout_truthy l = true -> (l_webvtt l = None \/ l_webvtt l = Some []) ->
  vtt_convert_positioning c (Some l) =
  if negb (w_rel c) && negb (layout_is_relative l) then Ok VNone else
  do l1 <- (if w_rel c then layout_as_pct l (w_w c) (w_h c) else Ok l);
  do l2 <- (if w_fit c then layout_fit l1 else Ok l1); vtt_arith l2.
Proof. intros c l T W. cbn [vtt_convert_positioning]. rewrite T. destruct W as [W|W]; rewrite W; reflexivity. Qed.

Theorem vtt_only_percent : forall c lo out, vtt_convert_positioning c lo = Ok out -> vtt_out_pct out = true.
Proof.
  intros c [l|] out H; [|inversion H; reflexivity].
  destruct (layout_truthy l) eqn:T; [|cbn [vtt_convert_positioning] in H; rewrite T in H; inversion H; reflexivity].
  assert (W : (exists ch raw, l_webvtt l = Some (ch :: raw)) \/ (l_webvtt l = None \/ l_webvtt l = Some []))
    by (destruct (l_webvtt l) as [[|]|]; eauto).
  destruct W as [(ch & raw & W)|W]; [cbn [vtt_convert_positioning] in H; rewrite T, W in H; inversion H; reflexivity|].
  rewrite (vtt_convert_settings c l T W) in H.
  destruct (negb (w_rel c) && negb (layout_is_relative l)) eqn:D; [inversion H; reflexivity|].
  assert (P1 : forall l1, (if w_rel c then layout_as_pct l (w_w c) (w_h c) else Ok l) = Ok l1 -> all_pct l1 = true).
  { intros l1 E. destruct (w_rel c); [exact (layout_as_pct_all_pct _ _ _ _ E)|].
    inversion E; subst. rewrite <- layout_is_relative_all_pct. destruct (layout_is_relative l1); [reflexivity|discriminate D]. }
  destruct (if w_rel c then layout_as_pct l (w_w c) (w_h c) else Ok l) as [l1|]; [|discriminate H].
  cbn [bind] in H. specialize (P1 _ eq_refl).
  assert (P2 : forall l2, (if w_fit c then layout_fit l1 else Ok l1) = Ok l2 -> all_pct l2 = true).
  { intros l2 E. destruct (w_fit c); [exact (layout_fit_all_pct _ _ P1 E)|inversion E; subst; exact P1]. }
  destruct (if w_fit c then layout_fit l1 else Ok l1) as [l2|]; [|discriminate H].
  exact (vtt_settings_pct _ _ (P2 _ eq_refl) H).
Qed.

(* after `fix: fit_to_screen gave a negative extent ...`: whatever the origin, a fitted extent that was computed is
   never negative, and an extent that was given and non-negative stays non-negative *)
Lemma clamp0_nonneg : forall q, (0 <= clamp0 q)%Q.
Proof. intros q. unfold clamp0. destruct (Qle_bool 0 q) eqn:E; [apply Qle_bool_iff; exact E|lra]. Qed.

Theorem fit_extent_never_negative : forall l r e', layout_fit l = Ok r -> l_origin l <> None -> l_extent r = Some e' ->
  match l_extent l with Some e => (0 <= s_val (st_h e))%Q /\ (0 <= s_val (st_v e))%Q | None => True end ->
  (0 <= s_val (st_h e'))%Q /\ (0 <= s_val (st_v e'))%Q.
Proof.
  intros l r e' H Ho He' Hn. apply layout_fit_cases in H. destruct (l_origin l) as [o|]; [|contradiction].
  destruct H as (nh & nv & -> & Hh & Hv). inversion He'; subst e'. cbn [st_h st_v].
  split; [destruct Hh as [->|(e & Ee & ->)]|destruct Hv as [->|(e & Ee & ->)]];
    try (cbn [s_val]; rewrite Qred_correct; apply clamp0_nonneg); rewrite Ee in Hn; tauto.
Qed.

(* refusal: a layout that is positioned with (truthy) and has a length needing an absent dimension *)
Definition opt_needs (c : wcfg) (o : option layout) : bool :=
  match o with Some l => layout_truthy l && needs_missing (w_w c) (w_h c) l | None => false end.

Lemma raf_refused_iff : forall c o, w_rel c = true -> ((exists e, raf c o = Err e) <-> opt_needs c o = true).
Proof.
  intros c [l|] Hr; cbn [raf opt_needs]; [|split; [intros [e H]; discriminate|discriminate]].
  rewrite Hr, bind1_refused, andb_true_iff, <- (proj1 (layout_refused_iff l (w_w c) (w_h c))).
  pose proof (relativize_and_fit_cases (w_fit c) (w_w c) (w_h c) l) as C.
  destruct (relativize_and_fit true (w_fit c) (w_w c) (w_h c) l) as [r|e].
  - split; [intros [e H]; discriminate|]. intros [T [e E]]. destruct C as [[T' _]|(l1 & E1 & _)]; congruence.
  - destruct C as [T E]. split; eauto.
Qed.

Lemma rel_only_refused_iff : forall c o, w_rel c = true -> ((exists e, rel_only c o = Err e) <-> opt_needs c o = true).
Proof. intros c o Hr. rewrite (rel_only_raf c o Hr). exact (raf_refused_iff (mkCfg true false (w_w c) (w_h c)) o eq_refl). Qed.

Lemma raf_cap_refused_iff : forall c cp, w_rel c = true ->
  ((exists e, raf_cap c cp = Err e) <-> existsb (opt_needs c) (nc_layout cp :: map n_layout (nc_nodes cp)) = true).
Proof.
  intros c cp Hr. cbn [existsb]. rewrite orb_true_iff, <- (raf_refused_iff c _ Hr).
  rewrite <- (res_map_map_refused (raf_node c) n_layout (opt_needs c)); [apply bind2_refused|].
  intros n. rewrite <- (raf_refused_iff c _ Hr). apply bind1_refused.
Qed.

Lemma caps_refused_iff : forall c caps, w_rel c = true ->
  ((exists e, res_map (raf_cap c) caps = Err e)
   <-> existsb (opt_needs c) (flat_map (fun cp => nc_layout cp :: map n_layout (nc_nodes cp)) caps) = true).
Proof. intros c caps Hr. apply res_map_flat_refused. intros cp. apply raf_cap_refused_iff. exact Hr. Qed.

Lemma langs_refused_iff : forall f c lgs, w_rel c = true -> (forall o, (exists e, f o = Err e) <-> opt_needs c o = true) ->
  ((exists e, res_map (lang_by f c) lgs = Err e) <-> existsb (opt_needs c) (flat_map written_layouts_lang lgs) = true).
Proof.
  intros f c lgs Hr Hf. apply res_map_flat_refused. intros lg. unfold written_layouts_lang. cbn [existsb].
  rewrite orb_true_iff, <- Hf, <- (caps_refused_iff c _ Hr). apply bind2_refused.
Qed.

(* DFXP: RelativizationError exactly when a language-, caption- or node-level layout that is positioned with has a length
   on an axis whose video dimension is missing *)
Theorem dfxp_refused_iff : forall c s, w_rel c = true ->
  ((exists e, dfxp_transform c s = Err e) <-> existsb (opt_needs c) (written_layouts s) = true).
Proof.
  intros c s Hr. unfold written_layouts.
  rewrite <- (langs_refused_iff (rel_only c) c _ Hr (fun o => rel_only_refused_iff c o Hr)). apply bind1_refused.
Qed.

Theorem sami_refused_iff : forall c s, w_rel c = true ->
  ((exists e, sami_transform c s = Err e) <-> existsb (opt_needs c) (ns_layout s :: written_layouts s) = true).
Proof.
  intros c s Hr. unfold written_layouts. cbn [existsb].
  rewrite orb_true_iff, <- (raf_refused_iff c _ Hr), <- (langs_refused_iff (raf c) c _ Hr (fun o => raf_refused_iff c o Hr)).
  apply bind2_refused.
Qed.

Definition fitted (r : layout) : Prop :=
  forall o, l_origin r = Some o -> in_safe_area o = true ->
  exists e, l_extent r = Some e /\ s_unit (st_h e) = PCT /\ s_unit (st_v e) = PCT
            /\ (s_val (p_x o) + s_val (st_h e) <= 90)%Q /\ (s_val (p_y o) + s_val (st_v e) <= 95)%Q.
Definition opt_fitted (o : option layout) : Prop := match o with Some r => fitted r | None => True end.

Lemma all_pct_extent : forall l, all_pct l = true ->
  match l_extent l with Some e => s_unit (st_h e) = PCT /\ s_unit (st_v e) = PCT | None => True end.
Proof. intros l H. apply all_pct_units in H. exact (proj1 (proj2 H)). Qed.

Lemma layout_fit_fitted : forall l1 r, all_pct l1 = true -> layout_fit l1 = Ok r -> fitted r.
Proof.
  intros l1 r P H o Ho Hs. destruct (layout_fit_keeps _ _ H) as (Ko & _). rewrite Ko in Ho.
  destruct (fit_safe l1 o Ho Hs (all_pct_extent _ P)) as (e' & Hf & U1 & U2 & R1 & R2 & _).
  rewrite Hf in H. inversion H; subst. cbn [l_extent]. eauto 10.
Qed.

Theorem raf_fitted : forall c o o', w_rel c = true -> w_fit c = true -> raf c o = Ok o' -> opt_fitted o'.
Proof.
  intros c [l|] o' Hr Hf H; cbn [raf] in H; [|inversion H; exact I].
  rewrite Hr, Hf in H. apply bind1_ok in H. destruct H as (r & H & ->). cbn [opt_fitted].
  pose proof (relativize_and_fit_cases true (w_w c) (w_h c) l) as C. rewrite H in C.
  destruct C as [[T ->]|(l1 & _ & P & F)]; [|exact (layout_fit_fitted _ _ P F)].
  intros o Ho _. unfold layout_truthy in T. rewrite Ho in T. destruct (l_extent l), (l_padding l), (l_alignment l), (l_webvtt l) as [[|]|]; discriminate.
Qed.

Definition cap_node_layouts (s : nset) : list (option layout) :=
  flat_map (fun lg => flat_map (fun cp => nc_layout cp :: map n_layout (nc_nodes cp)) (nl_caps lg)) (ns_langs s).

(* DFXP with relativization and fit on: every caption- and node-level layout that is written and whose origin lies in the
   safe area has an extent, right edge <= 90, bottom edge <= 95 (the language level is NOT fitted: known finding) *)
Theorem dfxp_fit_levels : forall c s s', w_rel c = true -> w_fit c = true -> dfxp_transform c s = Ok s' ->
  Forall opt_fitted (cap_node_layouts s').
Proof.
  intros c s s' Hr Hf H. destruct (dfxp_transform_levels c s s' H) as [_ L]. revert L. apply Forall2_flat_map.
  intros lg lg' [_ Hc]. exact (step_caps opt_fitted c _ _ (fun o o' => raf_fitted c o o' Hr Hf) Hc).
Qed.
