(* C07: escaped text and serialized attribute values parse back to the original under the strict grammar. *)
From Coq Require Import List ZArith Bool.
From PV Require Import lib.Sx lib.Str lib.StrFacts model.DfxpXml spec.SpecXmlAttr.
Import ListNotations.
Open Scope Z_scope.

(* one escaper for all variants: nl = quoteattr's character references, quot = the &quot; substitution *)
Definition esc (nl quot : bool) (x : Z) : str :=
  if x =? 38 then lit "&amp;" else if x =? 62 then lit "&gt;" else if x =? 60 then lit "&lt;"
  else if nl && (x =? 10) then lit "&#10;" else if nl && (x =? 13) then lit "&#13;" else if nl && (x =? 9) then lit "&#9;"
  else if quot && (x =? 34) then lit "&quot;" else [x].

Lemma replace_ch_flat_map : forall c r (f : Z -> str) s,
  replace_ch c r (flat_map f s) = flat_map (fun x => replace_ch c r (f x)) s.
Proof. intros. unfold replace_ch. apply flat_map_flat_map. Qed.

Lemma replace_ch_other : forall c r x, (x =? c) = false -> replace_ch c r [x] = [x].
Proof. intros c r x E. unfold replace_ch. cbn [flat_map]. rewrite E. reflexivity. Qed.

Lemma replace_ch_id : forall c r s, replace_ch c r s = flat_map (fun x => if x =? c then r else [x]) s.
Proof. reflexivity. Qed.

Lemma eqb_case : forall (P : Z -> Prop) c x, P c -> ((x =? c) = false -> P x) -> P x.
Proof. intros P c x Hc Hn. destruct (x =? c) eqn:E; [apply Z.eqb_eq in E; subst; exact Hc|exact (Hn eq_refl)]. Qed.

(* every character is one of the seven that some variant rewrites, or all variants write it as it is: a fact about
   all characters is seven closed checks and the plain case *)
Lemma esc_cases : forall P : Z -> Prop,
  P 38 -> P 62 -> P 60 -> P 10 -> P 13 -> P 9 -> P 34 ->
  (forall x, (x =? 38) = false -> (x =? 62) = false -> (x =? 60) = false -> (x =? 10) = false ->
             (x =? 13) = false -> (x =? 9) = false -> (x =? 34) = false ->
             (forall nl quot, esc nl quot x = [x]) -> P x) ->
  forall x, P x.
Proof.
  intros P H38 H62 H60 H10 H13 H9 H34 Hp x.
  apply (eqb_case P 38 x H38); intros E38. apply (eqb_case P 62 x H62); intros E62.
  apply (eqb_case P 60 x H60); intros E60. apply (eqb_case P 10 x H10); intros E10.
  apply (eqb_case P 13 x H13); intros E13. apply (eqb_case P 9 x H9); intros E9.
  apply (eqb_case P 34 x H34); intros E34.
  apply Hp; try assumption. intros nl quot. unfold esc. rewrite E38, E62, E60, E10, E13, E9, E34, !andb_false_r. reflexivity.
Qed.

Lemma xml_escape_esc : forall s, xml_escape s = flat_map (esc false false) s.
Proof.
  intros s. unfold xml_escape. rewrite (replace_ch_id 38), !replace_ch_flat_map. apply flat_map_ext.
  apply esc_cases; try reflexivity. intros x E38 E62 E60 _ _ _ _ Ex.
  rewrite Ex, E38, !replace_ch_other by assumption. reflexivity.
Qed.

Lemma quoteattr_body_esc : forall s,
  replace_ch 9 (lit "&#9;") (replace_ch 13 (lit "&#13;") (replace_ch 10 (lit "&#10;") (xml_escape s)))
  = flat_map (esc true false) s.
Proof.
  intros s. rewrite xml_escape_esc, !replace_ch_flat_map. apply flat_map_ext.
  apply esc_cases; try reflexivity. intros x _ _ _ E10 E13 E9 _ Ex.
  rewrite !Ex, !replace_ch_other by assumption. reflexivity.
Qed.

Lemma quot_esc : forall nl s, replace_ch 34 (lit "&quot;") (flat_map (esc nl false) s) = flat_map (esc nl true) s.
Proof.
  intros nl s. rewrite replace_ch_flat_map. apply flat_map_ext.
  apply esc_cases; try (destruct nl; reflexivity). intros x _ _ _ _ _ _ E34 Ex.
  rewrite !Ex. apply replace_ch_other, E34.
Qed.

(* ---- the strict value machine decodes every variant ------------------------------------------------------- *)
Lemma vrun_app : forall a b st, vrun st (a ++ b) = match vrun st a with Some st' => vrun st' b | None => None end.
Proof. induction a as [|c t IH]; intros b st; cbn [app vrun]; [reflexivity|]. destruct (vstep st c); [apply IH|reflexivity]. Qed.

Lemma esc_step : forall nl quot x acc, is_xml_char x = true ->
  vrun (VNormal acc) (esc nl quot x) = Some (VNormal (x :: acc)).
Proof.
  intros nl quot x acc. pattern x. apply esc_cases; try (intros _; destruct nl, quot; reflexivity).
  clear x. intros x E38 _ E60 _ _ _ _ Ex H. rewrite Ex. cbn [vrun vstep]. rewrite E38, E60, H. reflexivity.
Qed.

Lemma vrun_esc : forall nl quot s acc, forallb is_xml_char s = true ->
  vrun (VNormal acc) (flat_map (esc nl quot) s) = Some (VNormal (rev s ++ acc)).
Proof.
  induction s as [|x t IH]; intros acc H; [reflexivity|]. cbn [forallb] in H. apply andb_prop in H. destruct H as [H1 H2].
  cbn [flat_map]. rewrite vrun_app, esc_step by exact H1. rewrite IH by exact H2. cbn [rev]. rewrite <- app_assoc. reflexivity.
Qed.

Lemma has_esc_free : forall c nl quot, (forall x, has c (esc nl quot x) = false) ->
  forall s, has c (flat_map (esc nl quot) s) = false.
Proof.
  intros c nl quot H. unfold has in *. induction s as [|x t IH]; [reflexivity|]. cbn [flat_map].
  rewrite existsb_app, IH, H. reflexivity.
Qed.
Lemma has_gt_free : forall nl quot s, has 62 (flat_map (esc nl quot) s) = false.
Proof.
  intros nl quot. apply has_esc_free. apply esc_cases; try (destruct nl, quot; reflexivity).
  intros x _ E62 _ _ _ _ _ Ex. rewrite Ex. unfold has. cbn [existsb]. rewrite Z.eqb_sym, E62. reflexivity.
Qed.
Lemma no_gt_no_cdata_end : forall s, has 62 s = false -> has_cdata_end s = false.
Proof.
  induction s as [|c t IH]; intros H; [reflexivity|]. unfold has in H. cbn [existsb] in H. apply orb_false_elim in H.
  destruct H as [_ H]. cbn [has_cdata_end]. rewrite (IH H), orb_false_r.
  destruct t as [|d [|e u]]; try (rewrite andb_false_r; reflexivity).
  unfold has in H. cbn [existsb] in H. apply orb_false_elim in H. destruct H as [_ H]. apply orb_false_elim in H. destruct H as [H _].
  rewrite (Z.eqb_sym e), H, !andb_false_r. reflexivity.
Qed.

(* escaped text: character data (no ']]>' in it) that decodes to the text *)
Theorem escape_text_wellformed : forall s, forallb is_xml_char s = true -> text_parse (xml_escape s) = Some s.
Proof.
  intros s H. unfold text_parse. rewrite xml_escape_esc.
  rewrite (no_gt_no_cdata_end _ (has_gt_free false false s)).
  rewrite vrun_esc by exact H. rewrite app_nil_r, rev_involutive. reflexivity.
Qed.

Lemma has_rev : forall c s, existsb (Z.eqb c) (rev s) = has c s.
Proof.
  intros c s. unfold has. induction s as [|x t IH]; [reflexivity|]. cbn [rev existsb]. rewrite existsb_app, IH. cbn [existsb].
  rewrite orb_false_r. apply orb_comm.
Qed.

Lemma has_quot_free : forall nl s, has 34 (flat_map (esc nl true) s) = false.
Proof.
  intros nl. apply has_esc_free. apply esc_cases; try (destruct nl; reflexivity).
  intros x _ _ _ _ _ _ E34 Ex. rewrite Ex. unfold has. cbn [existsb]. rewrite Z.eqb_sym, E34. reflexivity.
Qed.

Lemma attr_parse_quoted : forall q body v, (q = 34 \/ q = 39) -> has q body = false ->
  vrun (VNormal []) body = Some (VNormal (rev v)) -> attr_parse ([q] ++ body ++ [q]) = Some v.
Proof.
  intros q body v Hq Hh Hr. unfold attr_parse. cbn [app].
  replace ((q =? 34) || (q =? 39)) with true by (destruct Hq; subst; reflexivity).
  rewrite rev_app_distr. cbn [rev app]. rewrite Z.eqb_refl, has_rev, Hh. cbn [negb andb].
  rewrite rev_involutive, Hr, rev_involutive. reflexivity.
Qed.

Lemma quote_value_roundtrip : forall nl v, forallb is_xml_char v = true ->
  attr_parse (quote_value (flat_map (esc nl false) v)) = Some v.
Proof.
  intros nl v H.
  assert (R : forall quot, vrun (VNormal []) (flat_map (esc nl quot) v) = Some (VNormal (rev v))).
  { intros quot. rewrite vrun_esc by exact H. rewrite app_nil_r. reflexivity. }
  unfold quote_value. destruct (has 34 (flat_map (esc nl false) v)) eqn:H34.
  - destruct (has 39 (flat_map (esc nl false) v)) eqn:H39.
    + rewrite quot_esc. apply attr_parse_quoted; [left; reflexivity|apply has_quot_free|apply R].
    + apply attr_parse_quoted; [right; reflexivity|exact H39|apply R].
  - apply attr_parse_quoted; [left; reflexivity|exact H34|apply R].
Qed.

(* attr_value_wellformed: whatever characters the value contains, the literal written for it is a well-formed
   attribute value that denotes exactly the value - for the bs4 path (DFXPOutputFormatter) and for the hand-written
   span attributes (quoteattr) *)
Theorem attr_value_wellformed : forall v, forallb is_xml_char v = true -> attr_parse (attr_out v) = Some v.
Proof. intros v H. unfold attr_out. rewrite xml_escape_esc. apply quote_value_roundtrip. exact H. Qed.

Theorem quoteattr_wellformed : forall v, forallb is_xml_char v = true -> attr_parse (quoteattr v) = Some v.
Proof. intros v H. unfold quoteattr. rewrite quoteattr_body_esc. apply quote_value_roundtrip. exact H. Qed.

(* the unrepaired serialization (the value written as it is, only quoted) is not well-formed *)
Theorem attr_unescaped_refuted : exists v, forallb is_xml_char v = true /\ attr_parse (quote_value v) = None.
Proof. exists (lit "r&d"). split; reflexivity. Qed.
