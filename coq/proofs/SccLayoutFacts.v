(* C17: the rows SCCWriter._text_to_code lays a caption out on (model.SccWrite.layout_rows). *)
From Coq Require Import List ZArith Lia Bool.
From PV Require Import lib.Sx lib.Str lib.Result model.GenSccw model.SccWrap model.SccWrite spec.SpecSccw proofs.SccwStr proofs.SccWrapFacts
     proofs.SccWordsFacts proofs.SccWriteFacts proofs.SccDecodeFacts.
From PV Require lib.StrSplit.
From PV Require Import lib.StrFacts.
Import ListNotations.

Lemma layout_rows_texts : forall text,
  map snd (layout_rows text) = flat_map (fun p => split_ch 10 (fill 32 p)) (split_ch 10 text).
Proof.
  intros text. unfold layout_rows. rewrite number_rows_snd. unfold layout_line.
  rewrite split_ch_join.
  - rewrite flat_map_concat_map, map_map, <- flat_map_concat_map. reflexivity.
  - intros E. apply map_eq_nil in E. exact (split_ch_nonempty _ _ E).
Qed.

Lemma fill_rows : forall width p r, In r (split_ch 10 (fill width p)) ->
  r = [] \/ exists row, In row (wrap width p) /\ StrSplit.part r row.
Proof.
  intros width p r H. unfold fill in H. destruct (wrap width p) as [|a t] eqn:W.
  - left. destruct H as [<-|[]]. reflexivity.
  - right. rewrite split_ch_join in H by discriminate. apply in_flat_map in H. destruct H as (row & Hrow & Hr).
    exists row. split; [exact Hrow|exact (StrSplit.split_ch_part _ _ _ Hr)].
Qed.

Theorem rows_le_32 : forall text r, In r (map snd (layout_rows text)) -> (length r <= 32)%nat.
Proof.
  intros text r H. rewrite layout_rows_texts in H. apply in_flat_map in H. destruct H as [p [_ H]].
  destruct (fill_rows 32 p r H) as [->|(row & Hrow & u & v & E)]; [simpl; lia|].
  apply wrap_rows_le in Hrow. rewrite E, !app_length in Hrow. lia.
Qed.

Lemma layout_rows_words : forall text,
  flat_map words (map snd (layout_rows text))
  = flat_map (fun p => flat_map words (wrap 32 p)) (split_ch 10 text).
Proof.
  intros text. rewrite layout_rows_texts, flat_map_flat_map. apply flat_map_ext. intros p.
  unfold split_ch. rewrite words_split_nl. cbn [rev app]. unfold fill. apply words_join_nl.
Qed.

Lemma pieces_refine : forall pieces, (forall p, In p pieces -> plain p = true) ->
  RefH 32 false (flat_map words pieces) (flat_map (fun p => flat_map words (wrap 32 p)) pieces).
Proof.
  induction pieces as [|p t IH]; intros H; [constructor|]. cbn [flat_map].
  apply RefH_app.
  - apply wrap_refines_H; [lia|]. apply H. left. reflexivity.
  - apply IH. intros q Hq. apply H. right. exact Hq.
Qed.

(* for every caption text whose only whitespace characters are spaces and line breaks (every text over the
   basic character set): each word of the text appears whole in the rows, or - only when it is longer than
   32 - as consecutive pieces; nothing else appears *)
Theorem layout_refines_words : forall text, plain_nl text = true ->
  refines 32 (words text) (flat_map words (map snd (layout_rows text))) = true.
Proof.
  intros text Pl. rewrite layout_rows_words.
  assert (W : words text = flat_map words (split_ch 10 text)).
  { unfold split_ch. rewrite words_split_nl. reflexivity. }
  rewrite W.
  destruct (RefH_refines 32 false _ _ (pieces_refine (split_ch 10 text)
             (fun p Hp => split_pieces_plain text [] Pl eq_refl p Hp))) as [R _].
  apply R. reflexivity.
Qed.

Definition basic_text (text : str) : bool := forallb (fun c => is_basic c || (c =? 10)%Z) text.

Lemma layout_rows_basic : forall text, basic_text text = true -> rows_basic (layout_rows text).
Proof.
  intros text H r Hr.
  assert (I : In (snd r) (map snd (layout_rows text))) by (apply in_map; exact Hr).
  rewrite layout_rows_texts in I. apply in_flat_map in I. destruct I as [p [Hp Hx]].
  assert (Bp : forallb is_basic p = true) by (apply (split_ch_forallb is_basic 10 text p H Hp)).
  assert (Bm : forallb is_basic (munge p) = true).
  { unfold munge. rewrite forallb_forall in *. intros c Hc. apply in_map_iff in Hc. destruct Hc as [c0 [<- Hc0]].
    destruct (tw_is_ws c0); [reflexivity|apply Bp; exact Hc0]. }
  destruct (fill_rows 32 p _ Hx) as [->|(row & Hrow & u & v & E)]; [reflexivity|].
  pose proof (wrap_forallb is_basic 32 p Bm row Hrow) as Br. rewrite E, !forallb_app in Br.
  apply andb_prop in Br. destruct Br as [_ Br]. apply andb_prop in Br. exact (proj1 Br).
Qed.

Theorem decode_rows_basic : forall text, basic_text text = true -> (length (layout_rows text) <= 15)%nat ->
  exists ws, text_to_words text = Ok ws /\ decode_body ws None [] = Some (layout_rows text).
Proof. intros text B L. apply decode_rows; [exact L|apply layout_rows_basic; exact B]. Qed.

Lemma tbl_basic_not_space :
  forallb (fun kv => nsp (fst kv) || is_sp (fst kv)) sccw_character_to_code = true.
Proof. vm_compute. reflexivity. Qed.

Lemma basic_text_plain : forall text, basic_text text = true -> plain_nl text = true.
Proof.
  intros text H. unfold basic_text, plain_nl in *. rewrite forallb_forall in *. intros c Hc. specialize (H c Hc).
  destruct (c =? 10)%Z; [apply orb_true_r|]. rewrite orb_false_r in *. unfold is_basic in H.
  destruct (assoc c sccw_character_to_code) as [b|] eqn:E; [|discriminate].
  apply assoc_in in E. pose proof tbl_basic_not_space as T. rewrite forallb_forall in T. exact (T _ E).
Qed.

Theorem layout_refines_words_basic : forall text, basic_text text = true ->
  refines 32 (words text) (flat_map words (map snd (layout_rows text))) = true.
Proof. intros text H. apply layout_refines_words. apply basic_text_plain. exact H. Qed.
