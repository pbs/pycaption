(* C04, DFXP at tree level, on the models: the tree-building library (BeautifulSoup / html.parser) is the stated
   boundary - its result is the spec tree `tree_of` (compared with the real library in the harness, counted).
   From there on: tree -> DFXPReader walk -> nodes keeps every displayed non-white-space character and every line break,
   in order.  WEAKER than the oracle ok_lines_a: white space is filtered, so words glued at a source wrap (known finding)
   are invisible to this statement. *)
From Coq Require Import List ZArith Bool.
From PV Require Import lib.Sx lib.Str model.TextNodes model.TextRead spec.SpecTextXml.
From PV Require Import spec.SpecTextRead proofs.TextReadFacts proofs.TextRoundtripFacts.
Import ListNotations.
Open Scope Z_scope.

(* what the cue shows, as one string with a mark for every line break *)
Definition item_flat1 (it : item) : str :=
  match it with
  | ITxt cs => chars cs
  | IWrap n => wrap_text n
  | IEnt _ c => [c]
  | IBr => [brk_mark]
  | _ => []
  end.
Definition item_flat (items : list item) : str := flat_map item_flat1 items.

Lemma bs4_space_is_space : forall c, bs4_space c = true -> is_space c = true.
Proof.
  intros c H. unfold bs4_space in H.
  repeat (apply orb_true_iff in H; destruct H as [H|H]); apply Z.eqb_eq in H; subst; reflexivity.
Qed.
Lemma vis_all_space : forall s, forallb bs4_space s = true -> vis s = [].
Proof.
  induction s as [|c s IH]; intros H; [reflexivity|]. cbn [forallb] in H. apply andb_true_iff in H. destruct H as [Hc Hs].
  unfold vis in *. cbn [filter]. rewrite (bs4_space_is_space c Hc). cbn [negb]. apply IH, Hs.
Qed.
Lemma bs4_vis : forall s, vis (bs4_string s) = vis s.
Proof.
  intros s. unfold bs4_string. destruct (forallb bs4_space s) eqn:E; [|reflexivity].
  rewrite (vis_all_space s E). destruct (existsb (fun c => c =? 10) s); reflexivity.
Qed.

Lemma flush_flat : forall cur out,
  vis (tok_flat (rev (flush_text cur out))) = vis (tok_flat (rev out)) ++ vis (rev cur).
Proof.
  intros cur out. unfold flush_text. destruct cur as [|c cur]; [cbn [rev vis filter]; rewrite app_nil_r; reflexivity|].
  cbn [rev]. rewrite tok_flat_app, vis_app. cbn [tok_flat flat_map tok_flat1]. rewrite app_nil_r, bs4_vis. reflexivity.
Qed.

Lemma flush_span : forall cur out, forallb span_tok out = true -> forallb span_tok (flush_text cur out) = true.
Proof. intros cur out H. unfold flush_text. destruct cur; [exact H|]. cbn [forallb span_tok]. exact H. Qed.

(* an item either extends the pending text by what it shows, or ends it and pushes at most one token: br, a span tag *)
Lemma toks_item : forall it t cur out,
  toks_aux F_DFXP (it :: t) cur out = toks_aux F_DFXP t (rev (item_flat1 it) ++ cur) out \/
  exists tk, forallb span_tok tk = true /\ tok_flat (rev tk) = item_flat1 it /\
             toks_aux F_DFXP (it :: t) cur out = toks_aux F_DFXP t [] (tk ++ flush_text cur out).
Proof.
  intros it t cur out. destruct it as [cs|n|nm c| |k|k|cls nm|s|cl nm|s|s]; try (left; reflexivity); right.
  - exists [TkEmpty (lit "br") []]. repeat split; reflexivity.
  - exists [TkOpen (lit "span") (lower_attrs (snd (tag_of F_DFXP k)))]. repeat split; reflexivity.
  - exists [TkClose (lit "span")]. repeat split; reflexivity.
  - exists []. repeat split; reflexivity.
  - exists []. repeat split; reflexivity.
Qed.

Lemma toks_flat : forall items cur out,
  vis (tok_flat (toks_aux F_DFXP items cur out)) = vis (tok_flat (rev out)) ++ vis (rev cur) ++ vis (item_flat items).
Proof.
  unfold item_flat. induction items as [|it items IH]; intros cur out.
  - cbn [toks_aux flat_map]. rewrite flush_flat. cbn [vis filter]. rewrite app_nil_r. reflexivity.
  - cbn [flat_map]. rewrite vis_app. destruct (toks_item it items cur out) as [->|(tk & _ & <- & ->)]; rewrite IH.
    + rewrite rev_app_distr, rev_involutive, vis_app, <- !app_assoc. reflexivity.
    + rewrite rev_app_distr, tok_flat_app, vis_app, flush_flat, <- !app_assoc. reflexivity.
Qed.

Lemma toks_span : forall items cur out, forallb span_tok out = true -> forallb span_tok (toks_aux F_DFXP items cur out) = true.
Proof.
  induction items as [|it items IH]; intros cur out H.
  - cbn [toks_aux]. rewrite forallb_forall. intros x Hx. apply in_rev in Hx. pose proof (flush_span cur out H) as F.
    rewrite forallb_forall in F. apply F, Hx.
  - destruct (toks_item it items cur out) as [->|(tk & Hs & _ & ->)]; apply IH; [exact H|].
    rewrite forallb_app, Hs. apply flush_span, H.
Qed.

(* DFXP, tree level: every node list the reader model returns for the spec tree of the cue shows the cue's
   non-white-space characters and its line breaks, in order *)
Theorem dfxp_tree_visible : forall items ns, read_dfxp true items = Some ns ->
  vis (node_flat ns) = vis (item_flat items).
Proof.
  intros items ns H. unfold read_dfxp in H. destruct (tree_of F_DFXP items) as [t|] eqn:T; [|discriminate].
  injection H as <-. unfold tree_of, toks_of in T.
  pose proof (xbuild_flat _ [] [] t (toks_span items [] [] eq_refl) (Forall_nil _) T) as F.
  cbn [unwind_flat rev flat_map app] in F.
  rewrite (vis_flat_map_kids (dfxp_nodes true) t) by (apply Forall_forall; intros x _; apply dfxp_walk_visible).
  rewrite F, toks_flat. reflexivity.
Qed.

Example dfxp_tree_example :
  read_dfxp true [ITxt [(97, 0); (38, 1)]; IWrap 3; IOpen 0; ITxt [(98, 2)]; IClose 0; IBr; ICom (lit " c "); IEnt (lit "x") 99]
  = Some [NText (lit "a&"); NStyle true (mkStyle true false false None); NText (lit "b"); NStyle false (mkStyle true false false None);
          NBreak; NText (lit "c")].
Proof. vm_compute. reflexivity. Qed.
