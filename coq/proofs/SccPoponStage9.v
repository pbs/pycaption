(* C05 / C06, stage 9: popon_refines_608, popon_times and popon_times_screens for whole programs over the FULL item
   domain: the generic lifting (Section Loads of stage 6, Section Lift of stage 7) instantiated with the one-load result
   of stage 8 (all five item kinds incl. mid-row codes, every preamble style, any number of rows per load). *)
From Coq Require Import List ZArith QArith Bool.
From PV Require Import lib.Sx lib.Str lib.Result model.SccLen model.SccTime model.SccStash model.SccDecoder model.SccPopon.
From PV Require Import spec.Spec608 spec.SpecScc05 spec.SpecSccTime.
From PV Require Import proofs.SccPoponFacts proofs.SccPoponStage3 proofs.SccPoponStage4 proofs.SccPoponStage6 proofs.SccPoponStage7 proofs.SccPoponStage8.
Import ListNotations.

Definition no_caps_fact : load -> Q -> list precap -> Prop := fun _ _ _ => True.

Lemma good8_lift : forall ld cr st t0 t1, lc_ok8 ld = true -> lc_good8 ld cr ->
  exists caps, create_and_store st cr t0 t1 = stash_extend st caps /\ caps <> [] /\
    Forall (fun c => pc_start c = t0 /\ pc_end c = t1 /\ has_nodes c = true) caps /\
    (forall c ln, In c caps -> In ln (lines_of (cap_text c)) -> (length ln <= 32)%nat) /\
    (forall e, (t0 < e)%Q -> forall rest,
       load_ok (expected_load ld) (map observe (map (set_end e) caps) ++ rest) None = Some (rest, Some (t0, e))) /\
    no_caps_fact ld t0 caps.
Proof.
  intros ld cr st t0 t1 H G. destruct (good8 ld cr st t0 t1 H G) as (caps & A & B & C & D & E).
  exists caps. repeat split; assumption.
Qed.

Definition pseg_ok8 (s : pseg) : bool := match s with PLoad _ l => lc_ok8 l | PClear _ => true end.

Theorem popon_refines_608 : forall d off segs evs spans,
  forallb pseg_ok8 segs = true -> res_map (pseg_event d off) segs = Ok evs -> positive evs -> after_show None evs ->
  expected_with join_threshold evs = Ok spans ->
  exists caps, read off (map (pseg_line d) segs) = ROk caps /\
               ok_c05 (mkProg d (ploads_of segs)) (Ok (map observe caps)) = true /\
               dom_c05 (mkProg d (ploads_of segs)) = true.
Proof. exact (lift lc_ok8 lc_good8 no_caps_fact line8 good8_lift lc_ok8_wf). Qed.

Theorem popon_times : forall d off segs evs,
  forallb pseg_ok8 segs = true -> res_map (pseg_event d off) segs = Ok evs -> positive evs ->
  spans_of (read off (map (pseg_line d) segs))
  = rmap (fun spans => flat_map bspans (combine (ploads_of segs) spans)) (expected_with join_threshold evs).
Proof. exact (prog_spans_mult lc_ok8 lc_good8 no_caps_fact line8 good8_lift). Qed.

Theorem popon_times_screens : forall d off segs evs,
  forallb pseg_ok8 segs = true -> res_map (pseg_event d off) segs = Ok evs -> positive evs ->
  rmap screens (spans_of (read off (map (pseg_line d) segs))) = rmap screens (expected_with join_threshold evs).
Proof. exact (prog_spans lc_ok8 lc_good8 no_caps_fact line8 good8_lift). Qed.
