(* Proofs for C01: every stamp parser of the model returns floor(instant * 10^6) on every
   rendering of every abstract stamp; DFXP begin+dur; WebVTT timing line with shift;
   MicroDVD frames under any declared rate; SAMI back-filling. *)
From Coq Require Import List ZArith QArith Qround Lia Bool ZifyBool.
From PV Require Import lib.Sx lib.Str lib.Result lib.ResultFacts lib.Dec.
From PV Require Import model.TimeRead spec.SpecTime proofs.TimeStrFacts.
Import ListNotations.
Open Scope Z_scope.
#[local] Ltac Zify.zify_post_hook ::= Z.to_euclidean_division_equations.

Lemma pos10_pow10 : forall n, Zpos (pos10 n) = pow10 n.
Proof.
  unfold pow10. induction n as [|n IH]; [reflexivity|].
  cbn [pos10]. rewrite Pos2Z.inj_mul, IH, Nat2Z.inj_succ, Z.pow_succ_r by lia. reflexivity.
Qed.

Lemma us_of_eq : forall q n d, (q * 1000000 == n # d)%Q -> us q = n / Zpos d.
Proof. intros q n d H. unfold us. rewrite (Qfloor_comp _ _ H). reflexivity. Qed.

Lemma us_split : forall n a d, us (inject_Z n + (a # d)) = n * 1000000 + a * 1000000 / Zpos d.
Proof.
  intros n a d.
  rewrite (us_of_eq _ ((n * Zpos d + a) * 1000000) d).
  - replace ((n * Zpos d + a) * 1000000) with (a * 1000000 + n * 1000000 * Zpos d) by ring.
    rewrite Z.div_add by lia. ring.
  - unfold Qeq, Qmult, Qplus, inject_Z. cbn [Qnum Qden].
    rewrite !Pos2Z.inj_mul. ring.
Qed.

Lemma secs_us : forall h m s, secs h m s * 1000000 = h * 3600000000 + m * 60000000 + s * 1000000.
Proof. intros. unfold secs. ring. Qed.

Lemma is_digit_44 : is_digit 44 = false. Proof. reflexivity. Qed.
Lemma is_digit_46 : is_digit 46 = false. Proof. reflexivity. Qed.

Lemma py_int_padded : forall k n, 0 <= n -> py_int (padded k n) = Ok n.
Proof. intros. unfold py_int. rewrite int_of_padded by assumption. reflexivity. Qed.
Lemma py_int_two : forall n, 0 <= n < 100 -> py_int (two n) = Ok n.
Proof. intros. unfold py_int. rewrite int_of_two by assumption. reflexivity. Qed.
Lemma py_int_three : forall n, 0 <= n < 1000 -> py_int (three n) = Ok n.
Proof. intros. unfold py_int. rewrite int_of_three by assumption. reflexivity. Qed.

Lemma padded_view : forall k n, 0 <= n ->
  exists c r, padded k n = c :: r /\ forallb is_digit (c :: r) = true /\ py_int (c :: r) = Ok n.
Proof.
  intros k n H. pose proof (padded_nonempty k n) as Hne. pose proof (padded_digits k n H) as D.
  pose proof (py_int_padded k n H) as P.
  destruct (padded k n) as [|c r]; [congruence|]. exists c, r. repeat split; assumption.
Qed.

Lemma two_view : forall n, 0 <= n < 100 ->
  exists a b, two n = [a; b] /\ is_digit a = true /\ is_digit b = true /\ py_int [a; b] = Ok n.
Proof.
  intros n H. exists (48 + n / 10), (48 + n mod 10).
  repeat split; [apply is_digit_d; lia|apply is_digit_d; lia|exact (py_int_two n H)].
Qed.

Lemma three_view : forall n, 0 <= n < 1000 ->
  exists a b c, three n = [a; b; c] /\ is_digit a = true /\ is_digit b = true /\ is_digit c = true
                /\ py_int [a; b; c] = Ok n.
Proof.
  intros n H. exists (48 + n / 100), (48 + n / 10 mod 10), (48 + n mod 10).
  repeat split; [apply is_digit_d; lia|apply is_digit_d; lia|apply is_digit_d; lia|exact (py_int_three n H)].
Qed.

(* ============================== SRT ========================================== *)
Lemma srt_stamp_exact : forall t, srt_stamp_dom t = true ->
  srt_to_micro (srt_render_stamp t) = Ok (us (srt_instant t)).
Proof.
  intros [k h m s f] Hd. unfold srt_stamp_dom in Hd. cbn [sr_h sr_m sr_s sr_ms] in Hd.
  unfold srt_render_stamp, srt_instant. cbn [sr_pad sr_h sr_m sr_s sr_ms].
  set (fv := match f with Some f => f | None => 0 end).
  assert (Hh : 0 <= h) by lia. assert (Hm : 0 <= m < 100) by lia. assert (Hs : 0 <= s < 100) by lia.
  assert (Hf : 0 <= fv < 1000) by (unfold fv; destruct f; lia).
  assert (L : forall sep a, is_digit sep = false -> forallb is_digit a = true -> lacks sep a = true) by exact digits_lack.
  pose proof (padded_digits k h Hh) as Dh. pose proof (two_digits m Hm) as Dm.
  pose proof (two_digits s Hs) as Ds. pose proof (three_digits fv Hf) as Df.
  (* the seconds field with its fraction, written or appended *)
  assert (T2 : (let t2 : str := two s ++ match f with Some f => 44 :: three f | None => [] end in
                if has_ch 44 t2 then t2 else t2 ++ lit ",000") = two s ++ 44 :: three fv).
  { unfold has_ch. destruct f as [f|]; cbv zeta.
    - rewrite has_ch_app_hit. reflexivity.
    - rewrite app_nil_r, has_ch_lacks by (apply L; [reflexivity|exact Ds]). reflexivity. }
  rewrite us_split, secs_us. unfold srt_to_micro.
  rewrite split_ch_cons, split_ch_cons by (apply L; [reflexivity|assumption]).
  rewrite split_ch_last.
  2:{ rewrite lacks_app, (L 58 _ eq_refl Ds). destruct f as [f|]; [|reflexivity]. exact (L 58 _ eq_refl Df). }
  unfold nth_str. cbn [nth_error bind]. cbv zeta in T2. rewrite T2.
  rewrite split_ch_cons, split_ch_last by (apply L; [reflexivity|assumption]).
  cbn [nth_error bind].
  rewrite py_int_padded, py_int_two, py_int_two, py_int_three by assumption.
  cbn [bind]. f_equal. fold fv. lia.
Qed.

(* ============================== WebVTT ======================================= *)
(* the timestamp regex is a prefix match: anything may follow the stamp *)
Lemma vtt_stamp_exact : forall t r, vtt_stamp_dom t = true ->
  vtt_timestamp (vtt_render_stamp t ++ r) = Ok (us (vtt_instant t)).
Proof.
  intros [oh m s ms] r Hd. unfold vtt_stamp_dom in Hd. cbn [vt_h vt_m vt_s vt_ms] in Hd.
  unfold vtt_render_stamp, vtt_instant. cbn [vt_h vt_m vt_s vt_ms].
  rewrite us_split, secs_us.
  assert (Hm : 0 <= m < 100) by (destruct oh as [[? ?]|]; lia).
  assert (Hs : 0 <= s < 100) by (destruct oh as [[? ?]|]; lia).
  assert (Hms : 0 <= ms < 1000) by (destruct oh as [[? ?]|]; lia).
  destruct (two_view s Hs) as (c & d & -> & Dc & Dd & Ps).
  destruct (three_view ms Hms) as (e & f & g & -> & De & Df & Dg & Pms).
  unfold vtt_timestamp, vtt_micro. rewrite <- !app_assoc. cbn [app].
  destruct oh as [[k h]|].
  - assert (Hh : 0 <= h) by lia. rewrite <- app_assoc. cbn [app].
    rewrite take_while_stops, drop_while_stops by (first [apply padded_digits; exact Hh | reflexivity]).
    destruct (padded_view k h Hh) as (p0 & pr & -> & _ & Ph).
    destruct (two_view m Hm) as (a & b & -> & Da & Db & Pm). cbn [app].
    rewrite Da, Db, Dc, Dd, De, Df, Dg, Ph, Pm, Ps, Pms. cbn [andb bind]. apply f_equal. lia.
  - cbn [app]. rewrite take_while_stops, drop_while_stops by (first [apply two_digits; exact Hm | reflexivity]).
    destruct (two_view m Hm) as (a & b & -> & _ & _ & Pm).
    rewrite Dc, Dd, De, Df, Dg, Pm, Ps, Pms. cbn [andb bind]. apply f_equal. lia.
Qed.

Lemma us_shift : forall q sh, us (q + (sh # 1000)) = us q + sh * 1000.
Proof.
  intros [n d] sh.
  rewrite (us_of_eq (n # d) (n * 1000000) d) by (unfold Qeq, Qmult; cbn [Qnum Qden]; rewrite !Pos2Z.inj_mul; ring).
  rewrite (us_of_eq _ (n * 1000000 + sh * 1000 * Zpos d) d).
  - rewrite Z.div_add by lia. reflexivity.
  - unfold Qeq, Qmult, Qplus. cbn [Qnum Qden]. rewrite !Pos2Z.inj_mul. ring.
Qed.

Definition stamp_char (c : Z) : bool := (46 <=? c) && (c <=? 58).

Lemma stamp_char_not_space : forall c, stamp_char c = true -> not_space c = true.
Proof. intros c H. unfold stamp_char in H. unfold not_space, is_space. lia. Qed.

Lemma digit_stamp_char : forall c, is_digit c = true -> stamp_char c = true.
Proof. intros c H. unfold is_digit in H. unfold stamp_char. lia. Qed.

Lemma vtt_render_chars : forall t, vtt_stamp_dom t = true ->
  forallb stamp_char (vtt_render_stamp t) = true.
Proof.
  intros [oh m s ms] Hd. unfold vtt_stamp_dom in Hd. cbn [vt_h vt_m vt_s vt_ms] in Hd.
  unfold vtt_render_stamp. cbn [vt_h vt_m vt_s vt_ms].
  assert (Hm : 0 <= m < 60) by (destruct oh as [[? ?]|]; lia).
  assert (Hs : 0 <= s < 60) by (destruct oh as [[? ?]|]; lia).
  assert (Hms : 0 <= ms < 1000) by (destruct oh as [[? ?]|]; lia).
  repeat first [rewrite forallb_app | progress cbn [forallb]].
  rewrite (forallb_weaken _ _ _ digit_stamp_char (two_digits m ltac:(lia))).
  rewrite (forallb_weaken _ _ _ digit_stamp_char (two_digits s ltac:(lia))).
  rewrite (forallb_weaken _ _ _ digit_stamp_char (three_digits ms ltac:(lia))).
  destruct oh as [[k h]|]; [|reflexivity].
  repeat first [rewrite forallb_app | progress cbn [forallb]].
  rewrite (forallb_weaken _ _ _ digit_stamp_char (padded_digits k h ltac:(lia))). reflexivity.
Qed.

Lemma vtt_render_nonempty : forall t, vtt_render_stamp t <> [].
Proof.
  intros [oh m s ms]. unfold vtt_render_stamp. cbn [vt_h vt_m vt_s vt_ms].
  intros H. apply app_eq_nil in H. destruct H as [_ H]. unfold two in H. discriminate.
Qed.

Lemma blank_run_parts : forall w X, blank_run w = true -> forallb is_space w = true /\ starts_space (w ++ X) = true.
Proof.
  intros w X H. unfold blank_run in H. destruct w as [|c r]; [discriminate|].
  assert (A : forallb is_space (c :: r) = true).
  { revert H. apply forallb_weaken. intros x Hx. unfold is_space. lia. }
  split; [exact A|]. cbn [forallb] in A. apply andb_true_iff in A. apply A.
Qed.

(* the timing line: two stamps around the arrow with any blanks / tabs, optionally followed by cue settings *)
Lemma vtt_timing_exact : forall strict shift t0 t1 ws1 ws2 tail last,
  vtt_stamp_dom t0 = true -> vtt_stamp_dom t1 = true ->
  blank_run ws1 = true -> blank_run ws2 = true ->
  (tail = [] \/ exists s, tail = 32 :: s) ->
  (strict = true ->
   us (vtt_instant t0) + shift <= us (vtt_instant t1) + shift /\ last <= us (vtt_instant t0) + shift) ->
  vtt_parse_timing strict shift (vtt_render_stamp t0 ++ ws1 ++ lit "-->" ++ ws2 ++ vtt_render_stamp t1 ++ tail) last
  = Ok (us (vtt_instant t0) + shift, us (vtt_instant t1) + shift).
Proof.
  intros strict shift t0 t1 ws1 ws2 tail last H0 H1 W1 W2 Htail Hord.
  pose proof (forallb_weaken _ _ _ stamp_char_not_space (vtt_render_chars t0 H0)) as N0.
  pose proof (forallb_weaken _ _ _ stamp_char_not_space (vtt_render_chars t1 H1)) as N1.
  pose proof (vtt_render_nonempty t0) as Hne0. pose proof (vtt_render_nonempty t1) as Hne1.
  pose proof (vtt_stamp_exact t0 [] H0) as T0. pose proof (vtt_stamp_exact t1 [] H1) as T1. rewrite app_nil_r in T0, T1.
  (* each group of the pattern is a maximal run, stopped by what follows it *)
  set (X1 := vtt_render_stamp t1 ++ tail). set (X3 := lit "-->" ++ ws2 ++ X1).
  destruct (blank_run_parts ws1 X3 W1) as [S1 SS1]. destruct (blank_run_parts ws2 X1 W2) as [S2 SS2].
  assert (P1 : match ws1 ++ X3 with [] => True | c :: _ => not_space c = false end).
  { destruct ws1 as [|c r]; [discriminate W1|]. unfold not_space. cbn [app starts_space] in *. rewrite SS1. reflexivity. }
  assert (P4 : match tail with [] => True | c :: _ => not_space c = false end)
    by (destruct Htail as [->|[s ->]]; [exact I|reflexivity]).
  unfold vtt_parse_timing, vtt_timing_line.
  destruct (span_app not_space _ _ N0 P1) as [-> ->].
  destruct (span_app is_space ws1 X3 S1 eq_refl) as [_ ->]. change (skipn 3 X3) with (ws2 ++ X1).
  destruct (span_app is_space ws2 X1 S2 (clean_stops is_space _ tail Hne1 N1)) as [_ ->].
  rewrite SS1, SS2. change (is_prefix (lit "-->") X3) with true. cbn [andb]. clear P1 SS1 SS2. subst X3 X1.
  destruct (span_app not_space _ tail N1 P4) as [-> _].
  destruct (vtt_render_stamp t0) as [|a0 rest0]; [congruence|].
  destruct (vtt_render_stamp t1) as [|a1 rest1]; [congruence|].
  rewrite T0, T1. cbn [bind].
  destruct strict; cbn [andb]; [|reflexivity].
  destruct (Hord eq_refl) as [Ha Hb].
  assert (C : ((us (vtt_instant t1) + shift <? us (vtt_instant t0) + shift)
               || (us (vtt_instant t0) + shift <? last)) = false) by lia.
  rewrite C. reflexivity.
Qed.

(* ============================== DFXP ========================================= *)
Definition metric_unit (mt : metric) : Z :=
  match mt with Mh => 3600000000 | Mm => 60000000 | Ms => 1000000 | Mms => 1000 | Mf => 1000000 end.
Definition metric_div (mt : metric) : positive := match mt with Mf => 30%positive | _ => 1%positive end.

Lemma us_offset : forall ip F D mt,
  us ((inject_Z ip + (F # D)) * metric_q mt)
  = (ip * Zpos D + F) * metric_unit mt / (Zpos D * Zpos (metric_div mt)).
Proof.
  intros ip F D mt.
  rewrite (us_of_eq _ ((ip * Zpos D + F) * metric_unit mt) (D * metric_div mt)).
  - rewrite Pos2Z.inj_mul. reflexivity.
  - destruct mt; unfold Qeq, Qmult, Qplus, inject_Z, metric_q; cbn [Qnum Qden metric_unit metric_div];
      rewrite !Pos2Z.inj_mul; ring.
Qed.

Lemma metric_conv_str : forall mt,
  metric_conv (metric_str mt) = Some (Some (metric_unit mt, Zpos (metric_div mt))).
Proof. destruct mt; reflexivity. Qed.

Lemma metric_str_head : forall mt, exists c r,
  metric_str mt = c :: r /\ is_digit c = false /\ In c [104; 109; 115; 102].
Proof.
  destruct mt; eexists; eexists; (split; [reflexivity|split; [reflexivity|cbn [In]; tauto]]).
Qed.

Definition frac_str (fr : list Z) : list Z := match fr with [] => [] | _ => 46 :: digits_str fr end.

Lemma frac_metric_head : forall fr mt, exists c r,
  frac_str fr ++ metric_str mt = c :: r /\ is_digit c = false /\ In c [46; 104; 109; 115; 102].
Proof.
  intros [|d ds] mt.
  - destruct (metric_str_head mt) as (c & r & E & Hc & Hin). exists c, r. repeat split; [exact E|exact Hc|right; exact Hin].
  - eexists. eexists. repeat split. left. reflexivity.
Qed.

Lemma split_frac_render : forall fr mt, digits_ok fr = true ->
  split_frac (frac_str fr ++ metric_str mt) = (match fr with [] => None | _ => Some (digits_str fr) end, metric_str mt).
Proof.
  intros [|d ds] mt H.
  - destruct mt; reflexivity.
  - cbn [frac_str app]. unfold split_frac. destruct (metric_str_head mt) as (c & r & -> & Hc & _).
    rewrite take_while_stops, drop_while_stops by (first [apply digits_str_digits; exact H|exact Hc]).
    reflexivity.
Qed.

Lemma dfxp_clock_none : forall a c r, forallb is_digit a = true ->
  In c [46; 104; 109; 115; 102] -> dfxp_clock (a ++ c :: r) = None.
Proof.
  intros a c r Ha Hc. unfold dfxp_clock. cbn [In] in Hc.
  destruct Hc as [<-|[<-|[<-|[<-|[<-|[]]]]]];
    rewrite take_while_stops, drop_while_stops by (first [exact Ha|reflexivity]);
    destruct a; reflexivity.
Qed.

Lemma py_int_digits_str : forall ds, ds <> [] -> digits_ok ds = true ->
  py_int (digits_str ds) = Ok (digits_num ds).
Proof. intros. unfold py_int. rewrite int_of_digits_str by assumption. reflexivity. Qed.

Lemma dfxp_clock_hms : forall k h m s tl, 0 <= h -> 0 <= m < 100 -> 0 <= s < 100 ->
  dfxp_clock (padded k h ++ 58 :: two m ++ 58 :: two s ++ tl) =
  let base := h * 3600000000 + m * 60000000 + s * 1000000 in
  match tl with
  | [] => Some (Ok base)
  | 58 :: e :: f :: [] =>
      if is_digit e && is_digit f then Some (do ff <- py_int [e; f]; Ok (base + ff * 1000000 / 30)) else None
  | 46 :: fr =>
      match fr with
      | [] => None
      | _ => if all_digits fr then Some (do n <- py_int fr; Ok (base + n * 1000000 / pow10 (length fr))) else None
      end
  | _ => None
  end.
Proof.
  intros k h m s tl Hh Hm Hs. unfold dfxp_clock.
  rewrite take_while_stops, drop_while_stops by (first [apply padded_digits; exact Hh|reflexivity]).
  destruct (padded_view k h Hh) as (p0 & pr & -> & _ & Ph).
  destruct (two_view m Hm) as (a & b & -> & Da & Db & Pm).
  destruct (two_view s Hs) as (c & d & -> & Dc & Dd & Ps).
  cbn [app]. rewrite Da, Db, Dc, Dd, Ph, Pm, Ps. reflexivity.
Qed.

Lemma dfxp_time_strict_exact : forall e, texpr_dom e = true ->
  dfxp_time_strict (texpr_render e) = Ok (us (texpr_instant e)).
Proof.
  intros [k h m s t | k ip fr mt] Hd; unfold texpr_dom in Hd; unfold dfxp_time_strict, texpr_render, texpr_instant.
  - (* clock *)
    rewrite dfxp_clock_hms by lia. cbv zeta.
    destruct t as [|ds|ff]; cbn [tail_q]; unfold frac_q; rewrite us_split, secs_us.
    + apply f_equal. lia.
    + destruct ds as [|d0 ds']; [rewrite andb_false_r in Hd; discriminate|].
      apply andb_true_iff in Hd. destruct Hd as [_ Hd]. apply andb_true_iff in Hd. destruct Hd as [Hok _].
      unfold all_digits. rewrite digits_str_digits, py_int_digits_str by (first [discriminate|exact Hok]).
      rewrite digits_str_length. cbn [bind]. rewrite pos10_pow10. reflexivity.
    + destruct (two_view ff ltac:(lia)) as (a & b & -> & Da & Db & Pf).
      rewrite Da, Db, Pf. reflexivity.
  - (* offset *)
    apply andb_true_iff in Hd. destruct Hd as [Hip Hfr]. assert (Hip' : 0 <= ip) by lia.
    unfold frac_q. rewrite us_offset. fold (frac_str fr).
    destruct (frac_metric_head fr mt) as (c & r & E & Hc & Hin).
    rewrite E, dfxp_clock_none by (first [apply padded_digits; exact Hip'|exact Hin]).
    unfold dfxp_offset.
    rewrite take_while_stops, drop_while_stops by (first [apply padded_digits; exact Hip'|exact Hc]).
    rewrite <- E, (split_frac_render fr mt Hfr), metric_conv_str.
    destruct (padded_view k ip Hip') as (p0 & pr & -> & _ & ->).
    destruct fr as [|d0 ds']; cbn [bind fst snd].
    + apply f_equal. cbn [length pos10 digits_num fold_left]. f_equal; lia.
    + rewrite py_int_digits_str by (first [discriminate|exact Hfr]). cbn [bind fst snd].
      rewrite digits_str_length, pos10_pow10. reflexivity.
Qed.

Lemma dfxp_time_exact : forall e, texpr_dom e = true ->
  dfxp_time (texpr_render e) = Ok (us (texpr_instant e)).
Proof. intros e H. unfold dfxp_time. rewrite dfxp_time_strict_exact by exact H. reflexivity. Qed.

Lemma truthy_render : forall e, truthy (Some (texpr_render e)) = Some (texpr_render e).
Proof.
  intros e. unfold truthy. destruct (texpr_render e) eqn:E; [|reflexivity].
  destruct e; unfold texpr_render in E; apply app_eq_nil in E; destruct E as [E _]; destruct (padded_nonempty _ _ E).
Qed.

Lemma dfxp_p_exact : forall p, dfxp_p_dom p = true ->
  (let '(b, e, d) := dfxp_p_attrs p in dfxp_p_times b e d) = Ok (dfxp_p_expected p).
Proof.
  intros [b isdur c] Hd. unfold dfxp_p_dom in Hd. cbn [p_begin p_close] in Hd.
  apply andb_true_iff in Hd. destruct Hd as [Hb Hc].
  unfold dfxp_p_attrs, dfxp_p_expected, dfxp_p_times. cbn [p_begin p_close p_is_dur].
  destruct isdur; rewrite !truthy_render; cbn [truthy];
    rewrite (dfxp_time_exact b Hb), (dfxp_time_exact c Hc); reflexivity.
Qed.

Lemma dfxp_div_exact : forall ps, forallb dfxp_p_dom ps = true ->
  dfxp_div_times (map dfxp_p_attrs ps) = Ok (map dfxp_p_expected ps).
Proof.
  intros ps Hd. apply res_map_map_ok. intros p Hp. rewrite forallb_forall in Hd. exact (dfxp_p_exact p (Hd p Hp)).
Qed.

(* ============================== MicroDVD ===================================== *)
Lemma fps_render_chars : forall f, fps_dom (Some f) = true -> forallb stamp_char (fps_render f) = true.
Proof.
  intros [k ip fr] Hd. unfold fps_dom in Hd. cbn [fp_ip fp_fr] in Hd.
  repeat (apply andb_true_iff in Hd; destruct Hd as [Hd ?]).
  unfold fps_render. cbn [fp_pad fp_ip fp_fr].
  rewrite forallb_app, (forallb_weaken _ _ _ digit_stamp_char (padded_digits k ip ltac:(lia))).
  destruct fr as [|d0 ds']; [reflexivity|].
  exact (forallb_weaken _ _ _ digit_stamp_char (digits_str_digits (d0 :: ds') H0)).
Qed.

Lemma fps_parse_plain_exact : forall f, fps_dom (Some f) = true ->
  mdvd_fps_plain (fps_render f) =
  Ok (fp_ip f * Zpos (pos10 (length (fp_fr f))) + digits_num (fp_fr f), Zpos (pos10 (length (fp_fr f)))).
Proof.
  intros f Hd. pose proof (fps_render_chars f Hd) as C. destruct f as [k ip fr].
  unfold fps_dom in Hd. cbn [fp_ip fp_fr] in Hd.
  apply andb_true_iff in Hd. destruct Hd as [Hd Hpos].
  apply andb_true_iff in Hd. destruct Hd as [Hip Hfr].
  assert (Hip' : 0 <= ip) by lia. pose proof (padded_digits k ip Hip') as Dp.
  unfold mdvd_fps_plain, strip. rewrite strip_by_clean.
  2:{ intros E. apply app_eq_nil in E. exact (padded_nonempty k ip (proj1 E)). }
  2:{ revert C. apply forallb_weaken. exact stamp_char_not_space. }
  unfold fps_render. cbn [fp_pad fp_ip fp_fr].
  destruct fr as [|d0 ds'].
  - rewrite app_nil_r, take_while_id, drop_while_nil by exact Dp.
    destruct (padded_view k ip Hip') as (p0 & pr & -> & _ & ->). cbn [bind length pos10 digits_num fold_left].
    f_equal. f_equal. lia.
  - rewrite take_while_stops, drop_while_stops by (first [exact Dp|reflexivity]).
    destruct (padded_view k ip Hip') as (p0 & pr & -> & _ & ->).
    unfold all_digits. rewrite digits_str_digits, py_int_digits_str by (first [discriminate|exact Hfr]).
    cbn [bind]. rewrite digits_str_length, pos10_pow10. reflexivity.
Qed.

Lemma fps_parse_exact : forall f, fps_dom (Some f) = true ->
  mdvd_fps (fps_render f) =
  Ok (fp_ip f * Zpos (pos10 (length (fp_fr f))) + digits_num (fp_fr f), Zpos (pos10 (length (fp_fr f)))).
Proof. intros f H. unfold mdvd_fps. rewrite fps_parse_plain_exact by exact H. reflexivity. Qed.

Lemma us_frames : forall n num den, 0 < num ->
  us (inject_Z n / (num # den)) = n * 1000000 * Zpos den / num.
Proof.
  intros n num den Hnum. destruct num as [|p|p]; try lia.
  rewrite (us_of_eq _ (n * 1000000 * Zpos den) p); [reflexivity|].
  unfold Qeq, Qdiv, Qmult, Qinv, inject_Z. cbn [Qnum Qden]. rewrite !Pos2Z.inj_mul. ring.
Qed.

Lemma fps_q_frac : forall f,
  (fps_q (Some f) == (fp_ip f * Zpos (pos10 (length (fp_fr f))) + digits_num (fp_fr f)) # pos10 (length (fp_fr f)))%Q.
Proof.
  intros [k ip fr]. unfold fps_q, frac_q. cbn [fp_ip fp_fr].
  unfold Qeq, Qplus, inject_Z. cbn [Qnum Qden]. rewrite !Pos2Z.inj_mul. ring.
Qed.

Lemma mdvd_fps_exact : forall f, fps_dom f = true ->
  exists fps, (match f with Some l => mdvd_fps (fps_render l) | None => Ok (25, 1) end) = Ok fps /\
              forall n, frames_to_micro n fps = Ok (us (frame_instant f n)).
Proof.
  intros [f|] Hd; eexists; (split; [first [apply fps_parse_exact; exact Hd|reflexivity]|]); intros n;
    unfold frames_to_micro, frame_instant; cbn [fst snd].
  - unfold fps_dom in Hd. apply andb_true_iff in Hd. destruct Hd as [_ Hpos].
    assert (Hnz : (fp_ip f * Zpos (pos10 (length (fp_fr f))) + digits_num (fp_fr f) =? 0) = false) by lia.
    rewrite Hnz. f_equal. symmetry. unfold us. rewrite (Qfloor_comp _ _ (Qmult_comp _ _ (Qdiv_comp _ _ (Qeq_refl _) _ _ (fps_q_frac f)) _ _ (Qeq_refl _))).
    apply us_frames. lia.
  - unfold fps_q. rewrite us_frames by lia. reflexivity.
Qed.

Lemma mdvd_frames_exact : forall f n, fps_dom f = true ->
  exists fps, (match f with Some l => mdvd_fps (fps_render l) | None => Ok (25, 1) end) = Ok fps /\
              frames_to_micro n fps = Ok (us (frame_instant f n)).
Proof. intros f n Hd. destruct (mdvd_fps_exact f Hd) as (fps & P & F). exists fps. split; [exact P|apply F]. Qed.

(* ============================== SAMI ========================================= *)
Definition sami_final (st : list (Z * Z) * Z) : list (Z * Z) :=
  let '(rc, ms) := st in
  rev (match rc with
       | (s, e) :: t => if e =? 0 then (s, (ms + 4000) * 1000) :: t else rc
       | [] => []
       end).

Definition nz_end (c : Z * Z) : Prop := snd c <> 0.

Lemma backfill_filled : forall start filled, Forall nz_end filled -> backfill start filled = filled.
Proof.
  intros start [|[s e] t] H; [reflexivity|].
  inversion H as [|x l Hx Hl]; subst. unfold nz_end in Hx. cbn [snd] in Hx.
  cbn [backfill]. assert (E : (e =? 0) = false) by lia. rewrite E. reflexivity.
Qed.

Lemma sami_final_filled : forall filled ms, Forall nz_end filled -> sami_final (filled, ms) = rev filled.
Proof.
  intros [|[s e] t] ms H; [reflexivity|].
  inversion H as [|x l Hx Hl]; subst. unfold nz_end in Hx. cbn [snd] in Hx.
  unfold sami_final. assert (E : (e =? 0) = false) by lia. rewrite E. reflexivity.
Qed.

Lemma sami_loop_spec : forall ps filled (pend : bool) ms0 lo,
  Forall nz_end filled ->
  sami_incr_from lo ps = true -> -1 <= lo ->
  (pend = true -> lo = ms0 /\ 0 <= ms0) ->
  sami_final (sami_loop ps (if pend then (ms0 * 1000, 0) :: filled else filled) ms0)
  = rev filled
    ++ (if pend then [(ms0 * 1000,
                       match ps with (ms', _) :: _ => ms' * 1000 | [] => (ms0 + 4000) * 1000 end)]
        else [])
    ++ sami_expected ps.
Proof.
  induction ps as [|[ms txt] rest IH]; intros filled pend ms0 lo Hf Hinc Hlo Hp.
  - cbn [sami_loop sami_expected]. rewrite app_nil_r. destruct pend.
    + unfold sami_final. change (0 =? 0) with true. cbv iota. reflexivity.
    + rewrite app_nil_r. apply sami_final_filled. exact Hf.
  - cbn [sami_incr_from] in Hinc. apply andb_true_iff in Hinc. destruct Hinc as [Hlt Hinc].
    assert (Hms : lo < ms) by lia.
    cbn [sami_loop sami_expected].
    destruct pend.
    + destruct (Hp eq_refl) as [-> Hms0].
      cbn [backfill]. change (negb (0 =? 0)) with false. cbv iota.
      assert (E : (ms0 * 1000 =? ms * 1000) = false) by lia. rewrite E. cbn [negb].
      rewrite backfill_filled by exact Hf.
      assert (Hf' : Forall nz_end ((ms0 * 1000, ms * 1000) :: filled)).
      { constructor; [unfold nz_end; cbn [snd]; lia|exact Hf]. }
      rewrite (IH ((ms0 * 1000, ms * 1000) :: filled) txt ms ms Hf' Hinc ltac:(lia) ltac:(intros; lia)).
      cbn [rev]. rewrite <- !app_assoc. reflexivity.
    + rewrite backfill_filled by exact Hf.
      rewrite (IH filled txt ms ms Hf Hinc ltac:(lia) ltac:(intros; lia)). reflexivity.
Qed.

(* every cue ends at the next sync of its language; the last one lasts four seconds *)
Lemma sami_backfill : forall ps, sami_dom ps = true -> sami_translate ps = sami_expected ps.
Proof.
  intros ps Hd.
  change (sami_translate ps) with (sami_final (sami_loop ps [] 0)).
  exact (sami_loop_spec ps [] false 0 (-1) (Forall_nil _) Hd ltac:(lia) ltac:(intros; discriminate)).
Qed.

Lemma sami_start_exact : forall k n, 0 <= n -> sami_start (Some (padded k n)) = Ok n.
Proof.
  intros k n Hn. unfold sami_start, truthy.
  destruct (padded k n) as [|p0 pr] eqn:E; [exfalso; exact (padded_nonempty k n E)|]. rewrite <- E.
  rewrite py_int_padded by exact Hn. reflexivity.
Qed.

Lemma sami_incr_nonneg : forall l lo, -1 <= lo -> sami_incr_from lo l = true ->
  forall p, In p l -> 0 <= fst p.
Proof.
  induction l as [|[ms t] l IH]; intros lo Hlo Hi p Hp; [destruct Hp|].
  cbn [sami_incr_from] in Hi. apply andb_true_iff in Hi. destruct Hi as [Hlt Hi].
  destruct Hp as [<-|Hp]; [cbn [fst]; lia|]. apply (IH ms); [lia|exact Hi|exact Hp].
Qed.

Lemma sami_translate_str_exact : forall ps : list sami_p,
  sami_dom (map (fun p => (sp_ms p, sp_text p)) ps) = true ->
  sami_translate_str (map (fun p => (Some (sami_render_start p), sp_text p)) ps)
  = Ok (sami_expected (map (fun p => (sp_ms p, sp_text p)) ps)).
Proof.
  intros ps Hd. unfold sami_translate_str.
  rewrite (res_map_map_ok _ _ (fun p => (sp_ms p, sp_text p))).
  - cbn [bind]. f_equal. apply sami_backfill. exact Hd.
  - intros p Hp. cbn [fst snd]. unfold sami_render_start. rewrite sami_start_exact; [reflexivity|].
    apply (sami_incr_nonneg _ (-1) ltac:(lia) Hd (sp_ms p, sp_text p)), in_map_iff.
    exists p. split; [reflexivity|exact Hp].
Qed.

Lemma vtt_shift_exact : forall sh t, us (vtt_shifted sh t) = us (vtt_instant t) + sh * 1000.
Proof. intros. unfold vtt_shifted. apply us_shift. Qed.

Lemma us_is_floor : forall q : Q,
  (inject_Z (us q) <= q * 1000000)%Q /\ (q * 1000000 < inject_Z (us q + 1))%Q.
Proof. intros q. unfold us. split; [apply Qfloor_le|apply Qlt_floor]. Qed.

(* the repaired defect #7: a fraction of more than three digits *)
Lemma dfxp_long_fraction_refuted :
  exists ds, digits_ok ds = true /\
             dfxp_fraction_unfixed (digits_str ds) <> Ok (us (frac_q ds)).
Proof. exists [1; 2; 3; 4]. split; [reflexivity|]. vm_compute. discriminate. Qed.

(* the model's reading of begin+dur (each expression floored on its own) is one of the two the oracle admits *)
Lemma pairs_alt_refl : forall a b, length a = length b -> (forall i x y, nth_error a i = Some x -> nth_error b i = Some y -> fst x = fst y) ->
  pairs_alt_eqb a b a = true.
Proof.
  induction a as [|x a IH]; intros [|y b] Hl Hs; try discriminate Hl; [reflexivity|].
  cbn [pairs_alt_eqb]. rewrite !Z.eqb_refl. cbn [andb orb]. apply IH; [cbn [length] in Hl; lia|].
  intros i u v Hu Hv. apply (Hs (S i)); assumption.
Qed.

Lemma dfxp_div_meets_oracle : forall ps, forallb dfxp_p_dom ps = true ->
  ok_times_alt (map dfxp_p_expected ps) (map dfxp_p_expected_alt ps) (dfxp_div_times (map dfxp_p_attrs ps)) = true.
Proof.
  intros ps H. rewrite dfxp_div_exact by exact H. unfold ok_times_alt.
  apply pairs_alt_refl; [rewrite !map_length; reflexivity|].
  intros i x y Hx Hy. rewrite nth_error_map in Hx, Hy.
  destruct (nth_error ps i) as [p|]; [|discriminate]. cbn [option_map] in Hx, Hy.
  inversion Hx; inversion Hy. reflexivity.
Qed.
