(* C05: EVERY row of basic and special characters addressed by a preamble code without tab offset satisfies the
   hypothesis dd of proofs/SccMixedDoublingFacts.v: its words with the special characters single are related to its words with
   every code doubled. Hence popon_refines_608_mixed applies to every SCCWriter line over the basic + special character sets. *)
From Coq Require Import List ZArith QArith Lia Bool ZifyBool.
From PV Require Import lib.Sx lib.Str lib.Result model.GenScc model.SccTime model.SccStash model.SccDecoder.
From PV Require Import spec.Spec608 spec.SpecScc05 spec.SpecScc05Inline spec.SpecSccMixed.
From PV Require Import proofs.SccTableFacts proofs.SccPoponStage1 proofs.SccPoponStage2 proofs.SccLineLayoutFacts proofs.SccInlineEdmFacts
                       proofs.SccMixedDoublingFacts.
Import ListNotations.
Open Scope Z_scope.

Definition cbyte (b : Z) : Prop := 0 <= b < 256 /\ b <> 148 /\ b <> 151 /\ b <> 145.

Lemma opc : forall c, cbyte (odd_parity (basic_code c)).
Proof. exact op_byte. Qed.

Lemma cw_quiet : forall b x, cbyte b -> 0 <= x < 256 -> quiet (b * 256 + x) = true.
Proof. intros b x (_ & H & _) Hx. apply word_quiet; assumption. Qed.

(* the three tab offsets are 97a1, 97a2, 9723 *)
Lemma cw_tab : forall b x, cbyte b -> 0 <= x < 256 -> tab_of (b * 256 + x) = None.
Proof.
  intros b x (Hb & _ & H & _) Hx. unfold tab_of, scc_tab_offsets. cbn [assocz].
  rewrite !(proj2 (Z.eqb_neq _ _)) by lia. reflexivity.
Qed.

Definition spw (w : Z) : Prop := exists i, 0 <= i < 16 /\ w = special_word i.

(* the second byte of a special character is 30..3f up to parity, that of a preamble code 40..7f: bit 6 tells them apart *)
Lemma sp_facts : forallb (fun i => quiet (special_word i) && tab_none (special_word i) && dupable (special_word i)
                                   && (37120 <=? special_word i) && (special_word i <? 37376)
                                   && negb (Z.testbit (special_word i) 6)) (zrange 0 16) = true.
Proof. vm_compute. reflexivity. Qed.

Lemma spw_facts : forall w, spw w -> quiet w = true /\ tab_of w = None /\ dupable w = true /\ w / 256 = 145 /\ w <> w_rcl.
Proof.
  intros w (i & Hi & ->). pose proof (forallb_zrange _ _ _ sp_facts i Hi) as T. cbv beta in T.
  rewrite !andb_true_iff in T. destruct T as (((((Hq & Ht) & Hd) & Hlo) & Hhi) & _).
  split; [exact Hq|split; [exact (tab_none_None _ Ht)|split; [exact Hd|]]]. unfold w_rcl. lia.
Qed.

Lemma spw_ne_cw : forall w b x, spw w -> cbyte b -> 0 <= x < 256 -> Some (b * 256 + x) <> Some w.
Proof.
  intros w b x Hs (Hb & _ & _ & H) Hx [= E]. destruct (spw_facts w Hs) as (_ & _ & _ & Hd & _).
  subst w. rewrite Z.div_add_l, Z.div_small in Hd; lia.
Qed.

Definition wtok (t : tok) : Prop := match t with TCh _ => True | TCode w => spw w end.
Fixpoint noadj (ts : list tok) : Prop :=
  match ts with
  | TCode w :: ((TCode w' :: _) as t) => w <> w' /\ noadj t
  | _ :: t => noadj t
  | [] => True
  end.
Definition hd_code_ne (ts : list tok) (prev : option Z) : Prop :=
  match ts with TCode w :: _ => prev <> Some w | _ => True end.
Definition pendc (p : option Z) : Prop := match p with Some b => cbyte b | None => True end.

Lemma flush_dd : forall pend prev m d, pendc pend -> (forall p, dd p m d) -> dd prev (flush pend ++ m) (flush pend ++ d).
Proof.
  intros [b|] prev m d Hp H; cbn [flush app]; [|apply H].
  apply dd_same; [apply cw_quiet; [exact Hp|lia]|apply cw_tab; [exact Hp|lia]|apply H].
Qed.

Lemma pack_pend_head : forall d ts b rm, exists x, 0 <= x < 256 /\ nexto (pack d ts (Some b) ++ rm) = Some (b * 256 + x).
Proof.
  intros d ts b rm. destruct ts as [|[c|w] t]; cbn [pack flush app nexto].
  - exists 128. split; [lia|reflexivity].
  - exists (odd_parity (basic_code c)). split; [apply opc|reflexivity].
  - exists 128. split; [lia|reflexivity].
Qed.

Lemma noadj_tl : forall t ts, noadj (t :: ts) -> noadj ts.
Proof. intros [c|w] [|[c'|w'] ts] H; cbn [noadj] in *; tauto. Qed.

Lemma hd_code_ne_other : forall ts v, Forall wtok ts -> (forall w, spw w -> Some v <> Some w) -> hd_code_ne ts (Some v).
Proof. intros [|[c|w] t] v F H; [exact I|exact I|]. inversion F; subst. apply H. assumption. Qed.

Lemma pack_next_ne : forall ts w rm, spw w -> noadj (TCode w :: ts) -> (forall w, spw w -> nexto rm <> Some w) ->
  nexto (pack false ts None ++ rm) <> Some w.
Proof.
  intros [|[c|w'] t] w rm Hw Hna Hnx; cbn [pack flush ctl app nexto].
  - apply Hnx, Hw.
  - destruct (pack_pend_head false t (odd_parity (basic_code c)) rm) as (x & Hx & ->). apply spw_ne_cw; [exact Hw|apply opc|exact Hx].
  - intros [= E]. apply (proj1 Hna). symmetry. exact E.
Qed.

Lemma dd_pack : forall ts pend prev rm rd, Forall wtok ts -> noadj ts -> pendc pend ->
  (forall p, dd p rm rd) -> (forall w, spw w -> nexto rm <> Some w) ->
  (pend = None -> hd_code_ne ts prev) ->
  dd prev (pack false ts pend ++ rm) (pack true ts pend ++ rd).
Proof.
  induction ts as [|t ts IH]; intros pend prev rm rd F Hna Hp Hr Hnx Hhd.
  - cbn [pack]. apply flush_dd; assumption.
  - inversion F as [|x y Ht F']; subst. pose proof (noadj_tl _ _ Hna) as Hna'. destruct t as [c|w].
    + cbn [pack]. destruct pend as [b|].
      * cbn [app]. apply dd_same; [apply cw_quiet; [exact Hp|apply opc]|apply cw_tab; [exact Hp|apply opc]|].
        apply (IH None _ rm rd F' Hna' I Hr Hnx). intros _. apply hd_code_ne_other; [exact F'|].
        intros w' Hw'. apply spw_ne_cw; [exact Hw'|exact Hp|apply opc].
      * apply (IH (Some (odd_parity (basic_code c))) prev rm rd F' Hna' (opc c) Hr Hnx). discriminate.
    + cbn [pack ctl]. rewrite <- !app_assoc. cbn [app].
      destruct (spw_facts w Ht) as (Hq & Htab & Hdup & _ & _).
      assert (Hrest : dd (Some w) (pack false ts None ++ rm) (pack true ts None ++ rd)).
      { apply (IH None (Some w) rm rd F' Hna' I Hr Hnx).
        intros _. destruct ts as [|[c'|w'] t']; cbn [hd_code_ne]; try exact I. intros [= E]. exact (proj1 Hna E). }
      pose proof (pack_next_ne ts w rm Ht Hna Hnx) as Hnext.
      destruct pend as [b|]; cbn [flush app].
      * apply dd_same; [apply cw_quiet; [exact Hp|lia]|apply cw_tab; [exact Hp|lia]|].
        apply dd_dup; try assumption. apply spw_ne_cw; [exact Ht|exact Hp|lia].
      * apply dd_dup; try assumption. exact (Hhd eq_refl).
Qed.

Definition witem (it : item) : Prop := match it with Ch _ => True | Sp i => 0 <= i < 16 | _ => False end.
Fixpoint noadj_items (its : list item) : Prop :=
  match its with
  | Sp i :: ((Sp j :: _) as t) => i <> j /\ noadj_items t
  | _ :: t => noadj_items t
  | [] => True
  end.
(* a row as SCCWriter sends it: no tab offset, basic and special characters, no special character twice in a row *)
Definition wrow (r : row) : Prop :=
  1 <= rw_row r <= 15 /\ 0 <= pac_attr r < 32 /\ rw_tab r = 0 /\ Forall witem (rw_items r) /\ noadj_items (rw_items r).

Lemma witems_toks : forall its, Forall witem its -> noadj_items its ->
  Forall wtok (flat_map toks_of_item its) /\ noadj (flat_map toks_of_item its).
Proof.
  induction its as [|it t IH]; intros F Hn; [split; [constructor|exact I]|].
  inversion F as [|x y Hit F']; subst.
  assert (Hn' : noadj_items t) by (destruct it as [c|i|s g i|a|]; destruct t as [|[c'|j|s' g' j|a'|] t']; cbn [noadj_items] in Hn; tauto).
  destruct (IH F' Hn') as [IH1 IH2]. destruct it as [c|i|s g i|a|]; cbn [witem] in Hit; try contradiction; cbn [flat_map toks_of_item app].
  - split; [constructor; [exact I|exact IH1]|]. destruct (flat_map toks_of_item t) as [|[?|?] ?]; exact IH2.
  - split; [constructor; [exists i; split; [exact Hit|reflexivity]|exact IH1]|].
    destruct t as [|[c'|j|s' g' j|a'|] t']; cbn [flat_map toks_of_item app noadj] in *; try exact IH2; try (inversion F'; subst; contradiction).
    all: try (destruct (flat_map toks_of_item t') as [|[?|?] ?]; exact IH2).
    all: split; [|exact IH2]; destruct Hn as [Hij _]; intros E; apply Hij;
         assert (Hj : 0 <= j < 16) by (inversion F'; assumption); exact (special_word_inj i j Hit Hj E).
Qed.

Lemma pac_sp_facts : forallb (fun r => forallb (fun a => quiet (pac_word r a) && tab_none (pac_word r a)
                                           && Z.testbit (pac_word r a) 6) (zrange 0 32)) (zrange 1 15) = true.
Proof. vm_compute. reflexivity. Qed.

Lemma pac_facts_w : forall r a, 1 <= r <= 15 -> 0 <= a < 32 ->
  quiet (pac_word r a) = true /\ tab_of (pac_word r a) = None /\ (forall w, spw w -> pac_word r a <> w).
Proof.
  intros r a Hr Ha. pose proof (forallb_zrange _ _ _ (forallb_zrange _ _ _ pac_sp_facts r ltac:(lia)) a Ha) as T. cbv beta in T.
  rewrite !andb_true_iff in T. destruct T as ((Hq & Ht) & Hb).
  split; [exact Hq|split; [exact (tab_none_None _ Ht)|]]. intros w (i & Hi & ->) E.
  pose proof (forallb_zrange _ _ _ sp_facts i Hi) as S. cbv beta in S. rewrite <- E, Hb, andb_false_r in S. discriminate S.
Qed.

Lemma dd_row : forall r prev rm rd, wrow r -> (forall p, dd p rm rd) -> (forall w, spw w -> nexto rm <> Some w) ->
  dd prev (emit_row_m r ++ rm) (emit_row true r ++ rd).
Proof.
  intros r prev rm rd (Hr & Ha & Ht & Hi & Hn) Hrm Hnx. unfold emit_row_m, emit_row, pac_unit. rewrite Ht. cbn [Z.ltb Z.compare app].
  destruct (pac_facts_w _ _ Hr Ha) as (Hq & Htab & Hne). destruct (witems_toks _ Hi Hn) as [Hw Hna].
  rewrite <- ?app_assoc. cbn [app].
  apply dd_same; [exact Hq|exact Htab|]. apply dd_same; [exact Hq|exact Htab|].
  apply dd_pack; try assumption; [exact I|].
  intros _. apply hd_code_ne_other; [exact Hw|]. intros w Hsw [= E]. exact (Hne w Hsw E).
Qed.

Theorem writer_rows_dd : forall l, Forall wrow l -> forall p, dd p (body_m l) (flat_map (emit_row true) l).
Proof.
  induction l as [|r t IH]; intros F p; [constructor|]. inversion F as [|x y Hr F']; subst.
  unfold body_m. cbn [flat_map]. apply dd_row; [exact Hr|exact (IH F')|].
  intros w Hw. destruct t as [|r' t']; [discriminate|]. inversion F' as [|x1 y1 (Hr' & Ha' & Ht' & _) _]; subst.
  cbn [flat_map]. unfold emit_row_m, pac_unit. rewrite Ht'. cbn [Z.ltb Z.compare app nexto].
  intros E. injection E as E. exact (proj2 (proj2 (pac_facts_w _ _ Hr' Ha')) w Hw E).
Qed.

Example exm_wrows : Forall wrow exm_l.
Proof.
  repeat constructor; cbn; try lia; try discriminate.
Qed.
