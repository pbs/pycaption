(* C18: the padding shorthand (as a list of sizes and as the attribute string), as_percentage_of / fit_to_screen as
   functions of values, and the generated unit / alignment tables. *)
From Coq Require Import List ZArith QArith Qabs Bool Lia Lqa.
From PV Require Import lib.Sx lib.Str lib.Result model.Geometry model.GenGeom spec.SpecGeom.
From PV Require Import proofs.GeomStr proofs.GeomEq proofs.GeomParse.
Import ListNotations.
Open Scope Z_scope.

(* the unit / alignment tables of the working tree are the ones the model and the spec use *)
Definition unit_of_name (n : str) : option unit_ :=
  if str_eqb n (lit "PIXEL") then Some PX else if str_eqb n (lit "EM") then Some EM
  else if str_eqb n (lit "PERCENT") then Some PCT else if str_eqb n (lit "CELL") then Some CELL
  else if str_eqb n (lit "PT") then Some PT else None.

Lemma unit_table_agrees :
  map (fun nv => (unit_of_name (fst nv), snd nv)) unit_enum = map (fun u => (Some u, unit_str u)) spec_units.
Proof. reflexivity. Qed.

Lemma alignment_tables_agree :
  map snd halign_enum = [lit "left"; lit "center"; lit "right"; lit "start"; lit "end"]
  /\ map snd valign_enum = [lit "top"; lit "center"; lit "bottom"].
Proof. split; reflexivity. Qed.

Lemma padding_of_sizes_ttml : forall l,
  padding_of_sizes l = match ttml_padding l with Some p => Ok p | None => Err ValueError end.
Proof. intros [|a [|b [|c [|d [|e l]]]]]; reflexivity. Qed.

(* TTML order: before, end, after, start *)
Lemma padding_shorthand_order :
  (forall a, padding_of_sizes [a] = Ok (mkPadding a a a a))
  /\ (forall bv eh, padding_of_sizes [bv; eh] = Ok {| pd_before := bv; pd_after := bv; pd_start := eh; pd_end := eh |})
  /\ (forall b eh a, padding_of_sizes [b; eh; a] = Ok {| pd_before := b; pd_after := a; pd_start := eh; pd_end := eh |})
  /\ (forall b e a s, padding_of_sizes [b; e; a; s] = Ok {| pd_before := b; pd_end := e; pd_after := a; pd_start := s |})
  /\ (forall l, (length l = 0 \/ 5 <= length l)%nat -> padding_of_sizes l = Err ValueError).
Proof.
  repeat split; try reflexivity.
  intros [|a [|b [|c [|d [|e l]]]]] H; cbn [length] in H; try reflexivity; lia.
Qed.

Lemma split_ch_of_join : forall sep toks, toks <> [] -> Forall (free_of sep) toks -> split_ch sep (join [sep] toks) = toks.
Proof.
  intros sep toks. induction toks as [|a toks IH]; intros Hn Hf; [contradiction|].
  inversion Hf as [|? ? Ha Ht]; subst. destruct toks as [|b toks].
  - cbn [join]. apply split_ch_free. exact Ha.
  - rewrite join_cons by discriminate. cbn [app]. rewrite (split_ch_app _ _ _ Ha), IH; [reflexivity|discriminate|exact Ht].
Qed.

Theorem padding_from_attr_tokens : forall toks, toks <> [] -> Forall (free_of 32) toks ->
  padding_from_attr (join [32] toks) = (do sizes <- res_map size_from_string toks; padding_of_sizes sizes).
Proof. intros toks Hn Hf. unfold padding_from_attr. rewrite (split_ch_of_join _ _ Hn Hf). reflexivity. Qed.

Lemma size_as_pct_relative : forall a w h, s_unit a = PCT -> size_as_pct a w h = Ok a.
Proof. intros a w h H. unfold size_as_pct. rewrite H. reflexivity. Qed.

Lemma size_as_pct_unit : forall a w h z, size_as_pct a w h = Ok z -> s_unit z = PCT.
Proof.
  intros a w h z H. unfold size_as_pct in H. destruct (s_unit a) eqn:U;
  try (destruct (given w), (given h); try discriminate; inversion H; reflexivity).
  inversion H; subst. exact U.
Qed.

Definition layout_relative (l : layout) : Prop :=
  Forall (fun sh => s_unit (fst sh) = PCT) (sizes_axes l).

Lemma Forall_sizes_axes : forall (P : size -> Prop) l,
  Forall (fun sh => P (fst sh)) (sizes_axes l) <->
  match l_origin l with Some o => P (p_x o) /\ P (p_y o) | None => True end
  /\ match l_extent l with Some e => P (st_h e) /\ P (st_v e) | None => True end
  /\ match l_padding l with
     | Some p => P (pd_before p) /\ P (pd_after p) /\ P (pd_start p) /\ P (pd_end p)
     | None => True
     end.
Proof.
  intros P l. unfold sizes_axes. rewrite !Forall_app.
  assert (I3 : forall A A' B B' C C' : Prop, (A <-> A') -> (B <-> B') -> (C <-> C') -> (A /\ B /\ C <-> A' /\ B' /\ C')) by tauto.
  apply I3; [destruct (l_origin l)|destruct (l_extent l)|destruct (l_padding l)];
    rewrite ?Forall_cons_iff, Forall_nil_iff; cbn [fst]; tauto.
Qed.

Lemma layout_as_pct_alignment : forall l w h r, layout_as_pct l w h = Ok r ->
  l_alignment r = l_alignment l /\ l_webvtt r = None /\ shape r = shape l.
Proof.
  intros l w h r H. unfold layout_as_pct in H.
  destruct (opt_res (fun p => point_as_pct p w h) (l_origin l)) as [o|] eqn:Eo; [|discriminate].
  destruct (opt_res (fun s => stretch_as_pct s w h) (l_extent l)) as [e|] eqn:Ee; [|discriminate].
  destruct (opt_res (fun p => padding_as_pct p w h) (l_padding l)) as [p|] eqn:Ep; [|discriminate].
  cbn [bind] in H. inversion H; subst. cbn [l_alignment l_webvtt]. repeat split.
  unfold shape. cbn [l_origin l_extent l_padding].
  unfold opt_res in *.
  destruct (l_origin l); [destruct (point_as_pct _ _ _); [|discriminate]|]; inversion Eo; subst;
  (destruct (l_extent l); [destruct (stretch_as_pct _ _ _); [|discriminate]|]); inversion Ee; subst;
  (destruct (l_padding l); [destruct (padding_as_pct _ _ _); [|discriminate]|]); inversion Ep; subst; reflexivity.
Qed.

Lemma opt_res_id : forall {A} (Q : A -> Prop) (f : A -> result A) o, (forall a, Q a -> f a = Ok a) ->
  match o with Some a => Q a | None => True end -> opt_res f o = Ok o.
Proof. intros A Q f [a|] Hf H; [|reflexivity]. cbn [opt_res]. rewrite (Hf a H). reflexivity. Qed.

Lemma point_as_pct_relative : forall p w h, s_unit (p_x p) = PCT /\ s_unit (p_y p) = PCT -> point_as_pct p w h = Ok p.
Proof.
  intros [x y] w h [H1 H2]. unfold point_as_pct. cbn [p_x p_y] in *. rewrite !size_as_pct_relative by assumption. reflexivity.
Qed.
Lemma stretch_as_pct_relative : forall s w h, s_unit (st_h s) = PCT /\ s_unit (st_v s) = PCT -> stretch_as_pct s w h = Ok s.
Proof.
  intros [x y] w h [H1 H2]. unfold stretch_as_pct. cbn [st_h st_v] in *. rewrite !size_as_pct_relative by assumption. reflexivity.
Qed.
Lemma padding_as_pct_relative : forall p w h,
  s_unit (pd_before p) = PCT /\ s_unit (pd_after p) = PCT /\ s_unit (pd_start p) = PCT /\ s_unit (pd_end p) = PCT ->
  padding_as_pct p w h = Ok p.
Proof.
  intros [b a s e] w h (H1 & H2 & H3 & H4). unfold padding_as_pct. cbn [pd_before pd_after pd_start pd_end] in *.
  rewrite !size_as_pct_relative by assumption. reflexivity.
Qed.

(* a layout that is already relative is returned as it is (webvtt_positioning dropped), whatever the video size *)
Theorem layout_as_pct_relative : forall l w h, layout_relative l ->
  layout_as_pct l w h = Ok (mkLayout (l_origin l) (l_extent l) (l_padding l) (l_alignment l) None).
Proof.
  intros l w h H. apply (Forall_sizes_axes (fun s => s_unit s = PCT)) in H. destruct H as (Ho & He & Hp). unfold layout_as_pct.
  rewrite (opt_res_id _ _ _ (fun p => point_as_pct_relative p w h) Ho), (opt_res_id _ _ _ (fun s => stretch_as_pct_relative s w h) He),
          (opt_res_id _ _ _ (fun p => padding_as_pct_relative p w h) Hp). reflexivity.
Qed.

(* what fit_to_screen returns: the receiver itself without an origin; else the receiver with a new extent, each dimension
   the given one or the default one that reaches the edge of the safe area *)
Lemma layout_fit_cases : forall l r, layout_fit l = Ok r ->
  match l_origin l with
  | None => r = l
  | Some o => exists nh nv, r = mkLayout (Some o) (Some (mkStretch nh nv)) (l_padding l) (l_alignment l) None
      /\ (nh = mkSize (Qred (clamp0 (90 - s_val (p_x o)))%Q) PCT \/ exists e, l_extent l = Some e /\ nh = st_h e)
      /\ (nv = mkSize (Qred (clamp0 (95 - s_val (p_y o)))%Q) PCT \/ exists e, l_extent l = Some e /\ nv = st_v e)
  end.
Proof.
  intros l r H. unfold layout_fit in H. destruct (l_origin l) as [o|]; [|inversion H; reflexivity].
  destruct (l_extent l) as [e|].
  - destruct (size_add (p_x o) (st_h e)) as [brx|]; [|discriminate]. destruct (size_add (p_y o) (st_v e)) as [bry|]; [|discriminate].
    cbn [bind] in H. destruct (negb (unit_eqb (s_unit brx) PCT)); [discriminate|]. inversion H. do 2 eexists. split; [reflexivity|].
    split; [destruct (Qle_bool (s_val brx) 90)|destruct (Qle_bool (s_val bry) 95)]; eauto.
  - inversion H. do 2 eexists. split; [reflexivity|]. split; left; reflexivity.
Qed.

(* fitting recomputes the extent only *)
Theorem layout_fit_keeps : forall l r, layout_fit l = Ok r ->
  l_origin r = l_origin l /\ l_padding r = l_padding l /\ l_alignment r = l_alignment l
  /\ (l_origin l = None -> r = l) /\ (l_origin l <> None -> l_extent r <> None /\ l_webvtt r = None).
Proof.
  intros l r H. apply layout_fit_cases in H. destruct (l_origin l) as [o|] eqn:Eo.
  - destruct H as (nh & nv & -> & _). cbn. repeat split; discriminate.
  - subst r. repeat split; auto; intros; congruence.
Qed.

(* an empty layout goes through BaseWriter._relativize_and_fit_to_screen untouched *)
Lemma relativize_and_fit_falsy : forall rel fit w h l, layout_truthy l = false -> relativize_and_fit rel fit w h l = Ok l.
Proof. intros. unfold relativize_and_fit. rewrite H. reflexivity. Qed.
