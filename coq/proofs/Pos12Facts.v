(* C12: WebVTT settings arithmetic, cue splitting, verbatim pass-through; DFXP effective-layout fallback, region
   table lookup, attribute print/read-back. *)
From Coq Require Import List ZArith QArith Qabs Bool Lia Lqa Field.
From PV Require Import lib.Sx lib.Str lib.Result model.Geometry model.Positioning spec.SpecGeom spec.SpecPos.
From PV Require Import proofs.GeomStr proofs.GeomEq proofs.GeomParse proofs.GeomPrint proofs.GeomLang proofs.GeomFacts proofs.PosFacts.
Import ListNotations.
Open Scope Z_scope.

Lemma q_close_tol_eq : forall a b, (a == b)%Q -> q_close_tol a b = true.
Proof.
  intros a b H. unfold q_close_tol, tol200. apply Qle_bool_iff. rewrite H. setoid_replace (b - b)%Q with 0%Q by ring. cbn. lra.
Qed.

Lemma vtt_align_spec : forall l,
  match vtt_align (l_alignment l) with
  | None => halign_eqb (spec_halign l) HCenter
  | Some h => halign_eqb h (spec_halign l) && negb (halign_eqb h HCenter)
  end = true.
Proof.
  intros l. unfold vtt_align, spec_halign. destruct (l_alignment l) as [[[[]|] v]|]; reflexivity.
Qed.

Definition is_pct_val (o : option size) (v : Q) : Prop :=
  exists s, o = Some s /\ s_unit s = PCT /\ (s_val s == v)%Q.

(* exact form: what the settings are, for a percentage layout with an origin *)
Theorem vtt_arith_exact : forall l org, all_pct l = true -> l_origin l = Some org ->
  exists pos line wd,
    vtt_arith l = Ok (VSet (mkVs (vtt_align (l_alignment l)) pos line wd))
    /\ is_pct_val pos (s_val (p_x org) + pad_of pd_start l)
    /\ is_pct_val line (s_val (p_y org) + pad_of pd_before l)
    /\ match l_extent l with
       | Some e => is_pct_val wd (s_val (st_h e) - pad_of pd_start l - pad_of pd_end l)
       | None => wd = None
       end.
Proof.
  intros l org P Ho. apply all_pct_units in P. rewrite Ho in P. destruct P as ([U1 U2] & Pe & Pp).
  assert (Self : forall s v, s_unit s = PCT -> (s_val s == v)%Q -> is_pct_val (Some s) v) by (intros s v; exists s; auto).
  assert (Red : forall q v, (q == v)%Q -> is_pct_val (Some (mkSize (Qred q) PCT)) v).
  { intros q v H. apply Self; [reflexivity|]. cbn [s_val]. rewrite Qred_correct. exact H. }
  unfold vtt_arith, pad_of. rewrite Ho. cbn [option_map].
  destruct (l_padding l) as [p|]; [destruct Pp as (V1 & _ & V3 & V4)|];
    (destruct (l_extent l) as [e|]; [destruct Pe as [U3 _]|]); cbn [option_map opt_bind].
  - rewrite (size_add_pct _ _ U1 V3), (size_sub_pct _ _ U3 V3). cbn [bind snd fst opt_bind].
    rewrite (size_sub_pct (mkSize _ PCT) _ eq_refl V4), (size_add_pct _ _ U2 V1). cbn [bind s_val].
    do 3 eexists. split; [reflexivity|]. split; [apply Red; reflexivity|]. split; [apply Red; reflexivity|].
    apply Red. rewrite Qred_correct. reflexivity.
  - rewrite (size_add_pct _ _ U1 V3), (size_add_pct _ _ U2 V1). cbn [bind snd fst opt_bind].
    do 3 eexists. split; [reflexivity|]. split; [apply Red; reflexivity|]. split; [apply Red; reflexivity|]. reflexivity.
  - do 3 eexists. split; [reflexivity|]. split; [apply Self; [exact U1|ring]|]. split; [apply Self; [exact U2|ring]|].
    apply Self; [exact U3|ring].
  - do 3 eexists. split; [reflexivity|]. split; [apply Self; [exact U1|ring]|]. split; [apply Self; [exact U2|ring]|]. reflexivity.
Qed.

(* the check's oracle holds of the model: align omitted iff center, position, line, size, all percentages *)
Theorem ok_vtt_arith_model : forall l, all_pct l = true -> l_origin l <> None ->
  exists s, vtt_arith l = Ok (VSet s) /\ ok_vtt_arith l s = true /\ vs_all_pct s = true.
Proof.
  intros l P Ho. destruct (l_origin l) as [org|] eqn:E; [|contradiction].
  destruct (vtt_arith_exact l org P E) as (pos & line & wd & H & (ps & -> & Up & Vp) & (ls & -> & Ul & Vl) & Hw).
  eexists. split; [exact H|]. split.
  - unfold ok_vtt_arith. rewrite E. cbn [vs_align vs_position vs_line vs_size].
    rewrite (vtt_align_spec l). cbn [andb]. unfold size_is. rewrite Up, Ul. cbn [unit_eqb andb].
    rewrite (q_close_tol_eq _ _ Vp), (q_close_tol_eq _ _ Vl). cbn [andb].
    destruct (l_extent l) as [e|].
    + destruct Hw as (ws & -> & Uw & Vw). rewrite Uw. cbn [unit_eqb andb]. apply q_close_tol_eq. exact Vw.
    + subst wd. reflexivity.
  - destruct (vtt_arith_pct l P) as (s & Es & Ps). rewrite H in Es. inversion Es; subst s. exact Ps.
Qed.

(* the settings depend on the geometric components only *)
Lemma vtt_arith_geometry : forall l wv, vtt_arith (mkLayout (l_origin l) (l_extent l) (l_padding l) (l_alignment l) wv) = vtt_arith l.
Proof. intros [o e p al w] wv. reflexivity. Qed.

(* writer level, fit off, relativization on or off: a percentage layout without raw settings goes through the arithmetic alone *)
Theorem vtt_convert_relative : forall c l, layout_truthy l = true -> (l_webvtt l = None \/ l_webvtt l = Some []) ->
  all_pct l = true -> w_fit c = false -> vtt_convert_positioning c (Some l) = vtt_arith l.
Proof.
  intros c l T W P F. rewrite (vtt_convert_settings c l T W), layout_is_relative_all_pct, P, F. cbn [negb]. rewrite andb_false_r.
  destruct (w_rel c); [|reflexivity]. rewrite layout_as_pct_relative by (apply all_pct_relative; exact P). apply vtt_arith_geometry.
Qed.

(* with fit on: the same arithmetic on the fitted layout *)
Theorem vtt_convert_relative_fit : forall c l, layout_truthy l = true -> (l_webvtt l = None \/ l_webvtt l = Some []) ->
  all_pct l = true -> w_fit c = true ->
  exists l2, layout_fit (mkLayout (l_origin l) (l_extent l) (l_padding l) (l_alignment l) (if w_rel c then None else l_webvtt l)) = Ok l2
             /\ all_pct l2 = true /\ vtt_convert_positioning c (Some l) = vtt_arith l2.
Proof.
  intros c l T W P F. rewrite (vtt_convert_settings c l T W), layout_is_relative_all_pct, P, F. cbn [negb]. rewrite andb_false_r.
  set (l1 := mkLayout (l_origin l) (l_extent l) (l_padding l) (l_alignment l) (if w_rel c then None else l_webvtt l)).
  assert (P1 : all_pct l1 = true) by (destruct l; exact P).
  destruct (layout_fit_pct_ok l1 P1) as [l2 H2]. exists l2. split; [exact H2|]. split; [exact (layout_fit_all_pct _ _ P1 H2)|].
  subst l1. destruct (w_rel c).
  - rewrite layout_as_pct_relative by (apply all_pct_relative; exact P). cbn [bind]. rewrite H2. reflexivity.
  - destruct l as [o e p al wv]. cbn [bind l_origin l_extent l_padding l_alignment l_webvtt] in *. rewrite H2. reflexivity.
Qed.

(* raw cue settings are passed through verbatim, whatever the configuration *)
Theorem vtt_settings_verbatim : forall c l ch raw, l_webvtt l = Some (ch :: raw) ->
  vtt_convert_positioning c (Some l) = Ok (VRaw (ch :: raw)).
Proof.
  intros c [o e p al wv] ch raw H. cbn [l_webvtt] in H. subst wv. cbn [vtt_convert_positioning].
  assert (T : layout_truthy (mkLayout o e p al (Some (ch :: raw))) = true) by (destruct o, e, p, al; reflexivity).
  rewrite T. reflexivity.
Qed.

Definition text_node (l : layout) : nnode := mkNode 1 (Some l).

Lemma layout_eqb_sym : forall a b, layout_eqb a b = layout_eqb b a.
Proof. exact (proj1 (proj2 layout_eqb_equivalence)). Qed.
Lemma layout_eqb_trans : forall a b c, layout_eqb a b = true -> layout_eqb b c = true -> layout_eqb a c = true.
Proof. exact (proj2 (proj2 layout_eqb_equivalence)). Qed.
Lemma layout_eqb_refl : forall a, layout_eqb a a = true.
Proof. exact (proj1 layout_eqb_equivalence). Qed.

Lemma layout_eqb_common : forall h a b, layout_eqb h a = true -> layout_eqb h b = true -> layout_eqb a b = true.
Proof. intros h a b Ha Hb. rewrite layout_eqb_sym in Ha. exact (layout_eqb_trans _ _ _ Ha Hb). Qed.

Lemma runs_last_cons2 : forall a b t,
  runs_last (a :: b :: t) = if layout_eqb b a then runs_last (b :: t) else a :: runs_last (b :: t).
Proof. reflexivity. Qed.

Lemma runs_last_head : forall t b, exists h r, runs_last (b :: t) = h :: r /\ layout_eqb h b = true.
Proof.
  induction t as [|c t IH]; intros b.
  - exists b, []. split; [reflexivity|apply layout_eqb_refl].
  - rewrite runs_last_cons2. destruct (layout_eqb c b) eqn:E.
    + destruct (IH c) as (h & r & Hr & Hh). exists h, r. split; [exact Hr|]. eapply layout_eqb_trans; eauto.
    + eexists. eexists. split; [reflexivity|apply layout_eqb_refl].
Qed.

Fixpoint adj_distinct (l : list layout) : Prop :=
  match l with
  | a :: t => match t with b :: _ => layout_eqb b a = false | [] => True end /\ adj_distinct t
  | [] => True
  end.

(* consecutive cues of one caption have different layouts: the runs are maximal *)
Theorem runs_last_adjacent_distinct : forall ls, adj_distinct (runs_last ls).
Proof.
  induction ls as [|a t IH]; [exact I|]. destruct t as [|b t]; [cbn; auto|].
  rewrite runs_last_cons2. destruct (layout_eqb b a) eqn:E; [exact IH|].
  destruct (runs_last_head t b) as (h & r & Hr & Hh). rewrite Hr in *.
  change (adj_distinct (a :: h :: r)) with (layout_eqb h a = false /\ adj_distinct (h :: r)). split; [|exact IH].
  destruct (layout_eqb h a) eqn:E2; [|reflexivity].
  pose proof (layout_eqb_common h b a Hh E2). congruence.
Qed.

(* the cues partition the text nodes in order: runs_members ls = the members of each run *)
Fixpoint runs_members (ls : list layout) : list (list layout) :=
  match ls with
  | [] => []
  | a :: t => match t with
              | [] => [[a]]
              | b :: _ => if layout_eqb b a then
                            match runs_members t with
                            | r :: rs => (a :: r) :: rs
                            | [] => [[a]]
                            end
                          else [a] :: runs_members t
              end
  end.

Theorem runs_partition : forall ls, concat (runs_members ls) = ls /\ length (runs_members ls) = length (runs_last ls).
Proof.
  induction ls as [|a t IH]; [split; reflexivity|]. destruct IH as [IH1 IH2]. destruct t as [|b t]; [split; reflexivity|].
  change (runs_members (a :: b :: t)) with (if layout_eqb b a then match runs_members (b :: t) with r :: rs => (a :: r) :: rs | [] => [[a]] end
                                            else [a] :: runs_members (b :: t)).
  rewrite runs_last_cons2. destruct (layout_eqb b a).
  - destruct (runs_members (b :: t)) as [|r rs] eqn:E.
    + cbn in IH1. discriminate.
    + cbn [concat app] in *. split; [f_equal; exact IH1|exact IH2].
  - cbn [concat app length]. split; [f_equal; exact IH1|f_equal; exact IH2].
Qed.

(* node level first, then caption level, then language level; a layout that creates no region (or nothing at all)
   lands in the default region *)
Definition pick (f : layout -> layout) (l c n : option layout) : layout :=
  match spec_effective l c n with
  | Some x => if layout_truthy x then (if has_region x then f x else spec_default_read) else spec_default_read
  | None => spec_default_read
  end.

Lemma choice_pick : forall f l c n,
  pick f l c n =
  match dfxp_choice None l c n with
  | Some e => if layout_truthy e && has_region e then f e else spec_default_read
  | None => spec_default_read
  end.
Proof.
  intros f l c n. unfold pick, spec_effective, dfxp_choice, opt_layout_truthy.
  destruct n as [n|], c as [c|], l as [l|]; cbn iota beta;
    repeat (match goal with |- context [layout_truthy ?x] => destruct (layout_truthy x) eqn:? end; cbn iota beta);
    cbn [andb]; try reflexivity; try congruence.
Qed.

Theorem dfxp_choice_is_spec : forall l c n,
  expected_effective l c n =
  match dfxp_choice None l c n with
  | Some e => if layout_truthy e && has_region e then spec_read_back e else spec_default_read
  | None => spec_default_read
  end.
Proof. intros l c n. exact (choice_pick spec_read_back l c n). Qed.

Theorem dfxp_choice_priority : forall g l c n,
  (opt_layout_truthy n = true -> dfxp_choice g l c n = n)
  /\ (opt_layout_truthy n = false -> opt_layout_truthy c = true -> dfxp_choice g l c n = c)
  /\ (opt_layout_truthy n = false -> opt_layout_truthy c = false -> opt_layout_truthy l = true -> dfxp_choice g l c n = l).
Proof.
  intros g l c n. unfold dfxp_choice. repeat split; intros; repeat match goal with H : _ = _ |- _ => rewrite H end; reflexivity.
Qed.

Lemma has_region_eqb : forall a b, layout_eqb a b = true -> has_region a = has_region b.
Proof.
  intros a b H. unfold layout_eqb in H. rewrite !andb_true_iff in H. destruct H as [[[H1 H2] H3] H4]. unfold has_region.
  destruct (l_origin a), (l_origin b); try discriminate H1; destruct (l_extent a), (l_extent b); try discriminate H2;
    destruct (l_padding a), (l_padding b); try discriminate H3; destruct (l_alignment a), (l_alignment b); try discriminate H4;
    reflexivity.
Qed.

Lemma oset_mem_add : forall s l k, oset_mem k s = true -> oset_mem k (oset_add s l) = true.
Proof.
  intros s l k H. unfold oset_add. destruct (oset_mem l s); [exact H|]. unfold oset_mem in *. rewrite existsb_app, H. reflexivity.
Qed.

Lemma oset_mem_added : forall s l, oset_mem l (oset_add s l) = true.
Proof.
  intros s l. unfold oset_add. destruct (oset_mem l s) eqn:E; [exact E|]. unfold oset_mem. rewrite existsb_app. cbn [existsb].
  rewrite layout_eqb_refl. cbn. apply orb_true_r.
Qed.

Lemma collect_fold_mem : forall ls s l, (oset_mem l s = true \/ In (Some l) ls) ->
  oset_mem l (fold_left (fun s o => match o with Some l => oset_add s l | None => s end) ls s) = true.
Proof.
  induction ls as [|o ls IH]; intros s l H.
  - destruct H as [H|[]]. exact H.
  - cbn [fold_left]. apply IH. destruct H as [H|[H|H]].
    + left. destruct o; [apply oset_mem_add|]; exact H.
    + subst o. left. apply oset_mem_added.
    + right. exact H.
Qed.

Lemma oset_mem_discard : forall d s l, oset_mem l s = true -> layout_eqb l d = false -> oset_mem l (oset_discard d s) = true.
Proof.
  induction s as [|k t IH]; intros l H Hd; [discriminate|].
  cbn [oset_discard]. unfold oset_mem in H. cbn [existsb] in H. destruct (layout_eqb k d) eqn:E.
  - apply orb_true_iff in H. destruct H as [H|H]; [|exact H].
    pose proof (layout_eqb_common k l d H E). congruence.
  - unfold oset_mem. cbn [existsb]. apply orb_true_iff in H. destruct H as [H|H]; [rewrite H; reflexivity|].
    apply orb_true_iff. right. apply IH; assumption.
Qed.

Lemma number_regions_find : forall s seed l, oset_mem l s = true -> has_region l = true ->
  exists k id, List.find (fun kv => layout_eqb (fst kv) l) (number_regions s seed) = Some (k, RId id) /\ layout_eqb k l = true.
Proof.
  induction s as [|k t IH]; intros seed l H R; [discriminate|].
  unfold oset_mem in H. cbn [existsb] in H. cbn [number_regions].
  destruct (layout_eqb k l) eqn:E.
  - rewrite (has_region_eqb _ _ E), R. cbn [List.find fst]. rewrite E. eauto.
  - cbn [orb] in H. destruct (has_region k).
    + cbn [List.find fst]. rewrite E. apply IH; assumption.
    + apply IH; assumption.
Qed.

Lemma find_app_some : forall {A} (f : A -> bool) a b x, List.find f a = Some x -> List.find f (a ++ b) = Some x.
Proof.
  intros A f. induction a as [|y a IH]; intros b x H; [discriminate|]. cbn [app List.find] in *.
  destruct (f y); [exact H|apply IH; exact H].
Qed.

(* every layout of the caption set that needs a region finds one, created from an equal (==) layout *)
Theorem region_lookup_total : forall ls l, In (Some l) ls -> has_region l = true ->
  layout_eqb l dfxp_default_region = false ->
  exists k id, In (k, RId id) (region_map ls) /\ layout_eqb k l = true /\ region_lookup (region_map ls) (Some l) = RId id.
Proof.
  intros ls l Hin R Hd. unfold region_map, collect_regions.
  set (s := oset_discard dfxp_default_region _).
  assert (M : oset_mem l s = true).
  { subst s. apply oset_mem_discard; [|exact Hd]. apply collect_fold_mem. right. exact Hin. }
  destruct (number_regions_find s 0 l M R) as (k & id & Hf & Hk).
  exists k, id. split; [|split; [exact Hk|]].
  - apply in_or_app. left. apply find_some in Hf. exact (proj1 Hf).
  - unfold region_lookup. rewrite (find_app_some _ _ _ _ Hf). reflexivity.
Qed.

(* no collision: region ids are unique, so two layouts that are assigned the same created region are equal (==) *)
Lemma number_regions_in : forall s seed k i, In (k, i) (number_regions s seed) ->
  exists n, i = RId n /\ seed <= n /\ has_region k = true.
Proof.
  induction s as [|x t IH]; intros seed k i H; [destruct H|]. cbn [number_regions] in H.
  destruct (has_region x) eqn:E; [destruct H as [H|H]|]; [inversion H; subst; exists seed; repeat split; [lia|exact E]| |eauto].
  destruct (IH _ _ _ H) as (n & -> & Hn & R). exists n. repeat split; [lia|exact R].
Qed.

Lemma number_regions_ge : forall s seed k i, In (k, RId i) (number_regions s seed) -> seed <= i.
Proof. intros s seed k i H. destruct (number_regions_in _ _ _ _ H) as (n & E & Hn & _). inversion E; subst. exact Hn. Qed.

Lemma number_regions_unique : forall s seed k k' i,
  In (k, RId i) (number_regions s seed) -> In (k', RId i) (number_regions s seed) -> k = k'.
Proof.
  induction s as [|x t IH]; intros seed k k' i H H'; [destruct H|]. cbn [number_regions] in H, H'.
  destruct (has_region x); [|eauto].
  destruct H as [H|H], H' as [H'|H'].
  - congruence.
  - inversion H; subst. apply number_regions_ge in H'. lia.
  - inversion H'; subst. apply number_regions_ge in H. lia.
  - eauto.
Qed.

Theorem region_lookup_faithful : forall ls l l' i,
  region_lookup (region_map ls) (Some l) = RId i -> region_lookup (region_map ls) (Some l') = RId i ->
  layout_eqb l l' = true.
Proof.
  intros ls l l' i H H'. unfold region_lookup in H, H'.
  destruct (List.find (fun kv => layout_eqb (fst kv) l) (region_map ls)) as [[k r]|] eqn:F; [|discriminate].
  destruct (List.find (fun kv => layout_eqb (fst kv) l') (region_map ls)) as [[k' r']|] eqn:F'; [|discriminate].
  cbn [snd] in H, H'. subst r r'. apply find_some in F, F'. destruct F as [I1 E1], F' as [I2 E2]. cbn [fst] in E1, E2.
  unfold region_map in I1, I2. apply in_app_or in I1, I2.
  destruct I1 as [I1|[I1|[]]]; [|discriminate]. destruct I2 as [I2|[I2|[]]]; [|discriminate].
  pose proof (number_regions_unique _ _ _ _ _ I1 I2) as K. subst k'.
  exact (layout_eqb_common k l l' E1 E2).
Qed.

Definition nonneg_layout (l : layout) : Prop := Forall (fun sh => (0 <= s_val (fst sh))%Q) (sizes_axes l).

Lemma size_str_free_of_space : forall a, (0 <= s_val a)%Q -> free_of 32 (size_str a).
Proof.
  intros a Ha. destruct (size_str_shape a Ha) as (ip & fp & H1 & H2 & H3 & _). rewrite H1. unfold free_of, dotted.
  apply all_digits_iff in H2. destruct H2 as [_ D1].
  assert (Fd : forall s, forallb is_digit s = true -> Forall (fun x => x <> 32) s).
  { induction s as [|c s IH]; intros H; [constructor|]. cbn [forallb] in H. apply andb_true_iff in H. destruct H as [Hc Hs].
    constructor; [apply is_digit_range in Hc; lia|auto]. }
  apply Forall_app. split; [apply Forall_app; split|].
  - apply Fd. exact D1.
  - destruct H3 as [->|H3]; [constructor|]. destruct fp as [|c fp]; [constructor|].
    apply all_digits_iff in H3. destruct H3 as [_ D2]. constructor; [lia|apply Fd; exact D2].
  - destruct (s_unit a); cbn; repeat constructor; lia.
Qed.

Lemma from_string_round2 : forall a, (0 <= s_val a)%Q ->
  exists z, size_from_string (size_str a) = Ok z /\ size_equiv z (round2 a).
Proof.
  intros a Ha. destruct (print_parse a Ha) as (z & Hz & Hv & Hu). exists z. split; [exact Hz|]. split; [exact Hv|exact Hu].
Qed.

Lemma two_sizes_print : forall x y, (0 <= s_val x)%Q -> (0 <= s_val y)%Q ->
  exists x' y', two_sizes (size_str x ++ 32 :: size_str y) = Ok (x', y') /\ size_equiv x' (round2 x) /\ size_equiv y' (round2 y).
Proof.
  intros x y Hx Hy. unfold two_sizes.
  rewrite (split_ch_app _ _ _ (size_str_free_of_space x Hx)), (split_ch_free _ _ (size_str_free_of_space y Hy)).
  destruct (from_string_round2 x Hx) as (x' & Ex & Qx). destruct (from_string_round2 y Hy) as (y' & Ey & Qy).
  rewrite Ex, Ey. cbn [bind]. eauto.
Qed.

Lemma point_print : forall p, (0 <= s_val (p_x p))%Q -> (0 <= s_val (p_y p))%Q ->
  exists p', point_of_attr (point_attr p) = Ok p' /\ point_equiv p' (mkPoint (round2 (p_x p)) (round2 (p_y p))).
Proof.
  intros p Hx Hy. destruct (two_sizes_print _ _ Hx Hy) as (x' & y' & E & Qx & Qy). unfold point_of_attr, point_attr. rewrite E.
  eexists. split; [reflexivity|split; assumption].
Qed.

Lemma stretch_print : forall p, (0 <= s_val (st_h p))%Q -> (0 <= s_val (st_v p))%Q ->
  exists p', stretch_of_attr (stretch_attr p) = Ok p' /\ stretch_equiv p' (mkStretch (round2 (st_h p)) (round2 (st_v p))).
Proof.
  intros p Hx Hy. destruct (two_sizes_print _ _ Hx Hy) as (x' & y' & E & Qx & Qy). unfold stretch_of_attr, stretch_attr. rewrite E.
  eexists. split; [reflexivity|split; assumption].
Qed.

Lemma padding_print : forall p, (0 <= s_val (pd_before p))%Q -> (0 <= s_val (pd_after p))%Q ->
  (0 <= s_val (pd_start p))%Q -> (0 <= s_val (pd_end p))%Q ->
  exists p', padding_from_attr (padding_attr p) = Ok p'
    /\ size_equiv (pd_before p') (round2 (pd_before p)) /\ size_equiv (pd_after p') (round2 (pd_after p))
    /\ size_equiv (pd_start p') (round2 (pd_start p)) /\ size_equiv (pd_end p') (round2 (pd_end p)).
Proof.
  intros [b a s e] Hb Ha Hs He. cbn [pd_before pd_after pd_start pd_end] in *.
  assert (Hj : padding_attr (mkPadding b a s e) = join [32] [size_str b; size_str e; size_str a; size_str s]).
  { unfold padding_attr. cbn [pd_before pd_after pd_start pd_end join app]. repeat rewrite <- app_assoc. reflexivity. }
  rewrite Hj. rewrite padding_from_attr_tokens; [|discriminate|].
  - destruct (from_string_round2 b Hb) as (b' & Eb & Qb). destruct (from_string_round2 e He) as (e' & Ee & Qe).
    destruct (from_string_round2 a Ha) as (a' & Ea & Qa). destruct (from_string_round2 s Hs) as (s' & Es & Qs).
    cbn [res_map]. rewrite Eb, Ee, Ea, Es. cbn [bind padding_of_sizes].
    eexists. split; [reflexivity|]. cbn [pd_before pd_after pd_start pd_end]. auto.
  - repeat constructor; apply size_str_free_of_space; assumption.
Qed.

(* a region written from a layout with non-negative lengths reads back as that layout with every value rounded to two
   decimals and the absent alignment parts filled with start / after *)
Theorem dfxp_attr_roundtrip : forall l, nonneg_layout l ->
  exists r, read_region (layout_attrs l) = Ok r /\ layout_equiv r (spec_read_back l).
Proof.
  intros [o e p al wv] N. apply (Forall_sizes_axes (fun s => (0 <= s_val s)%Q)) in N. cbn [l_origin l_extent l_padding] in N.
  destruct N as (No & Ne & Np).
  unfold read_region, layout_attrs. cbn [ra_origin ra_extent ra_padding ra_text_align ra_display_align l_origin l_extent l_padding l_alignment].
  destruct (opt_res_rel point_equiv _ point_attr point_of_attr (fun p => mkPoint (round2 (p_x p)) (round2 (p_y p)))
              (fun p H => point_print p (proj1 H) (proj2 H)) o No) as (o' & Eo & Qo).
  destruct (opt_res_rel stretch_equiv _ stretch_attr stretch_of_attr (fun p => mkStretch (round2 (st_h p)) (round2 (st_v p)))
              (fun p H => stretch_print p (proj1 H) (proj2 H)) e Ne) as (e' & Ee & Qe).
  destruct (opt_res_rel padding_equiv _ padding_attr padding_from_attr
              (fun p => mkPadding (round2 (pd_before p)) (round2 (pd_after p)) (round2 (pd_start p)) (round2 (pd_end p)))
              (fun p H => padding_print p (proj1 H) (proj1 (proj2 H)) (proj1 (proj2 (proj2 H))) (proj2 (proj2 (proj2 H)))) p Np)
    as (p' & Ep & Qp).
  rewrite Eo, Ee, Ep. cbn [bind]. eexists. split; [reflexivity|].
  unfold layout_equiv, spec_read_back. cbn [l_origin l_extent l_padding l_alignment].
  split; [exact Qo|]. split; [exact Qe|]. split; [exact Qp|].
  cbn [opt_rel]. unfold alignment_equiv, align_attrs. cbn [al_h al_v].
  destruct al as [[h v]|]; cbn [fst snd al_h al_v]; [destruct h, v|]; split; reflexivity.
Qed.

(* one character: the layout chosen for it, written as region attributes and resolved by the reader, is the
   statement's expected effective layout (node > caption > language, two decimals, defaults start / after) *)
Theorem dfxp_layout_roundtrip_char : forall l c n e,
  dfxp_choice None l c n = Some e -> layout_truthy e = true -> has_region e = true -> nonneg_layout e ->
  exists r, read_region (layout_attrs e) = Ok r /\ layout_equiv r (expected_effective l c n).
Proof.
  intros l c n e H T R N. rewrite dfxp_choice_is_spec, H, T, R. cbn [andb]. apply dfxp_attr_roundtrip. exact N.
Qed.

Theorem dfxp_default_roundtrip : read_region (layout_attrs dfxp_default_region) = Ok spec_default_read.
Proof. reflexivity. Qed.

(* the check's oracle (values within 1/200 of the exact ones, defaults filled) accepts what the model reads back *)
Lemma size_close_round2 : forall z a, size_equiv z (round2 a) -> size_close z a = true.
Proof.
  intros z a [Hv Hu]. unfold size_close. cbn [round2 s_val s_unit] in Hv, Hu. rewrite Hu.
  assert (E : unit_eqb (s_unit a) (s_unit a) = true) by (apply unit_eqb_eq; reflexivity). rewrite E. cbn [andb].
  unfold q_close_tol, tol200. apply Qle_bool_iff. rewrite Hv. pose proof (hundredths_close (s_val a)) as H. lra.
Qed.

Theorem ok_effective_model : forall l c n e,
  dfxp_choice None l c n = Some e -> layout_truthy e = true -> has_region e = true -> nonneg_layout e ->
  exists r, read_region (layout_attrs e) = Ok r /\ ok_effective l c n (Some r) = true.
Proof.
  intros l c n e H T R N. destruct (dfxp_attr_roundtrip e N) as (r & Hr & Q). exists r. split; [exact Hr|].
  unfold ok_effective.
  assert (X : expected_effective_exact l c n = spec_fill_defaults e).
  { change (expected_effective_exact l c n) with (pick spec_fill_defaults l c n). rewrite choice_pick, H, T, R. reflexivity. }
  rewrite X. destruct Q as (Qo & Qe & Qp & Qa). unfold layout_close, spec_fill_defaults, spec_read_back in *.
  cbn [l_origin l_extent l_padding l_alignment] in *.
  repeat (apply andb_true_intro; split).
  - eapply opt_rel_map_eqb; [|exact Qo]. intros p q [Q1 Q2]. cbn [p_x p_y] in *.
    rewrite (size_close_round2 _ _ Q1), (size_close_round2 _ _ Q2). reflexivity.
  - eapply opt_rel_map_eqb; [|exact Qe]. intros p q [Q1 Q2]. cbn [st_h st_v] in *.
    rewrite (size_close_round2 _ _ Q1), (size_close_round2 _ _ Q2). reflexivity.
  - eapply opt_rel_map_eqb; [|exact Qp]. intros p q (Q1 & Q2 & Q3 & Q4). cbn [pd_before pd_after pd_start pd_end] in *.
    rewrite (size_close_round2 _ _ Q1), (size_close_round2 _ _ Q2), (size_close_round2 _ _ Q3), (size_close_round2 _ _ Q4). reflexivity.
  - destruct (l_alignment r) as [ar|]; cbn [opt_rel opt_eqb] in *; [|contradiction]. apply alignment_eqb_iff. exact Qa.
Qed.

(* a percentage layout with origin in the safe area, fit on: position + size = x + fitted width - right padding <= 90 - right padding *)
Theorem vtt_fit_right_edge : forall c l org, layout_truthy l = true -> (l_webvtt l = None \/ l_webvtt l = Some []) ->
  all_pct l = true -> w_fit c = true -> l_origin l = Some org -> in_safe_area org = true ->
  exists s ps ss, vtt_convert_positioning c (Some l) = Ok (VSet s)
    /\ vs_position s = Some ps /\ vs_size s = Some ss /\ s_unit ps = PCT /\ s_unit ss = PCT
    /\ (s_val ps + s_val ss <= 90 - pad_of pd_end l)%Q.
Proof.
  intros c l org T W P F Ho Hs.
  destruct (vtt_convert_relative_fit c l T W P F) as (l2 & H2 & P2 & Hc). rewrite Hc.
  set (l1 := mkLayout (l_origin l) (l_extent l) (l_padding l) (l_alignment l) (if w_rel c then None else l_webvtt l)) in *.
  assert (P1 : all_pct l1 = true) by (destruct l; exact P).
  assert (Ho1 : l_origin l1 = Some org) by exact Ho.
  destruct (fit_safe l1 org Ho1 Hs (all_pct_extent _ P1)) as (e' & Hf & U1 & U2 & R1 & _).
  rewrite Hf in H2. inversion H2; subst l2. clear H2.
  set (l2 := mkLayout (Some org) (Some e') (l_padding l1) (l_alignment l1) None) in *.
  destruct (vtt_arith_exact l2 org P2 eq_refl) as (pos & line & wd & Ha & (ps & -> & Up & Vp) & _ & Hw).
  cbn [l_extent l2] in Hw. destruct Hw as (ss & -> & Us & Vs).
  exists (mkVs (vtt_align (l_alignment l2)) (Some ps) line (Some ss)), ps, ss.
  split; [exact Ha|]. repeat split; try assumption.
  rewrite Vp, Vs. unfold pad_of. cbn [l_padding l2 l1 st_h]. destruct (l_padding l); lra.
Qed.

Definition text_layouts (nodes : list nnode) : list layout :=
  flat_map (fun n => if n_kind n =? 1 then match n_layout n with Some l => [l] | None => [] end else []) nodes.

Definition texts_have_layouts (nodes : list nnode) : Prop :=
  forall n, In n nodes -> n_kind n = 1 -> exists l, n_layout n = Some l /\ layout_truthy l = true.

(* a STYLE START node that carries a layout opens the span of the text that follows: its layout equals the layout of the
   next text node (what the readers produce: the text inside a positioned span carries the span's layout) *)
Fixpoint spans_follow (nodes : list nnode) : Prop :=
  match nodes with
  | [] => True
  | n :: t =>
      (n_kind n <> 1 -> n_kind n <> 3 -> style_start (n_kind n) = true ->
       forall l, n_layout n = Some l -> layout_truthy l = true ->
       exists b, hd_error (text_layouts t) = Some b /\ layout_eqb l b = true)
      /\ spans_follow t
  end.

(* the state "current layout a": the cue text s is non-empty, or a is the layout of the next text node (the state right
   after a span opened a new group; s may still be empty) *)
Lemma vtt_groups_aux_general : forall nodes, texts_have_layouts nodes -> spans_follow nodes ->
  forall has a, layout_truthy a = true ->
  has = true \/ (exists b, hd_error (text_layouts nodes) = Some b /\ layout_eqb a b = true) ->
  vtt_groups_aux nodes has (Some a) = map Some (runs_last (a :: text_layouts nodes)).
Proof.
  induction nodes as [|n t IH]; intros H S has a Ta Hs.
  - destruct Hs as [->|(b & Hb & _)]; [reflexivity|discriminate Hb].
  - destruct S as [Sn St]. assert (Ht : texts_have_layouts t) by (intros x Hx; apply H; right; exact Hx). specialize (IH Ht St).
    cbn [vtt_groups_aux]. unfold text_layouts in *. cbn [flat_map] in *. fold (text_layouts t) in *.
    destruct (n_kind n =? 1) eqn:K.
    + destruct (H n (or_introl eq_refl) ltac:(lia)) as (b & Eb & Tb). rewrite Eb in *. cbn [app hd_error opt_layout_truthy opt_layout_eqb] in *.
      rewrite Ta, (IH true b Tb (or_introl eq_refl)), runs_last_cons2. destruct (layout_eqb b a) eqn:E.
      * rewrite andb_false_r. reflexivity.
      * destruct Hs as [->|(b' & Hb & Eab)]; [reflexivity|]. inversion Hb; subst b'. rewrite layout_eqb_sym in Eab. congruence.
    + cbn [app] in *. destruct (n_kind n =? 3) eqn:K3; [apply IH; [exact Ta|left; reflexivity]|].
      destruct (style_start (n_kind n) && has && opt_layout_truthy (Some a) && opt_layout_truthy (n_layout n)
                && negb (opt_layout_eqb (n_layout n) (Some a))) eqn:F.
      * (* the span's layout l differs from a and is the layout b of the next text node: a's run ends here *)
        rewrite !andb_true_iff in F. destruct F as [[[[SS _] _] Tl] Ne].
        destruct (n_layout n) as [l|] eqn:El; [|discriminate Tl]. cbn [opt_layout_truthy opt_layout_eqb] in Tl, Ne.
        apply negb_true_iff in Ne. destruct (Sn ltac:(lia) ltac:(lia) SS l eq_refl Tl) as (b & Hb & Elb).
        rewrite (IH _ l Tl (or_intror (ex_intro _ b (conj Hb Elb)))).
        destruct (text_layouts t) as [|b' r]; [discriminate Hb|]. inversion Hb; subst b'.
        rewrite !runs_last_cons2, (layout_eqb_sym b l), Elb. destruct (layout_eqb b a) eqn:Eba; [|reflexivity].
        rewrite (layout_eqb_trans _ _ _ Elb Eba) in Ne. discriminate Ne.
      * apply IH; [exact Ta|]. destruct Hs as [->|Hs]; [left; reflexivity|right; exact Hs].
Qed.

(* a caption with at least one text node, every text node carrying a layout, any BREAK / STYLE nodes anywhere, every
   positioned span opening on a text node of its own layout: one cue per maximal run of equal text-node layouts *)
Theorem vtt_split_by_layout_general : forall nodes, texts_have_layouts nodes -> spans_follow nodes -> text_layouts nodes <> [] ->
  vtt_groups nodes = map Some (runs_last (text_layouts nodes)).
Proof.
  intros nodes. unfold vtt_groups. generalize false.
  induction nodes as [|n t IH]; intros has H S Hn; [contradiction|].
  assert (Ht : texts_have_layouts t) by (intros x Hx; apply H; right; exact Hx).
  destruct S as [_ St].
  cbn [vtt_groups_aux]. unfold text_layouts in *. cbn [flat_map] in *. fold (text_layouts t) in *.
  destruct (n_kind n =? 1) eqn:K.
  - destruct (H n (or_introl eq_refl) ltac:(lia)) as (b & Eb & Tb). rewrite Eb in *.
    cbn [opt_layout_truthy andb app]. rewrite andb_false_r. cbn [andb].
    apply (vtt_groups_aux_general t Ht St); [exact Tb|left; reflexivity].
  - cbn [app] in *. destruct (n_kind n =? 3); [apply IH; assumption|].
    cbn [opt_layout_truthy]. rewrite !andb_false_r. cbn [andb]. apply IH; assumption.
Qed.

(* without positioned spans (no STYLE node carries a layout) the hypothesis on spans holds trivially *)
Lemma spans_follow_unpositioned : forall nodes,
  (forall n, In n nodes -> n_kind n <> 1 -> n_kind n <> 3 -> n_layout n = None) -> spans_follow nodes.
Proof.
  induction nodes as [|n t IH]; intros H; [exact I|]. split.
  - intros N1 N3 _ l El. rewrite (H n (or_introl eq_refl) N1 N3) in El. discriminate El.
  - apply IH. intros x Hx. apply H. right. exact Hx.
Qed.

(* a caption whose text nodes all carry a layout: one cue per maximal run of equal layouts *)
Theorem vtt_split_by_layout : forall ls, forallb layout_truthy ls = true ->
  vtt_groups (map text_node ls) = map Some (runs_last ls).
Proof.
  intros ls T. assert (E : text_layouts (map text_node ls) = ls) by (induction ls as [|a t IH]; [reflexivity|exact (f_equal (cons a) (IH (proj2 (andb_prop _ _ T))))]).
  destruct ls as [|a ls]; [reflexivity|]. rewrite <- E at 2. apply vtt_split_by_layout_general; [| |rewrite E; discriminate].
  - intros n Hn _. apply in_map_iff in Hn. destruct Hn as (l & <- & Hl). exists l. split; [reflexivity|].
    rewrite forallb_forall in T. exact (T l Hl).
  - apply spans_follow_unpositioned. intros n Hn N1. apply in_map_iff in Hn. destruct Hn as (l & <- & _). contradiction N1. reflexivity.
Qed.

(* the fix's point: a positioned span that follows text of another layout opens in the NEXT cue - the group that is
   flushed at the span's start node is the one of the text before it *)
Theorem vtt_span_opens_next_group : forall k a l t, style_start k = true -> layout_truthy a = true -> layout_truthy l = true ->
  layout_eqb l a = false ->
  vtt_groups_aux (mkNode k (Some l) :: t) true (Some a) = Some a :: vtt_groups_aux t (style_tags k) (Some l).
Proof.
  intros k a l t SS Ta Tl E. cbn [vtt_groups_aux n_kind n_layout].
  assert (K1 : k =? 1 = false) by (unfold style_start in SS; lia).
  assert (K3 : k =? 3 = false) by (unfold style_start in SS; lia).
  rewrite K1, K3, SS. cbn [opt_layout_truthy opt_layout_eqb andb]. rewrite Ta, Tl, E. reflexivity.
Qed.

