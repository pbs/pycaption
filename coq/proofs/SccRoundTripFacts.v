(* C17: the writer model composed with the full SCC reader model (model/SccRoundTrip.v).
   Finite, complete-table statements: every basic character of the working tree's table, in both byte positions of
   a code word, and next to each punctuation / boundary character; every number of rows.  Each sample is an instance of
   the re-read theorem (proofs/SccRereadDoc.v roundtrip_ok_all): what is evaluated is that the sample lies in the
   theorem's domain, not the two models. *)
From Coq Require Import List ZArith QArith Bool Lia Lqa.
From PV Require Import lib.Sx lib.Str lib.Result model.GenSccw model.SccWrite model.SccRoundTrip spec.SpecSccw.
From PV Require Import model.SccDecoder proofs.SccWriteFacts proofs.SccComposeFacts.
From PV Require Import proofs.SccLayoutFacts proofs.SccwBridgeFacts model.SccRereadDom proofs.SccRereadDoc proofs.SccRereadDomFacts.
Import ListNotations.
Open Scope Z_scope.

Definition basic_cps : list Z := map fst sccw_character_to_code.
Definition one_cap (t : str) : list wcap := [mkWcap t (10000000 # 1) (12000000 # 1)].
Definition neighbours : list Z := map (fun c => c) [46; 33; 63; 44; 45; 39; 34; 48; 65; 122; 241; 247].   (* . ! ? , - apostrophe quote 0 A z n-tilde division-sign *)

(* A cue over the basic set on at most 15 rows is transmitted in at most 270 + 8 frames (text_words_count), less than
   9.3 s.  So for cues whose starts are that far apart the domain of the re-read theorem is a matter of each text alone:
   basic characters, at most 15 rows, a word. *)
Definition text_ok (t : str) : bool :=
  basic_text t && (length (layout_rows t) <=? 15)%nat && match words t with [] => false | _ => true end.
Fixpoint times_ok (prev : Q) (caps : list wcap) : bool :=
  match caps with
  | [] => true
  | c :: t => Qle_bool (prev + 9300000) (w_start c) && Qle_bool (w_start c) (w_end c) && below_100h_b c
              && times_ok (w_start c) t
  end.

Lemma cap_words_le : forall c, cap_dom c -> (cap_words c * mpc <= 9300000)%Q.
Proof.
  intros c [B L]. unfold cap_words, mpc. destruct (all_bytes_odd_parity (w_text c) L) as (ws & E & _). rewrite E.
  pose proof (text_words_count _ ws L B E) as C.
  assert (inject_Z (Z.of_nat (length ws) + 8) <= 278)%Q by (change 278%Q with (inject_Z 278); rewrite <- Zle_Qle; lia). lra.
Qed.

Lemma far_apart_ok : forall caps p, forallb (fun c => text_ok (w_text c)) caps = true -> times_ok p caps = true ->
  Forall cap_dom caps /\ spaced_w p caps /\ Forall has_word caps /\ Forall below_100h caps.
Proof.
  induction caps as [|c t IH]; intros p H T; [repeat split; constructor|].
  cbn [forallb times_ok] in H, T. apply andb_prop in H. destruct H as [H Ht].
  apply andb_prop in T. destruct T as [T Tt]. apply andb_prop in T. destruct T as [T T3]. apply andb_prop in T.
  destruct T as [T1 T2]. apply Qle_bool_iff in T1, T2.
  destruct (IH (w_start c) Ht Tt) as (A1 & A2 & A3 & A4).
  apply andb_prop in H. destruct H as [H W]. apply andb_prop in H. destruct H as [B L]. apply Nat.leb_le in L.
  pose proof (cap_words_le c (conj B L)) as CW.
  split; [constructor; [split; assumption|exact A1]|]. split; [cbn [spaced_w]; split; [lra|split; assumption]|].
  split; constructor; try assumption.
  - unfold has_word. destruct (words (w_text c)); [discriminate|discriminate].
  - unfold below_100h_b in T3. apply negb_true_iff in T3. apply Qnot_le_lt. intros X. apply Qle_bool_iff in X. congruence.
Qed.

Lemma far_apart_roundtrip : forall caps, forallb (fun c => text_ok (w_text c)) caps = true -> times_ok 0 caps = true ->
  caps <> [] -> roundtrip_ok caps = true.
Proof. intros caps H T. apply roundtrip_ok_all. exact (far_apart_ok caps 0 H T). Qed.

Lemma one_cap_roundtrip : forall t, text_ok t = true -> roundtrip_ok (one_cap t) = true.
Proof. intros t H. apply far_apart_roundtrip; [cbn [one_cap forallb w_text]; rewrite H; reflexivity|reflexivity|discriminate]. Qed.

(* every basic character survives writer -> document -> reader, as first and as second byte of a word *)
Lemma roundtrip_every_basic_char :
  forallb (fun c => roundtrip_ok (one_cap (lit "a" ++ [c] ++ lit "b")) && roundtrip_ok (one_cap ([c] ++ lit "ab c")))
          (filter (fun c => negb (c =? 32)) basic_cps) = true.
Proof.
  assert (T : forallb (fun c => text_ok (lit "a" ++ [c] ++ lit "b") && text_ok ([c] ++ lit "ab c"))
                      (filter (fun c => negb (c =? 32)) basic_cps) = true) by (vm_compute; reflexivity).
  rewrite forallb_forall in *. intros c Hc. destruct (andb_prop _ _ (T c Hc)) as [T1 T2].
  rewrite !one_cap_roundtrip by assumption. reflexivity.
Qed.

(* ... and every basic character followed by each of the neighbours above, sharing one code word *)
Lemma roundtrip_basic_pairs :
  forallb (fun c1 => forallb (fun c2 => roundtrip_ok (one_cap ([c1; c2]))) neighbours)
          (filter (fun c => negb (c =? 32)) basic_cps) = true.
Proof.
  assert (T : forallb (fun c1 => forallb (fun c2 => text_ok [c1; c2]) neighbours)
                      (filter (fun c => negb (c =? 32)) basic_cps) = true) by (vm_compute; reflexivity).
  rewrite forallb_forall in *. intros c1 H1. specialize (T c1 H1). rewrite forallb_forall in *. intros c2 H2.
  apply one_cap_roundtrip, T, H2.
Qed.

(* shapes: several rows, a word longer than 32 (split), two captions with the clear-screen line removed / kept *)
Lemma roundtrip_shapes :
  roundtrip_ok (one_cap (lit "first line" ++ [10] ++ lit "second line" ++ [10] ++ lit "third")) = true /\
  roundtrip_ok (one_cap (lit "ab xxxxxxxxxxxxxxxxxxxxxxxxxxxxxxxxxxxxxxxx cd")) = true /\
  roundtrip_ok [mkWcap (lit "one") (10000000 # 1) (12000000 # 1); mkWcap (lit "two") (12000000 # 1) (13000000 # 1);
                mkWcap (lit "three four") (20000000 # 1) (21000000 # 1)] = true /\
  roundtrip_ok (one_cap (lit "a b c d e f g h i j k l m n o p q r s t u v w x y z a b c d e f g h i j k l m n o p q r s t")) = true.
Proof.
  split; [|split; [|split]]; (apply roundtrip_ok_all; [apply caps_ok_b_sound; vm_compute; reflexivity|discriminate]).
Qed.

(* under the statement's hypotheses the writer model does not fail, its document satisfies the WHOLE output
   oracle (SccComposeFacts.write_meets_oracle), and the lines the reader model is run on are exactly the lines the
   oracle judged.  What the reader model RETURNS for them is not part of this statement (hence `_partial` in props/C17.v);
   proofs/SccRereadDoc.v reread_store says it on the narrower domain caps_ok *)
Theorem reread_input_ok : forall caps, Forall SccComposeFacts.cap_dom caps -> SccComposeFacts.caps_spaced 0 caps ->
  exists doc lines, write caps = Ok doc /\ parse_document doc = Some lines
                    /\ ok_output (map SccComposeFacts.to_cue caps) doc = 0
                    /\ reread caps = RRRead (read 0 (map to_sline lines)).
Proof.
  intros caps D S. unfold reread.
  destruct (write_total caps) as (doc & W).
  { intros c Hc. exact (proj2 (proj1 (Forall_forall _ _) D c Hc)). }
  rewrite W.
  pose proof (SccComposeFacts.write_meets_oracle caps doc W D S) as O.
  destruct (parse_document doc) as [lines|] eqn:P.
  - exists doc, lines. auto.
  - unfold ok_output in O. rewrite P in O. discriminate.
Qed.

(* every number of rows 1..15 (hence every preamble address code of the writer's table, in its INDENT form with
   indent 0 - see proofs/SccwBridgeFacts.v), as explicit lines and as rows produced by wrapping, in sets of one and of
   three cues (so that the EDM EDM EOC EOC ending of a load meets a displayed caption) *)
Definition n_lines (n : nat) : str := join [10] (map (fun i => lit "row " ++ dec_nonneg (Z.of_nat i) ++ lit " x") (seq 1 n)).
Definition n_wrapped (n : nat) : str := join [32] (repeat (lit "seventeen-letters") n).
Definition three_caps (t : str) : list wcap :=
  [mkWcap t (10000000 # 1) (12000000 # 1); mkWcap (lit "between") (20000000 # 1) (21000000 # 1);
   mkWcap t (30000000 # 1) (30500000 # 1)].
Lemma roundtrip_every_row_count :
  forallb (fun n => roundtrip_ok (one_cap (n_lines n)) && roundtrip_ok (three_caps (n_lines n))
                    && roundtrip_ok (one_cap (n_wrapped n))) (seq 1 15) = true.
Proof.
  assert (T : forallb (fun n => text_ok (n_lines n) && text_ok (n_wrapped n)) (seq 1 15) = true) by (vm_compute; reflexivity).
  rewrite forallb_forall in *. intros n Hn. destruct (andb_prop _ _ (T n Hn)) as [T1 T2].
  rewrite !one_cap_roundtrip by assumption.
  rewrite far_apart_roundtrip; [reflexivity| |reflexivity|discriminate].
  cbn [three_caps forallb w_text]. rewrite T1. reflexivity.
Qed.
