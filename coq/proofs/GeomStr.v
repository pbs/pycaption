(* String / decimal lemmas used by the geometry proofs (C18, C13, C12): where drop_while stops, split on a character,
   the decimal printer of lib/Str.v and its inverse. *)
From Coq Require Import List ZArith Lia Bool ZifyBool.
From PV Require Import lib.Sx lib.Str lib.StrSplit lib.Dec.
Import ListNotations.
Open Scope Z_scope.
Ltac Zify.zify_post_hook ::= Z.to_euclidean_division_equations.

(* a block of f-characters followed by something that does not start with one *)
Definition stops (f : Z -> bool) (b : str) : Prop := match b with [] => True | c :: _ => f c = false end.

Lemma stops_drop_while : forall f s, stops f (drop_while f s).
Proof.
  intros f s. destruct (drop_while f s) as [|c t] eqn:E; cbn [stops]; [exact I|].
  eapply drop_while_head; eauto.
Qed.

Definition free_of (c : Z) (s : str) : Prop := Forall (fun x => x <> c) s.

Lemma split_ch_aux_free : forall sep s cur, free_of sep s -> split_ch_aux sep s cur = [rev cur ++ s].
Proof.
  induction s as [|c t IH]; intros cur H; cbn [split_ch_aux].
  - rewrite app_nil_r. reflexivity.
  - inversion H as [|? ? Hc Ht]; subst. assert (E : (c =? sep) = false) by lia. rewrite E.
    rewrite IH by assumption. cbn [rev]. rewrite <- app_assoc. reflexivity.
Qed.

Lemma split_ch_free : forall sep s, free_of sep s -> split_ch sep s = [s].
Proof. intros. unfold split_ch. rewrite split_ch_aux_free by assumption. reflexivity. Qed.

Lemma split_ch_aux_app : forall sep a b cur, free_of sep a ->
  split_ch_aux sep (a ++ sep :: b) cur = (rev cur ++ a) :: split_ch_aux sep b [].
Proof.
  induction a as [|c t IH]; intros b cur H; cbn [app split_ch_aux].
  - rewrite Z.eqb_refl, app_nil_r. reflexivity.
  - inversion H as [|? ? Hc Ht]; subst. assert (E : (c =? sep) = false) by lia. rewrite E.
    rewrite IH by assumption. cbn [rev]. rewrite <- app_assoc. reflexivity.
Qed.

Lemma split_ch_app : forall sep a b, free_of sep a -> split_ch sep (a ++ sep :: b) = a :: split_ch sep b.
Proof. intros. unfold split_ch. rewrite split_ch_aux_app by assumption. reflexivity. Qed.

Lemma join_cons : forall sep a l, l <> [] -> join sep (a :: l) = a ++ sep ++ join sep l.
Proof. intros sep a [|b l] H; [contradiction|reflexivity]. Qed.

Lemma split_ch_join : forall sep s, join [sep] (split_ch sep s) = s.
Proof. exact StrSplit.split_ch_join. Qed.

Lemma split_ch_aux_pieces : forall sep s cur, free_of sep cur -> Forall (free_of sep) (split_ch_aux sep s cur).
Proof.
  induction s as [|c t IH]; intros cur H; cbn [split_ch_aux].
  - constructor; [|constructor]. unfold free_of in *. apply Forall_rev. assumption.
  - destruct (c =? sep) eqn:E.
    + constructor; [unfold free_of in *; apply Forall_rev; assumption|]. apply IH. constructor.
    + apply IH. constructor; [lia|assumption].
Qed.

Lemma split_ch_pieces : forall sep s, Forall (free_of sep) (split_ch sep s).
Proof. intros. apply split_ch_aux_pieces. constructor. Qed.

Lemma is_digit_range : forall c, is_digit c = true <-> 48 <= c <= 57.
Proof. intros c. unfold is_digit. lia. Qed.

Lemma digits_val_acc_some : forall s acc, forallb is_digit s = true -> exists v, digits_val_acc s acc = Some v.
Proof.
  induction s as [|c s IH]; intros acc H; cbn [digits_val_acc]; [eauto|].
  cbn [forallb] in H. apply andb_true_iff in H. destruct H as [H1 H2]. rewrite H1. apply IH. assumption.
Qed.

Lemma digits_val_acc_none : forall s acc, forallb is_digit s = false -> digits_val_acc s acc = None.
Proof.
  induction s as [|c s IH]; intros acc H; cbn [digits_val_acc forallb] in *; [discriminate|].
  destruct (is_digit c); [apply IH; exact H|reflexivity].
Qed.

Lemma digits_val_acc_shift : forall s acc v0, digits_val_acc s 0 = Some v0 ->
  digits_val_acc s acc = Some (acc * 10 ^ Z.of_nat (length s) + v0).
Proof.
  induction s as [|c s IH]; intros acc v0 H; cbn [digits_val_acc length] in *.
  - inversion H; subst. f_equal. cbn. lia.
  - destruct (is_digit c) eqn:E; [|discriminate].
    destruct (digits_val_acc_some s 0) as [w Hw].
    { destruct (forallb is_digit s) eqn:F; [reflexivity|]. rewrite digits_val_acc_none in H by assumption. discriminate. }
    rewrite (IH _ _ Hw) in H. rewrite (IH _ _ Hw). inversion H; subst. f_equal.
    rewrite Nat2Z.inj_succ, Z.pow_succ_r by lia. lia.
Qed.

Lemma digits_val_nonneg : forall s acc v, 0 <= acc -> digits_val_acc s acc = Some v -> 0 <= v.
Proof.
  induction s as [|c s IH]; intros acc v Ha H; cbn [digits_val_acc] in H.
  - inversion H; subst; assumption.
  - destruct (is_digit c) eqn:E; [|discriminate]. apply is_digit_range in E.
    eapply IH; [|exact H]. unfold digit_val. lia.
Qed.

Lemma digits_val_bound : forall s v, digits_val_acc s 0 = Some v -> 0 <= v < 10 ^ Z.of_nat (length s).
Proof.
  induction s as [|c s IH] using rev_ind; intros v H.
  - cbn in H. inversion H; subst. cbn. lia.
  - rewrite digits_val_acc_app in H. destruct (digits_val_acc s 0) as [w|] eqn:Hw; [|discriminate].
    specialize (IH _ eq_refl). cbn [digits_val_acc] in H. destruct (is_digit c) eqn:E; [|discriminate].
    apply is_digit_range in E. inversion H; subst. unfold digit_val.
    rewrite app_length. cbn [length]. rewrite Nat2Z.inj_add. cbn [Z.of_nat Pos.of_succ_nat Pos.succ].
    rewrite Z.pow_add_r by lia. change (10 ^ 1) with 10. lia.
Qed.

Lemma dec_aux_head : forall fuel z, 1 <= z < 2 ^ Z.of_nat (S fuel) ->
  match dec_aux (S fuel) z [] with c :: _ => c <> 48 | [] => False end.
Proof.
  induction fuel as [|f IH]; intros z Hz; rewrite dec_aux_S; destruct (z <? 10) eqn:E.
  - lia.
  - change (2 ^ Z.of_nat 1) with 2 in Hz. lia.
  - lia.
  - rewrite dec_aux_acc. assert (Hq : 1 <= z / 10 < 2 ^ Z.of_nat (S f)).
    { rewrite (Nat2Z.inj_succ (S f)), Z.pow_succ_r in Hz by lia. lia. }
    specialize (IH _ Hq). destruct (dec_aux (S f) (z / 10) []); [contradiction|exact IH].
Qed.

Lemma dec_aux_spec : forall fuel z, 0 <= z < 2 ^ Z.of_nat (S fuel) ->
  let ds := dec_aux (S fuel) z [] in
  ds <> [] /\ forallb is_digit ds = true /\ digits_val_acc ds 0 = Some z
  /\ (10 <= z -> match ds with c :: _ => c <> 48 | [] => False end)
  /\ (z < 10 -> ds = [48 + z]).
Proof.
  intros fuel z Hz. cbn zeta. split; [apply dec_aux_nonempty|]. split; [apply dec_aux_digits; [lia|reflexivity]|].
  split; [apply dec_aux_val; exact Hz|]. split; [intros H; apply dec_aux_head; lia|].
  intros H. rewrite dec_aux_S. assert (E : (z <? 10) = true) by lia. rewrite E. f_equal. lia.
Qed.

Lemma log2_fuel : forall z, 0 <= z -> z < 2 ^ Z.of_nat (S (Z.to_nat (Z.log2 z))).
Proof.
  intros z Hz. rewrite Nat2Z.inj_succ, Z2Nat.id by apply Z.log2_nonneg.
  destruct (Z.eq_dec z 0) as [->|Hn]; [cbn; lia|].
  apply Z.log2_spec. lia.
Qed.

Lemma dec_nonneg_spec : forall z, 0 <= z ->
  dec_nonneg z <> [] /\ forallb is_digit (dec_nonneg z) = true /\ digits_val_acc (dec_nonneg z) 0 = Some z
  /\ (10 <= z -> match dec_nonneg z with c :: _ => c <> 48 | [] => False end)
  /\ (z < 10 -> dec_nonneg z = [48 + z]).
Proof.
  intros z Hz. unfold dec_nonneg. apply (dec_aux_spec _ z). split; [assumption|]. apply log2_fuel. assumption.
Qed.

Lemma int_of_dec : forall z, 0 <= z -> int_of_digits (dec_nonneg z) = Some z.
Proof. exact Dec.int_of_dec. Qed.
