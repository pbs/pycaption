(* C04 end to end, WebVTT, on the models: for abstract cue content in the domain below,
     node_lines (read_vtt true items) = display items
   where read_vtt = the reader model (vtt_decode per line: strip, VOICE_SPAN_PATTERN.sub, OTHER_SPAN_PATTERN.sub, the
   replace chain) applied to the SPEC serialisation.  Composition of: vtt_voice_tag (voice), vtt_tags_by_name (known /
   unknown tags), vtt_entities_once (references decoded once). *)
From Coq Require Import List ZArith Bool Lia ZifyBool.
From PV Require Import lib.Sx lib.Str lib.StrFacts model.TextNodes model.TextRead.
From PV Require Import spec.SpecTextLines spec.SpecTextRead proofs.TextLinesFacts proofs.TextBlocksFacts proofs.TextStrFacts.
From PV Require Import proofs.TextReadVttFacts proofs.TextReadVttTagFacts.
Import ListNotations.
Open Scope Z_scope.

Notation prender := TextReadVttFacts.render.
Notation srender := TextReadVttTagFacts.render.
Notation sdisplay := TextReadVttTagFacts.display.

Inductive ltok : Type :=
| LText (ps : list piece)
| LKnown (b : str)
| LUnk (b : str)
| LVoice (cls : list str) (pn : list piece).

Definition no_ch_piece (x : Z) (p : piece) : bool :=
  match p with PRaw c => negb (c =? x) | PEnt n => forallb (fun c => negb (c =? x)) n end.
Definition vsafe (b : str) : bool :=
  match b with c :: r => if c =? 118 then forallb (fun c => negb (c =? 32)) r else true | [] => true end.
Definition ltok_ok (t : ltok) : bool :=
  match t with
  | LText ps => forallb piece_ok ps && forallb (no_ch_piece 60) ps
  | LKnown b => tag_body b && vsafe b
  | LUnk b => unknown_body b && vsafe b && forallb (fun c => negb (c =? 38)) b
  | LVoice cls pn => forallb class_ok cls && forallb piece_ok pn && forallb (no_ch_piece 60) pn && forallb (no_ch_piece 62) pn
  end.
Definition lrender (t : ltok) : str :=
  match t with
  | LText ps => prender ps
  | LKnown b => 60 :: b ++ [62]
  | LUnk b => 60 :: b ++ [62]
  | LVoice cls pn => lit "<v" ++ dotted cls ++ lit " " ++ prender pn ++ lit ">"
  end.
Definition lrender_all (l : list ltok) : str := flat_map lrender l.
Definition seg1 (t : ltok) : vseg :=
  match t with
  | LText ps => SText (prender ps)
  | LKnown b => SKnown b
  | LUnk b => SUnknown b
  | LVoice _ pn => SText (prender pn ++ lit ": ")
  end.
Definition lpieces (t : ltok) : list piece :=
  match t with
  | LText ps => ps
  | LKnown _ => []
  | LUnk b => map PRaw (60 :: b ++ [62])
  | LVoice _ pn => pn ++ [PRaw 58; PRaw 32]
  end.

Lemma prender_app : forall a b, prender (a ++ b) = prender a ++ prender b.
Proof. intros. unfold prender. apply flat_map_app. Qed.
Lemma prender_raw : forall s, prender (map PRaw s) = s.
Proof. induction s as [|c s IH]; [reflexivity|]. cbn. unfold prender in IH. rewrite IH. reflexivity. Qed.
Lemma prender_no_ch : forall x ps, x <> 38 -> x <> 59 -> forallb (no_ch_piece x) ps = true ->
  forallb (fun c => negb (c =? x)) (prender ps) = true.
Proof.
  intros x ps H1 H2. apply forallb_flat_map. intros [c|n] Hp; cbn [render_piece no_ch_piece forallb] in *.
  - rewrite Hp. reflexivity.
  - rewrite forallb_app, Hp. cbn [forallb]. destruct (Z.eqb_spec 38 x); [congruence|]. destruct (Z.eqb_spec 59 x); [congruence|]. reflexivity.
Qed.

Lemma voice_sub_nil : forall f, voice_sub_aux f [] = [].
Proof. destruct f; reflexivity. Qed.

Lemma voice_text : forall s f R, forallb (fun c => negb (c =? 60)) s = true ->
  voice_sub_aux (length s + f) (s ++ R) = s ++ voice_sub_aux f R.
Proof.
  induction s as [|c s IH]; intros f R H; [reflexivity|].
  cbn [forallb] in H. apply andb_true_iff in H. destruct H as [Hc Hs].
  cbn [length Nat.add app voice_sub_aux]. destruct (c =? 60); [discriminate|]. rewrite IH by exact Hs. reflexivity.
Qed.

(* one step of (\.\w+)* on a symbolic first character *)
Lemma voice_classes_step : forall f a s,
  voice_classes (S f) (a :: s) =
  if a =? 46 then match s with
                  | c :: t => if is_word c then voice_classes f (drop_while is_word (c :: t)) else a :: s
                  | [] => a :: s
                  end
  else a :: s.
Proof.
  intros f a s. destruct (Z.eqb_spec a 46) as [->|N].
  - destruct s; reflexivity.
  - destruct a as [|p|p]; try reflexivity.
    do 6 (try (destruct p as [p|p|]; try reflexivity)). exfalso. apply N. reflexivity.
Qed.

(* the class suffixes never run past the closing bracket *)
Lemma voice_classes_suffix : forall f r R, exists r',
  voice_classes f (r ++ 62 :: R) = r' ++ 62 :: R /\ (forall P : Z -> bool, forallb P r = true -> forallb P r' = true).
Proof.
  induction f as [|f IH]; intros r R; [exists r; split; [reflexivity|auto]|].
  destruct r as [|a r1].
  - exists []. split; [|auto]. cbn [app]. rewrite voice_classes_step. reflexivity.
  - cbn [app]. rewrite voice_classes_step. destruct (a =? 46); [|exists (a :: r1); split; [reflexivity|auto]].
    destruct r1 as [|c r2].
    + cbn [app]. exists [a]. split; [reflexivity|auto].
    + cbn [app]. destruct (is_word c) eqn:Hw; [|exists (a :: c :: r2); split; [reflexivity|auto]].
      change (c :: r2 ++ 62 :: R) with ((c :: r2) ++ 62 :: R). rewrite (drop_while_before is_word _ 62 R eq_refl).
      destruct (IH (drop_while is_word (c :: r2)) R) as [r' [E HP]]. exists r'. split; [exact E|].
      intros P H. apply HP. apply forallb_drop_while. cbn [forallb] in H. apply andb_true_iff in H. apply H.
Qed.

Lemma voice_match_head : forall s x s', voice_classes (length s) s = x :: s' -> x <> 32 -> voice_match s = None.
Proof.
  intros s x s' E N. unfold voice_match. rewrite E.
  destruct x as [|p|p]; try reflexivity.
  do 6 (try (destruct p as [p|p|]; try reflexivity)). exfalso. apply N. reflexivity.
Qed.

Lemma voice_match_safe : forall r R, forallb (fun c => negb (c =? 32)) r = true -> voice_match (r ++ 62 :: R) = None.
Proof.
  intros r R H. destruct (voice_classes_suffix (length (r ++ 62 :: R)) r R) as [r' [E HP]].
  destruct r' as [|x r''].
  - apply (voice_match_head _ 62 R E). discriminate.
  - apply (voice_match_head _ x (r'' ++ 62 :: R) E). specialize (HP _ H). cbn [forallb] in HP.
    apply andb_true_iff in HP. destruct HP as [Hx _]. intros ->. discriminate.
Qed.

Lemma voice_tag_fail : forall b R f, vsafe b = true ->
  voice_sub_aux (S f) (60 :: b ++ 62 :: R) = 60 :: voice_sub_aux f (b ++ 62 :: R).
Proof.
  intros b R f H. cbn [voice_sub_aux]. rewrite Z.eqb_refl. destruct b as [|d r].
  - reflexivity.
  - cbn [app]. cbn [vsafe] in H. destruct (d =? 118); [|reflexivity]. rewrite (voice_match_safe r R H). reflexivity.
Qed.

Lemma voice_tag_copied : forall b R f, vsafe b = true -> no_angle b = true ->
  voice_sub_aux (length (60 :: b ++ [62]) + f) ((60 :: b ++ [62]) ++ R) = (60 :: b ++ [62]) ++ voice_sub_aux f R.
Proof.
  intros b R f Hv Hn. cbn [length app Nat.add]. rewrite <- !app_assoc. cbn [app]. rewrite voice_tag_fail by exact Hv. f_equal.
  change (b ++ 62 :: R) with (b ++ [62] ++ R). rewrite app_assoc, voice_text.
  - rewrite <- app_assoc. reflexivity.
  - rewrite forallb_app, (no_angle_no_lt b Hn). reflexivity.
Qed.

(* any surplus k of fuel: a voice tag uses one unit for all its characters *)
Lemma voice_stage : forall l k, forallb ltok_ok l = true ->
  voice_sub_aux (length (lrender_all l) + k) (lrender_all l) = srender (map seg1 l).
Proof.
  induction l as [|t l IH]; intros k Hok; [apply voice_sub_nil|].
  cbn [forallb] in Hok. apply andb_true_iff in Hok. destruct Hok as [Ht Hl].
  unfold lrender_all, srender in *. cbn [flat_map map].
  destruct t as [ps|b|b|cls pn]; cbn [ltok_ok lrender seg1 seg_render] in *.
  - apply andb_true_iff in Ht. destruct Ht as [_ Hlt].
    rewrite app_length, <- Nat.add_assoc, voice_text, (IH _ Hl); [reflexivity|].
    apply prender_no_ch; [discriminate|discriminate|exact Hlt].
  - apply andb_true_iff in Ht. destruct Ht as [Hk Hv].
    rewrite app_length, <- Nat.add_assoc, voice_tag_copied, (IH _ Hl); [reflexivity|exact Hv|apply tag_no_angle, Hk].
  - apply andb_true_iff in Ht. destruct Ht as [Ht _]. apply andb_true_iff in Ht. destruct Ht as [Hk Hv].
    rewrite app_length, <- Nat.add_assoc, voice_tag_copied, (IH _ Hl); [reflexivity|exact Hv|apply unknown_no_angle, Hk].
  - apply andb_true_iff in Ht. destruct Ht as [Ht Hgt]. apply andb_true_iff in Ht. destruct Ht as [Ht _].
    apply andb_true_iff in Ht. destruct Ht as [Hc _].
    set (rest := flat_map lrender l) in *. set (body := dotted cls ++ lit " " ++ prender pn ++ lit ">").
    assert (E : (length ((lit "<v" ++ body) ++ rest) + k = S (length rest + (length body + S k)))%nat)
      by (rewrite app_length; change (length (lit "<v" ++ body)) with (S (S (length body))); lia).
    rewrite E. unfold body, dotted. rewrite <- !app_assoc.
    rewrite (vtt_voice_tag cls (prender pn) _ _ Hc), (IH _ Hl), app_assoc; [reflexivity|].
    apply prender_no_ch; [discriminate|discriminate|exact Hgt].
Qed.

Lemma seg1_ok : forall t, ltok_ok t = true -> seg_ok (seg1 t) = true.
Proof.
  intros [ps|b|b|cls pn] H; cbn [ltok_ok seg1 seg_ok] in *.
  - apply andb_true_iff in H. apply prender_no_ch; [discriminate|discriminate|apply H].
  - apply andb_true_iff in H. apply H.
  - apply andb_true_iff in H. destruct H as [H _]. apply andb_true_iff in H. apply H.
  - apply andb_true_iff in H. destruct H as [H _]. apply andb_true_iff in H. destruct H as [_ Hlt].
    rewrite forallb_app. rewrite (prender_no_ch 60 pn) by (try discriminate; exact Hlt). reflexivity.
Qed.

Lemma seg1_display : forall t, seg_display (seg1 t) = prender (lpieces t).
Proof.
  intros [ps|b|b|cls pn]; cbn [seg1 seg_display lpieces]; try reflexivity.
  - rewrite prender_raw. reflexivity.
  - rewrite prender_app. reflexivity.
Qed.

Lemma lpieces_ok : forall t, ltok_ok t = true -> forallb piece_ok (lpieces t) = true.
Proof.
  intros [ps|b|b|cls pn] H; cbn [ltok_ok lpieces] in *.
  - apply andb_true_iff in H. apply H.
  - reflexivity.
  - apply andb_true_iff in H. destruct H as [_ H]. cbn [map forallb piece_ok]. rewrite map_app, forallb_app.
    rewrite (forallb_map_mono _ piece_ok PRaw b (fun c Hc => Hc) H). reflexivity.
  - apply andb_true_iff in H. destruct H as [H _]. apply andb_true_iff in H. destruct H as [H _]. apply andb_true_iff in H.
    destruct H as [_ Hp]. rewrite forallb_app, Hp. reflexivity.
Qed.

(* what the reader model makes of one source line (before its strip): the decoded pieces *)
Theorem line_decode : forall l, forallb ltok_ok l = true ->
  vtt_entities (other_sub true (voice_sub (lrender_all l))) = prender (map decode_piece (flat_map lpieces l)).
Proof.
  intros l H. unfold voice_sub. rewrite <- Nat.add_1_r, (voice_stage l _ H).
  rewrite vtt_tags_by_name.
  - assert (D : sdisplay (map seg1 l) = prender (flat_map lpieces l)).
    { clear H. unfold sdisplay. induction l as [|t l IH]; [reflexivity|]. cbn [map flat_map]. rewrite prender_app, seg1_display, IH. reflexivity. }
    rewrite D. apply vtt_entities_once, (forallb_flat_map _ _ _ _ lpieces_ok), H.
  - apply (forallb_map_mono _ _ _ _ seg1_ok), H.
Qed.

Definition pc (sc : schar) : piece :=
  let (c, sp) := sc in
  if (sp =? 1) || must_escape c then match name_of c vtt_names with Some n => PEnt n | None => PRaw c end else PRaw c.
(* spellings raw / WebVTT-named only: numeric and HTML named references are read literally by the reader (known finding) *)
Definition schar_ok (sc : schar) : bool := ((snd sc =? 0) || (snd sc =? 1)) && negb (fst sc =? 10).
Definition schar_ok_voice (sc : schar) : bool := schar_ok sc && (negb (fst sc =? 62) || (snd sc =? 1)).

Lemma name_of_in : forall c l n, name_of c l = Some n -> In (c, n) l.
Proof.
  intros c l n. induction l as [|[c' n'] l IH]; intros H; [discriminate|]. cbn [name_of] in H.
  destruct (Z.eqb_spec c c') as [<-|_]; [injection H as <-; left; reflexivity|right; apply IH, H].
Qed.

Lemma name_of_vtt : forall c n, name_of c vtt_names = Some n ->
  vtt_ref_value n = Some c /\ name_ok n = true /\
  no_ch_piece 60 (PEnt n) = true /\ no_ch_piece 62 (PEnt n) = true /\ no_ch_piece 10 (PEnt n) = true.
Proof.
  intros c n H. apply name_of_in in H. cbn [vtt_names In] in H.
  repeat destruct H as [H|H]; try (injection H as <- <-; repeat split; reflexivity). destruct H.
Qed.

Lemma spell_pc : forall sc, schar_ok sc = true -> spell F_VTT sc = render_piece (pc sc).
Proof.
  intros [c sp] H. unfold schar_ok in H. cbn [fst snd] in H. apply andb_true_iff in H. destruct H as [H _].
  unfold spell, pc. change (names_for F_VTT) with vtt_names.
  apply orb_true_iff in H. destruct H as [H|H]; apply Z.eqb_eq in H; subst sp;
    destruct (must_escape c); destruct (name_of c vtt_names); reflexivity.
Qed.

Lemma pc_cases : forall c sp,
  (exists n, pc (c, sp) = PEnt n /\ name_of c vtt_names = Some n) \/
  (pc (c, sp) = PRaw c /\ (c =? 38) = false /\ (c =? 60) = false /\ ((c =? 62) = false \/ (sp =? 1) = false)).
Proof.
  intros c sp. unfold pc. destruct (name_of c vtt_names) as [n|] eqn:E.
  - destruct ((sp =? 1) || must_escape c) eqn:Q; [left; exists n; split; reflexivity|right].
    apply orb_false_iff in Q. destruct Q as [Q1 Q2]. apply orb_false_iff in Q2. destruct Q2 as [A B]. auto.
  - right. unfold vtt_names in E. cbn [name_of] in E.
    destruct (c =? 38); [discriminate|]. destruct (c =? 60); [discriminate|]. destruct (c =? 62); [discriminate|].
    destruct ((sp =? 1) || must_escape c); auto.
Qed.

Lemma pc_facts : forall sc, schar_ok sc = true ->
  piece_ok (pc sc) = true /\ no_ch_piece 60 (pc sc) = true /\ no_ch_piece 10 (pc sc) = true /\ decode_piece (pc sc) = PRaw (fst sc).
Proof.
  intros [c sp] H. unfold schar_ok in H. cbn [fst snd] in H. apply andb_true_iff in H. destruct H as [_ H10].
  destruct (pc_cases c sp) as [(n & -> & E)|(-> & N38 & N60 & _)].
  - destruct (name_of_vtt c n E) as (V & Nk & F60 & _ & F10). cbn [piece_ok decode_piece]. rewrite V. auto.
  - cbn [piece_ok no_ch_piece decode_piece]. rewrite N38, N60, H10. auto.
Qed.

Lemma pc_no_gt : forall sc, schar_ok_voice sc = true -> no_ch_piece 62 (pc sc) = true.
Proof.
  intros [c sp] H. unfold schar_ok_voice in H. apply andb_true_iff in H. destruct H as [_ H]. cbn [fst snd] in H.
  destruct (pc_cases c sp) as [(n & -> & E)|(-> & _ & _ & [N|N])]; cbn [no_ch_piece].
  - apply (name_of_vtt c n E).
  - rewrite N. reflexivity.
  - rewrite N, orb_false_r in H. exact H.
Qed.

Lemma pcs_facts : forall cs, forallb schar_ok cs = true ->
  spell_all F_VTT cs = prender (map pc cs) /\ forallb piece_ok (map pc cs) = true /\
  forallb (no_ch_piece 60) (map pc cs) = true /\ forallb (no_ch_piece 10) (map pc cs) = true /\
  map decode_piece (map pc cs) = map PRaw (chars cs).
Proof.
  induction cs as [|sc cs IH]; intros H; [repeat split; reflexivity|].
  cbn [forallb] in H. apply andb_true_iff in H. destruct H as [Hs Hcs].
  destruct (IH Hcs) as (A & B & C & D & E). destruct (pc_facts sc Hs) as (P1 & P2 & P3 & P4).
  unfold spell_all, chars, prender in *. cbn [flat_map map forallb]. rewrite (spell_pc sc Hs), A, B, C, D, E, P1, P2, P3, P4.
  repeat split; reflexivity.
Qed.

Definition open_body (k : Z) : str := fst (tag_of F_VTT k) ++ vtt_annot k.
Definition close_body (k : Z) : str := 47 :: fst (tag_of F_VTT k).
Definition no10 (s : str) : bool := forallb (fun c => negb (c =? 10)) s.
Definition tag_chk (k : Z) : bool :=
  known_body (open_body k) && vsafe (open_body k) && no10 (open_body k) &&
  known_body (close_body k) && vsafe (close_body k) && no10 (close_body k).
(* k mod 10 in 0..7 = i b u c ruby rt lang v ; k / 10 in 0..5 = the six start-tag shapes *)
Definition tag_k_ok (k : Z) : bool := (0 <=? k) && (k <? 60) && (k mod 10 <=? 7).

Lemma tags_checked : forallb (fun n => let k := Z.of_nat n in if tag_k_ok k then tag_chk k else true) (seq 0 60) = true.
Proof. vm_compute. reflexivity. Qed.

Lemma tag_facts : forall k, tag_k_ok k = true ->
  (tag_body (open_body k) = true /\ vsafe (open_body k) = true /\ no10 (open_body k) = true) /\
  (tag_body (close_body k) = true /\ vsafe (close_body k) = true /\ no10 (close_body k) = true).
Proof.
  intros k H. assert (R : 0 <= k < 60) by (unfold tag_k_ok in H; lia).
  assert (I : In (Z.to_nat k) (seq 0 60)) by (apply in_seq; lia).
  pose proof tags_checked as T. rewrite forallb_forall in T. specialize (T _ I).
  cbv zeta in T. rewrite Z2Nat.id, H in T by apply R. unfold tag_chk in T.
  do 5 (apply andb_true_iff in T; destruct T as [T ?]). unfold tag_body. rewrite T.
  match goal with Hk : known_body (close_body k) = true |- _ => rewrite Hk end. auto.
Qed.

Lemma ser_open : forall k, ser_item F_VTT (IOpen k) = 60 :: open_body k ++ [62].
Proof.
  intros k. unfold open_body, ser_item. destruct (tag_of F_VTT k) as [n a]. cbn [fst]. rewrite <- app_assoc. reflexivity.
Qed.

(* unknown tags: a name of letters, digits, _ and -, beginning with a letter, that WebVTT does not define *)
Definition uname_ok (name : str) : bool := unknown_body name && forallb tag_name_char name.
Definition unk_body (close : bool) (name : str) : str := (if close then [47] else []) ++ name.

Lemma unk_body_ok : forall close name, uname_ok name = true ->
  unknown_body (unk_body close name) = true /\ vsafe (unk_body close name) = true /\
  forallb (fun c => negb (c =? 38)) (unk_body close name) = true /\ no10 (unk_body close name) = true.
Proof.
  intros close name H. unfold uname_ok in H. apply andb_true_iff in H. destruct H as [Hu Hn].
  pose proof (class_no_ch tag_name_char 38 name eq_refl Hn) as A38.
  pose proof (class_no_ch tag_name_char 10 name eq_refl Hn) as A10.
  destruct close; unfold unk_body, no10; cbn [app forallb]; rewrite A38, A10; (split; [|split; [|split; reflexivity]]).
  - (* "/name": the slash is stripped, what is left is the name, which has no slash to strip *)
    unfold unknown_body in *. replace (strip_slash name) with name in Hu; [exact Hu|].
    destruct name as [|c n]; [reflexivity|]. cbn [forallb] in Hn. apply andb_true_iff in Hn. destruct Hn as [Hc _].
    cbn [strip_slash]. rewrite (class_neq _ c 47 Hc eq_refl). reflexivity.
  - reflexivity.
  - exact Hu.
  - destruct name as [|c n]; [reflexivity|]. cbn [vsafe]. destruct (c =? 118); [|reflexivity].
    cbn [forallb] in Hn. apply andb_true_iff in Hn. apply (class_no_ch tag_name_char 32 n eq_refl), Hn.
Qed.

Definition vtt_item_ok (it : item) : bool :=
  match it with
  | ITxt cs => forallb schar_ok cs
  | IWrap _ => true
  | IEnt _ c => negb (c =? 38) && negb (c =? 60) && negb (c =? 10)
  | IBr => true
  | IOpen k => tag_k_ok k
  | IClose k => tag_k_ok k
  | IVoice cls nm => forallb class_ok cls && forallb schar_ok_voice nm
  | IStamp s => stamp_body s              (* H+:MM[:SS].mmm *)
  | IUnk _ name => uname_ok name
  | ICom _ => true
  | IPi _ => true
  end.
Definition not_br (it : item) : bool := match it with IBr => false | _ => true end.

Definition toks (it : item) : list ltok :=
  match it with
  | ITxt cs => [LText (map pc cs)]
  | IWrap _ => [LText [PRaw 32]]
  | IEnt _ c => [LText [PRaw c]]
  | IOpen k => [LKnown (open_body k)]
  | IClose k => [LKnown (close_body k)]
  | IVoice cls nm => [LVoice cls (map pc nm)]
  | IUnk close name => [LUnk (unk_body close name)]
  | IStamp s => [LKnown s]
  | _ => []
  end.
Definition disp_item (it : item) : str :=
  match it with
  | ITxt cs => chars cs
  | IWrap _ => [32]
  | IEnt _ c => [c]
  | IVoice _ nm => chars nm ++ lit ": "
  | IUnk close name => lit "<" ++ (if close then lit "/" else []) ++ name ++ lit ">"
  | _ => []
  end.

Lemma classes_no10 : forall cls, forallb class_ok cls = true -> no10 (dotted cls) = true.
Proof.
  intros cls. unfold dotted, no10. rewrite <- flat_map_concat_map. apply forallb_flat_map. intros c Hc.
  destruct c as [|x c]; [discriminate|]. (* the dot in front is checked by conversion *)
  exact (class_no_ch is_word 10 (x :: c) eq_refl Hc).
Qed.

(* an item that is one token: the four facts from the token's *)
Lemma tok_item : forall it t, toks it = [t] -> ser_item F_VTT it = lrender t -> ltok_ok t = true ->
  prender (map decode_piece (lpieces t)) = disp_item it -> no10 (lrender t) = true ->
  ser_item F_VTT it = lrender_all (toks it) /\ forallb ltok_ok (toks it) = true /\
  prender (map decode_piece (flat_map lpieces (toks it))) = disp_item it /\ no10 (ser_item F_VTT it) = true.
Proof. intros it t -> -> Hok <- Hn. unfold lrender_all. cbn [flat_map forallb]. rewrite !app_nil_r, Hok. auto. Qed.

Lemma known_tok : forall b, tag_body b = true -> vsafe b = true -> no10 b = true ->
  ltok_ok (LKnown b) = true /\ no10 (lrender (LKnown b)) = true.
Proof.
  intros b Hk Hv Hn. unfold no10 in *. cbn [ltok_ok lrender forallb]. rewrite Hk, Hv, forallb_app, Hn. split; reflexivity.
Qed.

Lemma item_toks : forall it, vtt_item_ok it = true -> not_br it = true ->
  ser_item F_VTT it = lrender_all (toks it) /\ forallb ltok_ok (toks it) = true /\
  prender (map decode_piece (flat_map lpieces (toks it))) = disp_item it /\ no10 (ser_item F_VTT it) = true.
Proof.
  intros it H Hb.
  destruct it as [cs|n|nm c| |k|k|cls nm|s|cl nm|s|s]; cbn [vtt_item_ok not_br] in *; try discriminate.
  - destruct (pcs_facts cs H) as (A & B & C & D & E).
    apply (tok_item (ITxt cs) (LText (map pc cs)) eq_refl A); cbn [ltok_ok lpieces lrender disp_item].
    + rewrite B, C. reflexivity.
    + rewrite E. apply prender_raw.
    + apply prender_no_ch; [discriminate|discriminate|exact D].
  - repeat split; reflexivity.
  - apply andb_true_iff in H. destruct H as [H H10]. apply andb_true_iff in H. destruct H as [H38 H60].
    apply (tok_item (IEnt nm c) (LText [PRaw c]) eq_refl eq_refl).
    + cbn [ltok_ok forallb piece_ok no_ch_piece]. rewrite H38, H60. reflexivity.
    + reflexivity.
    + cbn [lrender]. unfold no10, prender. cbn [flat_map render_piece app forallb]. rewrite H10. reflexivity.
  - destruct (tag_facts k H) as [(A & B & C) _]. destruct (known_tok _ A B C) as [K N].
    exact (tok_item (IOpen k) (LKnown (open_body k)) eq_refl (ser_open k) K eq_refl N).
  - destruct (tag_facts k H) as [_ (A & B & C)]. destruct (known_tok _ A B C) as [K N].
    exact (tok_item (IClose k) (LKnown (close_body k)) eq_refl eq_refl K eq_refl N).
  - apply andb_true_iff in H. destruct H as [Hc Hn].
    destruct (pcs_facts nm (forallb_weaken _ _ nm (fun sc Hs => proj1 (andb_prop _ _ Hs)) Hn)) as (A & B & C & D & E).
    apply (tok_item (IVoice cls nm) (LVoice cls (map pc nm)) eq_refl); cbn [ser_item ltok_ok lpieces lrender disp_item].
    + change (F_VTT =? F_VTT) with true. cbv iota. rewrite A. reflexivity.
    + rewrite Hc, B, C, (forallb_map_mono _ _ pc nm pc_no_gt Hn). reflexivity.
    + rewrite map_app, E, prender_app, prender_raw. reflexivity.
    + unfold no10. rewrite !forallb_app. fold (no10 (dotted cls)). rewrite (classes_no10 cls Hc).
      rewrite (prender_no_ch 10 (map pc nm)) by (try discriminate; exact D). reflexivity.
  - (* timestamp tag: digits, ':' and '.' only *)
    destruct (stamp_chars s H) as (SC & x & t & Es & Hx).
    destruct (known_tok s) as [K N]; [| | |exact (tok_item (IStamp s) (LKnown s) eq_refl eq_refl K eq_refl N)].
    + unfold tag_body. rewrite H, andb_true_r. apply orb_true_iff. right. apply (forallb_weaken stamp_char); [|exact SC].
      intros c Hc. rewrite (class_neq _ c 60 Hc eq_refl), (class_neq _ c 62 Hc eq_refl). reflexivity.
    + subst s. cbn [vsafe]. rewrite (class_neq is_digit x 118 Hx eq_refl). reflexivity.
    + apply (class_no_ch stamp_char 10 s eq_refl SC).
  - destruct (unk_body_ok cl nm H) as (U1 & U2 & U3 & U4).
    apply (tok_item (IUnk cl nm) (LUnk (unk_body cl nm)) eq_refl); cbn [ser_item ltok_ok lpieces lrender disp_item]; unfold unk_body in *.
    + destruct cl; reflexivity.
    + rewrite U1, U2, U3. reflexivity.
    + rewrite map_map. cbn [decode_piece]. rewrite prender_raw. destruct cl; reflexivity.
    + unfold no10 in *. cbn [forallb]. rewrite forallb_app, U4. reflexivity.
  - repeat split; reflexivity.
  - repeat split; reflexivity.
Qed.

Definition line_item_ok (it : item) : bool := vtt_item_ok it && not_br it.
Definition ser_line (its : list item) : str := flat_map (ser_item F_VTT) its.
Definition disp_line (its : list item) : str := flat_map disp_item its.

Lemma line_facts : forall its, forallb line_item_ok its = true ->
  ser_line its = lrender_all (flat_map toks its) /\ forallb ltok_ok (flat_map toks its) = true /\
  prender (map decode_piece (flat_map lpieces (flat_map toks its))) = disp_line its /\ no10 (ser_line its) = true.
Proof.
  unfold ser_line, disp_line, lrender_all, no10. induction its as [|it its IH]; intros H; [repeat split; reflexivity|].
  cbn [forallb] in H. apply andb_true_iff in H. destruct H as [Hi Hits]. unfold line_item_ok in Hi. apply andb_true_iff in Hi.
  destruct Hi as [Ho Hb]. destruct (item_toks it Ho Hb) as (A & B & C & D). destruct (IH Hits) as (A' & B' & C' & D').
  cbn [flat_map]. unfold lrender_all, no10 in *.
  rewrite !flat_map_app, !forallb_app, map_app, prender_app, A, A', B, B', C, C', <- A, <- A', D, D'. repeat split; reflexivity.
Qed.

(* the reader model on one source line without white space at its ends *)
Theorem line_end_to_end : forall its, forallb line_item_ok its = true -> strip (ser_line its) = ser_line its ->
  vtt_decode true (ser_line its) = disp_line its.
Proof.
  intros its H Hs. destruct (line_facts its H) as (A & B & C & _).
  unfold vtt_decode. rewrite Hs, A, (line_decode _ B). exact C.
Qed.

Fixpoint split_br (items : list item) : list (list item) :=
  match items with
  | [] => [[]]
  | IBr :: t => [] :: split_br t
  | x :: t => match split_br t with l :: ls => (x :: l) :: ls | [] => [[x]] end
  end.

Lemma split_br_nonnil : forall items, split_br items <> [].
Proof. induction items as [|it items IH]; [discriminate|]. destruct it; cbn [split_br]; try discriminate; destruct (split_br items); congruence. Qed.

Lemma split_br_cons : forall it items, not_br it = true ->
  split_br (it :: items) = match split_br items with l :: ls => (it :: l) :: ls | [] => [[it]] end.
Proof. intros it items H. destruct it; try reflexivity; discriminate. Qed.

(* the lines of a cue under a rendering g of its items: what display_split and serialise_split both say *)
Definition lines_by (g : item -> str) (items : list item) (cur : str) : list str :=
  match split_br items with l0 :: ls => (cur ++ flat_map g l0) :: map (flat_map g) ls | [] => [cur] end.

Lemma lines_by_cons : forall g it items cur, not_br it = true ->
  lines_by g (it :: items) cur = lines_by g items (cur ++ g it).
Proof.
  intros g it items cur H. unfold lines_by. rewrite (split_br_cons it items H). pose proof (split_br_nonnil items) as N.
  destruct (split_br items) as [|l0 ls]; [congruence|]. cbn [flat_map]. rewrite app_assoc. reflexivity.
Qed.
Lemma lines_by_br : forall g items cur, lines_by g (IBr :: items) cur = cur :: lines_by g items [].
Proof.
  intros g items cur. unfold lines_by. cbn [split_br flat_map map]. rewrite app_nil_r. pose proof (split_br_nonnil items) as N.
  destruct (split_br items) as [|l0 ls]; [congruence|reflexivity].
Qed.

Lemma display_step : forall it t cur, not_br it = true -> display_aux (it :: t) cur = display_aux t (cur ++ disp_item it).
Proof.
  intros it t cur H. destruct it; cbn [not_br] in H; try discriminate; cbn [display_aux disp_item]; rewrite ?app_nil_r; try reflexivity.
Qed.

Lemma display_split : forall items cur, 
  display_aux items cur = match split_br items with l0 :: ls => (cur ++ disp_line l0) :: map disp_line ls | [] => [cur] end.
Proof.
  intros items cur. change (display_aux items cur = lines_by disp_item items cur). revert cur.
  induction items as [|it items IH]; intros cur.
  - cbn. rewrite app_nil_r. reflexivity.
  - destruct (not_br it) eqn:Hb.
    + rewrite display_step, IH, lines_by_cons by exact Hb. reflexivity.
    + destruct it; try discriminate. cbn [display_aux]. rewrite IH, lines_by_br. reflexivity.
Qed.

Lemma split_lines_ok : forall items, forallb vtt_item_ok items = true ->
  forallb (forallb line_item_ok) (split_br items) = true.
Proof.
  induction items as [|it items IH]; intros H; [reflexivity|]. cbn [forallb] in H. apply andb_true_iff in H. destruct H as [Hi Hits].
  specialize (IH Hits). destruct (not_br it) eqn:Hb.
  - rewrite (split_br_cons it items Hb). pose proof (split_br_nonnil items) as N.
    destruct (split_br items) as [|l0 ls]; [congruence|]. cbn [forallb] in *. unfold line_item_ok at 1. rewrite Hi, Hb. exact IH.
  - destruct it; try discriminate. exact IH.
Qed.

(* a serialisation g whose items other than IBr hold no separator and show as h, cut at the separator *)
Lemma serialise_lines : forall (g h : item -> str) (sep : Z) (ok : item -> bool), g IBr = [sep] ->
  (forall it, ok it = true -> not_br it = true -> g it = h it /\ forallb (fun c => negb (c =? sep)) (g it) = true) ->
  forall items cur, forallb ok items = true -> forallb (fun c => negb (c =? sep)) cur = true ->
  split_ch sep (cur ++ flat_map g items) = lines_by h items cur.
Proof.
  intros g h sep ok Hbr Hg. induction items as [|it items IH]; intros cur H Hc.
  - cbn [flat_map]. rewrite split_ch_app_nosep by exact Hc. cbn. rewrite !app_nil_r. reflexivity.
  - cbn [forallb] in H. apply andb_true_iff in H. destruct H as [Hi Hits].
    cbn [flat_map]. destruct (not_br it) eqn:Hb.
    + destruct (Hg it Hi Hb) as [E D].
      rewrite app_assoc, IH, lines_by_cons, E; [reflexivity|exact Hb|exact Hits|]. rewrite forallb_app, Hc, D. reflexivity.
    + destruct it; try discriminate.
      rewrite Hbr, split_ch_app_nosep by exact Hc. cbn [app]. rewrite split_ch_cons_sep.
      cbn [app]. pose proof (IH [] Hits eq_refl) as Q. cbn [app] in Q. rewrite app_nil_r, Q, lines_by_br. reflexivity.
Qed.

Lemma serialise_split : forall items cur, forallb vtt_item_ok items = true -> no10 cur = true ->
  split_ch 10 (cur ++ serialise F_VTT items) =
  match split_br items with l0 :: ls => (cur ++ ser_line l0) :: map ser_line ls | [] => [cur] end.
Proof.
  intros items cur. apply (serialise_lines (ser_item F_VTT) (ser_item F_VTT) 10 vtt_item_ok eq_refl).
  intros it Hi Hb. split; [reflexivity|apply (item_toks it Hi Hb)].
Qed.

Lemma node_lines_intersperse : forall (g : str -> str) ls, ls <> [] ->
  node_lines (intersperse_break (map (fun l => NText (g l)) ls)) = map g ls.
Proof.
  unfold node_lines. induction ls as [|l ls IH]; intros H; [congruence|]. destruct ls as [|l2 ls'].
  - reflexivity.
  - change (intersperse_break (map (fun l0 => NText (g l0)) (l :: l2 :: ls')))
      with (NText (g l) :: NBreak :: intersperse_break (map (fun l0 => NText (g l0)) (l2 :: ls'))).
    cbn [node_lines_aux app]. rewrite IH by discriminate. reflexivity.
Qed.

Lemma read_vtt_lines : forall items, forallb vtt_item_ok items = true ->
  node_lines (read_vtt true items) = map (fun l => vtt_decode true (ser_line l)) (split_br items) /\
  SpecTextRead.display items = map disp_line (split_br items) /\
  split_ch 10 (serialise F_VTT items) = map ser_line (split_br items) /\
  forallb (forallb line_item_ok) (split_br items) = true.
Proof.
  intros items H. unfold read_vtt, vtt_cue_nodes, SpecTextRead.display.
  pose proof (serialise_split items [] H eq_refl) as S. pose proof (display_split items []) as P.
  pose proof (split_lines_ok items H) as L. pose proof (split_br_nonnil items) as N.
  destruct (split_br items) as [|l0 ls]; [congruence|]. cbn [app] in S, P.
  change (split_ch 10 (serialise F_VTT items) = map ser_line (l0 :: ls)) in S.
  change (display_aux items [] = map disp_line (l0 :: ls)) in P.
  rewrite S, P, node_lines_intersperse, map_map by discriminate. auto.
Qed.

(* the source lines of the cue neither begin nor end with white space (the reader strips every line first) *)
Definition lines_trimmed (items : list item) : bool :=
  forallb (fun l => str_eqb (strip l) l) (split_ch 10 (serialise F_VTT items)).

Theorem vtt_end_to_end_exact : forall items, forallb vtt_item_ok items = true -> lines_trimmed items = true ->
  node_lines (read_vtt true items) = SpecTextRead.display items.
Proof.
  intros items H Ht. destruct (read_vtt_lines items H) as (R & P & S & L). unfold lines_trimmed in Ht.
  rewrite S, forallb_forall in Ht. rewrite R, P. rewrite forallb_forall in L. apply map_ext_in. intros l Hl.
  apply line_end_to_end; [apply L, Hl|apply str_eqb_eq, Ht, in_map, Hl].
Qed.

Theorem vtt_end_to_end : forall items, forallb vtt_item_ok items = true -> lines_trimmed items = true ->
  ok_lines_a (SpecTextRead.display items) (node_lines (read_vtt true items)) = true.
Proof. intros items H Ht. rewrite (vtt_end_to_end_exact items H Ht). apply strs_eqb_refl. Qed.

(* non-vacuity: entities in both spellings, a known tag with classes and annotation, a voice tag, an unknown tag, two lines *)
Definition vtt_example : list item :=
  [IVoice [lit "loud"] [(66, 0); (111, 0); (98, 0)]; ITxt [(82, 0); (38, 1); (68, 0); (32, 0); (60, 1)]; IOpen 53; ITxt [(120, 0)];
   IClose 3; IBr; IUnk false (lit "bar"); ITxt [(38, 0); (108, 0); (116, 0); (59, 0)]; IUnk true (lit "bar")].
Example vtt_example_ok : forallb vtt_item_ok vtt_example = true /\ lines_trimmed vtt_example = true.
Proof. split; vm_compute; reflexivity. Qed.
Example vtt_example_shows :
  serialise F_VTT vtt_example = lit "<v.loud Bob>R&amp;D &lt;<c.a.b-c some words>x</c>" ++ [10] ++ lit "<bar>&amp;lt;</bar>" /\
  node_lines (read_vtt true vtt_example) = [lit "Bob: R&D <x"; lit "<bar>&lt;</bar>"].
Proof. split; vm_compute; reflexivity. Qed.
