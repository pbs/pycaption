(* C05, stage 1 of the pop-on refinement: a single load with one row of basic characters (control codes single or
   doubled, any row / indent / tab offset) is decoded into exactly one text node carrying the row's characters at the
   row's cursor address, queued at the End-Of-Caption instant; the read-level corollary and the link to ok_c05.
   The pieces every later stage is built from are stated here, on an arbitrary pop-on state: one word (command,
   characters), one control code single or doubled, the prologue ENM RCL, End-Of-Caption, Erase-Displayed-Memory, the
   preamble unit of a row, a run of characters, and the frame prologue ++ rows ++ End-Of-Caption of a load. *)
From Coq Require Import List ZArith QArith Qabs Lia Bool ZifyBool.
From PV Require Import lib.Sx lib.Str lib.Result model.GenScc model.SccLen model.SccTime model.SccStash model.SccDecoder model.SccLayout
                       spec.Spec608 spec.SpecScc05 spec.SpecSccLen proofs.SccTableFacts proofs.SccDoubleFacts
                       proofs.SccLenFacts proofs.SccStashFacts.
Import ListNotations. Open Scope Z_scope.

Definition basic_item (it : item) : bool := match it with Ch _ => true | _ => false end.
(* plain white preamble (style attribute 0), basic characters only *)
Definition basic_row (r : row) : bool := row_ok r && (rw_style r =? 0) && forallb basic_item (rw_items r).
Lemma basic_row_style : forall r, basic_row r = true -> rw_style r = 0.
Proof.
  intros r H. unfold basic_row in H. apply andb_true_iff in H. destruct H as [H _].
  apply andb_true_iff in H. destruct H as [_ H]. apply Z.eqb_eq in H. exact H.
Qed.
Definition row_text (r : row) : str := map (fun it => match it with Ch c => c | _ => 0 end) (rw_items r).
Definition row_pos (r : row) : pos := (rw_row r, rw_indent r + rw_tab r).
Definition start_state (off : Q) (tc : str) : rstate := set_clock (rstate0 off) tc 0.

Fixpoint tws (s : rstate) (ws : list Z) (nx : option Z) : rstate :=
  match ws with
  | [] => s
  | w :: t => tws (translate_word s w (match t with n :: _ => Some n | [] => nx end)) t nx
  end.
Definition nxt (b : list Z) (nx : option Z) : option Z := match b with n :: _ => Some n | [] => nx end.

Lemma tws_words : forall ws s, translate_words s ws = tws s ws None.
Proof. induction ws as [|w t IH]; intros s; [reflexivity|]. cbn [translate_words tws]. apply IH. Qed.

Lemma tws_app : forall a b s nx, tws s (a ++ b) nx = tws (tws s a (nxt b nx)) b nx.
Proof.
  induction a as [|w t IH]; intros b s nx; [reflexivity|].
  cbn [app tws]. rewrite IH. destruct t as [|n t']; reflexivity.
Qed.

Lemma odd_parity_range : forall x, 0 <= odd_parity x < 256.
Proof.
  intros x. unfold odd_parity. cbv zeta. pose proof (Z.mod_pos_bound x 128 ltac:(lia)).
  destruct (Z.even _); lia.
Qed.

Lemma hi_word : forall b1 b2, 0 <= b2 < 256 -> hi (b1 * 256 + b2) = b1.
Proof.
  intros b1 b2 H. unfold hi. rewrite Z.add_comm, Z.div_add by lia. rewrite Z.div_small by lia. reflexivity.
Qed.

Lemma lo_word : forall b1 b2, 0 <= b2 < 256 -> lo (b1 * 256 + b2) = b2.
Proof.
  intros b1 b2 H. unfold lo. rewrite Z.add_comm, Z.mod_add by lia. apply Z.mod_small. lia.
Qed.

Lemma hd_filter_in : forall (f : Z -> bool) l, hd 0 (filter f l) = 0 \/ In (hd 0 (filter f l)) l.
Proof.
  intros f. induction l as [|a l IH]; [left; reflexivity|].
  cbn [filter]. destruct (f a).
  - right. left. reflexivity.
  - destruct IH as [IH|IH]; [left; exact IH|right; right; exact IH].
Qed.

Lemma zrange_bounds : forall lo n x, In x (zrange lo n) -> Z.of_nat lo <= x < Z.of_nat lo + Z.of_nat n.
Proof.
  intros lo n x H. unfold zrange in H. apply in_map_iff in H. destruct H as [k [<- Hk]]. apply in_seq in Hk. lia.
Qed.

Lemma basic_code_cases : forall c, basic_code c = 0 \/ In (basic_code c) (zrange 32 95).
Proof. intros c. exact (hd_filter_in (fun c0 => basic_608 c0 =? c) (zrange 32 95)). Qed.

(* performance only: keep the conversion from evaluating the filter inside basic_code on a variable *)
Local Strategy 1000 [basic_code is_basic].

Lemma is_basic_unfold : forall c, is_basic c = (basic_608 (basic_code c) =? c) && negb (c =? 9608) && (32 <=? basic_code c).
Proof. intros c. unfold is_basic. reflexivity. Qed.

(* (basic_code c is generalised before the boolean reasoning: the kernel must not evaluate the filter) *)
Lemma is_basic_parts : forall c, is_basic c = true -> basic_608 (basic_code c) = c /\ 32 <= basic_code c.
Proof.
  intros c H. rewrite is_basic_unfold in H. generalize dependent (basic_code c). intros b H.
  apply andb_true_iff in H. destruct H as [H H3]. apply andb_true_iff in H. destruct H as [H1 _].
  apply Z.eqb_eq in H1. apply Z.leb_le in H3. split; assumption.
Qed.

Lemma basic_code_range : forall c, is_basic c = true -> 32 <= basic_code c <= 126 /\ basic_608 (basic_code c) = c.
Proof.
  intros c H. destruct (is_basic_parts c H) as [H1 H3]. split; [|exact H1]. split; [exact H3|].
  destruct (basic_code_cases c) as [E|E].
  - rewrite E in H3. lia.
  - apply zrange_bounds in E. lia.
Qed.

Notation bc c := (odd_parity (basic_code c)).

Lemma char_of_pad : char_of 128 = Some [].
Proof. vm_compute. reflexivity. Qed.
Lemma cue_command : forall w, is_cue_start w = true -> is_command w = true.
Proof.
  intros w E. unfold is_cue_start in E.
  destruct control_codes as (_ & _ & _ & _ & _ & _ & _ & _ & _ & _ & F & L).
  apply memz_In in E. apply (proj1 (L w)) in E. rewrite Forall_forall in F. apply F. cbn [In] in *. tauto.
Qed.

Lemma w_eoc_command : is_command w_eoc = true.
Proof. reflexivity. Qed.

Lemma char_word_class : forall w a b, char_of (hi w) = Some a -> char_of (lo w) = Some b ->
  is_command w = false /\ is_pac w = false /\ special_of w = None /\ extended_of w = None /\
  tab_of w = None /\ is_cue_start w = false /\ (w =? w_bs) = false.
Proof.
  intros w a b Ha Hb. destruct classes_disjoint as (_ & _ & _ & _ & D).
  assert (N : ~ ((is_command w || is_pac w) = true \/ special_of w <> None \/ extended_of w <> None)).
  { intros X. destruct (D w X); congruence. }
  assert (Hcp : (is_command w || is_pac w) = false) by (apply not_true_is_false; intros X; apply N; left; exact X).
  apply orb_false_iff in Hcp. destruct Hcp as [Hc Hp].
  assert (Hs : special_of w = None) by (destruct (special_of w); [exfalso; apply N; right; left; discriminate|reflexivity]).
  assert (He : extended_of w = None) by (destruct (extended_of w); [exfalso; apply N; right; right; discriminate|reflexivity]).
  assert (Ht : tab_of w = None).
  { destruct (tab_of w) eqn:E; [|reflexivity]. destruct (tab_facts w) as [Y _]; congruence. }
  assert (Hq : is_cue_start w = false) by (destruct (is_cue_start w) eqn:E; [apply cue_command in E; congruence|reflexivity]).
  assert (Hbs : (w =? w_bs) = false) by (destruct (Z.eqb_spec w w_bs) as [->|]; [discriminate Hc|reflexivity]).
  auto 10.
Qed.

Ltac proj_red :=
  cbn [r_stash r_tk r_last r_dstart r_pop r_paint r_roll r_active r_queue r_time r_tc r_frames r_offset r_err
       set_dbl set_buf set_tk set_stash set_active set_queue set_time set_clock set_err buf bump
       andb orb negb fst snd].

Lemma tw_command : forall s w n s1, handle_double s w = (false, s1) -> r_err s = None -> (is_command w || is_pac w) = true ->
  translate_word s w n = (let s2 := translate_command s1 w n in match r_err s2 with Some _ => s2 | None => bump s2 end).
Proof. intros s w n s1 Hd He Hc. unfold translate_word. rewrite He, Hd. cbv beta iota. rewrite Hc. reflexivity. Qed.

Lemma tw_second : forall s w n, r_err s = None -> r_last s = LWord w -> doubled_type s w = true ->
  translate_word s w n = bump (set_dbl s LNone (if is_cue_start w then true else r_dstart s)).
Proof.
  intros s w n He Hl Hd. unfold translate_word. rewrite He, (handle_double_second s w Hl Hd). reflexivity.
Qed.

(* a control code, sent once or twice: the second copy only counts as a frame *)
Lemma ctl_run : forall d w nx s s1,
  (forall n, translate_word s w n = s1) -> r_err s1 = None -> r_last s1 = LWord w -> doubled_type s1 w = true ->
  tws s (ctl d w) nx = if d then bump (set_dbl s1 LNone (if is_cue_start w then true else r_dstart s1)) else s1.
Proof. intros d w nx s s1 H1 He Hl Hd. destruct d; cbn [ctl tws]; rewrite H1; [apply tw_second; assumption|reflexivity]. Qed.

Lemma ctl_pair : forall d w nx s s1,
  (forall n, translate_word s w n = s1) -> r_err s1 = None -> r_last s1 = LWord w -> doubled_type s1 w = true ->
  exists l' ds', tws s (ctl d w) nx = set_clock (set_dbl s1 l' ds') (r_tc s1) (r_frames s1 + (if d then 1 else 0))
                 /\ (l' = LNone \/ l' = LWord w).
Proof.
  intros d w nx s s1 H1 He Hl Hd. rewrite (ctl_run d w nx s s1 H1 He Hl Hd). destruct d.
  - exists LNone, (if is_cue_start w then true else r_dstart s1). split; [reflexivity|left; reflexivity].
  - exists (r_last s1), (r_dstart s1). split; [|right; exact Hl]. rewrite Z.add_0_r. destruct s1. reflexivity.
Qed.

Ltac red_in H :=
  unfold set_clock, set_dbl in H;
  cbn [r_stash r_tk r_last r_dstart r_pop r_paint r_roll r_active r_queue r_time r_tc r_frames r_offset r_err] in H.

Lemma hd_code : forall st tk l ds c pa ro q tm tc fr off w,
  is_pac w = false -> tab_of w = None -> is_cue_start w = false -> last_is l w = false ->
  handle_double (mkR st tk l ds c pa ro MPop q tm tc fr off None) w
  = (false, mkR st tk (LWord w) ds c pa ro MPop q tm tc fr off None).
Proof.
  intros st tk l ds c pa ro q tm tc fr off w Hp Ht Hq Hl. unfold handle_double. proj_red. rewrite Hp, Ht, Hq, Hl.
  rewrite !andb_false_r. proj_red. reflexivity.
Qed.

Lemma hd_eoc : forall st tk l ds c pa ro q tm tc fr off, last_is l w_eoc = false ->
  handle_double (mkR st tk l ds c pa ro MPop q tm tc fr off None) w_eoc
  = (false, mkR st tk (LWord w_eoc) ds c pa ro MPop q tm tc fr off None).
Proof. intros. apply hd_code; [reflexivity|reflexivity|reflexivity|assumption]. Qed.

Lemma hd_edm : forall st tk l ds c pa ro q tm tc fr off, last_is l w_edm = false ->
  handle_double (mkR st tk l ds c pa ro MPop q tm tc fr off None) w_edm
  = (false, mkR st tk (LWord w_edm) ds c pa ro MPop q tm tc fr off None).
Proof. intros. apply hd_code; [reflexivity|reflexivity|reflexivity|assumption]. Qed.

Lemma hd_pac : forall st tk l ds c pa ro q tm tc fr off p,
  is_pac p = true -> last_contains l p = false ->
  handle_double (mkR st tk l ds c pa ro MPop q tm tc fr off None) p
  = (false, mkR st tk (LWord p) ds c pa ro MPop q tm tc fr off None).
Proof.
  intros st tk l ds c pa ro q tm tc fr off p Hp Hl. destruct (pac_facts p Hp) as [Ht Hq].
  assert (Hli : last_is l p = false) by (destruct l; cbn [last_is last_contains] in *; try reflexivity; try exact Hl).
  unfold handle_double. proj_red. rewrite Hp, Hl, Hli, Ht, Hq. rewrite !andb_false_r. proj_red. reflexivity.
Qed.

Lemma hd_tab : forall st tk ds c pa ro q tm tc fr off p t k,
  is_pac p = true -> tab_of t = Some k ->
  handle_double (mkR st tk (LWord p) ds c pa ro MPop q tm tc fr off None) t
  = (false, mkR st tk (LPacTo p t) ds c pa ro MPop q tm tc fr off None).
Proof.
  intros st tk ds c pa ro q tm tc fr off p t k Hp Ht.
  assert (X : tab_of t <> None) by congruence. destruct (tab_facts t X) as (_ & Hq & Hpt & _).
  unfold handle_double. proj_red. cbn [last_is last_contains]. rewrite (pac_neq_tab p t Hp X), Hq, Hpt, Ht, Hp.
  rewrite !andb_false_r. proj_red. reflexivity.
Qed.

Definition ctl_words : list Z := [w_rcl; w_ru2; w_ru3; w_ru4; w_rdc; w_edm; w_cr; w_enm; w_eoc].

Lemma translate_command_other : forall s w n, ~ In w ctl_words -> translate_command s w n = do_interpret s w n.
Proof.
  intros s w n H. unfold ctl_words in H. cbn [In] in H.
  assert (E : forall x, (x = w -> False) -> (w =? x) = false) by (intros x Hx; apply Z.eqb_neq; intros Y; apply Hx; symmetry; exact Y).
  unfold translate_command.
  rewrite (E w_rcl), (E w_rdc), (E w_ru2), (E w_ru3), (E w_ru4), (E w_enm), (E w_eoc), (E w_cr), (E w_edm) by tauto.
  reflexivity.
Qed.

Lemma tw_interp : forall st tk l ds c pa ro q tm tc fr off w n l' tk' c',
  (is_command w || is_pac w) = true -> ~ In w ctl_words ->
  handle_double (mkR st tk l ds c pa ro MPop q tm tc fr off None) w
    = (false, mkR st tk l' ds c pa ro MPop q tm tc fr off None) ->
  interpret_command tk c w n = (tk', c', None) ->
  translate_word (mkR st tk l ds c pa ro MPop q tm tc fr off None) w n
  = mkR st tk' l' ds c' pa ro MPop q tm tc (fr + 1) off None.
Proof.
  intros st tk l ds c pa ro q tm tc fr off w n l' tk' c' Hcp Hn Hd Hi.
  rewrite (tw_command _ w n _ Hd eq_refl Hcp), (translate_command_other _ w n Hn). unfold do_interpret. proj_red.
  rewrite Hi. reflexivity.
Qed.

Lemma tw_chars : forall st tk l ds c pa ro q tm tc fr off w a b n tk' c',
  char_of (hi w) = Some a -> char_of (lo w) = Some b -> add_chars tk c (a ++ b) = (tk', c') ->
  translate_word (mkR st tk l ds c pa ro MPop q tm tc fr off None) w n
  = mkR st tk' (LWord w) ds c' pa ro MPop q tm tc (fr + 1) off None.
Proof.
  intros st tk l ds c pa ro q tm tc fr off w a b n tk' c' Ha Hb Hadd.
  destruct (char_word_class w a b Ha Hb) as (Hc & Hp & Hs & He & Ht & Hq & _).
  unfold translate_word. proj_red. unfold handle_double. proj_red. rewrite Hc, Hp, Hs, He, Ht, Hq.
  proj_red. rewrite ?andb_false_r. proj_red. rewrite Ha, Hb. unfold add_to_buf. proj_red.
  rewrite Hadd. reflexivity.
Qed.

Lemma tw_enm : forall st tk l ds c pa ro q tm tc fr off n, last_is l w_enm = false ->
  translate_word (mkR st tk l ds c pa ro MPop q tm tc fr off None) w_enm n
  = mkR st (tracker_reset tk) (LWord w_enm) ds creator0 pa ro MPop q tm tc (fr + 1) off None.
Proof.
  intros st tk l ds c pa ro q tm tc fr off n Hl.
  rewrite (tw_command _ w_enm n _ (hd_code _ _ _ _ _ _ _ _ _ _ _ _ w_enm eq_refl eq_refl eq_refl Hl) eq_refl eq_refl).
  reflexivity.
Qed.

(* RCL is a cue-starting command: its first copy clears double_starter *)
Lemma tw_rcl : forall st tk l ds c pa ro q tm tc fr off n, last_is l w_rcl = false ->
  translate_word (mkR st tk l ds c pa ro MPop q tm tc fr off None) w_rcl n
  = mkR st tk (LWord w_rcl) false c pa ro MPop q tm tc (fr + 1) off None.
Proof.
  intros st tk l ds c pa ro q tm tc fr off n Hl.
  rewrite (tw_command _ w_rcl n (mkR st tk (LWord w_rcl) false c pa ro MPop q tm tc fr off None)); [reflexivity| |reflexivity|reflexivity].
  unfold handle_double. proj_red. rewrite Hl, !andb_false_r. reflexivity.
Qed.

Lemma translate_command_eoc : forall s n, translate_command s w_eoc n =
  with_time s (fun t =>
      let s := set_time s t in
      let s := match r_queue s with Some _ => pop_on s t | None => s end in
      if cr_is_empty (buf s) then s
      else set_buf (set_queue s (Some (buf s, t))) creator0).
Proof. reflexivity. Qed.

Lemma tw_eoc : forall st tk l ds c pa ro q tm tc fr off n t, cr_is_empty c = false -> last_is l w_eoc = false ->
  get_time tc fr off = Ok t ->
  translate_word (mkR st tk l ds c pa ro MPop q tm tc fr off None) w_eoc n
  = mkR (match q with Some (c0, t0) => create_and_store st c0 t0 t | None => st end) tk (LWord w_eoc) ds creator0 pa ro MPop
        (Some (c, t)) t tc (fr + 1) off None.
Proof.
  intros st tk l ds c pa ro q tm tc fr off n t Hne Hl Hg.
  rewrite (tw_command _ w_eoc n _ (hd_eoc _ _ _ _ _ _ _ _ _ _ _ _ Hl) eq_refl eq_refl), translate_command_eoc.
  unfold with_time. proj_red. rewrite Hg. destruct q as [[c0 t0]|]; cbv zeta; unfold pop_on, store; proj_red; rewrite Hne; reflexivity.
Qed.

Lemma eoc_gen : forall d st tk l ds c pa ro q tm tc fr off nx t, cr_is_empty c = false -> last_is l w_eoc = false ->
  get_time tc fr off = Ok t ->
  exists l' ds', tws (mkR st tk l ds c pa ro MPop q tm tc fr off None) (ctl d (ctrl_word 47)) nx
   = mkR (match q with Some (c0, t0) => create_and_store st c0 t0 t | None => st end) tk l' ds' creator0 pa ro MPop
         (Some (c, t)) t tc (fr + (if d then 2 else 1)) off None
   /\ (l' = LNone \/ l' = LWord w_eoc).
Proof.
  intros d st tk l ds c pa ro q tm tc fr off nx t Hne Hl Hg. change (ctrl_word 47) with w_eoc.
  destruct (ctl_pair d w_eoc nx _ _ (fun n => tw_eoc st tk l ds c pa ro q tm tc fr off n t Hne Hl Hg) eq_refl eq_refl eq_refl)
    as (l1 & ds1 & E1 & Hl1).
  red_in E1. rewrite E1. exists l1, ds1. split; [|exact Hl1]. f_equal. destruct d; lia.
Qed.

Lemma translate_command_edm : forall s n, translate_command s w_edm n =
  if (match r_queue s with Some _ => true | None => false end) then with_time s (fun t => pop_on s t)
  else do_interpret s w_edm n.
Proof. reflexivity. Qed.

Lemma tw_edm_some : forall st tk l ds c pa ro c0 t0 tm tc fr off n t, last_is l w_edm = false -> get_time tc fr off = Ok t ->
  translate_word (mkR st tk l ds c pa ro MPop (Some (c0, t0)) tm tc fr off None) w_edm n
  = mkR (create_and_store st c0 t0 t) tk (LWord w_edm) ds c pa ro MPop None tm tc (fr + 1) off None.
Proof.
  intros st tk l ds c pa ro c0 t0 tm tc fr off n t Hl Hg.
  rewrite (tw_command _ w_edm n _ (hd_edm _ _ _ _ _ _ _ _ _ _ _ _ Hl) eq_refl eq_refl), translate_command_edm.
  proj_red. unfold with_time. proj_red. rewrite Hg. reflexivity.
Qed.

Lemma edm_run : forall d st tk l ds pa ro c t1 tm tc fr off t2, last_is l w_edm = false -> get_time tc fr off = Ok t2 ->
  exists l' ds' fr', translate_words (mkR st tk l ds creator0 pa ro MPop (Some (c, t1)) tm tc fr off None) (ctl d (ctrl_word 44))
  = mkR (create_and_store st c t1 t2) tk l' ds' creator0 pa ro MPop None tm tc fr' off None.
Proof.
  intros d st tk l ds pa ro c t1 tm tc fr off t2 Hl Hg. change (ctrl_word 44) with w_edm. rewrite tws_words.
  destruct (ctl_pair d w_edm None _ _ (fun n => tw_edm_some st tk l ds creator0 pa ro c t1 tm tc fr off n t2 Hl Hg)
              eq_refl eq_refl eq_refl) as (l1 & ds1 & E1 & _).
  red_in E1. rewrite E1. eexists _, _, _. reflexivity.
Qed.

(* the prologue ENM RCL from any pop-on state: the buffer is emptied, the tracker reset; double_starter ends up set
   exactly when RCL was doubled *)
Lemma prologue_any : forall d st tk l ds c pa ro q tm tc fr off nx, last_is l w_enm = false ->
  tws (mkR st tk l ds c pa ro MPop q tm tc fr off None) (ctl d (ctrl_word 46) ++ ctl d (ctrl_word 32)) nx
  = mkR st (tracker_reset tk) (if d then LNone else LWord w_rcl) d creator0 pa ro MPop q tm tc (fr + (if d then 4 else 2)) off None.
Proof.
  intros d st tk l ds c pa ro q tm tc fr off nx Hl.
  change (ctrl_word 46) with w_enm. change (ctrl_word 32) with w_rcl.
  rewrite tws_app, (ctl_run d w_enm _ _ _ (fun n => tw_enm st tk l ds c pa ro q tm tc fr off n Hl) eq_refl eq_refl eq_refl).
  destruct d; unfold bump, set_dbl, set_clock; proj_red.
  - rewrite (ctl_run true w_rcl nx _ _ (fun n => tw_rcl _ _ LNone _ _ _ _ _ _ _ _ _ n eq_refl) eq_refl eq_refl eq_refl).
    unfold bump, set_dbl, set_clock. proj_red. f_equal. lia.
  - rewrite (ctl_run false w_rcl nx _ _ (fun n => tw_rcl _ _ (LWord w_enm) _ _ _ _ _ _ _ _ _ n eq_refl) eq_refl eq_refl eq_refl).
    f_equal. lia.
Qed.

Lemma no_pac_after_prologue : forall (d : bool) p, is_pac p = true -> last_contains (if d then LNone else LWord w_rcl) p = false.
Proof.
  intros d p Hp. destruct d; [reflexivity|]. cbn [last_contains].
  destruct (Z.eqb_spec w_rcl p) as [<-|]; [discriminate Hp|reflexivity].
Qed.

(* (rewriting, not conversion: the kernel must not evaluate is_basic c) *)
Lemma forallb_cons : forall A (f : A -> bool) a l, forallb f (a :: l) = f a && forallb f l.
Proof. reflexivity. Qed.

Lemma items_ok_inv : forall it t prev, items_ok (it :: t) prev = true ->
  items_ok t (Some it) = true /\
  match it with
  | Ch c => is_basic c = true
  | Sp i => 0 <= i < 16 /\ (forall j, prev = Some (Sp j) -> i <> j)
  | Ext s g i => is_basic s = true /\ 0 <= i < 32
  | Mid _ => True
  | Bs => (exists c, prev = Some (Ch c)) \/ (exists j, prev = Some (Sp j)) \/ (exists s g i, prev = Some (Ext s g i))
  end.
Proof.
  intros it t prev H. destruct it; cbn [items_ok] in H; apply andb_true_iff in H; destruct H as [H1 H2]; (split; [exact H2|]).
  - exact H1.
  - apply andb_true_iff in H1. destruct H1 as [H1 H4]. apply andb_true_iff in H1. destruct H1 as [H1 _].
    apply andb_true_iff in H1. destruct H1 as [H1 H3]. apply Z.leb_le in H1. apply Z.ltb_lt in H3.
    split; [split; assumption|]. intros j ->. apply negb_true_iff in H4. apply Z.eqb_neq. exact H4.
  - do 5 (apply andb_true_iff in H1; let H' := fresh "G" in destruct H1 as [H1 H']).
    apply Z.leb_le in G0. apply Z.ltb_lt in G. split; [exact H1|split; assumption].
  - exact I.
  - destruct prev as [[c|j|s g i|a|]|]; try discriminate H1.
    + left. exists c. reflexivity.
    + right. left. exists j. reflexivity.
    + right. right. exists s, g, i. reflexivity.
Qed.

Lemma basic_items : forall its, forallb basic_item its = true ->
  let s := map (fun it => match it with Ch c => c | _ => 0 end) its in
  flat_map toks_of_item its = map TCh s /\ (forall acc ital, row_cells its acc ital = acc ++ map (fun c => Cell c ital) s) /\
  (forall prev, items_ok its prev = true -> forallb is_basic s = true).
Proof.
  induction its as [|it t IH]; intros H; cbv zeta.
  - split; [reflexivity|split; [intros acc ital; symmetry; apply app_nil_r|reflexivity]].
  - rewrite forallb_cons in H. apply andb_true_iff in H. destruct H as [Hi Ht]. destruct (IH Ht) as (I1 & I2 & I3).
    destruct it; try discriminate Hi. cbn [flat_map toks_of_item map app row_cells]. split; [rewrite I1; reflexivity|split].
    + intros acc ital. rewrite I2, <- app_assoc. reflexivity.
    + intros prev Hok. destruct (items_ok_inv _ _ _ Hok) as [H2 H1]. rewrite forallb_cons, H1. exact (I3 _ H2).
Qed.

Lemma is_basic_ge32 : forall c, is_basic c = true -> 32 <= c.
Proof.
  intros c H. destruct (basic_code_range c H) as [R E]. rewrite <- E. clear E H. generalize dependent (basic_code c). intros b R.
  unfold basic_608. repeat match goal with |- context [if ?x then _ else _] => destruct x end; lia.
Qed.

Lemma basic_space : forall c, is_basic c = true -> is_space c = true -> c = 32.
Proof.
  intros c H Hs. destruct (basic_code_range c H) as [R E].
  rewrite <- E in Hs |- *. clear E H. revert R Hs. generalize (basic_code c). intros b R.
  unfold basic_608.
  repeat match goal with |- context [if ?x =? ?y then _ else _] => destruct (Z.eqb_spec x y) end; intros Hs;
    try (vm_compute in Hs; discriminate Hs); unfold is_space in Hs; lia.
Qed.

Lemma row_ok_parts : forall r, row_ok r = true ->
  1 <= rw_row r <= 15 /\ mem (rw_indent r) indents_608 = true /\ 0 <= rw_tab r <= 3 /\
  items_ok (rw_items r) None = true /\ existsb cell_vis (cells_of r) = true /\
  cell_space (last (cells_of r) Opt) = false /\ rw_indent r + rw_tab r + Z.of_nat (length (cells_of r)) <= 32.
Proof.
  intros r. unfold row_ok. cbv zeta. generalize (cells_of r) (items_ok (rw_items r) None). intros cs io H.
  repeat (apply andb_true_iff in H; let H' := fresh "H" in destruct H as [H H']).
  apply negb_true_iff in H1. repeat split; try assumption; lia.
Qed.

Lemma mem_In : forall x l, mem x l = true -> In x l.
Proof.
  intros x l H. unfold mem in H. apply existsb_exists in H. destruct H as [y [Hy E]]. apply Z.eqb_eq in E. subst. exact Hy.
Qed.

Lemma basic_row_facts : forall r, basic_row r = true ->
  rw_ital r = false /\ 1 <= rw_row r <= 15 /\ In (rw_indent r) indents_608 /\ 0 <= rw_tab r <= 3 /\
  flat_map toks_of_item (rw_items r) = map TCh (row_text r) /\ forallb is_basic (row_text r) = true /\
  cells_of r = map (fun c => Cell c false) (row_text r) /\ row_text r <> [] /\
  last (row_text r) 0 <> 32 /\ rw_indent r + rw_tab r + Z.of_nat (length (row_text r)) <= 32.
Proof.
  intros r H. unfold basic_row in H. apply andb_true_iff in H. destruct H as [H Hb].
  apply andb_true_iff in H. destruct H as [Hok Hi]. apply Z.eqb_eq in Hi.
  assert (Hit : rw_ital r = false) by (unfold rw_ital; rewrite Hi; apply andb_false_r).
  destruct (row_ok_parts r Hok) as (Hr & Hm & Ht & Hio & Hv & Hl & Hn). destruct (basic_items _ Hb) as (Htoks & Hcells & Hbas).
  assert (Hc : cells_of r = map (fun c => Cell c false) (row_text r)) by (unfold cells_of; rewrite Hit; apply Hcells).
  rewrite Hc in Hv, Hl, Hn. rewrite map_length in Hn.
  assert (Hne : row_text r <> []) by (intros E; rewrite E in Hv; discriminate Hv).
  refine (conj Hit (conj Hr (conj (mem_In _ _ Hm) (conj Ht (conj Htoks (conj (Hbas _ Hio) (conj Hc (conj Hne (conj _ Hn))))))))).
  destruct (exists_last Hne) as (l & x & E). rewrite E, map_app in Hl. cbn [map] in Hl. rewrite last_last in Hl. rewrite E, last_last.
  intros ->. discriminate Hl.
Qed.

Lemma pac_attr_facts : forall r, rw_style r = 0 -> In (rw_indent r) indents_608 ->
  0 <= pac_attr r < 32 /\ pac_col (pac_attr r) = rw_indent r /\ pac_italics (pac_attr r) = false.
Proof.
  intros r Hi Hin. unfold pac_attr. rewrite Hi. unfold indents_608 in Hin. cbn [In] in Hin.
  repeat (destruct Hin as [<-|Hin]; [split; [split; [apply Z.leb_le|apply Z.ltb_lt]; vm_compute; reflexivity
                                           |split; vm_compute; reflexivity]|]).
  destruct Hin.
Qed.

Record interpreted (w : Z) : Prop := mkInt {
  in_bs : (w =? w_bs) = false;
  in_ctl : ~ In w ctl_words;
  in_bg : memz w scc_background_color_codes = false;
  in_mid : memz w scc_mid_row_codes = false;
  in_ital : memz w scc_style_setting_commands = true -> memz w scc_italics_commands = false;
  in_cue : is_cue_start w = false;
  in_cp : (is_command w || is_pac w) = true }.

Record ctlfree (w : Z) : Prop := mkCf {
  cf_bs : (w =? w_bs) = false;
  cf_ctl : ~ In w ctl_words;
  cf_bg : memz w scc_background_color_codes = false;
  cf_mid : memz w scc_mid_row_codes = false;
  cf_cp : (is_command w || is_pac w) = true }.

Lemma pac_word_facts : forall row attr, 1 <= row <= 15 -> 0 <= attr < 32 ->
  let p := pac_word row attr in
  pac_pos p = Some (row, pac_col attr) /\ is_pac p = true /\ tab_of p = None /\ is_cue_start p = false /\ ctlfree p.
Proof.
  intros row attr Hr Ha p. pose proof (pac_grid _ _ Hr Ha) as Hp. fold p in Hp.
  assert (Hpac : is_pac p = true) by (unfold is_pac; rewrite Hp; reflexivity).
  destruct (pac_facts p Hpac) as [Ht Hq].
  destruct classes_disjoint as (_ & _ & D & _). destruct (D p Hpac) as (_ & Hm & Hb & Hn).
  refine (conj Hp (conj Hpac (conj Ht (conj Hq (mkCf p _ _ Hb Hm _))))).
  - destruct (Z.eqb_spec p w_bs) as [E|]; [|reflexivity]. exfalso. apply Hn. rewrite E. cbn [In]. auto.
  - intros X. apply Hn. unfold ctl_words in X. cbn [In] in *. tauto.
  - rewrite Hpac. apply orb_true_r.
Qed.

Lemma pac_row_facts : forall r, basic_row r = true ->
  let p := pac_word (rw_row r) (pac_attr r) in
  pac_pos p = Some (rw_row r, rw_indent r) /\ is_pac p = true /\ tab_of p = None /\ interpreted p.
Proof.
  intros r H p. destruct (basic_row_facts r H) as (_ & Hr & Hin & _).
  destruct (pac_attr_facts r (basic_row_style r H) Hin) as (Ha & Hc & Hit).
  destruct (pac_word_facts _ _ Hr Ha) as (Hp & Hpac & Ht & Hq & [C1 C2 C3 C4 C5]). fold p in Hp, Hpac, Ht, Hq, C1, C2, C3, C4, C5.
  rewrite Hc in Hp. refine (conj Hp (conj Hpac (conj Ht (mkInt p C1 C2 C3 C4 _ Hq C5)))).
  intros _. unfold p. rewrite (proj1 (style_classes _ _ Hr Ha)). exact Hit.
Qed.

Lemma tab_row_facts : forall k, 1 <= k <= 3 -> tab_of (tab_word k) = Some k /\ interpreted (tab_word k).
Proof.
  intros k Hk. pose proof (proj1 tab_offsets_1_2_3 k Hk) as Ht. split; [exact Ht|].
  assert (X : tab_of (tab_word k) <> None) by congruence.
  destruct classes_disjoint as (_ & _ & _ & D & _). destruct (D _ X) as (Hc & Hm & Hb & Hs & Hbs & Hn).
  destruct (tab_facts _ X) as (_ & Hq & _).
  split; try assumption.
  - apply Z.eqb_neq. exact Hbs.
  - intros Y. congruence.
  - rewrite Hc. reflexivity.
Qed.
Lemma interp_keep : forall tk nodes w n, interpreted w ->
  interpret_command tk (mkCr nodes SNone) w n = (update_positioning tk (mkCr nodes SNone) w, mkCr nodes SNone, None).
Proof.
  intros tk nodes w n I. unfold interpret_command. cbv zeta. rewrite (in_bs w I), (in_bg w I), (in_mid w I).
  cbn [cr_style cr_nodes andb].
  destruct (memz w scc_style_setting_commands) eqn:Es.
  - rewrite (in_ital w I Es). cbn [cr_style cr_nodes]. destruct (prev_text nodes) as [[txt brk]|]; reflexivity.
  - cbn [cr_style cr_nodes]. destruct (prev_text nodes) as [[txt brk]|]; reflexivity.
Qed.

Lemma tracker_first : forall dflt pos, tracker_update (mkTk [] None false dflt) pos = mkTk [pos] None false pos.
Proof. reflexivity. Qed.

Lemma tracker_tab : forall row col k, 1 <= k <= 3 ->
  tracker_update (mkTk [(row, col)] None false (row, col)) (row, col + k) = mkTk [(row, col + k)] None false (row, col + k).
Proof.
  intros row col k Hk. unfold tracker_update, pos_eqb. cbn [tk_pos tk_break tk_repos tk_default map last fst snd].
  rewrite Z.eqb_refl.
  replace (row =? row + 1) with false by lia. replace (col + 1 <=? col + k) with true by lia.
  replace (col + k <=? col + 3) with true by lia. replace (col + k =? col) with false by lia. reflexivity.
Qed.

Lemma tracker_first_row : forall dflt row ind k, 0 <= k <= 3 ->
  (let tk := tracker_update (mkTk [] None false dflt) (row, ind) in
   if 0 <? k then tracker_update tk (fst (tk_default tk), snd (tk_default tk) + k) else tk)
  = mkTk [(row, ind + k)] None false (row, ind + k).
Proof.
  intros dflt row ind k Hk. cbv zeta. rewrite tracker_first. destruct (0 <? k) eqn:E.
  - cbn [tk_default fst snd]. apply tracker_tab. lia.
  - replace k with 0 by lia. rewrite Z.add_0_r. reflexivity.
Qed.

Lemma tracker_reset_first : forall tk pos, tracker_update (tracker_reset tk) pos = mkTk [pos] None false pos.
Proof. reflexivity. Qed.

Lemma up_pac_gen : forall tk c p pos, tab_of p = None -> pac_pos p = Some pos ->
  update_positioning tk c p = tracker_update (match cr_nodes c with [] => tracker_reset tk | _ => tk end) pos.
Proof. intros tk c p pos Ht Hp. unfold update_positioning. rewrite Ht, Hp. reflexivity. Qed.

Lemma up_pac : forall tk c p pos, tab_of p = None -> pac_pos p = Some pos -> cr_nodes c <> [] ->
  update_positioning tk c p = tracker_update tk pos.
Proof.
  intros tk c p pos Ht Hp Hc. rewrite (up_pac_gen _ _ _ _ Ht Hp). destruct (cr_nodes c); [congruence|reflexivity].
Qed.

(* a tracker that is already in its reset form is not changed by the reset: any buffer *)
Lemma up_pac_fresh : forall dflt c p pos, tab_of p = None -> pac_pos p = Some pos ->
  update_positioning (mkTk [] None false dflt) c p = tracker_update (mkTk [] None false dflt) pos.
Proof.
  intros dflt c p pos Ht Hp. rewrite (up_pac_gen _ _ _ _ Ht Hp). destruct (cr_nodes c); reflexivity.
Qed.

(* the first preamble address code of an EMPTY buffer resets the tracker first (fix #22): the preamble unit is run on a
   buffer that is not empty, or on a tracker already in its reset form (on which the reset is the identity) *)
Definition pac_ready (tk : tracker) (nodes : list inode) : Prop := nodes <> [] \/ tracker_reset tk = tk.

Lemma pac_ready_nonempty : forall tk pre n, pac_ready tk (pre ++ [n]).
Proof. intros tk pre n. left. intros E. apply app_eq_nil in E. destruct E as [_ E]. discriminate. Qed.

Lemma up_pac_ready : forall tk nodes p pos, tab_of p = None -> pac_pos p = Some pos -> pac_ready tk nodes ->
  update_positioning tk (mkCr nodes SNone) p = tracker_update tk pos.
Proof.
  intros tk nodes p pos Ht Hp [Hn|Hr].
  - apply up_pac; assumption.
  - rewrite (up_pac_gen _ _ _ _ Ht Hp). cbn [cr_nodes]. destruct nodes; [rewrite Hr|]; reflexivity.
Qed.

Lemma up_tab : forall tk nodes t k, tab_of t = Some k -> has_break_before nodes = false ->
  update_positioning tk (mkCr nodes SNone) t = tracker_update tk (fst (tk_default tk), snd (tk_default tk) + k).
Proof. intros tk nodes t k Ht Hb. unfold update_positioning. rewrite Ht. cbn [cr_nodes]. rewrite Hb. reflexivity. Qed.

Lemma last_some_app : forall A (l : list A) x, last (map Some (l ++ [x])) None = Some x.
Proof. intros A l x. rewrite map_app. cbn [map]. apply last_last. Qed.

Lemma add_chars_append : forall sty p ps dflt pre txt q0 s,
  add_chars (mkTk (p :: ps) None false dflt) (mkCr (pre ++ [mkI IText txt q0]) sty) s
  = (mkTk (p :: ps) None false dflt, mkCr (pre ++ [mkI IText (txt ++ s) q0]) sty).
Proof.
  intros sty p ps dflt pre txt q0 s. unfold add_chars.
  cbn [current_position tk_pos tk_repos tk_break break_required cr_nodes cr_style]. rewrite last_some_app.
  cbn [is_text i_kind andb negb]. rewrite map_last_snoc. reflexivity.
Qed.

Lemma add_chars_plain : forall p ps dflt pre txt q0 s,
  add_chars (mkTk (p :: ps) None false dflt) (mkCr (pre ++ [mkI IText txt q0]) SNone) s
  = (mkTk (p :: ps) None false dflt, mkCr (pre ++ [mkI IText (txt ++ s) q0]) SNone).
Proof. exact (add_chars_append SNone). Qed.

Lemma add_chars_first : forall p dflt s,
  add_chars (mkTk [p] None false dflt) (mkCr [] SNone) s = (mkTk [p] None false dflt, mkCr ([] ++ [mkI IText s p]) SNone).
Proof. reflexivity. Qed.

Lemma no_break_before_text : forall pre txt q0, has_break_before (pre ++ [mkI IText txt q0]) = false.
Proof. intros pre txt q0. unfold has_break_before. rewrite rev_unit. reflexivity. Qed.

(* the packing on abstract bytes (so that the kernel never evaluates basic_code on a variable) *)
Fixpoint packb (bs : list Z) (pend : option Z) : list Z :=
  match bs with
  | [] => flush pend
  | b :: t => match pend with
              | None => packb t (Some b)
              | Some b0 => (b0 * 256 + b) :: packb t None
              end
  end.

Lemma pack_packb : forall d cs pend, pack d (map TCh cs) pend = packb (map (fun c => bc c) cs) pend.
Proof.
  intros d. induction cs as [|c t IH]; intros pend; [reflexivity|].
  cbn [map pack packb]. destruct pend as [b0|]; rewrite IH; reflexivity.
Qed.

Definition carries (b c : Z) : Prop := 0 <= b < 256 /\ char_of b = Some [c].

Lemma carries_bc : forall c, is_basic c = true -> carries (bc c) c.
Proof.
  intros c Hc. destruct (basic_code_range c Hc) as [R E]. split; [apply odd_parity_range|].
  rewrite (chars_match_608 _ R), E. reflexivity.
Qed.

Lemma carries_basic : forall cs, forallb is_basic cs = true -> Forall2 carries (map (fun c => bc c) cs) cs.
Proof.
  induction cs as [|c t IH]; intros H; [constructor|].
  rewrite forallb_cons in H. apply andb_true_iff in H. destruct H as [Hc Ht].
  exact (Forall2_cons _ _ (carries_bc c Hc) (IH Ht)).
Qed.

(* the unit p [t] of a row, sent once or twice: the second copy of p is skipped as the repetition of a preamble code, the
   second t because it does not follow its preamble code *)
Lemma unit_pair : forall d r nx s s1 s2,
  let p := pac_word (rw_row r) (pac_attr r) in
  let t := tab_word (rw_tab r) in
  is_pac p = true -> (forall n, translate_word s p n = s1) -> r_err s1 = None -> r_last s1 = LWord p ->
  (0 < rw_tab r -> tab_of t <> None /\ (forall n, translate_word s1 t n = s2) /\ r_err s2 = None /\ r_last s2 = LPacTo p t) ->
  let s' := if 0 <? rw_tab r then s2 else s1 in
  tws s (pac_unit d r) nx
  = set_clock (set_dbl s' (if d then LNone else r_last s') (r_dstart s')) (r_tc s')
              (r_frames s' + (if d then Z.of_nat (length (pac_unit false r)) else 0)).
Proof.
  intros d r nx s s1 s2 p t Hp H1 He1 Hl1 H2 s'. subst s'. unfold pac_unit. cbv zeta. fold p t.
  destruct (0 <? rw_tab r) eqn:Ek.
  - destruct H2 as (Ht & H2 & He2 & Hl2); [lia|]. destruct d; cbn [app tws length].
    + rewrite H1, H2, (pac_second s2 p _ He2 Hp) by (rewrite Hl2; cbn [last_contains]; rewrite Z.eqb_refl; reflexivity).
      rewrite (tab_skip_none (bump (set_dbl s2 LNone (r_dstart s2))) t nx He2 eq_refl Ht).
      destruct s2. unfold bump, set_dbl, set_clock. proj_red. f_equal. lia.
    + rewrite H1, H2, Z.add_0_r. destruct s2. reflexivity.
  - destruct d; cbn [app tws length].
    + rewrite H1, (pac_second s1 p _ He1 Hp) by (rewrite Hl1; apply Z.eqb_refl). destruct s1. reflexivity.
    + rewrite H1, Z.add_0_r. destruct s1. reflexivity.
Qed.

Section Run.
Variables (st : stash) (ds : bool) (pa ro : creator) (q : option (creator * Q)) (tm : Q) (tc : str) (off : Q).

Definition SG (tk : tracker) (l : lastcmd) (nodes : list inode) (fr : Z) : rstate :=
  mkR st tk l ds (mkCr nodes SNone) pa ro MPop q tm tc fr off None.

Lemma tw_keep : forall tk l nodes fr w n l', interpreted w ->
  handle_double (SG tk l nodes fr) w = (false, SG tk l' nodes fr) ->
  translate_word (SG tk l nodes fr) w n = SG (update_positioning tk (mkCr nodes SNone) w) l' nodes (fr + 1).
Proof.
  intros tk l nodes fr w n l' I Hd.
  exact (tw_interp _ _ _ _ _ _ _ _ _ _ _ _ w n l' _ _ (in_cp w I) (in_ctl w I) Hd (interp_keep tk nodes w n I)).
Qed.

Section PacUnit.
Variable r : row.
Hypothesis Hrow : basic_row r = true.
Notation p := (pac_word (rw_row r) (pac_attr r)).
Notation t := (tab_word (rw_tab r)).

Lemma pac_first : forall tk l nodes fr n, last_contains l p = false -> pac_ready tk nodes ->
  translate_word (SG tk l nodes fr) p n = SG (tracker_update tk (rw_row r, rw_indent r)) (LWord p) nodes (fr + 1).
Proof.
  intros tk l nodes fr n Hl Hrd. destruct (pac_row_facts r Hrow) as (Hp & Hpac & Ht & I).
  rewrite (tw_keep tk l nodes fr p n (LWord p) I (hd_pac _ _ _ _ _ _ _ _ _ _ _ _ _ Hpac Hl)), (up_pac_ready _ _ _ _ Ht Hp Hrd).
  reflexivity.
Qed.

Lemma tab_first : forall tk nodes fr n, 1 <= rw_tab r <= 3 -> has_break_before nodes = false ->
  translate_word (SG tk (LWord p) nodes fr) t n
  = SG (tracker_update tk (fst (tk_default tk), snd (tk_default tk) + rw_tab r)) (LPacTo p t) nodes (fr + 1).
Proof.
  intros tk nodes fr n Hk Hbb. destruct (pac_row_facts r Hrow) as (_ & Hpac & _). destruct (tab_row_facts _ Hk) as [Htab I].
  rewrite (tw_keep tk (LWord p) nodes fr t n (LPacTo p t) I (hd_tab _ _ _ _ _ _ _ _ _ _ _ _ _ _ Hpac Htab)), (up_tab _ _ _ _ Htab Hbb).
  reflexivity.
Qed.

Lemma pac_unit_any : forall d tk l nodes fr nx, has_break_before nodes = false -> last_contains l p = false -> pac_ready tk nodes ->
  exists l', tws (SG tk l nodes fr) (pac_unit d r) nx
     = SG (let tk0 := tracker_update tk (rw_row r, rw_indent r) in
           if 0 <? rw_tab r then tracker_update tk0 (fst (tk_default tk0), snd (tk_default tk0) + rw_tab r) else tk0)
          l' nodes (fr + Z.of_nat (length (pac_unit d r))).
Proof.
  intros d tk l nodes fr nx Hbb Hl Hrd. destruct (basic_row_facts r Hrow) as (_ & _ & _ & Hk & _).
  destruct (pac_row_facts r Hrow) as (_ & Hpac & _). set (tk0 := tracker_update tk (rw_row r, rw_indent r)).
  rewrite (unit_pair d r nx (SG tk l nodes fr) (SG tk0 (LWord p) nodes (fr + 1))
             (SG (tracker_update tk0 (fst (tk_default tk0), snd (tk_default tk0) + rw_tab r)) (LPacTo p t) nodes (fr + 1 + 1))
             Hpac (fun n => pac_first tk l nodes fr n Hl Hrd) eq_refl eq_refl).
  - unfold pac_unit. destruct (0 <? rw_tab r); destruct d; eexists; unfold SG, set_clock, set_dbl; proj_red;
      cbn [length app]; f_equal; lia.
  - intros H0. assert (Hk' : 1 <= rw_tab r <= 3) by lia. destruct (tab_row_facts _ Hk') as [Htab _].
    split; [congruence|]. split; [intros n; exact (tab_first tk0 nodes (fr + 1) n Hk' Hbb)|split; reflexivity].
Qed.
End PacUnit.

Definition charlast (l : lastcmd) : Prop := exists w, l = LWord w /\ is_command w = false /\ is_pac w = false.

(* a run of basic characters: from a pending state (tk0, nodes0) into the text node at p after pre *)
Section Chars3.
Variables (tk0 tk1 : tracker) (nodes0 pre : list inode) (p : pos).
Hypothesis H0 : forall s, add_chars tk0 (mkCr nodes0 SNone) s = (tk1, mkCr (pre ++ [mkI IText s p]) SNone).
Hypothesis H1 : forall txt s, add_chars tk1 (mkCr (pre ++ [mkI IText txt p]) SNone) s
                              = (tk1, mkCr (pre ++ [mkI IText (txt ++ s) p]) SNone).

Definition holds3 (tk : tracker) (nodes : list inode) (txt : str) : Prop :=
  (tk = tk0 /\ nodes = nodes0 /\ txt = []) \/ (tk = tk1 /\ nodes = pre ++ [mkI IText txt p]).

Lemma sg_word : forall tk l nodes txt fr w a b n,
  char_of (hi w) = Some a -> char_of (lo w) = Some b -> holds3 tk nodes txt ->
  translate_word (SG tk l nodes fr) w n = SG tk1 (LWord w) (pre ++ [mkI IText (txt ++ a ++ b) p]) (fr + 1).
Proof.
  intros tk l nodes txt fr w a b n Ha Hb [(-> & -> & ->)|(-> & ->)].
  - exact (tw_chars _ _ _ _ _ _ _ _ _ _ _ _ w a b n _ _ Ha Hb (H0 _)).
  - exact (tw_chars _ _ _ _ _ _ _ _ _ _ _ _ w a b n _ _ Ha Hb (H1 _ _)).
Qed.

Lemma char_word_charlast : forall w a b, char_of (hi w) = Some a -> char_of (lo w) = Some b -> charlast (LWord w).
Proof.
  intros w a b Ha Hb. destruct (char_word_class w a b Ha Hb) as (Hc & Hp & _). exists w. auto.
Qed.

(* a byte takes the next one into its word, or the filler if it is the last *)
Lemma packb_char : forall b bs, packb (b :: bs) None
  = match bs with b' :: t => (b * 256 + b') :: packb t None | [] => [b * 256 + 128] end.
Proof. intros b [|b' t]; reflexivity. Qed.

(* with no byte to send the state must already be the definite one *)
Lemma bytes_run3 : forall nx bs cs, Forall2 carries bs cs -> forall tk l nodes txt fr, holds3 tk nodes txt ->
  (bs = [] -> tk = tk1 /\ nodes = pre ++ [mkI IText txt p] /\ charlast l) ->
  exists l', tws (SG tk l nodes fr) (packb bs None) nx
             = SG tk1 l' (pre ++ [mkI IText (txt ++ cs) p]) (fr + Z.of_nat (length (packb bs None))) /\ charlast l'.
Proof.
  intros nx bs. induction bs as [bs IH] using (induction_ltof1 _ (@length Z)). unfold ltof in IH.
  intros cs F tk l nodes txt fr Hh Hd. destruct bs as [|b bs].
  - inversion F; subst. destruct (Hd eq_refl) as (-> & -> & Hl). exists l. cbn [packb flush tws length].
    rewrite app_nil_r, Z.add_0_r. auto.
  - inversion F as [|? c ? cs' [Rg Hc] F']; subst. rewrite packb_char.
    assert (Hhi : forall x, 0 <= x < 256 -> char_of (hi (b * 256 + x)) = Some [c])
      by (intros x Hx; rewrite hi_word by exact Hx; exact Hc).
    destruct bs as [|b' t].
    + inversion F'; subst. assert (Hl : char_of (lo (b * 256 + 128)) = Some []) by (rewrite lo_word by lia; exact char_of_pad).
      exists (LWord (b * 256 + 128)). cbn [tws length]. rewrite (sg_word tk l nodes txt fr _ _ _ nx (Hhi 128 ltac:(lia)) Hl Hh), app_nil_r.
      split; [reflexivity|exact (char_word_charlast _ _ _ (Hhi 128 ltac:(lia)) Hl)].
    + inversion F' as [|? c' ? cs'' [Rg' Hc'] F'']; subst.
      assert (Hl : char_of (lo (b * 256 + b')) = Some [c']) by (rewrite lo_word by exact Rg'; exact Hc').
      cbn [tws length]. rewrite (sg_word tk l nodes txt fr _ _ _ _ (Hhi b' Rg') Hl Hh).
      destruct (IH t ltac:(cbn; lia) cs'' F'' tk1 (LWord (b * 256 + b')) _ (txt ++ [c] ++ [c']) (fr + 1)
                  (or_intror (conj eq_refl eq_refl))
                  (fun _ => conj eq_refl (conj eq_refl (char_word_charlast _ _ _ (Hhi b' Rg') Hl)))) as (l' & E & Hl').
      exists l'. split; [|exact Hl']. rewrite E, <- app_assoc. f_equal. lia.
Qed.

Lemma chars_run3 : forall d nx cs l fr, forallb is_basic cs = true -> cs <> [] ->
  exists l', tws (SG tk0 l nodes0 fr) (pack d (map TCh cs) None) nx
             = SG tk1 l' (pre ++ [mkI IText cs p]) (fr + Z.of_nat (length (pack d (map TCh cs) None))) /\ charlast l'.
Proof.
  intros d nx cs l fr Hb Hne. rewrite pack_packb.
  apply (bytes_run3 nx _ cs (carries_basic cs Hb) tk0 l nodes0 [] fr); [left; repeat split|].
  intros E. destruct cs; [congruence|discriminate E].
Qed.
End Chars3.

Lemma charlast_pac : forall l p, charlast l -> is_pac p = true -> last_contains l p = false.
Proof.
  intros l p (w & -> & _ & Hw) Hp. cbn [last_contains]. destruct (Z.eqb_spec w p) as [E|]; [|reflexivity]. congruence.
Qed.

Lemma charlast_not_eoc : forall l, charlast l -> last_is l w_eoc = false.
Proof.
  intros l (w & -> & Hc & _). cbn [last_is]. destruct (Z.eqb_spec w w_eoc) as [E|]; [|reflexivity].
  rewrite E, w_eoc_command in Hc. discriminate.
Qed.

Lemma row_run_any : forall r d tk l nodes fr nx tk0 tk1 pre p, basic_row r = true -> has_break_before nodes = false ->
  last_contains l (pac_word (rw_row r) (pac_attr r)) = false -> pac_ready tk nodes ->
  (let tk' := tracker_update tk (rw_row r, rw_indent r) in
   if 0 <? rw_tab r then tracker_update tk' (fst (tk_default tk'), snd (tk_default tk') + rw_tab r) else tk') = tk0 ->
  (forall s, add_chars tk0 (mkCr nodes SNone) s = (tk1, mkCr (pre ++ [mkI IText s p]) SNone)) ->
  (forall txt s, add_chars tk1 (mkCr (pre ++ [mkI IText txt p]) SNone) s = (tk1, mkCr (pre ++ [mkI IText (txt ++ s) p]) SNone)) ->
  exists l', tws (SG tk l nodes fr) (emit_row d r) nx
             = SG tk1 l' (pre ++ [mkI IText (row_text r) p]) (fr + Z.of_nat (length (emit_row d r))) /\ charlast l'.
Proof.
  intros r d tk l nodes fr nx tk0 tk1 pre p Hrow Hbb Hl Hrd Etk H0 H1.
  destruct (basic_row_facts r Hrow) as (_ & _ & _ & _ & Hf & Hb & _ & Hne & _).
  unfold emit_row. rewrite Hf, tws_app, app_length, Nat2Z.inj_add.
  destruct (pac_unit_any r Hrow d tk l nodes fr (nxt (pack d (map TCh (row_text r)) None) nx) Hbb Hl Hrd) as (l1 & E1).
  rewrite E1, Etk.
  destruct (chars_run3 tk0 tk1 nodes pre p H0 H1 d nx (row_text r) l1 (fr + Z.of_nat (length (pac_unit d r))) Hb Hne)
    as (l2 & E2 & Hl2).
  exists l2. split; [|exact Hl2]. rewrite E2. f_equal. lia.
Qed.

Lemma first_row_run : forall r d dflt l fr nx, basic_row r = true ->
  last_contains l (pac_word (rw_row r) (pac_attr r)) = false ->
  exists l', tws (SG (mkTk [] None false dflt) l [] fr) (emit_row d r) nx
             = SG (mkTk [row_pos r] None false (row_pos r)) l' [mkI IText (row_text r) (row_pos r)]
                  (fr + Z.of_nat (length (emit_row d r))) /\ charlast l'.
Proof.
  intros r d dflt l fr nx Hrow Hl. destruct (basic_row_facts r Hrow) as (_ & _ & _ & Hk & _).
  apply (row_run_any r d _ l [] fr nx (mkTk [row_pos r] None false (row_pos r)) (mkTk [row_pos r] None false (row_pos r)) []
           (row_pos r) Hrow eq_refl Hl (or_intror eq_refl)).
  - exact (tracker_first_row dflt (rw_row r) (rw_indent r) (rw_tab r) Hk).
  - intros s. apply add_chars_first.
  - intros txt s. apply (add_chars_plain (row_pos r) [] (row_pos r) []).
Qed.
End Run.

Lemma ctl_length : forall d w, Z.of_nat (length (ctl d w)) = if d then 2 else 1.
Proof. intros [] w; reflexivity. Qed.

Lemma emit_load_room : forall d l, 0 <= Z.of_nat (length (emit_load d l)) - (if d then 2 else 1).
Proof. intros d l. unfold emit_load. rewrite !app_length, !Nat2Z.inj_add, !ctl_length. destruct d; lia. Qed.

(* the rows run from the state the prologue leaves to a buffer c' that is not empty; the End-Of-Caption stores what was
   queued and queues c' at the instant of its first copy *)
Lemma load_run : forall d rows st tk l ds c pa ro q tm tc fr off nx t tk' lb c',
  last_is l w_enm = false -> cr_is_empty c' = false -> last_is lb w_eoc = false ->
  get_time tc (fr + Z.of_nat (length (emit_load d rows)) - (if d then 2 else 1)) off = Ok t ->
  tws (mkR st (tracker_reset tk) (if d then LNone else LWord w_rcl) d creator0 pa ro MPop q tm tc (fr + (if d then 4 else 2)) off None)
      (flat_map (emit_row d) rows) (nxt (ctl d (ctrl_word 47)) nx)
  = mkR st tk' lb d c' pa ro MPop q tm tc (fr + (if d then 4 else 2) + Z.of_nat (length (flat_map (emit_row d) rows))) off None ->
  exists l' ds', tws (mkR st tk l ds c pa ro MPop q tm tc fr off None) (emit_load d rows) nx
     = mkR (match q with Some (c0, t0) => create_and_store st c0 t0 t | None => st end) tk' l' ds' creator0 pa ro MPop
           (Some (c', t)) t tc (fr + Z.of_nat (length (emit_load d rows))) off None
     /\ (l' = LNone \/ l' = LWord w_eoc).
Proof.
  intros d rows st tk l ds c pa ro q tm tc fr off nx t tk' lb c' Hl Hne Hlb Hg Hbody. unfold emit_load in *.
  set (body := flat_map (emit_row d) rows) in *.
  rewrite !app_length, !Nat2Z.inj_add, !ctl_length in *. set (n := Z.of_nat (length body)) in *.
  rewrite app_assoc, tws_app, (tws_app body), (prologue_any d st tk l ds c pa ro q tm tc fr off _ Hl), Hbody.
  destruct (eoc_gen d st tk' lb d c' pa ro q tm tc (fr + (if d then 4 else 2) + n) off nx t Hne Hlb) as (l' & ds' & -> & Hl').
  { rewrite <- Hg. f_equal. clear. destruct d; lia. }
  exists l', ds'. split; [|exact Hl']. f_equal. clear. destruct d; lia.
Qed.

Lemma one_row_load : forall d r st tk l ds c pa ro q tm tc fr off nx t, basic_row r = true -> last_is l w_enm = false ->
  get_time tc (fr + Z.of_nat (length (emit_load d [r])) - (if d then 2 else 1)) off = Ok t ->
  exists l' ds', tws (mkR st tk l ds c pa ro MPop q tm tc fr off None) (emit_load d [r]) nx
     = mkR (match q with Some (c0, t0) => create_and_store st c0 t0 t | None => st end) (mkTk [row_pos r] None false (row_pos r))
           l' ds' creator0 pa ro MPop (Some (mkCr [mkI IText (row_text r) (row_pos r)] SNone, t)) t tc
           (fr + Z.of_nat (length (emit_load d [r]))) off None
     /\ (l' = LNone \/ l' = LWord w_eoc).
Proof.
  intros d r st tk l ds c pa ro q tm tc fr off nx t H Hl Hg. destruct (basic_row_facts r H) as (_ & _ & _ & _ & _ & _ & _ & Hne & _).
  destruct (pac_row_facts r H) as (_ & Hpac & _).
  destruct (first_row_run st d pa ro q tm tc off r d (tk_default tk) _ (fr + (if d then 4 else 2))
              (nxt (ctl d (ctrl_word 47)) nx) H (no_pac_after_prologue d _ Hpac)) as (lb & E & Hlb).
  apply (load_run d [r] st tk l ds c pa ro q tm tc fr off nx t _ lb _ Hl); [|exact (charlast_not_eoc lb Hlb)|exact Hg|].
  - unfold cr_is_empty. cbn [cr_nodes existsb i_text]. destruct (row_text r); [congruence|reflexivity].
  - cbn [flat_map]. rewrite app_nil_r. exact E.
Qed.

Lemma stage1_state : forall d r off tc nx t, basic_row r = true ->
  get_time tc (Z.of_nat (length (emit_load d [r])) - (if d then 2 else 1)) off = Ok t ->
  exists l ds,
   tws (start_state off tc) (emit_load d [r]) nx =
     mkR stash0 (mkTk [row_pos r] None false (row_pos r)) l ds creator0 creator0 creator0 MPop
         (Some (mkCr [mkI IText (row_text r) (row_pos r)] SNone, t)) t tc (Z.of_nat (length (emit_load d [r]))) off None
   /\ last_is l w_edm = false.
Proof.
  intros d r off tc nx t H Hg.
  destruct (one_row_load d r stash0 tracker0 LNone false creator0 creator0 creator0 None 0%Q tc 0 off nx t H eq_refl Hg)
    as (l & ds & E & Hl).
  exists l, ds. split; [exact E|destruct Hl as [->| ->]; reflexivity].
Qed.

Theorem popon_stage1 : forall d r off tc, basic_row r = true ->
  (forall k, exists t, get_time tc k off = Ok t) ->
  let ws := emit_load d [r] in
  let s := translate_words (start_state off tc) ws in
  r_err s = None /\ r_stash s = stash0 /\ buf s = creator0 /\ r_active s = MPop /\
  exists t, get_time tc (Z.of_nat (length ws) - (if d then 2 else 1)) off = Ok t /\
            r_queue s = Some (mkCr [mkI IText (row_text r) (row_pos r)] SNone, t).
Proof.
  intros d r off tc H Ht ws s. destruct (Ht (Z.of_nat (length ws) - (if d then 2 else 1))) as [t Hg].
  destruct (stage1_state d r off tc None t H Hg) as (l & ds & E & _).
  unfold s, ws. rewrite tws_words, E. cbn [r_err r_stash buf r_active r_pop r_queue].
  repeat split. exists t. split; [exact Hg|reflexivity].
Qed.

Lemma read_load_clear : forall d off tc ws tc2 tk l ds c t1 t2 fr,
  tws (start_state off tc) ws None = mkR stash0 tk l ds creator0 creator0 creator0 MPop (Some (c, t1)) t1 tc fr off None ->
  last_is l w_edm = false -> get_time tc2 0 off = Ok t2 ->
  read off [(tc, ws); (tc2, emit_clear d)] = finish_read (create_and_store stash0 c t1 t2).
Proof.
  intros d off tc ws tc2 tk l ds c t1 t2 fr E Hl Hg2.
  destruct (edm_run d stash0 tk l ds creator0 creator0 c t1 t1 tc2 0 off t2 Hl Hg2) as (l' & ds' & fr' & E2).
  unfold read, run_lines. cbn [fold_left].
  change (translate_line (rstate0 off) (tc, ws)) with (translate_words (start_state off tc) ws). rewrite tws_words, E.
  unfold translate_line, set_clock, emit_clear.
  cbn [r_err fst snd r_stash r_tk r_last r_dstart r_pop r_paint r_roll r_active r_queue r_time r_tc r_frames r_offset].
  rewrite E2. reflexivity.
Qed.

Lemma finish_read_ok : forall caps n, caps <> [] -> offending (map to_lcap caps) = [] -> existsb is_flash caps = false ->
  (forall c, In c caps -> Qeq_bool (pc_end c) 0 = false) -> finish_read (mkStash caps n) = ROk caps.
Proof.
  intros caps n Hne Hoff Hfl Hz. unfold finish_read. cbn [st_caps].
  rewrite (proj2 (length_check_none_iff _) Hoff), Hfl, (fix_last_ended _ Hz). destruct caps; [congruence|reflexivity].
Qed.

Lemma indents_range : forall x, In x indents_608 -> 0 <= x <= 28.
Proof. intros x H. unfold indents_608 in H. cbn [In] in H. lia. Qed.

Lemma format_one : forall c0 txt p, format_italics [mkI IText (c0 :: txt) p] = [mkI IText (rstrip (c0 :: txt)) p].
Proof. reflexivity. Qed.

Lemma rstrip_id : forall s, s <> [] -> is_space (last s 0) = false -> rstrip s = s.
Proof.
  intros s Hne Hl. destruct (exists_last Hne) as (l & x & ->). rewrite last_last in Hl.
  unfold rstrip, rstrip_by. rewrite rev_unit. cbn [lstrip_by]. rewrite Hl. rewrite <- rev_unit. apply rev_involutive.
Qed.

Lemma store_one : forall c0 txt p t1 t2, rstrip (c0 :: txt) = c0 :: txt ->
  create_and_store stash0 (mkCr [mkI IText (c0 :: txt) p] SNone) t1 t2
  = mkStash [mkPre t1 t2 [CText (c0 :: txt) p] (Some p)] 1.
Proof.
  intros c0 txt p t1 t2 H. unfold create_and_store. cbn [cr_is_empty cr_nodes existsb i_text nonempty orb negb].
  rewrite format_one, H. reflexivity.
Qed.

Lemma split_no_sep : forall sep s cur, (forall c, In c s -> c <> sep) -> split_ch_aux sep s cur = [rev cur ++ s].
Proof.
  intros sep. induction s as [|c t IH]; intros cur H; cbn [split_ch_aux].
  - rewrite app_nil_r. reflexivity.
  - destruct (Z.eqb_spec c sep) as [E|_]; [exfalso; exact (H c (or_introl eq_refl) E)|].
    rewrite IH by (intros x Hx; apply H; right; exact Hx). cbn [rev]. rewrite <- app_assoc. reflexivity.
Qed.

Lemma one_short_line : forall (k s : str), (length s <= 32)%nat -> (forall c, In c s -> 32 <= c) -> offending [(k, s)] = [].
Proof.
  intros k s Hlen Hc. unfold offending. cbn [map snd concat]. unfold spec_lines, split_ch. rewrite split_no_sep.
  - cbn [rev app filter]. unfold spec_long. replace (32 <? Z.of_nat (length s)) with false by lia. reflexivity.
  - intros c Hi E. specialize (Hc c Hi). lia.
Qed.

Lemma row_text_facts : forall r, basic_row r = true ->
  rstrip (row_text r) = row_text r /\ offending [(format_ts 0, row_text r)] = [].
Proof.
  intros r H. destruct (basic_row_facts r H) as (_ & _ & Hin & Hk & _ & Hb & _ & Hne & Hl & Hn).
  apply indents_range in Hin. rewrite forallb_forall in Hb. split.
  - apply rstrip_id; [exact Hne|]. destruct (is_space (last (row_text r) 0)) eqn:E; [|reflexivity]. exfalso. apply Hl.
    apply basic_space; [|exact E]. apply Hb. destruct (exists_last Hne) as (l & x & ->). rewrite last_last.
    apply in_or_app. right. left. reflexivity.
  - apply one_short_line; [lia|]. intros c Hc. exact (is_basic_ge32 c (Hb c Hc)).
Qed.

Theorem popon_stage1_read : forall d r off tc tc2 t1 t2, basic_row r = true ->
  get_time tc (Z.of_nat (length (emit_load d [r])) - (if d then 2 else 1)) off = Ok t1 ->
  get_time tc2 0 off = Ok t2 -> Qeq_bool t2 0 = false -> is_flash (mkPre t1 t2 [] None) = false ->
  read off [(tc, emit_load d [r]); (tc2, emit_clear d)] =
  ROk [mkPre t1 t2 [CText (row_text r) (row_pos r)] (Some (row_pos r))].
Proof.
  intros d r off tc tc2 t1 t2 H Hg1 Hg2 Hz Hfl.
  destruct (stage1_state d r off tc None t1 H Hg1) as (l & ds & E & Hl).
  destruct (row_text_facts r H) as [Hrs Hoff].
  destruct (basic_row_facts r H) as (_ & _ & _ & _ & _ & _ & _ & Hne & _).
  rewrite (read_load_clear d off tc _ tc2 _ l ds _ t1 t2 _ E Hl Hg2).
  destruct (row_text r) as [|c0 txt]; [congruence|]. rewrite (store_one c0 txt (row_pos r) t1 t2 Hrs).
  apply finish_read_ok.
  - discriminate.
  - unfold offending in *. cbn [map to_lcap cap_text pc_nodes node_text snd concat] in *. rewrite !app_nil_r in *. exact Hoff.
  - cbn [existsb]. change (is_flash (mkPre t1 t2 _ _)) with (is_flash (mkPre t1 t2 [] None)). rewrite Hfl. reflexivity.
  - intros c [<-|[]]. exact Hz.
Qed.

Fixpoint rs (l : str) : str :=
  match l with
  | [] => []
  | c :: t => match rs t with [] => if is_space c then [] else [c] | t' => c :: t' end
  end.

Lemma rstrip_cells_map : forall it l, rstrip_cells (map (fun c => Cell c it) l) = map (fun c => Cell c it) (rs l).
Proof.
  intros it. induction l as [|c t IH]; [reflexivity|]. cbn [map rstrip_cells rs]. rewrite IH.
  destruct (rs t); cbn [map cell_blank]; [destruct (is_space c)|]; reflexivity.
Qed.

Lemma rstrip_obs_map : forall it l, rstrip_obs (map (fun c => (c, it)) l) = map (fun c => (c, it)) (rs l).
Proof.
  intros it. induction l as [|c t IH]; [reflexivity|]. cbn [map rstrip_obs rs]. rewrite IH.
  destruct (rs t); cbn [map fst]; [destruct (is_space c)|]; reflexivity.
Qed.

Lemma match_cells_same : forall it l, match_cells (map (fun c => Cell c it) l) (map (fun c => (c, it)) l) = true.
Proof.
  intros it. induction l as [|c t IH]; [reflexivity|]. cbn [map match_cells]. rewrite Z.eqb_refl, eqb_reflx, orb_true_r, IH.
  reflexivity.
Qed.

Lemma match_line_basic : forall it l, match_line (map (fun c => Cell c it) l) (map (fun c => (c, it)) l) = true.
Proof. intros it l. unfold match_line. rewrite rstrip_cells_map, rstrip_obs_map. apply match_cells_same. Qed.

Lemma q_near9_eq : forall a b : Q, (a == b)%Q -> q_near9 a b = true.
Proof.
  intros a b H. unfold q_near9. apply Qle_bool_iff.
  assert (E : (a - b == 0)%Q) by (rewrite H; ring). rewrite E. discriminate.
Qed.

Lemma cap_ok_intro : forall e t1 t2 nodes, 1 <= e_row e <= 15 -> 0 <= e_col e <= 31 -> (t1 < t2)%Q ->
  match_lines (e_lines e) (obs_lines nodes [] false) = true -> balanced nodes false = true ->
  cap_ok e (mkO t1 t2 nodes (Some (layout_of_pos (e_row e, e_col e)))) = true.
Proof.
  intros e t1 t2 nodes Hr Hc Hlt Hm Hb.
  destruct (layout_linear_exhaustive _ (grid_positions_complete _ _ Hr Hc)) as (Lx & Ly & _). cbn [fst snd] in Lx, Ly.
  unfold cap_ok. cbn [o_nodes o_xy o_start o_end]. rewrite Hm, Hb.
  destruct (layout_of_pos (e_row e, e_col e)) as [x y]. destruct (layout_608 (e_row e) (e_col e)) as [ex ey].
  cbn [fst snd] in Lx, Ly. rewrite (q_near9_eq _ _ Lx), (q_near9_eq _ _ Ly).
  destruct (Qle_bool t2 t1) eqn:E; [|reflexivity].
  apply Qle_bool_iff in E. exfalso. exact (Qlt_not_le _ _ Hlt E).
Qed.

Lemma ok_one_cap : forall d r o, cap_ok (mkE (rw_row r) (rw_indent r + rw_tab r) [cells_of r]) o = true ->
  ok_c05 (mkProg d [[r]]) (Ok [o]) = true.
Proof.
  intros d r o H. unfold ok_c05. cbn [pg_loads loads_ok expected_load group_rows load_ok]. rewrite H. reflexivity.
Qed.

Theorem popon_stage1_ok_core : forall d r t1 t2, basic_row r = true -> (t1 < t2)%Q ->
  ok_c05 (mkProg d [[r]]) (Ok [mkO t1 t2 [OText (row_text r)] (Some (layout_of_pos (row_pos r)))]) = true.
Proof.
  intros d r t1 t2 H Hlt.
  destruct (basic_row_facts r H) as (_ & Hr & Hin & Hk & _ & _ & Hc & Hne & _ & Hn). apply indents_range in Hin.
  assert (Hlen : (0 < length (row_text r))%nat) by (destruct (row_text r); [congruence|cbn; lia]).
  apply ok_one_cap.
  apply (cap_ok_intro (mkE (rw_row r) (rw_indent r + rw_tab r) [cells_of r]) t1 t2 [OText (row_text r)] Hr);
    [cbn [e_col]; lia|exact Hlt| |reflexivity].
  cbn [e_lines obs_lines app match_lines]. rewrite Hc, match_line_basic. reflexivity.
Qed.

Theorem popon_stage1_ok : forall d r off tc tc2 t1 t2, basic_row r = true ->
  (forall k, exists t, get_time tc k off = Ok t) ->
  get_time tc (Z.of_nat (length (emit_load d [r])) - (if d then 2 else 1)) off = Ok t1 ->
  get_time tc2 0 off = Ok t2 -> Qeq_bool t2 0 = false -> is_flash (mkPre t1 t2 [] None) = false ->
  (t1 < t2)%Q ->
  read off [(tc, emit_load d [r]); (tc2, emit_clear d)] =
    ROk [mkPre t1 t2 [CText (row_text r) (row_pos r)] (Some (row_pos r))] /\
  ok_c05 (mkProg d [[r]]) (Ok [mkO t1 t2 [OText (row_text r)] (Some (layout_of_pos (row_pos r)))]) = true.
Proof.
  intros d r off tc tc2 t1 t2 H Ht Hg1 Hg2 Hz Hfl Hlt. split.
  - exact (popon_stage1_read d r off tc tc2 t1 t2 H Hg1 Hg2 Hz Hfl).
  - exact (popon_stage1_ok_core d r t1 t2 H Hlt).
Qed.
