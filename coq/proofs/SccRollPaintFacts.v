(* C16: the event-level roll-up / paint-on timing model (model/SccRollPaint.v), run on any sequence of events with
   positive instants (the first mode command may be at instant 0: `rp_nonneg`), yields the chain through the event
   instants: each caption ends exactly when the next begins (`rp_chain_all_nonneg`).
   The only caption that does not end at an event instant is the last one when it never received an end: a paint-on
   caption stored by the last event (`ends_in_paint`) or still open at the end of the file (`pending`) lasts 4 s.
   When the instants increase, the captions are ordered by start and every caption has start < end
   (`rp_chain_ordered`); without that the chain may run backwards (`rp_chain_unordered_backwards`). *)
From Coq Require Import List ZArith QArith Lia Bool ZifyBool Lqa.
From PV Require Import lib.Sx lib.Str lib.Result model.SccLen model.SccStash model.SccPopon model.SccRollPaint
  spec.SpecSccLen spec.SpecSccTime proofs.SccLenFacts proofs.SccStashFacts proofs.SccPoponFacts.
Import ListNotations.
Local Open Scope Q_scope.
Local Arguments stash_extend : simpl never.

Definition rp_positive (t0 : Q) (evs : list rpev) : Prop := (0 < t0)%Q /\ forall e, In e evs -> (0 < rp_time e)%Q.
(* the first mode command may be sent at instant 0: the first caption then starts at 0 and its end is set by the first
   event; the "not ended yet" sentinel is `end == 0`, never `start == 0` *)
Definition rp_nonneg (t0 : Q) (evs : list rpev) : Prop := (0 <= t0)%Q /\ forall e, In e evs -> (0 < rp_time e)%Q.

Lemma rp_positive_nonneg : forall t0 evs, rp_positive t0 evs -> rp_nonneg t0 evs.
Proof. intros t0 evs [Ht Hp]. split; [apply Qlt_le_weak; exact Ht|exact Hp]. Qed.

Fixpoint increasing (t : Q) (ts : list Q) : Prop :=
  match ts with [] => True | x :: r => (t < x)%Q /\ increasing x r end.
Definition ends_in_paint (evs : list rpev) : bool :=
  match last (map Some evs) None with Some (RPaint _) => true | _ => false end.

(* expected spans: the chain through the event instants; a paint-on buffer still open at the end lasts 4 s *)
Definition rp_expected (t0 : Q) (evs : list rpev) (pending : bool) : result (list (Q * Q)) :=
  let ts := map rp_time evs in
  let l := chain t0 ts ++ (if pending then [(last ts t0, (last ts t0 + four_s)%Q)] else []) in
  if existsb flash l then Err ETiming else match l with [] => Err ENoCaptions | _ => Ok l end.

(* the general expectation, for ALL event lists: when nothing is pending and the last event is an RPaint, the caption
   stored by that event is never given an end (the end would have been set by the next store) and gets the 4 s
   default instead of the instant of the event *)
Fixpoint open_last (l : list (Q * Q)) : list (Q * Q) :=
  match l with
  | [] => []
  | [p] => [(fst p, fst p + four_s)]
  | p :: t => p :: open_last t
  end.

Definition rp_spans (t0 : Q) (evs : list rpev) (pending : bool) : list (Q * Q) :=
  let ts := map rp_time evs in
  if pending then chain t0 ts ++ [(last ts t0, last ts t0 + four_s)]
  else if ends_in_paint evs then open_last (chain t0 ts) else chain t0 ts.

Definition rp_expected_all (t0 : Q) (evs : list rpev) (pending : bool) : result (list (Q * Q)) :=
  let l := rp_spans t0 evs pending in
  if existsb flash l then Err ETiming else match l with [] => Err ENoCaptions | _ => Ok l end.

Lemma open_last_snoc : forall l s e, open_last (l ++ [(s, e)]) = l ++ [(s, s + four_s)].
Proof.
  induction l as [|p l IH]; intros s e; [reflexivity|].
  change ((p :: l) ++ [(s, e)]) with (p :: (l ++ [(s, e)])).
  assert (E : open_last (p :: (l ++ [(s, e)])) = p :: open_last (l ++ [(s, e)])).
  { destruct l; reflexivity. }
  rewrite E, IH. reflexivity.
Qed.

Lemma last_cons : forall A (x : A) l d, last (x :: l) d = last l x.
Proof.
  intros A x l. revert x. induction l as [|y l IH]; intros x d; [reflexivity|].
  change (last (x :: y :: l) d) with (last (y :: l) d). rewrite (IH y d), (IH y x). reflexivity.
Qed.

Lemma chain_snoc : forall ts t0 x, chain t0 (ts ++ [x]) = chain t0 ts ++ [(last ts t0, x)].
Proof.
  induction ts as [|t ts IH]; intros t0 x; [reflexivity|].
  cbn [app chain]. rewrite IH, last_cons. reflexivity.
Qed.

Lemma ends_in_paint_snoc : forall evs x, ends_in_paint (evs ++ [RPaint x]) = true.
Proof. intros evs x. unfold ends_in_paint. rewrite map_app. cbn [map]. rewrite last_last. reflexivity. Qed.

Lemma ends_in_paint_cons : forall e e' r, ends_in_paint (e :: e' :: r) = ends_in_paint (e' :: r).
Proof. reflexivity. Qed.

(* what the stash holds after a run of events *)
(* time: the instant of the previous event. A caption stored by RPaint keeps the sentinel end 0 until the next store *)
Fixpoint held (time : Q) (evs : list rpev) : list (Q * Q) :=
  match evs with
  | [] => []
  | e :: r => (time, match e, r with RPaint _, [] => 0 | _, _ => rp_time e end) :: held (rp_time e) r
  end.

Lemma join_threshold_pos : 0 < join_threshold.
Proof. vm_compute. reflexivity. Qed.

Lemma same_instant_joins : forall t : Q, negb (Qle_bool join_threshold (t - t)) = true.
Proof.
  intros t. apply negb_true_iff. destruct (Qle_bool join_threshold (t - t)) eqn:E; [|reflexivity].
  apply Qle_bool_iff in E. pose proof join_threshold_pos. exfalso. lra.
Qed.

(* storing a caption that starts at `time` closes the previous one at `time` when its end is still the sentinel 0 or
   is `time` itself *)
Lemma ext1_close : forall acc s e time, (e = 0 \/ e = time) ->
  ext1 (mkStash (acc ++ [cue' (s, e)]) 1) (time, 0) = mkStash ((acc ++ [cue' (s, time)]) ++ [cue' (time, 0)]) 1.
Proof.
  intros acc s e time He. rewrite ext1_snoc. cbn [fst snd].
  destruct He as [->| ->].
  - reflexivity.
  - rewrite same_instant_joins, orb_true_r. reflexivity.
Qed.

Lemma rpstep_snoc : forall acc s e time ev, (e = 0 \/ e = time) ->
  rpstep (mkStash (acc ++ [cue' (s, e)]) 1, time) ev =
  (mkStash ((acc ++ [cue' (s, time)]) ++ [cue' (time, match ev with RRoll t => t | RPaint _ => 0 end)]) 1, rp_time ev).
Proof.
  intros acc s e time ev He. destruct ev as [t|t]; cbn [rpstep rp_time].
  - change (stash_extend (mkStash (acc ++ [cue' (s, e)]) 1) [cue time 0])
      with (ext1 (mkStash (acc ++ [cue' (s, e)]) 1) (time, 0)).
    rewrite (ext1_close _ _ _ _ He). unfold correct_last_timing. cbn [st_caps st_batch].
    rewrite map_tail_1_snoc. reflexivity.
  - change (stash_extend (mkStash (acc ++ [cue' (s, e)]) 1) [cue time 0])
      with (ext1 (mkStash (acc ++ [cue' (s, e)]) 1) (time, 0)).
    rewrite (ext1_close _ _ _ _ He). reflexivity.
Qed.

Lemma fold_held : forall evs acc s e time, (e = 0 \/ e = time) ->
  fold_left rpstep evs (mkStash (acc ++ [cue' (s, e)]) 1, time) =
  (mkStash (acc ++ map cue' (match evs with [] => [(s, e)] | _ => (s, time) :: held time evs end)) 1,
   last (map rp_time evs) time).
Proof.
  induction evs as [|ev r IH]; intros acc s e time He; [reflexivity|].
  cbn [fold_left]. rewrite (rpstep_snoc _ _ _ _ _ He).
  rewrite IH by (destruct ev; [right|left]; reflexivity).
  cbn [map]. rewrite last_cons. f_equal. f_equal. rewrite <- app_assoc. f_equal.
  cbn [app map held]. f_equal.
  destruct r as [|ev' r']; [destruct ev; reflexivity|].
  destruct ev; reflexivity.
Qed.

Lemma rpstep_first : forall t0 ev,
  rpstep (stash0, t0) ev =
  (mkStash ([] ++ [cue' (t0, match ev with RRoll t => t | RPaint _ => 0 end)]) 1, rp_time ev).
Proof. intros t0 [t|t]; reflexivity. Qed.

Lemma run_held : forall evs t0,
  fold_left rpstep evs (stash0, t0) =
  (match evs with [] => stash0 | _ => mkStash (map cue' (held t0 evs)) 1 end, last (map rp_time evs) t0).
Proof.
  intros [|ev r] t0; [reflexivity|].
  cbn [fold_left]. rewrite rpstep_first.
  rewrite fold_held by (destruct ev; [right|left]; reflexivity).
  cbn [map]. rewrite last_cons. f_equal. cbn [app held]. f_equal.
  destruct r as [|ev' r']; [destruct ev; reflexivity|]. destruct ev; reflexivity.
Qed.

Lemma held_shape : forall evs time, 0 <= time -> (forall e, In e evs -> 0 < rp_time e) ->
  (ends_in_paint evs = false /\ held time evs = chain time (map rp_time evs) /\
   Forall pos_end (chain time (map rp_time evs))) \/
  (ends_in_paint evs = true /\ exists l s e, chain time (map rp_time evs) = l ++ [(s, e)] /\
     held time evs = l ++ [(s, 0)] /\ Forall pos_end l /\ 0 <= s).
Proof.
  induction evs as [|ev r IH]; intros time Ht Hp.
  - left. repeat split. constructor.
  - assert (Hev : 0 < rp_time ev) by (apply Hp; left; reflexivity).
    assert (Hr : forall e, In e r -> 0 < rp_time e) by (intros e He; apply Hp; right; exact He).
    destruct r as [|ev' r'].
    + destruct ev as [t|t]; cbn [rp_time] in Hev.
      * left. repeat split. constructor; [exact Hev|constructor].
      * right. split; [reflexivity|]. exists [], time, t. repeat split; [constructor|exact Ht].
    + assert (Hne : ev' :: r' <> []) by discriminate.
      remember (ev' :: r') as r eqn:Er. clear Er.
      assert (Hh : held time (ev :: r) = (time, rp_time ev) :: held (rp_time ev) r)
        by (destruct r; [congruence|destruct ev; reflexivity]).
      assert (He' : ends_in_paint (ev :: r) = ends_in_paint r) by (destruct r; [congruence|reflexivity]).
      rewrite Hh, He'. cbn [map chain].
      destruct (IH (rp_time ev) (Qlt_le_weak _ _ Hev) Hr) as [[He [Hc HF]]|[He [l [s [e [Hc [Hl [HF Hs]]]]]]]].
      * left. split; [exact He|]. split.
        -- rewrite Hc. reflexivity.
        -- constructor; [exact Hev|exact HF].
      * right. split; [exact He|]. exists ((time, rp_time ev) :: l), s, e. repeat split.
        -- rewrite Hc. reflexivity.
        -- rewrite Hl. reflexivity.
        -- constructor; [exact Hev|exact HF].
        -- exact Hs.
Qed.

Definition verdict (l : list (Q * Q)) : result (list (Q * Q)) :=
  if existsb flash l then Err ETiming else match l with [] => Err ENoCaptions | _ => Ok l end.

Lemma finish_ended : forall l n, Forall pos_end l ->
  spans_of (finish_read (mkStash (map cue' l) n)) = verdict l.
Proof.
  intros l n HF. unfold finish_read, verdict. cbn [st_caps]. rewrite length_check_cues, existsb_flash_cues.
  destruct (existsb flash l); [reflexivity|].
  destruct l as [|p l']; [reflexivity|].
  cbn [map]. change (cue' p :: map cue' l') with (map cue' (p :: l')). cbn [spans_of].
  rewrite fix_last_ended by (apply cues_ended; exact HF). rewrite spans_cues. reflexivity.
Qed.

Lemma pending_not_flash0 : forall s : Q, 0 <= s -> is_flash (cue s 0) = false.
Proof.
  intros s H. unfold is_flash. cbn [cue pc_start pc_end].
  assert (E : Qle_bool (0 - s) 0 = true) by (apply Qle_bool_iff; lra).
  rewrite E. reflexivity.
Qed.

Lemma finish_open : forall l s n, Forall pos_end l -> 0 <= s ->
  spans_of (finish_read (mkStash (map cue' (l ++ [(s, 0)])) n)) = verdict (l ++ [(s, s + four_s)]).
Proof.
  intros l s n HF Hs. unfold finish_read, verdict. cbn [st_caps]. rewrite length_check_cues.
  rewrite map_app, !existsb_app, existsb_flash_cues. cbn [map existsb].
  change (cue' (s, 0)) with (cue s 0). rewrite pending_not_flash0 by exact Hs. rewrite four_s_not_flash.
  destruct (existsb flash l); [reflexivity|]. cbn [orb].
  assert (E1 : forall (A : Type) (x : A) (k : list A) (R : Type) (a b : R),
                 match k ++ [x] with [] => a | _ :: _ => b end = b) by (intros A x [|y k] R a b; reflexivity).
  rewrite !E1. cbn [spans_of].
  rewrite fix_last_spec_all.
  - rewrite map_app, spans_cues. reflexivity.
  - intros c [<-|[]]. reflexivity.
  - apply cues_ended. exact HF.
Qed.

Lemma rp_read_not_pending_nonneg : forall t0 evs, rp_nonneg t0 evs ->
  rp_read t0 evs false = rp_expected_all t0 evs false.
Proof.
  intros t0 evs [Ht Hp]. unfold rp_read, rprun, rp_expected_all, rp_spans. rewrite run_held.
  fold (verdict (if ends_in_paint evs then open_last (chain t0 (map rp_time evs)) else chain t0 (map rp_time evs))).
  destruct evs as [|ev r]; [reflexivity|].
  destruct (held_shape (ev :: r) t0 Ht Hp) as [[He [Hc HF]]|[He [l [s [e [Hc [Hl [HF Hs]]]]]]]]; rewrite He.
  - rewrite Hc. apply finish_ended. exact HF.
  - rewrite Hl, Hc, open_last_snoc. apply finish_open; assumption.
Qed.

Lemma rp_read_not_pending : forall t0 evs, rp_positive t0 evs ->
  rp_read t0 evs false = rp_expected_all t0 evs false.
Proof. intros t0 evs H. apply rp_read_not_pending_nonneg, rp_positive_nonneg, H. Qed.

(* a paint-on buffer still open at the end of the file is one more RPaint event (its instant is irrelevant) *)
Lemma pending_as_event : forall t0 evs x, rprun t0 evs true = rprun t0 (evs ++ [RPaint x]) false.
Proof.
  intros t0 evs x. unfold rprun. rewrite fold_left_app.
  destruct (fold_left rpstep evs (stash0, t0)) as [s time]. reflexivity.
Qed.

Lemma last_positive : forall t0 evs, rp_positive t0 evs -> 0 < last (map rp_time evs) t0.
Proof.
  intros t0 evs. revert t0. induction evs as [|e r IH]; intros t0 [Ht Hp]; [exact Ht|].
  cbn [map]. rewrite last_cons. apply IH. split.
  - apply Hp. left. reflexivity.
  - intros x Hx. apply Hp. right. exact Hx.
Qed.

Theorem rp_chain_all_nonneg : forall t0 evs pending, rp_nonneg t0 evs ->
  rp_read t0 evs pending = rp_expected_all t0 evs pending.
Proof.
  intros t0 evs [|] H; [|apply rp_read_not_pending_nonneg; exact H].
  (* the instant of the closing pseudo-event is irrelevant: take 1 *)
  unfold rp_read. rewrite (pending_as_event t0 evs 1).
  change (rp_read t0 (evs ++ [RPaint 1]) false = rp_expected_all t0 evs true).
  rewrite rp_read_not_pending_nonneg.
  - unfold rp_expected_all, rp_spans. rewrite ends_in_paint_snoc, map_app. cbn [map rp_time].
    rewrite chain_snoc, open_last_snoc. reflexivity.
  - destruct H as [Ht Hp]. split; [exact Ht|]. intros e He. apply in_app_or in He.
    destruct He as [He|[<-|[]]]; [apply Hp; exact He|reflexivity].
Qed.

Theorem rp_chain_all : forall t0 evs pending, rp_positive t0 evs ->
  rp_read t0 evs pending = rp_expected_all t0 evs pending.
Proof. intros t0 evs pending H. apply rp_chain_all_nonneg, rp_positive_nonneg, H. Qed.

(* Leibniz equality: both sides only copy the given instants; the 4 s end is `s + inject_Z 4000000` on the model side
   and `s + four_s` on the statement side, and four_s unfolds to inject_Z 4000000. *)
Theorem rp_chain : forall t0 evs pending, rp_positive t0 evs ->
  (pending = false -> ends_in_paint evs = false) ->
  rp_read t0 evs pending = rp_expected t0 evs pending.
Proof.
  intros t0 evs pending H Hside. rewrite rp_chain_all by exact H.
  unfold rp_expected_all, rp_expected, rp_spans. destruct pending; [reflexivity|].
  rewrite (Hside eq_refl), app_nil_r. reflexivity.
Qed.

(* the side condition cannot be dropped: the caption stored by a final RPaint lasts 4 s, not until the event *)
Example rp_chain_needs_side_condition :
  rp_read 10 [RRoll 1000000; RPaint 2000000] false = Ok [(10, 1000000); (1000000, 1000000 + four_s)] /\
  rp_expected 10 [RRoll 1000000; RPaint 2000000] false = Ok [(10, 1000000); (1000000, 2000000)].
Proof. split; vm_compute; reflexivity. Qed.

Lemma chain_linked : forall ts t0 tail, (tail = [] \/ exists e, tail = [(last ts t0, e)]) ->
  forall i a b, nth_error (chain t0 ts ++ tail) i = Some a -> nth_error (chain t0 ts ++ tail) (S i) = Some b ->
  snd a = fst b.
Proof.
  induction ts as [|t r IH]; intros t0 tail Htail i a b Ha Hb.
  - cbn [chain app] in *. destruct Htail as [->|[e ->]].
    + destruct i; discriminate.
    + destruct i; discriminate.
  - cbn [chain app] in Ha, Hb. rewrite last_cons in Htail. destruct i as [|i].
    + cbn [nth_error] in Ha, Hb. inversion Ha; subst a. cbn [snd].
      destruct r as [|t' r'].
      * cbn [chain app last] in *. destruct Htail as [->|[e ->]]; [discriminate|].
        inversion Hb; subst b. reflexivity.
      * cbn [chain app nth_error] in Hb. inversion Hb; subst b. reflexivity.
    + cbn [nth_error] in Ha. change (nth_error (chain t r ++ tail) (S i) = Some b) in Hb.
      exact (IH t tail Htail i a b Ha Hb).
Qed.

Corollary rp_chain_ends_meet : forall t0 evs pending l, rp_positive t0 evs ->
  (pending = false -> ends_in_paint evs = false) ->
  rp_read t0 evs pending = Ok l ->
  forall i a b, nth_error l i = Some a -> nth_error l (S i) = Some b -> snd a = fst b.
Proof.
  intros t0 evs pending l H Hside Hr. rewrite rp_chain in Hr by assumption.
  unfold rp_expected in Hr. cbv zeta in Hr.
  destruct (existsb flash _); [discriminate|].
  set (tail := if pending then [(last (map rp_time evs) t0, last (map rp_time evs) t0 + four_s)] else []) in *.
  assert (El : l = chain t0 (map rp_time evs) ++ tail).
  { destruct (chain t0 (map rp_time evs) ++ tail); [discriminate|]. inversion Hr. reflexivity. }
  subst l. apply chain_linked. unfold tail. destruct pending; [right; eexists; reflexivity|left; reflexivity].
Qed.

Lemma four_s_pos : 0 < four_s.
Proof. reflexivity. Qed.

Lemma increasing_prefix : forall ts t x, increasing t (ts ++ [x]) -> increasing t ts.
Proof.
  induction ts as [|y r IH]; intros t x H; [exact I|].
  cbn [app increasing] in *. destruct H as [H1 H2]. split; [exact H1|exact (IH y x H2)].
Qed.

Lemma ends_in_paint_inv : forall evs, ends_in_paint evs = true -> exists evs' x, evs = evs' ++ [RPaint x].
Proof.
  induction evs as [|e r IH]; intros H; [discriminate|].
  destruct r as [|e' r'].
  - destruct e as [t|t]; [discriminate|]. exists [], t. reflexivity.
  - rewrite ends_in_paint_cons in H. destruct (IH H) as (evs' & x & E). exists (e :: evs'), x. rewrite E. reflexivity.
Qed.

(* every span list of the statement is a chain through increasing instants, possibly followed by one span that starts
   at the last instant and ends later *)
Definition later_tail (ts : list Q) (t0 : Q) (tail : list (Q * Q)) : Prop :=
  tail = [] \/ exists e, tail = [(last ts t0, e)] /\ last ts t0 < e.

Lemma rp_spans_form : forall t0 evs pending, increasing t0 (map rp_time evs) ->
  exists ts tail, rp_spans t0 evs pending = chain t0 ts ++ tail /\ increasing t0 ts /\ later_tail ts t0 tail.
Proof.
  intros t0 evs pending Hinc. unfold rp_spans. cbv zeta. destruct pending.
  - exists (map rp_time evs), [(last (map rp_time evs) t0, last (map rp_time evs) t0 + four_s)].
    split; [reflexivity|]. split; [exact Hinc|]. right. eexists. split; [reflexivity|].
    pose proof four_s_pos. lra.
  - destruct (ends_in_paint evs) eqn:E.
    + destruct (ends_in_paint_inv evs E) as (evs' & x & ->).
      rewrite map_app in *. cbn [map rp_time] in *. rewrite chain_snoc, open_last_snoc.
      exists (map rp_time evs'), [(last (map rp_time evs') t0, last (map rp_time evs') t0 + four_s)].
      split; [reflexivity|]. split; [exact (increasing_prefix _ _ _ Hinc)|].
      right. eexists. split; [reflexivity|]. pose proof four_s_pos. lra.
    + exists (map rp_time evs), []. split; [symmetry; apply app_nil_r|]. split; [exact Hinc|]. left. reflexivity.
Qed.

Lemma chain_ordered : forall ts t0 tail, increasing t0 ts -> later_tail ts t0 tail ->
  Forall (fun p => fst p < snd p) (chain t0 ts ++ tail) /\
  (forall i a b, nth_error (chain t0 ts ++ tail) i = Some a -> nth_error (chain t0 ts ++ tail) (S i) = Some b ->
     fst a < fst b).
Proof.
  induction ts as [|t r IH]; intros t0 tail Hinc Htail.
  - cbn [chain app]. destruct Htail as [->|[e [-> He]]].
    + split; [constructor|]. intros [|i] a b Ha; discriminate.
    + split; [constructor; [exact He|constructor]|]. intros [|i] a b Ha Hb; [discriminate|destruct i; discriminate].
  - cbn [increasing] in Hinc. destruct Hinc as [H0 Hinc].
    assert (Htail' : later_tail r t tail).
    { unfold later_tail in *. rewrite last_cons in Htail. exact Htail. }
    destruct (IH t tail Hinc Htail') as [HF HO]. cbn [chain app]. split.
    + constructor; [exact H0|exact HF].
    + intros [|i] a b Ha Hb.
      * cbn [nth_error] in Ha, Hb. inversion Ha; subst a. cbn [fst].
        destruct r as [|t' r'].
        -- cbn [chain app] in Hb. destruct Htail' as [->|[e [-> He]]]; [discriminate|].
           cbn [last] in Hb. inversion Hb; subst b. exact H0.
        -- cbn [chain app] in Hb. inversion Hb; subst b. exact H0.
      * cbn [nth_error] in Ha. change (nth_error (chain t r ++ tail) (S i) = Some b) in Hb.
        exact (HO i a b Ha Hb).
Qed.

(* C16 "captions are ordered by start with start < end, and each caption ends exactly when the next one begins":
   no side condition on the last event is needed - the caption opened to 4 s is the last one *)
Theorem rp_chain_ordered : forall t0 evs pending l, rp_nonneg t0 evs -> increasing t0 (map rp_time evs) ->
  rp_read t0 evs pending = Ok l ->
  Forall (fun p => (fst p < snd p)%Q) l /\
  (forall i a b, nth_error l i = Some a -> nth_error l (S i) = Some b -> (fst a < fst b)%Q /\ snd a = fst b).
Proof.
  intros t0 evs pending l H Hinc Hr. rewrite rp_chain_all_nonneg in Hr by exact H.
  unfold rp_expected_all in Hr. cbv zeta in Hr.
  destruct (existsb flash _); [discriminate|].
  destruct (rp_spans_form t0 evs pending Hinc) as (ts & tail & E & Hi & Ht). rewrite E in Hr.
  assert (El : l = chain t0 ts ++ tail) by (destruct (chain t0 ts ++ tail); [discriminate|inversion Hr; reflexivity]).
  subst l. destruct (chain_ordered ts t0 tail Hi Ht) as [HF HO]. split; [exact HF|].
  intros i a b Ha Hb. split; [exact (HO i a b Ha Hb)|].
  apply (chain_linked ts t0 tail) with (i := i); [|exact Ha|exact Hb].
  destruct Ht as [->|[e [-> _]]]; [left; reflexivity|right; eexists; reflexivity].
Qed.

(* without increasing instants the spans are still chained but may run backwards *)
Example rp_chain_unordered_backwards :
  rp_read 5000000 [RRoll 3000000] false = Ok [(5000000, 3000000)].
Proof. vm_compute. reflexivity. Qed.

(* non-vacuity: a mixed list, first mode command at instant 0, a paint-on caption pending at the end *)
Example rp_chain_all_example :
  let evs := [RRoll 1000000; RPaint 2000000; RPaint 3500000; RRoll 5000000] in
  rp_nonneg 0 evs /\ increasing 0 (map rp_time evs) /\
  rp_read 0 evs true =
    Ok [(0, 1000000); (1000000, 2000000); (2000000, 3500000); (3500000, 5000000); (5000000, 5000000 + four_s)] /\
  rp_expected_all 0 evs true = rp_read 0 evs true.
Proof.
  cbv zeta. split; [|split; [|split]].
  - split; [apply Qle_refl|]. intros e He. cbn [In] in He.
    destruct He as [<-|[<-|[<-|[<-|[]]]]]; reflexivity.
  - cbn [map rp_time increasing]. repeat split.
  - vm_compute. reflexivity.
  - vm_compute. reflexivity.
Qed.

Example rp_chain_ordered_example :
  exists l, rp_read 0 [RRoll 1000000; RPaint 2000000; RPaint 3500000; RRoll 5000000] true = Ok l /\
    length l = 5%nat /\ Forall (fun p => fst p < snd p) l /\
    (forall i a b, nth_error l i = Some a -> nth_error l (S i) = Some b -> fst a < fst b /\ snd a = fst b).
Proof.
  destruct rp_chain_all_example as (Hn & Hi & Hr & _). eexists. split; [exact Hr|]. split; [reflexivity|].
  exact (rp_chain_ordered _ _ _ _ Hn Hi Hr).
Qed.

(* the same with a final RPaint and nothing pending: the caption stored by the last event is the one opened to 4 s *)
Example rp_chain_ordered_example_open_last :
  rp_read 0 [RRoll 1000000; RPaint 2000000] false = Ok [(0, 1000000); (1000000, 1000000 + four_s)].
Proof. vm_compute. reflexivity. Qed.
