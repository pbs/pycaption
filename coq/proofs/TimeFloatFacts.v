(* C02: the MicroDVD writer computes frames as int(micro * 25.0 / 10**6) in binary64; the model (and the spec)
   use the exact floor.  For INTEGER microseconds below 24 h the two agree, by an interval argument that needs no model of
   the float format beyond two facts about the ONE rounded operation (the division):
     - micro * 25 < 2.16 * 10^12 < 2^53 is an integer, so the product is exact, and 10**6 converts exactly;
     - the quotient y = micro*25 / 10^6 lies below 2^22, where binary64 numbers are 2^-31 apart: a correctly rounded
       result differs from y by at most 2^-32 (we only use 2^-31), and an integer quotient is representable, hence returned
       unchanged.
   The rounding function is abstract (a premise of the theorem, not an axiom): ANY rnd with these two properties gives
   floor(rnd y) = floor y, because a non-integer y is at least 10^-6 away from the next integers. *)
From Coq Require Import ZArith QArith Qround Qabs Lia ZifyBool.
#[local] Ltac Zify.zify_post_hook ::= Z.to_euclidean_division_equations.
Open Scope Z_scope.

Definition rounds_like_binary64_below_2p22 (rnd : Q -> Q) : Prop :=
  (forall (y : Q) (z : Z), (y == inject_Z z)%Q -> (rnd y == inject_Z z)%Q) /\
  (forall y : Q, (0 <= y)%Q -> (y < 4194304)%Q -> (Qabs (rnd y - y) <= 1 # 2147483648)%Q).

Lemma Qfloor_between : forall (v : Q) (n : Z), (inject_Z n <= v)%Q -> (v < inject_Z (n + 1))%Q -> Qfloor v = n.
Proof.
  intros v n H1 H2.
  assert (A : n <= Qfloor v). { rewrite <- (Qfloor_Z n). apply Qfloor_resp_le. exact H1. }
  assert (B : Qfloor v < n + 1).
  { rewrite Zlt_Qlt. eapply Qle_lt_trans; [apply Qfloor_le|exact H2]. }
  lia.
Qed.

Theorem mdvd_frames_binary64 : forall (rnd : Q -> Q) (t : Z),
  rounds_like_binary64_below_2p22 rnd -> 0 <= t < 86400000000 ->
  Qfloor (rnd ((t * 25) # 1000000)) = t * 25 / 1000000.
Proof.
  intros rnd t [Hint Herr] Ht.
  set (N := t * 25). set (n := N / 1000000). set (r := N mod 1000000).
  assert (HN : N = 1000000 * n + r) by (unfold n, r; lia).
  assert (Hr : 0 <= r < 1000000) by (unfold r; lia).
  assert (Hn : 0 <= n < 2160000) by (unfold n, N; lia).
  clearbody N n r.
  destruct (Z.eq_dec r 0) as [R0|R1].
  - assert (E : (N # 1000000 == inject_Z n)%Q) by (unfold Qeq, inject_Z; cbn [Qnum Qden]; lia).
    rewrite (Qfloor_comp _ _ (Hint _ _ E)). apply Qfloor_Z.
  - assert (E : (Qabs (rnd (N # 1000000) - (N # 1000000)) <= 1 # 2147483648)%Q)
      by (apply Herr; unfold Qle, Qlt; cbn [Qnum Qden]; lia).
    apply Qabs_Qle_condition in E. destruct E as [E1 E2]. destruct (rnd (N # 1000000)) as [vn vd].
    assert (B : Zpos vd <= r * Zpos vd <= 999999 * Zpos vd) by nia. subst N.
    apply Qfloor_between; unfold Qle, Qlt, Qminus, Qplus, Qopp, inject_Z in *; cbn [Qnum Qden] in *;
      rewrite ?Pos2Z.inj_mul in *; lia.
Qed.

(* non-vacuity: the identity rounds like that *)
Example rounds_like_id : rounds_like_binary64_below_2p22 (fun y => y).
Proof.
  split; [intros y z H; exact H|]. intros y _ _.
  assert (E : (y - y == 0)%Q) by ring. rewrite E. cbn. discriminate.
Qed.
