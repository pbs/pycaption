(* C12: the style-aware lookup (model/DfxpStyleAlign.v) and the region-only reader of the tree theorem
   (Positioning.read_region) agree on elements without style-carried text-align: C12_dfxp_layout_roundtrip_written_corollary is the
   style-free instance of the style-aware scraper. *)
From Coq Require Import List ZArith.
From PV Require Import lib.Result model.Geometry model.Positioning model.DfxpAlign model.DfxpStyleAlign.
From PV Require Import proofs.Pos12StyleAlignFacts.
Import ListNotations.
Open Scope Z_scope.

Lemma read_region_alignment : forall l r, read_region (layout_attrs l) = Ok r ->
  l_alignment r = Some (mkAlign (Some (h_of (l_alignment l))) (Some (v_of (l_alignment l)))).
Proof.
  intros l r H. unfold read_region in H.
  destruct (opt_res point_of_attr (ra_origin (layout_attrs l))); [|discriminate]. cbn [bind] in H.
  destruct (opt_res stretch_of_attr (ra_extent (layout_attrs l))); [|discriminate]. cbn [bind] in H.
  destruct (opt_res padding_from_attr (ra_padding (layout_attrs l))); [|discriminate]. cbn [bind] in H.
  inversion H; subst. cbn [l_alignment]. unfold layout_attrs, align_attrs. cbn [ra_text_align ra_display_align].
  destruct (l_alignment l) as [[[h|] [v|]]|]; reflexivity.
Qed.

Theorem plain_element_is_read_region : forall e parents l r, plain e -> Forall plain parents ->
  read_region (layout_attrs l) = Ok r ->
  element_alignment (Some e) parents (region_ta (l_alignment l)) (region_da (l_alignment l)) = l_alignment r.
Proof.
  intros e parents l r He Hp Hr. rewrite (read_region_alignment l r Hr). apply written_plain_alignment; assumption.
Qed.

(* and with a style in charge the two differ exactly in the horizontal member *)
Theorem styled_element_overrides_h : forall e parents l r t,
  find_text_align (Some e) parents (region_ta (l_alignment l)) = Some (halign_name t) ->
  read_region (layout_attrs l) = Ok r ->
  element_alignment (Some e) parents (region_ta (l_alignment l)) (region_da (l_alignment l))
  = Some (mkAlign (Some t) (match l_alignment r with Some a => al_v a | None => None end)).
Proof.
  intros e parents l r t H Hr. rewrite (read_region_alignment l r Hr). cbn [al_v]. apply written_styled_alignment. exact H.
Qed.
