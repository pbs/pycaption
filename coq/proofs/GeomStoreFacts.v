(* C18, heap level: as_percentage_of / fit_to_screen only allocate.  No location of the store they start in is assigned
   (so no object reachable from the receiver - or from anything else - changes), the receiver's snapshot is unchanged,
   and a result that is not the receiver itself is a newly allocated object. *)
From Coq Require Import List ZArith QArith Bool Lia.
From PV Require Import lib.Sx lib.Str lib.Result.
From PV Require Import model.Geometry model.Store model.GeomStore proofs.StoreFacts proofs.GeomEq.
Import ListNotations.
Open Scope Z_scope.

Definition extends {A} (m : SM A) : Prop := forall st st' a, m st = Ok (st', a) -> exists ext, st' = st ++ ext.

Lemma ext_ret : forall A (a : A), extends (ret a).
Proof. intros A a st st' b H. inversion H; subst. exists []. symmetry. apply app_nil_r. Qed.
Lemma ext_fail : forall A e, extends (@fail A e).
Proof. intros A e st st' b H. discriminate H. Qed.
Lemma ext_lift : forall A (r : result A), extends (lift r).
Proof. intros A [a|e] st st' b H; [|discriminate H]. inversion H; subst. exists []. symmetry. apply app_nil_r. Qed.
Lemma ext_rd : forall v k, extends (rd v k).
Proof. intros v k st st' b H. inversion H; subst. exists []. symmetry. apply app_nil_r. Qed.
Lemma ext_new : forall k its, extends (new k its).
Proof. intros k its st st' b H. unfold new, new_obj, alloc in H. inversion H; subst. eexists. reflexivity. Qed.
Lemma ext_rd_size : forall v, extends (rd_size v).
Proof.
  intros v st st' b H. unfold rd_size in H. destruct (dec_size st v); [|discriminate H].
  inversion H; subst. exists []. symmetry. apply app_nil_r.
Qed.
Lemma ext_bnd : forall A B (m : SM A) (f : A -> SM B), extends m -> (forall a, extends (f a)) -> extends (bnd m f).
Proof.
  intros A B m f Hm Hf st st' b H. unfold bnd in H. destruct (m st) as [[st1 a]|e] eqn:E; [|discriminate H].
  destruct (Hm _ _ _ E) as [e1 ->]. destruct (Hf a _ _ _ H) as [e2 ->]. exists (e1 ++ e2). symmetry. apply app_assoc.
Qed.

Lemma ext_if : forall A (c : bool) (m1 m2 : SM A), extends m1 -> extends m2 -> extends (if c then m1 else m2).
Proof. intros A [|] m1 m2 H1 H2; assumption. Qed.
Lemma ext_new_size : forall a, extends (new_size a).
Proof. intros a. apply ext_new. Qed.

(* The operations are built from the above by bnd and if: one rule applies to each shape. *)
Create HintDb ext discriminated.
#[local] Hint Resolve ext_ret ext_fail ext_lift ext_rd ext_new ext_rd_size ext_bnd ext_if ext_new_size : ext.

Lemma ext_size_pct : forall v w h, extends (size_pct_s v w h).
Proof. intros. unfold size_pct_s. auto 6 with ext. Qed.
#[local] Hint Resolve ext_size_pct : ext.
Lemma ext_point_pct : forall v w h, extends (point_pct_s v w h).
Proof. intros. unfold point_pct_s. auto 6 with ext. Qed.
Lemma ext_stretch_pct : forall v w h, extends (stretch_pct_s v w h).
Proof. intros. unfold stretch_pct_s. auto 6 with ext. Qed.
Lemma ext_padding_pct : forall v w h, extends (padding_pct_s v w h).
Proof. intros. unfold padding_pct_s. auto 10 with ext. Qed.
Lemma ext_opt_s : forall f v, (forall x, extends (f x)) -> extends (opt_s f v).
Proof. intros f v H. unfold opt_s. auto with ext. Qed.
#[local] Hint Resolve ext_point_pct ext_stretch_pct ext_padding_pct ext_opt_s : ext.
Lemma ext_layout_pct : forall v w h, extends (layout_pct_s v w h).
Proof. intros. unfold layout_pct_s. auto 10 with ext. Qed.
Lemma ext_layout_fit : forall v, extends (layout_fit_s v).
Proof. intros. unfold layout_fit_s. auto 25 with ext. Qed.

Theorem extends_untouched : forall A (m : SM A), extends m -> forall st st' a, m st = Ok (st', a) ->
  forall l, (l < length st)%nat -> get st' l = get st l.
Proof. intros A m Hm st st' a H l Hl. destruct (Hm _ _ _ H) as [ext ->]. apply get_app_l. exact Hl. Qed.

Theorem extends_snapshot : forall A (m : SM A), extends m -> forall st st' a, m st = Ok (st', a) ->
  wf st -> forall fuel v, below (length st) v -> snap fuel st' v = snap fuel st v.
Proof.
  intros A m Hm st st' a H Hwf fuel v Hv. apply snap_agree; [exact Hwf| |exact Hv].
  intros l Hl. eapply extends_untouched; eassumption.
Qed.

Definition fresh (m : SM val) : Prop := forall st st' a, m st = Ok (st', a) -> exists l, a = VLoc l /\ (length st <= l)%nat.

Lemma fresh_new : forall k its, fresh (new k its).
Proof. intros k its st st' a H. unfold new, new_obj, alloc in H. inversion H; subst. eexists. split; [reflexivity|lia]. Qed.
Lemma fresh_bnd : forall A (m : SM A) (f : A -> SM val), extends m -> (forall a, fresh (f a)) -> fresh (bnd m f).
Proof.
  intros A m f Hm Hf st st' b H. unfold bnd in H. destruct (m st) as [[st1 a]|e] eqn:E; [|discriminate H].
  destruct (Hm _ _ _ E) as [e1 ->]. destruct (Hf a _ _ _ H) as (l & -> & Hl). exists l. split; [reflexivity|].
  rewrite app_length in Hl. lia.
Qed.
Lemma fresh_fail : forall e, fresh (fail e).
Proof. intros e st st' a H. discriminate H. Qed.

Lemma fresh_if : forall (c : bool) m1 m2, fresh m1 -> fresh m2 -> fresh (if c then m1 else m2).
Proof. intros [|] m1 m2 H1 H2; assumption. Qed.
#[local] Hint Resolve fresh_new fresh_bnd fresh_fail fresh_if : ext.

Lemma fresh_point_pct : forall v w h, fresh (point_pct_s v w h).
Proof. intros. unfold point_pct_s. auto 6 with ext. Qed.
Lemma fresh_stretch_pct : forall v w h, fresh (stretch_pct_s v w h).
Proof. intros. unfold stretch_pct_s. auto 6 with ext. Qed.
Lemma fresh_padding_pct : forall v w h, fresh (padding_pct_s v w h).
Proof. intros. unfold padding_pct_s. auto 10 with ext. Qed.
Lemma fresh_layout_pct : forall v w h, fresh (layout_pct_s v w h).
Proof. intros. unfold layout_pct_s. auto 10 with ext. Qed.

(* Size.as_percentage_of: the receiver itself (a percentage), or a new Size *)
Theorem size_pct_self_or_new : forall v w h st st' r, size_pct_s v w h st = Ok (st', r) ->
  (r = v /\ st' = st) \/ (exists l, r = VLoc l /\ (length st <= l)%nat).
Proof.
  intros v w h st st' r H. unfold size_pct_s, bnd in H.
  destruct (rd_size v st) as [[st1 a]|e] eqn:E; [|discriminate H].
  unfold rd_size in E. destruct (dec_size st v); [|discriminate E]. inversion E; subst st1 s.
  destruct (unit_eqb (s_unit a) PCT).
  - left. inversion H; subst. split; reflexivity.
  - right. unfold lift in H. destruct (size_as_pct a w h) as [q|e]; [|discriminate H].
    exact (fresh_new _ _ _ _ _ H).
Qed.

(* Layout.fit_to_screen: the receiver itself (no origin), or a new Layout *)
Theorem layout_fit_self_or_new : forall v st st' r, layout_fit_s v st = Ok (st', r) ->
  (r = v /\ st' = st) \/ (exists l, r = VLoc l /\ (length st <= l)%nat).
Proof.
  intros v st st' r H. unfold layout_fit_s in H. unfold bnd at 1 in H. cbn [rd] in H.
  destruct (is_none (field st v (VInt 1))).
  - left. inversion H; subst. split; reflexivity.
  - right. revert H. generalize (field st v (VInt 1)). intros o. revert st st' r. apply fresh_bnd; auto 25 with ext.
Qed.

(* the statements of props/C18.v *)
Theorem geom_ops_allocate_only : forall w h v,
  extends (size_pct_s v w h) /\ extends (point_pct_s v w h) /\ extends (stretch_pct_s v w h)
  /\ extends (padding_pct_s v w h) /\ extends (layout_pct_s v w h) /\ extends (layout_fit_s v).
Proof.
  intros w h v. repeat split;
  [apply ext_size_pct|apply ext_point_pct|apply ext_stretch_pct|apply ext_padding_pct|apply ext_layout_pct|apply ext_layout_fit].
Qed.

Theorem receiver_snapshot_unchanged : forall v w h st st' r fuel x,
  (layout_pct_s v w h st = Ok (st', r) \/ layout_fit_s v st = Ok (st', r)) ->
  wf st -> below (length st) x -> snap fuel st' x = snap fuel st x.
Proof.
  intros v w h st st' r fuel x [H|H] Hwf Hx.
  - exact (extends_snapshot _ _ (ext_layout_pct v w h) _ _ _ H Hwf fuel x Hx).
  - exact (extends_snapshot _ _ (ext_layout_fit v) _ _ _ H Hwf fuel x Hx).
Qed.

Theorem as_percentage_new_object : forall v w h,
  fresh (point_pct_s v w h) /\ fresh (stretch_pct_s v w h) /\ fresh (padding_pct_s v w h) /\ fresh (layout_pct_s v w h).
Proof.
  intros. repeat split; [apply fresh_point_pct|apply fresh_stretch_pct|apply fresh_padding_pct|apply fresh_layout_pct].
Qed.

(* Size level: the heap operation computes Size.as_percentage_of of the decoded receiver *)
Lemma dec_new_size : forall st a, dec_size (st ++ [mkObj KSize (size_cells a)]) (VLoc (length st)) = Some a.
Proof.
  intros st a. unfold dec_size, field, items_of. rewrite get_app_new. cbn [o_items size_cells assoc val_eqb Z.eqb Pos.eqb].
  assert (U : unit_of (ucode (s_unit a)) = Some (s_unit a)) by (destruct (s_unit a); reflexivity).
  rewrite U. destruct a as [[n d] u]. reflexivity.
Qed.

Theorem size_pct_value : forall v w h st a, dec_size st v = Some a ->
  match size_pct_s v w h st, size_as_pct a w h with
  | Ok (st', r), Ok a' => dec_size st' r = Some a'
  | Err e, Err e' => e = e'
  | _, _ => False
  end.
Proof.
  intros v w h st a D. unfold size_pct_s, bnd, rd_size. rewrite D.
  destruct (unit_eqb (s_unit a) PCT) eqn:U.
  - apply unit_eqb_eq in U. unfold size_as_pct. rewrite U. cbn [ret]. exact D.
  - unfold lift. destruct (size_as_pct a w h) as [q|e]; [|reflexivity].
    unfold new_size, new, new_obj, alloc. apply dec_new_size.
Qed.
