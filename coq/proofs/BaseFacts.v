(* Proofs for C19: timing adjustment and concurrent-caption merging. *)
From Coq Require Import List ZArith QArith Qabs Bool Lia.
From PV Require Import lib.Sx lib.Result lib.ResultFacts model.Base spec.SpecBase.
Import ListNotations.

Lemma last_in : forall (A : Type) (x : A) l d, In (last (x :: l) d) (x :: l).
Proof. intros A x l d. revert x. induction l as [|y l IH]; intros x; [left; reflexivity|right; apply IH]. Qed.

Lemma adjust_fold : forall skew off caps acc,
  fold_left (fun out c => let c' := retime skew off c in
                          if Qle_bool 0 (c_start c') then out ++ [c'] else out) caps acc
  = acc ++ filter (fun c => Qle_bool 0 (c_start c)) (map (retime skew off) caps).
Proof.
  intros skew off. induction caps as [|c t IH]; intros acc; cbn [fold_left map filter].
  - rewrite app_nil_r. reflexivity.
  - rewrite IH. destruct (Qle_bool 0 (c_start (retime skew off c))).
    + rewrite <- app_assoc. reflexivity.
    + reflexivity.
Qed.

Lemma adjust_lang_filter_map : forall skew off caps,
  adjust_lang skew off caps = filter (fun c => Qle_bool 0 (c_start c)) (map (retime skew off) caps).
Proof. intros. unfold adjust_lang. rewrite adjust_fold. reflexivity. Qed.

Lemma retime_affine : forall skew off c,
  c_start (retime skew off c) == c_start c * skew + off /\
  c_end (retime skew off c) == c_end c * skew + off /\
  c_nodes (retime skew off c) = c_nodes c.
Proof. intros. unfold retime. cbn [c_start c_end c_nodes]. repeat split; apply Qred_correct. Qed.

Lemma Qle_bool_comp : forall a b, a == b -> Qle_bool 0 a = Qle_bool 0 b.
Proof. intros a b H. rewrite H. reflexivity. Qed.

Lemma adjust_lang_equiv : forall skew off (g : caption -> caption) caps,
  (forall c, cap_equiv (retime skew off c) (g c)) ->
  Forall2 cap_equiv (adjust_lang skew off caps) (filter (fun c => Qle_bool 0 (c_start c)) (map g caps)).
Proof.
  intros skew off g caps H. rewrite adjust_lang_filter_map.
  induction caps as [|c t IH]; cbn [map filter]; [constructor|].
  rewrite (Qle_bool_comp _ _ (proj1 (H c))).
  destruct (Qle_bool 0 (c_start (g c))); [constructor; [apply H|exact IH]|exact IH].
Qed.

(* the retimed model agrees with the statement-level spec caption by caption *)
Lemma adjust_meets_spec : forall skew off caps,
  Forall2 cap_equiv (adjust_lang skew off caps) (spec_adjust_lang skew off caps).
Proof. intros skew off caps. apply adjust_lang_equiv. exact (retime_affine skew off). Qed.

Lemma same_span_eq : forall a b, same_span a b = span_eqb a b.
Proof. reflexivity. Qed.

Lemma span_refl : forall a, span_eqb a a = true.
Proof. intros. unfold span_eqb. rewrite !Qeq_bool_refl. reflexivity. Qed.

Lemma span_sym : forall a b, span_eqb a b = span_eqb b a.
Proof. intros. unfold span_eqb. rewrite (Qeq_bool_comm (c_start a)), (Qeq_bool_comm (c_end a)). reflexivity. Qed.

Lemma span_trans : forall a b c, span_eqb a b = true -> span_eqb b c = true -> span_eqb a c = true.
Proof.
  intros a b c H1 H2. unfold span_eqb in *.
  apply andb_true_iff in H1. apply andb_true_iff in H2. destruct H1, H2.
  apply andb_true_iff. split; eapply Qeq_bool_trans; eassumption.
Qed.

Lemma span_neq_trans : forall a b c, span_eqb a b = true -> span_eqb c b = false -> span_eqb c a = false.
Proof.
  intros a b c H1 H2. destruct (span_eqb c a) eqn:E; [|reflexivity].
  rewrite (span_trans c a b E H1) in H2. discriminate.
Qed.

Lemma join_nodes_concat : forall first others,
  join_nodes first others = first ++ concat (map (fun o => brk :: o) others).
Proof.
  intros first others. revert first. induction others as [|o t IH]; intros first; cbn.
  - rewrite app_nil_r. reflexivity.
  - rewrite IH. reflexivity.
Qed.

Lemma merge_nodes_fold : forall cs acc, acc <> [] ->
  fold_left (fun acc c => (match acc with [] => acc | _ => acc ++ [brk] end) ++ c_nodes c) cs acc
  = join_nodes acc (map c_nodes cs).
Proof.
  induction cs as [|c t IH]; intros acc Hacc; cbn [fold_left map join_nodes]; [reflexivity|].
  destruct acc as [|n ns]; [congruence|]. rewrite IH by discriminate.
  rewrite !join_nodes_concat, <- !app_assoc. reflexivity.
Qed.

Lemma merge_caps_join : forall c cs, c_nodes c <> [] ->
  merge_caps (c :: cs) = Ok (join_run (c, cs)).
Proof.
  intros c cs Hn. unfold merge_caps, merge_nodes, join_run. cbn [fold_left app].
  rewrite merge_nodes_fold by exact Hn.
  destruct (c_nodes c) eqn:E; [congruence|]. rewrite join_nodes_concat. reflexivity.
Qed.

Lemma runs_cons : forall c t,
  runs (c :: t) = match runs t with
                  | (d, ds) :: rest => if span_eqb c d then (c, d :: ds) :: rest else (c, []) :: (d, ds) :: rest
                  | [] => [(c, [])]
                  end.
Proof. reflexivity. Qed.

Lemma runs_head : forall c t, exists ds rest, runs (c :: t) = (c, ds) :: rest.
Proof.
  intros c t. rewrite runs_cons. destruct (runs t) as [|[d ds] r]; [eauto|].
  destruct (span_eqb c d); eauto.
Qed.

Lemma runs_cons_nonempty : forall c t, runs (c :: t) <> [].
Proof. intros c t. destruct (runs_head c t) as [ds [rest ->]]. discriminate. Qed.

(* a same-span prefix that ends the list, or is followed by a caption with another span, is a complete run *)
Lemma runs_prefix : forall c cs t,
  (forall x, In x cs -> span_eqb x c = true) -> match t with d :: _ => span_eqb d c = false | [] => True end ->
  runs (c :: cs ++ t) = (c, cs) :: runs t.
Proof.
  intros c cs. revert c. induction cs as [|e cs' IH]; intros c t Hall Ht; cbn [app]; rewrite (runs_cons c).
  - destruct t as [|d t']; [reflexivity|]. destruct (runs_head d t') as [ds [rest ->]]. rewrite span_sym, Ht. reflexivity.
  - assert (He : span_eqb e c = true) by (apply Hall; left; reflexivity).
    rewrite IH.
    + rewrite span_sym, He. reflexivity.
    + intros x Hx. apply span_trans with c; [apply Hall; right; exact Hx|]. rewrite span_sym. exact He.
    + destruct t as [|d t']; [exact I|]. apply span_neq_trans with c; [exact He|exact Ht].
Qed.

(* the flush at the end of merge_lang *)
Definition finish (r : result (list caption * list caption)) : result (list caption) :=
  do cm <- r;
  let (conc, merged) := cm in
  match conc with
  | [] => Ok merged
  | _ => do m <- merge_caps conc; Ok (merged ++ [m])
  end.

(* The loop is a walk along the maximal runs, whatever merge() makes of one run (f): `concurrent` = c0 :: cs is
   the run read so far, and of last_caption only its span matters. *)
Lemma merge_loop_runs : forall f, (forall c cs, merge_caps (c :: cs) = f (c, cs)) ->
  forall caps c0 cs l merged,
  span_eqb l c0 = true -> (forall x, In x cs -> span_eqb x c0 = true) ->
  finish (merge_loop caps (Some l) (c0 :: cs) merged)
  = do js <- res_map f (runs (c0 :: cs ++ caps)); Ok (merged ++ js).
Proof.
  intros f Hf. induction caps as [|c t IH]; intros c0 cs l merged Hl Hall.
  - cbn [merge_loop finish bind]. rewrite (runs_prefix c0 cs [] Hall I), Hf. cbn [runs res_map].
    destruct (f (c0, cs)); reflexivity.
  - cbn [merge_loop]. rewrite same_span_eq. destruct (span_eqb c l) eqn:Ecl.
    + (* same span: the run grows *)
      change (c0 :: cs ++ c :: t) with (c0 :: cs ++ [c] ++ t). rewrite app_assoc.
      assert (Hc : span_eqb c c0 = true) by (apply span_trans with l; assumption).
      apply (IH c0 (cs ++ [c]) c merged Hc).
      intros x Hx. apply in_app_or in Hx. destruct Hx as [Hx|[<-|[]]]; [apply Hall; exact Hx|exact Hc].
    + (* different span: flush the run *)
      rewrite runs_prefix, Hf;
        [|exact Hall|apply span_neq_trans with l; [rewrite span_sym; exact Hl|exact Ecl]].
      cbn [res_map]. destruct (f (c0, cs)) as [m|e]; cbn [bind]; [|reflexivity].
      rewrite (IH c [] c (merged ++ [m]) (span_refl c)) by (intros x []). cbn [app].
      destruct (res_map f (runs (c :: t))); cbn [bind]; [rewrite <- app_assoc|]; reflexivity.
Qed.

Lemma merge_lang_unfold : forall caps,
  merge_lang caps =
  do merged' <- finish (merge_loop caps None [] []);
  match merged' with [] => Ok caps | _ => Ok merged' end.
Proof.
  intros caps. unfold merge_lang, finish.
  destruct (merge_loop caps None [] []) as [[conc merged]|e]; cbn [bind]; [|reflexivity].
  destruct conc; cbn [bind]; [reflexivity|].
  destruct (merge_caps (c :: conc)); reflexivity.
Qed.

Lemma merge_lang_runs : forall f, (forall c cs, merge_caps (c :: cs) = f (c, cs)) ->
  forall caps, merge_lang caps = res_map f (runs caps).
Proof.
  intros f Hf caps. rewrite merge_lang_unfold. destruct caps as [|c t]; [reflexivity|]. cbn [merge_loop].
  rewrite (merge_loop_runs f Hf t c [] c [] (span_refl c)) by (intros x []). cbn [app].
  destruct (runs_head c t) as [ds [rest ->]]. cbn [res_map].
  destruct (f (c, ds)); cbn [bind]; [|reflexivity]. destruct (res_map f rest); reflexivity.
Qed.

Lemma runs_heads_in : forall caps r, In r (runs caps) -> In (fst r) caps.
Proof.
  induction caps as [|c t IH]; intros r Hr; [destruct Hr|].
  rewrite runs_cons in Hr. destruct (runs t) as [|[d ds] rest] eqn:E.
  - destruct Hr as [<-|[]]. left. reflexivity.
  - destruct (span_eqb c d).
    + destruct Hr as [<-|Hr]; [left; reflexivity|]. right. apply IH. right. exact Hr.
    + destruct Hr as [<-|Hr]; [left; reflexivity|]. right. apply IH. exact Hr.
Qed.

Lemma nodes_nonempty_in : forall caps c, nodes_nonempty caps = true -> In c caps -> c_nodes c <> [].
Proof.
  intros caps c H Hc. unfold nodes_nonempty in H. rewrite forallb_forall in H.
  specialize (H c Hc). destruct (c_nodes c); discriminate.
Qed.

Theorem merge_lang_spec : forall caps, nodes_nonempty caps = true ->
  merge_lang caps = Ok (spec_merge_lang caps).
Proof.
  intros caps Hne. rewrite (merge_lang_runs (fun r => merge_caps (run_caps r)) (fun c cs => eq_refl)).
  apply res_map_ok_in. intros [c cs] Hr. apply merge_caps_join.
  apply (nodes_nonempty_in caps c Hne (runs_heads_in caps _ Hr)).
Qed.

Lemma runs_adjacent_distinct : forall caps, adjacent_distinct (runs caps).
Proof.
  induction caps as [|c t IH]; [exact I|].
  rewrite runs_cons. destruct (runs t) as [|[d ds] rest] eqn:E; [exact I|].
  destruct (span_eqb c d) eqn:Ecd.
  - destruct rest as [|[e es] rest']; [exact I|]. cbn in IH |- *. destruct IH as [H1 H2]. split; [|exact H2].
    destruct (span_eqb c e) eqn:Ece; [|reflexivity].
    rewrite span_sym in Ecd. rewrite (span_trans d c e Ecd Ece) in H1. discriminate.
  - cbn. split; [exact Ecd|exact IH].
Qed.

Lemma runs_of_mapped : forall (j : caption * list caption -> caption),
  (forall r c, span_eqb (j r) c = span_eqb (fst r) c) ->
  forall rs, adjacent_distinct rs -> runs (map j rs) = map (fun r => (j r, [])) rs.
Proof.
  intros j Hj. induction rs as [|r1 [|r2 t'] IH]; intros H; [reflexivity|reflexivity|].
  destruct H as [H1 H2]. cbn [map]. rewrite runs_cons. cbn [map] in IH. rewrite (IH H2).
  rewrite Hj, span_sym, Hj, span_sym, H1. reflexivity.
Qed.

(* a caption that is alone in its run keeps its times and nodes *)
Theorem merge_keeps_singletons : forall c, join_run (c, []) = c.
Proof. intros [s e n]. reflexivity. Qed.

Theorem merge_idempotent : forall caps,
  spec_merge_lang (spec_merge_lang caps) = spec_merge_lang caps.
Proof.
  intros caps. unfold spec_merge_lang.
  rewrite (runs_of_mapped join_run); [|intros [d ds] c; reflexivity|apply runs_adjacent_distinct].
  rewrite map_map. apply map_ext. intros r. apply merge_keeps_singletons.
Qed.

(* merged captions keep non-empty node lists, so the model can be applied again *)
Lemma join_run_nonempty : forall r, c_nodes (fst r) <> [] -> c_nodes (join_run r) <> [].
Proof.
  intros [c cs] H. cbn in *. rewrite join_nodes_concat. destruct (c_nodes c); [congruence|discriminate].
Qed.

Lemma spec_merge_nonempty : forall caps, nodes_nonempty caps = true -> nodes_nonempty (spec_merge_lang caps) = true.
Proof.
  intros caps H. unfold nodes_nonempty, spec_merge_lang. apply forallb_forall. intros x Hx.
  apply in_map_iff in Hx. destruct Hx as [r [<- Hr]].
  pose proof (join_run_nonempty r (nodes_nonempty_in caps _ H (runs_heads_in _ _ Hr))) as Hj.
  destruct (c_nodes (join_run r)); [congruence|reflexivity].
Qed.

Theorem merge_twice : forall caps, nodes_nonempty caps = true ->
  (do m <- merge_lang caps; merge_lang m) = merge_lang caps.
Proof.
  intros caps H. rewrite merge_lang_spec by exact H. cbn [bind].
  rewrite merge_lang_spec by (apply spec_merge_nonempty; exact H).
  rewrite merge_idempotent. reflexivity.
Qed.

(* every merged caption carries the run's times and all its nodes in order, separated by breaks *)
Theorem merge_run_content : forall c cs,
  c_start (join_run (c, cs)) = c_start c /\ c_end (join_run (c, cs)) = c_end c /\
  c_nodes (join_run (c, cs)) = c_nodes c ++ concat (map (fun x => brk :: c_nodes x) cs).
Proof.
  intros c cs. cbn. repeat split. rewrite join_nodes_concat, map_map. reflexivity.
Qed.

Theorem runs_partition : forall caps, concat (map (fun r => fst r :: snd r) (runs caps)) = caps.
Proof.
  induction caps as [|c t IH]; [reflexivity|].
  rewrite runs_cons. destruct (runs t) as [|[d ds] rest] eqn:E.
  - cbn in IH. subst t. reflexivity.
  - destruct (span_eqb c d); cbn [map concat fst snd app] in *; rewrite IH; reflexivity.
Qed.

(* every run is maximal on the left too: all members share the head's span *)
Theorem runs_members_same : forall caps r x, In r (runs caps) -> In x (snd r) -> span_eqb x (fst r) = true.
Proof.
  induction caps as [|c t IH]; intros r x Hr Hx; [destruct Hr|].
  rewrite runs_cons in Hr. destruct (runs t) as [|[d ds] rest] eqn:E.
  - destruct Hr as [<-|[]]. destruct Hx.
  - destruct (span_eqb c d) eqn:Ecd.
    + destruct Hr as [<-|Hr].
      * cbn [fst snd] in *. destruct Hx as [<-|Hx]; [rewrite span_sym; exact Ecd|].
        apply span_trans with d; [|rewrite span_sym; exact Ecd].
        apply (IH (d, ds) x); [left; reflexivity|exact Hx].
      * apply (IH r x); [right; exact Hr|exact Hx].
    + destruct Hr as [<-|Hr]; [destruct Hx|]. apply (IH r x); assumption.
Qed.

Theorem adjust_langs_meet_spec : forall skew off langs,
  Forall2 (Forall2 cap_equiv) (adjust skew off langs) (map (spec_adjust_lang skew off) langs).
Proof.
  intros skew off langs. unfold adjust. induction langs as [|l t IH]; cbn [map]; constructor.
  - apply adjust_meets_spec.
  - exact IH.
Qed.

Lemma q_close_of_eq : forall a b, a == b -> q_close a b = true.
Proof.
  intros a b H. unfold q_close. apply Qle_bool_iff.
  assert (E : a - b == 0) by (rewrite H; ring).
  rewrite E. cbn. discriminate.
Qed.

Lemma zlist_eqb_refl : forall l, zlist_eqb l l = true.
Proof. induction l as [|x t IH]; cbn; [reflexivity|]. rewrite Z.eqb_refl. exact IH. Qed.

Lemma cap_close_retime : forall skew off c, cap_close (spec_retime skew off c) (retime skew off c) = true.
Proof.
  intros skew off c. destruct (retime_affine skew off c) as [Hs [He Hn]].
  unfold cap_close. cbn [spec_retime c_start c_end c_nodes].
  rewrite (q_close_of_eq _ _ (Qeq_sym _ _ Hs)), (q_close_of_eq _ _ (Qeq_sym _ _ He)), Hn.
  apply zlist_eqb_refl.
Qed.

(* one language: the exact model is accepted by the tolerant matcher, whatever the optional captions are *)
Lemma match_adjust_model : forall skew off caps,
  match_adjust skew off caps (adjust_lang skew off caps) = true.
Proof.
  intros skew off caps. rewrite adjust_lang_filter_map.
  induction caps as [|c t IH]; [reflexivity|].
  cbn [map filter match_adjust spec_retime c_start].
  rewrite <- (Qle_bool_comp _ _ (proj1 (retime_affine skew off c))).
  destruct (Qle_bool 0 (c_start (retime skew off c))).
  - rewrite cap_close_retime, IH. cbn [andb orb].
    destruct (optional skew off c); reflexivity.
  - destruct (optional skew off c); [|exact IH]. rewrite IH. apply orb_true_r.
Qed.

Theorem adjust_ok : forall skew off langs, ok_adjust skew off langs (adjust skew off langs) = true.
Proof.
  intros skew off langs. unfold ok_adjust, adjust.
  induction langs as [|l t IH]; [reflexivity|].
  cbn [map list_rel]. rewrite match_adjust_model. exact IH.
Qed.

Theorem merge_concurrent_spec : forall langs, forallb nodes_nonempty langs = true ->
  merge_concurrent langs = Ok (map spec_merge_lang langs).
Proof.
  intros langs H. apply res_map_ok_in. intros l Hl. apply merge_lang_spec.
  rewrite forallb_forall in H. apply H. exact Hl.
Qed.

Lemma langs_merge_nonempty : forall langs, forallb nodes_nonempty langs = true ->
  forallb nodes_nonempty (map spec_merge_lang langs) = true.
Proof.
  intros langs H. rewrite forallb_forall in *. intros m Hm. apply in_map_iff in Hm. destruct Hm as [l [<- Hl]].
  apply spec_merge_nonempty. apply H. exact Hl.
Qed.

Theorem merge_concurrent_twice : forall langs, forallb nodes_nonempty langs = true ->
  (do m <- merge_concurrent langs; merge_concurrent m) = merge_concurrent langs.
Proof.
  intros langs H. rewrite (merge_concurrent_spec langs H). cbn [bind].
  rewrite (merge_concurrent_spec _ (langs_merge_nonempty langs H)).
  rewrite map_map. f_equal. apply map_ext. intros l. apply merge_idempotent.
Qed.

Lemma cap_exact_refl : forall c, cap_exact c c = true.
Proof. intros c. unfold cap_exact. rewrite !Qeq_bool_refl, zlist_eqb_refl. reflexivity. Qed.

Lemma list_rel_map_l : forall A (r : A -> A -> bool) (f : A -> A), (forall x, r x x = true) ->
  forall l, list_rel (fun i o => r (f i) o) l (map f l) = true.
Proof. intros A r f Hr l. induction l as [|x t IH]; [reflexivity|]. cbn. rewrite Hr. exact IH. Qed.

Lemma list_rel_refl : forall A (r : A -> A -> bool), (forall x, r x x = true) -> forall l, list_rel r l l = true.
Proof. intros A r Hr l. rewrite <- (map_id l) at 2. apply (list_rel_map_l A r (fun x => x) Hr). Qed.

Theorem merge_ok : forall langs, forallb nodes_nonempty langs = true ->
  ok_merge langs (merge_concurrent langs) (do m <- merge_concurrent langs; merge_concurrent m) = true.
Proof.
  intros langs H. rewrite (merge_concurrent_twice langs H), (merge_concurrent_spec langs H).
  unfold ok_merge. apply andb_true_iff. split.
  - apply (list_rel_map_l _ (list_rel cap_exact) spec_merge_lang).
    intros l. apply list_rel_refl. exact cap_exact_refl.
  - apply list_rel_refl. intros l. apply list_rel_refl. exact cap_exact_refl.
Qed.

(* ---- "leaves every other caption as it was", stated about merge_lang itself ------------------ *)
Lemma runs_no_adjacent : forall caps, no_adjacent_equal caps = true -> runs caps = map (fun c => (c, [])) caps.
Proof.
  induction caps as [|a [|b t'] IH]; intros H; [reflexivity|reflexivity|].
  change (negb (span_eqb a b) && no_adjacent_equal (b :: t') = true) in H.
  apply andb_true_iff in H. destruct H as [Hab Ht]. apply negb_true_iff in Hab.
  rewrite runs_cons, (IH Ht). cbn [map]. rewrite Hab. reflexivity.
Qed.

Theorem merge_lang_identity : forall caps, nodes_nonempty caps = true -> no_adjacent_equal caps = true ->
  merge_lang caps = Ok caps.
Proof.
  intros caps Hn Ha. rewrite (merge_lang_spec caps Hn). unfold spec_merge_lang.
  rewrite (runs_no_adjacent caps Ha), map_map. f_equal.
  rewrite <- (map_id caps) at 2. apply map_ext. exact merge_keeps_singletons.
Qed.

(* the caption of a singleton run is among the results, unchanged *)
Theorem merge_lang_keeps_singletons : forall caps c, nodes_nonempty caps = true -> In (c, []) (runs caps) ->
  exists out, merge_lang caps = Ok out /\ In c out.
Proof.
  intros caps c Hn Hin. exists (spec_merge_lang caps). split; [apply merge_lang_spec; exact Hn|].
  unfold spec_merge_lang. apply in_map_iff. exists (c, []). split; [apply merge_keeps_singletons|exact Hin].
Qed.

(* ---- totality outside the domain: the only exception is Caption()'s refusal of an empty node list ---- *)
Lemma merge_caps_err : forall c cs e, merge_caps (c :: cs) = Err e -> e = ENodeListEmpty.
Proof.
  intros c cs e H. unfold merge_caps in H. destruct (merge_nodes (c :: cs)); [|discriminate].
  injection H as <-. reflexivity.
Qed.

Theorem merge_lang_total : forall caps e, merge_lang caps = Err e -> e = ENodeListEmpty.
Proof.
  intros caps e H. rewrite (merge_lang_runs (fun r => merge_caps (run_caps r)) (fun c cs => eq_refl)) in H.
  destruct (res_map_err _ _ _ H) as [[c cs] [_ Hr]]. exact (merge_caps_err c cs e Hr).
Qed.
