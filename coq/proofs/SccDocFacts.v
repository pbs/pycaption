(* C17: the DOCUMENT the writer model produces is a Scenarist document: the specification's parser
   (spec.SpecSccw.parse_document - the same one that feeds the reader model in model/SccRoundTrip.v) splits it into
   exactly the lines the writer meant: frame number of every time written, and the load / clear words. *)
From Coq Require Import List ZArith QArith Lia Bool ZifyBool Arith.
From PV Require Import lib.Sx lib.Str lib.StrFacts lib.Result model.GenSccw model.SccWrap model.SccWrite spec.SpecSccw.
From PV Require Import proofs.SccwStr proofs.SccWrapFacts proofs.SccWriteFacts proofs.SccTimingFacts proofs.SccWordsFacts.
Import ListNotations.
Open Scope Z_scope.

Definition hex4 (w : Z * Z) : str := hex2 (fst w) ++ hex2 (snd w).
Definition byte_ok (w : Z * Z) : bool := (0 <=? fst w) && (fst w <? 256) && (0 <=? snd w) && (snd w <? 256).

Definition nochar (c : Z) (s : str) : bool := forallb (fun x => negb (x =? c)) s.

(* hex words are made of digits and a-f: no character below '0' occurs in them *)
Lemma hex4_nochar : forall c w, c < 48 -> byte_ok w = true -> nochar c (hex4 w) = true.
Proof.
  intros c [a b] Hc H. unfold byte_ok in H. cbn [fst snd] in H. unfold hex4, hex2, nochar. cbn [fst snd].
  replace (a <? 0) with false by lia. replace (b <? 0) with false by lia. cbn [app forallb].
  assert (D : forall d, 0 <= d -> 48 <= hex_digit d) by (intros d Hd; unfold hex_digit; destruct (d <? 10); lia).
  pose proof (D (a / 16) ltac:(apply Z.div_pos; lia)). pose proof (D (a mod 16) ltac:(apply Z.mod_pos_bound; lia)).
  pose proof (D (b / 16) ltac:(apply Z.div_pos; lia)). pose proof (D (b mod 16) ltac:(apply Z.mod_pos_bound; lia)). lia.
Qed.

Lemma parse_hex4 : forall w, byte_ok w = true -> parse_word (hex4 w) = Some w.
Proof.
  intros [a b] H. unfold byte_ok in H. cbn [fst snd] in H.
  destruct (render_word_parses a b ltac:(lia) ltac:(lia)) as (c1 & c2 & c3 & c4 & E & P).
  unfold render_word in E. cbn [fst snd] in E. rewrite app_assoc in E.
  apply (app_inj_tail _ [c1; c2; c3; c4]) in E. unfold hex4. cbn [fst snd]. rewrite (proj1 E). exact P.
Qed.

Lemma render_words_hex4 : forall ws, render_words ws = flat_map (fun w => hex4 w ++ [32]) ws.
Proof. intros. unfold render_words. apply flat_map_ext. intros w. unfold render_word, hex4. rewrite <- app_assoc. reflexivity. Qed.

(* words followed by one last word without its space: split at spaces gives the groups back *)
Lemma split_words : forall ws last, forallb byte_ok ws = true -> byte_ok last = true ->
  split_ch 32 (render_words ws ++ hex4 last) = map hex4 ws ++ [hex4 last].
Proof.
  induction ws as [|w t IH]; intros last H Hl.
  - cbn [render_words flat_map app map]. apply split_ch_nosep. apply (hex4_nochar 32 last eq_refl Hl).
  - cbn [forallb] in H. apply andb_prop in H. destruct H as [Hw Ht].
    rewrite render_words_hex4. cbn [flat_map]. rewrite <- render_words_hex4, <- !app_assoc. cbn [app].
    rewrite split_ch_app_sep, (split_ch_nosep 32 (hex4 w)) by apply (hex4_nochar 32 w eq_refl Hw).
    rewrite IH by assumption. reflexivity.
Qed.

Lemma opt_map_hex4 : forall ws, forallb byte_ok ws = true -> opt_map parse_word (map hex4 ws) = Some ws.
Proof.
  induction ws as [|w t IH]; intros H; [reflexivity|]. cbn [forallb] in H. apply andb_prop in H. destruct H as [Hw Ht].
  cbn [map opt_map]. rewrite parse_hex4, IH by assumption. reflexivity.
Qed.

Definition words_text (ws : list (Z * Z)) (last : Z * Z) : str := render_words ws ++ hex4 last.

Lemma words_text_parses : forall ws last, forallb byte_ok ws = true -> byte_ok last = true ->
  opt_map parse_word (split_ch 32 (words_text ws last)) = Some (ws ++ [last]).
Proof.
  intros ws last H Hl. unfold words_text. rewrite split_words by assumption.
  change [hex4 last] with (map hex4 [last]). rewrite <- map_app. apply opt_map_hex4.
  rewrite forallb_app, H. cbn [forallb]. rewrite Hl. reflexivity.
Qed.

Lemma nochar_app : forall c a b, nochar c (a ++ b) = nochar c a && nochar c b.
Proof. intros. unfold nochar. apply forallb_app. Qed.

Lemma words_text_nochar : forall c ws last, c < 32 -> forallb byte_ok ws = true -> byte_ok last = true ->
  nochar c (words_text ws last) = true.
Proof.
  intros c ws last Hc H Hl. unfold words_text. rewrite nochar_app, (hex4_nochar c last) by (lia || exact Hl). rewrite andb_true_r.
  rewrite render_words_hex4. induction ws as [|w t IH]; [reflexivity|]. cbn [forallb] in H. apply andb_prop in H. destruct H as [Hw Ht].
  cbn [flat_map]. rewrite !nochar_app, IH, (hex4_nochar c w) by (lia || assumption).
  unfold nochar. cbn [forallb]. replace (32 =? c) with false by lia. reflexivity.
Qed.

(* the timecode text: digits and colons only *)
Lemma two_digits_only : forall z, 0 <= z -> forallb is_digit (two z) = true.
Proof.
  intros z H. unfold two. assert (E : (z <? 0) = false) by lia. rewrite E.
  destruct (dec_nonneg_spec z H) as (D1 & _ & _). apply (zpad_spec 2 _ D1).
Qed.
Lemma format_frames_nochar : forall c f, c < 48 -> 0 <= f -> nochar c (format_frames f) = true.
Proof.
  intros c f Hc H. unfold format_frames.
  assert (D : forall z, 0 <= z -> nochar c (two z) = true).
  { intros z Hz. pose proof (two_digits_only z Hz) as T. unfold nochar. rewrite forallb_forall in *. intros x Hx.
    specialize (T x Hx). unfold is_digit in T. lia. }
  rewrite !nochar_app, !D; try (apply Z.mod_pos_bound; lia); try (apply Z.div_pos; lia).
  unfold nochar. cbn [forallb]. replace (58 =? c) with false by lia. reflexivity.
Qed.

(* one line: timecode, TAB, words *)
Definition line_text (t : Q) (ws : list (Z * Z)) (last : Z * Z) : str := format_timestamp t ++ [9] ++ words_text ws last.

Lemma line_parses : forall t ws last, (0 <= t)%Q -> forallb byte_ok ws = true -> byte_ok last = true ->
  parse_line (line_text t ws last) = Some (tc_frames t, ws ++ [last]).
Proof.
  intros t ws last Ht H Hl. unfold parse_line, line_text.
  assert (F : 0 <= tc_frames t) by (change 0 with (tc_frames 0); apply tc_frames_mono; exact Ht).
  cbn [app]. rewrite split_ch_app_sep.
  rewrite (split_ch_nosep 9 (format_timestamp t)) by (apply format_frames_nochar; [reflexivity|exact F]).
  rewrite (split_ch_nosep 9 (words_text ws last)) by (apply words_text_nochar; auto; reflexivity).
  cbn [app]. rewrite (timestamp_roundtrip t Ht), words_text_parses by assumption. reflexivity.
Qed.
Lemma line_no_newline : forall t ws last, (0 <= t)%Q -> forallb byte_ok ws = true -> byte_ok last = true ->
  nochar 10 (line_text t ws last) = true /\ line_text t ws last <> [].
Proof.
  intros t ws last Ht H Hl. unfold line_text. split.
  - rewrite !nochar_app, (words_text_nochar 10) by (reflexivity || assumption).
    assert (F : 0 <= tc_frames t) by (change 0 with (tc_frames 0); apply tc_frames_mono; exact Ht).
    unfold format_timestamp. rewrite (format_frames_nochar 10) by (reflexivity || exact F). reflexivity.
  - intros E. apply (f_equal (@length Z)) in E. rewrite !app_length in E. simpl in E. lia.
Qed.

Definition blank_sep (lines : list str) : str := flat_map (fun l => l ++ [10; 10]) lines.
Lemma blank_sep_app : forall a b, blank_sep (a ++ b) = blank_sep a ++ blank_sep b.
Proof. intros. apply flat_map_app. Qed.
Definition doc_text (lines : list str) : str := sccw_header ++ [10; 10] ++ blank_sep lines.

Lemma split_lines : forall lines, (forall l, In l lines -> nochar 10 l = true /\ l <> []) ->
  filter (fun l => match l with [] => false | _ => true end) (split_ch 10 (flat_map (fun l => l ++ [10; 10]) lines)) = lines.
Proof.
  induction lines as [|l t IH]; intros H; [reflexivity|]. cbn [flat_map]. rewrite <- app_assoc. cbn [app].
  destruct (H l (or_introl eq_refl)) as [N NE].
  rewrite split_ch_app_sep, (split_ch_nosep 10 l) by exact N. cbn [app filter]. destruct l as [|c l']; [congruence|].
  change (10 :: flat_map (fun l0 => l0 ++ [10; 10]) t) with ([] ++ 10 :: flat_map (fun l0 : list Z => l0 ++ [10; 10]) t).
  rewrite split_ch_app_sep. cbn [split_ch split_ch_aux rev app filter]. f_equal. apply IH. intros x Hx. apply H. right. exact Hx.
Qed.

Lemma header_no_newline : nochar 10 sccw_header = true.
Proof. vm_compute. reflexivity. Qed.

Lemma parse_exact_document : forall doc lines, parse_exact doc = Some lines -> parse_document doc = Some lines.
Proof. intros doc lines H. unfold parse_document. rewrite H. reflexivity. Qed.

Definition line_of (l : Q * list (Z * Z) * (Z * Z)) : str := line_text (fst (fst l)) (snd (fst l)) (snd l).
Definition line_ok (l : Q * list (Z * Z) * (Z * Z)) : Prop :=
  (0 <= fst (fst l))%Q /\ forallb byte_ok (snd (fst l)) = true /\ byte_ok (snd l) = true
  /\ forallb word_odd (snd (fst l) ++ [snd l]) = true.

Theorem doc_parses : forall (ls : list (Q * list (Z * Z) * (Z * Z))), (forall l, In l ls -> line_ok l) ->
  parse_document (doc_text (map line_of ls))
  = Some (map (fun l => (tc_frames (fst (fst l)), snd (fst l) ++ [snd l])) ls).
Proof.
  intros ls H. apply parse_exact_document. unfold parse_exact, doc_text.
  cbn [app]. rewrite split_ch_app_sep, (split_ch_nosep 10 sccw_header) by exact header_no_newline. cbn [app].
  rewrite tbl_header, StrFacts.str_eqb_refl.
  unfold blank_sep. change (10 :: flat_map (fun l => l ++ [10; 10]) (map line_of ls))
    with ([] ++ 10 :: flat_map (fun l : list Z => l ++ [10; 10]) (map line_of ls)).
  rewrite split_ch_app_sep. cbn [split_ch split_ch_aux rev app filter].
  rewrite split_lines.
  - induction ls as [|l t IH]; [reflexivity|]. cbn [map opt_map].
    destruct (H l (or_introl eq_refl)) as (H1 & H2 & H3 & _). unfold line_of at 1. rewrite line_parses by assumption.
    rewrite IH by (intros x Hx; apply H; right; exact Hx). reflexivity.
  - intros x Hx. apply in_map_iff in Hx. destruct Hx as [l [<- Hl]]. destruct (H l Hl) as (H1 & H2 & H3 & _).
    apply line_no_newline; assumption.
Qed.

Definition pre4 : list (Z * Z) := [ENM; ENM; RCL; RCL].
Definition post3 : list (Z * Z) := [EDM; EDM; EOC].

Lemma word_odd_byte_ok : forall w, word_odd w = true -> byte_ok w = true.
Proof. intros [a b] H. unfold word_odd, odd_parity in H. unfold byte_ok. cbn [fst snd] in *. lia. Qed.

Lemma load_text : forall ws, preamble ++ render_words ws ++ postamble = words_text (pre4 ++ ws ++ post3) EOC.
Proof.
  intros ws. unfold words_text. rewrite !render_words_app.
  change preamble with (render_words pre4). change postamble with (render_words post3 ++ hex4 EOC).
  rewrite <- !app_assoc. reflexivity.
Qed.
Lemma clear_text : clear_words = words_text [EDM] EDM.
Proof. reflexivity. Qed.

Definition cap_lines (ws : list (Z * Z)) (c : str * Q * option Q) : list (Q * list (Z * Z) * (Z * Z)) :=
  (snd (fst c), pre4 ++ ws ++ post3, EOC) :: match snd c with Some e => [(e, [EDM], EDM)] | None => [] end.

(* one caption: its text is its lines, the lines are well formed, their times are the times written *)
Lemma caption_lines_text : forall ws s eo,
  write_caption (render_words ws, s, eo)
  = blank_sep (map line_of (cap_lines ws (render_words ws, s, eo))).
Proof.
  intros ws s eo. unfold write_caption, cap_lines, blank_sep. cbn [fst snd map flat_map]. unfold line_of, line_text. cbn [fst snd].
  rewrite <- load_text. destruct eo as [e|]; cbn [map flat_map]; rewrite <- ?clear_text, ?app_nil_r, <- ?app_assoc; reflexivity.
Qed.

Lemma cap_lines_ok : forall ws c, forallb word_odd ws = true -> (0 <= snd (fst c))%Q ->
  match snd c with Some e => (0 <= e)%Q | None => True end ->
  forall l, In l (cap_lines ws c) -> line_ok l.
Proof.
  intros ws [[code s] eo] Ow Hs He l [<-|Hl]; cbn [fst snd] in *.
  - split; [exact Hs|]. cbn [fst snd]. rewrite !forallb_app, Ow, (forallb_weaken _ _ ws word_odd_byte_ok Ow). repeat split.
  - destruct eo as [e|]; [|destruct Hl]. destruct Hl as [<-|[]]. split; [exact He|]. repeat split.
Qed.

Lemma cap_lines_times : forall ws c,
  map (fun l : Q * list (Z * Z) * (Z * Z) => fst (fst l)) (cap_lines ws c)
  = snd (fst c) :: match snd c with Some e => [e] | None => [] end.
Proof. intros ws [[code s] [e|]]; reflexivity. Qed.

(* a caption given by its body words (words, time, end): its code, its lines *)
Definition code3 {A : Type} (x : list (Z * Z) * Q * A) : str * Q * A :=
  (render_words (fst (fst x)), snd (fst x), snd x).
Definition lines3 (x : list (Z * Z) * Q * option Q) : list (Q * list (Z * Z) * (Z * Z)) :=
  cap_lines (fst (fst x)) (code3 x).

Lemma written_items : forall out : list (list (Z * Z) * Q * option Q),
  flat_map write_caption (map code3 out) = blank_sep (map line_of (flat_map lines3 out)).
Proof.
  induction out as [|[[ws s] eo] t IH]; [reflexivity|].
  cbn [map flat_map]. rewrite map_app, blank_sep_app, <- IH. unfold lines3, code3 at 1 3. cbn [fst snd].
  rewrite <- caption_lines_text. reflexivity.
Qed.

Lemma items_times : forall out : list (list (Z * Z) * Q * option Q),
  map (fun l : Q * list (Z * Z) * (Z * Z) => fst (fst l)) (flat_map lines3 out) = emitted (map code3 out).
Proof.
  induction out as [|y t IH]; [reflexivity|]. cbn [flat_map map]. rewrite map_app, IH. unfold lines3 at 1.
  rewrite cap_lines_times. reflexivity.
Qed.

(* from the cues to the codes: the words of each text, with odd parity, and the cue's times *)
Definition code_of (c : wcap) (x : list (Z * Z) * Q * Q) : Prop :=
  text_to_words (w_text c) = Ok (fst (fst x)) /\ forallb word_odd (fst (fst x)) = true
  /\ snd (fst x) = w_start c /\ snd x = w_end c.

Lemma codes_words : forall caps codes,
  res_map (fun c => do code <- text_to_code (w_text c); Ok (code, w_start c, w_end c)) caps = Ok codes ->
  (forall c, In c caps -> (length (layout_rows (w_text c)) <= 15)%nat) ->
  exists wcodes : list (list (Z * Z) * Q * Q), codes = map code3 wcodes /\ Forall2 code_of caps wcodes.
Proof.
  intros caps codes H D. destruct (write_codes caps D) as (wss & F & E). rewrite E in H. injection H as <-.
  exists (map (fun x => (snd x, w_start (fst x), w_end (fst x))) (combine caps wss)).
  split; [rewrite map_map; reflexivity|].
  clear E D. induction F as [|c ws t wst (Ew & Ow) _ IH]; cbn [combine map]; [constructor|].
  constructor; [repeat split; assumption|exact IH].
Qed.

Definition item_rel (x : list (Z * Z) * Q * Q) (y : list (Z * Z) * Q * option Q) : Prop :=
  fst (fst y) = fst (fst x) /\ snd (fst y) = pre_roll (render_words (fst (fst x))) (snd (fst x))
  /\ (snd y = Some (snd x) \/ snd y = None).

Lemma pass2_words : forall wcodes : list (list (Z * Z) * Q * Q),
  exists out, pass2 [] (map code3 wcodes) = map code3 out /\ Forall2 item_rel wcodes out.
Proof.
  assert (G : forall t ws s' e, exists eo out,
                pass2_ahead (render_words ws) s' e (map code3 t) = map code3 ((ws, s', eo) :: out)
                /\ (eo = Some e \/ eo = None) /\ Forall2 item_rel t out).
  { induction t as [|[[ws2 s2] e2] t IH]; intros ws s' e; cbn [map].
    - exists (Some e), []. repeat split; [left; reflexivity|constructor].
    - unfold code3 at 1. cbn [pass2_ahead fst snd].
      destruct (IH ws2 (pre_roll (render_words ws2) s2) e2) as (eo2 & out2 & E & C & F).
      eexists _, ((ws2, _, eo2) :: out2). rewrite E. split; [reflexivity|]. split; [destruct (Qle_bool _ _); auto|].
      constructor; [repeat split; exact C|exact F]. }
  intros [|[[ws s] e] t]; [exists []; split; constructor|].
  cbn [map]. unfold code3 at 1. cbn [fst snd]. rewrite pass2_lookahead.
  destruct (G t ws (pre_roll (render_words ws) s) e) as (eo & out & E & C & F).
  exists ((ws, pre_roll (render_words ws) s, eo) :: out). split; [exact E|]. constructor; [repeat split; exact C|exact F].
Qed.

Lemma items_ok : forall caps wcodes out, Forall2 code_of caps wcodes -> Forall2 item_rel wcodes out ->
  (forall c, In c caps -> (0 <= w_start c)%Q /\ (0 <= w_end c)%Q) ->
  forall l, In l (flat_map lines3 out) -> line_ok l.
Proof.
  intros caps wcodes out F1. revert out. induction F1 as [|c x t wt (_ & Ow & Es & Ee) _ IH]; intros out F2 D l Hl;
    inversion F2 as [|? y ? yt (A & B & C) Ft]; subst; [destruct Hl|].
  cbn [flat_map] in Hl. apply in_app_iff in Hl. destruct Hl as [Hl|Hl]; [|exact (IH yt Ft (fun z Hz => D z (or_intror Hz)) l Hl)].
  destruct (D c (or_introl eq_refl)) as [Ds De]. destruct x as [[ws s] e], y as [[ws' s'] eo]. cbn [fst snd] in *. subst ws' s' s e.
  apply (cap_lines_ok ws (code3 (ws, pre_roll (render_words ws) (w_start c), eo)) Ow) in Hl; [exact Hl|apply pre_roll_le; exact Ds|].
  cbn [code3 snd]. destruct C as [-> | ->]; [exact De|exact I].
Qed.

(* the one route from the cues to the lines the parser finds: the codes of the cues, PASS 2's result, its lines *)
Lemma doc_items : forall caps doc, write caps = Ok doc ->
  (forall c, In c caps -> (0 <= w_start c)%Q /\ (0 <= w_end c)%Q /\ (length (layout_rows (w_text c)) <= 15)%nat) ->
  exists wcodes out,
    res_map (fun c => do code <- text_to_code (w_text c); Ok (code, w_start c, w_end c)) caps = Ok (map code3 wcodes) /\
    Forall2 code_of caps wcodes /\ pass2 [] (map code3 wcodes) = map code3 out /\ Forall2 item_rel wcodes out /\
    (forall l, In l (flat_map lines3 out) -> line_ok l) /\
    parse_document doc = Some (map (fun l => (tc_frames (fst (fst l)), snd (fst l) ++ [snd l])) (flat_map lines3 out)).
Proof.
  intros caps doc W D. unfold write in W.
  destruct (res_map (fun c => do code <- text_to_code (w_text c); Ok (code, w_start c, w_end c)) caps) as [codes|] eqn:R;
    [|discriminate]. cbn [bind] in W. inversion W; subst doc. clear W.
  destruct (codes_words caps codes R (fun c Hc => proj2 (proj2 (D c Hc)))) as (wcodes & -> & F1).
  destruct (pass2_words wcodes) as (out & Ep & F2).
  pose proof (items_ok caps wcodes out F1 F2 (fun c Hc => conj (proj1 (D c Hc)) (proj1 (proj2 (D c Hc))))) as Ok_.
  exists wcodes, out. split; [reflexivity|]. split; [exact F1|]. split; [exact Ep|]. split; [exact F2|]. split; [exact Ok_|].
  rewrite Ep, written_items. apply (doc_parses _ Ok_).
Qed.

(* document_parses: for cues with non-negative times laid out on at most 15 rows each, the document the writer
   model produces is a Scenarist document - header, then timecoded lines of four-hex-digit words - that the
   specification's parser splits into lines whose frame numbers are exactly the frame numbers of the times written
   (load line, optional clear line, per caption, in order) and whose every byte has odd parity *)
Theorem document_parses : forall caps doc, write caps = Ok doc ->
  (forall c, In c caps -> (0 <= w_start c)%Q /\ (0 <= w_end c)%Q /\ (length (layout_rows (w_text c)) <= 15)%nat) ->
  exists codes lines,
    res_map (fun c => do code <- text_to_code (w_text c); Ok (code, w_start c, w_end c)) caps = Ok codes /\
    parse_document doc = Some lines /\
    map fst lines = map tc_frames (emitted (pass2 [] codes)) /\
    forallb (fun l => forallb word_odd (snd l)) lines = true.
Proof.
  intros caps doc W D. destruct (doc_items caps doc W D) as (wcodes & out & R & _ & Ep & _ & Ok_ & PD).
  exists (map code3 wcodes). eexists. split; [exact R|]. split; [exact PD|]. split.
  - rewrite map_map. cbn [fst]. rewrite <- (map_map (fun l : Q * list (Z * Z) * (Z * Z) => fst (fst l)) tc_frames), items_times, <- Ep.
    reflexivity.
  - apply forallb_forall. intros l Hl. apply in_map_iff in Hl. destruct Hl as [x [<- Hx]]. apply (Ok_ x Hx).
Qed.
