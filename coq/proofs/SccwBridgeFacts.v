(* C17: the writer model's word stream in the terms of the pop-on programs of the reader side (spec/SpecScc05.v
   `emit_row` / `pack`, proofs/SccPoponStage9.v `popon_refines_608`), and where it differs from the streams of
   `pseg_line` (proofs/SccPoponStage6.v):
     (+) closed form of the stream: for a text over the basic set on <= 15 rows, `text_to_words text` is the concatenation
         over the laid-out rows of  PAC PAC. pair_up (bytes of the row)  (`text_words_explicit`);
     (+) the character words of a row are exactly `SpecScc05.pack true` of the row's characters, i.e. the independent
         CEA-608 encoding (`row_chars_emit`); the writer's basic table agrees with spec/Spec608.v and all its characters
         are `SpecScc05.is_basic` (`tbl_basic_608`);
     (-) SCCWriter addresses column 0 with the INDENT form of the PAC (second byte 0x50 / 0x70, attribute 16 "white,
         indent 0": PAC_LOW_BYTE_BY_ROW_RESTRICTED), not with the STYLE form of attribute 0; a SpecScc05 `row` says that
         as rw_style = 16 at rw_indent = 0 (`tbl_pac_is_indent_form`);
     (-) the writer puts EDM EDM in front of EOC EOC inside the load line; the `pseg_line` streams have
         Erase-Displayed-Memory on lines of their own (`PClear`); proofs/SccInlineEdmFacts.v relates the two layouts.
   The re-read clause of C17 does not go through `popon_refines_608`: the reader model is run on the writer's load line
   directly (proofs/SccRereadLoad.v). *)
From Coq Require Import List ZArith QArith Bool Lia.
From PV Require Import lib.Sx lib.Result model.GenSccw model.SccWrite.
From PV Require Import proofs.SccWriteFacts proofs.SccDecodeFacts proofs.SccLayoutFacts.
From PV Require model.SccRoundTrip spec.Spec608 spec.SpecScc05 proofs.SccPoponStage1.
Import ListNotations.
Open Scope Z_scope.

Definition word_z := SccRoundTrip.word_z.

(* (the code is bound once: `basic_code` searches the whole basic set, and SpecScc05.is_basic mentions it twice) *)
Lemma tbl_basic_608 :
  forallb (fun kv => (fun b => (snd kv =? Spec608.odd_parity b) && (Spec608.basic_608 b =? fst kv) && negb (fst kv =? 9608)
                               && (32 <=? b)) (SpecScc05.basic_code (fst kv)))
          sccw_character_to_code = true.
Proof. vm_compute. reflexivity. Qed.
Lemma basic_facts : forall c, is_basic c = true ->
  byte_of c = Spec608.odd_parity (SpecScc05.basic_code c) /\ SpecScc05.is_basic c = true.
Proof.
  intros c H. unfold is_basic in H. unfold byte_of. destruct (assoc c sccw_character_to_code) as [b|] eqn:E; [|discriminate].
  apply assoc_in in E. pose proof tbl_basic_608 as T. rewrite forallb_forall in T. specialize (T _ E). cbn [fst snd] in T.
  rewrite SccPoponStage1.is_basic_unfold. revert T. generalize (SpecScc05.basic_code c). intros x T.
  apply andb_prop in T. destruct T as [T T4]. apply andb_prop in T. destruct T as [T T3]. apply andb_prop in T.
  destruct T as [T1 T2]. rewrite T2, T3, T4. split; [lia|reflexivity].
Qed.

Definition pacw (row : Z) : Z * Z :=
  (match py_index sccw_pac_high_byte_by_row row with Ok h => h | Err _ => 0 end,
   match py_index sccw_pac_low_byte_by_row_restricted row with Ok l => l | Err _ => 0 end).
Definition roww (r : Z * str) : list (Z * Z) := pacw (fst r) :: pacw (fst r) :: pair_up (map byte_of (snd r)).

Lemma words_rows_explicit : forall rows ws0 s', rows_valid rows -> rows_basic rows ->
  words_rows (ws0, None) rows = Ok s' -> s' = (rev (flat_map roww rows) ++ ws0, None).
Proof.
  induction rows as [|[row line] t IH]; intros ws0 s' V B H; cbn [words_rows] in H.
  - inversion H; subst. reflexivity.
  - unfold roww at 1. unfold pacw. cbn [fst snd flat_map].
    destruct (py_index sccw_pac_high_byte_by_row row) as [h|] eqn:Hh; [|discriminate].
    destruct (py_index sccw_pac_low_byte_by_row_restricted row) as [l|] eqn:Hl; [|discriminate].
    cbn [bind] in H.
    assert (Bl : forallb is_basic line = true) by (apply (B (row, line)); left; reflexivity).
    rewrite ws_line_basic in H by exact Bl. cbn [opt_list app] in H.
    rewrite (IH _ _ (fun r Hr => V r (or_intror Hr)) (fun r Hr => B r (or_intror Hr)) H).
    f_equal. cbn [app rev]. rewrite !rev_app_distr. cbn [rev app]. rewrite <- !app_assoc. reflexivity.
Qed.

Theorem text_words_explicit : forall text ws, (length (layout_rows text) <= 15)%nat -> basic_text text = true ->
  text_to_words text = Ok ws -> ws = flat_map roww (layout_rows text).
Proof.
  intros text ws L B E. unfold text_to_words in E.
  destruct (words_rows ([], None) (layout_rows text)) as [s'|] eqn:W; [|discriminate]. cbn [bind] in E. inversion E; subst ws.
  rewrite (words_rows_explicit _ _ _ (layout_rows_valid text L) (layout_rows_basic text B) W). cbn [fst].
  rewrite app_nil_r, rev_involutive. reflexivity.
Qed.

(* hence a load is short: each of the at most 15 rows takes its two address words and, for at most 32 characters, at
   most 16 character words *)
Lemma pair_up_length : forall n bs, (length bs <= n)%nat -> (2 * length (pair_up bs) <= length bs + 1)%nat.
Proof.
  induction n as [|n IH]; intros [|a [|b t]] L; cbn [pair_up length] in *; try lia.
  specialize (IH t). lia.
Qed.
Lemma text_words_count : forall text ws, (length (layout_rows text) <= 15)%nat -> basic_text text = true ->
  text_to_words text = Ok ws -> (length ws <= 270)%nat.
Proof.
  intros text ws L B E. rewrite (text_words_explicit text ws L B E).
  assert (R : forall rows : list (Z * str), (forall r, In r (map snd rows) -> (length r <= 32)%nat) ->
              (length (flat_map roww rows) <= 18 * length rows)%nat).
  { induction rows as [|r t IH]; intros H; [cbn; lia|]. cbn [flat_map]. rewrite app_length. unfold roww at 1.
    pose proof (pair_up_length _ (map byte_of (snd r)) (le_n _)) as P. rewrite map_length in P.
    pose proof (H (snd r) (or_introl eq_refl)). specialize (IH (fun x Hx => H x (or_intror Hx))). cbn [length]. lia. }
  specialize (R (layout_rows text) (rows_le_32 text)). lia.
Qed.

Lemma pack_basic : forall line pend, forallb is_basic line = true ->
  SpecScc05.pack true (map SpecScc05.TCh line) pend = map word_z (pair_up (opt_list pend ++ map byte_of line)).
Proof.
  induction line as [|c t IH]; intros pend H.
  - destruct pend; reflexivity.
  - cbn [forallb] in H. apply andb_prop in H. destruct H as [H1 H2]. destruct (basic_facts c H1) as [Eb _].
    cbn [map SpecScc05.pack]. rewrite <- Eb. generalize (byte_of c). intros y. destruct pend as [b|].
    + rewrite (IH None H2). reflexivity.
    + rewrite (IH (Some y) H2). reflexivity.
Qed.
Lemma toks_ch : forall line, flat_map SpecScc05.toks_of_item (map SpecScc05.Ch line) = map SpecScc05.TCh line.
Proof. induction line as [|c t IH]; [reflexivity|]. cbn [map flat_map SpecScc05.toks_of_item app]. rewrite IH. reflexivity. Qed.

Lemma tbl_pac_is_indent_form :
  forallb (fun row => match py_index sccw_pac_high_byte_by_row row, py_index sccw_pac_low_byte_by_row_restricted row with
                      | Ok h, Ok l => (h * 256 + l =? Spec608.pac_word row 16) && negb (h * 256 + l =? Spec608.pac_word row 0)
                      | _, _ => false end) (map Z.of_nat (seq 1 15)) = true.
Proof. vm_compute. reflexivity. Qed.

Theorem row_chars_emit : forall line, forallb is_basic line = true ->
  map word_z (pair_up (map byte_of line))
  = SpecScc05.pack true (flat_map SpecScc05.toks_of_item (map SpecScc05.Ch line)) None.
Proof. intros line B. rewrite toks_ch, (pack_basic line None B). reflexivity. Qed.
