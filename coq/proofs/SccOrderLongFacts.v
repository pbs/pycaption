(* C15, the order clause at the level of the STREAM, on the decoder model, for loads with OVER-LONG rows (the half that the
   staged pop-on simulation does not reach: its domain load_wf bounds every row by 32 cells).

   Domain: a load of PLAIN rows: preamble at column 0 (no indent, no tab offset, plain white), a non-empty run of basic
   visible characters (no blank) of ANY length, screen rows 1..15 pairwise at least two apart (so that every row becomes
   a caption of its own: "captions sharing a start time"), control codes single or doubled.

   Results: the decoder buffers one text node per row whatever the row length (the decoder has no width limit before the
   final scan); `read` is exactly the final scan on one caption per row; it raises the line-length error iff some row
   is longer than 32 characters, the message names every over-long row; hence the outcome is the same for every
   transmission order of the rows. *)
From Coq Require Import List ZArith QArith Qabs Lia Bool ZifyBool Permutation.
From PV Require Import lib.Sx lib.Str lib.Result model.GenScc model.SccLen model.SccTime model.SccStash model.SccDecoder model.SccLayout
                       spec.Spec608 spec.SpecScc05 spec.SpecSccLen proofs.SccTableFacts proofs.SccDoubleFacts
                       proofs.SccLenFacts proofs.SccLenLooseFacts proofs.SccStashFacts proofs.SccPoponStage1 proofs.SccPoponStage3
                       proofs.SccOrderFacts.
From PV Require proofs.SccPoponStage2c proofs.SccPoponStage4.
Import ListNotations. Open Scope Z_scope.

(* performance only (see stage 1): the kernel must not evaluate the filter inside basic_code on a variable *)
Local Strategy 1000 [basic_code is_basic].

Definition vis_char (c : Z) : bool := is_basic c && negb (c =? 32).

(* mkRow r 0 0 0 (map Ch cs), 1 <= r <= 15, cs a non-empty run of basic characters other than the blank; any length *)
Definition plain_row (r : row) : bool :=
  (1 <=? rw_row r) && (rw_row r <=? 15) && (rw_indent r =? 0) && (rw_tab r =? 0) && (rw_style r =? 0)
  && forallb basic_item (rw_items r) && forallb vis_char (row_text r) && negb (nil_b (rw_items r)).

Fixpoint apart (l : list Z) : bool :=
  match l with [] => true | x :: t => forallb (fun y => 2 <=? Z.abs (x - y)) t && apart t end.

Definition plain_load (l : load) : bool := negb (nil_b l) && forallb plain_row l && apart (map rw_row l).

Definition long_row (r : row) : bool := 32 <? Z.of_nat (length (row_text r)).

Lemma vis_char_parts : forall c, vis_char c = true -> is_basic c = true /\ c <> 32.
Proof.
  intros c H. unfold vis_char in H. generalize dependent (is_basic c). intros b H.
  apply andb_true_iff in H. destruct H as [H1 H2]. split; [exact H1|]. apply negb_true_iff in H2. lia.
Qed.

Lemma plain_row_facts : forall r, plain_row r = true ->
  1 <= rw_row r <= 15 /\ rw_indent r = 0 /\ rw_tab r = 0 /\ rw_style r = 0 /\
  flat_map toks_of_item (rw_items r) = map TCh (row_text r) /\ forallb is_basic (row_text r) = true /\
  row_text r <> [] /\ (forall c, In c (row_text r) -> is_basic c = true /\ c <> 32).
Proof.
  intros r H. unfold plain_row in H.
  rewrite !andb_true_iff in H. destruct H as [[[[[[[H1 H2] H3] H4] H5] Hbi] Hv] Hnn].
  assert (Hall : forall c, In c (row_text r) -> is_basic c = true /\ c <> 32).
  { intros c Hc. apply vis_char_parts. exact (proj1 (forallb_forall _ _) Hv c Hc). }
  repeat split; try lia.
  - unfold row_text. clear -Hbi. induction (rw_items r) as [|it t IH]; [reflexivity|].
    rewrite forallb_cons in Hbi. apply andb_true_iff in Hbi. destruct Hbi as [Hi Ht].
    destruct it; try discriminate Hi. cbn [flat_map toks_of_item map app]. rewrite (IH Ht). reflexivity.
  - apply forallb_forall. intros c Hc. exact (proj1 (Hall c Hc)).
  - unfold row_text. destruct (rw_items r); [discriminate Hnn|discriminate].
  - apply Hall; assumption.
  - apply Hall; assumption.
Qed.

(* the preamble of a plain row is the preamble of a one-character row (to which stage 1/3 lemmas apply) *)
Definition proxy (rr : Z) : row := mkRow rr 0 0 0 [Ch 97].

Lemma proxy_basic : forall rr, 1 <= rr <= 15 -> basic_row (proxy rr) = true.
Proof.
  intros rr H. assert (C : In rr [1;2;3;4;5;6;7;8;9;10;11;12;13;14;15]) by (cbn [In]; lia).
  cbn [In] in C. repeat (destruct C as [<-|C]; [vm_compute; reflexivity|]). destruct C.
Qed.

Lemma pac_unit_proxy : forall d r, plain_row r = true -> pac_unit d r = pac_unit d (proxy (rw_row r)).
Proof.
  intros d r H. destruct (plain_row_facts r H) as (_ & Hi & Ht & Hs & _).
  unfold pac_unit, pac_attr, proxy. cbn [rw_row rw_indent rw_tab rw_style]. rewrite Hi, Ht, Hs. reflexivity.
Qed.

Definition rpos (r : row) : pos := (rw_row r, 0).

(* the buffer after the first row: one text node per further row, preceded by the (empty text, reposition) pair *)
Fixpoint far_nodes (t : load) : list inode :=
  match t with
  | [] => []
  | r :: t' => mkI IText [] (rpos r) :: mkI IRepos [] (rpos r) :: mkI IText (row_text r) (rpos r) :: far_nodes t'
  end.
Definition lnodes (l : load) : list inode :=
  match l with [] => [] | r :: t => mkI IText (row_text r) (rpos r) :: far_nodes t end.

Fixpoint chainL (lastrow : Z) (t : load) : Prop :=
  match t with [] => True | r :: t' => rw_row r <> lastrow /\ rw_row r <> lastrow + 1 /\ chainL (rw_row r) t' end.

Section RunL.
Variables (st : stash) (ds : bool) (pa ro : creator) (q : option (creator * Q)) (tm : Q) (tc : str) (off : Q).
Notation SGs := (SG st ds pa ro q tm tc off).

Lemma row_runL : forall r d tk l nodes fr nx tk0 tk1 pre p, plain_row r = true -> has_break_before nodes = false ->
  last_contains l (pac_word (rw_row r) 0) = false -> pac_ready tk nodes ->
  tracker_update tk (rw_row r, 0) = tk0 ->
  (forall s, add_chars tk0 (mkCr nodes SNone) s = (tk1, mkCr (pre ++ [mkI IText s p]) SNone)) ->
  (forall txt s, add_chars tk1 (mkCr (pre ++ [mkI IText txt p]) SNone) s = (tk1, mkCr (pre ++ [mkI IText (txt ++ s) p]) SNone)) ->
  exists l', tws (SGs tk l nodes fr) (emit_row d r) nx
             = SGs tk1 l' (pre ++ [mkI IText (row_text r) p]) (fr + Z.of_nat (length (emit_row d r))) /\ charlast l'.
Proof.
  intros r d tk l nodes fr nx tk0 tk1 pre p Hrow Hbb Hl Hrd Etk H0 H1.
  destruct (plain_row_facts r Hrow) as (Hr & _ & _ & _ & Hf & Hb & Hne & _).
  unfold emit_row. rewrite Hf, (pac_unit_proxy d r Hrow), tws_app, app_length, Nat2Z.inj_add.
  destruct (pac_unit_run3 st ds pa ro q tm tc off (proxy (rw_row r)) d tk l nodes fr
              (nxt (pack d (map TCh (row_text r)) None) nx) (proxy_basic _ Hr) Hbb Hl Hrd) as (l1 & E1).
  assert (E1' : tws (SGs tk l nodes fr) (pac_unit d (proxy (rw_row r))) (nxt (pack d (map TCh (row_text r)) None) nx)
                = SGs tk0 l1 nodes (fr + Z.of_nat (length (pac_unit d (proxy (rw_row r))))))
    by (rewrite <- Etk; exact E1).
  rewrite E1'.
  destruct (chars_run3 st ds pa ro q tm tc off tk0 tk1 nodes pre p H0 H1 d nx (row_text r) l1
              (fr + Z.of_nat (length (pac_unit d (proxy (rw_row r))))) Hb Hne) as (l2 & E2 & Hl2).
  exists l2. split; [|exact Hl2]. rewrite E2. f_equal. lia.
Qed.

Lemma proxy_pac : forall rr, 1 <= rr <= 15 -> is_pac (pac_word rr 0) = true /\ interpreted (pac_word rr 0).
Proof.
  intros rr H. destruct (pac_row_facts (proxy rr) (proxy_basic rr H)) as (_ & Hpac & _ & I). split; [exact Hpac|exact I].
Qed.

(* the further rows: each one starts a new caption *)
Lemma rows_runL : forall d t, Forall (fun r => plain_row r = true) t ->
  forall nx pre txt (cur : pos) lastrow c0 dflt l fr, chainL lastrow t -> charlast l -> cur = (lastrow, c0) ->
  exists tk' l', tws (SGs (mkTk [cur] None false dflt) l (pre ++ [mkI IText txt cur]) fr)
                     (flat_map (emit_row d) t) nx
     = SGs tk' l' (pre ++ mkI IText txt cur :: far_nodes t) (fr + Z.of_nat (length (flat_map (emit_row d) t)))
     /\ charlast l'.
Proof.
  intros d t F. induction F as [|r t Hrow F IH]; intros nx pre txt cur lastrow c0 dflt l fr Hch Hl Hcur.
  - exists (mkTk [cur] None false dflt), l. cbn [flat_map tws length far_nodes]. rewrite Z.add_0_r.
    split; [reflexivity|exact Hl].
  - destruct Hch as (Hne & Nadj & Hch). cbn [flat_map]. rewrite tws_app, app_length, Nat2Z.inj_add.
    destruct (plain_row_facts r Hrow) as (Hr & _).
    destruct (proxy_pac (rw_row r) Hr) as [Hpac _].
    pose proof (charlast_pac l _ Hl Hpac) as Hlc.
    pose proof (no_break_before_text pre txt cur) as Hbb.
    assert (Hlast : last (map Some [cur]) None = Some (lastrow, c0)) by (rewrite Hcur; reflexivity).
    destruct (row_runL r d (mkTk [cur] None false dflt) l (pre ++ [mkI IText txt cur]) fr
                (nxt (flat_map (emit_row d) t) nx)
                (mkTk [rpos r] None true (rpos r)) (mkTk [rpos r] None false (rpos r))
                (pre ++ [mkI IText txt cur; mkI IText [] (rpos r); mkI IRepos [] (rpos r)]) (rpos r) Hrow Hbb Hlc
                (pac_ready_nonempty _ _ _)) as (l1 & E1 & Hl1).
    + exact (tracker_far [cur] lastrow c0 dflt (rw_row r) 0 0 Hlast ltac:(lia) Hne Nadj).
    + intros s. apply add_chars_repos.
    + intros txt0 s. apply add_chars_plain.
    + rewrite E1.
      destruct (IH nx (pre ++ [mkI IText txt cur; mkI IText [] (rpos r); mkI IRepos [] (rpos r)]) (row_text r)
                  (rpos r) (rw_row r) 0 (rpos r) l1 (fr + Z.of_nat (length (emit_row d r))) Hch Hl1 eq_refl)
        as (tk' & l' & E & Hl').
      exists tk', l'. split; [|exact Hl']. refine (eq_trans E _). cbn [far_nodes]. rewrite <- app_assoc. cbn [app].
      f_equal. lia.
Qed.
End RunL.

Lemma apart_chain : forall t r, apart (map rw_row (r :: t)) = true -> chainL (rw_row r) t.
Proof.
  induction t as [|b t IH]; intros r H; [exact I|].
  cbn [map apart forallb] in H. apply andb_true_iff in H. destruct H as [H Hb].
  apply andb_true_iff in H. destruct H as [H _].
  cbn [chainL]. split; [lia|split; [lia|]]. apply IH. exact Hb.
Qed.

Lemma plain_load_parts : forall l, plain_load l = true ->
  exists r t, l = r :: t /\ plain_row r = true /\ Forall (fun r => plain_row r = true) t /\ chainL (rw_row r) t.
Proof.
  intros l H. unfold plain_load in H. rewrite !andb_true_iff in H. destruct H as [[Hn Hb] Ha].
  destruct l as [|r t]; [discriminate Hn|]. exists r, t.
  rewrite forallb_cons in Hb. apply andb_true_iff in Hb. destruct Hb as [Hr Ht].
  split; [reflexivity|split; [exact Hr|split]].
  - apply Forall_forall. intros x Hx. exact (proj1 (forallb_forall _ _) Ht x Hx).
  - apply apart_chain. exact Ha.
Qed.

Lemma plain_load_rows : forall l, plain_load l = true -> Forall (fun r => plain_row r = true) l.
Proof.
  intros l H. destruct (plain_load_parts l H) as (r & t & -> & Hr & Ht & _). constructor; assumption.
Qed.

Lemma stateL : forall d l off tc nx t, plain_load l = true ->
  get_time tc (Z.of_nat (length (emit_load d l)) - (if d then 2 else 1)) off = Ok t ->
  exists tk lc ds,
   tws (start_state off tc) (emit_load d l) nx =
     mkR stash0 tk lc ds creator0 creator0 creator0 MPop
         (Some (mkCr (lnodes l) SNone, t)) t tc (Z.of_nat (length (emit_load d l))) off None
   /\ last_is lc w_edm = false.
Proof.
  intros d l off tc nx t H Hg. destruct (plain_load_parts l H) as (r & rest & -> & Hrow & Frest & Hch).
  destruct (plain_row_facts r Hrow) as (Hr & _ & _ & _ & _ & _ & Hne & _).
  destruct (proxy_pac (rw_row r) Hr) as [Hpac _].
  destruct (row_runL stash0 d creator0 creator0 None 0%Q tc off r d tracker0 _ [] (0 + (if d then 4 else 2))
              (nxt (flat_map (emit_row d) rest) (nxt (ctl d (ctrl_word 47)) nx))
              (mkTk [rpos r] None false (rpos r)) (mkTk [rpos r] None false (rpos r)) [] (rpos r)
              Hrow eq_refl (no_pac_after_prologue d _ Hpac) (or_intror eq_refl) eq_refl) as (l1 & E1 & Hl1).
  { intros s. apply add_chars_first. }
  { intros txt s. apply (add_chars_plain (rpos r) [] (rpos r) []). }
  destruct (rows_runL stash0 d creator0 creator0 None 0%Q tc off d rest Frest (nxt (ctl d (ctrl_word 47)) nx)
              [] (row_text r) (rpos r) (rw_row r) 0 (rpos r) l1
              (0 + (if d then 4 else 2) + Z.of_nat (length (emit_row d r))) Hch Hl1 eq_refl) as (tk2 & l2 & E2 & Hl2).
  destruct (load_run d (r :: rest) stash0 tracker0 LNone false creator0 creator0 creator0 None 0%Q tc 0 off nx t
              tk2 l2 (mkCr (lnodes (r :: rest)) SNone) eq_refl) as (lc & ds & E & Hlc).
  - unfold cr_is_empty. cbn [cr_nodes lnodes existsb i_text]. destruct (row_text r); [congruence|reflexivity].
  - exact (charlast_not_eoc l2 Hl2).
  - exact Hg.
  - cbn [flat_map]. rewrite tws_app, app_length, Nat2Z.inj_add.
    refine (eq_trans (f_equal (fun s => tws s _ _) E1) _). refine (eq_trans E2 _). unfold SG. cbn [app lnodes]. f_equal. lia.
  - exists tk2, lc, ds. split; [exact E|destruct Hlc as [->| ->]; reflexivity].
Qed.

(* the caption creator: one caption per row *)
Definition capL (t1 t2 : Q) (r : row) : precap := mkPre t1 t2 [CText (row_text r) (rpos r)] (Some (rpos r)).

Lemma plain_rstrip : forall r, plain_row r = true -> rstrip (row_text r) = row_text r.
Proof.
  intros r H. destruct (plain_row_facts r H) as (_ & _ & _ & _ & _ & _ & Hne & Hall).
  apply rstrip_id; [exact Hne|]. destruct (is_space (last (row_text r) 0)) eqn:E; [|reflexivity]. exfalso.
  assert (Hin : In (last (row_text r) 0) (row_text r)).
  { destruct (exists_last Hne) as (l & x & ->). rewrite last_last. apply in_or_app. right. left. reflexivity. }
  destruct (Hall _ Hin) as [Hb Hn]. apply Hn. exact (basic_space _ Hb E).
Qed.

Lemma far_nodes_plain : forall t, Forall (fun r => plain_row r = true) t ->
  plain_nodes (far_nodes t) /\ Forall (fun n => rstrip_node n = n) (far_nodes t).
Proof.
  intros t F. induction F as [|r t Hrow F [I1 I2]]; [split; constructor|].
  assert (Ht : rstrip_node (mkI IText (row_text r) (rpos r)) = mkI IText (row_text r) (rpos r)).
  { unfold rstrip_node. cbn [i_kind i_text i_pos]. rewrite (plain_rstrip r Hrow). reflexivity. }
  cbn [far_nodes]. split; repeat (constructor; [first [reflexivity|exact Ht]|]); assumption.
Qed.

Lemma build_far : forall t1 t2 t, Forall (fun r => plain_row r = true) t -> forall done r0,
  build_captions (far_nodes t) t1 t2 done (capL t1 t2 r0) = done ++ map (capL t1 t2) (r0 :: t).
Proof.
  intros t1 t2 t F. induction F as [|r t Hrow F IH]; intros done r0; [reflexivity|].
  destruct (plain_row_facts r Hrow) as (_ & _ & _ & _ & _ & _ & Hne & _).
  cbn [far_nodes build_captions i_kind i_text i_pos nonempty]. rewrite (nonempty_true _ Hne).
  change (mkPre (pc_start (mkPre t1 t2 [] None)) (pc_end (mkPre t1 t2 [] None))
            (pc_nodes (mkPre t1 t2 [] None) ++ [CText (row_text r) (rpos r)]) (Some (rpos r))) with (capL t1 t2 r).
  rewrite IH. cbn [map]. rewrite <- app_assoc. reflexivity.
Qed.

Lemma has_nodes_capL : forall t1 t2 l, filter has_nodes (map (capL t1 t2) l) = map (capL t1 t2) l.
Proof. intros t1 t2. induction l as [|r l IH]; [reflexivity|]. cbn [map filter has_nodes capL pc_nodes]. rewrite IH. reflexivity. Qed.

Lemma storeL : forall t1 t2 r t, plain_row r = true -> Forall (fun r => plain_row r = true) t ->
  create_and_store stash0 (mkCr (lnodes (r :: t)) SNone) t1 t2
  = mkStash (map (capL t1 t2) (r :: t)) (length (r :: t)).
Proof.
  intros t1 t2 r t Hrow F. destruct (plain_row_facts r Hrow) as (_ & _ & _ & _ & _ & _ & Hne & _).
  destruct (far_nodes_plain t F) as [P1 P2]. unfold create_and_store.
  assert (E : cr_is_empty (mkCr (lnodes (r :: t)) SNone) = false).
  { unfold cr_is_empty. cbn [cr_nodes lnodes existsb i_text]. destruct (row_text r); [congruence|reflexivity]. }
  rewrite E. cbn [cr_nodes]. rewrite format_plain.
  - rewrite build_skip_empty. cbn [lnodes build_captions i_kind i_text i_pos]. rewrite (nonempty_true _ Hne).
    change (mkPre (pc_start (mkPre t1 t2 [] None)) (pc_end (mkPre t1 t2 [] None))
              (pc_nodes (mkPre t1 t2 [] None) ++ [CText (row_text r) (rpos r)]) (Some (rpos r))) with (capL t1 t2 r).
    rewrite (build_far t1 t2 t F [] r). cbn [app]. rewrite stash_extend0, has_nodes_capL, map_length. reflexivity.
  - cbn [lnodes]. constructor; [reflexivity|exact P1].
  - cbn [lnodes]. constructor; [|exact P2]. unfold rstrip_node. cbn [i_kind i_text i_pos]. rewrite (plain_rstrip r Hrow). reflexivity.
Qed.

Theorem plain_load_read : forall d l off tc tc2 t1 t2, plain_load l = true ->
  get_time tc (Z.of_nat (length (emit_load d l)) - (if d then 2 else 1)) off = Ok t1 ->
  get_time tc2 0 off = Ok t2 ->
  read off [(tc, emit_load d l); (tc2, emit_clear d)] = finish_read (mkStash (map (capL t1 t2) l) (length l)).
Proof.
  intros d l off tc tc2 t1 t2 H Hg1 Hg2.
  destruct (stateL d l off tc None t1 H Hg1) as (tk & lc & ds & E & Hl).
  destruct (plain_load_parts l H) as (r & rest & -> & Hrow & Frest & _).
  rewrite (read_load_clear d off tc _ tc2 tk lc ds _ t1 t2 _ E Hl Hg2), (storeL t1 t2 r rest Hrow Frest). reflexivity.
Qed.

Lemma offendingL : forall t1 t2 l, Forall (fun r => plain_row r = true) l ->
  offending (map to_lcap (map (capL t1 t2) l)) = filter spec_long (map row_text l).
Proof.
  intros t1 t2 l F. unfold offending. induction F as [|r l Hrow F IH]; [reflexivity|].
  destruct (plain_row_facts r Hrow) as (_ & _ & _ & _ & _ & _ & _ & Hall).
  cbn [map concat]. rewrite IH. unfold to_lcap, cap_text, capL. cbn [snd pc_nodes map node_text concat].
  rewrite app_nil_r. unfold spec_lines, split_ch. rewrite split_no_sep.
  - cbn [rev app filter]. destruct (spec_long (row_text r)); reflexivity.
  - intros c Hc E. pose proof (is_basic_ge32 c (proj1 (Hall c Hc))). lia.
Qed.

Lemma filter_nil_existsb : forall A (f : A -> bool) l, filter f l = [] <-> existsb f l = false.
Proof.
  intros A f. induction l as [|a l IH]; [split; reflexivity|]. cbn [filter existsb]. destruct (f a); cbn [orb].
  - split; discriminate.
  - exact IH.
Qed.

Lemma offendingL_nil : forall t1 t2 l, Forall (fun r => plain_row r = true) l ->
  offending (map to_lcap (map (capL t1 t2) l)) = [] <-> existsb long_row l = false.
Proof.
  intros t1 t2 l F. rewrite (offendingL t1 t2 l F), filter_nil_existsb, SccPoponStage4.existsb_map. reflexivity.
Qed.

Theorem plain_load_outcome : forall d l off tc tc2 t1 t2, plain_load l = true ->
  get_time tc (Z.of_nat (length (emit_load d l)) - (if d then 2 else 1)) off = Ok t1 ->
  get_time tc2 0 off = Ok t2 -> (0 < t1)%Q -> (t1 < t2)%Q -> is_flash (mkPre t1 t2 [] None) = false ->
  let res := read off [(tc, emit_load d l); (tc2, emit_clear d)] in
  (existsb long_row l = false -> res = ROk (map (capL t1 t2) l)) /\
  (existsb long_row l = true ->
     exists msg, res = RLen msg /\
       forall r, In r l -> long_row r = true -> names msg (row_text r) = true /\ mentions msg (row_text r) = true).
Proof.
  intros d l off tc tc2 t1 t2 H Hg1 Hg2 H0 H1 Hfl res. unfold res. clear res.
  rewrite (plain_load_read d l off tc tc2 t1 t2 H Hg1 Hg2).
  pose proof (plain_load_rows l H) as F. pose proof (offendingL_nil t1 t2 l F) as Hoff. split.
  - intros Hs. apply finish_read_ok.
    + destruct l; [discriminate H|discriminate].
    + apply Hoff, Hs.
    + clear -Hfl. induction l as [|e es IH]; [reflexivity|]. cbn [map existsb]. rewrite IH.
      change (is_flash (capL t1 t2 e)) with (is_flash (mkPre t1 t2 [] None)). rewrite Hfl. reflexivity.
    + intros c Hc. apply in_map_iff in Hc. destruct Hc as (e' & <- & _). exact (SccPoponStage2c.pos_times_nonzero t1 t2 H0 H1).
  - intros Hs. unfold finish_read. cbn [st_caps]. pose proof (length_check_sound_complete (map to_lcap (map (capL t1 t2) l))) as K.
    destruct (length_check (map to_lcap (map (capL t1 t2) l))) as [msg|] eqn:El.
    + exists msg. split; [reflexivity|]. intros r Hin Hlong. destruct K as (_ & K & _).
      assert (Hn : names msg (row_text r) = true).
      { apply K. rewrite (offendingL t1 t2 l F). apply filter_In. split; [apply in_map; exact Hin|exact Hlong]. }
      split; [exact Hn|exact (names_mentions _ _ Hn)].
    + exfalso. apply length_check_none_iff in El. apply Hoff in El. congruence.
Qed.
Print Assumptions plain_load_outcome.

Lemma apart_perm (l l' : list Z) : Permutation l l' -> apart l = apart l'.
Proof.
  induction 1; cbn [apart forallb]; try congruence.
  - rewrite IHPermutation, (forallb_perm _ l l' H). reflexivity.
  - replace (Z.abs (x - y)) with (Z.abs (y - x)) by lia.
    destruct (2 <=? Z.abs (y - x)), (forallb (fun y0 => 2 <=? Z.abs (y - y0)) l),
             (forallb (fun y0 => 2 <=? Z.abs (x - y0)) l), (apart l); reflexivity.
Qed.

Lemma plain_load_perm (l l' : load) : Permutation l l' -> plain_load l = plain_load l'.
Proof.
  intro P. unfold plain_load.
  rewrite (forallb_perm plain_row l l' P), (apart_perm _ _ (Permutation_map rw_row P)).
  destruct l, l'; try reflexivity.
  - apply Permutation_nil in P. discriminate.
  - apply Permutation_sym, Permutation_nil in P. discriminate.
Qed.

Definition raises (r : read_result) : Prop := exists msg, r = RLen msg.
Definition returns (r : read_result) : Prop := exists caps, r = ROk caps.

Lemma plain_load_raises_iff : forall d l off tc tc2 t1 t2, plain_load l = true ->
  get_time tc (Z.of_nat (length (emit_load d l)) - (if d then 2 else 1)) off = Ok t1 ->
  get_time tc2 0 off = Ok t2 -> (0 < t1)%Q -> (t1 < t2)%Q -> is_flash (mkPre t1 t2 [] None) = false ->
  let res := read off [(tc, emit_load d l); (tc2, emit_clear d)] in
  (raises res <-> existsb long_row l = true) /\ (returns res <-> existsb long_row l = false).
Proof.
  intros d l off tc tc2 t1 t2 W T1 T2 H0 H1 Hfl res.
  destruct (plain_load_outcome d l off tc tc2 t1 t2 W T1 T2 H0 H1 Hfl) as [A B]. fold res in A, B.
  unfold raises, returns. destruct (existsb long_row l).
  - destruct (B eq_refl) as (m & -> & _). split; split; try discriminate; [reflexivity|eexists; reflexivity|].
    intros [c Hc]. discriminate Hc.
  - rewrite (A eq_refl). split; split; try discriminate; [|reflexivity|eexists; reflexivity].
    intros [m Hm]. discriminate Hm.
Qed.

(* one hypothesis set serves both orders: the End-Of-Caption code sits at the same word index in either order *)
Theorem plain_load_order_free : forall d l l' off tc tc2 t1 t2, Permutation l l' -> plain_load l = true ->
  get_time tc (Z.of_nat (length (emit_load d l)) - (if d then 2 else 1)) off = Ok t1 ->
  get_time tc2 0 off = Ok t2 -> (0 < t1)%Q -> (t1 < t2)%Q -> is_flash (mkPre t1 t2 [] None) = false ->
  let res := read off [(tc, emit_load d l); (tc2, emit_clear d)] in
  let res' := read off [(tc, emit_load d l'); (tc2, emit_clear d)] in
  (raises res <-> raises res') /\ (returns res <-> returns res') /\
  (raises res <-> existsb long_row l = true) /\ (returns res <-> existsb long_row l = false).
Proof.
  intros d l l' off tc tc2 t1 t2 P W T1 T2 H0 H1 Hfl res res'.
  assert (W' : plain_load l' = true) by (rewrite <- (plain_load_perm l l' P); exact W).
  assert (T1' : get_time tc (Z.of_nat (length (emit_load d l')) - (if d then 2 else 1)) off = Ok t1)
    by (rewrite <- (length_emit_load_perm d l l' P); exact T1).
  destruct (plain_load_raises_iff d l off tc tc2 t1 t2 W T1 T2 H0 H1 Hfl) as [A B].
  destruct (plain_load_raises_iff d l' off tc tc2 t1 t2 W' T1' T2 H0 H1 Hfl) as [A' B'].
  fold res in A, B. fold res' in A', B'. rewrite <- (existsb_perm long_row l l' P) in A', B'.
  rewrite A', B'. exact (conj A (conj B (conj A B))).
Qed.
Print Assumptions plain_load_order_free.

Corollary plain_row_one : forall d r off tc tc2 t1 t2, plain_row r = true ->
  get_time tc (Z.of_nat (length (emit_load d [r])) - (if d then 2 else 1)) off = Ok t1 ->
  get_time tc2 0 off = Ok t2 -> (0 < t1)%Q -> (t1 < t2)%Q -> is_flash (mkPre t1 t2 [] None) = false ->
  let res := read off [(tc, emit_load d [r]); (tc2, emit_clear d)] in
  (raises res <-> (32 < length (row_text r))%nat) /\ (returns res <-> (length (row_text r) <= 32)%nat).
Proof.
  intros d r off tc tc2 t1 t2 H T1 T2 H0 H1 Hfl res.
  assert (W : plain_load [r] = true) by (unfold plain_load; cbn [nil_b negb forallb map apart andb]; rewrite H; reflexivity).
  destruct (plain_load_raises_iff d [r] off tc tc2 t1 t2 W T1 T2 H0 H1 Hfl) as [A B].
  fold res in A, B. cbn [existsb] in A, B. rewrite orb_false_r in A, B. unfold long_row in A, B.
  split; [rewrite A|rewrite B]; lia.
Qed.

(* the outcome of `read` on a plain load meets the C15 oracle (weakest and exact reading of "naming") on the captions
   one per row, whose offending lines are exactly the texts of the over-long rows in transmission order *)
Theorem plain_load_meets_c15 : forall d l off tc tc2 t1 t2, plain_load l = true ->
  get_time tc (Z.of_nat (length (emit_load d l)) - (if d then 2 else 1)) off = Ok t1 ->
  get_time tc2 0 off = Ok t2 ->
  let caps := map to_lcap (map (capL t1 t2) l) in
  offending caps = filter spec_long (map row_text l) /\
  forall msg, read off [(tc, emit_load d l); (tc2, emit_clear d)] = RLen msg ->
    ok_c15 caps (Some msg) = true /\ ok_c15_loose caps (Some msg) = true.
Proof.
  intros d l off tc tc2 t1 t2 H T1 T2 caps. split; [exact (offendingL t1 t2 l (plain_load_rows l H))|].
  intros msg R. rewrite (plain_load_read d l off tc tc2 t1 t2 H T1 T2) in R. unfold finish_read in R. cbn [st_caps] in R.
  fold caps in R. pose proof (length_check_meets_oracle caps) as K.
  destruct (length_check caps) as [m|].
  - injection R as ->. split; [exact K|exact (ok_c15_implies_loose _ _ K)].
  - destruct (existsb is_flash (map (capL t1 t2) l)); [discriminate R|]. destruct (map (capL t1 t2) l); discriminate R.
Qed.
Print Assumptions plain_load_meets_c15.

(* non-vacuity: a row of 34 characters on row 15 and a short row on row 3, in either order *)
Definition long_a : load := [mkRow 15 0 0 0 (map Ch (repeat 97 34)); mkRow 3 0 0 0 [Ch 98; Ch 99]].
Definition long_b : load := [mkRow 3 0 0 0 [Ch 98; Ch 99]; mkRow 15 0 0 0 (map Ch (repeat 97 34))].
Definition short_a : load := [mkRow 15 0 0 0 (map Ch (repeat 97 32)); mkRow 3 0 0 0 [Ch 98; Ch 99]].
Definition short_b : load := [mkRow 3 0 0 0 [Ch 98; Ch 99]; mkRow 15 0 0 0 (map Ch (repeat 97 32))].

(* the long row costs one evaluation of vis_char, whatever its length *)
Lemma plain_row_repeat : forall rr c n, 1 <= rr <= 15 -> vis_char c = true ->
  plain_row (mkRow rr 0 0 0 (map Ch (repeat c (S n)))) = true.
Proof.
  intros rr c n Hr Hc. unfold plain_row, row_text. cbn [rw_row rw_indent rw_tab rw_style rw_items].
  replace (1 <=? rr) with true by lia. replace (rr <=? 15) with true by lia. cbn [Z.eqb andb].
  assert (E : forall m, forallb basic_item (map Ch (repeat c m)) = true /\
                        forallb vis_char (map (fun it => match it with Ch c => c | _ => 0 end) (map Ch (repeat c m))) = true).
  { induction m as [|m [IH1 IH2]]; [split; reflexivity|]. cbn [repeat map forallb basic_item]. rewrite Hc, IH1, IH2. split; reflexivity. }
  destruct (E (S n)) as [-> ->]. reflexivity.
Qed.

Lemma long_short_plain : forall n, plain_load [mkRow 15 0 0 0 (map Ch (repeat 97 (S n))); mkRow 3 0 0 0 [Ch 98; Ch 99]] = true.
Proof.
  intros n. unfold plain_load. cbn [nil_b negb forallb andb]. rewrite plain_row_repeat by (lia || reflexivity).
  vm_compute. reflexivity.
Qed.

Example long_order_instance :
  (exists m, read 0 [(lit "00:00:01;00", emit_load true long_a); (lit "00:00:05;00", emit_clear true)] = RLen m /\
             mentions m (repeat 97 34) = true) /\
  (exists m, read 0 [(lit "00:00:01;00", emit_load true long_b); (lit "00:00:05;00", emit_clear true)] = RLen m /\
             mentions m (repeat 97 34) = true).
Proof.
  assert (T : forall l, Permutation long_a l ->
              exists m, read 0 [(lit "00:00:01;00", emit_load true l); (lit "00:00:05;00", emit_clear true)] = RLen m /\
                        mentions m (repeat 97 34) = true).
  { intros l P.
    assert (W : plain_load l = true) by (rewrite <- (plain_load_perm _ _ P); exact (long_short_plain 33)).
    assert (Hin : In (mkRow 15 0 0 0 (map Ch (repeat 97 34))) l) by (apply (Permutation_in _ P); left; reflexivity).
    assert (X : exists t1, get_time (lit "00:00:01;00") (Z.of_nat (length (emit_load true long_a)) - 2) 0 = Ok t1 /\
                           (0 < t1)%Q /\ (t1 < 5000000)%Q /\ is_flash (mkPre t1 5000000 [] None) = false).
    { eexists. split; [vm_compute; reflexivity|]. repeat split; vm_compute; reflexivity. }
    destruct X as (t1 & T1 & H0 & H1 & F). rewrite (length_emit_load_perm true _ _ P) in T1.
    destruct (plain_load_outcome true l 0 (lit "00:00:01;00") (lit "00:00:05;00") t1 5000000 W T1
                ltac:(vm_compute; reflexivity) H0 H1 F) as [_ B].
    destruct B as (m & R & N).
    - apply existsb_exists. eexists. split; [exact Hin|vm_compute; reflexivity].
    - exists m. split; [exact R|]. exact (proj2 (N _ Hin ltac:(vm_compute; reflexivity))). }
  split; apply T; [apply Permutation_refl|apply perm_swap].
Qed.

(* the same two streams evaluated directly, and the 32-character variant returning two captions in either order *)
Example long_order_direct :
  (exists m, read 0 [(lit "00:00:01;00", emit_load true long_a); (lit "00:00:05;00", emit_clear true)] = RLen m) /\
  (exists m, read 0 [(lit "00:00:01;00", emit_load false long_b); (lit "00:00:05;00", emit_clear false)] = RLen m) /\
  (exists c1 c2, read 0 [(lit "00:00:01;00", emit_load true short_a); (lit "00:00:05;00", emit_clear true)] = ROk [c1; c2]) /\
  (exists c1 c2, read 0 [(lit "00:00:01;00", emit_load false short_b); (lit "00:00:05;00", emit_clear false)] = ROk [c1; c2]) /\
  plain_load long_a = true /\ plain_load long_b = true /\ plain_load short_a = true /\ plain_load short_b = true /\
  Permutation long_a long_b.
Proof.
  split; [eexists; vm_compute; reflexivity|]. split; [eexists; vm_compute; reflexivity|].
  split; [eexists; eexists; vm_compute; reflexivity|]. split; [eexists; eexists; vm_compute; reflexivity|].
  split; [exact (long_short_plain 33)|]. split; [rewrite (plain_load_perm long_b long_a (perm_swap _ _ _)); exact (long_short_plain 33)|].
  split; [exact (long_short_plain 31)|]. split; [rewrite (plain_load_perm short_b short_a (perm_swap _ _ _)); exact (long_short_plain 31)|].
  apply perm_swap.
Qed.

(* "depends only on the line lengths": two plain loads (different texts, rows, orders, timecodes, single or doubled codes)
   whose row lengths are the same up to order have the same outcome *)
Definition row_lengths (l : load) : list nat := map (fun r => length (row_text r)) l.

Theorem plain_load_lengths_only : forall d d' l l' off off' tc tc' tc2 tc2' t1 t2 t1' t2',
  plain_load l = true -> plain_load l' = true -> Permutation (row_lengths l) (row_lengths l') ->
  get_time tc (Z.of_nat (length (emit_load d l)) - (if d then 2 else 1)) off = Ok t1 ->
  get_time tc2 0 off = Ok t2 -> (0 < t1)%Q -> (t1 < t2)%Q -> is_flash (mkPre t1 t2 [] None) = false ->
  get_time tc' (Z.of_nat (length (emit_load d' l')) - (if d' then 2 else 1)) off' = Ok t1' ->
  get_time tc2' 0 off' = Ok t2' -> (0 < t1')%Q -> (t1' < t2')%Q -> is_flash (mkPre t1' t2' [] None) = false ->
  let res := read off [(tc, emit_load d l); (tc2, emit_clear d)] in
  let res' := read off' [(tc', emit_load d' l'); (tc2', emit_clear d')] in
  (raises res <-> raises res') /\ (returns res <-> returns res').
Proof.
  intros d d' l l' off off' tc tc' tc2 tc2' t1 t2 t1' t2' W W' P T1 T2 H0 H1 F T1' T2' H0' H1' F' res res'.
  destruct (plain_load_raises_iff d l off tc tc2 t1 t2 W T1 T2 H0 H1 F) as [A B].
  destruct (plain_load_raises_iff d' l' off' tc' tc2' t1' t2' W' T1' T2' H0' H1' F') as [A' B'].
  fold res in A, B. fold res' in A', B'.
  assert (E : existsb long_row l = existsb long_row l').
  { unfold long_row. rewrite <- (SccPoponStage4.existsb_map _ _ (fun n => 32 <? Z.of_nat n) (fun r => length (row_text r)) l),
                             <- (SccPoponStage4.existsb_map _ _ (fun n => 32 <? Z.of_nat n) (fun r => length (row_text r)) l').
    exact (existsb_perm _ _ _ P). }
  rewrite A, B, A', B', E. split; reflexivity.
Qed.
Print Assumptions plain_load_lengths_only.
