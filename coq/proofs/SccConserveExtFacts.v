(* C16, wider alphabet: conservation of characters in roll-up / paint-on streams that also carry extended characters
   and Erase-Displayed-Memory; the effect of backspace and of mid-row codes on the active buffer.

   An extended character is transmitted after a stand-in basic character and replaces it: the decoder first erases
   the LAST character of the ACTIVE buffer (unless the buffer holds no text, or that character is itself an extended
   character), then appends the extended character.  So the text of a caption is not the concatenation of the
   characters sent but the result of an edit script (`apply_word`) run per buffer: what was flushed into the caption
   list before the extended word arrives is out of reach of the implicit backspace.

   `rollup_painton_conserved_ext` covers every stream over `rpb_word` (= `rpx_word` + backspace) that starts with a mode
   command, with no well-formedness assumption on the stand-ins.  The expected text
   `sentx_text` is computed from the words alone (plus the decoder's doubling memory, exactly as `sent` does): flush
   words move the current buffer text to the finished text, every other executed word edits the current buffer text
   with `edit_word` (`apply_word`, or `removelast` for a backspace).
   Mid-row codes stay outside the stream theorem: whether they append a blank depends on the style state and on the
   NEXT word, and that blank can be the character an extended word erases; their effect is `rpx_step_mid`. *)
From Coq Require Import List ZArith QArith Lia Bool.
From PV Require Import lib.Sx lib.Str lib.Result model.GenScc model.SccLen model.SccTime model.SccStash model.SccDecoder
  proofs.SccStashFacts proofs.SccTableFacts proofs.SccItalicsFacts proofs.SccDoubleFacts proofs.SccConserveFacts.
Import ListNotations.
Open Scope Z_scope.

(* the wider alphabet: + extended characters, + Erase-Displayed-Memory (no pop-on cue is queued in these modes: no
   effect) *)
Definition rpx_word (w : Z) : bool :=
  rp_word w || (match extended_of w with Some _ => true | None => false end) || (w =? w_edm).

(* the effect of one executed, non-flushing word on the text of the active buffer *)
Definition apply_word (w : Z) (acc : str) : str :=
  match extended_of w with
  | Some t => (if (match acc with [] => true | _ => is_extended_value (last acc 0) end) then acc else removelast acc) ++ t
  | None => acc ++ word_chars w
  end.

(* ... and backspace, which erases one character of the active buffer *)
Definition rpb_word (w : Z) : bool := rpx_word w || (w =? w_bs).
Definition edit_word (w : Z) (acc : str) : str := if w =? w_bs then removelast acc else apply_word w acc.

(* the words that store the active buffer as a caption (when it holds text) and leave an empty active buffer *)
Definition is_flush (w : Z) : bool := (w =? w_ru2) || (w =? w_ru3) || (w =? w_ru4) || (w =? w_rdc) || (w =? w_cr).

(* (finished text, text of the active buffer) *)
Definition xstep (w : Z) (acc : str * str) : str * str :=
  if is_flush w then (fst acc ++ snd acc, []) else (fst acc, edit_word w (snd acc)).

(* the text expected from a word list run from state s; as in `sent`, the second copy of a doubled code counts once,
   as decided by the decoder's doubling memory *)
Fixpoint sentx (s : rstate) (ws : list Z) (acc : str * str) : str * str :=
  match ws with
  | [] => acc
  | w :: t => sentx (translate_word s w (match t with n :: _ => Some n | [] => None end)) t
                (if fst (handle_double s w) then acc else xstep w acc)
  end.

Fixpoint sentx_lines (s : rstate) (ls : list sline) (acc : str * str) : str * str :=
  match ls with
  | [] => acc
  | l :: t => sentx_lines (translate_line s l) t (sentx (set_clock s (fst l) 0) (snd l) acc)
  end.

Definition sentx_text (s : rstate) (ls : list sline) : str :=
  let acc := sentx_lines s ls ([], []) in fst acc ++ snd acc.

Lemma is_flush_command : forall w, is_flush w = true -> is_command w = true.
Proof.
  intros w H. destruct ctrl_commands as (C2 & C3 & C4 & Cd & Cc). unfold is_flush in H. rewrite !orb_true_iff in H.
  destruct H as [[[[H|H]|H]|H]|H]; apply Z.eqb_eq in H; subst w; assumption.
Qed.

Lemma flush_in : forall w, In w [w_ru2; w_ru3; w_ru4; w_rdc; w_cr] -> is_flush w = true.
Proof. intros w H. cbn [In] in H. destruct H as [<-|[<-|[<-|[<-|[<-|[]]]]]]; reflexivity. Qed.

Lemma not_flush : forall w, ~ In w [w_ru2; w_ru3; w_ru4; w_rdc; w_cr] -> is_flush w = false.
Proof.
  intros w H.
  assert (Hc : forall c, In c [w_ru2; w_ru3; w_ru4; w_rdc; w_cr] -> (w =? c) = false).
  { intros c Hin. apply Z.eqb_neq. intros ->. exact (H Hin). }
  unfold is_flush. rewrite (Hc w_ru2), (Hc w_ru3), (Hc w_ru4), (Hc w_rdc), (Hc w_cr) by (cbn [In]; tauto). reflexivity.
Qed.

Lemma not_command_not_flush : forall w, is_command w = false -> is_flush w = false.
Proof. intros w H. destruct (is_flush w) eqn:E; [|reflexivity]. apply is_flush_command in E. congruence. Qed.

Lemma apply_word_plain : forall w acc, extended_of w = None -> apply_word w acc = acc ++ word_chars w.
Proof. intros w acc H. unfold apply_word. rewrite H. reflexivity. Qed.

Lemma extended_classes : forall w t, extended_of w = Some t ->
  is_command w = false /\ is_pac w = false /\ special_of w = None /\ tab_of w = None.
Proof.
  intros w t H. destruct classes_disjoint as (Dspecial & Dext & _).
  assert (Hx : extended_of w <> None) by congruence.
  destruct (Dext w Hx) as (Hc & Hp & Ht). repeat split; try assumption.
  destruct (special_of w) as [x|] eqn:E; [|reflexivity].
  assert (Hs : special_of w <> None) by congruence. destruct (Dspecial w Hs) as (_ & _ & He & _). congruence.
Qed.

Lemma rp_word_not_ext : forall w, rp_word w = true -> extended_of w = None.
Proof.
  intros w Hw. destruct (extended_of w) as [x|] eqn:E; [|reflexivity]. exfalso.
  destruct (extended_classes w x E) as (Hc & Hp & Hs & Ht).
  destruct ctrl_commands as (C2 & C3 & C4 & Cd & Cc).
  unfold rp_word in Hw. rewrite Hp, Hs, Ht, E in Hw. rewrite andb_false_r, !orb_false_r in Hw.
  rewrite !orb_true_iff in Hw. destruct Hw as [[[[H|H]|H]|H]|H]; apply Z.eqb_eq in H; subst w; congruence.
Qed.

Lemma edm_facts : is_command w_edm = true /\ memz w_edm scc_mid_row_codes = false /\
  memz w_edm scc_background_color_codes = false /\ w_edm <> w_bs /\ extended_of w_edm = None /\ is_flush w_edm = false /\
  word_chars w_edm = [] /\ rpx_word w_edm = true.
Proof. repeat split; try (vm_compute; reflexivity). discriminate. Qed.

Lemma bs_facts : is_command w_bs = true /\ is_flush w_bs = false /\ rpx_word w_bs = false /\
  ~ In w_bs [w_rcl; w_ru2; w_ru3; w_ru4; w_rdc; w_edm; w_cr; w_enm; w_eoc].
Proof.
  split; [vm_compute; reflexivity|]. split; [vm_compute; reflexivity|]. split; [vm_compute; reflexivity|].
  cbn [In]. intros H. repeat (destruct H as [H|H]; [discriminate H|]). exact H.
Qed.

Lemma rpx_not_bs : forall w, rpx_word w = true -> (w =? w_bs) = false.
Proof.
  intros w H. destruct (Z.eqb_spec w w_bs) as [->|]; [|reflexivity].
  destruct bs_facts as (_ & _ & F & _). congruence.
Qed.

Lemma handle_backspace_ext_content : forall w t c, wf_nodes (cr_nodes c) -> extended_of w = Some t ->
  content (handle_backspace w c) =
  if (match content c with [] => true | _ => is_extended_value (last (content c) 0) end) then content c
  else removelast (content c).
Proof.
  intros w t c W He. unfold handle_backspace. pose proof (prev_text_spec drop_last (cr_nodes c) W) as P.
  change (content c) with (ncontent (cr_nodes c)).
  destruct (prev_text (cr_nodes c)) as [[tx b]|].
  - destruct P as (pre & H1 & H2 & H3). rewrite He, (extended_neq_bs w t He), orb_false_r. cbn [andb].
    unfold last_char. set (k := ncontent (cr_nodes c)) in *.
    assert (Hl : last k 0 = last tx 0) by (rewrite H1; apply last_app_ne; exact H2).
    assert (Hne : k <> []) by (rewrite H1; destruct pre; [exact H2|discriminate]).
    assert (Em : (match k with [] => true | _ => is_extended_value (last k 0) end) = is_extended_value (last tx 0)).
    { rewrite <- Hl. destruct k; [congruence|reflexivity]. }
    rewrite Em. destruct (is_extended_value (last tx 0)); cbn [negb].
    + reflexivity.
    + unfold content. cbn [cr_nodes]. fold (ncontent (upd_prev_text drop_last (cr_nodes c))).
      rewrite H3, H1. unfold drop_last. symmetry. apply removelast_app. exact H2.
  - change (content c) with (ncontent (cr_nodes c)). rewrite P. reflexivity.
Qed.

Lemma interpret_command_content_bs : forall t c next, wf_nodes (cr_nodes c) ->
  content (snd (fst (interpret_command t c w_bs next))) = removelast (content c).
Proof.
  intros t c next W. unfold interpret_command. cbv zeta.
  replace (memz w_bs scc_background_color_codes) with false by (vm_compute; reflexivity).
  replace (memz w_bs scc_style_setting_commands) with false by (vm_compute; reflexivity).
  replace (memz w_bs scc_mid_row_codes) with false by (vm_compute; reflexivity). rewrite Z.eqb_refl. cbv beta iota.
  destruct (prev_text (cr_nodes (handle_backspace w_bs c))) as [[txt brk]|]; apply backspace_deletes_one; exact W.
Qed.

Lemma tc_edm : forall s next, r_queue s = None -> translate_command s w_edm next = do_interpret s w_edm next.
Proof. intros s next H. unfold translate_command. rewrite H. reflexivity. Qed.

Lemma edited_ext : forall f g s X, f (content (buf s)) = g (content (buf s)) -> edited f s X -> edited g s X.
Proof. intros f g s X E (H1 & H2 & H3). split; [exact H1|split; [rewrite <- E; exact H2|exact H3]]. Qed.

Lemma exec_fine : forall s w next, rp_inv s -> rpb_word w = true ->
  if is_flush w then flush_res s (exec s w next) else edited (edit_word w) s (exec s w next).
Proof.
  intros s w next I Hw. unfold rpb_word in Hw. apply orb_true_iff in Hw. destruct Hw as [Hw|Hw].
  - unfold edit_word. rewrite (rpx_not_bs w Hw).
    unfold rpx_word in Hw. rewrite !orb_true_iff in Hw. destruct Hw as [[Hw|Hw]|Hw].
    + destruct (exec_rp s w next I Hw) as [(Hin & _ & R)|(Hn & R)].
      * rewrite (flush_in w Hin). exact R.
      * rewrite (not_flush w Hn). revert R. apply edited_ext. symmetry. apply apply_word_plain, rp_word_not_ext, Hw.
    + (* extended character: the stand-in is erased first *)
      destruct (extended_of w) as [t|] eqn:He; [|discriminate].
      destruct (extended_classes w t He) as (Hc & Hp & Hs & _). rewrite (not_command_not_flush w Hc).
      unfold exec. rewrite Hc, Hp, Hs, He. cbn [orb]. pose proof (inv_wf_buf s I) as W.
      assert (I1 : rp_inv (set_buf s (handle_backspace w (buf s))))
        by (apply set_buf_inv; [exact I|apply handle_backspace_wf; exact W]).
      destruct (add_to_buf_fine _ t I1) as (H1 & H2 & H3). split; [|split; [|exact H3]].
      * rewrite H1, set_buf_stash. reflexivity.
      * rewrite H2, set_buf_buf, (handle_backspace_ext_content w t (buf s) W He). unfold apply_word. rewrite He. reflexivity.
    + (* Erase Displayed Memory *)
      apply Z.eqb_eq in Hw. subst w. destruct edm_facts as (Hc & Hm & Hb & Hbs & Hx & Hf & Hwc & _). rewrite Hf.
      destruct (exec_cmd s w_edm next) as [-> _]; [rewrite Hc; reflexivity|]. rewrite tc_edm by (apply I).
      apply (edited_ext (fun a => a)); [|apply do_interpret_plain; assumption].
      rewrite apply_word_plain, Hwc by exact Hx. symmetry. apply app_nil_r.
  - (* backspace *)
    apply Z.eqb_eq in Hw. subst w. destruct bs_facts as (Hc & -> & _ & Hn).
    destruct (exec_cmd s w_bs next) as [-> _]; [rewrite Hc; reflexivity|]. rewrite tc_other by exact Hn.
    apply (edited_ext (fun _ => content (snd (fst (interpret_command (r_tk s) (buf s) w_bs next)))));
      [|apply do_interpret_fine; exact I].
    unfold edit_word. rewrite Z.eqb_refl. apply interpret_command_content_bs, inv_wf_buf, I.
Qed.

Lemma tw_core : forall s w next, r_err s = None -> exists l d,
  core (translate_word s w next) = if fst (handle_double s w) then core s else core (exec (set_dbl s l d) w next).
Proof.
  intros s w next He. rewrite translate_word_unfold, He.
  destruct (handle_double_set s w) as (l & d & Hs). exists l, d.
  destruct (handle_double s w) as [skip s1]. cbn [fst snd] in *. subst s1. destruct skip; [reflexivity|].
  cbv zeta. destruct (r_err (exec (set_dbl s l d) w next)); reflexivity.
Qed.

Lemma tw_skipped : forall s w next, rp_inv s -> r_err s = None -> fst (handle_double s w) = true ->
  edited (fun a => a) s (translate_word s w next).
Proof.
  intros s w next I He Hd. destruct (tw_core s w next He) as (l & d & HC). rewrite Hd in HC.
  exact (edited_core _ _ s _ s eq_refl HC (conj eq_refl (conj eq_refl I))).
Qed.

(* every word of the alphabet: skipped (second copy of a doubled code), a flush, or an edit of the active buffer *)
Theorem rpb_step : forall s w next, rp_inv s -> rpb_word w = true -> r_err s = None ->
  let s' := translate_word s w next in
  if fst (handle_double s w) then edited (fun a => a) s s'
  else if is_flush w then flush_res s s' else edited (edit_word w) s s'.
Proof.
  intros s w next I Hw He s'. subst s'. destruct (fst (handle_double s w)) eqn:Hd; [exact (tw_skipped s w next I He Hd)|].
  destruct (tw_core s w next He) as (l & d & HC). rewrite Hd in HC.
  assert (Hs : core s = core (set_dbl s l d)) by reflexivity.
  assert (I1 : rp_inv (set_dbl s l d)) by (apply (inv_core _ s); [reflexivity|exact I]).
  pose proof (exec_fine (set_dbl s l d) w next I1 Hw) as R. destruct (is_flush w).
  - exact (flush_res_core _ _ _ _ Hs HC R).
  - exact (edited_core _ _ _ _ _ Hs HC R).
Qed.

(* the extended step, on the RAW text of the active buffer *)
Theorem rpx_step_ext : forall s w next t, rp_inv s -> extended_of w = Some t -> r_err s = None ->
  fst (handle_double s w) = false ->
  let s' := translate_word s w next in
  stash_text (r_stash s') = stash_text (r_stash s) /\ content (buf s') = apply_word w (content (buf s)) /\ rp_inv s'.
Proof.
  intros s w next t I He Hr Hd s'. subst s'.
  assert (Hw : rpx_word w = true) by (unfold rpx_word; rewrite He, orb_true_r; reflexivity).
  pose proof (rpb_step s w next I ltac:(unfold rpb_word; rewrite Hw; reflexivity) Hr) as R. cbv zeta in R.
  destruct (extended_classes w t He) as (Hc & _).
  unfold edit_word in R. rewrite Hd, (not_command_not_flush w Hc), (rpx_not_bs w Hw) in R. exact R.
Qed.

Theorem rpx_step_edm : forall s next, rp_inv s -> r_err s = None ->
  let s' := translate_word s w_edm next in r_err s' = None -> total s' = total s /\ rp_inv s'.
Proof.
  intros s next I Hr s' _. subst s'. destruct edm_facts as (_ & _ & _ & _ & Hx & Hf & Hwc & Hw).
  pose proof (rpb_step s w_edm next I ltac:(unfold rpb_word; rewrite Hw; reflexivity) Hr) as R. cbv zeta in R.
  unfold edit_word in R. rewrite Hf, (rpx_not_bs _ Hw) in R.
  assert (E : edited (fun a => a) s (translate_word s w_edm next)).
  { destruct (fst (handle_double s w_edm)); [exact R|]. revert R. apply edited_ext.
    rewrite apply_word_plain, Hwc by exact Hx. apply app_nil_r. }
  split; [apply (edited_total _ _ _ E)|apply E].
Qed.

(* backspace erases exactly one character of the active buffer (none when it holds no text) *)
Theorem rpx_step_bs : forall s next, rp_inv s -> r_err s = None -> fst (handle_double s w_bs) = false ->
  let s' := translate_word s w_bs next in
  stash_text (r_stash s') = stash_text (r_stash s) /\ content (buf s') = removelast (content (buf s)) /\ rp_inv s'.
Proof.
  intros s next I He Hd s'. subst s'. destruct bs_facts as (_ & Hf & _ & _).
  pose proof (rpb_step s w_bs next I eq_refl He) as R. cbv zeta in R. rewrite Hd, Hf in R. exact R.
Qed.

Lemma interpret_command_content_mid : forall t c w next, wf_nodes (cr_nodes c) ->
  memz w scc_background_color_codes = false -> w <> w_bs ->
  content (snd (fst (interpret_command t c w next))) = content c \/
  content (snd (fst (interpret_command t c w next))) = content c ++ [32].
Proof.
  intros t c w next W Hb Hw. unfold interpret_command. cbv zeta.
  apply Z.eqb_neq in Hw. rewrite Hw, Hb. cbv beta iota.
  set (t1 := update_positioning t c w). clearbody t1.
  match goal with |- content (snd (fst (match ?X with pair _ _ => _ end))) = _ \/ _ => set (X3 := X) end.
  assert (C3 : content (snd X3) = content c /\ wf_nodes (cr_nodes (snd X3))).
  { subst X3. destruct (memz w scc_style_setting_commands); [|split; [reflexivity|exact W]].
    destruct (memz w scc_italics_commands); destruct (cr_style c); try (split; [reflexivity|exact W]);
      destruct (break_required t1); cbn [snd cr_nodes]; (split; [|wf_solve]);
      unfold content; cbn [cr_nodes]; fold (ncontent (cr_nodes c));
      repeat (rewrite ?map_app, ?concat_app); cbn [map concat i_text app]; rewrite ?app_nil_r; reflexivity. }
  clearbody X3. destruct X3 as [t3 c3]. cbn [snd] in C3. destruct C3 as [C3 W3].
  pose proof (prev_text_spec (fun s => s ++ [32]) (cr_nodes c3) W3) as P.
  destruct (prev_text (cr_nodes c3)) as [[txt brk]|]; [|left; exact C3].
  destruct (_ && _); [|left; exact C3]. right. rewrite <- C3.
  destruct P as (pre & H1 & H2 & H3).
  destruct (cr_style c3); try (cbn [snd fst]; unfold content; cbn [cr_nodes];
    fold (ncontent (upd_prev_text (fun s => s ++ [32]) (cr_nodes c3))); fold (ncontent (cr_nodes c3));
    rewrite H3, H1, app_assoc; reflexivity).
  pose proof (add_chars_content t3 c3 [32]) as A. destruct (add_chars t3 c3 [32]) as [t4 c4]. exact A.
Qed.

(* every mid-row code is a command that is neither a preamble address code, a background code, backspace nor one of
   the codes translate_command handles itself: computed over the whole table *)
Lemma midrow_table : forall w, memz w scc_mid_row_codes = true ->
  is_command w = true /\ is_pac w = false /\ memz w scc_background_color_codes = false /\ w <> w_bs /\
  ~ In w [w_rcl; w_ru2; w_ru3; w_ru4; w_rdc; w_edm; w_cr; w_enm; w_eoc].
Proof.
  intros w H. apply memz_In in H.
  pose proof (map_eq_pointwise
    (fun w => (is_command w, is_pac w, memz w scc_background_color_codes, w =? w_bs,
               memz w [w_rcl; w_ru2; w_ru3; w_ru4; w_rdc; w_edm; w_cr; w_enm; w_eoc]))
    (fun _ => (true, false, false, false, false)) scc_mid_row_codes ltac:(vmr) w H) as E.
  split_pairs E. repeat split; try assumption.
  - apply Z.eqb_neq. assumption.
  - apply memz_notIn. assumption.
Qed.

(* a mid-row code leaves the text of the ACTIVE buffer alone or appends one blank to it; nothing is stored.  (The side
   condition "w is not a preamble address code" is not needed: no mid-row code is one, `midrow_table`.) *)
Theorem rpx_step_mid : forall s w next, rp_inv s -> memz w scc_mid_row_codes = true -> r_err s = None ->
  let s' := translate_word s w next in
  stash_text (r_stash s') = stash_text (r_stash s) /\
  (content (buf s') = content (buf s) \/ content (buf s') = content (buf s) ++ [32]) /\
  nonspace (content (buf s')) = nonspace (content (buf s)) /\ rp_inv s'.
Proof.
  intros s w next I Hm He s'. subst s'.
  assert (G : forall X, stash_text (r_stash X) = stash_text (r_stash s) ->
            (content (buf X) = content (buf s) \/ content (buf X) = content (buf s) ++ [32]) -> rp_inv X ->
            stash_text (r_stash X) = stash_text (r_stash s) /\
            (content (buf X) = content (buf s) \/ content (buf X) = content (buf s) ++ [32]) /\
            nonspace (content (buf X)) = nonspace (content (buf s)) /\ rp_inv X).
  { intros X H1 H2 H3. split; [exact H1|split; [exact H2|split; [|exact H3]]].
    destruct H2 as [->| ->]; [reflexivity|]. rewrite nonspace_app. cbn [nonspace filter]. apply app_nil_r. }
  destruct (fst (handle_double s w)) eqn:Hd.
  - destruct (tw_skipped s w next I He Hd) as (H1 & H2 & H3). apply G; [exact H1|left; exact H2|exact H3].
  - destruct (midrow_table w Hm) as (Hc & _ & Hb & Hbs & Hn).
    destruct (tw_core s w next He) as (l & d & HC). rewrite Hd in HC.
    assert (I1 : rp_inv (set_dbl s l d)) by (apply (inv_core _ s); [reflexivity|exact I]).
    destruct (exec_cmd (set_dbl s l d) w next) as [E1 _]; [rewrite Hc; reflexivity|]. rewrite E1, tc_other in HC by exact Hn.
    destruct (edited_core _ s _ _ _ eq_refl HC (do_interpret_fine (set_dbl s l d) w next I1)) as (H1 & H2 & H3).
    apply G; [exact H1| |exact H3]. rewrite H2. change (buf (set_dbl s l d)) with (buf s).
    apply interpret_command_content_mid; [apply inv_wf_buf; exact I|exact Hb|exact Hbs].
Qed.

Definition tracks (s : rstate) (acc : str * str) : Prop :=
  nonspace (stash_text (r_stash s)) = nonspace (fst acc) /\ content (buf s) = snd acc.

Lemma tracks_total : forall s acc, tracks s acc -> total s = nonspace (fst acc ++ snd acc).
Proof. intros s acc [H1 H2]. unfold total. rewrite H1, H2, nonspace_app. reflexivity. Qed.

Lemma rpx_step_tracks : forall s w next acc, rp_inv s -> rpb_word w = true -> r_err s = None -> tracks s acc ->
  tracks (translate_word s w next) (if fst (handle_double s w) then acc else xstep w acc) /\
  rp_inv (translate_word s w next).
Proof.
  intros s w next acc I Hw He Tr. pose proof (rpb_step s w next I Hw He) as R. cbv zeta in R.
  pose proof (tracks_total s acc Tr) as TT. destruct Tr as [T1 T2].
  destruct (fst (handle_double s w)).
  - destruct R as (H1 & H2 & H3). split; [|exact H3]. split; [rewrite H1; exact T1|rewrite H2; exact T2].
  - unfold xstep. destruct (is_flush w).
    + destruct R as (T & C & I'). split; [|exact I']. split; cbn [fst snd]; [|exact C].
      rewrite <- TT, <- T. unfold total. rewrite C. cbn [nonspace filter]. rewrite app_nil_r. reflexivity.
    + destruct R as (H1 & H2 & H3). split; [|exact H3]. split; cbn [fst snd]; [rewrite H1; exact T1|rewrite H2, T2; reflexivity].
Qed.

(* C16 over the wider alphabet (extended characters, Erase-Displayed-Memory, backspace) *)
Theorem rollup_painton_conserved_ext : forall off tc0 w0 ws0 ls caps,
  (w0 = w_ru2 \/ w0 = w_ru3 \/ w0 = w_ru4 \/ w0 = w_rdc) ->
  forallb rpb_word ws0 = true -> forallb (fun l => forallb rpb_word (snd l)) ls = true ->
  read off ((tc0, w0 :: ws0) :: ls) = ROk caps ->
  nonspace (caps_text caps) = nonspace (sentx_text (rstate0 off) ((tc0, w0 :: ws0) :: ls)).
Proof.
  intros off tc0 w0 ws0 ls caps Hw0 Hws0 Hls Hread.
  destruct (enter_fine off tc0 w0 (match ws0 with n :: _ => Some n | [] => None end) Hw0) as (_ & H1 & H2).
  destruct (stream_read (str * str) rpb_word tracks (fun s w acc => if fst (handle_double s w) then acc else xstep w acc)
              sentx sentx_lines (fun a b x H T => conj (eq_trans (f_equal nonspace (core_stash a b H)) (proj1 T))
                                                       (eq_trans (f_equal content (buf_core a b H)) (proj2 T)))
              (fun s w next x I Hw He _ => rpx_step_tracks s w next x I Hw He)
              (fun _ _ => eq_refl) (fun _ _ _ _ => eq_refl) (fun _ _ => eq_refl) (fun _ _ _ _ => eq_refl)
              off tc0 w0 ws0 ls caps ([], []) Hw0 Hws0 Hls Hread) as [TS ->].
  - split; [rewrite H1; reflexivity|exact H2].
  - rewrite (tracks_total _ _ TS). f_equal.
    unfold sentx_text. cbv zeta. cbn [sentx_lines fst snd sentx].
    match goal with |- context [sentx _ ws0 ?q] =>
      assert (X0 : q = ([], [])) by
        (destruct (fst (handle_double _ w0)); [reflexivity|]; destruct Hw0 as [->|[->|[->| ->]]]; reflexivity);
      rewrite X0
    end.
    reflexivity.
Qed.

(* over `rp_word` (SccConserveFacts) there is no edit and `sentx` is plain concatenation *)
Theorem sentx_plain : forall ws s acc, forallb rp_word ws = true ->
  fst (sentx s ws acc) ++ snd (sentx s ws acc) = (fst acc ++ snd acc) ++ sent s ws.
Proof.
  induction ws as [|w t IH]; intros s acc H.
  - cbn [sentx sent]. rewrite app_nil_r. reflexivity.
  - cbn [forallb] in H. apply andb_true_iff in H. destruct H as [Hw Ht].
    cbn [sentx sent]. rewrite IH by exact Ht. rewrite app_assoc. f_equal.
    destruct (fst (handle_double s w)); [rewrite app_nil_r; reflexivity|].
    unfold xstep. destruct (is_flush w) eqn:F; cbn [fst snd].
    + rewrite word_chars_command by (rewrite (is_flush_command w F); reflexivity). rewrite !app_nil_r. reflexivity.
    + unfold edit_word. rewrite rpx_not_bs by (unfold rpx_word; rewrite Hw; reflexivity).
      rewrite apply_word_plain by (apply rp_word_not_ext; exact Hw). rewrite app_assoc. reflexivity.
Qed.

(* the well-formed case: the stand-in is replaced *)
Lemma apply_word_replaces : forall w t pre c, extended_of w = Some t -> is_extended_value c = false ->
  apply_word w (pre ++ [c]) = pre ++ t.
Proof.
  intros w t pre c He Hc. unfold apply_word. rewrite He.
  assert (E : (match pre ++ [c] with [] => true | _ => is_extended_value (last (pre ++ [c]) 0) end) = false).
  { rewrite last_last. destruct (pre ++ [c]) eqn:E; [destruct pre; discriminate|exact Hc]. }
  rewrite E, removelast_last. reflexivity.
Qed.

Lemma apply_word_after_extended : forall w t pre c, extended_of w = Some t -> is_extended_value c = true ->
  apply_word w (pre ++ [c]) = pre ++ [c] ++ t.
Proof.
  intros w t pre c He Hc. unfold apply_word. rewrite He.
  assert (E : (match pre ++ [c] with [] => true | _ => is_extended_value (last (pre ++ [c]) 0) end) = true).
  { rewrite last_last. destruct (pre ++ [c]); [reflexivity|exact Hc]. }
  rewrite E, <- app_assoc. reflexivity.
Qed.

Lemma apply_word_empty : forall w t, extended_of w = Some t -> apply_word w [] = t.
Proof. intros w t He. unfold apply_word. rewrite He. reflexivity. Qed.

(* roll-up 2, carriage return, PAC row 15, "ab": a roll-up state whose active buffer holds "ab" *)
Local Notation ex_enter := (translate_word (set_clock (rstate0 0) (lit "00:00:01:00") 0) w_ru2 (Some w_cr)).
Local Notation ex_state := (translate_words ex_enter [w_cr; 38000; 24930]).

Lemma ex_state_inv : rp_inv ex_state /\ r_err ex_state = None /\ content (buf ex_state) = [97; 98].
Proof.
  assert (E1 : r_err ex_enter = None) by (vm_compute; reflexivity).
  assert (Hfin : r_err ex_state = None) by (vm_compute; reflexivity).
  assert (Hf : forallb rp_word [w_cr; 38000; 24930] = true) by (vm_compute; reflexivity).
  destruct (rp_enter 0 (lit "00:00:01:00") w_ru2 (Some w_cr) ltac:(auto) E1) as [I1 _].
  destruct (rp_words [w_cr; 38000; 24930] _ I1 Hf E1 Hfin) as [_ I].
  split; [exact I|split; [exact Hfin|vm_compute; reflexivity]].
Qed.

(* 0x9220, extended A-acute, replaces the stand-in "b": "ab" -> "aÁ" *)
Example rpx_step_ext_example :
  extended_of 37408 = Some [193] /\ fst (handle_double ex_state 37408) = false /\
  apply_word 37408 [97; 98] = [97; 193] /\
  content (buf (translate_word ex_state 37408 None)) = [97; 193] /\ rp_inv (translate_word ex_state 37408 None).
Proof.
  destruct ex_state_inv as (I & He & C).
  assert (Hx : extended_of 37408 = Some [193]) by (vm_compute; reflexivity).
  assert (Hd : fst (handle_double ex_state 37408) = false) by (vm_compute; reflexivity).
  destruct (rpx_step_ext ex_state 37408 None [193] I Hx He Hd) as (_ & C' & I').
  split; [exact Hx|split; [exact Hd|split; [vm_compute; reflexivity|split; [|exact I']]]].
  rewrite C', C. vm_compute. reflexivity.
Qed.

Example rpx_step_bs_example :
  fst (handle_double ex_state w_bs) = false /\ content (buf (translate_word ex_state w_bs None)) = [97].
Proof.
  destruct ex_state_inv as (I & He & C).
  assert (Hd : fst (handle_double ex_state w_bs) = false) by (vm_compute; reflexivity).
  destruct (rpx_step_bs ex_state None I He Hd) as (_ & C' & _). split; [exact Hd|]. rewrite C', C. reflexivity.
Qed.

(* 0x9120, mid-row "white": appends a blank here; and that blank - not the "b" - is what a following extended character
   erases, which is why mid-row codes are kept out of the stream theorem *)
Example rpx_step_mid_example :
  memz 37152 scc_mid_row_codes = true /\
  content (buf (translate_word ex_state 37152 None)) = [97; 98; 32] /\
  content (buf (translate_word (translate_word ex_state 37152 (Some 37408)) 37408 None)) = [97; 98; 193].
Proof. repeat split; vm_compute; reflexivity. Qed.

(* why the extended step is stated on the raw text: `nonspace` does not commute with the implicit backspace *)
Example ext_step_not_on_total :
  nonspace (apply_word 37408 [97; 32]) = [97; 193] /\ apply_word 37408 (nonspace [97; 32]) = [193].
Proof. split; vm_compute; reflexivity. Qed.

(* a whole stream: "ab", extended (doubled: counted once) replaces "b"; carriage return; on the next line an extended
   character right after the flush finds nothing to erase; "ab", backspace (doubled: erases once),
   Erase-Displayed-Memory (no effect), "a" + blank, extended: erases the blank *)
Definition ex_lines : list sline :=
  [(lit "00:00:01:00", [w_ru2; w_cr; 38000; 24930; 37408; 37408; w_cr]);
   (lit "00:00:03:00", [38000; 37408; 24930; w_bs; w_bs; w_edm; 24864; 37408])].

Example rollup_painton_conserved_ext_example :
  exists caps, read 0 ex_lines = ROk caps /\
    forallb (fun l => forallb rpb_word (snd l)) ex_lines = true /\
    forallb (fun l => forallb rp_word (snd l)) ex_lines = false /\
    sentx_lines (rstate0 0) ex_lines ([], []) = ([97; 193], [193; 97; 97; 193]) /\
    nonspace (caps_text caps) = [97; 193; 193; 97; 97; 193].
Proof.
  destruct (read 0 ex_lines) as [caps| |] eqn:E; try (vm_compute in E; discriminate E).
  exists caps. split; [reflexivity|]. split; [vm_compute; reflexivity|]. split; [vm_compute; reflexivity|].
  split; [vm_compute; reflexivity|].
  rewrite (rollup_painton_conserved_ext 0 (lit "00:00:01:00") w_ru2 [w_cr; 38000; 24930; 37408; 37408; w_cr]
             [(lit "00:00:03:00", [38000; 37408; 24930; w_bs; w_bs; w_edm; 24864; 37408])] caps);
    [vm_compute; reflexivity|auto|vm_compute; reflexivity|vm_compute; reflexivity|exact E].
Qed.
