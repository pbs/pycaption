(* C12: alignment names printed by the writer read back as the same enum members, absent parts as start / after. *)
From Coq Require Import List ZArith.
From PV Require Import lib.Str lib.StrFacts model.Geometry model.DfxpAlign.
From PV Require Import proofs.GeomStr.
Import ListNotations.
Open Scope Z_scope.

Theorem halign_name_roundtrip : forall h, halign_of_name (halign_name h) = Some h.
Proof. intros []; vm_compute; reflexivity. Qed.
Theorem valign_name_roundtrip : forall v, valign_of_name (valign_name v) = Some v.
Proof. intros []; vm_compute; reflexivity. Qed.

Lemma str_eqb_case : forall {A} s l (x : A) rest y,
  (if str_eqb s l then Some x else rest) = Some y -> s = l /\ x = y \/ rest = Some y.
Proof.
  intros A s l x rest y H. destruct (str_eqb s l) eqn:E; [left|right; exact H].
  apply str_eqb_eq in E. injection H as H. split; assumption.
Qed.

(* the names are exactly the five / three of TTML: any other string gives no component *)
Theorem halign_of_name_some : forall s h, halign_of_name s = Some h -> s = halign_name h.
Proof.
  intros s h H. unfold halign_of_name in H.
  repeat (apply str_eqb_case in H; destruct H as [[-> <-]|H]; [reflexivity|]). discriminate.
Qed.
Theorem valign_of_name_some : forall s v, valign_of_name s = Some v -> s = valign_name v.
Proof.
  intros s v H. unfold valign_of_name in H.
  repeat (apply str_eqb_case in H; destruct H as [[-> <-]|H]; [reflexivity|]). discriminate.
Qed.

(* a printed component, or the default name in place of an absent one, reads back as the member it stands for *)
Lemma read_halign_written : forall o,
  halign_of_name (or_default (option_map halign_name o) (lit "start")) = Some (match o with Some h => h | None => HStart end).
Proof. intros [[]|]; reflexivity. Qed.
Lemma read_valign_written : forall o,
  valign_of_name (or_default (option_map valign_name o) (lit "after")) = Some (match o with Some v => v | None => VBottom end).
Proof. intros [[]|]; reflexivity. Qed.

(* write then read, at string level: every alignment (any of the 6 x 4 combinations of set / unset components, or no
   Alignment object at all) comes back with its own members, the unset ones as start / after - what read_region assumes *)
Theorem alignment_strings_roundtrip : forall a,
  read_alignment (fst (written_alignment a)) (snd (written_alignment a))
  = Some (mkAlign (Some (match a with Some al => match al_h al with Some h => h | None => HStart end | None => HStart end))
                  (Some (match a with Some al => match al_v al with Some v => v | None => VBottom end | None => VBottom end))).
Proof.
  intros a. unfold read_alignment, written_alignment. cbn [fst snd]. rewrite read_halign_written, read_valign_written.
  destruct a as [[h v]|]; reflexivity.
Qed.

(* the reader's defaults: nothing found (or an empty attribute) is start / after *)
Theorem read_alignment_defaults :
  read_alignment None None = Some (mkAlign (Some HStart) (Some VBottom))
  /\ read_alignment (Some []) (Some []) = Some (mkAlign (Some HStart) (Some VBottom)).
Proof. split; reflexivity. Qed.
