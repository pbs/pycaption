(* C06 end to end for stage 1 of the pop-on refinement (proofs/SccPoponStage1.v): a single load of one row of basic characters followed
   by an Erase-Displayed-Memory line is read as one caption that starts at the exact instant its End-Of-Caption word
   is transmitted and ends at the exact instant of the EDM word (well-formed timecodes, any offset, single/doubled). *)
From Coq Require Import List ZArith QArith Lia.
From PV Require Import lib.Sx lib.Str lib.Result model.GenScc model.SccLen model.SccTime model.SccStash model.SccDecoder.
From PV Require Import spec.Spec608 spec.SpecScc05 spec.SpecSccTime spec.SpecSccLen.
From PV Require Import proofs.SccTimeFacts proofs.SccPoponStage1.
Import ListNotations.
Open Scope Z_scope.

Theorem popon_single_load_times : forall d r off tcA tcB,
  basic_row r = true -> tc_wf tcA = true -> tc_wf tcB = true ->
  let k := Z.of_nat (length (emit_load d [r])) - (if d then 2 else 1) in
  exists t1 t2, (t1 == spec_instant tcA k off)%Q /\ (t2 == spec_instant tcB 0 off)%Q /\
    (Qeq_bool t2 0 = false -> is_flash (mkPre t1 t2 [] None) = false ->
     read off [(render_tc tcA, emit_load d [r]); (render_tc tcB, emit_clear d)] =
     ROk [mkPre t1 t2 [CText (row_text r) (row_pos r)] (Some (row_pos r))]).
Proof.
  intros d r off tcA tcB Hr HA HB k.
  destruct (get_time_exact tcA k off HA (emit_load_room d [r])) as [t1 [G1 E1]].
  destruct (get_time_exact tcB 0 off HB ltac:(lia)) as [t2 [G2 E2]].
  exists t1, t2. split; [exact E1|]. split; [exact E2|].
  intros Hz Hf. exact (popon_stage1_read d r off (render_tc tcA) (render_tc tcB) t1 t2 Hr G1 G2 Hz Hf).
Qed.
