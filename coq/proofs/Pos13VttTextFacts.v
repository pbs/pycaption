(* C13: "WebVTT output never contains a non-percentage length" at the level of the printed text. *)
From Coq Require Import List ZArith Qabs.
From PV Require Import lib.Sx lib.Str lib.Result model.Geometry model.Positioning model.DfxpAlign model.VttText spec.SpecGeom spec.SpecPos.
From PV Require Import proofs.GeomEq proofs.GeomPrint proofs.PosFacts.
Import ListNotations.
Open Scope Z_scope.

(* digits, optionally a point and one or two digits, then the percent sign *)
Definition pct_text (t : str) : Prop :=
  exists ip fp, t = dotted ip fp ++ lit "%" /\ all_digits ip = true /\ (fp = [] \/ all_digits fp = true) /\ (length fp <= 2)%nat.

Definition vs_nonneg (v : vtt_settings) : Prop :=
  forall z, In (Some z) [vs_position v; vs_line v; vs_size v] -> (0 <= s_val z)%Q.

Lemma pct_size_text : forall z, s_unit z = PCT -> (0 <= s_val z)%Q -> pct_text (size_str z).
Proof.
  intros z U N. destruct (size_str_shape z N) as (ip & fp & H1 & H2 & H3 & _ & _ & H6 & _).
  exists ip, fp. rewrite H1, U. repeat split; assumption.
Qed.

Lemma vs_pct_unit : forall v z, vs_all_pct v = true -> In (Some z) [vs_position v; vs_line v; vs_size v] -> s_unit z = PCT.
Proof.
  intros v z P Hz. rewrite vs_all_pct_opt in P. apply andb_true_iff in P. destruct P as [P P3]. apply andb_true_iff in P. destruct P as [P1 P2].
  apply unit_eqb_eq. destruct Hz as [Hz|[Hz|[Hz|[]]]]; rewrite Hz in *; assumption.
Qed.

(* every length of computed cue settings is printed as a number followed by "%" - whatever the configuration *)
Theorem vtt_text_percent : forall c lo v, vtt_convert_positioning c lo = Ok (VSet v) -> vs_nonneg v ->
  forall z, In (Some z) [vs_position v; vs_line v; vs_size v] -> pct_text (size_str z).
Proof.
  intros c lo v H N z Hz. apply pct_size_text; [|exact (N z Hz)].
  exact (vs_pct_unit v z (vtt_only_percent c lo (VSet v) H) Hz).
Qed.

(* the printed string itself: optional align part, then for each of position / line / size either nothing (absent) or the
   key followed by a number and "%" *)
Definition setting_pct (key : str) (o : option size) (t : str) : Prop :=
  (o = None /\ t = []) \/ (exists z, o = Some z /\ t = key ++ size_str z /\ pct_text (size_str z)).

Theorem vtt_settings_text_percent : forall c lo v, vtt_convert_positioning c lo = Ok (VSet v) -> vs_nonneg v ->
  exists t1 t2 t3,
    vtt_settings_text (VSet v)
    = (match vs_align v with Some h => lit " align:" ++ halign_name h | None => [] end) ++ t1 ++ t2 ++ t3
    /\ setting_pct (lit " position:") (vs_position v) t1 /\ setting_pct (lit " line:") (vs_line v) t2
    /\ setting_pct (lit " size:") (vs_size v) t3.
Proof.
  intros c lo v H N. pose proof (vtt_text_percent c lo v H N) as P.
  exists (setting_text (lit " position:") (vs_position v)), (setting_text (lit " line:") (vs_line v)),
         (setting_text (lit " size:") (vs_size v)).
  split; [reflexivity|].
  assert (A : forall key o, In o [vs_position v; vs_line v; vs_size v] -> setting_pct key o (setting_text key o)).
  { intros key [z|] Ho; [right; exists z; repeat split; apply P; exact Ho|left; split; reflexivity]. }
  repeat split; apply A; cbn [In]; auto.
Qed.

(* and the text is made of exactly those pieces *)
Theorem vtt_text_shape : forall v,
  vtt_settings_text (VSet v)
  = (match vs_align v with Some h => lit " align:" ++ halign_name h | None => [] end)
    ++ setting_text (lit " position:") (vs_position v) ++ setting_text (lit " line:") (vs_line v)
    ++ setting_text (lit " size:") (vs_size v).
Proof. reflexivity. Qed.
