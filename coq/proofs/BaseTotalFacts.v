(* C19: merge_concurrent_captions WITHOUT the hypothesis nodes_nonempty.  Exactly which inputs the code rejects
   (spec/SpecBase.v merge_accepts: no maximal run consists only of captions without nodes), what it returns on every
   accepted input (spec_merge_gen), and the error branch; plus laws of merge: text in order is preserved, merge
   commutes with adjust for a non-zero skew. *)
From Coq Require Import List ZArith QArith Qabs Bool Lia.
From PV Require Import lib.Sx lib.Result lib.ResultFacts model.Base spec.SpecBase proofs.BaseFacts.
Import ListNotations.

Lemma merge_nodes_gen : forall cs, merge_nodes cs = join_nodes_gen (map c_nodes cs).
Proof.
  unfold merge_nodes, join_nodes_gen. induction cs as [|c t IH]; [reflexivity|].
  cbn [fold_left map app]. destruct (c_nodes c) as [|n ns] eqn:E; cbn [drop_empty]; [exact IH|].
  apply merge_nodes_fold. discriminate.
Qed.

Lemma join_nodes_gen_nil : forall cs,
  forallb no_nodes cs = match join_nodes_gen (map c_nodes cs) with [] => true | _ => false end.
Proof.
  unfold join_nodes_gen. induction cs as [|c t IH]; [reflexivity|].
  cbn [forallb map]. unfold no_nodes at 1. destruct (c_nodes c) as [|n ns]; cbn [drop_empty andb]; [exact IH|].
  rewrite join_nodes_concat. reflexivity.
Qed.

Definition merge_run (r : caption * list caption) : result caption :=
  if run_rejected r then Err ENodeListEmpty else Ok (join_run_gen r).

Lemma merge_caps_gen : forall c cs, merge_caps (c :: cs) = merge_run (c, cs).
Proof.
  intros c cs. unfold merge_caps, merge_run, run_rejected, join_run_gen, run_caps. cbn [fst snd].
  rewrite merge_nodes_gen, join_nodes_gen_nil.
  destruct (join_nodes_gen (map c_nodes (c :: cs))); reflexivity.
Qed.

Lemma merge_loop_gen : forall caps c0 cs l merged,
  last (c0 :: cs) c0 = l ->
  (forall x, In x cs -> span_eqb x c0 = true) ->
  finish (merge_loop caps (Some l) (c0 :: cs) merged)
  = do js <- res_map merge_run (runs (c0 :: cs ++ caps)); Ok (merged ++ js).
Proof.
  intros caps c0 cs l merged Hl Hall. apply (merge_loop_runs merge_run merge_caps_gen); [|exact Hall].
  subst l. destruct (last_in _ c0 cs c0) as [<-|H]; [apply span_refl|apply Hall; exact H].
Qed.

Theorem merge_lang_gen : forall caps, merge_lang caps = res_map merge_run (runs caps).
Proof. exact (merge_lang_runs merge_run merge_caps_gen). Qed.

Lemma merge_lang_cases : forall caps,
  merge_lang caps = if merge_accepts caps then Ok (spec_merge_gen caps) else Err ENodeListEmpty.
Proof.
  intros caps. rewrite merge_lang_gen. apply res_map_guard.
  intros r. unfold merge_run. destruct (run_rejected r); reflexivity.
Qed.

(* accepted inputs: never raises, and returns the joined maximal runs *)
Theorem merge_lang_accepted : forall caps, merge_accepts caps = true -> merge_lang caps = Ok (spec_merge_gen caps).
Proof. intros caps H. rewrite merge_lang_cases, H. reflexivity. Qed.

(* the error branch: every other input is refused with Caption()'s error *)
Theorem merge_lang_rejected : forall caps, merge_accepts caps = false -> merge_lang caps = Err ENodeListEmpty.
Proof. intros caps H. rewrite merge_lang_cases, H. reflexivity. Qed.

Theorem merge_lang_raises_iff : forall caps, (exists e, merge_lang caps = Err e) <-> merge_accepts caps = false.
Proof.
  intros caps. rewrite merge_lang_cases. destruct (merge_accepts caps).
  - split; [intros [e H]|intros H]; discriminate.
  - split; [reflexivity|eauto].
Qed.

Lemma merge_lang_ok : forall caps m, merge_lang caps = Ok m -> merge_accepts caps = true /\ m = spec_merge_gen caps.
Proof.
  intros caps m H. rewrite merge_lang_cases in H. destruct (merge_accepts caps); [|discriminate].
  injection H as <-. split; reflexivity.
Qed.

(* the domain of the statement lies inside the accepted inputs, and there the general join is the statement's join *)
Lemma runs_heads_nonempty : forall caps r, nodes_nonempty caps = true -> In r (runs caps) -> no_nodes (fst r) = false.
Proof.
  intros caps r H Hr. pose proof (nodes_nonempty_in caps _ H (runs_heads_in caps r Hr)) as Hn.
  unfold no_nodes. destruct (c_nodes (fst r)); [congruence|reflexivity].
Qed.

Theorem nodes_nonempty_accepted : forall caps, nodes_nonempty caps = true -> merge_accepts caps = true.
Proof.
  intros caps H. unfold merge_accepts. apply forallb_forall. intros r Hr. apply negb_true_iff.
  unfold run_rejected, run_caps. cbn [forallb]. rewrite (runs_heads_nonempty caps r H Hr). reflexivity.
Qed.

Lemma join_run_gen_eq : forall r, no_nodes (fst r) = false -> join_run_gen r = join_run r.
Proof.
  intros [c cs] H. unfold join_run_gen, join_run, run_caps, join_nodes_gen. cbn [fst snd map] in *.
  unfold no_nodes in H. destruct (c_nodes c); [discriminate|]. reflexivity.
Qed.

Theorem spec_merge_gen_eq : forall caps, nodes_nonempty caps = true -> spec_merge_gen caps = spec_merge_lang caps.
Proof.
  intros caps H. unfold spec_merge_gen, spec_merge_lang. apply map_ext_in. intros r Hr.
  apply join_run_gen_eq. apply (runs_heads_nonempty caps r H Hr).
Qed.

Lemma merge_concurrent_cases : forall langs,
  merge_concurrent langs = if forallb merge_accepts langs then Ok (map spec_merge_gen langs) else Err ENodeListEmpty.
Proof. intros langs. apply res_map_guard. exact merge_lang_cases. Qed.

Theorem merge_concurrent_accepted : forall langs, forallb merge_accepts langs = true ->
  merge_concurrent langs = Ok (map spec_merge_gen langs).
Proof. intros langs H. rewrite merge_concurrent_cases, H. reflexivity. Qed.

Theorem merge_concurrent_rejected : forall langs, forallb merge_accepts langs = false ->
  merge_concurrent langs = Err ENodeListEmpty.
Proof. intros langs H. rewrite merge_concurrent_cases, H. reflexivity. Qed.

Lemma join_run_gen_single : forall c, join_run_gen (c, []) = c.
Proof.
  intros [s e n]. unfold join_run_gen, run_caps, join_nodes_gen. cbn [fst snd map c_nodes c_start c_end].
  destruct n; reflexivity.
Qed.

Lemma runs_of_merged : forall caps, runs (spec_merge_gen caps) = map (fun r => (join_run_gen r, [])) (runs caps).
Proof. intros caps. apply (runs_of_mapped join_run_gen (fun r c => eq_refl)). apply runs_adjacent_distinct. Qed.

(* merging again changes nothing: on the joined runs themselves ... *)
Theorem merge_gen_idempotent : forall caps, spec_merge_gen (spec_merge_gen caps) = spec_merge_gen caps.
Proof.
  intros caps. unfold spec_merge_gen at 1. rewrite runs_of_merged, map_map. unfold spec_merge_gen.
  apply map_ext. intros r. apply join_run_gen_single.
Qed.

Lemma merged_accepted : forall caps, merge_accepts caps = true -> merge_accepts (spec_merge_gen caps) = true.
Proof.
  intros caps H. unfold merge_accepts in *. rewrite runs_of_merged, forallb_forall in *. intros r' Hr'.
  apply in_map_iff in Hr'. destruct Hr' as [r [<- Hr]]. rewrite <- (H r Hr). f_equal.
  unfold run_rejected at 1. cbn [run_caps fst snd forallb]. rewrite andb_true_r.
  unfold run_rejected. rewrite join_nodes_gen_nil. reflexivity.
Qed.

(* ... and for the function: every accepted input is accepted again and returned unchanged *)
Theorem merge_lang_idempotent_gen : forall caps m, merge_lang caps = Ok m -> merge_lang m = Ok m.
Proof.
  intros caps m H. destruct (merge_lang_ok caps m H) as [A ->].
  rewrite (merge_lang_accepted _ (merged_accepted caps A)), merge_gen_idempotent. reflexivity.
Qed.

(* text in order: the node values of a language, line breaks left out, are unchanged by merge *)
Definition nb (n : Z) : bool := negb (Z.eqb n brk).

Lemma filter_concat : forall (A : Type) (p : A -> bool) ls, filter p (concat ls) = concat (map (filter p) ls).
Proof. intros A p ls. symmetry. apply concat_filter_map. Qed.

Lemma join_nodes_text : forall f o, filter nb (join_nodes f o) = filter nb (concat (f :: o)).
Proof.
  intros f o. revert f. induction o as [|x t IH]; intros f.
  - cbn. rewrite app_nil_r. reflexivity.
  - cbn [join_nodes concat]. rewrite !filter_app. cbn [filter]. change (nb brk) with false. cbv iota.
    rewrite IH. cbn [concat]. rewrite filter_app. reflexivity.
Qed.

Lemma join_nodes_gen_text : forall ls, filter nb (join_nodes_gen ls) = filter nb (concat ls).
Proof.
  unfold join_nodes_gen. induction ls as [|l t IH]; [reflexivity|].
  destruct l as [|x l']; [cbn [drop_empty concat app]; exact IH|].
  cbn [drop_empty]. apply join_nodes_text.
Qed.

Lemma runs_text : forall R,
  filter nb (concat (map c_nodes (map join_run_gen R))) = filter nb (concat (map c_nodes (concat (map run_caps R)))).
Proof.
  induction R as [|r t IH]; [reflexivity|].
  cbn [map concat]. rewrite map_app, concat_app, !filter_app, IH. f_equal.
  unfold join_run_gen. cbn [c_nodes]. apply join_nodes_gen_text.
Qed.

Theorem merge_keeps_text : forall caps, lang_text (spec_merge_gen caps) = lang_text caps.
Proof.
  intros caps. unfold lang_text. fold nb.
  rewrite <- (runs_partition caps) at 2. unfold spec_merge_gen. apply runs_text.
Qed.

Theorem merge_lang_keeps_text : forall caps m, merge_lang caps = Ok m -> lang_text m = lang_text caps.
Proof. intros caps m H. destruct (merge_lang_ok caps m H) as [_ ->]. apply merge_keeps_text. Qed.

(* the merged list is a function of the ORDERED input only: concatenating the members of the runs gives the input back
   (runs_partition), and the result has one caption per run, in the order of the runs' first members *)
Theorem merge_heads_in_order : forall caps,
  map (fun c => (c_start c, c_end c)) (spec_merge_gen caps) = map (fun r => (c_start (fst r), c_end (fst r))) (runs caps).
Proof. intros caps. unfold spec_merge_gen. rewrite map_map. reflexivity. Qed.

Lemma Qeq_bool_affine : forall sk off a b, ~ sk == 0 ->
  Qeq_bool (Qred (a * sk + off)) (Qred (b * sk + off)) = Qeq_bool a b.
Proof.
  intros sk off a b Hsk. apply eq_true_iff_eq. rewrite !Qeq_bool_iff, !Qred_correct. split; intros H.
  - apply Qplus_inj_r in H. apply (Qmult_inj_r a b sk Hsk). exact H.
  - rewrite H. reflexivity.
Qed.

Lemma retime_span : forall sk off a b, ~ sk == 0 -> span_eqb (retime sk off a) (retime sk off b) = span_eqb a b.
Proof.
  intros sk off a b Hsk. unfold span_eqb, retime. cbn [c_start c_end]. rewrite !Qeq_bool_affine by exact Hsk. reflexivity.
Qed.

Definition retime_run (sk off : Q) (r : caption * list caption) : caption * list caption :=
  (retime sk off (fst r), map (retime sk off) (snd r)).

Lemma runs_retime : forall sk off caps, ~ sk == 0 ->
  runs (map (retime sk off) caps) = map (retime_run sk off) (runs caps).
Proof.
  intros sk off caps Hsk. induction caps as [|c t IH]; [reflexivity|].
  cbn [map runs]. rewrite IH. destruct (runs t) as [|[d ds] rest]; [reflexivity|].
  cbn [map]. unfold retime_run at 1. cbn [fst snd]. rewrite retime_span by exact Hsk.
  destruct (span_eqb c d); reflexivity.
Qed.

Lemma join_run_gen_retime : forall sk off r, join_run_gen (retime_run sk off r) = retime sk off (join_run_gen r).
Proof.
  intros sk off [c cs]. unfold join_run_gen, retime_run, run_caps, retime. cbn [fst snd c_start c_end c_nodes map].
  rewrite map_map. reflexivity.
Qed.

Lemma adjust_lang_kept : forall sk off caps, forallb (survives sk off) caps = true ->
  adjust_lang sk off caps = map (retime sk off) caps.
Proof.
  intros sk off caps H. rewrite adjust_lang_filter_map.
  induction caps as [|c t IH]; [reflexivity|]. cbn [forallb] in H. apply andb_true_iff in H. destruct H as [Hc Ht].
  cbn [map filter]. unfold survives in Hc.
  rewrite (Qle_bool_comp _ _ (proj1 (retime_affine sk off c))), Hc, (IH Ht). reflexivity.
Qed.

Lemma merged_survive : forall sk off caps, forallb (survives sk off) caps = true ->
  forallb (survives sk off) (spec_merge_gen caps) = true.
Proof.
  intros sk off caps H. rewrite forallb_forall in *. intros m Hm. unfold spec_merge_gen in Hm.
  apply in_map_iff in Hm. destruct Hm as [r [<- Hr]]. apply (H (fst r)). apply (runs_heads_in caps r Hr).
Qed.

Theorem merge_adjust_commute : forall sk off caps, ~ sk == 0 -> forallb (survives sk off) caps = true ->
  spec_merge_gen (adjust_lang sk off caps) = adjust_lang sk off (spec_merge_gen caps).
Proof.
  intros sk off caps Hsk H.
  rewrite (adjust_lang_kept _ _ _ H), (adjust_lang_kept _ _ _ (merged_survive _ _ _ H)).
  unfold spec_merge_gen. rewrite runs_retime by exact Hsk. rewrite !map_map. apply map_ext. intros r.
  apply join_run_gen_retime.
Qed.

Lemma forallb_map' : forall (A B : Type) (f : A -> B) (p : B -> bool) l,
  forallb p (map f l) = forallb (fun x => p (f x)) l.
Proof. intros A B f p. induction l as [|x t IH]; [reflexivity|]. cbn [map forallb]. rewrite IH. reflexivity. Qed.

Lemma rejected_retime : forall sk off r, run_rejected (retime_run sk off r) = run_rejected r.
Proof.
  intros sk off [c cs]. unfold run_rejected, retime_run, run_caps. cbn [fst snd forallb].
  rewrite forallb_map'. reflexivity.
Qed.

Lemma accepts_retime : forall sk off caps, ~ sk == 0 ->
  merge_accepts (map (retime sk off) caps) = merge_accepts caps.
Proof.
  intros sk off caps Hsk. unfold merge_accepts. rewrite runs_retime by exact Hsk. rewrite forallb_map'.
  induction (runs caps) as [|r t IH]; [reflexivity|]. cbn [forallb]. rewrite rejected_retime, IH. reflexivity.
Qed.

Theorem merge_lang_adjust_commute : forall sk off caps m, ~ sk == 0 -> forallb (survives sk off) caps = true ->
  merge_lang caps = Ok m -> merge_lang (adjust_lang sk off caps) = Ok (adjust_lang sk off m).
Proof.
  intros sk off caps m Hsk H Hm. destruct (merge_lang_ok caps m Hm) as [A ->].
  rewrite <- (merge_adjust_commute sk off caps Hsk H). apply merge_lang_accepted.
  rewrite (adjust_lang_kept _ _ _ H), accepts_retime by exact Hsk. exact A.
Qed.
