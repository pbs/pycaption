(* C07: whole-document consistency of the writer traversal model (model/DfxpDoc.v): every style= and
   region= reference resolves to exactly one definition, ids are unique, every region defined is referenced - in the
   very terms of the oracle ok_refs; and the attribute dictionary of a span is fit for a start tag. *)
From Coq Require Import List ZArith Lia Bool.
From PV Require Import lib.Sx lib.Str model.DfxpXml model.DfxpRegion model.DfxpDoc spec.SpecXmlAttr.
From PV Require Import lib.Dec proofs.SccwStr proofs.DfxpRegionFacts proofs.DfxpPayloadFacts.
Import ListNotations.
Open Scope Z_scope.

Lemma nodup_str_NoDup : forall l, NoDup l -> nodup_str l = true.
Proof.
  induction l as [|x t IH]; intros N; [reflexivity|]. inversion N; subst. cbn [nodup_str]. rewrite IH by assumption.
  destruct (existsb (str_eqb x) t) eqn:E; [apply existsb_str_In in E; contradiction|reflexivity].
Qed.
Lemma count_str_one : forall x l, NoDup l -> In x l -> count_str x l = 1%nat.
Proof.
  unfold count_str. induction l as [|y t IH]; intros N H; [destruct H|]. inversion N as [|? ? Ny Nt]; subst. cbn [filter].
  destruct (str_eqb x y) eqn:E.
  - apply str_eqb_eq in E. subst y. destruct (filter (str_eqb x) t) as [|z r] eqn:F; [reflexivity|].
    assert (Hz : In z (filter (str_eqb x) t)) by (rewrite F; left; reflexivity).
    apply filter_In in Hz. destruct Hz as [Hz Ez]. apply str_eqb_eq in Ez. subst z. contradiction.
  - destruct H as [->|H]; [rewrite str_eqb_refl in E; discriminate|]. exact (IH Nt H).
Qed.
Lemma refs_counted_once : forall defs refs, NoDup defs -> (forall r, In r refs -> In r defs) ->
  forallb (fun r => Nat.eqb (count_str r defs) 1) refs = true.
Proof. intros defs refs N H. apply forallb_forall. intros r Hr. apply Nat.eqb_eq. apply count_str_one; [exact N|apply H; exact Hr]. Qed.
Lemma NoDup_app_disjoint : forall (a b : list str), NoDup a -> NoDup b -> (forall x, In x a -> ~ In x b) -> NoDup (a ++ b).
Proof.
  induction a as [|x a IH]; intros b Na Nb D; [exact Nb|]. inversion Na; subst. cbn [app]. constructor.
  - rewrite in_app_iff. intros [C|C]; [contradiction|]. apply (D x); [left; reflexivity|exact C].
  - apply IH; [assumption|assumption|]. intros y Hy. apply D. right. exact Hy.
Qed.

(* the ids written stay distinct; every style= written in the head refers to a style written before *)
Lemma lookup_style_written : forall content written c,
  lookup (lit "style") (recreate_style content written) = Some c -> In c written.
Proof. intros content written c L. apply lookup_In, style_refs_resolve, existsb_str_In in L. exact L. Qed.

Lemma style_fold : forall styles written refs written' refs',
  fold_left style_step styles (written, refs) = (written', refs') ->
  NoDup (written ++ map fst styles) -> (forall r, In r refs -> In r written) ->
  NoDup written' /\ (forall r, In r refs' -> In r written').
Proof.
  induction styles as [|[id content] t IH]; intros written refs written' refs' H N R; cbn [fold_left] in H.
  - inversion H; subst. rewrite app_nil_r in N. split; assumption.
  - cbn [map fst] in N. unfold style_step at 2 in H. cbn [fst snd] in H.
    pose proof (NoDup_remove_1 _ _ _ N) as Skip.
    destruct content as [|kv content']; [exact (IH _ _ _ _ H Skip R)|].
    destruct (recreate_style (kv :: content') written) as [|a attrs] eqn:A; [exact (IH _ _ _ _ H Skip R)|].
    apply (IH _ _ _ _ H); [rewrite <- app_assoc; exact N|].
    intros r Hr. apply in_app_iff. left. apply in_app_iff in Hr. destruct Hr as [Hr|Hr]; [apply R; exact Hr|].
    destruct (lookup (lit "style") (a :: attrs)) as [c|] eqn:L; [|destruct Hr].
    destruct Hr as [<-|[]]. rewrite <- A in L. exact (lookup_style_written _ _ _ L).
Qed.

Lemma styling_spec : forall styles written refs, NoDup (map fst styles) -> styling styles = (written, refs) ->
  NoDup written /\ (forall r, In r refs -> In r written).
Proof.
  intros styles written refs N H. unfold styling in H. destruct styles as [|s t].
  - inversion H; subst. split; [repeat constructor; intros []|intros r []].
  - exact (style_fold _ [] [] _ _ H N (fun r (F : In r []) => match F with end)).
Qed.

Lemma body_refs_written : forall written d r, In r (body_style_refs written d) -> In r written.
Proof.
  intros written d r H. unfold body_style_refs in H. apply in_flat_map in H. destruct H as [l [_ H]].
  apply in_flat_map in H. destruct H as [c [_ H]]. apply in_app_iff in H. destruct H as [H|H].
  - unfold p_style_ref in H.
    destruct (lookup (lit "style") (recreate_style _ written)) as [cl|] eqn:L.
    + destruct H as [<-|[]]. eapply lookup_style_written; eauto.
    + destruct (existsb (str_eqb (lit "p")) written) eqn:E; [|destruct H]. destruct H as [<-|[]].
      apply existsb_exists in E. destruct E as [y [Hy Ey]]. apply str_eqb_eq in Ey. subst. exact Hy.
  - unfold span_style_refs in H. apply in_flat_map in H. destruct H as [n [_ H]].
    destruct (rn_span (dn_r n)); [|destruct H].
    destruct (lookup (lit "style") (recreate_style (dn_content n) written)) as [cl|] eqn:L; [|destruct H].
    destruct H as [<-|[]]. eapply lookup_style_written; eauto.
Qed.

Lemma region_id_str_inj : forall a b, -1 <= a -> -1 <= b -> region_id_str a = region_id_str b -> a = b.
Proof.
  intros a b Ha Hb H. unfold region_id_str in H.
  destruct (a <? 0) eqn:Ea; destruct (b <? 0) eqn:Eb; try lia; try discriminate.
  inversion H as [H']. destruct (dec_nonneg_spec a ltac:(lia)) as (_ & Da & _). destruct (dec_nonneg_spec b ltac:(lia)) as (_ & Db & _).
  rewrite <- Da, <- Db, H'. reflexivity.
Qed.
Lemma defined_ge : forall cs x, In x (defined cs) -> -1 <= x.
Proof.
  intros cs x H. apply filter_In in H. destruct H as [[<-|H] _]; [unfold default_id; lia|]. apply create_ids_ge in H. lia.
Qed.

Lemma NoDup_map_inj : forall (l : list Z), (forall x, In x l -> -1 <= x) -> NoDup l -> NoDup (map region_id_str l).
Proof.
  induction l as [|x t IH]; intros G N; [constructor|]. inversion N; subst. cbn [map]. constructor.
  - intros C. apply in_map_iff in C. destruct C as [y [E Hy]]. apply region_id_str_inj in E; [subst; contradiction| |];
      [apply G; right; exact Hy|apply G; left; reflexivity].
  - apply IH; [intros y Hy; apply G; right; exact Hy|assumption].
Qed.

(* what ok_refs asks of a document whose ids are the style ids followed by the region ids *)
Lemma ok_refs_resolved : forall sids rids srefs rrefs, NoDup sids -> NoDup rids -> (forall x, In x sids -> ~ In x rids) ->
  (forall r, In r srefs -> In r sids) -> (forall r, In r rrefs -> In r rids) -> (forall r, In r rids -> In r rrefs) ->
  ok_refs (sids ++ rids) sids rids srefs rrefs = 0.
Proof.
  intros sids rids srefs rrefs Ns Nr D Hs Hr Hu. unfold ok_refs.
  rewrite (nodup_str_NoDup _ (NoDup_app_disjoint _ _ Ns Nr D)), (refs_counted_once _ _ Ns Hs), (refs_counted_once _ _ Nr Hr).
  assert (E : forallb (fun r => existsb (str_eqb r) rrefs) rids = true).
  { apply forallb_forall. intros r H. apply existsb_str_In. apply Hu. exact H. }
  rewrite E. reflexivity.
Qed.

Theorem doc_consistent : forall d, dom_doc d = true ->
  let s := summarize d in
  ok_refs (s_ids s) (s_style_ids s) (s_region_ids s) (s_style_refs s) (s_region_refs s) = 0.
Proof.
  intros d D. unfold dom_doc in D. apply andb_prop in D. destruct D as [D1 D2]. apply nodup_str_sound in D1.
  unfold summarize in *. destruct (styling (ds_styles d)) as [written head_refs] eqn:ST.
  destruct (styling_spec _ _ _ D1 ST) as [NW HR]. cbn [s_ids s_style_ids s_region_ids s_style_refs s_region_refs] in *.
  apply ok_refs_resolved.
  - exact NW.
  - apply NoDup_map_inj; [apply defined_ge|apply region_ids_unique].
  - intros x Hx C. rewrite forallb_forall in D2. specialize (D2 x Hx). apply existsb_str_In in C. rewrite C in D2. discriminate.
  - intros r Hr. apply in_app_iff in Hr. destruct Hr as [Hr|Hr]; [apply HR; exact Hr|eapply body_refs_written; eauto].
  - intros r Hr. apply in_map_iff in Hr. destruct Hr as [x [<- Hx]]. apply in_map. apply regions_resolve. exact Hx.
  - intros r Hr. apply in_map_iff in Hr. destruct Hr as [x [<- Hx]]. apply in_map. apply no_unreferenced_region. exact Hx.
Qed.

Lemma dict_put_key : forall k v d x, In x (map fst (dict_put k v d)) -> x = k \/ In x (map fst d).
Proof.
  induction d as [|[a b] t IH]; intros x Hx; cbn [dict_put map fst] in Hx.
  - destruct Hx as [<-|[]]. left. reflexivity.
  - destruct (str_eqb a k); [right; exact Hx|]. destruct Hx as [<-|Hx]; [right; left; reflexivity|].
    destruct (IH x Hx); [left; assumption|right; right; assumption].
Qed.
Lemma dict_put_wf : forall k v d, valid_name k = true -> forallb is_xml_char v = true -> wf_dict d -> wf_dict (dict_put k v d).
Proof.
  intros k v d Hk Hv. induction d as [|[k' v'] t IH]; intros [F N]; cbn [dict_put].
  - split; repeat constructor; [exact Hk|exact Hv|intros []].
  - inversion F as [|? ? G F']; inversion N as [|? ? N1 N']; subst. destruct (str_eqb k' k) eqn:E.
    + split; [constructor; [split; [apply G|exact Hv]|exact F']|exact N].
    + destruct (IH (conj F' N')) as [F2 N2]. split; [constructor; assumption|]. cbn [map fst]. constructor; [|exact N2].
      intros C. apply dict_put_key in C. destruct C as [->|C]; [rewrite str_eqb_refl in E; discriminate|contradiction].
Qed.

Lemma dict_update_wf : forall upd d, (forall k v, In (k, v) upd -> valid_name k = true /\ forallb is_xml_char v = true) ->
  wf_dict d -> wf_dict (dict_update d upd).
Proof.
  unfold dict_update. induction upd as [|[k v] t IH]; intros d H W; [exact W|]. cbn [fold_left fst snd].
  apply IH; [intros; apply H; right; assumption|].
  destruct (H k v (or_introl eq_refl)). apply dict_put_wf; assumption.
Qed.

(* whatever style dictionary, region id and inline positioning attributes: the dictionary written on a <span> has
   valid, pairwise distinct attribute names and values of XML characters - so the payload theorem applies to it *)
Theorem span_attributes_ok : forall content ids region inline,
  (forall v, In v (map snd content) -> forallb is_xml_char v = true) ->
  match region with Some r => forallb is_xml_char r = true | None => True end ->
  (forall k v, In (k, v) inline -> valid_name k = true /\ forallb is_xml_char v = true) ->
  attrs_ok (span_attributes (recreate_style content ids) region inline) [].
Proof.
  intros content ids region inline Hc Hr Hi. pose proof (recreate_style_wf content ids Hc) as W.
  apply attrs_ok_wf. unfold span_attributes. destruct region as [r|]; [|exact W].
  apply dict_update_wf; [exact Hi|]. apply dict_put_wf; [reflexivity|exact Hr|exact W].
Qed.

Definition cnode_ok (n : cnode) : Prop :=
  match n with
  | CText s => forallb is_xml_char s = true
  | CStart content region inline =>
      (forall v, In v (map snd content) -> forallb is_xml_char v = true) /\
      match region with Some r => forallb is_xml_char r = true | None => True end /\
      (forall k v, In (k, v) inline -> valid_name k = true /\ forallb is_xml_char v = true)
  | _ => True
  end.

(* from (style dictionary, region, inline attributes, texts) to an accepted payload, for both writers: whatever XML
   characters occur in the texts and the values, the payload of a caption whose style nodes are balanced is
   well-formed element content *)
Theorem caption_payload_wellformed : forall legacy ids nodes,
  Forall cnode_ok nodes -> balanced (map (to_pnode ids) nodes) ->
  exists evs, content_parse (fst (caption_payload legacy ids nodes)) = Some evs.
Proof.
  intros legacy ids nodes F B. unfold caption_payload. apply payload_wellformed_balanced; [|exact B].
  clear B. induction F as [|n t Hn Ht IH]; [constructor|]. cbn [map]. constructor; [|exact IH].
  destruct n as [s| |content region inline|]; cbn [to_pnode node_ok].
  - exact Hn.
  - exact I.
  - destruct Hn as (H1 & H2 & H3). apply span_attributes_ok; assumption.
  - exact I.
Qed.

Lemma legacy_refs_bottom : forall d r, In r (legacy_region_refs d) -> r = legacy_region.
Proof.
  intros d r H. unfold legacy_region_refs in H. apply in_flat_map in H. destruct H as [l [_ H]].
  apply in_flat_map in H. destruct H as [c [_ H]]. destruct H as [<-|H]; [reflexivity|].
  apply in_flat_map in H. destruct H as [n [_ H]]. destruct (rn_span (dn_r n)); [|destruct H].
  unfold legacy_span_region in H. destruct (lookup (lit "region") (dn_content n)) as [x|]; [|destruct H].
  destruct (str_eqb x legacy_region); [|destruct H]. destruct H as [<-|[]]. reflexivity.
Qed.

Theorem legacy_doc_consistent : forall d, dom_legacy d = true ->
  let s := legacy_summarize d in
  ok_refs (s_ids s) (s_style_ids s) (s_region_ids s) (s_style_refs s) (s_region_refs s) = 0.
Proof.
  intros d D. unfold dom_legacy in D. apply andb_prop in D. destruct D as [D D3]. apply andb_prop in D. destruct D as [D1 D2].
  apply nodup_str_sound in D1. unfold legacy_summarize in *. destruct (styling (ds_styles d)) as [written head_refs] eqn:ST.
  destruct (styling_spec _ _ _ D1 ST) as [NW HR]. cbn [s_ids s_style_ids s_region_ids s_style_refs s_region_refs] in *.
  apply ok_refs_resolved.
  - exact NW.
  - repeat constructor. intros [].
  - intros x Hx [C|[]]. subst x. apply negb_true_iff in D2. apply existsb_str_In in Hx. congruence.
  - intros r Hr. apply in_app_iff in Hr. destruct Hr as [Hr|Hr]; [apply HR; exact Hr|eapply body_refs_written; eauto].
  - intros r Hr. left. symmetry. apply (legacy_refs_bottom d). exact Hr.
  - intros r [<-|[]]. apply existsb_exists in D3. destruct D3 as [l [Hl Hc]]. unfold legacy_region_refs.
    apply in_flat_map. exists l. split; [exact Hl|]. destruct (dl_caps l) as [|c t]; [discriminate|].
    cbn [flat_map]. left. reflexivity.
Qed.

Lemma recreate_style_no_region : forall content ids, ~ In (lit "region") (map fst (recreate_style content ids)).
Proof. intros content ids. apply recreate_style_not_key. reflexivity. Qed.

Theorem legacy_recreate_style_attrs_ok : forall content ids rids,
  (forall v, In v (map snd content) -> forallb is_xml_char v = true) ->
  attrs_ok (legacy_recreate_style content ids rids) [].
Proof.
  intros content ids rids H. pose proof (recreate_style_wf content ids H) as W.
  apply attrs_ok_wf. unfold legacy_recreate_style.
  destruct (lookup (lit "region") content) as [r|] eqn:L; [|exact W].
  destruct (existsb (str_eqb r) rids); [|exact W]. destruct W as [F N]. split.
  - constructor; [|exact F]. split; [reflexivity|]. apply H. apply (lookup_in _ _ _ L).
  - cbn [app map fst]. constructor; [apply recreate_style_no_region|exact N].
Qed.

Lemma oset_add_twice : forall p s, oset_add p (oset_add p s) = oset_add p s.
Proof.
  intros [[[c cr] b]|] s; [|reflexivity]. unfold oset_add at 2.
  destruct (existsb (fun x => fst x =? c) s) eqn:E.
  - unfold oset_add. rewrite E. reflexivity.
  - unfold oset_add. rewrite existsb_app, E. cbn [existsb fst]. rewrite Z.eqb_refl. reflexivity.
Qed.
Lemma fold_left_fixed : forall (A B : Type) (f : A -> B -> A) l s, (forall x, In x l -> f s x = s) -> fold_left f l s = s.
Proof.
  induction l as [|x t IH]; intros s H; [reflexivity|]. cbn [fold_left]. rewrite (H x (or_introl eq_refl)).
  apply IH. intros y Hy. apply H. right. exact Hy.
Qed.

Definition cap_single (p : lay) (c : rcap) : Prop := rc_layout c = p /\ Forall (fun n => rn_layout n = p) (rc_nodes c).
Definition lang_single (p : lay) (l : rlang) : Prop := rl_layout l = p /\ Forall (cap_single p) (rl_caps l).
Definition lang_step (s : list (Z * bool)) (l : rlang) : list (Z * bool) :=
  fold_left (fun s c => fold_left (fun s n => oset_add (rn_layout n) s) (rc_nodes c) (oset_add (rc_layout c) s))
            (rl_caps l) (oset_add (rl_layout l) s).
(* once the one positioning is in the set, its captions and nodes add nothing *)
Lemma lang_step_single : forall p l s, lang_single p l -> lang_step s l = oset_add p s.
Proof.
  intros p l s [Hl Hc]. unfold lang_step. rewrite Hl. apply fold_left_fixed. intros c Hin.
  rewrite Forall_forall in Hc. destruct (Hc c Hin) as [Ec Hn]. rewrite Ec, oset_add_twice. apply fold_left_fixed. intros n Hin'.
  rewrite Forall_forall in Hn. rewrite (Hn n Hin'). apply oset_add_twice.
Qed.

Lemma single_langs : forall p d, Forall (lang_single p) (rs_langs (to_rset (single_positioning p d))).
Proof.
  intros p d. unfold to_rset, single_positioning. cbn [ds_langs rs_langs]. rewrite map_map. apply Forall_forall. intros l Hl.
  apply in_map_iff in Hl. destruct Hl as [l0 [<- _]]. split; [reflexivity|]. cbn [dl_caps rl_caps]. rewrite map_map.
  apply Forall_forall. intros c Hc. apply in_map_iff in Hc. destruct Hc as [c0 [<- _]]. split; [reflexivity|].
  cbn [dc_nodes rc_nodes]. rewrite map_map. apply Forall_forall. intros n Hn. apply in_map_iff in Hn.
  destruct Hn as [n0 [<- _]]. reflexivity.
Qed.

Lemma single_region_of : forall p d, rs_langs (to_rset (single_positioning p d)) <> [] ->
  region_of (region_map (to_rset (single_positioning p d))) p = single_region p.
Proof.
  intros p d NE. unfold region_map, collect_unique.
  change (fun s l => fold_left (fun s0 c => fold_left (fun s1 n => oset_add (rn_layout n) s1) (rc_nodes c) (oset_add (rc_layout c) s0))
                               (rl_caps l) (oset_add (rl_layout l) s)) with lang_step.
  pose proof (single_langs p d) as F. destruct (rs_langs (to_rset (single_positioning p d))) as [|l t]; [congruence|].
  inversion F as [|? ? Hx Ft]; subst. cbn [fold_left]. rewrite (lang_step_single p l [] Hx), fold_left_fixed
    by (intros x Hin; rewrite (lang_step_single p x _ (proj1 (Forall_forall _ _) Ft x Hin)); apply oset_add_twice).
  destruct p as [[[c cr] b]|]; [|reflexivity]. cbn [oset_add existsb app filter fst]. unfold region_of, single_region.
  destruct (c =? 0) eqn:E0; cbn [negb filter create_regions app map_get].
  - destruct (0 =? c); destruct cr; reflexivity.
  - assert (E1 : (0 =? c) = false) by lia.
    destruct cr; cbn [create_regions app map_get]; rewrite ?Z.eqb_refl, ?E1; reflexivity.
Qed.

Lemma pick_single : forall p a b, (a = None \/ a = p) -> (b = None \/ b = p) -> pick a b p p = p.
Proof. intros p a b [->| ->] [->| ->]; unfold pick; cbn [truthy]; destruct (truthy p); reflexivity. Qed.

(* every region= of a single-positioning document names the one region *)
Theorem single_refs : forall p d r, In r (all_refs (to_rset (single_positioning p d))) -> r = single_region p.
Proof.
  intros p d r H.
  assert (NE : rs_langs (to_rset (single_positioning p d)) <> []).
  { intros E. unfold all_refs, refs in H. rewrite E in H. destruct H. }
  pose proof (single_region_of p d NE) as R. pose proof (single_langs p d) as F.
  unfold all_refs, refs in H. apply in_flat_map in H. destruct H as [dv [Hd Hr]].
  apply in_map_iff in Hd. destruct Hd as [l [<- Hl]]. rewrite Forall_forall in F. destruct (F l Hl) as [El Fc].
  assert (Es : rs_layout (to_rset (single_positioning p d)) = p) by reflexivity.
  cbn [fst snd] in Hr. rewrite El, Es in Hr. destruct Hr as [<-|Hr].
  - rewrite pick_single by auto. exact R.
  - apply in_flat_map in Hr. destruct Hr as [pp [Hp Hr]]. apply in_map_iff in Hp. destruct Hp as [c [<- Hc]].
    rewrite Forall_forall in Fc. destruct (Fc c Hc) as [Ec Fn]. cbn [fst snd] in Hr. rewrite Ec in Hr. destruct Hr as [<-|Hr].
    + rewrite pick_single by auto. exact R.
    + apply in_map_iff in Hr. destruct Hr as [n [<- Hn]]. apply filter_In in Hn. destruct Hn as [Hn _].
      rewrite Forall_forall in Fn. rewrite (Fn n Hn). rewrite pick_single by auto. exact R.
Qed.

(* consistency of the single-positioning writer's documents on a domain phrased on the INPUT: style ids distinct and no
   written style named like the one region ("bottom", or "r0" when the positioning creates a region of its own) *)
Theorem single_doc_consistent : forall p d, dom_single p d = true ->
  let s := summarize (single_positioning p d) in
  ok_refs (s_ids s) (s_style_ids s) (s_region_ids s) (s_style_refs s) (s_region_refs s) = 0.
Proof.
  intros p d D. apply doc_consistent. unfold dom_single in D. apply andb_prop in D. destruct D as [D1 D2].
  unfold dom_doc. apply andb_true_intro. split.
  - unfold single_positioning. cbn [ds_styles]. rewrite map_map. cbn [fst]. exact D1.
  - rewrite forallb_forall in D2. apply forallb_forall. intros w Hw. specialize (D2 w Hw).
    apply negb_true_iff. apply not_true_is_false. intros C. apply existsb_str_In in C.
    assert (S : s_region_ids (summarize (single_positioning p d))
                = map region_id_str (defined (to_rset (single_positioning p d)))).
    { unfold summarize. destruct (styling (ds_styles (single_positioning p d))). reflexivity. }
    rewrite S in C. apply in_map_iff in C. destruct C as [x [Ex Hx]].
    apply no_unreferenced_region in Hx. apply single_refs in Hx. subst x. subst w.
    rewrite str_eqb_refl in D2. discriminate.
Qed.
