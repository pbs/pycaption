(* C08: the SAMI hop at DOCUMENT level (string level) and chains over all five formats at document level. *)
From Coq Require Import List ZArith QArith Lia Bool ZifyBool Arith.
From PV Require Import lib.Sx lib.Str lib.Result lib.Dec.
From PV Require Import model.TimeRead model.TimeWrite model.TimeTree model.XmlRead model.SamiText model.Chain.
From PV Require Import model.DfxpReadLines model.SamiWriteDoc model.SamiReadLines.
From PV Require Import spec.SpecTime spec.SpecTimeTree spec.SpecXmlDocT spec.SpecSamiText spec.SpecChain.
From PV Require Import proofs.TimeStrFacts proofs.XmlReadFacts proofs.SamiTextFacts proofs.SamiWriteDocFacts.
From PV Require Import proofs.ChainFacts proofs.ChainDocFacts proofs.ChainSrtDocFacts proofs.ChainVttDocFacts proofs.ChainDfxpDocFacts.
Import ListNotations.
Open Scope Z_scope.

Fixpoint line_items (lines : list str) : list pit :=
  match lines with
  | [] => [PT (snl 3)]
  | [l] => [PT (snl 4 ++ l ++ snl 3)]
  | l :: t => PT (snl 4 ++ l) :: PB :: line_items t
  end.
Definition blank_items : list pit := [PT (snl 4 ++ [160] ++ snl 3)].
Definition ev_items (texts : list (list str)) (e : sev) : list pit :=
  match e with SCue _ i => line_items (nth i texts []) | SBlank _ => blank_items end.

Notation pfold := (fold_left pi_step).

Lemma pi_text_closed : forall w acc rest, pfold (text_tok w ++ rest) (acc, None) = pfold rest (acc, None).
Proof. intros [|c w] acc rest; reflexivity. Qed.

Lemma text_tok_slits : forall s, s <> [] -> text_tok (render_srun (slits s)) = [SText s].
Proof.
  intros s H. rewrite (text_tok_srun _ (schar_ok_slits s)), srun_val_slits. destruct s; [contradiction|reflexivity].
Qed.

Lemma pi_content : forall lines acc its rest,
  pfold (toks_content (swcontent lines) ++ rest) (acc, Some its) = pfold rest (acc, Some (its ++ line_items lines)).
Proof.
  induction lines as [|l t IH]; intros acc its rest.
  - unfold toks_content. cbn [swcontent fst snd flat_map app]. rewrite text_tok_slits by discriminate. reflexivity.
  - destruct t as [|l2 t].
    + unfold toks_content. cbn [swcontent fst snd flat_map app]. rewrite text_tok_slits by discriminate. reflexivity.
    + rewrite swcontent_cons2. unfold toks_content in *. cbn [fst snd flat_map]. rewrite text_tok_slits by discriminate.
      rewrite <- !app_assoc. cbn [app]. cbn [fold_left pi_step snd fst].
      change (str_eqb (lit "br") (lit "p")) with false. change (str_eqb (lit "br") (lit "sync")) with false.
      change (str_eqb (lit "br") (lit "br")) with true. cbv iota. cbn [snd fst].
      rewrite app_assoc. rewrite (IH acc _ rest). cbn [line_items]. rewrite <- !app_assoc. reflexivity.
Qed.

Lemma pi_ev_content : forall texts e acc its rest,
  pfold (toks_content (ev_content texts e) ++ rest) (acc, Some its) = pfold rest (acc, Some (its ++ ev_items texts e)).
Proof. intros texts [ms i|ms] acc its rest; cbn [ev_content ev_items]; [apply pi_content|reflexivity]. Qed.

Lemma pi_sync : forall lang texts e after acc rest, is_ws after = true ->
  pfold (toks_sync (wsync lang texts e after) ++ rest) (acc, None) = pfold rest (acc ++ [ev_items texts e], None).
Proof.
  intros lang texts e after acc rest Ha. unfold toks_sync, wsync, toks_par.
  cbn [ss_tag ss_ws ss_ps ss_close ss_after st_attrs flat_map sp_tag sp_content sp_close sp_after app].
  cbn [fold_left pi_step]. change (str_eqb (lit "sync") (lit "p")) with false.
  change (str_eqb (lit "sync") (lit "sync")) with true. cbv iota. cbn [pi_flush snd fst].
  rewrite <- !app_assoc. (etransitivity; [apply pi_text_closed|]). cbn [app]. cbn [fold_left pi_step].
  change (str_eqb (lit "p") (lit "p")) with true. cbv iota. cbn [pi_flush snd fst].
  rewrite <- !app_assoc. (etransitivity; [apply pi_ev_content|]). cbn [app]. cbn [fold_left pi_step].
  change (str_eqb (lit "p") (lit "p")) with true. cbn [orb]. cbv iota. cbn [pi_flush snd fst app].
  destruct after as [|x w]; reflexivity.
Qed.

Lemma pi_syncs : forall lang texts evs acc rest,
  pfold (flat_map toks_sync (wsyncs lang texts evs) ++ rest) (acc, None) = pfold rest (acc ++ map (ev_items texts) evs, None).
Proof.
  intros lang texts. induction evs as [|e t IH]; intros acc rest.
  - cbn [wsyncs flat_map app map]. rewrite app_nil_r. reflexivity.
  - destruct t as [|e2 t].
    + cbn [wsyncs flat_map map]. rewrite app_nil_r. apply pi_sync. reflexivity.
    + rewrite wsyncs_cons2. cbn [flat_map]. rewrite <- app_assoc, pi_sync by reflexivity. rewrite IH.
      cbn [map]. rewrite <- app_assoc. reflexivity.
Qed.

Lemma par_items_doc : forall lang cs,
  par_items (toks_doc (wsdoc lang cs)) = map (ev_items (map snd cs)) (sami_write (times_q cs)).
Proof.
  intros lang cs.
  assert (E : pfold (toks_doc (wsdoc lang cs)) ([], None)
              = (map (ev_items (map snd cs)) (sami_write (times_q cs)), None)).
  { unfold toks_doc, wsdoc. cbn [sd_open sd_ws sd_syncs sd_tail st_name st_attrs flat_map fst snd app].
    cbn [fold_left pi_step].
    change (str_eqb (lower (lit "body")) (lit "p")) with false. change (str_eqb (lower (lit "body")) (lit "sync")) with false.
    change (str_eqb (lower (lit "body")) (lit "br")) with false. cbv iota.
    etransitivity; [apply pi_text_closed|]. etransitivity; [apply pi_syncs|]. reflexivity. }
  unfold par_items. rewrite E. reflexivity.
Qed.

Lemma items_lines_lines : forall lines, lines <> [] -> forallb clean_line lines = true ->
  items_lines (line_items lines) = Some lines.
Proof.
  induction lines as [|l t IH]; intros Hne H; [congruence|]. cbn [forallb] in H. apply andb_true_iff in H. destruct H as [Hl Ht].
  destruct t as [|l2 t].
  - cbn [line_items items_lines]. change (snl 4) with (DfxpWriteDoc.nl 4). change (snl 3) with (DfxpWriteDoc.nl 3).
    rewrite (string_text_line l _ Hl (or_intror eq_refl)). reflexivity.
  - change (line_items (l :: l2 :: t)) with (PT (snl 4 ++ l) :: PB :: line_items (l2 :: t)). cbn [items_lines].
    pose proof (string_text_line l [] Hl (or_introl eq_refl)) as E. rewrite app_nil_r in E.
    change (snl 4) with (DfxpWriteDoc.nl 4). rewrite E. rewrite (IH ltac:(discriminate) Ht). reflexivity.
Qed.

Lemma line_items_text : forall lines, items_text (line_items lines) = flat_map (fun l => snl 4 ++ l) lines ++ snl 3.
Proof.
  induction lines as [|l [|l2 t] IH]; [reflexivity| |].
  - cbn [line_items items_text flat_map]. rewrite !app_nil_r, <- app_assoc. reflexivity.
  - change (line_items (l :: l2 :: t)) with (PT (snl 4 ++ l) :: PB :: line_items (l2 :: t)).
    unfold items_text in *. cbn [flat_map app]. rewrite IH. cbn [flat_map]. rewrite <- !app_assoc. reflexivity.
Qed.

Notation vis_items := (fun its => visible (items_text its)).

Lemma cue_lines : forall T caps last k,
  (forall i, (k <= i < k + length caps)%nat -> clean_lines (nth i T []) = true) ->
  opt_all (map items_lines (filter vis_items (map (ev_items T) (sami_events caps last k))))
  = Some (map (fun i => nth i T []) (seq k (length caps))).
Proof.
  intros T. induction caps as [|[s e] t IH]; intros last k H; [reflexivity|].
  cbn [sami_events]. rewrite map_app, filter_app, map_app.
  assert (B : filter vis_items (map (ev_items T) (match last with
                                                  | Some l => if negb (sami_ms s =? l) then [SBlank l] else []
                                                  | None => [] end)) = []).
  { destruct last as [l|]; [|reflexivity]. destruct (negb (sami_ms s =? l)); reflexivity. }
  rewrite B. cbn [map app filter ev_items length seq].
  destruct (clean_lines_parts _ (H k ltac:(cbn [length]; lia))) as (N & C & V).
  rewrite visible_has, line_items_text, (DfxpWriteDocFacts.lines_text_visible _ _ _ V). cbn [map opt_all]. rewrite (items_lines_lines _ N C).
  rewrite (IH (Some (sami_ms e)) (S k)); [reflexivity|]. intros i Hi. apply H. cbn [length]. lia.
Qed.

Lemma map_nth_seq : forall (A : Type) (l : list A) d, map (fun i => nth i l d) (seq 0 (length l)) = l.
Proof.
  intros A l d. induction l as [|a l IH]; [reflexivity|]. cbn [length seq map nth]. f_equal.
  rewrite <- seq_shift, map_map. exact IH.
Qed.

Lemma set_last_end_length : forall l, length (set_last_end l) = length l.
Proof. induction l as [|c [|c' t] IH]; [reflexivity|reflexivity|]. rewrite set_last_end_cons2. cbn [length] in *. rewrite IH. reflexivity. Qed.

Definition retimed (ts : list cue) (cs : list (Z * Z * list str)) : list (Z * Z * list str) :=
  map (fun tl : (Z * Z) * list str => (fst (fst tl), snd (fst tl), snd tl)) (combine ts (map snd cs)).

Lemma retimed_parts : forall ts cs, length ts = length cs ->
  times_of_caps (retimed ts cs) = ts /\ map snd (retimed ts cs) = map snd cs.
Proof.
  induction ts as [|[a b] ts IH]; intros [|c cs] H; try discriminate; [split; reflexivity|].
  cbn [length] in H. destruct (IH cs ltac:(lia)) as [I1 I2]. unfold retimed, times_of_caps in *. cbn [map combine fst snd].
  split; [rewrite I1|rewrite I2]; reflexivity.
Qed.

Lemma text_dom_visible : forall cs, text_dom cs = true -> lines_visible cs = true.
Proof. intros cs. apply forallb_weaken. intros c Hc. apply (clean_lines_parts _ Hc). Qed.

Theorem sami_roundtrip_string : forall cs lo, cs <> [] -> 0 <= lo -> dom_u 1000 lo (times_of_caps cs) -> text_dom cs = true ->
  hop_doc FSami cs = Ok (retimed (pi FSami (times_of_caps cs)) cs).
Proof.
  intros cs lo Hne Hlo D T. cbn [hop_doc pi]. unfold sami_read_lines.
  change [(lower (lit "en-US"), lit "en-US")] with (sstyles (lit "en-US")).
  rewrite (sami_document_string [] (lit "en-US") cs lo Hne Hlo D (text_dom_visible cs T)).
  unfold sami_body_text.
  rewrite (stoks_doc [] (sstyles (lit "en-US")) _ (wsdoc_ok [] (lit "en-US") cs lo Hlo D)), par_items_doc.
  unfold sami_write. rewrite cue_lines.
  - assert (L : length (map (fun c : scap => (inject_Z (fst (fst c)), inject_Z (snd (fst c)))) cs) = length (map snd cs))
      by (rewrite !map_length; reflexivity).
    unfold times_q. rewrite L, map_nth_seq, map_length, set_last_end_length, map_length.
    unfold times_of_caps at 1. rewrite !map_length, Nat.eqb_refl. reflexivity.
  - intros i Hi. unfold times_q in Hi. rewrite map_length in Hi. unfold text_dom in T.
    rewrite forallb_map_snd, forallb_forall in T. apply T, nth_In. rewrite map_length. apply Hi.
Qed.

Lemma doc_hop_keeps : forall f cs lo, cs <> [] -> 0 <= lo -> dom_u 40000 lo (times_of_caps cs) -> text_doms cs -> hop_keeps f cs.
Proof.
  intros f cs lo Hne Hlo D T. destruct (line_fmt4 f) eqn:E; [exact (line4_hop_keeps f cs lo E Hne Hlo D T)|].
  destruct f; try discriminate. exists (retimed (pi FSami (times_of_caps cs)) cs).
  split; [exact (sami_roundtrip_string cs lo Hne Hlo (dom_u_mono 40000 1000 lo lo _ ltac:(lia) (Z.le_refl lo) D) (proj1 T))|].
  apply retimed_parts. cbn [pi]. rewrite set_last_end_length, map_length. unfold times_of_caps. apply map_length.
Qed.

Theorem run_doc_text5 : forall chain cs lo, cs <> [] -> 0 <= lo ->
  dom_u 40000 lo (times_of_caps cs) -> text_dom cs = true -> srt_text_dom cs = true -> vtt_text_dom cs = true ->
  exists out, run_doc chain cs = Ok out /\ times_of_caps out = run chain (times_of_caps cs) /\ map snd out = map snd cs.
Proof.
  intros chain cs lo Hne Hlo D T1 T2 T3.
  assert (Hc : forallb (fun _ : fmt => true) chain = true) by (clear; induction chain; auto).
  exact (run_doc_hops _ text_doms text_doms_snd (fun f c l _ => doc_hop_keeps f c l) chain cs lo Hc Hne Hlo D
           (conj T1 (conj T2 T3))).
Qed.
