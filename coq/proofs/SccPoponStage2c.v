(* C05, stage 2c of the pop-on refinement: a single load with ONE row that may contain MID-ROW CODES (item Mid a,
   a in 0..15: 14 / 15 switch italics on, every other one switches italics off; on the 608 screen the code occupies
   one blank cell, Opt), together with basic / special / extended characters and backspaces, any preamble style,
   control codes single or doubled.  The node list the decoder builds depends on many cases (style already set, text
   before the code, punctuation after it, ...), so the result is stated THROUGH THE ORACLE: the caption returned by
   `read`, observed as the harness observes it, satisfies ok_c05 (popon_stage2c_ok), and `read` does return exactly
   one caption with the load's times and the row's address (popon_stage2c_reads).

   Method (shared with stage 8, which only adds the chaining of several rows): `rx` turns a node list into the flat list of
   (character, italic) it shows, with the BREAK / REPOSITION nodes as separators.
   Decoder side, for ANY buffer and tracker: the invariant St2 ties buffer and tracker to a flat list V (add_chars_inv, drop_last_St, pac_style_St, spacing_St: every
   decoder step - characters, special / extended characters, backspace, mid-row code, the style part of a preamble address
   code - is described on V); the token run of a row (mtoks_run8, items_run8) keeps, in front of the row, the context CC, the
   line before and the separator, and relates the row's part of V to the cells of the 608 screen by the oracle's own
   `match_cells` (J).  A mid-row code makes the reader append a blank to the last text transmitted before it whenever its own
   row shows no character at that moment: the line before may end up one blank longer (lclosed, lineokw).
   Reader side, for any creator whose buffer shows the rows of a load (queued: rx = flat xs, Rrows): passes 1-6 of
   _format_italics keep `rx` (passes16_rx), pass 7 strips blanks at line ends, at least one where a line ends with a blank (srel,
   sle_view_aux: the text nodes of a formatted list are not empty, and pass 7 looks through italics nodes), so every line has
   at most as many characters as its row has cells (lineok_srel); `build_captions` cuts a formatted list into captions whose
   observed lines are the segments of `rx` (build_view); every text node with text carries its caption's address (W).  Hence
   good_load (what storing such a creator adds to the stash) and read_queued (what `read` returns for the load line followed by
   the Erase-Displayed-Memory line).  For the ONE row of this stage the context is empty (stage2c_state, one_row_read). *)
From Coq Require Import List ZArith QArith Qabs Lia Bool ZifyBool.
From PV Require Import lib.Sx lib.Str lib.StrFacts lib.Result model.GenScc model.SccLen model.SccTime model.SccStash model.SccDecoder model.SccLayout
                       spec.Spec608 spec.SpecScc05 spec.SpecSccLen proofs.SccTableFacts proofs.SccTableFixFacts proofs.SccDoubleFacts
                       proofs.SccLenFacts proofs.SccStashFacts proofs.SccItalicsFacts proofs.SccPoponStage1 proofs.SccPoponStage2
                       proofs.SccPoponStage3 proofs.SccPoponStage5.
From PV Require proofs.SccPoponStage4.
Import ListNotations. Open Scope Z_scope.

(* performance only (see stage 1): the conversion must never evaluate the filter inside basic_code on a variable *)
Local Strategy 1000 [basic_code is_basic].

(* any in-domain row: all five item kinds, any preamble style *)
Definition mid_row (r : row) : bool := row_ok r.

Definition tag (b : bool) (s : str) : list (Z * bool) := map (fun c => (c, b)) s.

(* the italics state after the list *)
Fixpoint fin (b : bool) (l : list inode) : bool :=
  match l with
  | [] => b
  | n :: t => match i_kind n with IItalOn => fin true t | IItalOff => fin false t | _ => fin b t end
  end.

Lemma tag_app : forall b s t, tag b (s ++ t) = tag b s ++ tag b t.
Proof. intros. unfold tag. apply map_app. Qed.

Lemma fin_app : forall l1 l2 b, fin b (l1 ++ l2) = fin (fin b l1) l2.
Proof.
  induction l1 as [|n t IH]; intros l2 b; [reflexivity|].
  destruct n as [k x q]; destruct k; cbn [app fin i_kind]; apply IH.
Qed.

(* what a node list shows: characters with their italic attribute, BREAK and REPOSITION nodes as separators; the italic
   state runs across them *)
Inductive xch : Type := XC (c : Z) (it : bool) | XB | XR (p : pos).
Definition tagx (b : bool) (s : str) : list xch := map (fun c => XC c b) s.
Definition line : Type := list (Z * bool).
Definition xl (o : line) : list xch := map (fun x => XC (fst x) (snd x)) o.

Fixpoint rx (b : bool) (l : list inode) : list xch :=
  match l with
  | [] => []
  | n :: t => match i_kind n with
              | IText => tagx b (i_text n) ++ rx b t
              | IItalOn => rx true t
              | IItalOff => rx false t
              | IBreak => XB :: rx b t
              | IRepos => XR (i_pos n) :: rx b t
              end
  end.

Lemma tagx_app : forall b s t, tagx b (s ++ t) = tagx b s ++ tagx b t.
Proof. intros. unfold tagx. apply map_app. Qed.

Lemma xl_app : forall a b, xl (a ++ b) = xl a ++ xl b.
Proof. intros. unfold xl. apply map_app. Qed.

Lemma xl_tag : forall b s, xl (tag b s) = tagx b s.
Proof. intros b s. unfold xl, tag, tagx. rewrite map_map. reflexivity. Qed.

Lemma rx_app : forall l1 l2 b, rx b (l1 ++ l2) = rx b l1 ++ rx (fin b l1) l2.
Proof.
  induction l1 as [|n t IH]; intros l2 b; [reflexivity|].
  destruct n as [k x q]; destruct k; cbn [app rx fin i_kind i_text i_pos]; rewrite ?IH, ?app_assoc; reflexivity.
Qed.

Definition issep (x : xch) : bool := match x with XC _ _ => false | _ => true end.

Lemma is_text_kind : forall n, is_text n = true -> i_kind n = IText.
Proof. intros n H. unfold is_text in H. destruct (i_kind n); try discriminate H; reflexivity. Qed.

Lemma is_on_kind : forall n, is_on n = true -> i_kind n = IItalOn.
Proof. intros n H. unfold is_on in H. destruct (i_kind n); try discriminate H; reflexivity. Qed.

Lemma is_off_kind : forall n, is_off n = true -> i_kind n = IItalOff.
Proof. intros n H. unfold is_off in H. destruct (i_kind n); try discriminate H; reflexivity. Qed.

Lemma sio_rx : forall l, rx false (skip_initial_off l false) = rx false l.
Proof.
  induction l as [|n t IH]; [reflexivity|].
  destruct n as [k x q]; destruct k; cbn [skip_initial_off is_on is_off i_kind rx i_text i_pos]; rewrite ?IH, ?sio_true; reflexivity.
Qed.

Lemma set_rx : forall l b, rx b (skip_empty_text l) = rx b l.
Proof.
  induction l as [|n t IH]; intros b; [reflexivity|].
  destruct n as [k x q]; destruct k; unfold skip_empty_text in *; cbn [filter is_text i_kind i_text i_pos andb negb rx]; rewrite ?IH; try reflexivity.
  destruct x as [|c x']; cbn [nonempty negb rx i_kind i_text]; rewrite IH; reflexivity.
Qed.

Lemma sr_rx : forall l s, rx (st_on s) (skip_redundant l s) = rx (st_on s) l.
Proof.
  induction l as [|n t IH]; intros s; [reflexivity|].
  destruct n as [k x q]; destruct k; cbn [skip_redundant is_on is_off i_kind orb rx i_text i_pos]; rewrite ?IH; try reflexivity.
  - destruct s as [[|]|]; cbn [Bool.eqb st_on rx i_kind]; exact (IH (Some true)).
  - destruct s as [[|]|]; cbn [Bool.eqb st_on rx i_kind]; exact (IH (Some false)).
Qed.

Lemma cbr_rx : forall l op, rx (isS op) (close_before_repos l op) = rx (isS op) l.
Proof.
  induction l as [|n t IH]; intros op; [reflexivity|].
  destruct n as [k x q]; destruct k; cbn [close_before_repos is_on is_off is_repos i_kind i_pos rx i_text].
  - rewrite IH. reflexivity.
  - rewrite IH. reflexivity.
  - exact (IH (Some q)).
  - exact (IH None).
  - destruct op as [p0|]; cbn [rx i_kind i_pos isS].
    + apply f_equal. exact (IH (Some p0)).
    + apply f_equal. exact (IH None).
Qed.

Lemma efc_rx : forall l b, rx b (ensure_final_closes l) = rx b l.
Proof.
  intros l b. rewrite ensure_final_closes_eq, rx_app. destruct (final_on_pos l None); cbn [rx i_kind]; apply app_nil_r.
Qed.

Lemma roo_rx : forall l,
  (forall on, chk on l = true -> rx on (remove_on_off l None) = rx on l) /\
  (forall p, is_on p = true -> chk true l = true -> rx false (remove_on_off l (Some p)) = rx true l).
Proof.
  induction l as [|n t [IH1 IH2]]; split.
  - reflexivity.
  - reflexivity.
  - intros on H. destruct n as [k x q]; destruct k; cbn [chk remove_on_off is_on is_off is_repos i_kind rx i_text i_pos] in *.
    + rewrite (IH1 _ H). reflexivity.
    + rewrite (IH1 _ H). reflexivity.
    + apply andb_true_iff in H. destruct H as [H1 H2]. destruct on; [discriminate|].
      exact (IH2 (mkI IItalOn x q) eq_refl H2).
    + apply andb_true_iff in H. destruct H as [H1 H2]. exact (IH1 _ H2).
    + apply andb_true_iff in H. destruct H as [H1 H2]. destruct on; [discriminate|]. rewrite (IH1 _ H2). reflexivity.
  - intros p Hp H.
    pose proof (is_on_kind p Hp) as Hk.
    destruct n as [k x q]; destruct k; cbn [chk remove_on_off is_on is_off is_repos i_kind rx i_text i_pos] in *; rewrite ?Hk.
    + rewrite (IH1 _ H). reflexivity.
    + rewrite (IH1 _ H). reflexivity.
    + discriminate H.
    + exact (IH1 _ H).
    + discriminate H.
Qed.

Lemma rof_rx : forall l,
  (forall on, chk on l = true -> rx on (remove_off_on l None) = rx on l) /\
  (forall p, is_off p = true -> chk false l = true -> rx true (remove_off_on l (Some p)) = rx false l).
Proof.
  induction l as [|n t [IH1 IH2]]; split.
  - reflexivity.
  - intros p Hp _.
    pose proof (is_off_kind p Hp) as Hk.
    cbn [remove_off_on rx]. rewrite Hk. reflexivity.
  - intros on H. destruct n as [k x q]; destruct k; cbn [chk remove_off_on is_on is_off is_repos i_kind rx i_text i_pos] in *.
    + rewrite (IH1 _ H). reflexivity.
    + rewrite (IH1 _ H). reflexivity.
    + apply andb_true_iff in H. destruct H as [H1 H2]. exact (IH1 _ H2).
    + apply andb_true_iff in H. destruct H as [H1 H2]. destruct on; [|discriminate].
      exact (IH2 (mkI IItalOff x q) eq_refl H2).
    + apply andb_true_iff in H. destruct H as [H1 H2]. destruct on; [discriminate|]. rewrite (IH1 _ H2). reflexivity.
  - intros p Hp H.
    pose proof (is_off_kind p Hp) as Hk.
    destruct n as [k x q]; destruct k; cbn [chk remove_off_on is_on is_off is_repos i_kind rx i_text i_pos] in *; rewrite ?Hk.
    + rewrite (IH1 _ H). reflexivity.
    + rewrite (IH1 _ H). reflexivity.
    + exact (IH1 _ H).
    + discriminate H.
    + rewrite (IH1 false H). reflexivity.
Qed.

Lemma passes16_rx : forall l, rx false (passes16 l) = rx false l.
Proof.
  intros l. unfold passes16.
  set (l4 := close_before_repos (skip_redundant (skip_empty_text (skip_initial_off l false)) None) None).
  assert (C5 : chk false (ensure_final_closes l4) = true).
  { rewrite ensure_final_closes_eq. apply (final_chk _ None). apply (close_chkr _ None). apply (skip_redundant_alt _ None). }
  rewrite (proj1 (rof_rx _) false (proj1 (remove_on_off_chk _) false C5)).
  rewrite (proj1 (roo_rx _) false C5), efc_rx. unfold l4.
  rewrite (cbr_rx _ None). cbn [isS]. rewrite (sr_rx _ None). cbn [st_on]. rewrite set_rx. apply sio_rx.
Qed.

(* addresses: every text node with text carries the address of its caption *)
Fixpoint W (p : pos) (l : list inode) : Prop :=
  match l with
  | [] => True
  | n :: t => match i_kind n with
              | IText => (i_text n = [] \/ i_pos n = p) /\ W p t
              | IRepos => W (i_pos n) t
              | _ => W p t
              end
  end.
Fixpoint fa (p : pos) (l : list inode) : pos :=
  match l with [] => p | n :: t => if is_repos n then fa (i_pos n) t else fa p t end.

Lemma W_app : forall a b p, W p (a ++ b) <-> W p a /\ W (fa p a) b.
Proof.
  induction a as [|n a IH]; intros b p; [cbn; tauto|].
  destruct n as [k x q]; destruct k; cbn [app W fa is_repos i_kind i_text i_pos]; rewrite IH; tauto.
Qed.

Lemma fa_app : forall a b p, fa p (a ++ b) = fa (fa p a) b.
Proof.
  induction a as [|n a IH]; intros b p; [reflexivity|]. cbn [app fa]. destruct (is_repos n); apply IH.
Qed.

Definition corep (n : inode) : bool := is_repos n || (is_text n && nonempty (i_text n)).

Lemma W_core : forall l p, W p l <-> W p (filter corep l).
Proof.
  induction l as [|n l IH]; intros p; [reflexivity|].
  destruct n as [k x q]; destruct k; unfold corep; cbn [filter W is_repos is_text i_kind i_text i_pos orb andb]; try (apply IH).
  pose proof (IH p) as E. destruct x as [|c x']; cbn [nonempty W i_kind i_text i_pos]; [|tauto].
  split; [tauto|]. intros H. split; [left; reflexivity|tauto].
Qed.

Lemma filter_sub : forall A (f g : A -> bool) l, (forall x, f x = true -> g x = true) -> filter f (filter g l) = filter f l.
Proof.
  intros A f g l H. induction l as [|a l IH]; [reflexivity|]. cbn [filter].
  destruct (g a) eqn:G; cbn [filter]; [rewrite IH; reflexivity|].
  destruct (f a) eqn:F; [rewrite (H a F) in G; discriminate|exact IH].
Qed.

Lemma core_passes16 : forall l, filter corep (passes16 l) = filter corep l.
Proof.
  intros l. rewrite <- (filter_sub _ corep plain (passes16 l)), passes16_keep_plain.
  - apply filter_sub. intros [k x q]; destruct k; unfold corep, keep, plain, is_repos, is_text, is_on, is_off; cbn [i_kind i_text orb andb negb]; intros H; try discriminate H; try reflexivity.
    rewrite H. reflexivity.
  - intros [k x q]; destruct k; unfold corep, plain, is_repos, is_text, is_on, is_off; cbn [i_kind orb andb negb]; intros H; try discriminate H; reflexivity.
Qed.

Lemma W_rstrip_node : forall n p t, W p (n :: t) -> W p (rstrip_node n :: t).
Proof.
  intros [k x q] p t H. destruct k; cbn [W rstrip_node i_kind i_text i_pos] in *; try exact H.
  destruct H as [[->| ->] H]; (split; [|exact H]); [left; reflexivity|right; reflexivity].
Qed.

Lemma W_tail : forall n p t t', (forall p', W p' t -> W p' t') -> W p (n :: t) -> W p (n :: t').
Proof.
  intros [k x q] p t t' Ht H. destruct k; cbn [W i_kind i_text i_pos] in *; try (apply Ht; exact H).
  split; [exact (proj1 H)|apply Ht; exact (proj2 H)].
Qed.

Lemma W_sle : forall l p, W p l -> W p (strip_line_ends l).
Proof.
  induction l as [|n t IH]; intros p H; [exact I|].
  rewrite sle_cons2. apply (W_tail _ _ _ _ IH) in H. destruct (is_text n && next_plain_is_sep t); [apply W_rstrip_node|]; exact H.
Qed.

Lemma W_format : forall l p, W p l -> W p (format_italics l).
Proof.
  intros l p H. rewrite format_italics_is. apply W_sle. apply (proj2 (W_core _ _)). rewrite core_passes16. apply (proj1 (W_core _ _)). exact H.
Qed.

(* pass 7 only removes blanks at the end *)
Definition blanks (sp : list (Z * bool)) : Prop := forallb (fun x => is_space (fst x)) sp = true.

Lemma blanks_tag : forall b sp, forallb is_space sp = true -> blanks (tag b sp).
Proof.
  intros b. induction sp as [|c t IH]; intros H; [reflexivity|]. cbn [forallb] in H. apply andb_true_iff in H.
  destruct H as [H1 H2]. unfold blanks, tag in *. cbn [map forallb fst]. rewrite H1. exact (IH H2).
Qed.


(* the ways match_cells succeeds: a character cell against the same character; the cell of a mid-row code against
   nothing, or against a blank *)
Lemma match_cells_ind : forall P : list cell -> list (Z * bool) -> Prop,
  P [] [] ->
  (forall c it it' cs o, is_space c || Bool.eqb it it' = true -> match_cells cs o = true -> P cs o -> P (Cell c it :: cs) ((c, it') :: o)) ->
  (forall cs o, match_cells cs o = true -> P cs o -> P (Opt :: cs) o) ->
  (forall c it cs o, is_space c = true -> match_cells cs o = true -> P cs o -> P (Opt :: cs) ((c, it) :: o)) ->
  forall cs o, match_cells cs o = true -> P cs o.
Proof.
  intros P P0 Pc Po Pb. induction cs as [|c cs IH]; intros o H.
  - destruct o; [exact P0|discriminate H].
  - destruct c as [ch it|]; cbn [match_cells] in H.
    + destruct o as [|[c' it'] o']; [discriminate H|]. apply andb_true_iff in H. destruct H as [H H2].
      apply andb_true_iff in H. destruct H as [H0 H1]. apply Z.eqb_eq in H0. subst c'. exact (Pc _ _ _ _ _ H1 H2 (IH _ H2)).
    + apply orb_true_iff in H. destruct H as [H|H]; [exact (Po _ _ H (IH _ H))|].
      destruct o as [|[c' it'] o']; [discriminate H|]. apply andb_true_iff in H. destruct H as [Hs H]. exact (Pb _ _ _ _ Hs H (IH _ H)).
Qed.

Lemma match_cells_app : forall a o1 b o2, match_cells a o1 = true -> match_cells b o2 = true ->
  match_cells (a ++ b) (o1 ++ o2) = true.
Proof.
  intros a o1 b o2 H1 H2. revert a o1 H1. apply match_cells_ind; cbn [app match_cells].
  - exact H2.
  - intros c it it' cs o Hi _ IH. rewrite Z.eqb_refl, Hi, IH. reflexivity.
  - intros cs o _ IH. rewrite IH. reflexivity.
  - intros c it cs o Hs _ IH. rewrite Hs, IH. apply orb_true_r.
Qed.

Lemma match_len : forall a o, match_cells a o = true -> (length o <= length a)%nat.
Proof. apply match_cells_ind; cbn [length]; intros; lia. Qed.

Lemma match_nil_vis : forall cs, match_cells cs [] = true -> existsb cell_vis cs = false.
Proof.
  induction cs as [|c cs IH]; intros H; [reflexivity|]. destruct c as [ch it|]; cbn [match_cells] in H; [discriminate H|].
  rewrite orb_false_r in H. cbn [existsb cell_vis orb]. exact (IH H).
Qed.

Lemma match_rstrip_nil : forall cs, match_cells (rstrip_cells cs) [] = true -> rstrip_cells cs = [].
Proof.
  induction cs as [|c cs IH]; intros H; [reflexivity|]. cbn [rstrip_cells] in *.
  destruct (rstrip_cells cs) as [|x t] eqn:E.
  - destruct c as [ch it|]; cbn [cell_blank] in *; [|reflexivity]. destruct (is_space ch); [reflexivity|discriminate H].
  - destruct c as [ch it|]; cbn [match_cells] in H; [discriminate H|]. rewrite orb_false_r in H. discriminate (IH H).
Qed.

(* trailing blanks are ignored on both sides *)
Lemma match_rstrip : forall cs o, match_cells cs o = true -> match_cells (rstrip_cells cs) (rstrip_obs o) = true.
Proof.
  apply match_cells_ind.
  - reflexivity.
  - intros ch it it' cs o H1 _ IH. cbn [rstrip_cells rstrip_obs fst cell_blank].
    destruct (rstrip_cells cs) as [|x t] eqn:E; destruct (rstrip_obs o) as [|y u] eqn:F.
    + destruct (is_space ch) eqn:Es; [reflexivity|]. cbn [match_cells]. rewrite Z.eqb_refl, Es. cbn [orb andb] in *.
      rewrite H1. reflexivity.
    + discriminate IH.
    + rewrite <- E in IH. apply match_rstrip_nil in IH. congruence.
    + cbn [match_cells]. rewrite Z.eqb_refl, H1. exact IH.
  - intros cs o _ IH. cbn [rstrip_cells cell_blank]. destruct (rstrip_cells cs) as [|x t] eqn:E; [exact IH|].
    change (match_cells (x :: t) (rstrip_obs o) || match rstrip_obs o with
             | (c', _) :: o' => is_space c' && match_cells (x :: t) o' | [] => false end = true).
    rewrite IH. reflexivity.
  - intros c' it' cs o Hs _ IH. cbn [rstrip_cells cell_blank rstrip_obs fst]. rewrite Hs.
    destruct (rstrip_cells cs) as [|x t] eqn:E; destruct (rstrip_obs o) as [|y u] eqn:F.
    + reflexivity.
    + discriminate IH.
    + change (match_cells (x :: t) [] || false = true). rewrite IH. reflexivity.
    + change (match_cells (x :: t) ((c', it') :: y :: u) || (is_space c' && match_cells (x :: t) (y :: u)) = true).
      rewrite Hs, IH. apply orb_true_r.
Qed.

Lemma rstrip_obs_blanks : forall y, blanks y -> rstrip_obs y = [].
Proof.
  induction y as [|a y IH]; intros H; [reflexivity|]. unfold blanks in *. cbn [forallb] in H. apply andb_true_iff in H.
  destruct H as [H1 H2]. cbn [rstrip_obs]. rewrite (IH H2), H1. reflexivity.
Qed.

Lemma rstrip_obs_app_blanks : forall x y, blanks y -> rstrip_obs (x ++ y) = rstrip_obs x.
Proof.
  induction x as [|a x IH]; intros y H; [exact (rstrip_obs_blanks y H)|]. cbn [app rstrip_obs]. rewrite (IH y H). reflexivity.
Qed.

Lemma cchk_balanced : forall l on, cchk on l = balanced (map onode_of l) on.
Proof.
  induction l as [|n t IH]; intros on; [reflexivity|].
  destruct n as [s q|q|[|] q]; cbn [cchk map onode_of balanced]; rewrite ?IH; reflexivity.
Qed.

(* the last text node with text, and the nodes after it *)
Definition quiet (l : list inode) : Prop := forallb (fun n => negb (is_text n && nonempty (i_text n))) l = true.

Lemma prev_rev_cases : forall r bs,
  (quiet r /\ prev_text_rev r bs = None /\ forall f, upd_prev_text_rev f r = r) \/
  (exists r2 n r1, r = r2 ++ n :: r1 /\ quiet r2 /\ is_text n = true /\ i_text n <> [] /\
     prev_text_rev r bs = Some (i_text n, bs || existsb is_break r2) /\
     forall f, upd_prev_text_rev f r = r2 ++ mkI (i_kind n) (f (i_text n)) (i_pos n) :: r1).
Proof.
  induction r as [|n t IH]; intros bs; [left; repeat split|].
  cbn [prev_text_rev upd_prev_text_rev]. destruct (is_text n && nonempty (i_text n)) eqn:E.
  - right. exists [], n, t. apply andb_true_iff in E. destruct E as [E1 E2]. cbn [app existsb]. rewrite orb_false_r.
    repeat split; try assumption; try reflexivity. intros X. rewrite X in E2. discriminate.
  - destruct (IH (bs || is_break n)) as [(Q & P & U)|(r2 & m & r1 & -> & Q & T & N & P & U)].
    + left. repeat split; [unfold quiet; cbn [forallb]; rewrite E; exact Q|exact P|intros f; rewrite U; reflexivity].
    + right. exists (n :: r2), m, r1. repeat split; try assumption.
      * unfold quiet. cbn [forallb]. rewrite E. exact Q.
      * rewrite P. cbn [existsb]. rewrite orb_assoc. reflexivity.
      * intros f. rewrite U. reflexivity.
Qed.

(* a mid-row code: after the style part (pac_style), the spacing step *)
Definition spacing (tk : tracker) (c : creator) (np : bool) : tracker * creator :=
  match prev_text (cr_nodes c) with
  | Some (txt, brk) =>
      if true && negb brk && negb (is_space (last_char txt)) && negb false && negb np
      then match cr_style c with
           | SOff => add_chars tk c [32]
           | _ => (tk, mkCr (upd_prev_text (fun s => s ++ [32]) (cr_nodes c)) (cr_style c))
           end
      else (tk, c)
  | None => (tk, c)
  end.

Definition next_punct (n : option Z) : bool := match n with Some nw => is_punct_hi (hi nw) | None => false end.

(* a BREAK / REPOSITION the tracker still owes *)
Definition pend (tk : tracker) : list xch :=
  match tk_break tk with Some _ => [XB] | None => if tk_repos tk then [XR (current_position tk)] else [] end.
(* the tracker once add_chars has delivered what it owed *)
Definition acked (tk : tracker) : tracker := mkTk (tk_pos tk) None false (tk_default tk).
Definition tkgood (tk : tracker) : Prop := tk_break tk = None \/ tk_repos tk = false.

(* positions: text nodes with text carry their caption's address; unless a reposition is owed, the tracker's position is
   the address of the last caption, and so is the position of the last node if it is a text node *)
Definition PI (p0 : pos) (tk : tracker) (nodes : list inode) : Prop :=
  W p0 nodes /\
  (tk_repos tk = false -> current_position tk = fa p0 nodes /\
     forall n, last (map Some nodes) None = Some n -> is_text n = true -> i_pos n = fa p0 nodes).

Definition St (p0 : pos) (tk : tracker) (nodes : list inode) (sty : istyle) (V : list xch) (ital : bool) : Prop :=
  tkgood tk /\ rx false nodes ++ pend tk = V /\ fin false nodes = ital /\ son sty = ital /\ PI p0 tk nodes.

Lemma fa_snoc_nr : forall p l n, is_repos n = false -> fa p (l ++ [n]) = fa p l.
Proof. intros p l n H. rewrite fa_app. cbn [fa]. rewrite H. reflexivity. Qed.

Lemma exists_last_or_nil : forall A (l : list A), l = [] \/ exists l' a, l = l' ++ [a].
Proof. intros A l. destruct l as [|x t]; [left; reflexivity|right]. destruct (exists_last (l := x :: t)) as (l' & a & E); [discriminate|]. exists l', a. exact E. Qed.

Ltac lastgoal := let n := fresh "n" in let E := fresh "E" in
  intros n E _; first [rewrite last_some_app in E | cbn [map last] in E]; injection E as <-.

Lemma tagx_nil : forall b, tagx b [] = [].
Proof. reflexivity. Qed.

Ltac rxfin :=
  rewrite ?rx_app, ?fin_app; cbn [rx fin i_kind i_text i_pos];
  repeat match goal with H : i_kind _ = IText |- _ => rewrite !H end;
  cbn [rx fin i_kind i_text i_pos]; rewrite ?tagx_nil, ?tagx_app, ?app_nil_r, <- ?app_assoc; cbn [app]; try reflexivity.

(* has_break_before: no BREAK since the last text node *)
Definition HB (nodes : list inode) (V : list xch) : Prop :=
  (exists V0 c b, V = V0 ++ [XC c b]) -> has_break_before nodes = false.
Definition St2 (p0 : pos) (tk : tracker) (nodes : list inode) (sty : istyle) (V : list xch) (ital : bool) : Prop :=
  St p0 tk nodes sty V ital /\ HB nodes V.

Lemma hbb_snoc : forall l n, has_break_before (l ++ [n]) = if is_text n then false else if is_break n then true else has_break_before l.
Proof. intros l n. unfold has_break_before. rewrite rev_unit. reflexivity. Qed.

(* the BREAK / REPOSITION node add_chars delivers for what the tracker owes *)
Definition sepnodes (tk : tracker) : list inode :=
  match tk_break tk with
  | Some _ => [mkI IBreak [] (current_position tk)]
  | None => if tk_repos tk then [mkI IRepos [] (current_position tk)] else []
  end.

Lemma add_chars_shape : forall tk nodes sty s, tkgood tk ->
  (exists l n, nodes = l ++ [n] /\ is_text n = true /\ tk_break tk = None /\ tk_repos tk = false /\
     add_chars tk (mkCr nodes sty) s = (acked tk, mkCr (l ++ [add_text s n]) sty)) \/
  (exists E, (E = [] \/ E = [mkI IText [] (current_position tk)]) /\
     add_chars tk (mkCr nodes sty) s
     = (acked tk, mkCr ((nodes ++ E ++ sepnodes tk) ++ [mkI IText s (current_position tk)]) sty)).
Proof.
  intros [ps brk rep dflt] nodes sty s Hg. unfold add_chars, sepnodes, acked, tkgood in *.
  cbn [cr_nodes cr_style break_required tk_break tk_repos tk_pos tk_default] in *.
  set (cur := current_position (mkTk ps brk rep dflt)).
  set (reuse := match last (map Some nodes) None with Some n => is_text n && negb rep | None => false end).
  (* the empty text node that is put in front of what is owed unless the last node is reused *)
  set (E := if reuse then [] else [mkI IText [] cur]).
  assert (HE : E = [] \/ E = [mkI IText [] cur]) by (unfold E; destruct reuse; auto).
  replace (if reuse then nodes else nodes ++ [mkI IText [] cur]) with (nodes ++ E)
    by (unfold E; destruct reuse; [apply app_nil_r|reflexivity]).
  assert (K : forall (t' : tracker) X Y, X = Y ++ [mkI IText [] cur] ->
                (t', mkCr (map_last (add_text s) X) sty) = (t', mkCr (Y ++ [mkI IText s cur]) sty))
    by (intros t' X Y ->; rewrite map_last_snoc; reflexivity).
  assert (Hb : forall c, brk = Some c -> rep = false) by (intros c Eb; destruct Hg as [X|X]; [congruence|exact X]).
  destruct brk as [c|]; [rewrite (Hb c eq_refl)|destruct rep]; cbn [break_required ack_break ack_repos tk_break tk_repos tk_pos tk_default andb negb].
  - right. exists E. split; [exact HE|]. apply K. rewrite <- !app_assoc. reflexivity.
  - right. exists E. split; [exact HE|]. apply K. rewrite <- !app_assoc. reflexivity.
  - destruct reuse eqn:Er; unfold E.
    + left. unfold reuse in Er. destruct (exists_last_or_nil _ nodes) as [->|(l & n & ->)]; [discriminate Er|].
      rewrite last_some_app, andb_true_r in Er. exists l, n. rewrite app_nil_r, map_last_snoc. auto.
    + right. exists []. split; [auto|]. apply K. cbn [app]. rewrite app_nil_r. reflexivity.
Qed.

Lemma sepnodes_shown : forall tk E b, tkgood tk -> E = [] \/ E = [mkI IText [] (current_position tk)] ->
  rx b (E ++ sepnodes tk) = pend tk /\ fin b (E ++ sepnodes tk) = b /\ (forall p, W p (E ++ sepnodes tk)) /\
  (forall p, fa p (E ++ sepnodes tk) = if tk_repos tk then current_position tk else p).
Proof.
  intros tk E b Hg HE. unfold sepnodes, pend, tkgood in *.
  destruct (tk_break tk); [destruct Hg as [X| ->]; [discriminate X|]|destruct (tk_repos tk)]; destruct HE as [->| ->];
    cbn [app rx fin W fa is_repos i_kind i_text i_pos tagx map]; repeat split; auto.
Qed.

Lemma add_chars_inv : forall p0 tk nodes sty V ital s, St2 p0 tk nodes sty V ital ->
  exists nodes', add_chars tk (mkCr nodes sty) s = (acked tk, mkCr nodes' sty) /\
                 St2 p0 (acked tk) nodes' sty (V ++ tagx ital s) ital.
Proof.
  intros p0 tk nodes sty V ital s [(Hg & Hr & Hf & Hy & Hw & Hp) _].
  destruct (add_chars_shape tk nodes sty s Hg) as [(l & n & -> & Etn & Eb & Er & E)|(E0 & HE & E)]; rewrite E; eexists;
    (split; [reflexivity|]); split; try (split; [left; reflexivity|]; unfold pend at 1; cbn [acked tk_break tk_repos]; rewrite app_nil_r).
  - (* nothing is owed and the last node is a text node: its text grows *)
    pose proof (is_text_kind n Etn) as Hk.
    unfold pend in Hr. rewrite Eb, Er, app_nil_r in Hr. destruct (Hp Er) as [Hc Hl]. unfold add_text.
    pose proof (Hl n (last_some_app _ l n) Etn) as Hpn. subst V ital. rewrite Hk.
    assert (Ef : forall x, fa p0 (l ++ [mkI IText x (i_pos n)]) = fa p0 (l ++ [n]))
      by (intros x; rewrite !fa_app; cbn [fa]; unfold is_repos; cbn [i_kind]; rewrite Hk; reflexivity).
    split; [rxfin|]. split; [rxfin|]. split; [exact Hy|]. split.
    + apply W_app in Hw. apply W_app. split; [exact (proj1 Hw)|]. cbn [W i_kind i_text i_pos]. rewrite Hpn, fa_snoc_nr; [tauto|].
      unfold is_repos. rewrite Hk. reflexivity.
    + intros _. rewrite Ef. split; [exact Hc|]. lastgoal. exact Hpn.
  - intros _. rewrite hbb_snoc. change (is_text (add_text s n)) with (is_text n). rewrite Etn. reflexivity.
  - (* otherwise a text node is appended, after the BREAK / REPOSITION node the tracker owes *)
    destruct (sepnodes_shown tk E0 ital Hg HE) as (Sx & Sf & Sw & Sa). subst V ital.
    assert (Ec : current_position tk = fa p0 (nodes ++ E0 ++ sepnodes tk)).
    { rewrite fa_app, Sa. destruct (tk_repos tk) eqn:Er; [reflexivity|exact (proj1 (Hp eq_refl))]. }
    split; [rewrite rx_app, (rx_app nodes), (fin_app nodes), Sx, Sf; cbn [rx i_kind i_text]; rewrite app_nil_r; reflexivity|].
    split; [rewrite fin_app, (fin_app nodes), Sf; reflexivity|]. split; [exact Hy|]. split.
    + apply W_app. split; [apply W_app; split; [exact Hw|apply Sw]|]. cbn [W i_kind i_text i_pos]. rewrite <- Ec. tauto.
    + intros _. rewrite fa_snoc_nr by reflexivity. split; [exact Ec|]. lastgoal. exact Ec.
  - intros _. rewrite hbb_snoc. reflexivity.
Qed.

Lemma existsb_rev : forall A (f : A -> bool) l, existsb f (rev l) = existsb f l.
Proof.
  intros A f l. induction l as [|a l IH]; [reflexivity|]. cbn [rev existsb]. rewrite existsb_app, IH. cbn [existsb].
  rewrite orb_false_r. apply orb_comm.
Qed.

Lemma prev_cases8 : forall nodes,
  (quiet nodes /\ prev_text nodes = None /\ forall f, upd_prev_text f nodes = nodes) \/
  (exists l1 n l2, nodes = l1 ++ n :: l2 /\ quiet l2 /\ is_text n = true /\ i_text n <> [] /\
     prev_text nodes = Some (i_text n, existsb is_break l2) /\
     forall f, upd_prev_text f nodes = l1 ++ mkI IText (f (i_text n)) (i_pos n) :: l2).
Proof.
  intros nodes. unfold prev_text, upd_prev_text.
  destruct (prev_rev_cases (rev nodes) false) as [(Q & P & U)|(r2 & n & r1 & E & Q & T & N & P & U)].
  - left. repeat split; [|exact P|intros f; rewrite U; apply rev_involutive].
    unfold quiet. rewrite <- forallb_rev. exact Q.
  - right. exists (rev r1), n, (rev r2).
    assert (En : nodes = rev r1 ++ n :: rev r2).
    { rewrite <- (rev_involutive nodes), E, rev_app_distr. cbn [rev]. rewrite <- app_assoc. reflexivity. }
    pose proof (is_text_kind n T) as Hk.
    repeat split; try assumption.
    + unfold quiet. rewrite forallb_rev. exact Q.
    + rewrite P, existsb_rev. reflexivity.
    + intros f. rewrite U, rev_app_distr. cbn [rev]. rewrite <- app_assoc, Hk. reflexivity.
Qed.

Definition isxb (x : xch) : bool := match x with XB => true | _ => false end.
Definition seps (S : list xch) : Prop := forallb issep S = true.

Lemma quiet_rx : forall l b, quiet l -> seps (rx b l) /\ existsb isxb (rx b l) = existsb is_break l.
Proof.
  induction l as [|n t IH]; intros b H; [split; reflexivity|]. unfold quiet in *. cbn [forallb] in H. apply andb_true_iff in H.
  destruct H as [H1 H2]. destruct n as [k x q]; destruct k; cbn [rx i_kind i_text i_pos is_text is_break andb negb existsb] in *.
  - destruct x; [|discriminate H1]. cbn [tagx map app]. exact (IH b H2).
  - destruct (IH b H2) as [A B]. split; [exact A|]. cbn [existsb isxb orb]. reflexivity.
  - exact (IH true H2).
  - exact (IH false H2).
  - destruct (IH b H2) as [A B]. split; [exact A|]. cbn [existsb isxb orb]. exact B.
Qed.

Lemma seps_app : forall a b, seps (a ++ b) <-> seps a /\ seps b.
Proof. intros a b. unfold seps. rewrite forallb_app, andb_true_iff. reflexivity. Qed.

(* replacing the text of a text node keeps the addresses *)
Lemma PI_upd : forall p0 tk l1 n l2 txt, is_text n = true -> i_text n <> [] -> PI p0 tk (l1 ++ n :: l2) ->
  PI p0 tk (l1 ++ mkI IText txt (i_pos n) :: l2).
Proof.
  intros p0 tk l1 n l2 txt T N [Hw Hp].
  pose proof (is_text_kind n T) as Hk.
  assert (Ef : fa p0 (l1 ++ mkI IText txt (i_pos n) :: l2) = fa p0 (l1 ++ n :: l2)).
  { rewrite !fa_app. cbn [fa]. unfold is_repos. cbn [i_kind]. rewrite Hk. reflexivity. }
  split.
  - apply W_app in Hw. destruct Hw as [H1 H2]. apply W_app. split; [exact H1|]. cbn [W] in H2 |- *. rewrite Hk in H2. cbn [i_kind i_text i_pos].
    destruct H2 as [[X|H2] H3]; [congruence|]. split; [right; exact H2|exact H3].
  - intros Hr. destruct (Hp Hr) as [Hc Hl]. rewrite Ef. split; [exact Hc|]. intros m E Tm.
    destruct (exists_last_or_nil _ l2) as [->|(l2' & z & ->)].
    + rewrite last_some_app in E. injection E as <-. cbn [i_pos]. apply (Hl n); [apply last_some_app|exact T].
    + apply (Hl m); [|exact Tm]. rewrite app_comm_cons, app_assoc, last_some_app in E |- *. exact E.
Qed.


Lemma pend_seps : forall tk, seps (pend tk).
Proof. intros tk. unfold pend. destruct (tk_break tk); [reflexivity|]. destruct (tk_repos tk); reflexivity. Qed.

Lemma seps_ends_char : forall (X S V0 : list xch) c b, seps S -> X ++ S = V0 ++ [XC c b] -> S = [].
Proof.
  intros X S V0 c b HS E. destruct (exists_last_or_nil _ S) as [->|(S1 & z & ->)]; [reflexivity|].
  rewrite app_assoc in E. apply app_inj_tail in E. destruct E as [_ ->]. apply seps_app in HS. destruct HS as [_ HS]. discriminate HS.
Qed.

Lemma last_char_unique : forall A B c b c' b' S S', seps S -> seps S' ->
  A ++ XC c b :: S = B ++ XC c' b' :: S' -> A = B /\ c = c' /\ b = b' /\ S = S'.
Proof.
  intros A B c b c' b' S. induction S as [|z S IH] using rev_ind; intros S' H1 H2 E.
  - replace (B ++ XC c' b' :: S') with ((B ++ [XC c' b']) ++ S') in E by (rewrite <- app_assoc; reflexivity).
    symmetry in E. pose proof (seps_ends_char _ _ _ _ _ H2 E) as ->. rewrite app_nil_r in E.
    apply app_inj_tail in E. destruct E as [-> E]. injection E as -> ->. repeat split.
  - destruct (exists_last_or_nil _ S') as [->|(S1 & z' & ->)].
    + exfalso. replace (A ++ XC c b :: S ++ [z]) with ((A ++ [XC c b]) ++ S ++ [z]) in E by (rewrite <- app_assoc; reflexivity).
      apply seps_ends_char in E; [|exact H1]. exact (snoc_not_nil _ _ _ E).
    + rewrite !app_comm_cons, !app_assoc in E. apply app_inj_tail in E. destruct E as [E ->].
      apply seps_app in H1, H2. destruct (IH S1 (proj1 H1) (proj1 H2) E) as (-> & -> & -> & ->). repeat split.
Qed.

Lemma ends_char_nopend : forall X tk V0 c b, X ++ pend tk = V0 ++ [XC c b] -> pend tk = [] /\ X = V0 ++ [XC c b].
Proof.
  intros X tk V0 c b E. pose proof (seps_ends_char _ _ _ _ _ (pend_seps tk) E) as P. rewrite P, app_nil_r in E. split; assumption.
Qed.

Lemma pend_nil_norm : forall tk, tkgood tk -> pend tk = [] -> tk = acked tk.
Proof.
  intros [ps brk rep dflt] Hg H. unfold pend, acked in *. cbn [tk_break tk_repos tk_pos tk_default] in *.
  destruct brk; [discriminate|]. destruct rep; [discriminate|]. reflexivity.
Qed.

Lemma hbb_kinds : forall l l', map i_kind l = map i_kind l' -> has_break_before l = has_break_before l'.
Proof.
  intros l l' H. unfold has_break_before.
  assert (E : map i_kind (rev l) = map i_kind (rev l')) by (rewrite !map_rev, H; reflexivity).
  revert E. generalize (rev l) (rev l'). clear. induction l as [|a l IH]; intros [|b l'] E; try discriminate E; [reflexivity|].
  cbn [map] in E. injection E as E1 E2. cbn [has_break_before_rev]. unfold is_text, is_break. rewrite E1.
  destruct (i_kind b); try reflexivity; exact (IH _ E2).
Qed.

(* the last text node with text, seen through the invariant: V shows A, that text t, then only separators; rewriting
   the text keeps the invariant *)
Lemma prev_St : forall p0 tk nodes sty V ital, St2 p0 tk nodes sty V ital ->
  (prev_text nodes = None /\ seps V) \/
  (exists A b t S, prev_text nodes = Some (t, existsb isxb S) /\ t <> [] /\ seps S /\ V = A ++ tagx b t ++ S ++ pend tk /\
     forall f, St2 p0 tk (upd_prev_text f nodes) sty (A ++ tagx b (f t) ++ S ++ pend tk) ital).
Proof.
  intros p0 tk nodes sty V ital [(Hg & Hr & Hf & Hy & Hp) Hb].
  destruct (prev_cases8 nodes) as [(Q & P & _)|(l1 & n & l2 & E & Q & T & N & P & U)].
  - left. split; [exact P|]. rewrite <- Hr. apply seps_app. split; [exact (proj1 (quiet_rx nodes false Q))|apply pend_seps].
  - right. pose proof (is_text_kind n T) as Hk. destruct (quiet_rx l2 (fin false l1) Q) as [HS HB].
    exists (rx false l1), (fin false l1), (i_text n), (rx (fin false l1) l2).
    assert (EV : V = rx false l1 ++ tagx (fin false l1) (i_text n) ++ rx (fin false l1) l2 ++ pend tk).
    { rewrite <- Hr, E, rx_app. cbn [rx]. rewrite Hk. cbv iota. rewrite <- !app_assoc. reflexivity. }
    split; [rewrite P, HB; reflexivity|split; [exact N|split; [exact HS|split; [exact EV|]]]].
    intros f. rewrite U. split; [split; [exact Hg|split; [|split; [|split; [exact Hy|]]]]|].
    + rewrite rx_app. cbn [rx i_kind i_text]. rewrite <- !app_assoc. reflexivity.
    + rewrite <- Hf, E, !fin_app. cbn [fin i_kind]. rewrite Hk. reflexivity.
    + apply PI_upd; [exact T|exact N|]. rewrite <- E. exact Hp.
    + intros (V0 & c0 & b0 & X).
      rewrite (hbb_kinds _ nodes) by (rewrite E, !map_app; cbn [map i_kind]; rewrite Hk; reflexivity).
      apply Hb. rewrite app_assoc in X. apply seps_ends_char in X; [|apply seps_app; split; [exact HS|apply pend_seps]].
      destruct (exists_last N) as (t0 & c' & Et). exists (rx false l1 ++ tagx (fin false l1) t0), c', (fin false l1).
      rewrite EV, X, Et, tagx_app, app_nil_r, app_assoc. reflexivity.
Qed.

Lemma drop_last_St : forall p0 tk nodes sty V0 c b ital, St2 p0 tk nodes sty (V0 ++ [XC c b]) ital ->
  exists txt, prev_text nodes = Some (txt, false) /\ last_char txt = c /\
    St2 p0 tk (upd_prev_text drop_last nodes) sty V0 ital.
Proof.
  intros p0 tk nodes sty V0 c b ital H.
  destruct (prev_St _ _ _ _ _ _ H) as [[_ Sx]|(A & bb & t & S & P & N & HS & EV & U)].
  - exfalso. apply seps_app in Sx. destruct Sx as [_ Sx]. discriminate Sx.
  - destruct (exists_last N) as (t0 & c' & ->). specialize (U drop_last). unfold drop_last at 2 in U. rewrite removelast_last in U.
    rewrite tagx_app, <- !app_assoc in EV. change (tagx bb [c'] ++ S ++ pend tk) with (XC c' bb :: S ++ pend tk) in EV. rewrite app_assoc in EV.
    destruct (last_char_unique _ _ _ _ _ _ [] _ eq_refl (proj2 (seps_app _ _) (conj HS (pend_seps tk))) EV) as (-> & -> & -> & Z).
    rewrite <- Z, app_nil_r in U. symmetry in Z. apply app_eq_nil in Z. destruct Z as [-> _].
    exists (t0 ++ [c']). split; [exact P|split; [apply last_last|exact U]].
Qed.

(* a backspace, or the implicit one of an extended character after a non-extended one, drops the last character shown *)
Lemma backspace_St : forall p0 tk nodes sty V0 c b ital w, St2 p0 tk nodes sty (V0 ++ [XC c b]) ital ->
  w = w_bs \/ (extended_of w <> None /\ is_extended_value c = false) ->
  exists nodes', handle_backspace w (mkCr nodes sty) = mkCr nodes' sty /\ St2 p0 tk nodes' sty V0 ital.
Proof.
  intros p0 tk nodes sty V0 c b ital w H Hw. destruct (drop_last_St _ _ _ _ _ _ _ _ H) as (txt & P & L & H').
  exists (upd_prev_text drop_last nodes). split; [|exact H']. unfold handle_backspace. cbn [cr_nodes cr_style]. rewrite P, L.
  destruct Hw as [->|[He Hc]]; [rewrite Z.eqb_refl, orb_true_r; reflexivity|].
  rewrite Hc. destruct (extended_of w); [reflexivity|congruence].
Qed.

Lemma PI_snoc_nt : forall p0 tk tk' l x, is_text x = false -> is_repos x = false -> tk_repos tk' = tk_repos tk ->
  current_position tk' = current_position tk -> PI p0 tk l -> PI p0 tk' (l ++ [x]).
Proof.
  intros p0 tk tk' l x Hx Hr E1 E2 [Hw Hp]. split.
  - apply W_app. split; [exact Hw|]. destruct x as [k y q]; destruct k; try discriminate Hx; try discriminate Hr; exact I.
  - rewrite E1, E2, (fa_snoc_nr _ _ _ Hr). intros R. destruct (Hp R) as [Hc _]. split; [exact Hc|].
    intros n E T. rewrite last_some_app in E. injection E as <-. rewrite Hx in T. discriminate T.
Qed.

Lemma not_ends_char : forall (X : list xch) z, issep z = true -> ~ exists V0 c b, X ++ [z] = V0 ++ [XC c b].
Proof. intros X z Hz (V0 & c & b & E). apply app_inj_tail in E. destruct E as [_ ->]. discriminate Hz. Qed.

Lemma pac_style_St : forall p0 tk nodes sty V ital it, St2 p0 tk nodes sty V ital ->
  exists tk' nodes' sty', pac_style it sty tk nodes = (tk', mkCr nodes' sty') /\ St2 p0 tk' nodes' sty' V it /\
     tk_pos tk' = tk_pos tk /\ tk_default tk' = tk_default tk /\ tk_repos tk' = tk_repos tk /\
     (tk_break tk' = tk_break tk \/ (tk_break tk' = None /\ tk_break tk <> None /\ has_break_before nodes' = true)).
Proof.
  intros p0 tk nodes sty V ital it [(Hg & Hr & Hf & Hy & Hp) Hb].
  destruct tk as [ps brk rep dflt]. unfold tkgood in Hg. cbn [tk_break tk_repos] in Hg.
  unfold pac_style. cbv zeta. cbn [break_required tk_break ack_break tk_pos tk_repos tk_default].
  set (tk := mkTk ps brk rep dflt) in *. set (cur := current_position tk).
  set (G := fun x : tracker * creator => exists tk' nodes' sty', x = (tk', mkCr nodes' sty') /\ St2 p0 tk' nodes' sty' V it /\
     tk_pos tk' = tk_pos tk /\ tk_default tk' = tk_default tk /\ tk_repos tk' = tk_repos tk /\
     (tk_break tk' = tk_break tk \/ (tk_break tk' = None /\ tk_break tk <> None /\ has_break_before nodes' = true))).
  match goal with |- exists tk' nodes' sty', ?x = _ /\ _ => change (G x) end.
  assert (Same : son sty = it -> G (tk, mkCr nodes sty)).
  { intros E. exists tk, nodes, sty. split; [reflexivity|]. replace it with ital by congruence.
    split; [split; [exact (conj Hg (conj Hr (conj Hf (conj Hy Hp))))|exact Hb]|repeat split; left; reflexivity]. }
  (* one style node, no break owed *)
  assert (One : forall x sty', is_text x = false -> is_repos x = false -> is_break x = false -> rx (fin false nodes) [x] = [] ->
     fin (fin false nodes) [x] = it -> son sty' = it -> G (tk, mkCr (nodes ++ [x]) sty')).
  { intros x sty' H1 H2 H3 H4 H5 H6. exists tk, (nodes ++ [x]), sty'. split; [reflexivity|]. split; [|repeat split; left; reflexivity].
    split; [split; [exact Hg|split; [|split; [|split; [exact H6|]]]]|].
    - rewrite rx_app, H4, app_nil_r. exact Hr.
    - rewrite fin_app. exact H5.
    - apply (PI_snoc_nt p0 tk tk); try assumption; reflexivity.
    - intros X. rewrite hbb_snoc, H1, H3. exact (Hb X). }
  (* a style node and the owed break *)
  assert (Two : forall c0 x y sty', brk = Some c0 -> is_text x = false -> is_repos x = false -> is_text y = false -> is_repos y = false ->
     rx (fin false nodes) [x; y] = [XB] -> fin (fin false nodes) [x; y] = it -> son sty' = it ->
     has_break_before ((nodes ++ [x]) ++ [y]) = true ->
     G (mkTk ps None rep dflt, mkCr ((nodes ++ [x]) ++ [y]) sty')).
  { intros c0 x y sty' Eb H1 H2 H3 H4 H5 H6 H7 H8. subst brk. destruct Hg as [X|Hg]; [discriminate|]. subst rep.
    unfold pend in Hr. cbn [tk_break tk tk_repos] in Hr.
    exists (mkTk ps None false dflt), ((nodes ++ [x]) ++ [y]), sty'. split; [reflexivity|].
    split; [|cbn [tk_pos tk_default tk_repos tk_break tk]; repeat split; right; repeat split; [discriminate|exact H8]].
    split; [split; [left; reflexivity|split; [|split; [|split; [exact H7|]]]]|].
    - unfold pend. cbn [tk_break tk_repos]. rewrite <- app_assoc, rx_app. cbn [app]. rewrite H5, app_nil_r. exact Hr.
    - rewrite <- app_assoc, fin_app. exact H6.
    - apply (PI_snoc_nt p0 (mkTk ps None false dflt) (mkTk ps None false dflt)); try assumption; try reflexivity.
      apply (PI_snoc_nt p0 tk (mkTk ps None false dflt)); try assumption; reflexivity.
    - intros X. exfalso. rewrite <- Hr in X. exact (not_ends_char _ XB eq_refl X). }
  destruct it.
  - destruct sty; try (apply Same; reflexivity); destruct brk as [c0|]; cbv beta iota.
    + apply (Two c0); try reflexivity. apply hbb_break_on.
    + apply One; reflexivity.
    + apply (Two c0); try reflexivity. apply hbb_break_on.
    + apply One; reflexivity.
  - destruct sty; try (apply Same; reflexivity). destruct brk as [c0|]; cbv beta iota.
    + apply (Two c0); try reflexivity. apply hbb_break.
    + apply One; reflexivity.
Qed.

(* what a mid-row code does to what is shown: nothing, a blank at the end, or a blank after the last character *)
Definition vstep (V V' : list xch) : Prop :=
  V' = V \/ (exists b, V' = V ++ [XC 32 b]) \/
  exists A c b S, V = A ++ XC c b :: S /\ seps S /\ is_space c = false /\ V' = A ++ XC c b :: XC 32 b :: S.

Lemma vstep_refl : forall V, vstep V V.
Proof. intros V. left. reflexivity. Qed.

Lemma spacing_St : forall p0 tk nodes sty V ital np, St2 p0 tk nodes sty V ital ->
  exists tk' nodes' V', spacing tk (mkCr nodes sty) np = (tk', mkCr nodes' sty) /\ St2 p0 tk' nodes' sty V' ital /\
    (tk' = tk \/ tk' = acked tk) /\ vstep V V'.
Proof.
  intros p0 tk nodes sty V ital np H. unfold spacing. cbn [cr_nodes cr_style].
  set (G := fun x : tracker * creator => exists tk' nodes' V', x = (tk', mkCr nodes' sty) /\ St2 p0 tk' nodes' sty V' ital /\
                (tk' = tk \/ tk' = acked tk) /\ vstep V V').
  match goal with |- exists tk' nodes' V', ?x = _ /\ _ => change (G x) end.
  assert (Same : G (tk, mkCr nodes sty)).
  { exists tk, nodes, V. split; [reflexivity|split; [exact H|split; [left; reflexivity|apply vstep_refl]]]. }
  destruct (prev_St _ _ _ _ _ _ H) as [[P _]|(A & bb & t & S & P & N & HS & EV & U)]; rewrite P; [exact Same|].
  destruct (true && negb (existsb isxb S) && negb (is_space (last_char t)) && negb false && negb np) eqn:Ec; [|exact Same].
  assert (Upd : G (tk, mkCr (upd_prev_text (fun s => s ++ [32]) nodes) sty)).
  { exists tk, (upd_prev_text (fun s => s ++ [32]) nodes), (A ++ tagx bb (t ++ [32]) ++ S ++ pend tk).
    split; [reflexivity|split; [exact (U _)|split; [left; reflexivity|right; right]]].
    destruct (exists_last N) as (t0 & c' & ->). exists (A ++ tagx bb t0), c', bb, (S ++ pend tk).
    split; [rewrite EV, tagx_app, <- !app_assoc; reflexivity|]. split; [apply seps_app; split; [exact HS|apply pend_seps]|].
    split; [|rewrite !tagx_app, <- !app_assoc; reflexivity].
    unfold last_char in Ec. rewrite last_last in Ec. destruct (is_space c'); [rewrite !andb_false_r in Ec; discriminate Ec|reflexivity]. }
  destruct sty; try exact Upd.
  destruct (add_chars_inv p0 tk nodes SOff V ital [32] H) as (nodes' & Ea & Ha).
  exists (acked tk), nodes', (V ++ [XC 32 ital]). split; [exact Ea|]. split; [exact Ha|]. split; [right; reflexivity|right; left; eexists; reflexivity].
Qed.

Lemma interp_mid8 : forall tk c w n it, tab_of w = None -> pac_pos w = None -> (w =? w_bs) = false ->
  memz w scc_background_color_codes = false -> memz w scc_style_setting_commands = true ->
  memz w scc_italics_commands = it -> memz w scc_mid_row_codes = true ->
  interpret_command tk c w n =
  (let '(t1, c1) := pac_style it (cr_style c) tk (cr_nodes c) in let '(t2, c2) := spacing t1 c1 (next_punct n) in (t2, c2, None)).
Proof.
  intros tk c w n it Ht Hp Hbs Hbg Hst Hit Hmid. unfold interpret_command, update_positioning, pac_style. cbv zeta.
  rewrite Ht, Hp, Hbs, Hbg, Hst, Hit, Hmid. cbv beta iota.
  destruct c as [nodes sty]. cbn [cr_style cr_nodes]. destruct it, sty, (break_required tk); reflexivity.
Qed.


(* the mid-row code words (computed over the complete tables) *)
Lemma mid_facts : forall a, 0 <= a < 16 ->
  tab_of (midrow_word a) = None /\ pac_pos (midrow_word a) = None /\ (midrow_word a =? w_bs) = false /\
  memz (midrow_word a) scc_background_color_codes = false /\ is_cue_start (midrow_word a) = false /\
  memz (midrow_word a) ctl_words = false /\ (midrow_word a =? w_eoc) = false /\ hi (midrow_word a) = 145.
Proof.
  intros a Ha.
  pose proof (map_eq_pointwise
    (fun a => (tab_of (midrow_word a), pac_pos (midrow_word a), midrow_word a =? w_bs,
               memz (midrow_word a) scc_background_color_codes, is_cue_start (midrow_word a),
               memz (midrow_word a) ctl_words, midrow_word a =? w_eoc, hi (midrow_word a)))
    (fun _ => (None, None, false, false, false, false, false, 145)) (zrange 0 16) ltac:(vmr) a ltac:(inrange)) as E.
  split_pairs E. repeat split; assumption.
Qed.

Lemma midrow_word_inj : forall a b, 0 <= a < 16 -> 0 <= b < 16 -> midrow_word a = midrow_word b -> a = b.
Proof.
  intros a b Ha Hb E.
  pose proof (map_eq_pointwise2 (fun i j => (midrow_word i =? midrow_word j)) (fun i j => (i =? j)) (zrange 0 16) (zrange 0 16)
                ltac:(vmr) a b ltac:(inrange) ltac:(inrange)) as F.
  cbv beta in F. rewrite E, Z.eqb_refl in F. symmetry in F. apply Z.eqb_eq in F. exact F.
Qed.

Lemma special_ne_mid : forall i a, 0 <= i < 16 -> 0 <= a < 16 -> special_word i <> midrow_word a.
Proof.
  intros i a Hi Ha E.
  pose proof (map_eq_pointwise2 (fun i j => (special_word i =? midrow_word j)) (fun _ _ => false) (zrange 0 16) (zrange 0 16)
                ltac:(vmr) i a ltac:(inrange) ltac:(inrange)) as F.
  cbv beta in F. rewrite E, Z.eqb_refl in F. discriminate F.
Qed.

Lemma mid_class : forall a, 0 <= a < 16 -> cclass (midrow_word a) /\ ~ In (midrow_word a) ctl_words.
Proof.
  intros a Ha. destruct (mid_facts a Ha) as (Ht & Hp & _ & _ & Hq & Hn & He & _).
  destruct (midrow_classes a Ha) as (_ & Hc & _).
  assert (Hpac : is_pac (midrow_word a) = false) by (unfold is_pac; rewrite Hp; reflexivity).
  split; [split; try assumption; left; rewrite Hc; reflexivity|].
  intros X. apply (memz_In _ ctl_words) in X. congruence.
Qed.

Definition ksemr (k : kind) (ital : bool) (rend : list (Z * bool)) : list (Z * bool) :=
  match k with
  | KSp ch => rend ++ [(ch, ital)]
  | KExt ch => removelast rend ++ [(ch, ital)]
  | KBs => removelast rend
  end.
Definition kprer (k : kind) (rend : list (Z * bool)) : Prop :=
  match k with KExt _ => exists o c b, rend = o ++ [(c, b)] /\ is_extended_value c = false | _ => True end.

Section Run8.
Variables (st : stash) (p0 : pos) (d : bool) (pa ro : creator) (q : option (creator * Q)) (tm : Q) (tc : str) (off : Q).
Notation R8 sty tk l nodes fr := (RS st d sty pa ro q tm tc off tk l nodes fr).

Lemma tw_char8 : forall tk l nodes sty V ital fr w a b n,
  char_of (hi w) = Some a -> char_of (lo w) = Some b -> St2 p0 tk nodes sty V ital ->
  exists nodes', translate_word (R8 sty tk l nodes fr) w n = R8 sty (acked tk) (LWord w) nodes' (fr + 1) /\
                 St2 p0 (acked tk) nodes' sty (V ++ tagx ital (a ++ b)) ital.
Proof.
  intros tk l nodes sty V ital fr w a b n Ha Hb Hh.
  destruct (add_chars_inv p0 tk nodes sty V ital (a ++ b) Hh) as (nodes' & Ea & Ga).
  exists nodes'. split; [exact (tw_chars _ _ _ _ _ _ _ _ _ _ _ _ w a b n _ _ Ha Hb Ea)|exact Ga].
Qed.

Lemma xl_snoc : forall o c b, xl (o ++ [(c, b)]) = xl o ++ [XC c b].
Proof. intros. rewrite xl_app. reflexivity. Qed.

(* the first copy of a special / extended character or a backspace; C: what is shown before the current line *)
Lemma tw_code8 : forall w k tk l nodes sty C rend ital fr, kind_ok w k -> kprer k rend -> (k = KBs -> rend <> []) ->
  last_is l w = false -> St2 p0 tk nodes sty (C ++ xl rend) ital ->
  exists nodes', (forall n, translate_word (R8 sty tk l nodes fr) w n = R8 sty (acked tk) (LWord w) nodes' (fr + 1)) /\
                 St2 p0 (acked tk) nodes' sty (C ++ xl (ksemr k ital rend)) ital.
Proof.
  intros w k tk l nodes sty C rend ital fr Hk Hp Hne Hl Hh. destruct (kind_class w k Hk) as [Cp Ct Cq _ _].
  destruct k as [ch|ch|]; cbn [kind_ok kprer ksemr] in *.
  - assert (X : special_of w <> None) by congruence.
    destruct classes_disjoint as (D & _). destruct (D w X) as (Hc & _).
    destruct (add_chars_inv p0 tk nodes sty _ ital [ch] Hh) as (nodes' & Ea & Ga).
    exists nodes'. split; [|rewrite xl_snoc, app_assoc; exact Ga].
    intros n. unfold RS, translate_word. proj_red. rewrite (hd_code _ _ _ _ _ _ _ _ _ _ _ _ _ Cp Ct Cq Hl). proj_red.
    rewrite Hc, Cp. proj_red. rewrite Hk. unfold add_to_buf. proj_red. rewrite Ea. proj_red. reflexivity.
  - assert (X : extended_of w <> None) by congruence.
    destruct classes_disjoint as (D1 & D & _). destruct (D w X) as (Hc & _).
    assert (Hs : special_of w = None).
    { destruct (special_of w) eqn:E; [|reflexivity]. exfalso.
      assert (Y : special_of w <> None) by congruence. destruct (D1 w Y) as (_ & _ & Z0 & _). congruence. }
    destruct Hp as (o & c & b & -> & Hlast). rewrite xl_snoc, app_assoc in Hh.
    destruct (backspace_St p0 tk nodes sty _ c b ital w Hh (or_intror (conj X Hlast))) as (nodes1 & E1 & G1).
    destruct (add_chars_inv p0 tk nodes1 sty _ ital [ch] G1) as (nodes' & Ea & Ga).
    exists nodes'. split; [|rewrite removelast_last, xl_snoc, app_assoc; exact Ga].
    intros n. unfold RS, translate_word. proj_red. rewrite (hd_code _ _ _ _ _ _ _ _ _ _ _ _ _ Cp Ct Cq Hl). proj_red.
    rewrite Hc, Cp. proj_red. rewrite Hs, Hk. unfold add_to_buf. proj_red. rewrite E1, Ea. proj_red. reflexivity.
  - subst w. destruct bs_facts as (Hc & _ & _ & _ & _ & _ & _ & _ & _ & _ & Hn).
    destruct (exists_last (Hne eq_refl)) as (o & [c b] & ->). rewrite xl_snoc, app_assoc in Hh.
    pose proof Hh as [(Hg & Hr & _) _]. destruct (ends_char_nopend _ _ _ _ _ Hr) as [Pn _].
    destruct (backspace_St p0 tk nodes sty _ c b ital w_bs Hh (or_introl eq_refl)) as (nodes' & E & Hh').
    exists nodes'. rewrite removelast_last. rewrite <- (pend_nil_norm tk Hg Pn). split; [|exact Hh'].
    intros n. unfold RS, translate_word. proj_red. rewrite (hd_code _ _ _ _ _ _ _ _ _ _ _ _ _ Cp Ct Cq Hl). proj_red.
    rewrite Hc. proj_red. rewrite (translate_command_other _ w_bs n Hn). unfold do_interpret. proj_red.
    rewrite interp_bs, E. proj_red. reflexivity.
Qed.

(* a code word whose first copy is executed (when the codes are doubled, the word it sees next is its second copy): the
   second copy only counts as a frame *)
Lemma ctl_run8 : forall w tk l nodes sty fr nx tk1 nodes1 sty1, cclass w ->
  translate_word (R8 sty tk l nodes fr) w (if d then Some w else nx) = R8 sty1 tk1 (LWord w) nodes1 (fr + 1) ->
  exists l', tws (R8 sty tk l nodes fr) (ctl d w) nx = R8 sty1 tk1 l' nodes1 (fr + Z.of_nat (length (ctl d w))) /\
             linv l' (Some w) /\ rowlast l'.
Proof.
  intros w tk l nodes sty fr nx tk1 nodes1 sty1 Cc E.
  assert (Hd : forall s, doubled_type s w = true).
  { intros s. unfold doubled_type. destruct (cc_code w Cc) as [X|[X|X]]; [rewrite X; reflexivity| |].
    - destruct (special_of w); [rewrite orb_true_r; reflexivity|congruence].
    - destruct (extended_of w); [apply orb_true_r|congruence]. }
  destruct (d_cases d) as [Ed|Ed].
  - replace (ctl d w) with [w; w] by (rewrite Ed; reflexivity). replace (if d then Some w else nx) with (Some w) in E by (rewrite Ed; reflexivity).
    cbn [tws length]. rewrite E. exists LNone. split; [|split; [apply linv_none|apply rowlast_none]].
    rewrite tw_second; [|reflexivity|reflexivity|apply Hd].
    rewrite (cc_cue w Cc). unfold RS, bump, set_dbl, set_clock. proj_red. f_equal. lia.
  - replace (ctl d w) with [w] by (rewrite Ed; reflexivity). replace (if d then Some w else nx) with nx in E by (rewrite Ed; reflexivity).
    cbn [tws length]. rewrite E. exists (LWord w). split; [reflexivity|split; [exact (linv_code w Cc)|exact (rowlast_word w (cc_pac w Cc))]].
Qed.

Lemma code_run8 : forall w k pc tk l nodes sty C rend ital fr nx, kind_ok w k -> kprer k rend -> (k = KBs -> rend <> []) -> pc <> Some w ->
  St2 p0 tk nodes sty (C ++ xl rend) ital -> linv l pc ->
  exists l' nodes', tws (R8 sty tk l nodes fr) (ctl d w) nx = R8 sty (acked tk) l' nodes' (fr + Z.of_nat (length (ctl d w))) /\
                    St2 p0 (acked tk) nodes' sty (C ++ xl (ksemr k ital rend)) ital /\ linv l' (Some w) /\ rowlast l'.
Proof.
  intros w k pc tk l nodes sty C rend ital fr nx Hk Hp Hne Hpc Hh [Hg _]. pose proof (kind_class w k Hk) as Cc.
  assert (Hl : last_is l w = false) by (apply Hg; [exact (cc_code w Cc)|exact (cc_pac w Cc)|exact Hpc]).
  destruct (tw_code8 w k tk l nodes sty C rend ital fr Hk Hp Hne Hl Hh) as (nodes' & E1 & Hh').
  destruct (ctl_run8 w tk l nodes sty fr nx (acked tk) nodes' sty Cc (E1 _)) as (l' & E & Hl' & Hr').
  exists l', nodes'. split; [exact E|split; [exact Hh'|split; assumption]].
Qed.

Lemma mid_exec8 : forall a tk l nodes sty V ital fr n, 0 <= a < 16 -> last_is l (midrow_word a) = false ->
  St2 p0 tk nodes sty V ital ->
  exists tk' nodes' sty' V', translate_word (R8 sty tk l nodes fr) (midrow_word a) n = R8 sty' tk' (LWord (midrow_word a)) nodes' (fr + 1) /\
    St2 p0 tk' nodes' sty' V' (is_italic_attr a) /\ tk_pos tk' = tk_pos tk /\ tk_default tk' = tk_default tk /\ vstep V V'.
Proof.
  intros a tk l nodes sty V ital fr n Ha Hl Hh. set (w := midrow_word a) in *.
  destruct (mid_facts a Ha) as (Ht & Hp & Hbs & Hbg & Hq & _ & _ & _). fold w in Ht, Hp, Hbs, Hbg, Hq.
  destruct (midrow_classes a Ha) as (Hmid & Hc & Hit & Hst). fold w in Hmid, Hc, Hit, Hst.
  destruct (mid_class a Ha) as [Cc Hn]. fold w in Cc, Hn.
  destruct (pac_style_St p0 tk nodes sty V ital (is_italic_attr a) Hh) as (tk1 & nodes1 & sty1 & E1 & G1 & P1 & D1 & _).
  destruct (spacing_St p0 tk1 nodes1 sty1 V (is_italic_attr a) (next_punct n) G1) as (tk2 & nodes2 & V2 & E2 & G2 & T2 & HV).
  exists tk2, nodes2, sty1, V2. split; [|split; [exact G2|split; [|split]]].
  - unfold RS. apply (tw_cmd _ _ _ _ _ _ _ _ _ _ _ _ w n (LWord w)).
    + rewrite Hc. reflexivity.
    + exact Hn.
    + exact (hd_code _ _ _ _ _ _ _ _ _ _ _ _ _ (cc_pac w Cc) Ht Hq Hl).
    + rewrite (interp_mid8 tk (mkCr nodes sty) w n (is_italic_attr a) Ht Hp Hbs Hbg Hst Hit Hmid).
      cbn [cr_style cr_nodes]. rewrite E1, E2. reflexivity.
  - destruct T2 as [->| ->]; [exact P1|cbn [acked tk_pos]; exact P1].
  - destruct T2 as [->| ->]; [exact D1|cbn [acked tk_default]; exact D1].
  - exact HV.
Qed.

Lemma mid_skip8 : forall a tk nodes sty fr n, 0 <= a < 16 ->
  translate_word (R8 sty tk (LWord (midrow_word a)) nodes fr) (midrow_word a) n = R8 sty tk LNone nodes (fr + 1).
Proof.
  intros a tk nodes sty fr n Ha. destruct (mid_facts a Ha) as (_ & _ & Hbs & _ & Hq & _). destruct (midrow_classes a Ha) as (_ & Hc & _).
  rewrite tw_second; [|reflexivity|reflexivity|].
  - rewrite Hq. reflexivity.
  - unfold doubled_type. rewrite Hc. reflexivity.
Qed.

Lemma mid_run8 : forall a pc tk l nodes sty V ital fr nx, 0 <= a < 16 -> (pc = Some (midrow_word a) -> ital = is_italic_attr a) ->
  St2 p0 tk nodes sty V ital -> linv l pc ->
  exists l' tk' nodes' sty' V',
    tws (R8 sty tk l nodes fr) (ctl d (midrow_word a)) nx = R8 sty' tk' l' nodes' (fr + Z.of_nat (length (ctl d (midrow_word a)))) /\
    St2 p0 tk' nodes' sty' V' (is_italic_attr a) /\ tk_pos tk' = tk_pos tk /\ tk_default tk' = tk_default tk /\ vstep V V' /\
    linv l' (Some (midrow_word a)) /\ rowlast l'.
Proof.
  intros a pc tk l nodes sty V ital fr nx Ha Hpc Hh [Hg _]. set (w := midrow_word a) in *.
  destruct (mid_class a Ha) as [Cc _]. fold w in Cc.
  destruct (last_is l w) eqn:Hl.
  - (* the same word was sent just before: its first copy is taken for a second copy *)
    assert (El : l = LWord w).
    { destruct l as [|x|x y]; try discriminate Hl. cbn [last_is] in Hl. apply Z.eqb_eq in Hl. subst x. reflexivity. }
    assert (Ei : ital = is_italic_attr a).
    { apply Hpc. destruct pc as [x|]; [destruct (Z.eq_dec x w) as [->|Hne]; [reflexivity|]|]; exfalso;
        rewrite (Hg w (cc_code w Cc) (cc_pac w Cc)) in Hl by congruence; discriminate Hl. }
    subst l ital. destruct (d_cases d) as [Ed|Ed]; [replace (ctl d w) with [w; w] by (rewrite Ed; reflexivity)|replace (ctl d w) with [w] by (rewrite Ed; reflexivity)]; cbn [tws length].
    + unfold w at 1 2. rewrite (mid_skip8 a tk nodes sty fr _ Ha). fold w.
      destruct (mid_exec8 a tk LNone nodes sty V _ (fr + 1) nx Ha eq_refl Hh) as (tk' & nodes' & sty' & V' & E & G & P & D & Hr). fold w in E.
      exists (LWord w), tk', nodes', sty', V'. split; [|split; [exact G|split; [exact P|split; [exact D|split; [exact Hr|split; [exact (linv_code w Cc)|exact (rowlast_word w (cc_pac w Cc))]]]]]].
      rewrite E. f_equal. lia.
    + unfold w at 1 2. rewrite (mid_skip8 a tk nodes sty fr _ Ha).
      exists LNone, tk, nodes, sty, V. split; [reflexivity|split; [exact Hh|split; [reflexivity|split; [reflexivity|split; [apply vstep_refl|split; [apply linv_none|apply rowlast_none]]]]]].
  - destruct (mid_exec8 a tk l nodes sty V ital fr (if d then Some w else nx) Ha Hl Hh) as (tk' & nodes' & sty' & V' & E & G & P & D & Hr).
    destruct (ctl_run8 w tk l nodes sty fr nx tk' nodes' sty' Cc E) as (l' & E' & Hl' & Hr').
    exists l', tk', nodes', sty', V'. split; [exact E'|split; [exact G|split; [exact P|split; [exact D|split; [exact Hr|split; assumption]]]]].
Qed.
End Run8.

Inductive mtok : Type := MCh (b c : Z) | MCode (w : Z) (k : kind) | MMid (a : Z).

Fixpoint mpack (d : bool) (ts : list mtok) (pend : option Z) : list Z :=
  match ts with
  | [] => flush pend
  | MCh b _ :: t => match pend with
                    | None => mpack d t (Some b)
                    | Some b0 => (b0 * 256 + b) :: mpack d t None
                    end
  | MCode w _ :: t => flush pend ++ ctl d w ++ mpack d t None
  | MMid a :: t => flush pend ++ ctl d (midrow_word a) ++ mpack d t None
  end.

(* the cells of the 608 screen, token by token *)
Fixpoint csem (ts : list mtok) (acc : list cell) (ital : bool) : list cell :=
  match ts with
  | [] => acc
  | MCh _ c :: t => csem t (acc ++ [Cell c ital]) ital
  | MCode _ (KSp ch) :: t => csem t (acc ++ [Cell ch ital]) ital
  | MCode _ (KExt ch) :: t => csem t (removelast acc ++ [Cell ch ital]) ital
  | MCode _ KBs :: t => csem t (removelast acc) ital
  | MMid a :: t => csem t (acc ++ [Opt]) (is_italic_attr a)
  end.

(* well-formed token lists. pc: the code word sent last if the last token was a code word; lc: the character the last
   token put on the screen, if it did; ital: the italics state of the screen *)
Fixpoint mok (ts : list mtok) (pc lc : option Z) (ital : bool) : Prop :=
  match ts with
  | [] => True
  | MCh b c :: t => carries b c /\ gcharb c = true /\ mok t None (Some c) ital
  | MCode w k :: t =>
      pc <> Some w /\ kind_ok w k /\
      match k with
      | KSp ch => gcharb ch = true /\ mok t (Some w) (Some ch) ital
      | KExt ch => gcharb ch = true /\ (exists c, lc = Some c /\ is_extended_value c = false) /\ mok t (Some w) (Some ch) ital
      | KBs => lc <> None /\ mok t (Some w) None ital
      end
  | MMid a :: t => 0 <= a < 16 /\ (pc = Some (midrow_word a) -> ital = is_italic_attr a) /\
                   mok t (Some (midrow_word a)) None (is_italic_attr a)
  end.

(* what is shown matches the cells so far (the oracle's own comparison); when the last token put the character c on the
   screen, both sides end with it *)
Definition gch (x : Z * bool) : Prop := gcharb (fst x) = true.
Definition J (lc : option Z) (acc : list cell) (rend : list (Z * bool)) : Prop :=
  match_cells acc rend = true /\ Forall gch rend /\
  match lc with
  | Some c => exists cs0 o0 it, acc = cs0 ++ [Cell c it] /\ rend = o0 ++ [(c, it)] /\ match_cells cs0 o0 = true
  | None => True
  end.

Lemma J_weak : forall lc acc rend, J lc acc rend -> J None acc rend.
Proof. intros lc acc rend (H1 & H2 & _). repeat split; assumption. Qed.

Lemma J_char : forall lc acc rend c it, J lc acc rend -> gcharb c = true -> J (Some c) (acc ++ [Cell c it]) (rend ++ [(c, it)]).
Proof.
  intros lc acc rend c it (H1 & H2 & _) Hc. repeat split.
  - apply match_cells_app; [exact H1|]. cbn [match_cells]. rewrite Z.eqb_refl, eqb_reflx, orb_true_r. reflexivity.
  - apply Forall_app. split; [exact H2|]. constructor; [|constructor]. exact Hc.
  - exists acc, rend, it. repeat split. exact H1.
Qed.

Lemma J_pop : forall c acc rend, J (Some c) acc rend ->
  exists o b, rend = o ++ [(c, b)] /\ J None (removelast acc) o.
Proof.
  intros c acc rend (H1 & H2 & cs0 & o0 & it & -> & -> & H3). exists o0, it. split; [reflexivity|].
  rewrite removelast_last. apply Forall_app in H2. destruct H2 as [H2 _]. repeat split; assumption.
Qed.

Lemma J_mid : forall lc acc rend rend', J lc acc rend -> rend' = rend \/ (exists b, rend' = rend ++ [(32, b)]) ->
  J None (acc ++ [Opt]) rend'.
Proof.
  intros lc acc rend rend' (H1 & H2 & _) [->|[b ->]]; repeat split.
  - rewrite <- (app_nil_r rend). apply match_cells_app; [exact H1|reflexivity].
  - exact H2.
  - apply match_cells_app; [exact H1|reflexivity].
  - apply Forall_app. split; [exact H2|]. constructor; [|constructor]. reflexivity.
Qed.

(* the line before the current one: it shows its cells, possibly followed by one blank (added by a mid-row code of the
   current row; pass 7 of _format_italics removes it again: srel) *)
Definition lclosed (cs : list cell) (o : line) : Prop :=
  exists o0 sp, o = o0 ++ sp /\ match_cells cs o0 = true /\ Forall gch o /\
    (sp = [] \/ exists b, sp = [(32, b)]).
Definition Shape (CC : list xch) (o : line) (SEP : list xch) : Prop :=
  (CC = [] /\ o = [] /\ SEP = []) \/ (o <> [] /\ exists z, issep z = true /\ SEP = [z]).

Lemma mid_shape : forall CC SEP csp o lc acc rend V', Shape CC o SEP -> lclosed csp o -> J lc acc rend ->
  vstep ((CC ++ xl o ++ SEP) ++ xl rend) V' ->
  exists o' rend', V' = (CC ++ xl o' ++ SEP) ++ xl rend' /\ Shape CC o' SEP /\ lclosed csp o' /\ J None (acc ++ [Opt]) rend'.
Proof.
  intros CC SEP csp o lc acc rend V' Hs Hc Hj Hv. destruct Hv as [->|[[b ->]|(A & c & b & S & EV & HS & Hsp & ->)]].
  - exists o, rend. split; [reflexivity|split; [exact Hs|split; [exact Hc|]]]. apply (J_mid lc acc rend); [exact Hj|left; reflexivity].
  - exists o, (rend ++ [(32, b)]). split; [rewrite xl_snoc; symmetry; apply app_assoc|split; [exact Hs|split; [exact Hc|]]].
    apply (J_mid lc acc rend); [exact Hj|right; exists b; reflexivity].
  - destruct (exists_last_or_nil _ rend) as [->|(r0 & [c1 b1] & ->)].
    + cbn [xl map] in EV. rewrite app_nil_r in EV. destruct Hs as [(-> & -> & ->)|(Hne & z & Hz & ->)].
      * exfalso. cbn [xl map app] in EV. exact (app_cons_not_nil _ _ _ EV).
      * destruct (exists_last Hne) as (o1 & [c1 b1] & ->). rewrite xl_snoc in EV. rewrite <- !app_assoc in EV. cbn [app] in EV.
        rewrite app_assoc in EV.
        assert (Sz : seps [z]) by (unfold seps; cbn [forallb]; rewrite Hz; reflexivity).
        destruct (last_char_unique _ _ _ _ _ _ _ _ Sz HS EV) as (EA & <- & <- & <-).
        exists ((o1 ++ [(c1, b1)]) ++ [(32, b1)]), []. split.
        { cbn [xl map]. rewrite app_nil_r, !xl_snoc, <- EA, <- !app_assoc. reflexivity. }
        split; [right; split; [apply snoc_not_nil|exists z; split; [exact Hz|reflexivity]]|].
        split.
        -- destruct Hc as (o0 & sp & Eo & Hm & Hg & Hsp').
           destruct Hsp' as [->|[b2 ->]].
           ++ rewrite app_nil_r in Eo. exists o0, [(32, b1)]. split; [rewrite Eo; reflexivity|split; [exact Hm|split]].
              ** apply Forall_app. split; [exact Hg|constructor; [reflexivity|constructor]].
              ** right. exists b1. reflexivity.
           ++ apply app_inj_tail in Eo. destruct Eo as [_ Eo]. injection Eo as -> _. discriminate Hsp.
        -- apply (J_mid lc acc []); [exact Hj|left; reflexivity].
    + rewrite xl_snoc in EV. rewrite app_assoc in EV.
      change ((((CC ++ xl o ++ SEP) ++ xl r0) ++ [XC c1 b1])) with (((CC ++ xl o ++ SEP) ++ xl r0) ++ XC c1 b1 :: []) in EV.
      destruct (last_char_unique _ _ _ _ _ _ _ _ (eq_refl : seps []) HS EV) as (EA & <- & <- & <-).
      exists o, ((r0 ++ [(c1, b1)]) ++ [(32, b1)]). split.
      { rewrite !xl_snoc, <- EA, <- !app_assoc. reflexivity. }
      split; [exact Hs|split; [exact Hc|]]. apply (J_mid lc acc (r0 ++ [(c1, b1)])); [exact Hj|right; exists b1; reflexivity].
Qed.

Section RunD8.
Variables (st : stash) (p0 : pos) (d : bool) (pa ro : creator) (q : option (creator * Q)) (tm : Q) (tc : str) (off : Q).
Variables (CC SEP : list xch) (csp : list cell).
Notation R8 sty tk l nodes fr := (RS st d sty pa ro q tm tc off tk l nodes fr).
Notation VV o rend := ((CC ++ xl o ++ SEP) ++ xl rend).

Definition mgoal8 (tk : tracker) (l : lastcmd) (nodes : list inode) (sty : istyle) (fr : Z) (nx : option Z) (ws : list Z) (cells : list cell) : Prop :=
  exists l' tk' nodes' sty' o' rend' ital',
    tws (R8 sty tk l nodes fr) ws nx = R8 sty' tk' l' nodes' (fr + Z.of_nat (length ws)) /\
    St2 p0 tk' nodes' sty' (VV o' rend') ital' /\ tk_pos tk' = tk_pos tk /\ tk_default tk' = tk_default tk /\
    Shape CC o' SEP /\ lclosed csp o' /\ J None cells rend' /\ last_is l' w_eoc = false /\ ((l' = l /\ ws = []) \/ rowlast l').

Lemma mgoal8_step : forall tk l nodes sty fr nx a rest cells tk1 l1 nodes1 sty1,
  tws (R8 sty tk l nodes fr) a (nxt rest nx) = R8 sty1 tk1 l1 nodes1 (fr + Z.of_nat (length a)) ->
  tk_pos tk1 = tk_pos tk -> tk_default tk1 = tk_default tk -> rowlast l1 ->
  mgoal8 tk1 l1 nodes1 sty1 (fr + Z.of_nat (length a)) nx rest cells -> mgoal8 tk l nodes sty fr nx (a ++ rest) cells.
Proof.
  intros tk l nodes sty fr nx a rest cells tk1 l1 nodes1 sty1 E P1 D1 R1 (l' & tk' & nodes' & sty' & o' & rend' & ital' & E' & Hh & P & D & Hs & Hc & Hj & Hl & Hr).
  exists l', tk', nodes', sty', o', rend', ital'. rewrite tws_app, E, E'.
  split; [f_equal; rewrite app_length; lia|]. split; [exact Hh|]. split; [congruence|]. split; [congruence|]. split; [exact Hs|split; [exact Hc|split; [exact Hj|split; [exact Hl|]]]].
  right. destruct Hr as [[-> _]|Hr]; assumption.
Qed.

Lemma VV_chars : forall o rend ital s, VV o rend ++ tagx ital s = VV o (rend ++ tag ital s).
Proof. intros o rend ital s. rewrite xl_app, xl_tag, <- !app_assoc. reflexivity. Qed.

Lemma mgoal8_char : forall tk l nodes sty o rend ital fr nx w a b rest cells,
  char_of (hi w) = Some a -> char_of (lo w) = Some b -> St2 p0 tk nodes sty (VV o rend) ital ->
  (forall l1 nodes1 fr1, St2 p0 (acked tk) nodes1 sty (VV o (rend ++ tag ital (a ++ b))) ital -> linv l1 None ->
     mgoal8 (acked tk) l1 nodes1 sty fr1 nx rest cells) ->
  mgoal8 tk l nodes sty fr nx (w :: rest) cells.
Proof.
  intros tk l nodes sty o rend ital fr nx w a b rest cells Ha Hb Hh K.
  destruct (tw_char8 st p0 d pa ro q tm tc off tk l nodes sty _ ital fr w a b (nxt rest nx) Ha Hb Hh) as (nodes' & E & Gn).
  apply (mgoal8_step tk l nodes sty fr nx [w] rest cells (acked tk) (LWord w) nodes' sty).
  - cbn [tws length]. exact E.
  - reflexivity.
  - reflexivity.
  - destruct (char_word_class w a b Ha Hb) as (_ & Hp & _). exact (rowlast_word w Hp).
  - apply K; [rewrite <- VV_chars; exact Gn|exact (linv_char w a b Ha Hb)].
Qed.

(* a character token takes the next one into its word if that is a character too, the filler otherwise *)
Lemma mpack_char : forall b c ts, mpack d (MCh b c :: ts) None
  = match ts with MCh b' _ :: t => (b * 256 + b') :: mpack d t None | _ => (b * 256 + 128) :: mpack d ts None end.
Proof. intros b c [|[b' c'|w k|a] t]; reflexivity. Qed.

(* by induction on the length of the token list: a step consumes one token, or two characters packed into one word *)
Lemma mtoks_run8 : forall nx ts acc ital lc pc o rend tk l nodes sty fr, mok ts pc lc ital -> St2 p0 tk nodes sty (VV o rend) ital ->
  Shape CC o SEP -> lclosed csp o -> J lc acc rend -> linv l pc ->
  mgoal8 tk l nodes sty fr nx (mpack d ts None) (csem ts acc ital).
Proof.
  intros nx ts. induction ts as [ts IH] using (induction_ltof1 _ (@length mtok)). unfold ltof in IH.
  intros acc ital lc pc o rend tk l nodes sty fr Hok Hh Hs Hcl Hj Hl. destruct ts as [|[b c|w k|a] ts].
  - destruct Hl as [_ Hl]. exists l, tk, nodes, sty, o, rend, ital. cbn [mpack flush tws length csem]. rewrite Z.add_0_r.
    split; [reflexivity|split; [exact Hh|split; [reflexivity|split; [reflexivity|split; [exact Hs|split; [exact Hcl|split; [exact (J_weak _ _ _ Hj)|split; [exact Hl|left; split; reflexivity]]]]]]]].
  - destruct Hok as ([Rg Hc] & Hg & Hok). cbn [csem]. rewrite mpack_char.
    assert (Hhi : forall x, 0 <= x < 256 -> char_of (hi (b * 256 + x)) = Some [c])
      by (intros x Hx; rewrite hi_word by exact Hx; exact Hc).
    assert (Pad : mgoal8 tk l nodes sty fr nx ((b * 256 + 128) :: mpack d ts None) (csem ts (acc ++ [Cell c ital]) ital)).
    { apply (mgoal8_char tk l nodes sty o rend ital fr nx _ [c] [] _ _ (Hhi 128 ltac:(lia))); [rewrite lo_word by lia; exact char_of_pad|exact Hh|].
      intros l1 nodes1 fr1 Hh1 Hl1.
      exact (IH ts ltac:(cbn; lia) _ ital (Some c) None o _ (acked tk) l1 nodes1 sty fr1 Hok Hh1 Hs Hcl (J_char lc acc rend c ital Hj Hg) Hl1). }
    destruct ts as [|[b' c'|w k|a] t]; [exact Pad| |exact Pad|exact Pad].
    destruct Hok as ([Rg' Hc'] & Hg' & Hok'). cbn [csem].
    apply (mgoal8_char tk l nodes sty o rend ital fr nx _ [c] [c'] _ _ (Hhi b' Rg')); [rewrite lo_word by exact Rg'; exact Hc'|exact Hh|].
    intros l1 nodes1 fr1 Hh1 Hl1.
    apply (IH t ltac:(cbn; lia) _ ital (Some c') None o ((rend ++ [(c, ital)]) ++ [(c', ital)]) (acked tk) l1 nodes1 sty fr1 Hok').
    + cbn [app tag map] in Hh1. replace ((rend ++ [(c, ital)]) ++ [(c', ital)]) with (rend ++ [(c, ital); (c', ital)]) by (rewrite <- app_assoc; reflexivity). exact Hh1.
    + exact Hs.
    + exact Hcl.
    + apply (J_char (Some c)); [|exact Hg']. exact (J_char lc acc rend c ital Hj Hg).
    + exact Hl1.
  - destruct Hok as (Hpc & Hk & Hrest). cbn [mpack flush app].
    assert (Hpre : kprer k rend).
    { destruct k as [ch|ch|]; cbn [kprer]; try exact I. destruct Hrest as (_ & (c & -> & Hx) & _).
      destruct (J_pop c acc rend Hj) as (o1 & b & -> & _). exists o1, c, b. split; [reflexivity|exact Hx]. }
    assert (Hne : k = KBs -> rend <> []).
    { intros ->. destruct Hrest as (Hlc & _). destruct lc as [c|]; [|congruence].
      destruct (J_pop c acc rend Hj) as (o1 & b & -> & _). apply snoc_not_nil. }
    destruct (code_run8 st p0 d pa ro q tm tc off w k pc tk l nodes sty _ rend ital fr (nxt (mpack d ts None) nx) Hk Hpre Hne Hpc Hh Hl)
      as (l1 & nodes1 & E1 & Hh1 & Hl1 & Hr1).
    apply (mgoal8_step tk l nodes sty fr nx (ctl d w) _ _ (acked tk) l1 nodes1 sty E1 eq_refl eq_refl Hr1).
    destruct k as [ch|ch|]; cbn [csem ksemr] in *.
    + destruct Hrest as (Hg & Hok). exact (IH ts ltac:(cbn; lia) _ ital (Some ch) (Some w) o _ (acked tk) l1 nodes1 sty _ Hok Hh1 Hs Hcl (J_char lc acc rend ch ital Hj Hg) Hl1).
    + destruct Hrest as (Hg & (c & -> & Hx) & Hok). destruct (J_pop c acc rend Hj) as (o1 & b & -> & Hj').
      rewrite removelast_last in Hh1.
      exact (IH ts ltac:(cbn; lia) _ ital (Some ch) (Some w) o _ (acked tk) l1 nodes1 sty _ Hok Hh1 Hs Hcl (J_char None _ o1 ch ital Hj' Hg) Hl1).
    + destruct Hrest as (Hlc & Hok). destruct lc as [c|]; [|congruence]. destruct (J_pop c acc rend Hj) as (o1 & b & -> & Hj').
      rewrite removelast_last in Hh1.
      exact (IH ts ltac:(cbn; lia) _ ital None (Some w) o _ (acked tk) l1 nodes1 sty _ Hok Hh1 Hs Hcl Hj' Hl1).
  - destruct Hok as (Ha & Hpc & Hok). cbn [mpack flush app csem].
    destruct (mid_run8 st p0 d pa ro q tm tc off a pc tk l nodes sty _ ital fr (nxt (mpack d ts None) nx) Ha Hpc Hh Hl)
      as (l1 & tk1 & nodes1 & sty1 & V1 & E1 & Hh1 & P1 & D1 & Hv & Hl1 & Hr1).
    destruct (mid_shape CC SEP csp o lc acc rend V1 Hs Hcl Hj Hv) as (o' & rend' & -> & Hs' & Hcl' & Hj').
    apply (mgoal8_step tk l nodes sty fr nx (ctl d (midrow_word a)) _ _ tk1 l1 nodes1 sty1 E1 P1 D1 Hr1).
    exact (IH ts ltac:(cbn; lia) _ _ None (Some (midrow_word a)) o' rend' tk1 l1 nodes1 sty1 _ Hok Hh1 Hs' Hcl' Hj' Hl1).
Qed.
End RunD8.

Definition mtoks_of_item (it : item) : list mtok :=
  match it with
  | Ch c => [MCh (bc c) c]
  | Sp i => [MCode (special_word i) (KSp (nth (Z.to_nat i) special_608 0))]
  | Ext s g i => [MCh (bc s) s; MCode (ext_word g i) (KExt (ext_char g i))]
  | Mid a => [MMid a]
  | Bs => [MCode w_bs KBs]
  end.

Lemma pack_mpack : forall d its pend, pack d (flat_map toks_of_item its) pend = mpack d (flat_map mtoks_of_item its) pend.
Proof.
  intros d. induction its as [|it t IH]; intros pend; [reflexivity|].
  destruct it; cbn [flat_map toks_of_item mtoks_of_item app pack mpack].
  - destruct pend; rewrite IH; reflexivity.
  - rewrite IH. reflexivity.
  - destruct pend; cbn [flush app]; rewrite IH; reflexivity.
  - rewrite IH. reflexivity.
  - rewrite IH. reflexivity.
Qed.

Definition pc_of_c (prev : option item) : option Z :=
  match prev with
  | Some (Sp j) => Some (special_word j)
  | Some (Ext _ g i) => Some (ext_word g i)
  | Some (Mid a) => Some (midrow_word a)
  | Some Bs => Some w_bs
  | _ => None
  end.
Definition prev_inv (prev : option item) (lc : option Z) (ital : bool) : Prop :=
  match prev with
  | Some (Sp j) => 0 <= j < 16 /\ lc <> None
  | Some (Ch _) | Some (Ext _ _ _) => lc <> None
  | Some (Mid a) => 0 <= a < 16 /\ ital = is_italic_attr a
  | _ => True
  end.

Lemma items_ok_mid : forall a t prev, items_ok (Mid a :: t) prev = true -> 0 <= a < 16.
Proof.
  intros a t prev H. cbn [items_ok] in H. apply andb_true_iff in H. destruct H as [H _].
  apply andb_true_iff in H. destruct H as [H _]. apply andb_true_iff in H. destruct H as [H1 H2]. lia.
Qed.

Lemma hi_mid : forall a, 0 <= a < 16 -> hi (midrow_word a) = 145.
Proof. intros a Ha. destruct (mid_facts a Ha) as (_ & _ & _ & _ & _ & _ & _ & H). exact H. Qed.

(* the items of a row, seen as tokens, are well formed and compute the cells of the 608 screen *)
Lemma items_mok : forall its prev acc ital lc, items_ok its prev = true -> prev_inv prev lc ital ->
  mok (flat_map mtoks_of_item its) (pc_of_c prev) lc ital /\
  csem (flat_map mtoks_of_item its) acc ital = row_cells its acc ital.
Proof.
  induction its as [|it t IH]; intros prev acc ital lc Hok Hg; [split; [exact I|reflexivity]|].
  destruct (items_ok_inv it t prev Hok) as [Hok' Hit].
  destruct it as [c|i|s g i|a|]; cbn [flat_map mtoks_of_item app mok csem row_cells].
  - assert (P : prev_inv (Some (Ch c)) (Some c) ital) by (cbn [prev_inv]; discriminate).
    destruct (IH (Some (Ch c)) (acc ++ [Cell c ital]) ital (Some c) Hok' P) as [A B]. cbn [pc_of_c] in A.
    split; [split; [exact (carries_bc c Hit)|split; [exact (gchar_basic c Hit)|exact A]]|exact B].
  - destruct Hit as [Hi' Hne]. set (ch := nth (Z.to_nat i) special_608 0).
    assert (P : prev_inv (Some (Sp i)) (Some ch) ital) by (cbn [prev_inv]; split; [exact Hi'|discriminate]).
    destruct (IH (Some (Sp i)) (acc ++ [Cell ch ital]) ital (Some ch) Hok' P) as [A B]. cbn [pc_of_c] in A.
    split; [|exact B]. cbn [kind_ok]. split; [|split; [exact (special_match_608 i Hi')|split; [exact (gchar_special i Hi')|exact A]]].
    destruct prev as [[c|j|s g j|a|]|]; cbn [pc_of_c prev_inv] in *; try discriminate.
    + intros E. injection E as E. apply (Hne j eq_refl). symmetry. exact (special_word_inj j i (proj1 Hg) Hi' E).
    + apply word_neq_hi. rewrite hi_special. destruct (hi_ext g j) as [->| ->]; discriminate.
    + intros E. injection E as E. exact (special_ne_mid i a Hi' (proj1 Hg) (eq_sym E)).
    + apply word_neq_hi. rewrite hi_special, hi_bs. discriminate.
  - destruct Hit as [Hs Hi'].
    assert (P : prev_inv (Some (Ext s g i)) (Some (ext_char g i)) ital) by (cbn [prev_inv]; discriminate).
    destruct (IH (Some (Ext s g i)) (acc ++ [Cell (ext_char g i) ital]) ital (Some (ext_char g i)) Hok' P) as [A B].
    cbn [pc_of_c] in A. cbn [kind_ok]. rewrite removelast_last.
    split; [|exact B]. split; [exact (carries_bc s Hs)|]. split; [exact (gchar_basic s Hs)|]. split; [discriminate|].
    split; [exact (ext_word_ok g i Hi')|]. split; [exact (gchar_ext g i Hi')|]. split; [|exact A].
    exists s. split; [reflexivity|exact (basic_not_extended s Hs)].
  - pose proof (items_ok_mid a t prev Hok) as Ha.
    assert (P : prev_inv (Some (Mid a)) None (is_italic_attr a)) by (cbn [prev_inv]; split; [exact Ha|reflexivity]).
    destruct (IH (Some (Mid a)) (acc ++ [Opt]) (is_italic_attr a) None Hok' P) as [A B]. cbn [pc_of_c] in A.
    split; [|exact B]. split; [exact Ha|]. split; [|exact A].
    destruct prev as [[c|j|s g j|a'|]|]; cbn [pc_of_c prev_inv] in *; try discriminate.
    + intros E. injection E as E. exfalso. exact (special_ne_mid j a (proj1 Hg) Ha E).
    + intros E. exfalso. revert E. apply word_neq_hi. rewrite (hi_mid a Ha). destruct (hi_ext g j) as [->| ->]; discriminate.
    + intros E. injection E as E. destruct Hg as [Ha' ->]. rewrite (midrow_word_inj a' a Ha' Ha E). reflexivity.
    + intros E. exfalso. revert E. apply word_neq_hi. rewrite (hi_mid a Ha), hi_bs. discriminate.
  - assert (P : prev_inv (Some Bs) None ital) by exact I.
    destruct (IH (Some Bs) (removelast acc) ital None Hok' P) as [A B]. cbn [pc_of_c] in A. cbn [kind_ok].
    split; [|exact B]. split; [|split; [reflexivity|split; [|exact A]]].
    + destruct Hit as [[c ->]|[[j ->]|[s [g [i ->]]]]]; cbn [pc_of_c]; try discriminate.
      * apply word_neq_hi. rewrite hi_special, hi_bs. discriminate.
      * apply word_neq_hi. rewrite hi_bs. destruct (hi_ext g i) as [->| ->]; discriminate.
    + destruct Hit as [[c ->]|[[j ->]|[s [g [i ->]]]]]; cbn [prev_inv] in Hg; [exact Hg|exact (proj2 Hg)|exact Hg].
Qed.

(* the preamble part of stage 2 is stated for rows without mid-row codes: apply it to the row with the same preamble *)
Definition rich_of (r : row) : row := mkRow (rw_row r) (rw_indent r) (rw_tab r) (rw_style r) [Ch 65].

Lemma is_basic_65 : is_basic 65 = true.
Proof. vm_compute. reflexivity. Qed.

Lemma rich_of_ok : forall r, row_ok r = true -> rich_row_any (rich_of r) = true.
Proof.
  intros r H. destruct (row_ok_parts r H) as (Hr & Hm & Ht & _ & Hv & _ & Hn). destruct (row_ok_style r H) as [Hs1 Hs2].
  assert (Hlen : (1 <= length (cells_of r))%nat) by (destruct (cells_of r); [discriminate Hv|cbn [length]; lia]).
  unfold rich_row_any, row_ok, rich_of, cells_of. cbv zeta.
  cbn [rw_row rw_indent rw_tab rw_style rw_items row_cells app items_ok forallb rich_item existsb cell_vis last cell_space length].
  rewrite is_basic_65, Hm.
  replace (1 <=? rw_row r) with true by lia. replace (rw_row r <=? 15) with true by lia.
  replace (0 <=? rw_tab r) with true by lia. replace (rw_tab r <=? 3) with true by lia.
  replace (0 <=? rw_style r) with true by lia. replace (rw_style r <? 18) with true by lia.
  replace ((rw_indent r =? 0) || (rw_style r <=? 1)) with true by lia.
  replace (rw_indent r + rw_tab r + Z.of_nat 1 <=? 32) with true by lia. reflexivity.
Qed.

Lemma match_vis_in : forall cs o, match_cells cs o = true -> existsb cell_vis cs = true -> exists x, In x o /\ fst x <> 32.
Proof.
  apply (match_cells_ind (fun cs o => existsb cell_vis cs = true -> exists x, In x o /\ fst x <> 32)); cbn [existsb cell_vis orb].
  - discriminate.
  - intros c it it' cs o _ _ IH Hv. destruct (c =? 32) eqn:E; cbn [negb orb] in Hv.
    + destruct (IH Hv) as (x & Hx & Hne). exists x. split; [right; exact Hx|exact Hne].
    + exists (c, it'). split; [left; reflexivity|]. cbn [fst]. apply Z.eqb_neq. exact E.
  - intros cs o _ IH Hv. exact (IH Hv).
  - intros c it cs o _ _ IH Hv. destruct (IH Hv) as (x & Hx & Hne). exists x. split; [right; exact Hx|exact Hne].
Qed.

Lemma J_nonempty : forall cs o, J None cs o -> existsb cell_vis cs = true -> o <> [].
Proof. intros cs o (H1 & _) Hv ->. destruct (match_vis_in cs [] H1 Hv) as (x & [] & _). Qed.

Lemma row_len : forall r, row_ok r = true -> (length (cells_of r) <= 32)%nat /\ existsb cell_vis (cells_of r) = true /\ rw_items r <> [].
Proof.
  intros r H. destruct (row_ok_parts r H) as (_ & Hm & Ht & _ & Hv & _ & Hn). apply mem_In in Hm.
  assert (H0 : 0 <= rw_indent r) by (unfold indents_608 in Hm; cbn [In] in Hm; lia).
  split; [lia|split; [exact Hv|]]. intros E. unfold cells_of in Hv. rewrite E in Hv. discriminate Hv.
Qed.

Lemma ctl_ne : forall d w, ctl d w <> [].
Proof. intros [|] w; discriminate. Qed.

Lemma mpack_ne : forall d ts pend, ts <> [] \/ pend <> None -> mpack d ts pend <> [].
Proof.
  intros d. induction ts as [|t ts IH]; intros pend H.
  - destruct H as [H|H]; [congruence|]. destruct pend; [discriminate|congruence].
  - destruct t as [b c|w k|a]; cbn [mpack].
    + destruct pend; [discriminate|]. apply IH. right. discriminate.
    + intros E. apply app_eq_nil in E. destruct E as [_ E]. apply app_eq_nil in E. destruct E as [E _]. exact (ctl_ne d w E).
    + intros E. apply app_eq_nil in E. destruct E as [_ E]. apply app_eq_nil in E. destruct E as [E _]. exact (ctl_ne d _ E).
Qed.

Lemma St2_init : forall r, St2 (row_pos r) (mkTk [row_pos r] None false (row_pos r)) (pre_of r) (sty_of r) [] (rw_ital r).
Proof.
  intros r. unfold pre_of, sty_of. split.
  - split; [left; reflexivity|]. destruct (rw_ital r); (split; [reflexivity|split; [reflexivity|split; [reflexivity|split; [exact I|]]]]);
      intros _; (split; [reflexivity|]); intros n E T; cbn [map last] in E; try discriminate E. injection E as <-. discriminate T.
  - intros (V0 & c & b & E). destruct V0; discriminate E.
Qed.

Section Items8.
Variables (st : stash) (p0 : pos) (d : bool) (pa ro : creator) (q : option (creator * Q)) (tm : Q) (tc : str) (off : Q).
Notation R8 sty tk l nodes fr := (RS st d sty pa ro q tm tc off tk l nodes fr).

Lemma items_run8 : forall r CC SEP csp oprev tk l nodes sty fr nx, row_ok r = true ->
  St2 p0 tk nodes sty ((CC ++ xl oprev ++ SEP) ++ xl []) (rw_ital r) -> Shape CC oprev SEP -> lclosed csp oprev -> linv l None ->
  exists l' nodes' sty' ital' o' rend',
    tws (R8 sty tk l nodes fr) (mpack d (flat_map mtoks_of_item (rw_items r)) None) nx
      = R8 sty' (acked tk) l' nodes' (fr + Z.of_nat (length (mpack d (flat_map mtoks_of_item (rw_items r)) None))) /\
    St2 p0 (acked tk) nodes' sty' ((CC ++ xl o' ++ SEP) ++ xl rend') ital' /\ Shape CC o' SEP /\ lclosed csp o' /\
    J None (cells_of r) rend' /\ rend' <> [] /\ last_is l' w_eoc = false /\ rowlast l'.
Proof.
  intros r CC SEP csp oprev tk l nodes sty fr nx H Hh Hs Hcl Hl.
  destruct (row_ok_parts r H) as (_ & _ & _ & Hio & _). destruct (row_len r H) as (_ & Hv & Hne).
  destruct (items_mok (rw_items r) None [] (rw_ital r) None Hio I) as [Hok Hsem]. cbn [pc_of_c] in Hok. fold (cells_of r) in Hsem.
  destruct (mtoks_run8 st p0 d pa ro q tm tc off CC SEP csp nx (flat_map mtoks_of_item (rw_items r))
              [] (rw_ital r) None None oprev [] tk l nodes sty fr Hok Hh Hs Hcl (conj eq_refl (conj (Forall_nil _) I)) Hl)
    as (l' & tk' & nodes' & sty' & o' & rend' & ital' & E & Hh' & P & D & Hs' & Hcl' & Hj & Hl' & Hr).
  rewrite Hsem in Hj. pose proof (J_nonempty _ _ Hj Hv) as Hrn.
  assert (Etk : tk' = acked tk).
  { destruct (exists_last Hrn) as (r0 & [c b] & Er). pose proof Hh' as [(Hg & Hrx & _) _]. rewrite Er, xl_snoc, app_assoc in Hrx.
    destruct (ends_char_nopend _ _ _ _ _ Hrx) as [Pn _]. rewrite (pend_nil_norm tk' Hg Pn). unfold acked. rewrite P, D. reflexivity. }
  subst tk'. exists l', nodes', sty', ital', o', rend'.
  split; [exact E|split; [exact Hh'|split; [exact Hs'|split; [exact Hcl'|split; [exact Hj|split; [exact Hrn|split; [exact Hl'|]]]]]]].
  destruct Hr as [[_ X]|Hr]; [|exact Hr]. exfalso. revert X. apply mpack_ne. left.
  destruct (rw_items r) as [|it t]; [congruence|]. destruct it; discriminate.
Qed.
End Items8.

Definition nonemptyl (o : line) : bool := match o with [] => false | _ => true end.
Definition anychar (ls : list line) : bool := existsb nonemptyl ls.
Definition rawv : Type := (pos * list line)%type.
Definition vw : Type := (option pos * list line)%type.
Definition mkv (v : rawv) : vw := (if anychar (snd v) then Some (fst v) else None, snd v).

Fixpoint xcaps (x : list xch) (p : pos) (cur : line) (ls : list line) : list rawv :=
  match x with
  | [] => [(p, ls ++ [cur])]
  | XC c it :: t => xcaps t p (cur ++ [(c, it)]) ls
  | XB :: t => xcaps t p [] (ls ++ [cur])
  | XR q :: t => (p, ls ++ [cur]) :: xcaps t q [] []
  end.

Definition cview (c : precap) : vw := (pc_layout c, obs_lines (map onode_of (pc_nodes c)) [] false).

Lemma xcaps_xl : forall o x p cur ls, xcaps (xl o ++ x) p cur ls = xcaps x p (cur ++ o) ls.
Proof.
  induction o as [|[c it] o IH]; intros x p cur ls; [cbn [xl map app]; rewrite app_nil_r; reflexivity|].
  cbn [xl map app xcaps fst snd]. fold (xl o). rewrite IH, <- app_assoc. reflexivity.
Qed.

Lemma xcaps_tagx : forall b s x p cur ls, xcaps (tagx b s ++ x) p cur ls = xcaps x p (cur ++ tag b s) ls.
Proof. intros b s x p cur ls. rewrite <- xl_tag. apply xcaps_xl. Qed.

Lemma anychar_snoc : forall ls c, anychar (ls ++ [c]) = anychar ls || nonemptyl c.
Proof. intros ls c. unfold anychar. rewrite existsb_app. cbn [existsb]. rewrite orb_false_r. reflexivity. Qed.

Lemma build_view : forall F on p s e done cur ls c, chk on F = true -> W p F ->
  (forall rest, obs_lines (map onode_of (pc_nodes cur) ++ rest) [] false = ls ++ obs_lines rest c on) ->
  pc_layout cur = (if anychar (ls ++ [c]) then Some p else None) ->
  map cview (build_captions F s e done cur) = map cview done ++ map mkv (xcaps (rx on F) p c ls).
Proof.
  induction F as [|n t IH]; intros on p s e done cur ls c Hc Hw Ho Hl.
  - cbn [build_captions rx xcaps map]. rewrite map_app. cbn [map]. f_equal. unfold cview, mkv. cbn [fst snd].
    specialize (Ho []). rewrite app_nil_r in Ho. rewrite Ho, Hl. reflexivity.
  - assert (Ho' : forall m rest, obs_lines (map onode_of (pc_nodes cur ++ [m]) ++ rest) [] false = ls ++ obs_lines (onode_of m :: rest) c on)
      by (intros m rest; rewrite map_app, <- app_assoc; apply Ho).
    destruct n as [k x q]; destruct k; cbn [build_captions i_kind i_text i_pos rx chk is_on is_off is_repos W] in *.
    + destruct x as [|c0 x']; cbn [nonempty].
      * destruct Hw as [_ Hw]. exact (IH on p s e done cur ls c Hc Hw Ho Hl).
      * destruct Hw as [[X|Hq] Hw]; [discriminate X|]. subst q. rewrite xcaps_tagx.
        apply (IH on p s e done _ ls _ Hc Hw).
        -- intros rest. cbn [pc_nodes]. rewrite Ho'. reflexivity.
        -- cbn [pc_layout]. rewrite anychar_snoc. destruct c; cbn [app tag map nonemptyl]; rewrite orb_true_r; reflexivity.
    + unfold add_node. cbn [xcaps]. apply (IH on p s e done _ (ls ++ [c]) [] Hc Hw).
      * intros rest. cbn [pc_nodes]. rewrite Ho'. cbn [obs_lines].
        rewrite <- app_assoc. reflexivity.
      * cbn [pc_layout]. rewrite Hl, !anychar_snoc. cbn [nonemptyl]. rewrite orb_false_r. reflexivity.
    + apply andb_true_iff in Hc. destruct Hc as [H1 Hc]. destruct on; [discriminate|].
      unfold add_node. apply (IH true p s e done _ ls c Hc Hw).
      * intros rest. cbn [pc_nodes]. rewrite Ho'. reflexivity.
      * exact Hl.
    + apply andb_true_iff in Hc. destruct Hc as [H1 Hc]. destruct on; [|discriminate].
      unfold add_node. apply (IH false p s e done _ ls c Hc Hw).
      * intros rest. cbn [pc_nodes]. rewrite Ho'. reflexivity.
      * exact Hl.
    + apply andb_true_iff in Hc. destruct Hc as [H1 Hc]. destruct on; [discriminate|].
      cbn [xcaps map]. rewrite (IH false q s e (done ++ [cur]) (mkPre s e [] None) [] [] Hc Hw).
      * rewrite map_app, <- app_assoc. cbn [map app]. f_equal. f_equal. unfold cview, mkv. cbn [fst snd].
        specialize (Ho []). rewrite app_nil_r in Ho. rewrite Ho, Hl. reflexivity.
      * intros rest. reflexivity.
      * reflexivity.
Qed.

Lemma build_times : forall F s e done cur, Forall (fun c => pc_start c = s /\ pc_end c = e) done ->
  pc_start cur = s /\ pc_end cur = e -> Forall (fun c => pc_start c = s /\ pc_end c = e) (build_captions F s e done cur).
Proof.
  induction F as [|n t IH]; intros s e done cur Hd Hc.
  - cbn [build_captions]. apply Forall_app. split; [exact Hd|constructor; [exact Hc|constructor]].
  - destruct n as [k x q]; destruct k; cbn [build_captions i_kind i_text i_pos].
    + destruct (nonempty x); apply IH; assumption.
    + apply IH; assumption.
    + apply IH; assumption.
    + apply IH; assumption.
    + apply IH; [apply Forall_app; split; [exact Hd|constructor; [exact Hc|constructor]]|split; reflexivity].
Qed.

Definition lrel (o o' : line) : Prop := exists sp, o = o' ++ sp /\ blanks sp.
(* the line ends with a blank *)
Definition endsb (o : line) : bool := is_space (fst (last o (0, false))).
(* blanks are removed at the end, at least one if the line ends with a blank *)
Definition srel (o o' : line) : Prop := lrel o o' /\ (endsb o = true -> (length o' < length o)%nat).
Definition vrel (v v' : rawv) : Prop := fst v = fst v' /\ Forall2 srel (snd v) (snd v').

Lemma lrel_refl : forall o, lrel o o.
Proof. intros o. exists []. split; [symmetry; apply app_nil_r|reflexivity]. Qed.

Lemma srel_refl : forall o, endsb o = false -> srel o o.
Proof. intros o H. split; [apply lrel_refl|]. intros X. congruence. Qed.

Lemma F2_snoc : forall A B (R : A -> B -> Prop) l l' a b, Forall2 R l l' -> R a b -> Forall2 R (l ++ [a]) (l' ++ [b]).
Proof. intros A B R l l' a b H Hab. apply Forall2_app; [exact H|constructor; [exact Hab|constructor]]. Qed.


Lemma lrel_rstrip : forall (cur : line) b x, lrel (cur ++ tag b x) (cur ++ tag b (rstrip x)).
Proof.
  intros cur b x. destruct (rstrip_split x) as [sp [E F]]. exists (tag b sp). split; [|exact (blanks_tag b sp F)].
  rewrite E at 1. rewrite tag_app, app_assoc. reflexivity.
Qed.

Lemma lstrip_len : forall f l, (length (lstrip_by f l) <= length l)%nat.
Proof.
  intros f l. destruct (lstrip_split f l) as [sp [E _]]. apply (f_equal (@length Z)) in E. rewrite app_length in E. lia.
Qed.

(* a text node with text that ends with a blank loses at least that blank *)
Lemma srel_rstrip : forall (cur : line) b x, nonempty x = true -> srel (cur ++ tag b x) (cur ++ tag b (rstrip x)).
Proof.
  intros cur b x Hx. split; [apply lrel_rstrip|]. intros He.
  destruct x as [|c0 x0]; [discriminate Hx|]. destruct (exists_last (l := c0 :: x0)) as (l & c & E); [discriminate|]. rewrite E in *.
  unfold endsb in He. rewrite tag_app, app_assoc in He. cbn [tag map] in He. rewrite last_last in He. cbn [fst] in He.
  rewrite !app_length. unfold tag. rewrite !map_length. unfold rstrip, rstrip_by. rewrite rev_unit. cbn [lstrip_by]. rewrite He.
  rewrite rev_length, app_length. cbn [length]. pose proof (lstrip_len is_space (rev l)) as L. rewrite rev_length in L. lia.
Qed.

(* no empty text node (pass 2) *)
Definition net (l : list inode) : Prop := Forall (fun n => is_text n = true -> nonempty (i_text n) = true) l.

Lemma passes16_net : forall l, net (passes16 l).
Proof.
  intros l. unfold net. apply Forall_forall. intros n Hn Ht.
  assert (Ep : plain n = true) by (unfold plain, is_on, is_off, is_text in *; destruct (i_kind n); try discriminate; reflexivity).
  assert (Hin : In n (filter plain (passes16 l))) by (apply filter_In; split; assumption).
  rewrite passes16_keep_plain in Hin. apply filter_In in Hin. destruct Hin as [_ Hk]. unfold keep in Hk. rewrite Ep, Ht in Hk.
  cbn [andb] in Hk. apply negb_true_iff in Hk. apply negb_false_iff in Hk. exact Hk.
Qed.

(* cur: the current line so far. Either it does not end with a blank, or a text node follows on the same line *)
Definition Qs (l : list inode) : Prop := forall b p cur ls ls', endsb cur = false \/ next_plain_is_sep l = false -> Forall2 srel ls ls' ->
  Forall2 vrel (xcaps (rx b l) p cur ls) (xcaps (rx b (strip_line_ends l)) p cur ls').
(* when only italics nodes stand in front of the next separator, the current line has already been stripped *)
Definition Qs2 (l : list inode) : Prop := next_plain_is_sep l = true -> forall b p cur cur' ls ls', srel cur cur' -> Forall2 srel ls ls' ->
  Forall2 vrel (xcaps (rx b l) p cur ls) (xcaps (rx b (strip_line_ends l)) p cur' ls').

(* pass 7 strips a text node when the next plain node is a separator; from there to that separator the stripped line is
   carried along (Qs2), everywhere else the current line is still the same on both sides (Qs) *)
Lemma sle_view_aux : forall l, net l -> Qs l /\ Qs2 l.
Proof.
  induction l as [|n t IH]; intros N.
  - split.
    + intros b p cur ls ls' Hc H. cbn [strip_line_ends rx xcaps]. constructor; [|constructor].
      split; [reflexivity|]. cbn [snd]. apply F2_snoc; [exact H|]. apply srel_refl. destruct Hc as [Hc|Hc]; [exact Hc|discriminate Hc].
    + intros _ b p cur cur' ls ls' Hc H. cbn [strip_line_ends rx xcaps]. constructor; [|constructor].
      split; [reflexivity|]. cbn [snd]. apply F2_snoc; assumption.
  - inversion N as [|? ? Hn Nt]; subst. destruct (IH Nt) as [IH1 IH2]. split.
    + intros b p cur ls ls' Hc H. rewrite sle_cons2.
      destruct n as [k x q]; destruct k;
        cbn [next_plain_is_sep is_on is_off is_break is_repos is_text i_kind orb andb] in Hc |- *.
      * destruct (next_plain_is_sep t) eqn:Es.
        -- cbn [rx rstrip_node i_kind i_text i_pos]. rewrite !xcaps_tagx. apply (IH2 Es); [apply srel_rstrip; exact (Hn eq_refl)|exact H].
        -- cbn [rx i_kind i_text]. rewrite !xcaps_tagx. apply IH1; [right; exact Es|exact H].
      * assert (Hc' : endsb cur = false) by (destruct Hc as [Hc|Hc]; [exact Hc|discriminate Hc]).
        cbn [rx i_kind xcaps]. apply IH1; [left; reflexivity|]. apply F2_snoc; [exact H|exact (srel_refl cur Hc')].
      * cbn [rx i_kind]. apply IH1; assumption.
      * cbn [rx i_kind]. apply IH1; assumption.
      * assert (Hc' : endsb cur = false) by (destruct Hc as [Hc|Hc]; [exact Hc|discriminate Hc]).
        cbn [rx i_kind i_pos xcaps]. constructor; [|apply IH1; [left; reflexivity|constructor]].
        split; [reflexivity|]. cbn [snd]. apply F2_snoc; [exact H|exact (srel_refl cur Hc')].
    + intros Hs b p cur cur' ls ls' Hc H. rewrite sle_cons2.
      destruct n as [k x q]; destruct k;
        cbn [next_plain_is_sep is_on is_off is_break is_repos is_text i_kind orb andb] in Hs |- *.
      * discriminate Hs.
      * cbn [rx i_kind xcaps]. apply IH1; [left; reflexivity|]. apply F2_snoc; assumption.
      * cbn [rx i_kind]. apply (IH2 Hs); assumption.
      * cbn [rx i_kind]. apply (IH2 Hs); assumption.
      * cbn [rx i_kind i_pos xcaps]. constructor; [|apply IH1; [left; reflexivity|constructor]].
        split; [reflexivity|]. cbn [snd]. apply F2_snoc; assumption.
Qed.

Lemma format_view : forall l p, Forall2 vrel (xcaps (rx false l) p [] []) (xcaps (rx false (format_italics l)) p [] []).
Proof.
  intros l p. rewrite format_italics_is, <- (passes16_rx l).
  apply (proj1 (sle_view_aux (passes16 l) (passes16_net l))); [left; reflexivity|constructor].
Qed.

Inductive sepk : Type := SF | SB | SR (p : pos).
Definition sepx (s : sepk) : list xch := match s with SF => [] | SB => [XB] | SR p => [XR p] end.
Definition xseg : Type := (sepk * line)%type.
Definition flat (xs : list xseg) : list xch := concat (map (fun so => sepx (fst so) ++ xl (snd so)) xs).
Definition sepof (prev : option Z) (r : row) : sepk :=
  match prev with None => SF | Some lr => if rw_row r =? lr + 1 then SB else SR (row_pos r) end.
Definition lineok (cs : list cell) (o : line) : Prop :=
  match_line cs o = true /\ (length o <= 32)%nat /\ Forall gch o /\ existsb (fun x => negb (is_space (fst x))) o = true.
(* in the queued buffer a line may still carry the blank of a mid-row code of the next row: 33 characters at most, the
   last one a blank *)
Definition lineokw (cs : list cell) (o : line) : Prop :=
  match_line cs o = true /\ (length o <= (if endsb o then 33 else 32))%nat /\ Forall gch o /\ existsb (fun x => negb (is_space (fst x))) o = true.
Fixpoint Rrows (prev : option Z) (rows : list row) (xs : list xseg) : Prop :=
  match rows, xs with
  | [], [] => True
  | r :: t, so :: xs' => fst so = sepof prev r /\ lineokw (cells_of r) (snd so) /\ Rrows (Some (rw_row r)) t xs'
  | _, _ => False
  end.

Lemma flat_app : forall a b, flat (a ++ b) = flat a ++ flat b.
Proof. intros a b. unfold flat. rewrite map_app, concat_app. reflexivity. Qed.

Lemma flat_one : forall s o, flat [(s, o)] = sepx s ++ xl o.
Proof. intros s o. unfold flat. cbn [map concat fst snd]. apply app_nil_r. Qed.

Lemma vis_char : forall cs o, match_cells cs o = true -> Forall gch o -> existsb cell_vis cs = true ->
  existsb (fun x => negb (is_space (fst x))) o = true.
Proof.
  intros cs o Hm Hg Hv. destruct (match_vis_in cs o Hm Hv) as (x & Hx & Hne). apply existsb_exists. exists x. split; [exact Hx|].
  rewrite Forall_forall in Hg. destruct (gcharb_parts _ (Hg x Hx)) as [_ Q]. destruct (is_space (fst x)); [|reflexivity].
  exfalso. apply Hne. apply Q. reflexivity.
Qed.

Lemma blanks_novis : forall sp, blanks sp -> existsb (fun x => negb (is_space (fst x))) sp = false.
Proof.
  induction sp as [|x sp IH]; intros H; [reflexivity|]. unfold blanks in *. cbn [forallb] in H. apply andb_true_iff in H.
  cbn [existsb]. rewrite (proj1 H), (IH (proj2 H)). reflexivity.
Qed.

Lemma lclosed_lineok : forall cs o, lclosed cs o -> existsb cell_vis cs = true -> (length cs <= 32)%nat -> lineokw cs o.
Proof.
  intros cs o (o0 & sp & -> & Hm & Hg & Hsp) Hv Hlen.
  assert (Hb : blanks sp) by (destruct Hsp as [->|[b ->]]; reflexivity).
  pose proof (match_len _ _ Hm) as L0.
  split; [|split; [|split; [exact Hg|]]].
  - unfold match_line. rewrite (rstrip_obs_app_blanks o0 sp Hb). exact (match_rstrip _ _ Hm).
  - destruct Hsp as [->|[b ->]].
    + rewrite app_nil_r. destruct (endsb o0); lia.
    + unfold endsb. rewrite last_last. cbn [fst]. replace (is_space 32) with true by reflexivity.
      rewrite app_length. cbn [length]. lia.
  - rewrite existsb_app. apply Forall_app in Hg. rewrite (vis_char cs o0 Hm (proj1 Hg) Hv). reflexivity.
Qed.

Lemma J_lclosed : forall cs o, J None cs o -> lclosed cs o.
Proof. intros cs o (Hm & Hg & _). exists o, []. split; [symmetry; apply app_nil_r|split; [exact Hm|split; [exact Hg|left; reflexivity]]]. Qed.

Definition hasxc (x : list xch) : bool := existsb (fun a => negb (issep a)) x.

Lemma rx_hasxc : forall nodes b, hasxc (rx b nodes) = true -> existsb (fun n => nonempty (i_text n)) nodes = true.
Proof.
  induction nodes as [|n t IH]; intros b H; [discriminate H|].
  destruct n as [k x q]; destruct k; cbn [rx i_kind i_text i_pos existsb] in *.
  - destruct x as [|c x']; [exact (IH _ H)|reflexivity].
  - unfold hasxc in *. cbn [existsb issep negb orb] in H. rewrite (IH _ H). apply orb_true_r.
  - rewrite (IH _ H). apply orb_true_r.
  - rewrite (IH _ H). apply orb_true_r.
  - unfold hasxc in *. cbn [existsb issep negb orb] in H. rewrite (IH _ H). apply orb_true_r.
Qed.

Lemma lineok_nonempty : forall cs o, lineok cs o -> o <> [].
Proof. intros cs o (_ & _ & _ & H) ->. discriminate H. Qed.

Lemma lineokw_nonempty : forall cs o, lineokw cs o -> o <> [].
Proof. intros cs o (_ & _ & _ & H) ->. discriminate H. Qed.

Lemma hasxc_xl : forall o, o <> [] -> hasxc (xl o) = true.
Proof. intros [|[c b] o] H; [congruence|reflexivity]. Qed.

Lemma hasxc_app : forall a b, hasxc (a ++ b) = hasxc a || hasxc b.
Proof. intros. unfold hasxc. apply existsb_app. Qed.

Definition queued (ld : load) (cr : creator) : Prop :=
  exists r t xs, ld = r :: t /\ rx false (cr_nodes cr) = flat xs /\ Rrows None ld xs /\ W (row_pos r) (cr_nodes cr).

Lemma queued_not_empty : forall ld cr, queued ld cr -> cr_is_empty cr = false.
Proof.
  intros ld cr (r & t & xs & -> & Hrx & HR & _). unfold cr_is_empty. apply negb_false_iff. apply (rx_hasxc _ false). rewrite Hrx.
  destruct xs as [|[s o] xs]; [destruct HR|]. cbn [Rrows fst snd] in HR. destruct HR as (_ & Hlo & _).
  unfold flat. cbn [map concat fst snd]. rewrite !hasxc_app, (hasxc_xl o (lineokw_nonempty _ _ Hlo)). rewrite orb_true_r. reflexivity.
Qed.

Lemma load_wf_rows : forall ld, load_wf ld = true -> forallb row_ok ld = true.
Proof. intros ld H. destruct ld; [discriminate H|]. apply andb_true_iff in H. exact (proj1 H). Qed.

Definition ebounds (e : ecap) : Prop := 1 <= e_row e <= 15 /\ 0 <= e_col e <= 31.
Definition capok (e : ecap) (v : rawv) : Prop :=
  fst v = (e_row e, e_col e) /\ Forall2 lineok (e_lines e) (snd v) /\ ebounds e /\ snd v <> [].
(* before pass 7 *)
Definition capokw (e : ecap) (v : rawv) : Prop :=
  fst v = (e_row e, e_col e) /\ Forall2 lineokw (e_lines e) (snd v) /\ ebounds e /\ snd v <> [].

Lemma flat_cons : forall so xs, flat (so :: xs) = sepx (fst so) ++ xl (snd so) ++ flat xs.
Proof. intros so xs. unfold flat. cbn [map concat]. rewrite <- app_assoc. reflexivity. Qed.

Lemma capokw_row : forall r o, row_ok r = true -> lineokw (cells_of r) o ->
  capokw (mkE (rw_row r) (rw_indent r + rw_tab r) [cells_of r]) (row_pos r, [o]).
Proof.
  intros r o H Hlo. destruct (row_ok_parts r H) as (Hr & Hm & Ht & _ & Hv & _ & Hn). apply mem_In in Hm.
  assert (H0 : 0 <= rw_indent r) by (unfold indents_608 in Hm; cbn [In] in Hm; lia).
  assert (Hlen : (1 <= length (cells_of r))%nat) by (destruct (cells_of r); [discriminate Hv|cbn [length]; lia]).
  split; [reflexivity|split; [constructor; [exact Hlo|constructor]|split; [|discriminate]]].
  unfold ebounds. cbn [e_row e_col]. lia.
Qed.

Lemma group_view : forall t, Forall (fun r => row_ok r = true) t -> forall xs lr e p cur ls,
  Rrows (Some lr) t xs -> capokw e (p, ls ++ [cur]) ->
  Forall2 capokw (group_rows t (Some (e, lr))) (xcaps (flat xs) p cur ls).
Proof.
  intros t F. induction F as [|r t Hrow F IH]; intros xs lr e p cur ls HR Hc.
  - destruct xs as [|so xs]; [|destruct HR]. cbn [group_rows flat concat map xcaps]. constructor; [exact Hc|constructor].
  - destruct xs as [|so xs]; [destruct HR|]. cbn [Rrows] in HR. destruct HR as (Es & Hlo & HR).
    rewrite flat_cons, Es. cbn [group_rows sepof]. destruct Hc as (Hp & Hl & Hb & Hn). cbn [fst snd] in Hp, Hl.
    destruct (rw_row r =? lr + 1).
    + cbn [sepx app xcaps]. rewrite xcaps_xl. cbn [app]. apply IH; [exact HR|].
      split; [exact Hp|split; [|split; [exact Hb|]]]; cbn [fst snd e_row e_col e_lines].
      * apply F2_snoc; assumption.
      * apply snoc_not_nil.
    + cbn [sepx app xcaps]. constructor.
      * split; [exact Hp|split; [exact Hl|split; [exact Hb|]]]. cbn [snd]. apply snoc_not_nil.
      * rewrite xcaps_xl. cbn [app]. apply IH; [exact HR|].
        exact (capokw_row r _ Hrow Hlo).
Qed.

Lemma load_view : forall r t xs, row_ok r = true -> Forall (fun r => row_ok r = true) t -> Rrows None (r :: t) xs ->
  Forall2 capokw (expected_load (r :: t)) (xcaps (flat xs) (row_pos r) [] []).
Proof.
  intros r t xs Hrow F HR. destruct xs as [|so xs]; [destruct HR|]. cbn [Rrows] in HR. destruct HR as (Es & Hlo & HR).
  rewrite flat_cons, Es. unfold expected_load. cbn [group_rows sepof sepx app]. rewrite xcaps_xl. cbn [app].
  apply (group_view t F xs); [exact HR|].
  exact (capokw_row r _ Hrow Hlo).
Qed.

(* pass 7 strips the blanks at the end of the lines: what is left fits the row *)
Lemma lineok_srel : forall cs o o', lineokw cs o -> srel o o' -> lineok cs o'.
Proof.
  intros cs o o' (Hm & Hl & Hg & Hv) ((sp & -> & Hb) & Hs).
  split; [|split; [|split]].
  - unfold match_line in *. rewrite (rstrip_obs_app_blanks o' sp Hb) in Hm. exact Hm.
  - pose proof (app_length o' sp) as L. destruct (endsb (o' ++ sp)); [specialize (Hs eq_refl)|]; lia.
  - apply Forall_app in Hg. exact (proj1 Hg).
  - rewrite existsb_app, (blanks_novis sp Hb), orb_false_r in Hv. exact Hv.
Qed.

Lemma F2_comp : forall A B C (R : A -> B -> Prop) (S : B -> C -> Prop) (T : A -> C -> Prop),
  (forall a b c, R a b -> S b c -> T a c) -> forall l m n, Forall2 R l m -> Forall2 S m n -> Forall2 T l n.
Proof.
  intros A B C R S T H l m n H1. revert n.
  induction H1 as [|a b l m Hab _ IH]; intros n H2; inversion H2 as [|b' c m' n' Hbc H2']; subst; constructor.
  - exact (H _ _ _ Hab Hbc).
  - exact (IH _ H2').
Qed.

Lemma capok_vrel : forall es vs vs', Forall2 capokw es vs -> Forall2 vrel vs vs' -> Forall2 capok es vs'.
Proof.
  apply F2_comp. intros e v v' (Hp & Hl & Hb & Hn) [Ev Hv].
  split; [rewrite <- Ev; exact Hp|split; [exact (F2_comp _ _ _ _ _ _ lineok_srel _ _ _ Hl Hv)|split; [exact Hb|]]].
  intros X. rewrite X in Hv. inversion Hv. congruence.
Qed.

Lemma F2_map_views : forall A B C D (f : C -> D) (g : B -> D) (P : A -> B -> Prop) es vs caps,
  map f caps = map g vs -> Forall2 P es vs -> Forall2 (fun e c => exists v, f c = g v /\ P e v) es caps.
Proof.
  intros A B C D f g P es vs caps E H. revert caps E. induction H as [|e v es vs H1 H IH]; intros caps E.
  - destruct caps; [constructor|discriminate E].
  - destruct caps as [|c caps]; [discriminate E|]. cbn [map] in E. injection E as E1 E2.
    constructor; [exists v; split; assumption|apply IH; exact E2].
Qed.

Lemma match_lines_ok : forall ls os, Forall2 lineok ls os -> match_lines ls os = true.
Proof.
  intros ls os H. induction H as [|l o ls os (Hm & _) H IH]; [reflexivity|]. cbn [match_lines]. rewrite Hm, IH. reflexivity.
Qed.

Lemma anychar_ok : forall ls os, Forall2 lineok ls os -> os <> [] -> anychar os = true.
Proof.
  intros ls os H Hn. destruct H as [|l o ls os H1 H]; [congruence|]. unfold anychar. cbn [existsb].
  pose proof (lineok_nonempty _ _ H1) as X. destruct o; [congruence|reflexivity].
Qed.

Definition capgood (t0 : Q) (e : ecap) (c : precap) : Prop :=
  pc_start c = t0 /\ cchk false (pc_nodes c) = true /\ exists v, cview c = mkv v /\ capok e v.

Lemma cap_ok_good8 : forall t0 e' e c, capgood t0 e c -> (t0 < e')%Q -> cap_ok e (observe (set_end e' c)) = true.
Proof.
  intros t0 e' e c (Hs & Hbal & v & Ev & Hp & Hl & (Hr & Hc) & Hn) Hlt.
  unfold cview, mkv in Ev. rewrite (anychar_ok _ _ Hl Hn) in Ev. injection Ev as Elay Elines.
  unfold observe, set_end. cbn [pc_start pc_end pc_nodes pc_layout]. rewrite Elay, Hp, Hs. cbn [option_map].
  apply cap_ok_intro; try assumption; [rewrite Elines; exact (match_lines_ok _ _ Hl)|rewrite <- cchk_balanced; exact Hbal].
Qed.

Lemma load_ok_good8 : forall t0 e' es caps rest, Forall2 (capgood t0) es caps -> (t0 < e')%Q -> forall span,
  span = None \/ span = Some (t0, e') ->
  load_ok es (map observe (map (set_end e') caps) ++ rest) span = Some (rest, match es with [] => span | _ => Some (t0, e') end).
Proof.
  intros t0 e' es caps rest F Hlt. apply load_ok_rest.
  induction F as [|e c es caps Hc F IH]; cbn [map]; constructor; [|exact IH].
  split; [exact (cap_ok_good8 t0 e' e c Hc Hlt)|split; [exact (proj1 Hc)|reflexivity]].
Qed.

Lemma obs_head : forall ns cur it, exists o rest, obs_lines ns cur it = (cur ++ o) :: rest.
Proof.
  induction ns as [|n ns IH]; intros cur it.
  - exists [], []. cbn [obs_lines]. rewrite app_nil_r. reflexivity.
  - destruct n as [s| |b]; cbn [obs_lines].
    + destruct (IH (cur ++ map (fun c => (c, it)) s) it) as (o & rest & E). exists (map (fun c => (c, it)) s ++ o), rest.
      rewrite E, <- app_assoc. reflexivity.
    + exists [], (obs_lines ns [] it). rewrite app_nil_r. reflexivity.
    + exact (IH cur b).
Qed.

Lemma split_nosep_app : forall sep s r acc, ~ In sep s -> split_ch_aux sep (s ++ r) acc = split_ch_aux sep r (rev s ++ acc).
Proof.
  intros sep. induction s as [|c s IH]; intros r acc H; [reflexivity|]. cbn [app split_ch_aux].
  destruct (Z.eqb_spec c sep) as [E|E]; [exfalso; apply H; left; exact E|].
  rewrite IH by (intros X; apply H; right; exact X). cbn [rev]. rewrite <- app_assoc. reflexivity.
Qed.

Lemma split_obs : forall ns cur it acc, rev acc = map fst cur ->
  (forall ln x, In ln (obs_lines ns cur it) -> In x ln -> fst x <> 10) ->
  split_ch_aux 10 (concat (map otxt ns)) acc = map (map fst) (obs_lines ns cur it).
Proof.
  induction ns as [|n ns IH]; intros cur it acc Ha Hn.
  - cbn [map concat split_ch_aux obs_lines]. rewrite Ha. reflexivity.
  - destruct n as [s| |b]; cbn [map concat otxt obs_lines] in *.
    + assert (Hs : ~ In 10 s).
      { intros X. destruct (obs_head ns (cur ++ map (fun c => (c, it)) s) it) as (o & rest & E).
        apply (Hn ((cur ++ map (fun c => (c, it)) s) ++ o) (10, it)); [rewrite E; left; reflexivity| |reflexivity].
        apply in_or_app. left. apply in_or_app. right. apply in_map_iff. exists 10. split; [reflexivity|exact X]. }
      rewrite (split_nosep_app 10 s _ acc Hs). apply IH; [|exact Hn].
      rewrite rev_app_distr, rev_involutive, Ha, map_app, map_map. cbn [fst]. rewrite map_id. reflexivity.
    + cbn [app split_ch_aux map]. rewrite Z.eqb_refl, Ha. f_equal. apply (IH [] it []); [reflexivity|].
      intros ln x H1 H2. exact (Hn ln x (or_intror H1) H2).
    + exact (IH cur b acc Ha Hn).
Qed.


Lemma F2_and_right : forall A B (R : A -> B -> Prop) (P : B -> Prop) l l', Forall2 R l l' -> Forall P l' -> Forall2 (fun a b => R a b /\ P b) l l'.
Proof. intros A B R P l l' H. induction H; intros F; inversion F; subst; constructor; auto. Qed.

Lemma F2_in_r : forall A B (R : A -> B -> Prop) l l' b, Forall2 R l l' -> In b l' -> exists a, In a l /\ R a b.
Proof.
  intros A B R l l' b H. induction H as [|x y l l' Hxy H IH]; intros Hb; [destruct Hb|]. destruct Hb as [<-|Hb].
  - exists x. split; [left; reflexivity|exact Hxy].
  - destruct (IH Hb) as (a & Ha & Hr). exists a. split; [right; exact Ha|exact Hr].
Qed.

Theorem good_load : forall ld cr st t0 t1, load_wf ld = true -> queued ld cr ->
  exists caps, create_and_store st cr t0 t1 = stash_extend st caps /\ caps <> [] /\
    Forall (fun c => pc_start c = t0 /\ pc_end c = t1 /\ has_nodes c = true) caps /\
    (forall c ln, In c caps -> In ln (lines_of (cap_text c)) -> (length ln <= 32)%nat) /\
    (forall e, (t0 < e)%Q -> forall rest,
       load_ok (expected_load ld) (map observe (map (set_end e) caps) ++ rest) None = Some (rest, Some (t0, e))) /\
    Forall2 (capgood t0) (expected_load ld) caps.
Proof.
  intros ld cr st t0 t1 Hok Hg. pose proof (queued_not_empty ld cr Hg) as Hemp.
  destruct (load_parts row_ok ld Hok (load_wf_rows ld Hok)) as (r & t & -> & Hrow & Ft & _).
  destruct Hg as (r' & t' & xs & Eld & Hrx & HR & Hw). injection Eld as <- <-.
  set (nodes := cr_nodes cr) in *. set (F := format_italics nodes). set (p0 := row_pos r) in *.
  set (caps := build_captions F t0 t1 [] (mkPre t0 t1 [] None)).
  assert (Hview : map cview caps = map mkv (xcaps (rx false F) p0 [] [])).
  { exact (build_view F false p0 t0 t1 [] (mkPre t0 t1 [] None) [] [] (italics_balanced nodes) (W_format nodes p0 Hw) (fun rest => eq_refl) eq_refl). }
  assert (Hcap : Forall2 capok (expected_load (r :: t)) (xcaps (rx false F) p0 [] [])).
  { apply (capok_vrel _ (xcaps (rx false nodes) p0 [] [])); [rewrite Hrx; exact (load_view r t xs Hrow Ft HR)|exact (format_view nodes p0)]. }
  pose proof (F2_map_views _ _ _ _ cview mkv capok _ _ caps Hview Hcap) as F2.
  assert (Ftimes : Forall (fun c => pc_start c = t0 /\ pc_end c = t1) caps).
  { apply build_times; [constructor|split; reflexivity]. }
  pose proof (captions_balanced nodes t0 t1) as Fbal. fold F in Fbal. fold caps in Fbal.
  assert (FG : Forall2 (capgood t0) (expected_load (r :: t)) caps).
  { pose proof (F2_and_right _ _ _ _ _ _ (F2_and_right _ _ _ _ _ _ F2 Ftimes) Fbal) as X.
    revert X. apply Forall2_weaken. intros e c [[H1 [H2 _]] H3]. split; [exact H2|split; [exact H3|exact H1]]. }
  assert (Hnodes : forall c, In c caps -> has_nodes c = true).
  { intros c Hc. destruct (F2_in_r _ _ _ _ _ c F2 Hc) as (e & _ & v & Ev & _ & Hl & _ & Hn).
    unfold has_nodes. destruct (pc_nodes c) eqn:En; [|reflexivity]. exfalso.
    unfold cview, mkv in Ev. rewrite En in Ev. cbn [map obs_lines] in Ev. injection Ev as _ Ev. rewrite <- Ev in Hl.
    inversion Hl as [|l0 o0 ls os H1 H2]; subst. exact (lineok_nonempty _ _ H1 eq_refl). }
  exists caps. split; [|split; [|split; [|split; [|split; [|exact FG]]]]].
  - unfold create_and_store. rewrite Hemp. reflexivity.
  - pose proof (expected_load_nonempty r t) as Hne. intros E. rewrite E in FG. inversion FG as [X|]. congruence.
  - rewrite Forall_forall in *. intros c Hc. destruct (Ftimes c Hc) as [A1 A2]. split; [exact A1|split; [exact A2|exact (Hnodes c Hc)]].
  - intros c ln Hc Hln. destruct (F2_in_r _ _ _ _ _ c F2 Hc) as (e & _ & v & Ev & _ & Hl & _ & _).
    unfold cview, mkv in Ev. injection Ev as _ Ev.
    unfold lines_of, split_ch in Hln. rewrite cap_text_observe in Hln. unfold observe in Hln. cbn [o_nodes] in Hln.
    rewrite (split_obs _ [] false [] eq_refl) in Hln.
    + apply in_map_iff in Hln. destruct Hln as (o & <- & Ho). rewrite map_length. rewrite Ev in Ho.
      destruct (F2_in_r _ _ _ _ _ o Hl Ho) as (cs & _ & _ & Hlen & _). exact Hlen.
    + intros o x Ho Hx. rewrite Ev in Ho. destruct (F2_in_r _ _ _ _ _ o Hl Ho) as (cs & _ & _ & _ & Hgc & _).
      rewrite Forall_forall in Hgc. destruct (gcharb_parts _ (Hgc x Hx)) as [G _]. lia.
  - intros e Hlt rest. rewrite (load_ok_good8 t0 e _ caps rest FG Hlt None (or_introl eq_refl)).
    pose proof (expected_load_nonempty r t) as Hne. destruct (expected_load (r :: t)); [congruence|reflexivity].
Qed.

Lemma pos_times_nonzero : forall t1 t2 : Q, (0 < t1)%Q -> (t1 < t2)%Q -> Qeq_bool t2 0 = false.
Proof.
  intros t1 t2 H1 H2. destruct (Qeq_bool t2 0) eqn:E; [|reflexivity]. apply Qeq_bool_iff in E. exfalso.
  rewrite E in H2. exact (Qlt_irrefl 0 (Qlt_trans _ _ _ H1 H2)).
Qed.


Lemma read_queued : forall d ld off tc ws tc2 t1 t2 cr tk l ds fr, load_wf ld = true -> queued ld cr ->
  translate_line (rstate0 off) (tc, ws) = SccPoponStage4.B off stash0 tk l ds (Some (cr, t1)) t1 tc fr -> last_is l w_edm = false ->
  get_time tc2 0 off = Ok t2 -> (0 < t1)%Q -> (t1 < t2)%Q -> is_flash (mkPre t1 t2 [] None) = false ->
  exists caps, read off [(tc, ws); (tc2, emit_clear d)] = ROk caps /\
               ok_c05 (mkProg d [ld]) (Ok (map observe caps)) = true /\
               Forall2 (capgood t1) (expected_load ld) caps /\ Forall (fun c => pc_end c = t2) caps.
Proof.
  intros d ld off tc ws tc2 t1 t2 cr tk l ds fr H Hgood E1 Hl1 Hg2 H0 Hlt Hfl.
  destruct (SccPoponStage4.clear_line_some d off stash0 tk l ds cr t1 t1 tc fr tc2 t2 Hl1 Hg2) as (l2 & ds2 & fr2 & E2 & _).
  destruct (good_load ld cr stash0 t1 t2 H Hgood) as (caps & Es & Hne & Fc & Hlen & Hor & FG).
  exists caps.
  assert (Fe : Forall (fun c => pc_end c = t2) caps) by (rewrite Forall_forall in *; intros c Hc; apply (Fc c Hc)).
  split; [|split; [|split; [exact FG|exact Fe]]].
  - unfold read, run_lines. cbn [fold_left].
    rewrite E1, E2. unfold SccPoponStage4.B. cbn [r_err flush_implicit r_active r_queue r_stash].
    rewrite Es, stash_extend0.
    rewrite (filter_all has_nodes caps) by (rewrite Forall_forall in *; intros c Hc; apply (Fc c Hc)).
    rewrite Forall_forall in Fc. apply finish_read_ok; [exact Hne| | |].
    + unfold offending. rewrite map_map.
      assert (X : forall cs, (forall c, In c cs -> In c caps) -> concat (map (fun c => filter spec_long (spec_lines (snd (to_lcap c)))) cs) = []).
      { induction cs as [|c cs IH]; intros Hin; [reflexivity|]. cbn [map concat]. rewrite IH by (intros x Hx; apply Hin; right; exact Hx).
        rewrite app_nil_r. apply filter_none. intros ln Hln. unfold to_lcap in Hln. cbn [snd] in Hln.
        pose proof (Hlen c ln (Hin c (or_introl eq_refl)) Hln) as L. unfold spec_long. clear -L. lia. }
      apply X. auto.
    + apply (no_flash_times t1 t2 caps); [|exact Hfl]. intros c Hc. destruct (Fc c Hc) as (A1 & A2 & _). split; assumption.
    + intros c Hc. destruct (Fc c Hc) as (_ & A2 & _). rewrite A2. exact (pos_times_nonzero t1 t2 H0 Hlt).
  - unfold ok_c05. cbn [pg_loads loads_ok]. specialize (Hor t2 Hlt []). rewrite app_nil_r in Hor.
    rewrite (map_set_end_id _ _ Fe) in Hor. rewrite Hor. reflexivity.
Qed.


Lemma first_row8 : forall st (d : bool) q tm tc off dflt r fr nx, row_ok r = true ->
  exists l2 nodes2 sty2 ital2 rend,
    tws (mkR st (mkTk [] None false dflt) (if d then LNone else LWord w_rcl) d creator0 creator0 creator0 MPop q tm tc fr off None)
        (emit_row d r) nx
    = mkR st (mkTk [row_pos r] None false (row_pos r)) l2 d (mkCr nodes2 sty2) creator0 creator0 MPop q tm tc
          (fr + Z.of_nat (length (emit_row d r))) off None /\
    St2 (row_pos r) (mkTk [row_pos r] None false (row_pos r)) nodes2 sty2 (xl rend) ital2 /\ J None (cells_of r) rend /\ rend <> [] /\
    last_is l2 w_eoc = false /\ rowlast l2.
Proof.
  intros st d q tm tc off dflt r fr nx H. pose proof (rich_of_ok r H) as Hrich.
  destruct (pac_row_facts2 (rich_of r) Hrich) as (_ & Hpac & _).
  change (pac_word (rw_row (rich_of r)) (pac_attr (rich_of r))) with (pac_word (rw_row r) (pac_attr r)) in Hpac.
  unfold emit_row. rewrite pack_mpack. set (toks := mpack d (flat_map mtoks_of_item (rw_items r)) None).
  rewrite tws_app, app_length, Nat2Z.inj_add, Z.add_assoc.
  destruct (pac_unit_run2 (rich_of r) Hrich st d creator0 creator0 q tm tc off d dflt _ fr (nxt toks nx) (no_pac_after_prologue d _ Hpac))
    as (l1 & E1 & Hl1).
  unfold SQ in E1.
  change (pac_unit d (rich_of r)) with (pac_unit d r) in E1. change (pre_of (rich_of r)) with (pre_of r) in E1.
  change (sty_of (rich_of r)) with (sty_of r) in E1. change (row_pos (rich_of r)) with (row_pos r) in E1. rewrite E1.
  destruct (items_run8 st (row_pos r) d creator0 creator0 q tm tc off r [] [] [] [] (mkTk [row_pos r] None false (row_pos r)) l1
              (pre_of r) (sty_of r) (fr + Z.of_nat (length (pac_unit d r))) nx H (St2_init r))
    as (l2 & nodes2 & sty2 & ital2 & o' & rend & E2 & Hh2 & Hs2 & _ & Hj2 & Hrn & Hle2 & Hl2).
  { left. repeat split. }
  { exists [], []. split; [reflexivity|split; [reflexivity|split; [constructor|left; reflexivity]]]. }
  { exact Hl1. }
  assert (Eo : o' = []) by (destruct Hs2 as [(_ & Eo & _)|(_ & z & _ & X)]; [exact Eo|discriminate X]). subst o'.
  exists l2, nodes2, sty2, ital2, rend. split; [exact E2|split; [exact Hh2|split; [exact Hj2|split; [exact Hrn|split; assumption]]]].
Qed.

Lemma stage2c_state : forall d r off tc nx t, row_ok r = true ->
  get_time tc (Z.of_nat (length (emit_load d [r])) - (if d then 2 else 1)) off = Ok t ->
  exists l ds cr,
   tws (start_state off tc) (emit_load d [r]) nx =
     mkR stash0 (mkTk [row_pos r] None false (row_pos r)) l ds creator0 creator0 creator0 MPop
         (Some (cr, t)) t tc (Z.of_nat (length (emit_load d [r]))) off None
   /\ last_is l w_edm = false /\ queued [r] cr.
Proof.
  intros d r off tc nx t H Hg.
  destruct (first_row8 stash0 d None 0%Q tc off (tk_default tracker0) r (0 + (if d then 4 else 2)) (nxt (ctl d (ctrl_word 47)) nx) H)
    as (l2 & nodes2 & sty2 & ital2 & rend & E & Hh & Hj & Hrn & Hle & _).
  assert (Hq : queued [r] (mkCr nodes2 sty2)).
  { destruct (row_len r H) as (Hlen & Hv & _). destruct Hh as [(_ & Hrx & _ & _ & Hw & _) _].
    exists r, [], [(SF, rend)]. split; [reflexivity|split; [|split; [|exact Hw]]].
    - rewrite flat_one. rewrite <- (app_nil_r (rx false (cr_nodes (mkCr nodes2 sty2)))). exact Hrx.
    - split; [reflexivity|split; [exact (lclosed_lineok _ _ (J_lclosed _ _ Hj) Hv Hlen)|exact I]]. }
  destruct (load_run d [r] stash0 tracker0 LNone false creator0 creator0 creator0 None 0%Q tc 0 off nx t
              (mkTk [row_pos r] None false (row_pos r)) l2 (mkCr nodes2 sty2) eq_refl (queued_not_empty _ _ Hq) Hle Hg) as (l' & ds' & E' & Hl').
  { cbn [flat_map]. rewrite app_nil_r. exact E. }
  exists l', ds', (mkCr nodes2 sty2). split; [exact E'|split; [destruct Hl' as [->| ->]; reflexivity|exact Hq]].
Qed.

Lemma one_row_read : forall d r off tc tc2 t1 t2, row_ok r = true ->
  get_time tc (Z.of_nat (length (emit_load d [r])) - (if d then 2 else 1)) off = Ok t1 ->
  get_time tc2 0 off = Ok t2 -> (0 < t1)%Q -> (t1 < t2)%Q -> is_flash (mkPre t1 t2 [] None) = false ->
  exists caps, read off [(tc, emit_load d [r]); (tc2, emit_clear d)] = ROk caps /\
               ok_c05 (mkProg d [[r]]) (Ok (map observe caps)) = true /\
               Forall2 (capgood t1) (expected_load [r]) caps /\ Forall (fun c => pc_end c = t2) caps.
Proof.
  intros d r off tc tc2 t1 t2 H Hg1 Hg2 H0 Hlt Hfl.
  destruct (stage2c_state d r off tc None t1 H Hg1) as (l & ds & cr & E & Hl & Hq).
  assert (S1 : translate_line (rstate0 off) (tc, emit_load d [r]) = translate_words (start_state off tc) (emit_load d [r]))
    by reflexivity.
  rewrite tws_words, E in S1.
  assert (Hwf : load_wf [r] = true) by (unfold load_wf; cbn [forallb map distinct]; rewrite H; reflexivity).
  exact (read_queued d [r] off tc _ tc2 t1 t2 cr _ l ds _ Hwf Hq S1 Hl Hg2 H0 Hlt Hfl).
Qed.

(* STAGE 2c: `read` returns one caption with the load's times, placed at the row's cursor address *)
Theorem popon_stage2c_reads : forall d r off tc tc2 t1 t2, row_ok r = true ->
  get_time tc (Z.of_nat (length (emit_load d [r])) - (if d then 2 else 1)) off = Ok t1 ->
  get_time tc2 0 off = Ok t2 -> (0 < t1)%Q -> (t1 < t2)%Q -> is_flash (mkPre t1 t2 [] None) = false ->
  exists c, read off [(tc, emit_load d [r]); (tc2, emit_clear d)] = ROk [c] /\
            pc_start c = t1 /\ pc_end c = t2 /\ pc_layout c = Some (row_pos r).
Proof.
  intros d r off tc tc2 t1 t2 H Hg1 Hg2 H0 Hlt Hfl.
  destruct (one_row_read d r off tc tc2 t1 t2 H Hg1 Hg2 H0 Hlt Hfl) as (caps & Hread & _ & FG & Fe).
  unfold expected_load in FG. cbn [group_rows] in FG. inversion FG as [|e c es cs Hc Hnil]; subst. inversion Hnil; subst.
  inversion Fe as [|? ? He _]; subst. destruct Hc as (Hs & _ & v & Ev & Hp & Hln & _ & Hn).
  exists c. split; [exact Hread|split; [exact Hs|split; [reflexivity|]]].
  unfold cview, mkv in Ev. rewrite (anychar_ok _ _ Hln Hn) in Ev. injection Ev as Elay _. rewrite Elay, Hp. reflexivity.
Qed.

(* ... and that caption, observed as the harness observes it, is the CEA-608 screen of the row *)
Theorem popon_stage2c_ok : forall d r off tc tc2 t1 t2 caps, row_ok r = true ->
  get_time tc (Z.of_nat (length (emit_load d [r])) - (if d then 2 else 1)) off = Ok t1 ->
  get_time tc2 0 off = Ok t2 -> (0 < t1)%Q -> (t1 < t2)%Q -> is_flash (mkPre t1 t2 [] None) = false ->
  read off [(tc, emit_load d [r]); (tc2, emit_clear d)] = ROk caps ->
  ok_c05 (mkProg d [[r]]) (Ok (map observe caps)) = true.
Proof.
  intros d r off tc tc2 t1 t2 caps H Hg1 Hg2 H0 Hlt Hfl Hread.
  destruct (one_row_read d r off tc tc2 t1 t2 H Hg1 Hg2 H0 Hlt Hfl) as (caps' & Hread' & Hok & _).
  rewrite Hread' in Hread. injection Hread as <-. exact Hok.
Qed.

(* both together, in the form of stage 3 *)
Corollary popon_stage2c : forall d r off tc tc2 t1 t2, mid_row r = true ->
  get_time tc (Z.of_nat (length (emit_load d [r])) - (if d then 2 else 1)) off = Ok t1 ->
  get_time tc2 0 off = Ok t2 -> (0 < t1)%Q -> (t1 < t2)%Q -> is_flash (mkPre t1 t2 [] None) = false ->
  exists c, read off [(tc, emit_load d [r]); (tc2, emit_clear d)] = ROk [c] /\
            pc_start c = t1 /\ pc_end c = t2 /\ pc_layout c = Some (row_pos r) /\
            ok_c05 (mkProg d [[r]]) (Ok [observe c]) = true.
Proof.
  intros d r off tc tc2 t1 t2 H Hg1 Hg2 H0 Hlt Hfl. unfold mid_row in H.
  destruct (popon_stage2c_reads d r off tc tc2 t1 t2 H Hg1 Hg2 H0 Hlt Hfl) as (c & E & Hs & He & Hy).
  exists c. repeat split; try assumption.
  exact (popon_stage2c_ok d r off tc tc2 t1 t2 [c] H Hg1 Hg2 H0 Hlt Hfl E).
Qed.

(* midB_row: plain white preamble, basic characters and any number of mid-row codes;
   midA_row: exactly one mid-row code between two non-empty runs of basic characters *)
Definition chmid_item (it : item) : bool := match it with Ch _ | Mid _ => true | _ => false end.
Definition midB_row (r : row) : bool := row_ok r && (rw_style r =? 0) && forallb chmid_item (rw_items r).
Definition midA_row (r : row) : bool :=
  midB_row r &&
  match filter (fun it => negb (basic_item it)) (rw_items r) with
  | [Mid _] => basic_item (hd Bs (rw_items r)) && basic_item (last (rw_items r) Bs)
  | _ => false
  end.

Lemma midA_midB : forall r, midA_row r = true -> midB_row r = true.
Proof. intros r H. unfold midA_row in H. apply andb_true_iff in H. exact (proj1 H). Qed.

Lemma midB_mid : forall r, midB_row r = true -> mid_row r = true.
Proof.
  intros r H. unfold midB_row in H. apply andb_true_iff in H. destruct H as [H _]. apply andb_true_iff in H. exact (proj1 H).
Qed.

Corollary popon_stage2c_B : forall d r off tc tc2 t1 t2 caps, midB_row r = true ->
  get_time tc (Z.of_nat (length (emit_load d [r])) - (if d then 2 else 1)) off = Ok t1 ->
  get_time tc2 0 off = Ok t2 -> (0 < t1)%Q -> (t1 < t2)%Q -> is_flash (mkPre t1 t2 [] None) = false ->
  read off [(tc, emit_load d [r]); (tc2, emit_clear d)] = ROk caps ->
  ok_c05 (mkProg d [[r]]) (Ok (map observe caps)) = true.
Proof. intros d r off tc tc2 t1 t2 caps H. exact (popon_stage2c_ok d r off tc tc2 t1 t2 caps (midB_mid r H)). Qed.

Corollary popon_stage2c_A : forall d r off tc tc2 t1 t2 caps, midA_row r = true ->
  get_time tc (Z.of_nat (length (emit_load d [r])) - (if d then 2 else 1)) off = Ok t1 ->
  get_time tc2 0 off = Ok t2 -> (0 < t1)%Q -> (t1 < t2)%Q -> is_flash (mkPre t1 t2 [] None) = false ->
  read off [(tc, emit_load d [r]); (tc2, emit_clear d)] = ROk caps ->
  ok_c05 (mkProg d [[r]]) (Ok (map observe caps)) = true.
Proof. intros d r off tc tc2 t1 t2 caps H. exact (popon_stage2c_B d r off tc tc2 t1 t2 caps (midA_midB r H)). Qed.

(* the domains are inhabited: every mid-row attribute between two words; several codes; all item kinds with a coloured
   underlined indented preamble and with an italic preamble, mid-row codes first, last, repeated and after a backspace *)
Definition wit_row : row :=
  mkRow 3 4 2 1 [Ch 97; Sp 3; Mid 14; Ext 101 1 5; Bs; Ch 98; Mid 15; Sp 1; Mid 2; Ch 99; Mid 14; Mid 14].

Example stage2c_domains_inhabited :
  forallb (fun a => midA_row (mkRow 1 0 0 0 [Ch 97; Ch 98; Mid a; Ch 99; Ch 46])) (zrange 0 16) = true /\
  midB_row (mkRow 15 24 2 0 [Mid 1; Ch 97; Mid 14; Mid 0; Ch 98; Mid 15]) = true /\
  mid_row wit_row = true /\
  mid_row (mkRow 9 0 0 15 [Mid 0; Ch 97; Mid 14; Mid 0; Mid 14; Ch 98; Bs; Mid 3]) = true /\
  cells_of wit_row = [Cell 97 false; Cell 191 false; Opt; Cell 98 true; Opt; Cell 176 true; Opt; Cell 99 false; Opt; Opt].
Proof.
  split; [|vm_compute; repeat split].
  (* the sixteen rows have the same four characters: is_basic (a search of the code table) is evaluated once for each *)
  assert (B : is_basic 97 = true /\ is_basic 98 = true /\ is_basic 99 = true /\ is_basic 46 = true) by (vm_compute; repeat split).
  destruct B as (B1 & B2 & B3 & B4).
  let l := eval vm_compute in (zrange 0 16) in change (zrange 0 16) with l.
  cbn [forallb]. unfold midA_row, midB_row, row_ok. cbn [rw_items items_ok]. rewrite B1, B2, B3, B4. vm_compute. reflexivity.
Qed.

(* the hypotheses of the theorems are satisfiable together: the theorem applied to a concrete doubled stream *)
Example stage2c_instance : exists c,
  read 0 [(lit "00:00:01;00", emit_load true [wit_row]); (lit "00:00:05;00", emit_clear true)] = ROk [c] /\
  pc_layout c = Some (3, 6) /\ ok_c05 (mkProg true [[wit_row]]) (Ok [observe c]) = true.
Proof.
  destruct (popon_stage2c true wit_row 0 (lit "00:00:01;00") (lit "00:00:05;00") 2000000 5000000) as (c & E & _ & _ & Hy & Hok);
    try (vm_compute; reflexivity).
  exists c. split; [exact E|split; [exact Hy|exact Hok]].
Qed.
