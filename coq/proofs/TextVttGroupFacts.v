(* C03: WebVTT captions written as several cues (layout groups): no cue text of any group contains the arrow,
   whatever the node list and wherever the layouts change; with one layout the groups are the single cue text of
   model/TextWrite.v. *)
From Coq Require Import List ZArith Bool.
From PV Require Import lib.Sx lib.Str model.TextNodes model.TextWrite model.TextWriteVtt.
From PV Require Import proofs.TextVttFacts.
Import ListNotations.
Open Scope Z_scope.

(* a group ends where the layout changes: the step is a step of the one-cue writer, after a cut from the start state *)
Definition cut_at (st : gstate) (ln : lnode) : bool :=
  match snd ln with
  | NText _ => str_nonempty (g_s st) && lay_truthy (g_cur st) && negb (fst ln =? g_cur st)
  | NStyle start _ =>
      start && str_nonempty (g_s st) && lay_truthy (g_cur st) && lay_truthy (fst ln) && negb (fst ln =? g_cur st)
  | NBreak => false
  end.

Lemma vttg_step_cut : forall st ln, exists cur,
  vttg_step st ln =
  let '(s, f, p) := vtt_step true (if cut_at st ln then ([], true, false) else (g_s st, g_first st, g_prev st)) (snd ln) in
  mkG s cur f p (if cut_at st ln then (g_s st, g_cur st) :: g_out st else g_out st).
Proof.
  intros st [l [t| |[] sty]]; cbn [vttg_step cut_at vtt_step snd fst];
    try destruct (_ && negb (l =? g_cur st)); eexists; reflexivity.
Qed.

Lemma cut_at_nonempty : forall st ln, cut_at st ln = true -> g_s st <> [].
Proof.
  intros st [l n] H E. unfold cut_at in H. rewrite E in H. cbn [snd str_nonempty] in H.
  destruct n as [t| |start sty]; [discriminate|discriminate|]. rewrite andb_false_r in H. discriminate.
Qed.

(* hence an invariant of the one-cue writer holds of the open group, and what it implies for a non-empty text of every
   finished one *)
Lemma vtt_groups_inv : forall (P : str * bool * bool -> Prop) (N : node -> Prop) (Q : str -> Prop),
  P ([], true, false) -> (forall acc n, P acc -> N n -> P (vtt_step true acc n)) ->
  (forall s f p, P (s, f, p) -> s <> [] -> Q s) ->
  forall lns, Forall (fun ln => N (snd ln)) lns -> Forall (fun g => Q (fst g)) (vtt_groups lns).
Proof.
  intros P N Q P0 Pstep PQ lns H. unfold vtt_groups.
  set (I := fun st => P (g_s st, g_first st, g_prev st) /\ Forall (fun g => Q (fst g)) (g_out st)).
  assert (G : I (fold_left vttg_step lns (mkG [] 0 true false []))).
  { apply (fold_left_inv I (fun ln => N (snd ln))); [|exact H|split; [exact P0|constructor]].
    intros st ln [HP HQ] Hn. destruct (vttg_step_cut st ln) as [cur ->]. destruct (cut_at st ln) eqn:E.
    - pose proof (Pstep _ (snd ln) P0 Hn) as R. destruct (vtt_step true ([], true, false) (snd ln)) as [[s f] p].
      split; [exact R|]. constructor; [|exact HQ]. exact (PQ _ _ _ HP (cut_at_nonempty _ _ E)).
    - pose proof (Pstep _ (snd ln) HP Hn) as R. destruct (vtt_step true _ (snd ln)) as [[s f] p]. split; [exact R|exact HQ]. }
  destruct G as [HP HQ]. apply Forall_rev. destruct (g_s _) as [|c s] eqn:E; [exact HQ|].
  constructor; [|exact HQ]. apply (PQ _ _ _ HP). discriminate.
Qed.

Theorem vtt_groups_no_arrow : forall lns, Forall (fun g => is_infix (lit "-->") (fst g) = false) (vtt_groups lns).
Proof.
  intros lns. apply (vtt_groups_inv (fun acc => is_infix arrow (fst (fst acc)) = false) (fun _ => True)
                      (fun s => is_infix (lit "-->") s = false)).
  - reflexivity.
  - intros acc n H _. apply vtt_step_no_arrow, H.
  - intros s f p H _. exact H.
  - apply Forall_forall. intros; exact I.
Qed.

Definition same_layout (l : Z) (lns : list lnode) : bool := forallb (fun ln => fst ln =? l) lns.

Lemma no_cut : forall l cur (b c : bool), cur = l \/ cur = 0 -> b && lay_truthy cur && c && negb (l =? cur) = false.
Proof.
  intros l cur b c [-> | ->].
  - rewrite Z.eqb_refl. cbn [negb]. apply andb_false_r.
  - unfold lay_truthy. cbn. rewrite andb_false_r. reflexivity.
Qed.

Lemma vttg_run_same : forall l lns s cur first prev, same_layout l lns = true -> (cur = l \/ cur = 0) ->
  let st := fold_left vttg_step lns (mkG s cur first prev []) in
  g_out st = [] /\ g_s st = fst (fst (fold_left (vtt_step true) (map snd lns) (s, first, prev))).
Proof.
  intros l lns. induction lns as [|[l0 n] lns IH]; intros s cur first prev Hl Hc; [split; reflexivity|].
  cbn [same_layout forallb fst] in Hl. apply andb_true_iff in Hl. destruct Hl as [Hl0 Hl]. apply Z.eqb_eq in Hl0. subst l0.
  cbn [fold_left map snd]. destruct n as [t| |start sty]; cbn [vttg_step vtt_step g_s g_cur g_first g_prev g_out].
  - assert (E : str_nonempty s && lay_truthy cur && negb (l =? cur) = false).
    { pose proof (no_cut l cur (str_nonempty s) true Hc) as Q. rewrite andb_true_r in Q. exact Q. }
    rewrite E. apply IH; [exact Hl|left; reflexivity].
  - apply IH; [exact Hl|exact Hc].
  - assert (E : start && str_nonempty s && lay_truthy cur && lay_truthy l && negb (l =? cur) = false)
      by (apply (no_cut l cur (start && str_nonempty s) (lay_truthy l) Hc)).
    rewrite E. destruct start; apply IH; assumption.
Qed.

Theorem vtt_groups_one_layout : forall l lns, same_layout l lns = true ->
  map fst (vtt_groups lns) = match vtt_cue_text (map snd lns) with [] => [] | s => [s] end.
Proof.
  intros l lns H. unfold vtt_groups, vtt_cue_text, vtt_cue_text_gen.
  destruct (vttg_run_same l lns [] 0 true false H (or_intror eq_refl)) as [Ho Hs]. cbv zeta in Ho, Hs.
  rewrite Ho. unfold str in *. rewrite <- Hs. destruct (g_s _); reflexivity.
Qed.
