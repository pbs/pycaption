(* C17: facts about the model of textwrap.fill (model/SccWrap.v): every row fits the width (wrap_rows_le), only
   whitespace is removed (wrap_keeps_nonspace), rows consist of characters of the text (wrap_forallb).  wrap_inv is the
   invariant rule all three - and the word refinement of proofs/SccWordsFacts.v - are proved with. *)
From Coq Require Import List ZArith Lia Bool.
From PV Require Import lib.Sx lib.Str lib.StrFacts model.SccWrap.
Import ListNotations.

Definition sumlen (l : list str) : nat := fold_right (fun c n => (length c + n)%nat) 0%nat l.

Lemma sumlen_concat : forall l, length (concat l) = sumlen l.
Proof. induction l; simpl; [reflexivity|]. rewrite app_length, IHl. reflexivity. Qed.
Lemma sumlen_app : forall a b, sumlen (a ++ b) = (sumlen a + sumlen b)%nat.
Proof. induction a; intros; simpl; [reflexivity|]. rewrite IHa. lia. Qed.
Lemma sumlen_rev : forall l, sumlen (rev l) = sumlen l.
Proof. induction l; simpl; [reflexivity|]. rewrite sumlen_app, IHl. simpl. lia. Qed.

Lemma concat_split_chunks : forall s, concat (split_chunks s) = s.
Proof.
  induction s as [|c t IH]; [reflexivity|]. cbn [split_chunks].
  destruct (split_chunks t) as [|[|d ds] rest]; simpl in *.
  - subst. reflexivity.
  - subst. reflexivity.
  - destruct (Bool.eqb (is_sp c) (is_sp d)); simpl; rewrite <- IH; reflexivity.
Qed.

Lemma take_fit_spec : forall width chunks cur cur_len cur' len' rest,
  take_fit width chunks cur cur_len = (cur', len', rest) -> cur_len = sumlen cur -> (cur_len <= width)%nat ->
  len' = sumlen cur' /\ (len' <= width)%nat /\ (exists taken, cur' = rev taken ++ cur /\ chunks = taken ++ rest) /\
  match rest with c :: _ => (width < len' + length c)%nat | [] => True end.
Proof.
  induction chunks as [|c t IH]; intros cur cur_len cur' len' rest H E L; cbn [take_fit] in H.
  - inversion H; subst. repeat split; auto. exists []. split; reflexivity.
  - destruct (cur_len + length c <=? width)%nat eqn:F.
    + apply IH in H; [|simpl; lia|lia]. destruct H as (H1 & H2 & (taken & H4 & H5) & H6). repeat split; auto.
      exists (c :: taken). subst. cbn [rev]. rewrite <- app_assoc. split; reflexivity.
    + inversion H; subst. repeat split; auto; try lia. exists []. split; reflexivity.
Qed.

(* What wrap_step does: after a leading whitespace chunk is dropped (not on the first line), the chunks `taken` fit on
   the line and the head of `rest` does not; a head longer than the width gives its first piece to the line; a trailing
   whitespace chunk of the line is dropped; an empty line is not recorded. *)
Lemma wrap_step_cases : forall width chunks lines chunks' lines',
  wrap_step width chunks lines = (chunks', lines') ->
  exists taken rest line,
    drop_first_ws chunks (match lines with [] => false | _ => true end) = taken ++ rest /\ (sumlen line <= width)%nat /\
    ((line = taken /\ chunks' = rest /\
      match rest with c :: _ => (length c <= width < sumlen taken + length c)%nat | [] => True end)
     \/ exists c r, rest = c :: r /\ (width < length c)%nat /\
          line = taken ++ [firstn (width - sumlen taken) c] /\ chunks' = skipn (width - sumlen taken) c :: r) /\
    lines' = match drop_last_ws (rev line) with [] => lines | x :: y => concat (rev (x :: y)) :: lines end.
Proof.
  intros width chunks lines chunks' lines' H. unfold wrap_step in H.
  destruct (take_fit width (drop_first_ws chunks match lines with [] => false | _ => true end) [] 0%nat)
    as [[cur len] rest] eqn:T.
  apply take_fit_spec in T; [|reflexivity|lia]. destruct T as (-> & T2 & (taken & T4 & T5) & T6).
  rewrite app_nil_r in T4. subst cur. rewrite sumlen_rev in *. exists taken, rest. unfold handle_long in H.
  assert (P : forall line ch3,
            match drop_last_ws (rev line) with [] => (ch3, lines) | x :: y => (ch3, concat (rev (x :: y)) :: lines) end
            = (chunks', lines') ->
            chunks' = ch3 /\ lines' = match drop_last_ws (rev line) with [] => lines | x :: y => concat (rev (x :: y)) :: lines end).
  { intros line ch3 E. destruct (drop_last_ws (rev line)); inversion E; split; reflexivity. }
  destruct rest as [|c r]; [|destruct (width <? length c)%nat eqn:LW].
  - destruct (P taken [] H) as [-> L]. exists taken. split; [exact T5|]. split; [exact T2|]. split; [left; auto|exact L].
  - apply Nat.ltb_lt in LW. exists (taken ++ [firstn (width - sumlen taken) c]).
    rewrite <- rev_unit in H. destruct (P _ _ H) as [-> L]. split; [exact T5|]. split.
    + rewrite sumlen_app. simpl. rewrite firstn_length. lia.
    + split; [right; exists c, r; auto|exact L].
  - apply Nat.ltb_ge in LW. destruct (P taken (c :: r) H) as [-> L]. exists taken. split; [exact T5|]. split; [exact T2|].
    split; [left; repeat split; auto; lia|exact L].
Qed.

Lemma sumlen_drop_last_ws : forall l, (sumlen (drop_last_ws l) <= sumlen l)%nat.
Proof. intros [|x t]; [simpl; lia|]. cbn [drop_last_ws]. destruct (is_ws_chunk x); simpl; lia. Qed.

Lemma wrap_step_line_le : forall width chunks lines chunks' lines',
  wrap_step width chunks lines = (chunks', lines') ->
  (forall r, In r lines -> (length r <= width)%nat) ->
  (forall r, In r lines' -> (length r <= width)%nat).
Proof.
  intros width chunks lines chunks' lines' H Hl.
  destruct (wrap_step_cases _ _ _ _ _ H) as (taken & rest & line & _ & L & _ & ->).
  pose proof (sumlen_drop_last_ws (rev line)) as D. rewrite sumlen_rev in D.
  destruct (drop_last_ws (rev line)) as [|x y]; [exact Hl|]. intros r [<-|Hr]; [|auto].
  rewrite sumlen_concat, sumlen_rev. lia.
Qed.

Definition ns (s : str) : str := filter (fun c => negb (is_space c)) s.

Lemma ns_app : forall a b, ns (a ++ b) = ns a ++ ns b.
Proof. intros. apply filter_app. Qed.
Lemma ns_ws_chunk : forall c, is_ws_chunk c = true -> ns c = [].
Proof.
  induction c as [|x t IH]; intros H; [reflexivity|]. simpl in H. apply andb_prop in H. destruct H as [H1 H2].
  simpl. rewrite H1. simpl. auto.
Qed.
Lemma ns_munge : forall s, ns (munge s) = ns s.
Proof.
  induction s as [|c t IH]; [reflexivity|]. simpl. rewrite IH.
  destruct (tw_is_ws c) eqn:W.
  - assert (S1 : is_space c = true) by (unfold tw_is_ws, is_space in *; lia).
    rewrite S1. reflexivity.
  - reflexivity.
Qed.

Definition measure (chunks : list str) : nat := (sumlen chunks + length chunks)%nat.

Lemma ns_drop_last_ws : forall l, ns (concat (rev (drop_last_ws l))) = ns (concat (rev l)).
Proof.
  intros [|l t]; [reflexivity|]. cbn [drop_last_ws]. destruct (is_ws_chunk l) eqn:Q; [|reflexivity].
  cbn [rev]. rewrite concat_app, ns_app. cbn [concat]. rewrite app_nil_r, (ns_ws_chunk _ Q), app_nil_r. reflexivity.
Qed.

Lemma wrap_step_spec : forall width chunks lines chunks' lines',
  (1 <= width)%nat -> chunks <> [] ->
  wrap_step width chunks lines = (chunks', lines') ->
  ns (concat (rev lines')) ++ ns (concat chunks') = ns (concat (rev lines)) ++ ns (concat chunks)
  /\ (measure chunks' < measure chunks)%nat.
Proof.
  intros width chunks lines chunks' lines' W NE H.
  destruct (wrap_step_cases _ _ _ _ _ H) as (taken & rest & line & E & _ & C & ->).
  assert (D : ns (concat (taken ++ rest)) = ns (concat chunks) /\ (measure (taken ++ rest) <= measure chunks)%nat
              /\ (taken ++ rest = [] -> (measure (taken ++ rest) < measure chunks)%nat)).
  { rewrite <- E. unfold drop_first_ws. destruct chunks as [|c0 r0]; [congruence|].
    destruct (is_ws_chunk c0 && _) eqn:Q.
    - apply andb_prop in Q. destruct Q as [Q _]. cbn [concat]. rewrite ns_app, (ns_ws_chunk _ Q).
      unfold measure. simpl. repeat split; intros; lia.
    - repeat split; try lia. intros; discriminate. }
  destruct D as (D1 & D2 & D3).
  assert (K : ns (concat line) ++ ns (concat chunks') = ns (concat (taken ++ rest)) /\ (measure chunks' < measure chunks)%nat).
  { destruct C as [(-> & -> & F)|(c & r & -> & LW & -> & ->)].
    - split; [rewrite <- ns_app, <- concat_app; reflexivity|].
      destruct taken as [|t0 tk]; [destruct rest as [|c r]; [apply D3; reflexivity|simpl in F; lia]|].
      unfold measure in *. rewrite sumlen_app, app_length in D2. simpl in D2. lia.
    - split.
      + rewrite !concat_app. cbn [concat]. rewrite app_nil_r, <- !ns_app, <- app_assoc, (app_assoc (firstn _ c)), firstn_skipn.
        reflexivity.
      + unfold measure in *. rewrite sumlen_app, app_length in D2. simpl in *. rewrite skipn_length.
        destruct taken; simpl in *; lia. }
  destruct K as [K1 K2]. split; [|exact K2]. rewrite <- D1, <- K1.
  pose proof (ns_drop_last_ws (rev line)) as DL. rewrite rev_involutive in DL.
  destruct (drop_last_ws (rev line)) as [|x y].
  - rewrite <- DL. reflexivity.
  - rewrite <- DL. cbn [rev]. rewrite (concat_app (rev lines)), ns_app. cbn [concat]. rewrite app_nil_r, <- app_assoc. reflexivity.
Qed.

Lemma wrap_step_forallb : forall (p : Z -> bool) width chunks lines chunks' lines',
  wrap_step width chunks lines = (chunks', lines') ->
  forallb (forallb p) chunks = true -> forallb (forallb p) lines = true ->
  forallb (forallb p) chunks' = true /\ forallb (forallb p) lines' = true.
Proof.
  intros p width chunks lines chunks' lines' H Hc Hl.
  destruct (wrap_step_cases _ _ _ _ _ H) as (taken & rest & line & E & _ & C & ->).
  assert (D : forallb (forallb p) (taken ++ rest) = true).
  { rewrite <- E. unfold drop_first_ws. destruct chunks as [|c0 r0]; [reflexivity|].
    destruct (is_ws_chunk c0 && _); [|exact Hc]. cbn [forallb] in Hc. apply andb_prop in Hc. tauto. }
  rewrite forallb_app in D. apply andb_prop in D. destruct D as [D1 D2].
  assert (X : forallb (forallb p) line = true /\ forallb (forallb p) chunks' = true).
  { destruct C as [(-> & -> & _)|(c & r & -> & _ & -> & ->)]; [auto|].
    cbn [forallb] in D2. apply andb_prop in D2. destruct D2 as [C1 C2].
    split; [rewrite forallb_app, D1|]; cbn [forallb]; [rewrite (forallb_firstn p _ c C1)|rewrite (forallb_skipn p _ c C1)]; auto. }
  destruct X as [X1 X2]. split; [exact X2|].
  assert (DL : forallb (forallb p) (drop_last_ws (rev line)) = true).
  { assert (R : forallb (forallb p) (rev line) = true) by (rewrite forallb_forall in *; intros x Hx; apply X1, in_rev, Hx).
    unfold drop_last_ws. destruct (rev line) as [|l t]; [reflexivity|]. destruct (is_ws_chunk l); [|exact R].
    cbn [forallb] in R. apply andb_prop in R. tauto. }
  destruct (drop_last_ws (rev line)) as [|x y]; [exact Hl|]. cbn [forallb]. rewrite Hl, andb_true_r, forallb_concat.
  rewrite forallb_forall in *. intros z Hz. apply DL, in_rev, Hz.
Qed.

(* what every iteration preserves holds at the end, and with fuel >= measure no chunk is left *)
Lemma wrap_loop_inv : forall width (I : list str -> list str -> Prop),
  (forall chunks lines chunks' lines', chunks <> [] -> wrap_step width chunks lines = (chunks', lines') ->
     I chunks lines -> I chunks' lines') ->
  forall fuel chunks lines, I chunks lines ->
  exists chunks', I chunks' (rev (wrap_loop fuel width chunks lines))
                  /\ ((1 <= width)%nat -> (measure chunks <= fuel)%nat -> chunks' = []).
Proof.
  intros width I Step. induction fuel as [|f IH]; intros chunks lines H; cbn [wrap_loop].
  - exists chunks. rewrite rev_involutive. split; [exact H|]. intros _ M.
    destruct chunks; [reflexivity|unfold measure in M; simpl in M; lia].
  - destruct chunks as [|c t]; [exists []; rewrite rev_involutive; auto|].
    destruct (wrap_step width (c :: t) lines) as [chunks' lines'] eqn:S.
    destruct (IH chunks' lines' (Step (c :: t) lines chunks' lines' ltac:(discriminate) S H)) as (ch & Hi & Hm). exists ch. split; [exact Hi|].
    intros W M. apply Hm; [exact W|]. destruct (wrap_step_spec width (c :: t) lines chunks' lines' W ltac:(discriminate) S) as [_ M']. lia.
Qed.

Lemma wrap_inv : forall width text (I : list str -> list str -> Prop),
  (forall chunks lines chunks' lines', chunks <> [] -> wrap_step width chunks lines = (chunks', lines') ->
     I chunks lines -> I chunks' lines') ->
  I (split_chunks (munge text)) [] ->
  exists chunks', I chunks' (rev (wrap width text)) /\ ((1 <= width)%nat -> chunks' = []).
Proof.
  intros width text I Step H.
  destruct (wrap_loop_inv width I Step (S (length text + length (split_chunks (munge text)))) _ _ H) as (ch & Hi & Hm).
  exists ch. split; [exact Hi|]. intros W. apply (Hm W).
  unfold measure. rewrite <- sumlen_concat, concat_split_chunks. unfold munge. rewrite map_length. lia.
Qed.

Theorem wrap_rows_le : forall width text r, In r (wrap width text) -> (length r <= width)%nat.
Proof.
  intros width text r H.
  destruct (wrap_inv width text (fun _ lines => forall r, In r lines -> (length r <= width)%nat)
              (fun chunks lines chunks' lines' _ S => wrap_step_line_le width chunks lines chunks' lines' S) ltac:(intros ? []))
    as (ch & Hi & _).
  apply Hi. rewrite <- in_rev. exact H.
Qed.

Theorem wrap_keeps_nonspace : forall width text, (1 <= width)%nat -> ns (concat (wrap width text)) = ns text.
Proof.
  intros width text W.
  destruct (wrap_inv width text (fun chunks lines => ns (concat (rev lines)) ++ ns (concat chunks) = ns text)) as (ch & Hi & Hm).
  - intros chunks lines chunks' lines' NE S H. rewrite (proj1 (wrap_step_spec _ _ _ _ _ W NE S)). exact H.
  - simpl. rewrite concat_split_chunks. apply ns_munge.
  - rewrite (Hm W), rev_involutive in Hi. simpl in Hi. rewrite app_nil_r in Hi. exact Hi.
Qed.

Theorem wrap_forallb : forall (p : Z -> bool) width text, forallb p (munge text) = true ->
  forall r, In r (wrap width text) -> forallb p r = true.
Proof.
  intros p width text H r Hr.
  destruct (wrap_inv width text (fun chunks lines => forallb (forallb p) chunks = true /\ forallb (forallb p) lines = true))
    as (ch & [_ Hi] & _).
  - intros chunks lines chunks' lines' _ S [Hc Hl]. exact (wrap_step_forallb p _ _ _ _ _ S Hc Hl).
  - split; [|reflexivity]. rewrite <- forallb_concat, concat_split_chunks. exact H.
  - rewrite forallb_forall in Hi. apply Hi. rewrite <- in_rev. exact Hr.
Qed.
