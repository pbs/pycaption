(* C18: the hash clause spelled out per class (components may be None), and the canonical print form together
   with the re-parse tolerance as one Prop-level statement. *)
From Coq Require Import List ZArith QArith Qabs Bool Lia.
From PV Require Import lib.Sx lib.Str lib.Result model.Geometry spec.SpecGeom.
From PV Require Import proofs.GeomStr proofs.GeomEq proofs.GeomParse proofs.GeomPrint proofs.GeomLang proofs.GeomFacts.
Import ListNotations.
Open Scope Z_scope.

Section H.
  Variables (hq : Q -> Z) (hu : unit_ -> Z) (hh : option halign -> Z) (hv : option valign -> Z) (hnone : Z) (hint : Z -> Z).

  Theorem hash_eq_per_class :
    (forall a b, size_eqb a b = true -> size_hash hq hu hint a = size_hash hq hu hint b)
    /\ (forall a b, point_eqb a b = true -> point_hash hq hu hint a = point_hash hq hu hint b)
    /\ (forall a b, stretch_eqb a b = true -> stretch_hash hq hu hint a = stretch_hash hq hu hint b)
    /\ (forall a b, padding_eqb a b = true -> padding_hash hq hu hint a = padding_hash hq hu hint b)
    /\ (forall a b, alignment_eqb a b = true -> alignment_hash hh hv hint a = alignment_hash hh hv hint b)
    /\ (forall a b, layout_eqb a b = true -> layout_hash hq hu hh hv hnone hint a = layout_hash hq hu hh hv hnone hint b).
  Proof.
    repeat split; intros a b H.
    - exact (gval_hash_eq hq hu hh hv hnone hint (GSize a) (GSize b) H).
    - exact (gval_hash_eq hq hu hh hv hnone hint (GPoint a) (GPoint b) H).
    - exact (gval_hash_eq hq hu hh hv hnone hint (GStretch a) (GStretch b) H).
    - exact (gval_hash_eq hq hu hh hv hnone hint (GPadding a) (GPadding b) H).
    - exact (gval_hash_eq hq hu hh hv hnone hint (GAlign a) (GAlign b) H).
    - exact (gval_hash_eq hq hu hh hv hnone hint (GLayout a) (GLayout b) H).
  Qed.
End H.

(* the model printer on EVERY non-negative rational: canonical form (digits, optional point and one or two digits without
   a trailing zero, no leading zero, then the unit) and re-parsing gives the same unit and a value within 1/200 *)
Theorem print_canonical_reparse : forall a, (0 <= s_val a)%Q ->
  exists ip fp z,
    size_str a = dotted ip fp ++ unit_str (s_unit a)
    /\ all_digits ip = true /\ (fp = [] \/ all_digits fp = true)
    /\ no_leading_zero ip /\ (length fp <= 2)%nat /\ no_trailing_zero fp
    /\ size_from_string (size_str a) = Ok z /\ s_unit z = s_unit a /\ (Qabs (s_val z - s_val a) <= 1 # 200)%Q.
Proof.
  intros a Ha. destruct (size_str_shape a Ha) as (ip & fp & H1 & H2 & H3 & _ & H5 & H6 & H7).
  destruct (print_parse a Ha) as (z & E & _ & U). destruct (print_parse_print a Ha) as (z2 & E2 & _ & C).
  rewrite E in E2. inversion E2; subst z2. exists ip, fp, z. repeat split; assumption.
Qed.
