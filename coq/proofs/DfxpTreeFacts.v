(* C12: the DFXP round trip at tree level: nearest ancestor wins; write then read gives every word the expected
   effective layout. *)
From Coq Require Import List ZArith QArith Qabs Bool Lia.
From PV Require Import lib.Sx lib.Str lib.Result lib.ResultFacts model.Geometry model.Positioning model.DfxpTree spec.SpecGeom spec.SpecPos.
From PV Require Import proofs.GeomStr proofs.GeomEq proofs.GeomPrint proofs.GeomFacts proofs.PosFacts proofs.Pos12Facts.
Import ListNotations.
Open Scope Z_scope.

Lemma determine_own : forall r anc ds, determine_region (Some r) anc ds = Some r.
Proof. reflexivity. Qed.

Lemma ancestors_skip : forall pre rest, Forall (fun a => a = None) pre ->
  region_from_ancestors (pre ++ rest) = region_from_ancestors rest.
Proof. intros pre rest H. induction H as [|a pre -> _ IH]; [reflexivity|exact IH]. Qed.

(* NEAREST ancestor wins: ancestors without a region attribute are skipped, the first one that has it decides,
   whatever the ancestors further out (and the descendants) say *)
Theorem nearest_ancestor_wins : forall pre r outer ds,
  Forall (fun a => a = None) pre ->
  determine_region None (pre ++ Some r :: outer) ds = Some r.
Proof. intros pre r outer ds H. unfold determine_region. rewrite (ancestors_skip _ _ H). reflexivity. Qed.

(* in particular: a <span> without region inside <p region=rp> inside <div region=rd> resolves to rp, not rd *)
Corollary span_resolves_to_p : forall rp rd ds, determine_region None [Some rp; Some rd] ds = Some rp.
Proof. intros. exact (nearest_ancestor_wins [] rp [Some rd] ds (Forall_nil _)). Qed.

(* the descendants are consulted only when neither the element nor any ancestor has a region *)
Lemma determine_descendants : forall anc ds, Forall (fun a => a = None) anc ->
  determine_region None anc ds = region_from_descendants ds.
Proof. intros anc ds H. unfold determine_region. rewrite <- (app_nil_r anc), (ancestors_skip _ _ H). reflexivity. Qed.

Definition ids_unique (m : list (layout * region_id)) : Prop :=
  forall k k' i, In (k, i) m -> In (k', i) m -> k = k'.

Lemma number_regions_rid : forall s seed k i, In (k, i) (number_regions s seed) -> exists n, i = RId n.
Proof. intros s seed k i H. destruct (number_regions_in _ _ _ _ H) as (n & E & _). eauto. Qed.

Lemma region_map_ids_unique : forall ls, ids_unique (region_map ls).
Proof.
  intros ls k k' i H H'. unfold region_map in *. apply in_app_or in H, H'.
  destruct H as [H|[H|[]]], H' as [H'|[H'|[]]].
  - destruct (number_regions_rid _ _ _ _ H) as [n ->]. eapply number_regions_unique; eassumption.
  - inversion H'; subst. destruct (number_regions_rid _ _ _ _ H) as [n Hn]. discriminate.
  - inversion H; subst. destruct (number_regions_rid _ _ _ _ H') as [n Hn]. discriminate.
  - congruence.
Qed.

Lemma region_id_eqb_eq : forall a b, region_id_eqb a b = true <-> a = b.
Proof.
  intros [|x] [|y]; cbn [region_id_eqb]; split; intros H; try reflexivity; try discriminate.
  - f_equal. lia. - inversion H. lia.
Qed.

Lemma find_by_id : forall m k id, ids_unique m -> In (k, id) m ->
  List.find (fun kv => region_id_eqb (fst kv) id) (map (fun kv => (snd kv, layout_attrs (fst kv))) m)
  = Some (id, layout_attrs k).
Proof.
  induction m as [|[k0 i0] m IH]; intros k id U H; [destruct H|].
  cbn [map List.find fst snd]. destruct (region_id_eqb i0 id) eqn:E.
  - apply region_id_eqb_eq in E. subst i0. assert (k0 = k) by (eapply U; [left; reflexivity|exact H]). subst. reflexivity.
  - destruct H as [H|H]; [inversion H; subst; rewrite (proj2 (region_id_eqb_eq id id) eq_refl) in E; discriminate|].
    apply IH; [|exact H]. intros a b i Ha Hb. eapply U; right; eassumption.
Qed.

Lemma region_map_has : forall ls k i, In (k, i) (region_map ls) -> has_region k = true.
Proof.
  intros ls k i H. unfold region_map in H. apply in_app_or in H. destruct H as [H|[H|[]]].
  - destruct (number_regions_in _ _ _ _ H) as (n & _ & _ & R). exact R.
  - inversion H; subst. reflexivity.
Qed.

Lemma region_map_default : forall ls, In (dfxp_default_region, RDefault) (region_map ls).
Proof. intros. unfold region_map. apply in_or_app. right. left. reflexivity. Qed.

Lemma layout_attrs_compat : forall k e, layout_eqb k e = true -> layout_attrs k = layout_attrs e.
Proof.
  intros [o e p al w] [o' e' p' al' w'] H. apply layout_eqb_iff in H. destruct H as (Ho & He & Hp & Ha).
  cbn [l_origin l_extent l_padding l_alignment] in *. unfold layout_attrs. cbn [l_origin l_extent l_padding l_alignment].
  assert (A : align_attrs al = align_attrs al').
  { destruct al as [x|], al' as [y|]; cbn [opt_rel] in Ha; try contradiction; [|reflexivity].
    destruct Ha as [H1 H2]. unfold align_attrs. rewrite H1, H2. reflexivity. }
  rewrite A. f_equal.
  - eapply opt_rel_map_eq; [|exact Ho]. intros x y [H1 H2]. unfold point_attr.
    rewrite (size_str_compat _ _ H1), (size_str_compat _ _ H2). reflexivity.
  - eapply opt_rel_map_eq; [|exact He]. intros x y [H1 H2]. unfold stretch_attr.
    rewrite (size_str_compat _ _ H1), (size_str_compat _ _ H2). reflexivity.
  - eapply opt_rel_map_eq; [|exact Hp]. intros x y (H1 & H2 & H3 & H4). unfold padding_attr.
    rewrite (size_str_compat _ _ H1), (size_str_compat _ _ H2), (size_str_compat _ _ H3), (size_str_compat _ _ H4). reflexivity.
Qed.

(* what the reader finds for the region the writer assigned to a layout of the caption set *)
Definition exp_of (o : option layout) : layout :=
  match o with
  | Some e => if has_region e then spec_read_back e else spec_default_read
  | None => spec_default_read
  end.

Definition opt_nonneg (o : option layout) : Prop := match o with Some e => nonneg_layout e | None => True end.

Lemma layout_equiv_refl' : forall l, layout_equiv l l.
Proof. exact layout_equiv_refl. Qed.

Lemma resolve_default : forall ls,
  resolve (map (fun kv => (snd kv, layout_attrs (fst kv))) (region_map ls)) (Some RDefault) = Ok spec_default_read.
Proof.
  intros ls. unfold resolve.
  rewrite (find_by_id _ _ _ (region_map_ids_unique ls) (region_map_default ls)). reflexivity.
Qed.

Theorem resolve_written_region : forall ls o, (o = None \/ In o ls) -> opt_nonneg o ->
  exists r, resolve (map (fun kv => (snd kv, layout_attrs (fst kv))) (region_map ls)) (Some (region_lookup (region_map ls) o)) = Ok r
            /\ layout_equiv r (exp_of o).
Proof.
  intros ls o Hin N. destruct o as [e|].
  2:{ cbn [region_lookup exp_of]. rewrite resolve_default. eexists. split; [reflexivity|apply layout_equiv_refl]. }
  destruct Hin as [Hin|Hin]; [discriminate|]. cbn [opt_nonneg] in N. cbn [region_lookup exp_of].
  destruct (List.find (fun kv => layout_eqb (fst kv) e) (region_map ls)) as [[k id]|] eqn:F.
  - apply find_some in F. destruct F as [Ik Ek]. cbn [fst snd] in *.
    unfold resolve. rewrite (find_by_id _ _ _ (region_map_ids_unique ls) Ik). cbn [snd].
    rewrite (layout_attrs_compat _ _ Ek).
    assert (R : has_region e = true) by (rewrite <- (has_region_eqb _ _ Ek); eapply region_map_has; eauto).
    rewrite R. apply dfxp_attr_roundtrip. exact N.
  - rewrite resolve_default. eexists. split; [reflexivity|].
    destruct (has_region e) eqn:R; [|apply layout_equiv_refl]. exfalso.
    destruct (layout_eqb e dfxp_default_region) eqn:D.
    + pose proof (find_none _ _ F _ (region_map_default ls)) as K. cbn [fst] in K. rewrite layout_eqb_sym in K. congruence.
    + destruct (region_lookup_total ls e Hin R D) as (k & id & _ & _ & L). unfold region_lookup in L. rewrite F in L. discriminate.
Qed.

(* structured captions (the shape readers produce and the statement talks about): plain words / breaks, and style
   spans (with or without a layout of their own) around words / breaks, nested one level at most *)
Inductive gitem := GWord (w : Z) | GBreak.
(* GNest: a style span (st, lay) holding plain items `pre`, ONE inner style span (ist, ilay, ibody), plain items `post` *)
Inductive gseg :=
| GPlain (i : gitem)
| GSpan (styled : bool) (lay : option layout) (body : list gitem)
| GNest (st : bool) (lay : option layout) (pre : list gitem) (ist : bool) (ilay : option layout) (ibody post : list gitem).
Record gcap := mkGcap { gc_layout : option layout; gc_segs : list gseg }.
Record glang := mkGlang { gl_layout : option layout; gl_caps : list gcap }.

Definition item_node (own : option layout) (i : gitem) : dnode :=
  match i with GWord w => mkD 1 false false own w | GBreak => mkD 3 false false None 0 end.
Definition seg_nodes (s : gseg) : list dnode :=
  match s with
  | GPlain i => [item_node None i]
  | GSpan st lay body => mkD 2 true st lay 0 :: map (item_node lay) body ++ [mkD 2 false st lay 0]
  | GNest st lay pre ist ilay ibody post =>
      mkD 2 true st lay 0 :: map (item_node lay) pre ++ mkD 2 true ist ilay 0 :: map (item_node ilay) ibody
      ++ mkD 2 false ist ilay 0 :: map (item_node lay) post ++ [mkD 2 false st lay 0]
  end.
Definition seg_layouts (s : gseg) : list (option layout) :=
  match s with GPlain _ => [] | GSpan _ lay _ => [lay] | GNest _ lay _ _ ilay _ _ => [lay; ilay] end.
(* the domain on which the writer's flattening of nested spans (an inner span start closes the outer span; any style end
   closes whatever is open) loses no layout: the outer span carries no layout, or nothing follows the inner span inside the
   outer one and the inner span has a layout of its own or is not written as a <span> at all *)
Definition seg_harmless (s : gseg) : Prop :=
  match s with
  | GNest st lay pre ist ilay ibody post =>
      opt_layout_truthy lay = false \/ (post = [] /\ (opt_layout_truthy ilay = true \/ ist = false))
  | _ => True
  end.
Definition to_dcap (c : gcap) : dcap := mkDcap (gc_layout c) (flat_map seg_nodes (gc_segs c)).
Definition to_dlang (l : glang) : dlang := mkDlang (gl_layout l) (map to_dcap (gl_caps l)).

(* what the writer assembles *)
Definition item_x (i : gitem) : xitem := match i with GWord w => XText w | GBreak => XBr end.
Definition seg_items (reg : option layout -> region_id) (s : gseg) : list xitem :=
  match s with
  | GPlain i => [item_x i]
  | GSpan st lay body =>
      if st || opt_layout_truthy lay
      then [XSpan (if opt_layout_truthy lay then Some (reg lay) else None) (map item_x body)]
      else map item_x body
  | GNest st lay pre ist ilay ibody post =>
      let ro := if opt_layout_truthy lay then Some (reg lay) else None in
      let ri := if opt_layout_truthy ilay then Some (reg ilay) else None in
      if st || opt_layout_truthy lay then
        if ist || opt_layout_truthy ilay
        then XSpan ro (map item_x pre) :: XSpan ri (map item_x ibody) :: map item_x post   (* the outer span is closed early *)
        else XSpan ro (map item_x pre ++ map item_x ibody) :: map item_x post              (* the inner END closes the outer span *)
      else
        if ist || opt_layout_truthy ilay
        then map item_x pre ++ XSpan ri (map item_x ibody) :: map item_x post
        else map item_x pre ++ map item_x ibody ++ map item_x post
  end.

Lemma write_body : forall reg lay body rest open out,
  write_nodes reg (map (item_node lay) body ++ rest) open out
  = match open with
    | Some (r, acc) => write_nodes reg rest (Some (r, rev (map item_x body) ++ acc)) out
    | None => write_nodes reg rest None (rev (map item_x body) ++ out)
    end.
Proof.
  induction body as [|i body IH]; intros rest open out; [destruct open as [[r acc]|]; reflexivity|].
  destruct open as [[r acc]|], i; cbn [map app item_node write_nodes d_kind d_word Z.eqb Pos.eqb]; rewrite IH; cbn [item_x rev];
    rewrite <- app_assoc; reflexivity.
Qed.

Lemma nest_app : forall (a b c d : dnode) l1 l2 l3 tl,
  (a :: l1 ++ b :: l2 ++ c :: l3 ++ [d]) ++ tl = a :: l1 ++ b :: l2 ++ c :: l3 ++ d :: tl.
Proof. intros. cbn [app]. rewrite <- app_assoc. cbn [app]. rewrite <- app_assoc. cbn [app]. rewrite <- app_assoc. reflexivity. Qed.

Lemma write_segs : forall reg segs out,
  write_nodes reg (flat_map seg_nodes segs) None out = rev out ++ flat_map (seg_items reg) segs.
Proof.
  induction segs as [|s segs IH]; intros out.
  - cbn [flat_map write_nodes close_span]. rewrite app_nil_r. reflexivity.
  - cbn [flat_map]. destruct s as [i|st lay body|st lay pre ist ilay ibody post]; cbn [seg_nodes seg_items].
    + destruct i; cbn [item_node app write_nodes d_kind d_word Z.eqb Pos.eqb]; rewrite IH; cbn [rev item_x app];
        rewrite <- app_assoc; reflexivity.
    + cbn [app write_nodes d_kind d_start d_styled d_layout Z.eqb Pos.eqb close_span]. rewrite <- app_assoc.
      destruct (st || opt_layout_truthy lay); rewrite write_body; cbn [app write_nodes d_kind d_start Z.eqb Pos.eqb close_span];
        rewrite IH; cbn [rev]; rewrite ?app_nil_r, ?rev_app_distr, rev_involutive, <- app_assoc; reflexivity.
    + (* outer start, pre, inner start, inner body, inner end, post, outer end: the same steps whichever spans are written *)
      rewrite nest_app. cbn [write_nodes d_kind d_start d_styled d_layout Z.eqb Pos.eqb close_span].
      destruct (st || opt_layout_truthy lay), (ist || opt_layout_truthy ilay) eqn:B;
        rewrite write_body; cbn [write_nodes d_kind d_start d_styled d_layout Z.eqb Pos.eqb close_span]; rewrite B;
        rewrite write_body; cbn [write_nodes d_kind d_start d_styled d_layout Z.eqb Pos.eqb close_span];
        rewrite write_body; cbn [write_nodes d_kind d_start d_styled d_layout Z.eqb Pos.eqb close_span];
        rewrite IH, ?app_nil_r, ?rev_app_distr, ?rev_involutive; cbn [rev app]; rewrite <- ?app_assoc; cbn [app];
        rewrite ?rev_app_distr, ?rev_involutive, <- ?app_assoc; cbn [app]; reflexivity.
Qed.

Lemma read_item_span_unfold : forall regs anc parent r body,
  read_item regs anc parent (XSpan r body) =
  (do lay <- resolve regs (determine_region r anc (flat_map elem_regions body));
   do ws <- res_map (read_item regs (r :: anc) lay) body; Ok (concat ws)).
Proof.
  intros regs anc parent r body. cbn [read_item]. destruct (resolve regs _) as [lay|]; [|reflexivity]. cbn [bind].
  assert (E : forall l,
    (fix go (l : list xitem) : result (list (list (Z * layout))) :=
       match l with
       | [] => Ok []
       | x :: t => do a <- read_item regs (r :: anc) lay x; do b <- go t; Ok (a :: b)
       end) l = res_map (read_item regs (r :: anc) lay) l).
  { induction l as [|x t IH]; [reflexivity|]. cbn [res_map]. rewrite IH. reflexivity. }
  rewrite E. reflexivity.
Qed.

Definition item_words (lay : layout) (i : gitem) : list (Z * layout) :=
  match i with GWord w => [(w, lay)] | GBreak => [] end.

Lemma read_flat_body : forall regs anc lay body,
  res_map (read_item regs anc lay) (map item_x body) = Ok (map (item_words lay) body).
Proof.
  induction body as [|i body IH]; [reflexivity|]. cbn [map res_map]. rewrite IH. destruct i; reflexivity.
Qed.

(* words of a caption as the statement expects them: (word, expected effective layout) *)
Definition seg_expected (lang cap : option layout) (s : gseg) : list (Z * layout) :=
  match s with
  | GPlain i => item_words (expected_effective lang cap None) i
  | GSpan _ lay body => flat_map (item_words (expected_effective lang cap lay)) body
  | GNest _ lay pre _ ilay ibody post =>
      (* node level: the nearest enclosing span that has a layout *)
      flat_map (item_words (expected_effective lang cap lay)) pre
      ++ flat_map (item_words (expected_effective lang cap (if opt_layout_truthy ilay then ilay else lay))) ibody
      ++ flat_map (item_words (expected_effective lang cap lay)) post
  end.

Definition words_rel (a b : list (Z * layout)) : Prop :=
  Forall2 (fun x y => fst x = fst y /\ layout_equiv (snd x) (snd y)) a b.

Lemma words_rel_items : forall r e body, layout_equiv r e ->
  words_rel (concat (map (item_words r) body)) (flat_map (item_words e) body).
Proof.
  intros r e body H. induction body as [|i body IH]; [constructor|]. cbn [map concat flat_map].
  destruct i; cbn [item_words app]; [constructor; [split; [reflexivity|exact H]|exact IH]|exact IH].
Qed.

Lemma words_rel_app : forall a b c d, words_rel a b -> words_rel c d -> words_rel (a ++ c) (b ++ d).
Proof. intros. apply Forall2_app; assumption. Qed.

Lemma has_region_truthy : forall e, has_region e = true -> layout_truthy e = true.
Proof. intros [o e p al w] H. unfold has_region, layout_truthy in *. cbn in *. destruct o, e, p, al; try discriminate; reflexivity. Qed.

(* exp_of of the writer's choice is the statement's expected effective layout *)
Lemma exp_of_choice : forall l c n, exp_of (dfxp_choice None l c n) = expected_effective l c n.
Proof.
  intros l c n. rewrite dfxp_choice_is_spec. unfold exp_of. destruct (dfxp_choice None l c n) as [e|]; [|reflexivity].
  destruct (has_region e) eqn:R; [rewrite (has_region_truthy _ R); reflexivity|rewrite andb_false_r; reflexivity].
Qed.

Lemma choice_truthy_node : forall l c e, layout_truthy e = true -> dfxp_choice None l c (Some e) = Some e.
Proof.
  intros l c e T. unfold dfxp_choice. cbn zeta. cbn [opt_layout_truthy].
  repeat (rewrite T; cbn iota beta; cbn [opt_layout_truthy]). reflexivity.
Qed.

Lemma choice_falsy_node : forall l c n, opt_layout_truthy n = false -> dfxp_choice None l c n = dfxp_choice None l c None.
Proof. intros l c n T. unfold dfxp_choice. rewrite T. reflexivity. Qed.

Lemma expected_falsy_node : forall l c n, opt_layout_truthy n = false -> expected_effective l c n = expected_effective l c None.
Proof. intros l c n T. rewrite <- !exp_of_choice, (choice_falsy_node _ _ _ T). reflexivity. Qed.

Lemma concat_item_words : forall r body, concat (map (item_words r) body) = flat_map (item_words r) body.
Proof. intros. rewrite flat_map_concat_map. reflexivity. Qed.

Section OneDocument.
  Variable ls : list (option layout).
  Hypothesis NN : Forall opt_nonneg ls.
  Let m := region_map ls.
  Let regs := map (fun kv : layout * region_id => (snd kv, layout_attrs (fst kv))) m.

  Lemma resolve_in : forall o, (o = None \/ In o ls) ->
    exists r, resolve regs (Some (region_lookup m o)) = Ok r /\ layout_equiv r (exp_of o).
  Proof.
    intros o H. apply resolve_written_region; [exact H|].
    destruct H as [->|H]; [exact I|]. rewrite Forall_forall in NN. apply NN. exact H.
  Qed.

  Lemma choice_in : forall l c, In l ls -> (c = None \/ In c ls) ->
    dfxp_choice None l c None = None \/ In (dfxp_choice None l c None) ls.
  Proof.
    intros l c Hl Hc. unfold dfxp_choice. cbn zeta. cbn [opt_layout_truthy].
    destruct (opt_layout_truthy c) eqn:Tc; [rewrite Tc; right; destruct Hc as [->|Hc]; [discriminate Tc|exact Hc]|].
    destruct (opt_layout_truthy l); [right; exact Hl|left; reflexivity].
  Qed.

  (* below a <p region=rp> inside a <div region=rd>; the region of the <p> resolves to rlay, which is what the words
     outside every span are expected to carry *)
  Section OneParagraph.
    Variables (lang cap : option layout) (rp rd : region_id) (rlay : layout).
    Hypothesis Hr : resolve regs (Some rp) = Ok rlay.
    Hypothesis Hq : layout_equiv rlay (expected_effective lang cap None).

    Definition reads (xs : list xitem) (expected : list (Z * layout)) : Prop :=
      exists ws, res_map (read_item regs [Some rp; Some rd] rlay) xs = Ok ws /\ words_rel (concat ws) expected.

    Lemma reads_app : forall xs ys e1 e2, reads xs e1 -> reads ys e2 -> reads (xs ++ ys) (e1 ++ e2).
    Proof.
      intros xs ys e1 e2 (w1 & E1 & Q1) (w2 & E2 & Q2). exists (w1 ++ w2). split; [exact (res_map_app _ _ _ _ _ E1 E2)|].
      rewrite concat_app. apply words_rel_app; assumption.
    Qed.

    Lemma reads_bare : forall body, reads (map item_x body) (flat_map (item_words (expected_effective lang cap None)) body).
    Proof. intros body. eexists. split; [apply read_flat_body|]. apply words_rel_items. exact Hq. Qed.

    (* a written span: its own region when its layout is truthy; without one the NEAREST ancestor decides, the <p> *)
    Lemma reads_span : forall x body, In x ls ->
      reads [XSpan (if opt_layout_truthy x then Some (region_lookup m x) else None) (map item_x body)]
            (flat_map (item_words (expected_effective lang cap x)) body).
    Proof.
      intros x body Hx. unfold reads. cbn [res_map]. rewrite read_item_span_unfold. destruct (opt_layout_truthy x) eqn:T.
      - rewrite determine_own. destruct (resolve_in x (or_intror Hx)) as (r & Er & Qr). rewrite Er. cbn [bind].
        rewrite read_flat_body. cbn [bind]. eexists. split; [reflexivity|]. cbn [concat]. rewrite app_nil_r. apply words_rel_items.
        destruct x as [e|]; [|discriminate]. rewrite <- exp_of_choice, (choice_truthy_node _ _ _ T). exact Qr.
      - rewrite span_resolves_to_p, Hr. cbn [bind]. rewrite read_flat_body. cbn [bind]. eexists. split; [reflexivity|].
        cbn [concat]. rewrite app_nil_r, (expected_falsy_node _ _ _ T). apply words_rel_items. exact Hq.
    Qed.

    Lemma read_seg : forall s, (forall l, In l (seg_layouts s) -> In l ls) -> seg_harmless s ->
      reads (seg_items (region_lookup m) s) (seg_expected lang cap s).
    Proof.
      intros [i|st lay body|st lay pre ist ilay ibody post] Hs Hh; cbn [seg_items seg_expected seg_layouts seg_harmless] in *.
      - rewrite <- (app_nil_r (item_words _ i)). exact (reads_bare [i]).
      - destruct (st || opt_layout_truthy lay) eqn:A; [apply reads_span; apply Hs; left; reflexivity|].
        (* no span is written: the words are children of the <p> *)
        apply orb_false_iff in A. rewrite (expected_falsy_node _ _ _ (proj2 A)). apply reads_bare.
      - (* nested spans, flattened by the writer *)
        assert (Hlay : In lay ls) by (apply Hs; left; reflexivity).
        assert (Hilay : In ilay ls) by (apply Hs; right; left; reflexivity).
        (* where the outer span has no layout, its words are expected to carry what the <p> gives them *)
        assert (Bare : opt_layout_truthy lay = false ->
                       forall b, reads (map item_x b) (flat_map (item_words (expected_effective lang cap lay)) b)).
        { intros TL b. rewrite (expected_falsy_node _ _ _ TL). apply reads_bare. }
        assert (Post : reads (map item_x post) (flat_map (item_words (expected_effective lang cap lay)) post)).
        { destruct Hh as [TL|[-> _]]; [exact (Bare TL post)|exact (reads_bare [])]. }
        destruct (ist || opt_layout_truthy ilay) eqn:B.
        + (* the inner span is written; without a layout of its own it resolves to the <p>, and so does the outer one *)
          pose proof (reads_span ilay ibody Hilay) as Si.
          assert (EI : expected_effective lang cap (if opt_layout_truthy ilay then ilay else lay) = expected_effective lang cap ilay).
          { destruct (opt_layout_truthy ilay) eqn:TI; [reflexivity|]. rewrite orb_false_r in B. subst ist.
            destruct Hh as [TL|[_ [K|K]]]; try discriminate K.
            rewrite (expected_falsy_node _ _ _ TL), (expected_falsy_node _ _ _ TI). reflexivity. }
          rewrite EI. destruct (st || opt_layout_truthy lay) eqn:A.
          * exact (reads_app [_] (_ :: _) _ _ (reads_span lay pre Hlay) (reads_app [_] _ _ _ Si Post)).
          * apply orb_false_iff in A. exact (reads_app _ (_ :: _) _ _ (Bare (proj2 A) pre) (reads_app [_] _ _ _ Si Post)).
        + (* the inner span is not written: its words sit with the words before it *)
          apply orb_false_iff in B. destruct B as [-> TI]. rewrite TI. destruct (st || opt_layout_truthy lay) eqn:A.
          * rewrite <- map_app, app_assoc, <- flat_map_app. exact (reads_app [_] _ _ _ (reads_span lay (pre ++ ibody) Hlay) Post).
          * apply orb_false_iff in A. exact (reads_app _ _ _ _ (Bare (proj2 A) pre) (reads_app _ _ _ _ (Bare (proj2 A) ibody) Post)).
    Qed.

    Lemma read_segs : forall segs, (forall s l, In s segs -> In l (seg_layouts s) -> In l ls) -> Forall seg_harmless segs ->
      reads (flat_map (seg_items (region_lookup m)) segs) (flat_map (seg_expected lang cap) segs).
    Proof.
      induction segs as [|s segs IH]; intros Hs Hh; [exists []; split; [reflexivity|constructor]|].
      cbn [flat_map]. apply reads_app.
      - apply read_seg; [intros l E; exact (Hs s l (or_introl eq_refl) E)|exact (Forall_inv Hh)].
      - apply IH; [intros s0 l Hi E; exact (Hs s0 l (or_intror Hi) E)|exact (Forall_inv_tail Hh)].
    Qed.
  End OneParagraph.
End OneDocument.

Definition cap_rel (lang : option layout) (rc : rcap) (gc : gcap) : Prop :=
  layout_equiv (rc_layout rc) (expected_effective lang (gc_layout gc) None)
  /\ words_rel (rc_words rc) (flat_map (seg_expected lang (gc_layout gc)) (gc_segs gc)).
Definition lang_rel (rl : rlang) (gl : glang) : Prop :=
  layout_equiv (rl_layout rl) (expected_effective (gl_layout gl) None None)
  /\ Forall2 (cap_rel (gl_layout gl)) (rl_caps rl) (gl_caps gl).

Lemma res_map_map_F2 : forall {A B C} (f : B -> result C) (g : A -> B) (R : C -> A -> Prop) l,
  (forall x, In x l -> exists y, f (g x) = Ok y /\ R y x) ->
  exists ys, res_map f (map g l) = Ok ys /\ Forall2 R ys l.
Proof.
  intros A B C f g R. induction l as [|x l IH]; intros H.
  - exists []. split; [reflexivity|constructor].
  - destruct (H x (or_introl eq_refl)) as (y & Ey & Ry).
    destruct IH as (ys & Eys & Rys). { intros x0 Hx0. apply H. right. exact Hx0. }
    exists (y :: ys). split; [cbn [map res_map]; rewrite Ey, Eys; reflexivity|constructor; assumption].
Qed.

Lemma in_set_layouts : forall langs gl l, In gl langs ->
  l = gl_layout gl
  \/ (exists gc, In gc (gl_caps gl) /\ (l = gc_layout gc \/ exists s, In s (gc_segs gc) /\ In l (seg_layouts s))) ->
  In l (set_layouts (map to_dlang langs)).
Proof.
  intros langs gl l H Hl. unfold set_layouts. apply in_flat_map. exists (to_dlang gl). split; [apply in_map; exact H|].
  destruct Hl as [->|(gc & Hc & Hl)]; [left; reflexivity|right]. apply in_flat_map. exists (to_dcap gc).
  split; [cbn [to_dlang dl_caps]; apply in_map; exact Hc|]. destruct Hl as [->|(s & Hs & Hl)]; [left; reflexivity|right].
  (* the start node of a span carries the span's layout *)
  assert (Hd : exists d, In d (seg_nodes s) /\ d_layout d = l).
  { destruct s as [i|st lay body|st lay pre ist ilay ibody post]; cbn [seg_layouts seg_nodes] in *.
    - destruct Hl.
    - destruct Hl as [<-|[]]. exists (mkD 2 true st lay 0). split; [left|]; reflexivity.
    - destruct Hl as [<-|[<-|[]]]; [exists (mkD 2 true st lay 0)|exists (mkD 2 true ist ilay 0)]; (split; [|reflexivity]);
        [left; reflexivity|right; apply in_or_app; right; left; reflexivity]. }
  destruct Hd as (d & Hd & E). apply in_map_iff. exists d. split; [exact E|]. apply in_flat_map. eauto.
Qed.

Definition lang_harmless (gl : glang) : Prop := Forall (fun gc => Forall seg_harmless (gc_segs gc)) (gl_caps gl).

(* DFXP write then read: the language-level layout, every caption's layout and every word's layout are the expected
   effective layouts (node > caption > language, two-decimal values, defaults start / after) *)
Theorem dfxp_layout_roundtrip : forall langs, Forall opt_nonneg (set_layouts (map to_dlang langs)) ->
  Forall lang_harmless langs ->
  exists obs, dfxp_roundtrip None (map to_dlang langs) = Ok obs /\ Forall2 lang_rel obs langs.
Proof.
  intros langs NN HH. unfold dfxp_roundtrip, write_doc, read_doc. cbn [x_regions x_divs].
  set (ls := set_layouts (map to_dlang langs)) in *. set (m := region_map ls).
  set (regs := map (fun kv : layout * region_id => (snd kv, layout_attrs (fst kv))) m).
  rewrite map_map. apply res_map_map_F2. intros gl Hgl.
  pose proof (in_set_layouts langs gl _ Hgl (or_introl eq_refl)) as Hl. fold ls in Hl.
  unfold read_div, write_lang. cbn [xd_region xd_ps to_dlang dl_layout dl_caps]. rewrite determine_own.
  destruct (resolve_in ls NN _ (choice_in ls (gl_layout gl) None Hl (or_introl eq_refl))) as (rd_lay & Erd & Qrd).
  fold m regs in Erd. rewrite Erd. cbn [bind]. rewrite exp_of_choice in Qrd.
  set (rd := region_lookup m (dfxp_choice None (gl_layout gl) None None)).
  assert (Caps : exists cs, res_map (read_p regs (Some rd)) (map (write_cap m None (gl_layout gl)) (map to_dcap (gl_caps gl))) = Ok cs
                            /\ Forall2 (cap_rel (gl_layout gl)) cs (gl_caps gl)).
  { rewrite map_map. apply res_map_map_F2. intros gc Hgc.
    pose proof (in_set_layouts langs gl _ Hgl (or_intror (ex_intro _ gc (conj Hgc (or_introl eq_refl))))) as Hc. fold ls in Hc.
    unfold read_p, write_cap. cbn [xp_region xp_items to_dcap dc_layout dc_nodes]. rewrite determine_own.
    destruct (resolve_in ls NN _ (choice_in ls (gl_layout gl) (gc_layout gc) Hl (or_intror Hc))) as (rlay & Er & Qr).
    fold m regs in Er. rewrite Er. cbn [bind]. rewrite exp_of_choice in Qr.
    pose proof (write_segs (region_lookup m) (gc_segs gc) []) as W. cbn [rev app] in W. rewrite W.
    destruct (read_segs ls NN (gl_layout gl) (gc_layout gc) _ rd rlay Er Qr (gc_segs gc)) as (ws & Ews & Qws).
    - intros s l Hs E. exact (in_set_layouts langs gl l Hgl (or_intror (ex_intro _ gc (conj Hgc (or_intror (ex_intro _ s (conj Hs E))))))).
    - rewrite Forall_forall in HH. specialize (HH gl Hgl). unfold lang_harmless in HH. rewrite Forall_forall in HH. exact (HH gc Hgc).
    - fold m regs in Ews. rewrite Ews. cbn [bind]. eexists. split; [reflexivity|]. split; [exact Qr|exact Qws]. }
  destruct Caps as (cs & Ecs & Qcs). rewrite Ecs. cbn [bind]. eexists. split; [reflexivity|]. split; [exact Qrd|exact Qcs].
Qed.
