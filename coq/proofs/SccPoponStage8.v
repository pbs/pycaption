(* C05, stage 8 of the pop-on refinement: ONE load with SEVERAL rows over the FULL item domain: basic / special / extended
   characters, backspaces and MID-ROW CODES, every preamble style (colours, underline, italics), rows adjacent (one
   caption, BREAK) or apart (new caption, REPOSITION) in any transmission order, control codes single or doubled.
   Stage 2c (one row, mid-row codes: the oracle-level invariant `match_cells`) and stage 5 (several rows: tracker and
   style-node mechanics) are combined.

   RESULT, in the interface of the generic lifting of stage 7 (Section Lift: lc_ok := lc_ok8, lc_good := lc_good8):
     line8         a load line, run from ANY between-lines state B, pops the queue and queues a creator cr, lc_good8 ld cr;
     good8         storing such a creator extends the stash by one batch of captions with the given times, lines of at
                   most 32 characters, and the per-load oracle load_ok for every later end;
     lc_ok8_wf     lc_ok8 ld = true -> load_wf ld = true;
     popon_stage8  the one-load corollary: `read` returns captions that, observed, satisfy ok_c05.

   DOMAIN. lc_ok8 ld := load_wf ld.  A mid-row code makes the reader append a blank to the last text transmitted before it
   (get_previous_text_node) whenever its own row shows no character at that moment (first item of the row, after other
   mid-row codes only, after `Ch a; Bs`, ...).  If the row before fills its 32 cells that text has 33 characters when the
   buffer is queued; pass 7 of _format_italics right-strips the last text node in front of every BREAK / REPOSITION / the
   end, looking through italics nodes, so the line loses at least that blank (stage 2c: lclosed, lineokw, srel, lineok_srel).
   The examples cex_load*: a row with 32 cells followed by a row in which a mid-row code arrives while no character of the
   row is on the screen.

   METHOD. Everything about one row and about the reader's side is stage 2c's (St2, items_run8, queued, good_load,
   read_queued).  Here: the preamble address code of a second or later row on the invariant St2 (pac_run8, with stage 5's
   tracker lemmas) and the induction over the rows (rows_run8); prologue and End-Of-Caption are stage 1's load_run, at the level
   of lines (load_line_B of stage 4). *)
From Coq Require Import List ZArith QArith Qabs Lia Bool ZifyBool.
From PV Require Import lib.Sx lib.Str lib.Result model.GenScc model.SccLen model.SccTime model.SccStash model.SccDecoder model.SccLayout
                       spec.Spec608 spec.SpecScc05 spec.SpecSccLen proofs.SccTableFacts proofs.SccTableFixFacts proofs.SccDoubleFacts
                       proofs.SccLenFacts proofs.SccStashFacts proofs.SccItalicsFacts proofs.SccPoponStage1 proofs.SccPoponStage2
                       proofs.SccPoponStage3 proofs.SccPoponStage4 proofs.SccPoponStage5 proofs.SccPoponStage2c.
Import ListNotations. Open Scope Z_scope.

(* performance only (see stage 1): the conversion must never evaluate the filter inside basic_code on a variable *)
Local Strategy 1000 [basic_code is_basic].
Local Arguments stash_extend : simpl never.


Lemma passes16_chk : forall l, chk false (passes16 l) = true.
Proof.
  intros l. unfold passes16. apply (proj1 (remove_off_on_chk _)). apply (proj1 (remove_on_off_chk _)).
  rewrite ensure_final_closes_eq. apply (final_chk _ None). apply (close_chkr _ None). apply (skip_redundant_alt _ None).
Qed.

Lemma rstrip_nil : rstrip [] = [].
Proof. reflexivity. Qed.

Lemma last_inj : forall A (l l' : list A) a b, l ++ [a] = l' ++ [b] -> l = l' /\ a = b.
Proof. intros A l l' a b H. apply app_inj_tail in H. exact H. Qed.

Lemma map_last_last_text : forall l s, l <> [] -> (exists pre n, l = pre ++ [n] /\ is_text n = true) ->
  exists pre n, map_last (add_text s) l = pre ++ [n] /\ is_text n = true.
Proof.
  intros l s _ (pre & n & -> & T). exists pre, (add_text s n). rewrite map_last_snoc. split; [reflexivity|exact T].
Qed.

Definition norm (tk : tracker) : tracker := mkTk (tk_pos tk) None false (tk_default tk).
Lemma norm_norm : forall tk, norm (norm tk) = norm tk.
Proof. reflexivity. Qed.
Lemma sle_nontext : forall m t, is_text m = false -> strip_line_ends (m :: t) = m :: strip_line_ends t.
Proof. intros m t H. rewrite sle_cons2, H. reflexivity. Qed.

Definition lc_ok8 (ld : load) : bool := load_wf ld.


Lemma St2_settk : forall p0 tk tk' nodes sty V ital, St2 p0 tk nodes sty V ital -> pend tk = [] -> tkgood tk' ->
  (tk_repos tk' = false -> tk_repos tk = false /\ current_position tk' = current_position tk) ->
  St2 p0 tk' nodes sty (V ++ pend tk') ital.
Proof.
  intros p0 tk tk' nodes sty V ital [(Hg & Hr & Hf & Hy & Hw & Hp) Hb] Pn Hg' Hc. rewrite Pn, app_nil_r in Hr.
  split; [split; [exact Hg'|split; [rewrite Hr; reflexivity|split; [exact Hf|split; [exact Hy|split; [exact Hw|]]]]]|].
  - intros R. destruct (Hc R) as [R0 ->]. exact (Hp R0).
  - intros (V0 & c & b & E). destruct (ends_char_nopend _ _ _ _ _ E) as [_ E']. apply Hb. eexists _, _, _. exact E'.
Qed.

Lemma St2_tkeq : forall p0 tk tk' nodes sty V ital, St2 p0 tk nodes sty V ital ->
  tk_pos tk' = tk_pos tk -> tk_pos tk <> [] -> tk_break tk' = tk_break tk -> tk_repos tk' = tk_repos tk -> St2 p0 tk' nodes sty V ital.
Proof.
  intros p0 [ps b r df] [ps' b' r' df'] nodes sty V ital H E1 Hne E2 E3. cbn [tk_pos tk_break tk_repos] in *. subst ps' b' r'.
  destruct ps as [|p ps]; [congruence|]. exact H.
Qed.

Lemma St2_repos_move : forall p0 tk tk' nodes sty X ital, St2 p0 tk nodes sty (X ++ pend tk) ital ->
  tk_break tk = None -> tk_repos tk = true -> tk_break tk' = None -> tk_repos tk' = true -> St2 p0 tk' nodes sty (X ++ pend tk') ital.
Proof.
  intros p0 tk tk' nodes sty X ital [(Hg & Hr & Hf & Hy & Hw & Hp) Hb] B R B' R'.
  apply app_inv_tail in Hr.
  split; [split; [left; exact B'|split; [rewrite Hr; reflexivity|split; [exact Hf|split; [exact Hy|split; [exact Hw|]]]]]|].
  - intros X0. congruence.
  - intros Y. exfalso. unfold pend in Y. rewrite B', R' in Y. exact (not_ends_char X (XR (current_position tk')) eq_refl Y).
Qed.

Lemma pac_style_hbb : forall it sty tk nodes tk' nodes' sty', tk_break tk = None ->
  pac_style it sty tk nodes = (tk', mkCr nodes' sty') -> has_break_before nodes' = has_break_before nodes.
Proof.
  intros it sty tk nodes tk' nodes' sty' B E. unfold pac_style in E. cbv zeta in E. unfold break_required in E. rewrite B in E.
  destruct it, sty; injection E as _ <- _; try reflexivity; rewrite hbb_snoc; reflexivity.
Qed.

Lemma tab_upd_0 : forall tk, tab_upd 0 tk = tk.
Proof. reflexivity. Qed.


Section Rows8.
Variables (st : stash) (p0 : pos) (d : bool) (pa ro : creator) (q : option (creator * Q)) (tm : Q) (tc : str) (off : Q).
Notation R8 sty tk l nodes fr := (RS st d sty pa ro q tm tc off tk l nodes fr).

Lemma tk_eta : forall tk ps b r df, tk_pos tk = ps -> tk_break tk = b -> tk_repos tk = r -> tk_default tk = df -> tk = mkTk ps b r df.
Proof. intros [ps' b' r' df'] ps b r df. cbn. intros -> -> -> ->. reflexivity. Qed.

(* the preamble unit of a further row: the address code has moved the tracker to tkU, pac_style and the tab offset act on that *)
Lemma pac_unit_St : forall r tk tkU l nodes sty ital VU fr nx, row_ok r = true ->
  tracker_update tk (rw_row r, rw_indent r) = tkU -> St2 p0 tkU nodes sty VU ital ->
  last_contains l (pac_word (rw_row r) (pac_attr r)) = false -> pac_ready tk nodes ->
  exists tk1 nodes1 sty1 l1,
    pac_style (rw_ital r) sty tkU nodes = (tk1, mkCr nodes1 sty1) /\ St2 p0 tk1 nodes1 sty1 VU (rw_ital r) /\
    tk_pos tk1 = tk_pos tkU /\ tk_default tk1 = tk_default tkU /\ tk_repos tk1 = tk_repos tkU /\
    (tk_break tk1 = tk_break tkU \/ (tk_break tk1 = None /\ tk_break tkU <> None /\ has_break_before nodes1 = true)) /\
    tws (R8 sty tk l nodes fr) (pac_unit d r) nx
      = R8 sty1 (tab_eff (rw_tab r) nodes1 tk1) l1 nodes1 (fr + Z.of_nat (length (pac_unit d r))) /\
    linv l1 None.
Proof.
  intros r tk tkU l nodes sty ital VU fr nx H Etk H1 Hl Hrd. subst tkU.
  destruct (pac_style_St p0 _ nodes sty VU ital (rw_ital r) H1) as (tk1 & nodes1 & sty1 & E1 & G1 & P1 & D1 & R1 & Bk).
  destruct (pac_unit_run5b st d pa ro q tm tc off (rich_of r) sty tk l nodes fr nx tk1 nodes1 sty1 (rich_of_ok r H) E1 Hl Hrd)
    as (l1 & E & Hl1).
  exists tk1, nodes1, sty1, l1. exact (conj E1 (conj G1 (conj P1 (conj D1 (conj R1 (conj Bk (conj E Hl1))))))).
Qed.

Lemma pac_run8 : forall r cur (ps : list pos) dflt l nodes sty ital V fr nx lastrow c0, row_ok r = true ->
  St2 p0 (mkTk (cur :: ps) None false dflt) nodes sty V ital -> (exists V0 c b, V = V0 ++ [XC c b]) ->
  last (map Some (cur :: ps)) None = Some (lastrow, c0) -> rw_row r <> lastrow ->
  last_contains l (pac_word (rw_row r) (pac_attr r)) = false ->
  exists tk2 l' nodes' sty',
    tws (R8 sty (mkTk (cur :: ps) None false dflt) l nodes fr) (pac_unit d r) nx
      = R8 sty' tk2 l' nodes' (fr + Z.of_nat (length (pac_unit d r))) /\ linv l' None /\
    St2 p0 tk2 nodes' sty' (V ++ sepx (sepof (Some lastrow) r)) (rw_ital r) /\
    (exists cur' ps' c1, tk_pos tk2 = cur' :: ps' /\ last (map Some (cur' :: ps')) None = Some (rw_row r, c1)) /\
    tkgood tk2.
Proof.
  intros r cur ps dflt l nodes sty ital V fr nx lastrow c0 H Hh Hend Hlast Hne Hl.
  pose proof (rich_of_ok r H) as Hrich. destruct (rich_facts (rich_of r) Hrich) as (_ & _ & Hk & _).
  change (rw_tab (rich_of r)) with (rw_tab r) in Hk.
  set (tk := mkTk (cur :: ps) None false dflt) in *.
  assert (Hhb : has_break_before nodes = false) by (destruct Hh as [_ Hb]; exact (Hb Hend)).
  assert (Hrd : pac_ready tk nodes).
  { left. intros ->. destruct Hh as [(_ & Hr & _) _]. destruct Hend as (V0 & c & b & ->). cbn [rx pend tk tk_break tk_repos app] in Hr.
    symmetry in Hr. apply app_eq_nil in Hr. destruct Hr as [_ Hr]. discriminate Hr. }
  unfold sepof. destruct (Z.eqb_spec (rw_row r) (lastrow + 1)) as [Eadj|Nadj].
  - set (tkA := mkTk ((cur :: ps) ++ [(lastrow + 1, c0)]) (Some (rw_indent r)) false (lastrow + 1, rw_indent r)).
    assert (Etk : tracker_update tk (rw_row r, rw_indent r) = tkA) by (rewrite Eadj; exact (tracker_adj_pac (cur :: ps) lastrow c0 dflt (rw_indent r) Hlast)).
    assert (H1 : St2 p0 tkA nodes sty (V ++ [XB]) ital).
    { apply (St2_settk p0 tk tkA nodes sty V ital Hh eq_refl); [right; reflexivity|]. intros _. split; reflexivity. }
    destruct (pac_unit_St r tk tkA l nodes sty ital _ fr nx H Etk H1 Hl Hrd)
      as (tk1 & nodes1 & sty1 & l1 & E1 & G1 & P1 & D1 & R1 & Bk & E & Hl1).
    exists (tab_eff (rw_tab r) nodes1 tk1), l1, nodes1, sty1. split; [exact E|]. split; [exact Hl1|].
    assert (T : tk_pos (tab_eff (rw_tab r) nodes1 tk1) = tk_pos tk1 /\ tk_break (tab_eff (rw_tab r) nodes1 tk1) = tk_break tk1 /\
                tk_repos (tab_eff (rw_tab r) nodes1 tk1) = tk_repos tk1).
    { unfold tab_eff. destruct (has_break_before nodes1) eqn:Eh; [repeat split|].
      destruct Bk as [Bk|(_ & _ & X)]; [|congruence].
      rewrite (tk_eta tk1 _ _ _ _ P1 Bk R1 D1). unfold tkA. cbn [tk_pos tk_break tk_repos tk_default].
      rewrite (tab_adj (cur :: ps) lastrow c0 (rw_indent r) (rw_tab r) Hk). repeat split. }
    destruct T as (T1 & T2 & T3).
    split; [|split; [exists cur, (ps ++ [(lastrow + 1, c0)]), c0; rewrite T1, P1; split; [reflexivity|]|]].
    + cbn [sepx]. apply (St2_tkeq p0 tk1 _ nodes1 sty1 _ _ G1 T1); [rewrite P1; discriminate|exact T2|exact T3].
    + change (cur :: ps ++ [(lastrow + 1, c0)]) with ((cur :: ps) ++ [(lastrow + 1, c0)]). rewrite last_some_app, Eadj. reflexivity.
    + right. rewrite T3, R1. reflexivity.
  - set (tkF := mkTk [(rw_row r, rw_indent r)] None true (rw_row r, rw_indent r)).
    assert (Etk : tracker_update tk (rw_row r, rw_indent r) = tkF) by exact (tracker_far_pac (cur :: ps) lastrow c0 dflt (rw_row r) (rw_indent r) Hlast Hne Nadj).
    assert (H1 : St2 p0 tkF nodes sty (V ++ pend tkF) ital).
    { apply (St2_settk p0 tk tkF nodes sty V ital Hh eq_refl); [left; reflexivity|]. intros X. discriminate X. }
    destruct (pac_unit_St r tk tkF l nodes sty ital _ fr nx H Etk H1 Hl Hrd)
      as (tk1 & nodes1 & sty1 & l1 & E1 & G1 & P1 & D1 & R1 & Bk & E & Hl1).
    assert (B1 : tk_break tk1 = None) by (destruct Bk as [Bk|(Bk & _)]; exact Bk).
    pose proof (tk_eta tk1 _ _ _ _ P1 B1 R1 D1) as Et1. cbn [tkF tk_pos tk_default tk_repos] in Et1. fold tkF in Et1. subst tk1.
    pose proof (pac_style_hbb (rw_ital r) sty tkF nodes tkF nodes1 sty1 eq_refl E1) as Hh1. rewrite Hhb in Hh1.
    unfold tab_eff in E. rewrite Hh1 in E. unfold tkF in E. rewrite (tab_far (rw_row r) (rw_indent r) (rw_tab r) Hk) in E.
    eexists _, l1, nodes1, sty1. split; [exact E|]. split; [exact Hl1|]. split; [|split; [|left; reflexivity]].
    + exact (St2_repos_move p0 tkF (mkTk [(rw_row r, rw_indent r + rw_tab r)] None true (rw_row r, rw_indent r + rw_tab r)) nodes1 sty1 V (rw_ital r) G1 eq_refl eq_refl eq_refl eq_refl).
    + exists (row_pos r), [], (rw_indent r + rw_tab r). split; reflexivity.
Qed.
End Rows8.


Lemma emit_row_m : forall d r, emit_row d r = pac_unit d r ++ mpack d (flat_map mtoks_of_item (rw_items r)) None.
Proof. intros d r. unfold emit_row. rewrite pack_mpack. reflexivity. Qed.

Section Rows8b.
Variables (st : stash) (p0 : pos) (d : bool) (pa ro : creator) (q : option (creator * Q)) (tm : Q) (tc : str) (off : Q).
Notation R8 sty tk l nodes fr := (RS st d sty pa ro q tm tc off tk l nodes fr).

Lemma rows_run8 : forall t, Forall (fun r => row_ok r = true) t ->
  forall nx xs pp rprev oprev cur (ps : list pos) lastrow c0 dflt l fr nodes sty ital,
  chain_ok lastrow t -> rw_row rprev = lastrow -> row_ok rprev = true ->
  St2 p0 (mkTk (cur :: ps) None false dflt) nodes sty (flat xs ++ sepx (sepof pp rprev) ++ xl oprev) ital ->
  J None (cells_of rprev) oprev -> rowlast l -> last_is l w_eoc = false ->
  last (map Some (cur :: ps)) None = Some (lastrow, c0) ->
  exists tk' l' nodes' sty' ys,
    tws (R8 sty (mkTk (cur :: ps) None false dflt) l nodes fr) (flat_map (emit_row d) t) nx
      = R8 sty' tk' l' nodes' (fr + Z.of_nat (length (flat_map (emit_row d) t))) /\
    rx false nodes' = flat (xs ++ ys) /\ W p0 nodes' /\ Rrows pp (rprev :: t) ys /\ last_is l' w_eoc = false.
Proof.
  intros t F. induction F as [|r t Hrow F IH]; intros nx xs pp rprev oprev cur ps lastrow c0 dflt l fr nodes sty ital Hch Elr Hprev Hh Hj Hl Hle Hlast.
  - destruct (row_len rprev Hprev) as (Hlen & Hv & _).
    exists (mkTk (cur :: ps) None false dflt), l, nodes, sty, [(sepof pp rprev, oprev)].
    cbn [flat_map tws length]. rewrite Z.add_0_r. split; [reflexivity|].
    destruct Hh as [(_ & Hr & _ & _ & Hw & _) _]. unfold pend in Hr. cbn [tk_break tk_repos] in Hr. rewrite app_nil_r in Hr.
    split; [rewrite Hr, flat_app, flat_one; reflexivity|]. split; [exact Hw|]. split; [|exact Hle].
    cbn [Rrows fst snd]. split; [reflexivity|split; [|exact I]]. exact (lclosed_lineok _ _ (J_lclosed _ _ Hj) Hv Hlen).
  - destruct Hch as [Hne Hch].
    destruct (row_len rprev Hprev) as (Hlen & Hv & _). pose proof (J_nonempty _ _ Hj Hv) as Hon.
    cbn [flat_map]. rewrite tws_app, app_length, Nat2Z.inj_add, emit_row_m, tws_app, app_length, Nat2Z.inj_add.
    set (toks := mpack d (flat_map mtoks_of_item (rw_items r)) None).
    destruct (pac_row_facts2 (rich_of r) (rich_of_ok r Hrow)) as (_ & Hpac & _).
    change (pac_word (rw_row (rich_of r)) (pac_attr (rich_of r))) with (pac_word (rw_row r) (pac_attr r)) in Hpac.
    assert (Hend : exists V0 c b, flat xs ++ sepx (sepof pp rprev) ++ xl oprev = V0 ++ [XC c b]).
    { destruct (exists_last Hon) as (o1 & [c b] & ->). rewrite xl_snoc, !app_assoc. eexists _, _, _. reflexivity. }
    destruct (pac_run8 st p0 d pa ro q tm tc off r cur ps dflt l nodes sty ital _ fr (nxt toks (nxt (flat_map (emit_row d) t) nx)) lastrow c0
                Hrow Hh Hend Hlast Hne (Hl _ Hpac)) as (tk2 & l1 & nodes1 & sty1 & E1 & Hl1 & Hh1 & P2 & G2).
    rewrite E1.
    set (sp := sepof pp rprev) in *. set (sr := sepof (Some lastrow) r) in *.
    assert (Hsr : exists z, issep z = true /\ sepx sr = [z]).
    { unfold sr, sepof. destruct (rw_row r =? lastrow + 1); [exists XB|exists (XR (row_pos r))]; split; reflexivity. }
    destruct Hsr as (z & Hz & Ez).
    destruct (items_run8 st p0 d pa ro q tm tc off r (flat xs ++ sepx sp) (sepx sr) (cells_of rprev) oprev tk2 l1 nodes1 sty1
                (fr + Z.of_nat (length (pac_unit d r))) (nxt (flat_map (emit_row d) t) nx) Hrow)
      as (l2 & nodes2 & sty2 & ital2 & o' & rend' & E2 & Hh2 & Hs2 & Hcl2 & Hj2 & Hrn & Hle2 & Hl2).
    { cbn [xl map]. rewrite app_nil_r. repeat rewrite <- app_assoc in Hh1. repeat rewrite <- app_assoc. exact Hh1. }
    { right. split; [exact Hon|]. exists z. split; assumption. }
    { exact (J_lclosed _ _ Hj). }
    { exact Hl1. }
    fold toks in E2. rewrite E2.
    destruct P2 as (cur' & ps' & c1 & P2 & Hlast').
    assert (Etk : acked tk2 = mkTk (cur' :: ps') None false (tk_default tk2)) by (unfold acked; rewrite P2; reflexivity).
    rewrite Etk in *.
    destruct (IH nx (xs ++ [(sp, o')]) (Some lastrow) r rend' cur' ps' (rw_row r) c1 (tk_default tk2) l2
                (fr + Z.of_nat (length (pac_unit d r)) + Z.of_nat (length toks)) nodes2 sty2 ital2 Hch eq_refl Hrow)
      as (tk' & l' & nodes' & sty' & ys & E & Hrx & Hw & HR & Hle').
    { fold sr. rewrite flat_app, flat_one. repeat rewrite <- app_assoc in Hh2. repeat rewrite <- app_assoc. exact Hh2. }
    { exact Hj2. }
    { exact Hl2. }
    { exact Hle2. }
    { exact Hlast'. }
    exists tk', l', nodes', sty', ((sp, o') :: ys). split; [rewrite E; f_equal; clear; lia|].
    split; [rewrite Hrx, <- app_assoc; reflexivity|]. split; [exact Hw|]. split; [|exact Hle'].
    cbn [Rrows fst snd]. split; [reflexivity|]. split; [exact (lclosed_lineok _ _ Hcl2 Hv Hlen)|]. rewrite Elr. exact HR.
Qed.
End Rows8b.


Definition lc_good8 (ld : load) (cr : creator) : Prop := queued ld cr.

Lemma lc_ok8_parts : forall ld, lc_ok8 ld = true ->
  exists r t, ld = r :: t /\ row_ok r = true /\ Forall (fun r => row_ok r = true) t /\ chain_ok (rw_row r) t.
Proof. intros ld Hw. apply (load_parts row_ok ld Hw). destruct ld; [discriminate Hw|]. apply andb_true_iff in Hw. exact (proj1 Hw). Qed.

Lemma lc_ok8_wf : forall ld, lc_ok8 ld = true -> load_wf ld = true.
Proof. intros ld H. exact H. Qed.

Theorem line8 : forall d off ld st tk l ds q tm tc fr tc' t,
  lc_ok8 ld = true -> last_is l w_enm = false ->
  get_time tc' (Z.of_nat (length (emit_load d ld)) - (if d then 2 else 1)) off = Ok t ->
  exists cr tk' l' ds' fr',
    translate_line (B off st tk l ds q tm tc fr) (tc', emit_load d ld)
      = B off (popped st q t) tk' l' ds' (Some (cr, t)) t tc' fr'
    /\ lc_good8 ld cr /\ last_is l' w_edm = false /\ last_is l' w_enm = false.
Proof.
  intros d off ld st tk l ds q tm tc fr tc' t H Hl Hg. destruct (lc_ok8_parts ld H) as (r & rest & -> & Hrow & Frest & Hch).
  set (nx := nxt (ctl d (ctrl_word 47)) None). set (p0 := row_pos r).
  destruct (first_row8 st d q tm tc' off (tk_default tk) r (if d then 4 else 2) (nxt (flat_map (emit_row d) rest) nx) Hrow)
    as (l2 & nodes2 & sty2 & ital2 & rend' & E1 & Hh2 & Hj2 & _ & Hle2 & Hl2).
  destruct (rows_run8 st p0 d creator0 creator0 q tm tc' off rest Frest nx [] None r rend' p0 [] (rw_row r)
              (rw_indent r + rw_tab r) p0 l2 ((if d then 4 else 2) + Z.of_nat (length (emit_row d r)))
              nodes2 sty2 ital2 Hch eq_refl Hrow Hh2 Hj2 Hl2 Hle2 eq_refl)
    as (tk3 & l3 & nodes3 & sty3 & ys & E3 & Hrx & Hw & HR & Hle3).
  assert (Hgood : lc_good8 (r :: rest) (mkCr nodes3 sty3)).
  { exists r, rest, ys. split; [reflexivity|split; [exact Hrx|split; [exact HR|exact Hw]]]. }
  destruct (load_line_B d off st tk l ds q tm tc fr tc' (r :: rest) t tk3 l3 (mkCr nodes3 sty3) Hl Hg (queued_not_empty _ _ Hgood) Hle3)
    as (l4 & ds4 & fr4 & E4 & Hl4).
  { cbn [flat_map]. rewrite tws_app, app_length, Nat2Z.inj_add, Z.add_assoc.
    refine (eq_trans (f_equal (fun s => tws s _ _) E1) _). exact E3. }
  exists (mkCr nodes3 sty3), tk3, l4, ds4, fr4. split; [exact E4|split; [exact Hgood|exact Hl4]].
Qed.


Theorem good8 : forall ld cr st t0 t1, lc_ok8 ld = true -> lc_good8 ld cr ->
  exists caps, create_and_store st cr t0 t1 = stash_extend st caps /\ caps <> [] /\
    Forall (fun c => pc_start c = t0 /\ pc_end c = t1 /\ has_nodes c = true) caps /\
    (forall c ln, In c caps -> In ln (lines_of (cap_text c)) -> (length ln <= 32)%nat) /\
    (forall e, (t0 < e)%Q -> forall rest,
       load_ok (expected_load ld) (map observe (map (set_end e) caps) ++ rest) None = Some (rest, Some (t0, e))).
Proof.
  intros ld cr st t0 t1 Hok Hg. destruct (good_load ld cr st t0 t1 Hok Hg) as (caps & A & B & C & D & E & _).
  exists caps. repeat split; assumption.
Qed.

Theorem popon_stage8 : forall d l off tc tc2 t1 t2, lc_ok8 l = true ->
  get_time tc (Z.of_nat (length (emit_load d l)) - (if d then 2 else 1)) off = Ok t1 ->
  get_time tc2 0 off = Ok t2 -> (0 < t1)%Q -> (t1 < t2)%Q -> is_flash (mkPre t1 t2 [] None) = false ->
  exists caps, read off [(tc, emit_load d l); (tc2, emit_clear d)] = ROk caps /\
               ok_c05 (mkProg d [l]) (Ok (map observe caps)) = true.
Proof.
  intros d l off tc tc2 t1 t2 H Hg1 Hg2 H0 Hlt Hfl.
  destruct (line8 d off l stash0 tracker0 LNone false None 0%Q (lit "00:00:00;00") 0 tc t1 H eq_refl Hg1)
    as (cr & tk' & l' & ds' & fr' & E1 & Hgood & Hl1 & _).
  destruct (read_queued d l off tc _ tc2 t1 t2 cr tk' l' ds' fr' H Hgood E1 Hl1 Hg2 H0 Hlt Hfl) as (caps & Hread & Hok & _).
  exists caps. split; assumption.
Qed.

(* The examples have a row of 32 equal characters.  Evaluated as they stand, the specification side (is_basic and basic_code
   search the code table, for every character) costs the kernel several times what `read` costs; with these facts a run of
   equal characters is looked up once. *)
Lemma items_ok_run : forall c n prev, is_basic c = true -> items_ok (map Ch (repeat c n)) prev = true.
Proof.
  intros c n prev H. revert prev. induction n as [|n IH]; intros prev; [reflexivity|]. cbn [repeat map items_ok]. rewrite H. apply IH.
Qed.

Lemma emit_row_run : forall d rw ind tab u c n m, n = (2 * m)%nat ->
  emit_row d (mkRow rw ind tab u (map Ch (repeat c n)))
  = pac_unit d (mkRow rw ind tab u (map Ch (repeat c n))) ++ repeat (odd_parity (basic_code c) * 256 + odd_parity (basic_code c)) m.
Proof.
  intros d rw ind tab u c n m ->. unfold emit_row. cbn [rw_items]. f_equal. induction m as [|m IH]; [reflexivity|].
  replace (2 * S m)%nat with (S (S (2 * m))) by lia. cbn [repeat map flat_map toks_of_item app pack]. rewrite IH. reflexivity.
Qed.

Lemma full_row_ok : forall u, u = 0 \/ u = 14 -> row_ok (mkRow 3 0 0 u (map Ch (repeat 97 32))) = true.
Proof.
  intros u Hu. unfold row_ok. cbn [rw_items]. rewrite (items_ok_run 97 32 None) by (vm_compute; reflexivity).
  destruct Hu as [->| ->]; vm_compute; reflexivity.
Qed.

(* a row of 32 characters, then (not on the next screen row) a row whose mid-row code arrives after a backspace has emptied
   the row: the reader appends a blank to the full line, the text node then stands directly in front of the REPOSITION node
   and is right-stripped by pass 7: the load is read, the first caption has its 32 characters *)
Definition cex_load : load := [mkRow 3 0 0 0 (map Ch (repeat 97 32)); mkRow 8 0 0 0 [Ch 97; Bs; Mid 0; Ch 98]].
Example cex_load_now_reads :
  load_wf cex_load = true /\ lc_ok8 cex_load = true /\
  map (fun d => match read 0 [(lit "00:00:01;00", emit_load d cex_load); (lit "00:00:05;00", emit_clear d)] with
                | ROk caps => Some (map (fun c => (cap_text c, length (cap_text c))) caps) | _ => None end) [false; true]
  = [Some [(repeat 97 32, 32%nat); ([98], 1%nat)]; Some [(repeat 97 32, 32%nat); ([98], 1%nat)]].
Proof.
  cbn [map]. unfold lc_ok8, load_wf, emit_load, cex_load. cbn [forallb flat_map].
  rewrite (full_row_ok 0 (or_introl eq_refl)), (emit_row_run false 3 0 0 0 97 32 16 eq_refl), (emit_row_run true 3 0 0 0 97 32 16 eq_refl).
  vm_compute. repeat split.
Qed.

(* the same with an ITALIC full row and an italic mid-row code on the still empty new row (italic or plain preamble): the
   blank goes to the full line, the italics are closed in front of the reposition (queued ItalOn Text(33) [ItalOff ItalOn]
   Text() Repos Text, passes 1-6 give ItalOn Text(33) ItalOff Repos ItalOn Text ItalOff): pass 7 looks through the
   italics-off node and strips the text node; the first caption has its 32 characters *)
Definition cex_load_ital : load := [mkRow 3 0 0 14 (map Ch (repeat 97 32)); mkRow 8 0 0 14 [Mid 14; Ch 98]].
Definition cex_load_ital2 : load := [mkRow 3 0 0 14 (map Ch (repeat 97 32)); mkRow 8 0 0 0 [Mid 14; Ch 98]].
Example cex_loads_now_read :
  forallb (fun ld => load_wf ld &&
     forallb (fun d => match read 0 [(lit "00:00:01;00", emit_load d ld); (lit "00:00:05;00", emit_clear d)] with
                       | ROk (c :: _) => Nat.eqb (length (cap_text c)) 32 | _ => false end) [false; true]) [cex_load_ital; cex_load_ital2] = true.
Proof.
  cbn [forallb]. unfold load_wf, emit_load, cex_load_ital, cex_load_ital2. cbn [forallb flat_map].
  rewrite (full_row_ok 14 (or_intror eq_refl)), (emit_row_run false 3 0 0 14 97 32 16 eq_refl), (emit_row_run true 3 0 0 14 97 32 16 eq_refl).
  vm_compute. reflexivity.
Qed.

(* the second row directly below the full italic row (one caption, BREAK: 32 + newline + text) *)
Definition cex_load_adj : load := [mkRow 3 0 0 14 (map Ch (repeat 97 32)); mkRow 4 0 0 14 [Mid 14; Mid 0; Ch 98]].
Definition cex_load_adj2 : load := [mkRow 3 0 0 14 (map Ch (repeat 97 32)); mkRow 4 0 0 14 [Mid 14; Ch 44]].
Example cex_loads_adj_now_read :
  forallb (fun ld => load_wf ld &&
     forallb (fun d => match read 0 [(lit "00:00:01;00", emit_load d ld); (lit "00:00:05;00", emit_clear d)] with
                       | ROk [c] => Nat.eqb (length (cap_text c)) 34 && ok_c05 (mkProg d [ld]) (Ok [observe c]) | _ => false end) [false; true])
    [cex_load_adj; cex_load_adj2] = true.
Proof.
  cbn [forallb]. unfold load_wf, emit_load, cex_load_adj, cex_load_adj2. cbn [forallb flat_map].
  rewrite (full_row_ok 14 (or_intror eq_refl)), (emit_row_run false 3 0 0 14 97 32 16 eq_refl), (emit_row_run true 3 0 0 14 97 32 16 eq_refl).
  vm_compute. reflexivity.
Qed.

(* the domain is inhabited: three captions; italics carried over a break and over a reposition; mid-row codes first,
   in the middle and last in a row; a backspace emptying a row before a mid-row code (after a row that is not full);
   coloured, underlined, indented, tabbed and italic preambles; special and extended characters *)
Definition wit_load8 : load :=
  [mkRow 3 0 1 13 [Ch 97; Mid 14; Ext 101 1 5; Sp 3]; mkRow 4 4 2 1 [Mid 15; Ch 98; Bs; Mid 2; Ch 99; Mid 14];
   mkRow 9 0 0 14 [Ch 100; Bs; Mid 0; Ch 101; Mid 15; Ch 102]; mkRow 10 8 0 0 [Ch 103]; mkRow 1 0 0 15 [Mid 1; Sp 0; Ch 32; Ch 104]].
Example wit_load8_ok : lc_ok8 wit_load8 = true /\ map e_row (expected_load wit_load8) = [3; 9; 1] /\
  map (fun e => length (e_lines e)) (expected_load wit_load8) = [2; 2; 1]%nat.
Proof. vm_compute. repeat split. Qed.

(* the hypotheses of the theorem are satisfiable together: the theorem applied to a concrete doubled stream *)
Example stage8_instance : exists caps,
  read 0 [(lit "00:00:01;00", emit_load true wit_load8); (lit "00:00:05;00", emit_clear true)] = ROk caps /\
  ok_c05 (mkProg true [wit_load8]) (Ok (map observe caps)) = true.
Proof.
  apply (popon_stage8 true wit_load8 0 (lit "00:00:01;00") (lit "00:00:05;00") 2700000 5000000); vm_compute; reflexivity.
Qed.

(* Whole programs: Section Lift of stage 7 applied to lc_ok8 / lc_good8 / line8 / good8 / lc_ok8_wf (stage 9). *)
