(* C07: the <p> payload assembled by _recreate_text / _recreate_span is accepted by the strict content machine
   of the specification (spec/SpecXmlAttr.v) whenever the style nodes are balanced. *)
From Coq Require Import List ZArith Lia Bool.
From PV Require Import lib.Sx lib.Str lib.Dec model.DfxpXml spec.SpecXmlAttr proofs.XmlAttrFacts.
Import ListNotations.
Open Scope Z_scope.

Definition cst (stack : list str) (ev : list xev) (acc : str) : pst :=
  mkPst stack ev [] [] [] (MContent (VNormal acc)).

Lemma xrun_app : forall a b s, xrun s (a ++ b) = match xrun s a with Some s' => xrun s' b | None => None end.
Proof. induction a as [|c t IH]; intros b s; cbn [app xrun]; [reflexivity|]. destruct (xstep s c); [apply IH|reflexivity]. Qed.

(* a fragment that takes the machine from content (stack a) to content (stack b), whatever came before *)
Definition accepts (a b : list str) (frag : str) : Prop :=
  forall ev acc, exists ev' acc', xrun (cst a ev acc) frag = Some (cst b ev' acc').

Lemma accepts_app : forall a b c f g, accepts a b f -> accepts b c g -> accepts a c (f ++ g).
Proof.
  intros a b c f g H1 H2 ev acc. destruct (H1 ev acc) as (ev1 & acc1 & E1). destruct (H2 ev1 acc1) as (ev2 & acc2 & E2).
  exists ev2, acc2. rewrite xrun_app, E1. exact E2.
Qed.
Lemma accepts_nil : forall a, accepts a a [].
Proof. intros a ev acc. exists ev, acc. reflexivity. Qed.

(* characters that are no delimiter of the mode go to the value machine: content (delimiters < >), attribute value (the quote) *)
Lemma value_chars_run : forall (S : vst -> pst) (d : Z -> bool),
  (forall v c, d c = false -> xstep (S v) c = match vstep v c with Some v' => Some (S v') | None => None end) ->
  forall w v, existsb d w = false -> xrun (S v) w = match vrun v w with Some v' => Some (S v') | None => None end.
Proof.
  intros S d HS. induction w as [|c t IH]; intros v H; [reflexivity|].
  cbn [existsb] in H. apply orb_false_elim in H. destruct H as [H1 H2].
  cbn [xrun vrun]. rewrite (HS v c H1). destruct (vstep v c); [apply IH; exact H2|reflexivity].
Qed.

Lemma esc_no_angle : forall nl quot s, existsb (fun c => (c =? 60) || (c =? 62)) (flat_map (esc nl quot) s) = false.
Proof.
  intros nl quot s. induction s as [|x t IH]; [reflexivity|]. cbn [flat_map]. rewrite existsb_app, IH, orb_false_r.
  unfold esc.
  destruct (x =? 38) eqn:E38; [reflexivity|]. destruct (x =? 62) eqn:E62; [reflexivity|]. destruct (x =? 60) eqn:E60; [reflexivity|].
  destruct (nl && (x =? 10)); [reflexivity|]. destruct (nl && (x =? 13)); [reflexivity|]. destruct (nl && (x =? 9)); [reflexivity|].
  destruct (quot && (x =? 34)); [reflexivity|]. cbn [existsb]. rewrite E60, E62. reflexivity.
Qed.

Lemma accepts_text : forall a s, forallb is_xml_char s = true -> accepts a a (xml_escape s).
Proof.
  intros a s H ev acc. exists ev, (rev s ++ acc). unfold cst.
  rewrite xml_escape_esc, (value_chars_run (fun v => mkPst a ev [] [] [] (MContent v)) (fun c => (c =? 60) || (c =? 62))).
  - rewrite vrun_esc by exact H. reflexivity.
  - intros v c D. apply orb_false_elim in D. destruct D as [D1 D2]. cbn [xstep]. rewrite D1, D2. reflexivity.
  - apply esc_no_angle.
Qed.
Lemma accepts_space : forall a, accepts a a [32].
Proof. intros a ev acc. exists ev, (32 :: acc). reflexivity. Qed.

Lemma accepts_br : forall a, accepts a a br_text.
Proof. intros a ev acc. eexists. eexists. reflexivity. Qed.

Definition span_name : str := lit "span".

Definition valid_name (n : str) : bool :=
  match n with c :: t => is_name_start c && forallb is_name_char t | [] => false end.

Definition tst (stack : list str) (ev : list xev) (tag : str) (attrs : list (str * str)) (ws : bool) : pst :=
  mkPst stack ev tag attrs [] (MInTag ws).

(* a run of name characters, in whichever mode collects a name (attribute, start tag, end tag) *)
Lemma name_chars_run : forall (S : str -> pst),
  (forall n c, is_name_char c = true -> xstep (S n) c = Some (S (c :: n))) ->
  forall t n, forallb is_name_char t = true -> xrun (S n) t = Some (S (rev t ++ n)).
Proof.
  intros S HS. induction t as [|c t IH]; intros n H; [reflexivity|].
  cbn [forallb] in H. apply andb_prop in H. destruct H as [H1 H2].
  cbn [xrun]. rewrite (HS n c H1), IH by exact H2. cbn [rev]. rewrite <- app_assoc. reflexivity.
Qed.

Lemma quote_value_shape : forall nl v, forallb is_xml_char v = true ->
  exists q body, quote_value (flat_map (esc nl false) v) = [q] ++ body ++ [q] /\ (q = 34 \/ q = 39) /\
                 has q body = false /\ vrun (VNormal []) body = Some (VNormal (rev v)).
Proof.
  intros nl v H. unfold quote_value. destruct (has 34 (flat_map (esc nl false) v)) eqn:H34.
  - destruct (has 39 (flat_map (esc nl false) v)) eqn:H39.
    + exists 34, (flat_map (esc nl true) v). rewrite quot_esc. repeat split; auto; [apply has_quot_free|].
      rewrite vrun_esc by exact H. rewrite app_nil_r. reflexivity.
    + exists 39, (flat_map (esc nl false) v). repeat split; auto. rewrite vrun_esc by exact H. rewrite app_nil_r. reflexivity.
  - exists 34, (flat_map (esc nl false) v). repeat split; auto. rewrite vrun_esc by exact H. rewrite app_nil_r. reflexivity.
Qed.

Lemma name_start_facts : forall c, is_name_start c = true ->
  is_xml_space c = false /\ (c =? 62) = false /\ (c =? 47) = false /\ is_name_char c = true.
Proof. intros c H. unfold is_name_start, is_xml_space, is_name_char in *. unfold is_name_start. lia. Qed.

(* one attribute, the machine standing in the tag after whitespace; nl = false is the literal bs4 writes (attr_out),
   nl = true the one of quoteattr *)
Lemma attr_run : forall nl name v stack ev tag attrs,
  valid_name name = true -> existsb (fun a => str_eqb (fst a) name) attrs = false -> forallb is_xml_char v = true ->
  xrun (tst stack ev tag attrs true) (name ++ [61] ++ quote_value (flat_map (esc nl false) v))
  = Some (tst stack ev tag ((name, v) :: attrs) false).
Proof.
  intros nl name v stack ev tag attrs Hn Hd Hv. destruct name as [|c t]; [discriminate|].
  cbn [valid_name] in Hn. apply andb_prop in Hn. destruct Hn as [Hc Ht].
  destruct (name_start_facts c Hc) as (F1 & F2 & F3 & F4).
  unfold tst. cbn [app xrun]. cbn [xstep]. rewrite F1, F2, F3, Hc. cbn [andb].
  rewrite xrun_app, (name_chars_run (fun n => mkPst stack ev tag attrs [] (MAttrName n))) by (exact Ht || (intros ? ? Hnc; cbn [xstep]; rewrite Hnc; reflexivity)).
  assert (R : rev (rev t ++ [c]) = c :: t) by (rewrite rev_app_distr, rev_involutive; reflexivity).
  cbn [app xrun]. cbn [xstep]. rewrite R.
  assert (N61 : is_name_char 61 = false) by reflexivity. rewrite N61. cbn [Z.eqb Pos.eqb]. rewrite Hd.
  destruct (quote_value_shape nl v Hv) as (q & body & E & Hq & Hh & Hr). rewrite E.
  cbn [app xrun]. cbn [xstep].
  assert (Sq : is_xml_space q = false) by (destruct Hq; subst; reflexivity).
  assert (Qq : (q =? 34) || (q =? 39) = true) by lia. rewrite Sq, Qq.
  rewrite xrun_app, (value_chars_run (fun v => mkPst stack ev tag attrs (c :: t) (MAttrVal q v)) (Z.eqb q)).
  - rewrite Hr. cbn [xrun xstep]. rewrite Z.eqb_refl, rev_involutive. reflexivity.
  - intros v0 c0 D. cbn [xstep]. rewrite Z.eqb_sym, D. reflexivity.
  - exact Hh.
Qed.

Lemma one_attr' : forall name v stack ev tag attrs,
  valid_name name = true -> existsb (fun a => str_eqb (fst a) name) attrs = false -> forallb is_xml_char v = true ->
  xrun (tst stack ev tag attrs true) (name ++ [61] ++ quoteattr v) = Some (tst stack ev tag ((name, v) :: attrs) false).
Proof. intros name v. unfold quoteattr. rewrite quoteattr_body_esc. apply attr_run. Qed.

(* names valid and pairwise distinct (and not yet in the tag), values made of XML characters *)
Fixpoint attrs_ok (attrs : list (str * str)) (seen : list (str * str)) : Prop :=
  match attrs with
  | [] => True
  | (n, v) :: t => valid_name n = true /\ existsb (fun a => str_eqb (fst a) n) seen = false
                   /\ forallb is_xml_char v = true /\ attrs_ok t ((n, v) :: seen)
  end.

(* a dictionary as either writer serializes it: a blank before each attribute *)
Definition attr_text (nl : bool) (kv : str * str) : str :=
  [32] ++ fst kv ++ [61] ++ quote_value (flat_map (esc nl false) (snd kv)).

Lemma attr_texts_run : forall nl attrs seen stack ev tag ws, attrs_ok attrs seen ->
  xrun (tst stack ev tag seen ws) (flat_map (attr_text nl) attrs)
  = Some (tst stack ev tag (rev attrs ++ seen) (match attrs with [] => ws | _ => false end)).
Proof.
  induction attrs as [|[n v] t IH]; intros seen stack ev tag ws H; [reflexivity|].
  destruct H as (H1 & H2 & H3 & H4). cbn [flat_map].
  assert (E : xrun (tst stack ev tag seen ws) (attr_text nl (n, v)) = Some (tst stack ev tag ((n, v) :: seen) false)).
  { unfold attr_text, tst at 1. cbn [fst snd app xrun]. cbn [xstep]. change (is_xml_space 32) with true. cbv iota.
    apply attr_run; assumption. }
  rewrite xrun_app, E, IH by exact H4. cbn [rev]. rewrite <- app_assoc. destruct t; reflexivity.
Qed.

Lemma span_attrs_texts : forall attrs, span_attrs attrs = flat_map (attr_text true) attrs.
Proof.
  intros attrs. apply flat_map_ext. intros kv. unfold attr_text, quoteattr. rewrite quoteattr_body_esc. reflexivity.
Qed.

Lemma attrs_run : forall attrs seen stack ev tag ws, attrs_ok attrs seen ->
  xrun (tst stack ev tag seen ws) (span_attrs attrs)
  = Some (tst stack ev tag (rev attrs ++ seen) (match attrs with [] => ws | _ => false end)).
Proof. intros attrs. rewrite span_attrs_texts. apply attr_texts_run. Qed.

(* the first attribute follows a tag name: any state that a blank takes into the tag will do *)
Lemma attr_texts_run_from : forall nl a r s seen stack ev tag,
  xstep s 32 = Some (tst stack ev tag seen true) -> attrs_ok (a :: r) seen ->
  xrun s (flat_map (attr_text nl) (a :: r)) = Some (tst stack ev tag (rev (a :: r) ++ seen) false).
Proof.
  intros nl a r s seen stack ev tag Hs H. cbn [flat_map]. unfold attr_text at 1. cbn [app xrun]. rewrite Hs.
  exact (attr_texts_run nl (a :: r) seen stack ev tag true H).
Qed.

(* "<name attrs" leaves the machine after the name or, when there are attributes, in the tag *)
Lemma open_run : forall nl name attrs a ev acc, valid_name name = true -> attrs_ok attrs [] ->
  xrun (cst a ev acc) ([60] ++ name ++ flat_map (attr_text nl) attrs)
  = Some (match attrs with
          | [] => mkPst a (map EText acc ++ ev) [] [] [] (MOpenName (rev name))
          | _ => tst a (map EText acc ++ ev) name (rev attrs) false
          end).
Proof.
  intros nl name attrs a ev acc Hn Ha.
  assert (P : xrun (cst a ev acc) ([60] ++ name) = Some (mkPst a (map EText acc ++ ev) [] [] [] (MOpenName (rev name)))).
  { destruct name as [|c t]; [discriminate|]. cbn [valid_name] in Hn. apply andb_prop in Hn. destruct Hn as [Hc Ht].
    destruct (name_start_facts c Hc) as (_ & _ & F3 & _).
    unfold cst. cbn [app xrun]. cbn [xstep flush_text]. cbn [Z.eqb Pos.eqb]. cbn [xstep]. rewrite F3, Hc.
    rewrite (name_chars_run (fun n => mkPst a (map EText acc ++ ev) [] [] [] (MOpenName n))) by (exact Ht || (intros ? ? Hnc; cbn [xstep]; rewrite Hnc; reflexivity)). reflexivity. }
  rewrite app_assoc, xrun_app, P. destruct attrs as [|x r]; [reflexivity|].
  rewrite (attr_texts_run_from nl x r _ [] a (map EText acc ++ ev) name); [rewrite app_nil_r; reflexivity| |exact Ha].
  cbn [xstep]. change (is_name_char 32) with false. change (is_xml_space 32) with true. cbv iota. rewrite rev_involutive. reflexivity.
Qed.

Lemma open_tag_run : forall nl name attrs a ev acc, valid_name name = true -> attrs_ok attrs [] ->
  xrun (cst a ev acc) ([60] ++ name ++ flat_map (attr_text nl) attrs ++ [62])
  = Some (cst (name :: a) (EOpen name attrs :: map EText acc ++ ev) []).
Proof.
  intros nl name attrs a ev acc Hn Ha.
  replace ([60] ++ name ++ flat_map (attr_text nl) attrs ++ [62]) with (([60] ++ name ++ flat_map (attr_text nl) attrs) ++ [62])
    by (rewrite <- !app_assoc; reflexivity).
  rewrite xrun_app, open_run by assumption. destruct attrs as [|x r]; cbn [xrun xstep tst].
  - destruct name as [|c t]; [discriminate|].
    change (is_name_char 62) with false. change (is_xml_space 62) with false. cbv iota. cbn [Z.eqb Pos.eqb].
    rewrite rev_involutive. reflexivity.
  - change (is_xml_space 62) with false. cbv iota. cbn [Z.eqb Pos.eqb]. rewrite rev_involutive. reflexivity.
Qed.

Lemma accepts_open : forall nl name attrs a, valid_name name = true -> attrs_ok attrs [] ->
  accepts a (name :: a) ([60] ++ name ++ flat_map (attr_text nl) attrs ++ [62]).
Proof. intros nl name attrs a Hn Ha ev acc. eexists. eexists. apply open_tag_run; assumption. Qed.

Lemma accepts_close : forall name a, valid_name name = true -> accepts (name :: a) a ([60; 47] ++ name ++ [62]).
Proof.
  intros name a Hn ev acc. destruct name as [|c t]; [discriminate|].
  cbn [valid_name] in Hn. apply andb_prop in Hn. destruct Hn as [Hc Ht].
  destruct (name_start_facts c Hc) as (F1 & F2 & F3 & F4).
  unfold cst. cbn [app xrun]. cbn [xstep flush_text]. cbn [Z.eqb Pos.eqb]. cbn [xstep]. cbn [Z.eqb Pos.eqb]. cbn [xstep]. rewrite F4.
  rewrite xrun_app, (name_chars_run (fun n => mkPst ((c :: t) :: a) (map EText acc ++ ev) [] [] [] (MCloseName n))) by (exact Ht || (intros ? ? Hnc; cbn [xstep]; rewrite Hnc; reflexivity)).
  cbn [xrun xstep]. change (is_name_char 62) with false. change (is_xml_space 62) with false. cbv iota.
  cbn [Z.eqb Pos.eqb]. rewrite rev_app_distr, rev_involutive. cbn [rev app]. rewrite str_eqb_refl.
  eexists. eexists. reflexivity.
Qed.

Lemma accepts_open_span : forall a attrs, attrs_ok attrs [] ->
  accepts a (span_name :: a) (lit "<span" ++ span_attrs attrs ++ [62]).
Proof. intros a attrs H. rewrite span_attrs_texts. exact (accepts_open true span_name attrs a eq_refl H). Qed.
Lemma accepts_close_span : forall a, accepts (span_name :: a) a close_span.
Proof. intros a. exact (accepts_close span_name a eq_refl). Qed.

Lemma space_facts : forall c, is_space c = true -> (c =? 59) = false /\ (c =? 62) = false /\ (c =? 60) = false /\ (c =? 38) = false.
Proof. intros c H. unfold is_space in H. lia. Qed.

Lemma back1 : forall s c st ev acc, xstep s c = Some (cst st ev acc) -> is_space c = true ->
  exists acc0, s = cst st ev acc0.
Proof.
  intros [stack ev' tag attrs aname m] c st ev acc H Hs.
  destruct (space_facts c Hs) as (F59 & F62 & F60 & F38). unfold cst in *.
  destruct m; cbn [xstep] in H; rewrite ?F62, ?F60 in H;
    repeat match type of H with
           | context [if ?b then _ else _] => destruct b eqn:?
           | context [match ?x with _ => _ end] => destruct x eqn:?
           end; try discriminate; try (inversion H; fail).
  all: try (inversion H; subst; clear H;
            match goal with
            | E : vstep ?v _ = Some (VNormal _) |- _ =>
                destruct v as [a0|a0 nm]; cbn [vstep] in E; rewrite ?F59, ?F38, ?F60 in E;
                repeat match type of E with
                       | context [if ?b then _ else _] => destruct b eqn:?
                       | context [match ?x with _ => _ end] => destruct x eqn:?
                       end; try discriminate; inversion E; subst; eexists; reflexivity
            end).
Qed.

Lemma back_run : forall w s0 l0 st ev acc, forallb is_space w = true ->
  xrun s0 (l0 ++ w) = Some (cst st ev acc) -> exists acc0, xrun s0 l0 = Some (cst st ev acc0).
Proof.
  induction w as [|c w' IH] using rev_ind; intros s0 l0 st ev acc Hw H.
  - rewrite app_nil_r in H. exists acc. exact H.
  - rewrite forallb_app in Hw. apply andb_prop in Hw. destruct Hw as [Hw Hc]. cbn [forallb] in Hc. rewrite andb_true_r in Hc.
    rewrite app_assoc, xrun_app in H. destruct (xrun s0 (l0 ++ w')) as [s1|] eqn:E; [|discriminate].
    cbn [xrun] in H. destruct (xstep s1 c) as [s2|] eqn:X; [|discriminate]. inversion H; subst s2.
    destruct (back1 _ _ _ _ _ X Hc) as [acc0 ->]. apply (IH s0 l0 st ev acc0 Hw E).
Qed.

Definition accepted (stk : list str) (line : str) : Prop := exists ev acc, xrun pst0 line = Some (cst stk ev acc).

Lemma rstrip_accepted : forall stk line, accepted stk line -> accepted stk (rstrip line).
Proof.
  intros stk line (ev & acc & H). destruct (rstrip_split line) as (w & E & Hw). rewrite E in H.
  destruct (back_run w pst0 (rstrip line) stk ev acc Hw H) as [acc0 H0]. exists ev, acc0. exact H0.
Qed.
Lemma accepted_app : forall a b line frag, accepted a line -> accepts a b frag -> accepted b (line ++ frag).
Proof.
  intros a b line frag (ev & acc & H) A. destruct (A ev acc) as (ev' & acc' & E). exists ev', acc'.
  rewrite xrun_app, H. exact E.
Qed.

Definition node_ok (n : pnode) : Prop :=
  match n with
  | PText s => forallb is_xml_char s = true
  | PStyleStart attrs => attrs_ok attrs []
  | _ => True
  end.
Definition stk (open : bool) : list str := if open then [span_name] else [].

Lemma span_attrs_nil : forall attrs, span_attrs attrs = [] -> attrs = [].
Proof. intros [|[n v] t] H; [reflexivity|]. unfold span_attrs in H. cbn [flat_map app] in H. discriminate. Qed.

Lemma payload_step_accepted : forall legacy line open n, node_ok n -> accepted (stk open) line ->
  accepted (stk (snd (payload_step legacy (line, open) n))) (fst (payload_step legacy (line, open) n)).
Proof.
  intros legacy line open n Hn A. destruct n as [s| |attrs|]; cbn [payload_step fst snd].
  - apply (accepted_app (stk open) (stk open)); [exact A|].
    apply accepts_text; exact Hn.
  - apply (accepted_app (stk open) (stk open)); [apply rstrip_accepted; exact A|apply accepts_br].
  - destruct (span_attrs attrs) as [|c0 t0] eqn:E; cbn [fst snd]; [exact A|].
    rewrite <- E. clear E c0 t0.
    assert (Cl : accepted [] (if open then line ++ close_span else line)).
    { destruct open; [|exact A]. apply (accepted_app [span_name] []); [exact A|apply accepts_close_span]. }
    change (stk true) with [span_name].
    apply (accepted_app [] [span_name]); [exact Cl|apply accepts_open_span; exact Hn].
  - destruct open; cbn [fst snd]; [|exact A].
    apply (accepted_app [span_name] []); [exact A|apply accepts_close_span].
Qed.

Lemma payload_fold_accepted : forall legacy nodes line open line' open', Forall node_ok nodes ->
  accepted (stk open) line -> fold_left (payload_step legacy) nodes (line, open) = (line', open') ->
  accepted (stk open') line'.
Proof.
  induction nodes as [|n t IH]; intros line open line' open' F A E; cbn [fold_left] in E; [inversion E; subst; exact A|].
  inversion F; subst. pose proof (payload_step_accepted legacy line open n H1 A) as P.
  destruct (payload_step legacy (line, open) n) as [l1 o1]. exact (IH l1 o1 line' open' H2 P E).
Qed.

(* payload_wellformed: for node lists whose texts and attribute values are XML characters and whose span
   attributes have valid, distinct names, the payload is accepted by the strict content machine as soon as no
   span is left open - for the main and the legacy writer *)
Theorem payload_wellformed : forall legacy nodes, Forall node_ok nodes ->
  snd (recreate_text legacy false nodes) = false ->
  exists evs, content_parse (fst (recreate_text legacy false nodes)) = Some evs.
Proof.
  intros legacy nodes F H. unfold recreate_text in *.
  assert (A0 : accepted (stk false) []) by (exists [], []; reflexivity).
  destruct (fold_left (payload_step legacy) nodes ([], false)) as [line open'] eqn:E. cbn [fst snd] in *. subst open'.
  pose proof (payload_fold_accepted legacy nodes [] false line false F A0 E) as P.
  destruct (rstrip_accepted _ _ P) as (ev & acc & R). unfold content_parse. rewrite R. unfold cst. cbn [flush_text].
  eexists. reflexivity.
Qed.

(* balanced style nodes leave no span open *)
Inductive balanced : list pnode -> Prop :=
| bal_nil : balanced []
| bal_text : forall s b, balanced b -> balanced (PText s :: b)
| bal_break : forall b, balanced b -> balanced (PBreak :: b)
| bal_span : forall attrs b1 b2, balanced b1 -> balanced b2 -> balanced (PStyleStart attrs :: b1 ++ PStyleEnd :: b2).

Lemma balanced_closed : forall legacy nodes, balanced nodes -> forall line,
  snd (fold_left (payload_step legacy) nodes (line, false)) = false.
Proof.
  intros legacy nodes B. induction B as [|s b B IH|b B IH|attrs b1 b2 B1 IH1 B2 IH2]; intros line.
  - reflexivity.
  - cbn [fold_left payload_step]. apply IH.
  - cbn [fold_left payload_step]. apply IH.
  - cbn [fold_left]. rewrite fold_left_app. cbn [fold_left].
    destruct (fold_left (payload_step legacy) b1 (payload_step legacy (line, false) (PStyleStart attrs))) as [l2 o2].
    assert (E : snd (payload_step legacy (l2, o2) PStyleEnd) = false) by (destruct o2; reflexivity).
    destruct (payload_step legacy (l2, o2) PStyleEnd) as [l3 o3]. cbn [snd] in E. subst o3. apply IH2.
Qed.

Theorem payload_wellformed_balanced : forall legacy nodes, Forall node_ok nodes -> balanced nodes ->
  exists evs, content_parse (fst (recreate_text legacy false nodes)) = Some evs.
Proof.
  intros legacy nodes F B. apply payload_wellformed; [exact F|]. unfold recreate_text.
  pose proof (balanced_closed legacy nodes B []) as C.
  destruct (fold_left (payload_step legacy) nodes ([], false)) as [l o] eqn:E.
  cbn [snd]. rewrite <- C. transitivity (snd (l, o)); [reflexivity|]. f_equal. symmetry. exact E.
Qed.

Lemma existsb_str_In : forall x l, existsb (str_eqb x) l = true <-> In x l.
Proof.
  intros x l. rewrite existsb_exists. split.
  - intros [y [H1 H2]]. apply str_eqb_eq in H2. subst. exact H1.
  - intros H. exists x. split; [exact H|apply str_eqb_refl].
Qed.
Lemma nodup_str_sound : forall l, nodup_str l = true -> NoDup l.
Proof.
  induction l as [|x t IH]; intros H; [constructor|]. cbn [nodup_str] in H. apply andb_prop in H. destruct H as [H1 H2].
  constructor; [|apply IH; exact H2]. intros C. apply existsb_str_In in C. rewrite C in H1. discriminate.
Qed.

Lemma seen_false : forall n (seen : list (str * str)),
  existsb (fun a => str_eqb (fst a) n) seen = false <-> ~ In n (map fst seen).
Proof.
  intros n seen. induction seen as [|[k v] t IH]; cbn [existsb map In fst]; [tauto|].
  rewrite orb_false_iff, IH. split.
  - intros [H1 H2] [E|E]; [subst; rewrite str_eqb_refl in H1; discriminate|tauto].
  - intros H. split; [|tauto]. destruct (str_eqb k n) eqn:E; [|reflexivity]. apply str_eqb_eq in E. tauto.
Qed.

(* attrs_ok without the accumulator *)
Definition good_attr (kv : str * str) : Prop := valid_name (fst kv) = true /\ forallb is_xml_char (snd kv) = true.
Lemma attrs_ok_char : forall attrs seen,
  attrs_ok attrs seen <-> Forall good_attr attrs /\ (forall n, In n (map fst attrs) -> ~ In n (map fst seen)) /\ NoDup (map fst attrs).
Proof.
  induction attrs as [|[n v] t IH]; intros seen; cbn [attrs_ok map fst].
  - split; [intros _; repeat split; [constructor|intros ? []|constructor]|tauto].
  - rewrite IH, seen_false. cbn [map fst In]. split.
    + intros (H1 & H2 & H3 & H4 & H5 & H6). split; [constructor; [split; assumption|assumption]|]. split.
      * intros m [<-|Hm]; [exact H2|]. intros Hin. apply (H5 m Hm). right. exact Hin.
      * constructor; [|exact H6]. intros Hin. apply (H5 n Hin). left. reflexivity.
    + intros (H1 & H2 & H3). inversion H1 as [|? ? [G1 G2] G3]; subst. inversion H3; subst. repeat split; auto.
      intros m Hm [<-|Hin]; [contradiction|]. apply (H2 m); [right; exact Hm|exact Hin].
Qed.

Definition wf_dict (d : list (str * str)) : Prop := Forall good_attr d /\ NoDup (map fst d).
Lemma attrs_ok_wf : forall d, attrs_ok d [] <-> wf_dict d.
Proof.
  intros d. rewrite attrs_ok_char. split; [intros (F & _ & N); split; assumption|].
  intros [F N]. split; [exact F|]. split; [intros n _ []|exact N].
Qed.

Lemma lookup_In : forall k d v, lookup k d = Some v -> In (k, v) d.
Proof.
  induction d as [|[k' v'] t IH]; intros v H; cbn [lookup] in H; [discriminate|]. destruct (str_eqb k' k) eqn:E.
  - apply str_eqb_eq in E. inversion H; subst. left. reflexivity.
  - right. apply IH. exact H.
Qed.
Lemma lookup_in : forall k d v, lookup k d = Some v -> In v (map snd d).
Proof. intros k d v H. apply lookup_In in H. apply (in_map snd) in H. exact H. Qed.

(* _recreate_style: a fixed row of attribute names, each present or not *)
Definition opt_attrs (ps : list (str * option str)) : list (str * str) :=
  flat_map (fun p => match snd p with Some v => [(fst p, v)] | None => [] end) ps.

Lemma in_opt_attrs : forall ps k v, In (k, v) (opt_attrs ps) <-> In (k, Some v) ps.
Proof.
  intros ps k v. unfold opt_attrs. rewrite in_flat_map. split.
  - intros [[n [w|]] [H1 H2]]; cbn [fst snd] in H2; [|destruct H2]. destruct H2 as [E|[]]. inversion E; subst. exact H1.
  - intros H. exists (k, Some v). split; [exact H|left; reflexivity].
Qed.
Lemma opt_attrs_key : forall ps k, In k (map fst (opt_attrs ps)) -> In k (map fst ps).
Proof.
  intros ps k H. apply in_map_iff in H. destruct H as [[k' v] [<- H]]. apply in_opt_attrs in H.
  apply (in_map fst) in H. exact H.
Qed.
Lemma opt_attrs_NoDup : forall ps, NoDup (map fst ps) -> NoDup (map fst (opt_attrs ps)).
Proof.
  induction ps as [|[n [v|]] t IH]; intros N; [constructor| |]; inversion N; subst; [|apply IH; assumption].
  change (NoDup (n :: map fst (opt_attrs t))). constructor; [|apply IH; assumption].
  intros C. apply opt_attrs_key in C. contradiction.
Qed.

Definition style_names : list str :=
  [lit "style"; lit "tts:textAlign"; lit "tts:fontStyle"; lit "tts:fontFamily"; lit "tts:fontSize"; lit "tts:color";
   lit "tts:displayAlign"].
Definition style_values (content : list (str * str)) (ids : list str) : list (option str) :=
  [match lookup (lit "class") content with Some c => if existsb (str_eqb c) ids then Some c else None | None => None end;
   lookup (lit "text-align") content;
   match lookup (lit "italics") content with Some (_ :: _) => Some (lit "italic") | _ => None end;
   lookup (lit "font-family") content; lookup (lit "font-size") content; lookup (lit "color") content;
   lookup (lit "display-align") content].

Lemma recreate_style_row : forall content ids,
  recreate_style content ids = opt_attrs (combine style_names (style_values content ids)).
Proof.
  intros content ids. unfold recreate_style, style_values, style_names, opt_attrs. cbn [combine flat_map fst snd].
  rewrite app_nil_r.
  f_equal; [destruct (lookup (lit "class") content) as [c|]; [destruct (existsb (str_eqb c) ids)|]; reflexivity|].
  do 2 f_equal. destruct (lookup (lit "italics") content) as [[|]|]; reflexivity.
Qed.

Lemma recreate_style_key : forall content ids k, In k (map fst (recreate_style content ids)) -> In k style_names.
Proof. intros content ids k H. rewrite recreate_style_row in H. apply opt_attrs_key in H. exact H. Qed.
Lemma recreate_style_not_key : forall content ids k,
  existsb (str_eqb k) style_names = false -> ~ In k (map fst (recreate_style content ids)).
Proof. intros content ids k E H. apply recreate_style_key, existsb_str_In in H. congruence. Qed.
Lemma recreate_style_NoDup : forall content ids, NoDup (map fst (recreate_style content ids)).
Proof.
  intros content ids. rewrite recreate_style_row. apply opt_attrs_NoDup.
  change (NoDup style_names). apply nodup_str_sound. reflexivity.
Qed.

Lemma style_values_in : forall content ids v, In (Some v) (style_values content ids) -> In v (map snd content) \/ v = lit "italic".
Proof.
  intros content ids v H. unfold style_values in H. cbn [In] in H.
  destruct H as [H|[H|[H|[H|[H|[H|[H|[]]]]]]]]; try (left; apply (lookup_in _ _ _ H)).
  - destruct (lookup (lit "class") content) as [c|] eqn:L; [|discriminate]. destruct (existsb (str_eqb c) ids); [|discriminate].
    left. rewrite H in L. apply (lookup_in _ _ _ L).
  - destruct (lookup (lit "italics") content) as [[|]|]; inversion H. right. reflexivity.
Qed.

Lemma recreate_style_wf : forall content ids,
  (forall v, In v (map snd content) -> forallb is_xml_char v = true) -> wf_dict (recreate_style content ids).
Proof.
  intros content ids H. split; [|apply recreate_style_NoDup]. apply Forall_forall. intros [k v] Hkv. split; cbn [fst snd].
  - assert (V : forallb valid_name style_names = true) by reflexivity. rewrite forallb_forall in V. apply V.
    apply (recreate_style_key content ids). apply (in_map fst) in Hkv. exact Hkv.
  - rewrite recreate_style_row in Hkv. apply in_opt_attrs, in_combine_r, style_values_in in Hkv.
    destruct Hkv as [Hv| ->]; [apply H; exact Hv|reflexivity].
Qed.

Theorem recreate_style_attrs_ok : forall content ids,
  (forall v, In v (map snd content) -> forallb is_xml_char v = true) ->
  attrs_ok (recreate_style content ids) [].
Proof. intros content ids H. apply attrs_ok_wf, recreate_style_wf. exact H. Qed.

(* a style= reference is only written for a style that exists in the head *)
Theorem style_refs_resolve : forall content ids v,
  In (lit "style", v) (recreate_style content ids) -> existsb (str_eqb v) ids = true.
Proof.
  intros content ids v H. rewrite recreate_style_row in H. apply in_opt_attrs in H. cbn [style_names style_values combine In] in H.
  destruct H as [H|H].
  - destruct (lookup (lit "class") content) as [c|]; [|discriminate]. destruct (existsb (str_eqb c) ids) eqn:E; [|discriminate].
    inversion H; subst. exact E.
  - repeat (destruct H as [H|H]; [discriminate|]). destruct H.
Qed.
