(* C20 own output from the text nodes, WebVTT: the document written by model/OwnWrite.v vtt_write is detected
   as WebVTT for EVERY caption set - no hypothesis on the text.  Reason: the writer escapes '<' in text, so every '<'
   of the document opens one of the tags <i> <u> <b> </i> </u> </b>, and "</tt>" cannot occur, also not after
   lower-casing and not through the "-->" replacement that is applied to the accumulated cue text. *)
From Coq Require Import List ZArith Bool Lia ZifyBool.
From PV Require Import lib.Sx lib.Str lib.Result lib.Dec lib.StrSplit model.Generated model.Detect spec.SpecDetect
  spec.SpecOwn model.OwnWrite spec.SpecOwnNodes proofs.DetectFacts proofs.DetectOwnFacts proofs.DetectNodeFacts.
Import ListNotations.
Open Scope Z_scope.
#[local] Ltac Zify.zify_post_hook ::= Z.to_euclidean_division_equations.

(* every '<' is followed by i / u / b, or by '/' and one of them *)
Definition tagc (c : Z) : bool := (c =? 105) || (c =? 117) || (c =? 98).
Definition la (t : str) : bool :=
  match t with
  | [] => false
  | x :: t' => tagc x || ((x =? 47) && match t' with [] => false | y :: _ => tagc y end)
  end.
Fixpoint ltq (s : str) : bool :=
  match s with
  | [] => true
  | c :: t => (if c =? 60 then la t else true) && ltq t
  end.

Lemma la_app : forall t b, la t = true -> la (t ++ b) = true.
Proof.
  intros [|x t'] b H; [discriminate|]. cbn [app la] in *. destruct (tagc x); [reflexivity|]. cbn [orb] in *.
  destruct (x =? 47); [|discriminate]. cbn [andb] in *. destruct t'; [discriminate|exact H].
Qed.

Lemma ltq_app : forall a b, ltq a = true -> ltq b = true -> ltq (a ++ b) = true.
Proof.
  induction a as [|c t IH]; intros b Ha Hb; [exact Hb|].
  cbn [app ltq] in *. apply andb_true_iff in Ha. destruct Ha as [H1 H2]. rewrite (IH b H2 Hb), andb_true_r.
  destruct (c =? 60); [apply la_app; exact H1|reflexivity].
Qed.

Definition no_lt (s : str) : bool := forallb (fun c => negb (c =? 60)) s.

Lemma ltq_no_lt : forall s, no_lt s = true -> ltq s = true.
Proof.
  induction s as [|c t IH]; intros H; [reflexivity|]. cbn [no_lt forallb] in H. apply andb_true_iff in H.
  destruct H as [Hc Ht]. cbn [ltq]. apply negb_true_iff in Hc. rewrite Hc, (IH Ht). reflexivity.
Qed.

Lemma no_lt_app : forall a b, no_lt (a ++ b) = no_lt a && no_lt b.
Proof. intros. unfold no_lt. apply forallb_app. Qed.

Lemma esc_no_lt : forall s, no_lt (flat_map vtt_esc_ch s) = true.
Proof.
  induction s as [|c t IH]; [reflexivity|]. cbn [flat_map]. rewrite no_lt_app, IH, andb_true_r.
  unfold vtt_esc_ch. destruct (c =? 38); [reflexivity|]. destruct (c =? 60) eqn:E; [reflexivity|].
  cbn. rewrite E. reflexivity.
Qed.

(* ---- the "-->" replacement keeps the invariant ---- *)
Lemma replace_arrow_eq : forall s,
  replace vtt_arrow vtt_arrow_esc s = replace_aux (S (length s)) [45; 45; 62] [45; 45; 38; 103; 116; 59] s.
Proof. reflexivity. Qed.

Lemma tagc_not_dash : forall x, tagc x = true -> (45 =? x) = false.
Proof. intros x H. unfold tagc in H. lia. Qed.

Lemma la_replace : forall f t, la t = true ->
  la (replace_aux f [45; 45; 62] [45; 45; 38; 103; 116; 59] t) = true.
Proof.
  intros [|f] t H; [exact H|]. destruct t as [|x t']; [discriminate|].
  cbn [replace_aux is_prefix]. cbn [la] in H.
  destruct (tagc x) eqn:Tx.
  - rewrite (tagc_not_dash x Tx). cbn [andb la]. rewrite Tx. reflexivity.
  - cbn [orb] in H. apply andb_true_iff in H. destruct H as [H47 Hy]. apply Z.eqb_eq in H47. subst x.
    cbn [Z.eqb andb la]. cbn. destruct t' as [|y t'']; [discriminate|].
    destruct f as [|f]; [cbn; exact Hy|].
    cbn [replace_aux is_prefix]. rewrite (tagc_not_dash y Hy). cbn [andb]. exact Hy.
Qed.

Lemma ltq_replace : forall f s, ltq s = true ->
  ltq (replace_aux f [45; 45; 62] [45; 45; 38; 103; 116; 59] s) = true.
Proof.
  induction f as [|f IH]; intros s H; [exact H|].
  destruct s as [|c t]; [reflexivity|]. cbn [replace_aux].
  destruct (is_prefix [45; 45; 62] (c :: t)) eqn:E.
  - destruct t as [|c2 [|c3 t3]]; cbn [is_prefix] in E; try (rewrite ?andb_false_r in E; discriminate).
    cbn [length skipn].
    assert (Hc : c = 45 /\ c2 = 45 /\ c3 = 62) by lia. destruct Hc as [-> [-> ->]].
    cbn in H. change ([45; 45; 38; 103; 116; 59] ++ replace_aux f [45; 45; 62] [45; 45; 38; 103; 116; 59] t3)
      with (45 :: 45 :: 38 :: 103 :: 116 :: 59 :: replace_aux f [45; 45; 62] [45; 45; 38; 103; 116; 59] t3).
    cbn [ltq Z.eqb andb]. cbn. apply IH. exact H.
  - cbn [ltq] in *. apply andb_true_iff in H. destruct H as [H1 H2]. rewrite (IH t H2), andb_true_r.
    destruct (c =? 60); [apply la_replace; exact H1|reflexivity].
Qed.

Lemma ltq_replace_arrow : forall s, ltq s = true -> ltq (replace vtt_arrow vtt_arrow_esc s) = true.
Proof. intros s H. rewrite replace_arrow_eq. apply ltq_replace. exact H. Qed.

Lemma vtt_encode_ltq : forall s, ltq (vtt_encode s) = true.
Proof. intros s. unfold vtt_encode. apply ltq_replace_arrow. apply ltq_no_lt. apply esc_no_lt. Qed.

Lemma vtt_tags_ltq : forall st i u b, ltq (vtt_tags st i u b) = true.
Proof. intros [|] [|] [|] [|]; reflexivity. Qed.

Lemma vtt_nodes_ltq : forall nodes s first prev, ltq s = true -> ltq (vtt_nodes s first prev nodes) = true.
Proof.
  induction nodes as [|n r IH]; intros s first prev H; [exact H|].
  destruct n as [t| |st i u b]; cbn [vtt_nodes].
  - apply IH. apply ltq_replace_arrow. apply ltq_app; [exact H|].
    pose proof (vtt_encode_ltq t) as He. destruct (vtt_encode t); [reflexivity|exact He].
  - apply IH. apply ltq_app; [exact H|]. destruct first, prev; reflexivity.
  - apply IH. apply ltq_app; [exact H|apply vtt_tags_ltq].
Qed.

Lemma time_no_lt : forall s, forallb time_char s = true -> no_lt s = true.
Proof.
  intros s. unfold no_lt. apply forallb_weaken. intros c H. unfold time_char, is_digit in H. lia.
Qed.

Lemma vtt_timestamp_class : forall us, forallb time_char (vtt_timestamp us) = true.
Proof.
  intros us. unfold vtt_timestamp. pose proof (td_seconds_range us) as Hs. pose proof (td_millis_range us) as Hm.
  set (s := td_seconds us) in *. set (ms := td_millis us) in *. cbv zeta.
  assert (R : forallb time_char (two ((s / 60) mod 60) ++ [58] ++ two (s mod 60) ++ [46] ++ three ms) = true).
  { rewrite !forallb_app.
    rewrite (digits_time _ (two_digits ((s / 60) mod 60) ltac:(lia))).
    rewrite (digits_time _ (two_digits (s mod 60) ltac:(lia))).
    rewrite (digits_time _ (three_digits ms ltac:(lia))). reflexivity. }
  destruct (s / 60 / 60 =? 0); [exact R|].
  rewrite forallb_app, (digits_time _ (two_digits (s / 60 / 60) ltac:(lia))). cbn [andb].
  rewrite forallb_app. cbn [forallb andb]. exact R.
Qed.

Lemma vtt_timespan_ltq : forall c, ltq (vtt_timespan c) = true.
Proof.
  intros c. apply ltq_no_lt. apply time_no_lt. unfold vtt_timespan.
  rewrite !forallb_app, !vtt_timestamp_class. reflexivity.
Qed.

Lemma vtt_caption_ltq : forall c, ltq (vtt_caption c) = true.
Proof.
  intros c. unfold vtt_caption. pose proof (vtt_nodes_ltq (oc_nodes c) [] true false eq_refl) as H.
  fold (vtt_cue_text c) in H. destruct (vtt_cue_text c) as [|x s]; [reflexivity|].
  apply ltq_app; [apply vtt_timespan_ltq|]. apply (ltq_app [10]); [reflexivity|].
  apply ltq_app; [exact H|reflexivity].
Qed.

Lemma join_ltq : forall l, (forall p, In p l -> ltq p = true) -> ltq (join [10] l) = true.
Proof.
  induction l as [|a t IH]; intros H; [reflexivity|]. destruct t as [|b t'].
  - apply H. left. reflexivity.
  - rewrite join_cons2. apply ltq_app; [apply H; left; reflexivity|].
    apply (ltq_app [10]); [reflexivity|]. apply IH. intros p Hp. apply H. right. exact Hp.
Qed.

Lemma vtt_write_shape : forall langs, exists body, vtt_write langs = vtt_header ++ body /\ ltq body = true.
Proof.
  intros langs. unfold vtt_write. destruct (forallb _ langs).
  - exists []. rewrite app_nil_r. split; reflexivity.
  - eexists. split; [reflexivity|]. apply join_ltq. intros p Hp. apply in_map_iff in Hp.
    destruct Hp as [c [<- _]]. apply vtt_caption_ltq.
Qed.

(* ---- lower-casing keeps the invariant ---- *)
Definition lower_images_ok : bool :=
  forallb (fun kv => negb (fst kv =? 60) && negb (tagc (fst kv)) && negb (fst kv =? 47) && no_lt (snd kv)) lower_ascii_map.
Lemma lower_images_ok_true : lower_images_ok = true.
Proof. vm_compute. reflexivity. Qed.

Lemma assoc_in : forall c m l, assoc c m = Some l -> In (c, l) m.
Proof.
  induction m as [|[k v] t IH]; intros l H; [discriminate|]. cbn [assoc] in H.
  destruct (k =? c) eqn:E; [apply Z.eqb_eq in E; subst; injection H as <-; left; reflexivity|right; apply IH; exact H].
Qed.

Lemma u_lower_ch_cases : forall c,
  u_lower_ch c = [c] \/ ((c =? 60) = false /\ tagc c = false /\ (c =? 47) = false /\ no_lt (u_lower_ch c) = true).
Proof.
  intros c. unfold u_lower_ch. destruct (assoc c lower_ascii_map) as [l|] eqn:E; [right|left; reflexivity].
  apply assoc_in in E. pose proof lower_images_ok_true as H. unfold lower_images_ok in H.
  rewrite forallb_forall in H. specialize (H _ E). cbn [fst snd] in H.
  apply andb_true_iff in H. destruct H as [H H4]. apply andb_true_iff in H. destruct H as [H H3].
  apply andb_true_iff in H. destruct H as [H1 H2].
  apply negb_true_iff in H1, H2, H3. repeat split; assumption.
Qed.

Lemma la_lower : forall t, la t = true -> la (u_lower t) = true.
Proof.
  intros [|x t'] H; [discriminate|]. rewrite u_lower_cons. cbn [la] in H.
  destruct (u_lower_ch_cases x) as [E|[_ [Tx [H47 _]]]].
  - rewrite E. cbn [app la]. destruct (tagc x); [reflexivity|]. cbn [orb] in *.
    destruct (x =? 47); [|discriminate]. cbn [andb] in *.
    destruct t' as [|y t'']; [discriminate|]. rewrite u_lower_cons.
    destruct (u_lower_ch_cases y) as [Ey|[_ [Ty _]]]; [rewrite Ey; exact H|rewrite Ty in H; discriminate].
  - rewrite Tx, H47 in H. discriminate.
Qed.

Lemma ltq_lower : forall s, ltq s = true -> ltq (u_lower s) = true.
Proof.
  induction s as [|c t IH]; intros H; [reflexivity|]. rewrite u_lower_cons. cbn [ltq] in H.
  apply andb_true_iff in H. destruct H as [H1 H2]. specialize (IH H2).
  destruct (u_lower_ch_cases c) as [E|[H60 [_ [_ Hn]]]].
  - rewrite E. cbn [app ltq]. rewrite IH, andb_true_r. destruct (c =? 60); [apply la_lower; exact H1|reflexivity].
  - apply ltq_app; [apply ltq_no_lt; exact Hn|exact IH].
Qed.

Lemma ltq_no_dfxp : forall s, ltq s = true -> is_infix dfxp_marker s = false.
Proof.
  induction s as [|c t IH]; intros H; [reflexivity|]. cbn [ltq] in H. apply andb_true_iff in H. destruct H as [H1 H2].
  rewrite is_infix_cons, (IH H2), orb_false_r.
  change dfxp_marker with [60; 47; 116; 116; 62]. cbn [is_prefix].
  destruct (60 =? c) eqn:E; [|reflexivity]. apply Z.eqb_eq in E. subst c. cbn [Z.eqb] in H1. cbn [andb].
  destruct t as [|x [|y t']]; try reflexivity.
  - cbn. apply andb_false_r.
  - cbn [is_prefix]. cbn [la] in H1.
    destruct (47 =? x) eqn:E1; [|reflexivity]. apply Z.eqb_eq in E1. subst x.
    destruct (116 =? y) eqn:E2; [|reflexivity]. apply Z.eqb_eq in E2. subst y. discriminate.
Qed.

Theorem own_nodes_vtt : forall langs, detect_format (vtt_write langs) = Ok (Some R_VTT).
Proof.
  intros langs. destruct (vtt_write_shape langs) as [body [Hs Hb]]. rewrite Hs.
  unfold vtt_header. rewrite <- app_assoc. apply detected_vtt.
  unfold has. apply ltq_no_dfxp. apply ltq_lower. apply (ltq_app vtt_header); [reflexivity|exact Hb].
Qed.

(* a document that contains the closing tag of the root element, in any case, is DFXP: nothing is probed earlier *)
Theorem own_dfxp_skeleton : forall pre post, detect_format (dfxp_document pre post) = Ok (Some R_DFXP).
Proof.
  intros pre post. apply (detected [] 0 [1; 2; 3; 4; 5] _ eq_refl); [destruct pre; discriminate|constructor|].
  cbn [detect_of]. unfold detect_dfxp, dfxp_document. rewrite !u_lower_app.
  rewrite is_infix_app_r; [reflexivity|]. apply (is_infix_self_app dfxp_marker).
Qed.

(* a document that opens with the <sami root tag and carries neither "</tt>" nor "WEBVTT" is SAMI *)
Theorem own_sami_skeleton : forall rest, free before_sami (sami_document rest) = true ->
  detect_format (sami_document rest) = Ok (Some R_SAMI).
Proof.
  intros rest H. apply (detected [0; 1; 2] 3 [4; 5] _ eq_refl); [discriminate| |].
  - repeat constructor.
    + exact (f_equal Ok (free_has _ _ dfxp_marker true H (or_introl eq_refl))).
    + exact (f_equal Ok (free_has _ _ vtt_marker false H (or_intror (or_introl eq_refl)))).
  - cbn [detect_of]. unfold detect_sami, sami_document. rewrite u_lower_app.
    rewrite (is_infix_self_app sami_marker). reflexivity.
Qed.
