(* C20: every document of the DFXP string-level writer model ends the root element with "</tt>", so it is an
   instance of the DFXP skeleton and is detected as DFXP - for EVERY caption list and language code, whatever the text. *)
From Coq Require Import List ZArith Bool.
From PV Require Import lib.Sx lib.Str lib.Result model.Generated model.Detect spec.SpecOwn model.OwnWrite spec.SpecOwnNodes
  proofs.DetectFacts proofs.DetectOwnFacts proofs.DetectNodeFacts proofs.DetectVttFacts
  spec.SpecXmlDocT model.DfxpWriteDoc model.OwnWriteDfxp.
Import ListNotations.
Open Scope Z_scope.

Lemma render_doc_skeleton : forall d, xd_cw d = [] -> exists pre, render_doc d = dfxp_document pre (xd_post d).
Proof.
  intros d H. unfold render_doc, render_close, dfxp_document. rewrite H.
  change ([60; 47] ++ lit "tt" ++ [] ++ [62]) with dfxp_marker.
  exists ((match xd_pi d with Some c => [60; 63] ++ c ++ [62] | None => [] end)
          ++ xd_pre d ++ render_open (lit "tt") (lang_attrs (xd_l1 d) (xd_lang d) (xd_l2 d)) (xd_e d) false
          ++ render_forest (xd_body d)).
  rewrite <- !app_assoc. reflexivity.
Qed.

Theorem own_dfxp_doc : forall lang cs, detect_format (dfxp_write_doc lang cs) = Ok (Some R_DFXP).
Proof.
  intros lang cs. unfold dfxp_write_doc.
  destruct (render_doc_skeleton (wdoc lang cs) eq_refl) as [pre E]. rewrite E. apply own_dfxp_skeleton.
Qed.

Theorem own_nodes_dfxp : forall lang caps, detect_format (dfxp_write_nodes lang caps) = Ok (Some R_DFXP).
Proof. intros lang caps. apply own_dfxp_doc. Qed.
