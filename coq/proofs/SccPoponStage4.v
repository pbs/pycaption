(* C05 / C06, stage 4 of the pop-on refinement: several loads (one row of basic characters each), each on its own line,
   with Erase-Displayed-Memory lines anywhere in between, control codes single or doubled. The decoder state between
   two lines is described explicitly; the captions stored are those of the event-level model (model/SccPopon.v) with
   real nodes, hence the (start, end) of the captions read are the spans of the display events (spec/SpecSccTime.v). *)
From Coq Require Import List ZArith QArith Qabs Lia Bool ZifyBool.
From PV Require Import lib.Sx lib.Str lib.Result lib.ResultFacts model.GenScc model.SccLen model.SccTime model.SccStash model.SccDecoder model.SccLayout
                       model.SccPopon spec.Spec608 spec.SpecScc05 spec.SpecSccLen spec.SpecSccTime proofs.SccTableFacts
                       proofs.SccDoubleFacts proofs.SccLenFacts proofs.SccStashFacts proofs.SccTimeFacts proofs.SccPoponFacts proofs.SccPoponStage1.
Import ListNotations. Open Scope Z_scope.

(* performance only (see stage 1) *)
Local Strategy 1000 [basic_code is_basic].
Local Arguments stash_extend : simpl never.

Inductive seg : Type := SLoad (tc : str) (r : row) | SClear (tc : str).
Definition seg_line (d : bool) (s : seg) : sline :=
  match s with SLoad tc r => (tc, emit_load d [r]) | SClear tc => (tc, emit_clear d) end.
Definition seg_ok (s : seg) : bool := match s with SLoad _ r => basic_row r | SClear _ => true end.
(* the display event of a segment: the instant of its (first) End-Of-Caption word / of its Erase-Displayed-Memory word *)
Definition seg_event (d : bool) (off : Q) (s : seg) : result ev :=
  match s with
  | SLoad tc r => match get_time tc (Z.of_nat (length (emit_load d [r])) - (if d then 2 else 1)) off with
                  | Ok t => Ok (Show t) | Err e => Err e end
  | SClear tc => match get_time tc 0 off with Ok t => Ok (Clear t) | Err e => Err e end
  end.
Definition loads_of (segs : list seg) : list row :=
  flat_map (fun s => match s with SLoad _ r => [r] | SClear _ => [] end) segs.

(* _pop_on(end) when something is queued *)
Definition popped (st : stash) (q : option (creator * Q)) (t : Q) : stash :=
  match q with Some (c, t0) => create_and_store st c t0 t | None => st end.

Lemma interp_edm : forall tk n, interpret_command tk creator0 w_edm n = (tk, creator0, None).
Proof. intros tk n. vm_compute. reflexivity. Qed.

Lemma tw_edm_none : forall st tk l ds pa ro tm tc fr off n, last_is l w_edm = false ->
  translate_word (mkR st tk l ds creator0 pa ro MPop None tm tc fr off None) w_edm n
  = mkR st tk (LWord w_edm) ds creator0 pa ro MPop None tm tc (fr + 1) off None.
Proof.
  intros st tk l ds pa ro tm tc fr off n Hl.
  rewrite (tw_command _ w_edm n _ (hd_edm _ _ _ _ _ _ _ _ _ _ _ _ Hl) eq_refl eq_refl), translate_command_edm.
  proj_red. unfold do_interpret. proj_red. rewrite interp_edm. reflexivity.
Qed.

Lemma tw_edm_skip : forall st tk ds c pa ro q tm tc fr off n,
  translate_word (mkR st tk (LWord w_edm) ds c pa ro MPop q tm tc fr off None) w_edm n
  = mkR st tk LNone ds c pa ro MPop q tm tc (fr + 1) off None.
Proof. intros. rewrite tw_second; reflexivity. Qed.

(* pop-on mode, every buffer empty, no error; q is the pop_ons_queue *)
Definition B (off : Q) (st : stash) (tk : tracker) (l : lastcmd) (ds : bool) (q : option (creator * Q)) (tm : Q) (tc : str)
             (fr : Z) : rstate :=
  mkR st tk l ds creator0 creator0 creator0 MPop q tm tc fr off None.

Lemma translate_line_B : forall off st tk l ds q tm tc fr tc' ws,
  translate_line (B off st tk l ds q tm tc fr) (tc', ws) = tws (B off st tk l ds q tm tc' 0) ws None.
Proof. intros. unfold translate_line, B. cbn [r_err fst snd]. rewrite tws_words. reflexivity. Qed.

(* load_run (stage 1) at the level of lines: a load line from any between-lines state `B`, given the run of its rows from
   the state the prologue leaves *)
Lemma load_line_B : forall d off st tk l ds q tm tc fr tc' ld t tk2 l2 cr, last_is l w_enm = false ->
  get_time tc' (Z.of_nat (length (emit_load d ld)) - (if d then 2 else 1)) off = Ok t ->
  cr_is_empty cr = false -> last_is l2 w_eoc = false ->
  tws (mkR st (tracker_reset tk) (if d then LNone else LWord w_rcl) d creator0 creator0 creator0 MPop q tm tc' (if d then 4 else 2) off None)
      (flat_map (emit_row d) ld) (nxt (ctl d (ctrl_word 47)) None)
  = mkR st tk2 l2 d cr creator0 creator0 MPop q tm tc' ((if d then 4 else 2) + Z.of_nat (length (flat_map (emit_row d) ld))) off None ->
  exists l' ds' fr',
    translate_line (B off st tk l ds q tm tc fr) (tc', emit_load d ld) = B off (popped st q t) tk2 l' ds' (Some (cr, t)) t tc' fr'
    /\ last_is l' w_edm = false /\ last_is l' w_enm = false.
Proof.
  intros d off st tk l ds q tm tc fr tc' ld t tk2 l2 cr Hl Hg Hne Hl2 Hrows. rewrite translate_line_B. unfold B.
  destruct (load_run d ld st tk l ds creator0 creator0 creator0 q tm tc' 0 off None t tk2 l2 cr Hl Hne Hl2 Hg Hrows)
    as (l' & ds' & E & Hl').
  exists l', ds', (0 + Z.of_nat (length (emit_load d ld))). split; [exact E|]. destruct Hl' as [->| ->]; split; reflexivity.
Qed.

(* the creator holding the row r *)
Definition rcr (r : row) : creator := mkCr [mkI IText (row_text r) (row_pos r)] SNone.

(* a load line from any between-lines state *)
Lemma load_line : forall d off st tk l ds q tm tc fr tc' r t, basic_row r = true -> last_is l w_enm = false ->
  get_time tc' (Z.of_nat (length (emit_load d [r])) - (if d then 2 else 1)) off = Ok t ->
  exists l' ds' fr',
    translate_line (B off st tk l ds q tm tc fr) (tc', emit_load d [r])
    = B off (popped st q t) (mkTk [row_pos r] None false (row_pos r)) l' ds' (Some (rcr r, t)) t tc' fr'
    /\ last_is l' w_edm = false /\ last_is l' w_enm = false.
Proof.
  intros d off st tk l ds q tm tc fr tc' r t H Hl Hg. rewrite translate_line_B.
  destruct (one_row_load d r st tk l ds creator0 creator0 creator0 q tm tc' 0 off None t H Hl Hg) as (l' & ds' & E & Hl').
  exists l', ds', (0 + Z.of_nat (length (emit_load d [r]))). split; [exact E|]. destruct Hl' as [->| ->]; split; reflexivity.
Qed.

(* a clear line: the queued cue is stored with the instant of the (first) Erase-Displayed-Memory word as its end *)
Lemma clear_line_some : forall d off st tk l ds c0 t0 tm tc fr tc' t, last_is l w_edm = false ->
  get_time tc' 0 off = Ok t ->
  exists l' ds' fr',
    translate_line (B off st tk l ds (Some (c0, t0)) tm tc fr) (tc', emit_clear d)
    = B off (create_and_store st c0 t0 t) tk l' ds' None tm tc' fr' /\ last_is l' w_enm = false.
Proof.
  intros d off st tk l ds c0 t0 tm tc fr tc' t Hl Hg. rewrite translate_line_B. unfold B, emit_clear.
  change (ctrl_word 44) with w_edm.
  destruct (ctl_pair d w_edm None _ _ (fun n => tw_edm_some st tk l ds creator0 creator0 creator0 c0 t0 tm tc' 0 off n t Hl Hg)
              eq_refl eq_refl eq_refl) as (l1 & ds1 & E1 & Hl1).
  red_in E1. rewrite E1. exists l1, ds1, (0 + 1 + (if d then 1 else 0)). split; [reflexivity|].
  destruct Hl1 as [->| ->]; reflexivity.
Qed.

(* with nothing queued a clear line changes nothing (its word is interpreted without effect, or, directly after another
   single Erase-Displayed-Memory, taken for the second half of a doubled pair and skipped) *)
Lemma clear_line_none : forall d off st tk l ds tm tc fr tc',
  exists l' ds' fr',
    translate_line (B off st tk l ds None tm tc fr) (tc', emit_clear d) = B off st tk l' ds' None tm tc' fr'
    /\ last_is l' w_enm = false.
Proof.
  intros d off st tk l ds tm tc fr tc'. rewrite translate_line_B. unfold B, emit_clear. change (ctrl_word 44) with w_edm.
  destruct (last_is l w_edm) eqn:Hl.
  - assert (El : l = LWord w_edm).
    { destruct l as [|x|a b]; try discriminate Hl. cbn [last_is] in Hl. apply Z.eqb_eq in Hl. subst x. reflexivity. }
    subst l. destruct d; cbn [ctl tws].
    + rewrite tw_edm_skip, tw_edm_none by reflexivity. eexists _, _, _. split; reflexivity.
    + rewrite tw_edm_skip. eexists _, _, _. split; reflexivity.
  - destruct (ctl_pair d w_edm None _ _ (fun n => tw_edm_none st tk l ds creator0 creator0 tm tc' 0 off n Hl)
                eq_refl eq_refl eq_refl) as (l1 & ds1 & E1 & Hl1).
    red_in E1. rewrite E1. exists l1, ds1, (0 + 1 + (if d then 1 else 0)). split; [reflexivity|].
    destruct Hl1 as [->| ->]; reflexivity.
Qed.

Definition rnodes (r : row) : list cnode := [CText (row_text r) (row_pos r)].
Definition rcap (r : row) (s e : Q) : precap := mkPre s e (rnodes r) (Some (row_pos r)).

Lemma store_row : forall st r t0 t1, basic_row r = true -> create_and_store st (rcr r) t0 t1 = stash_extend st [rcap r t0 t1].
Proof.
  intros st r t0 t1 H. destruct (row_text_facts r H) as [Hrs _].
  destruct (basic_row_facts r H) as (_ & _ & _ & _ & _ & _ & _ & Hne & _).
  unfold rcap, rnodes, rcr. destruct (row_text r) as [|c0 txt]; [congruence|].
  unfold create_and_store. cbn [cr_is_empty cr_nodes existsb i_text nonempty orb negb].
  rewrite format_one, Hrs. reflexivity.
Qed.

(* the run of the reader at the level of rows: the stash and the queued row with its display instant *)
Definition aq : Type := option (row * Q).
Definition qreal (q : aq) : option (creator * Q) := match q with Some (r, t) => Some (rcr r, t) | None => None end.
Definition item : Type := (option row * Q)%type.       (* a load of the row r shown at t / a clear at t *)
Definition astep (a : stash * aq) (it : item) : stash * aq :=
  let '(st, q) := a in
  (match q with Some (r0, t0) => stash_extend st [rcap r0 t0 (snd it)] | None => st end,
   match fst it with Some r => Some (r, snd it) | None => None end).
Definition afinish (a : stash * aq) : stash :=
  let '(st, q) := a in match q with Some (r0, t0) => stash_extend st [rcap r0 t0 0] | None => st end.

Definition a0 : stash * aq := (stash0, None).

Definition seg_item (d : bool) (off : Q) (s : seg) : result item :=
  match s with
  | SLoad tc r => match get_time tc (Z.of_nat (length (emit_load d [r])) - (if d then 2 else 1)) off with
                  | Ok t => Ok (Some r, t) | Err e => Err e end
  | SClear tc => match get_time tc 0 off with Ok t => Ok (None, t) | Err e => Err e end
  end.
Definition ev_of (it : item) : ev := match fst it with Some _ => Show (snd it) | None => Clear (snd it) end.
Definition rows_of (its : list item) : list row := flat_map (fun it => match fst it with Some r => [r] | None => [] end) its.
Definition qrow (q : aq) : list row := match q with Some (r, _) => [r] | None => [] end.

Lemma seg_items : forall d off segs evs, res_map (seg_event d off) segs = Ok evs ->
  exists its, res_map (seg_item d off) segs = Ok its /\ map ev_of its = evs /\ rows_of its = loads_of segs.
Proof.
  intros d off. induction segs as [|s segs IH]; intros evs H.
  - inversion H. exists []. auto.
  - destruct (res_map_cons _ _ _ _ H) as (e & es & He & Hes & ->). destruct (IH es Hes) as (its & Hi & Hm & Hr).
    destruct s as [tc r|tc]; cbn [seg_event] in He.
    + destruct (get_time tc _ off) as [t|x] eqn:Eg; [|discriminate]. inversion He. subst e.
      exists ((Some r, t) :: its). cbn [res_map seg_item bind]. rewrite Eg, Hi. cbn [bind map ev_of fst snd]. rewrite Hm.
      unfold rows_of, loads_of in *. cbn [flat_map fst]. rewrite Hr. auto.
    + destruct (get_time tc 0 off) as [t|x] eqn:Eg; [|discriminate]. inversion He. subst e.
      exists ((None, t) :: its). cbn [res_map seg_item bind]. rewrite Eg, Hi. cbn [bind map ev_of fst snd]. rewrite Hm.
      unfold rows_of, loads_of in *. cbn [flat_map fst]. rewrite Hr. auto.
Qed.

Lemma loads_basic : forall segs, forallb seg_ok segs = true -> Forall (fun r => basic_row r = true) (loads_of segs).
Proof.
  induction segs as [|s segs IH]; intros H; [constructor|].
  rewrite forallb_cons in H. apply andb_true_iff in H. destruct H as [Hs Ht]. unfold loads_of in *. cbn [flat_map].
  destruct s as [tc r|tc]; cbn [app]; [constructor; [exact Hs|]|]; exact (IH Ht).
Qed.

Definition q_ok (q : aq) : Prop := match q with Some (r, _) => basic_row r = true | None => True end.
(* the first word of the next line (ENM or EDM) will not be taken for the second half of a doubled pair, except an EDM
   after an EDM, when nothing is queued *)
Definition inv (l : lastcmd) (q : aq) : Prop :=
  last_is l w_enm = false /\ (q = None \/ last_is l w_edm = false) /\ q_ok q.

Lemma line_step : forall d off s it st tk l ds q tm tc fr, seg_ok s = true -> seg_item d off s = Ok it -> inv l q ->
  exists tk' l' ds' tm' tc' fr',
    translate_line (B off st tk l ds (qreal q) tm tc fr) (seg_line d s)
    = B off (fst (astep (st, q) it)) tk' l' ds' (qreal (snd (astep (st, q) it))) tm' tc' fr'
    /\ inv l' (snd (astep (st, q) it)).
Proof.
  intros d off s it st tk l ds q tm tc fr Hs Hit (Hl1 & Hl2 & Hq). destruct s as [tc1 r|tc1]; cbn [seg_item seg_ok seg_line] in *.
  - destruct (get_time tc1 _ off) as [t|x] eqn:Eg; [|discriminate]. inversion Hit. subst it.
    destruct (load_line d off st tk l ds (qreal q) tm tc fr tc1 r t Hs Hl1 Eg) as (l' & ds' & fr' & E & Hl' & Hl'').
    exists (mkTk [row_pos r] None false (row_pos r)), l', ds', t, tc1, fr'. split; [|split; [exact Hl''|split; [right; exact Hl'|exact Hs]]].
    rewrite E. destruct q as [[r0 t0]|]; [|reflexivity]. cbn [qreal popped astep fst snd]. rewrite (store_row st r0 t0 t Hq). reflexivity.
  - destruct (get_time tc1 0 off) as [t|x] eqn:Eg; [|discriminate]. inversion Hit. subst it. destruct q as [[r0 t0]|]; cbn [qreal].
    + destruct Hl2 as [X|Hl2]; [discriminate|].
      destruct (clear_line_some d off st tk l ds (rcr r0) t0 tm tc fr tc1 t Hl2 Eg) as (l' & ds' & fr' & E & Hl').
      exists tk, l', ds', tm, tc1, fr'. split; [|split; [exact Hl'|split; [left; reflexivity|exact I]]].
      rewrite E, (store_row st r0 t0 t Hq). reflexivity.
    + destruct (clear_line_none d off st tk l ds tm tc fr tc1) as (l' & ds' & fr' & E & Hl').
      exists tk, l', ds', tm, tc1, fr'. split; [exact E|split; [exact Hl'|split; [left; reflexivity|exact I]]].
Qed.

Lemma run_segs : forall d off segs its st tk l ds q tm tc fr,
  forallb seg_ok segs = true -> res_map (seg_item d off) segs = Ok its -> inv l q ->
  exists tk' l' ds' tm' tc' fr',
    fold_left translate_line (map (seg_line d) segs) (B off st tk l ds (qreal q) tm tc fr)
    = B off (fst (fold_left astep its (st, q))) tk' l' ds' (qreal (snd (fold_left astep its (st, q)))) tm' tc' fr'
    /\ q_ok (snd (fold_left astep its (st, q))).
Proof.
  intros d off. induction segs as [|s segs IH]; intros its st tk l ds q tm tc fr Hok Hi Hinv.
  - inversion Hi. cbn [map fold_left fst snd]. exists tk, l, ds, tm, tc, fr. split; [reflexivity|exact (proj2 (proj2 Hinv))].
  - destruct (res_map_cons _ _ _ _ Hi) as (it & its' & Hit & Hi' & ->).
    rewrite forallb_cons in Hok. apply andb_true_iff in Hok. destruct Hok as [Hs Hok].
    destruct (line_step d off s it st tk l ds q tm tc fr Hs Hit Hinv) as (tk1 & l1 & ds1 & tm1 & tc1 & fr1 & E & Hinv1).
    cbn [map fold_left]. rewrite E. destruct (astep (st, q) it) as [st1 q1]. exact (IH its' st1 tk1 l1 ds1 q1 tm1 tc1 fr1 Hok Hi' Hinv1).
Qed.

(* read-level: the whole stream is read as the tail of read() applied to the row-level run *)
Theorem read_segs : forall d off segs its,
  forallb seg_ok segs = true -> res_map (seg_item d off) segs = Ok its ->
  read off (map (seg_line d) segs) = finish_read (afinish (fold_left astep its a0)).
Proof.
  intros d off segs its Hok Hi.
  destruct (run_segs d off segs its stash0 tracker0 LNone false None 0%Q (lit "00:00:00;00") 0 Hok Hi)
    as (tk & l & ds & tm & tc & fr & E & Hq).
  { split; [reflexivity|split; [left; reflexivity|exact I]]. }
  unfold read, run_lines. change (rstate0 off) with (B off stash0 tracker0 LNone false (qreal None) 0%Q (lit "00:00:00;00") 0).
  rewrite E. clear E. revert Hq. change (@pair stash aq stash0 None) with a0. destruct (fold_left astep its a0) as [st q]. cbn [fst snd]. intros Hq.
  unfold B. cbn [r_err]. unfold flush_implicit. cbn [r_active r_queue].
  destruct q as [[r0 t0]|]; cbn [qreal afinish].
  - unfold pop_on. cbn [r_queue]. unfold store, set_queue, set_stash. cbn [r_err r_stash]. rewrite (store_row st r0 t0 0%Q Hq).
    reflexivity.
  - reflexivity.
Qed.

Lemma afold_map : forall X (f : precap -> X) (g : row -> X),
  (forall e c, f (set_end e c) = f c) -> (forall r s e, f (rcap r s e) = g r) ->
  forall its st q, map f (st_caps (afinish (fold_left astep its (st, q)))) = map f (st_caps st) ++ map g (qrow q ++ rows_of its).
Proof.
  intros X f g Hf Hg. induction its as [|it its IH]; intros st q.
  - cbn [fold_left afinish rows_of flat_map]. rewrite app_nil_r. destruct q as [[r0 t0]|]; cbn [qrow map].
    + rewrite (stash_extend_map _ f) by exact Hf. cbn [filter has_nodes rcap rnodes pc_nodes map]. rewrite Hg. reflexivity.
    + rewrite app_nil_r. reflexivity.
  - cbn [fold_left astep]. rewrite IH. unfold rows_of. cbn [flat_map]. fold (rows_of its).
    destruct q as [[r0 t0]|]; cbn [qrow app].
    + rewrite (stash_extend_map _ f) by exact Hf. cbn [filter has_nodes rcap rnodes pc_nodes map]. rewrite Hg, <- app_assoc.
      destruct (fst it) as [r|]; reflexivity.
    + destruct (fst it) as [r|]; reflexivity.
Qed.

Definition span (c : precap) : Q * Q := (pc_start c, pc_end c).
Definition erase (c : precap) : precap := cue (pc_start c) (pc_end c).
Definition erase_st (s : stash) : stash := mkStash (map erase (st_caps s)) (st_batch s).

Lemma erase_cue' : forall l, map erase l = map cue' (map span l).
Proof. intros l. rewrite map_map. reflexivity. Qed.

Lemma erase_extend : forall s c, has_nodes c = true -> erase_st (stash_extend s [c]) = stash_extend (erase_st s) [erase c].
Proof.
  intros s c Hc. unfold stash_extend, erase_st. cbn [filter]. rewrite Hc. cbn [has_nodes erase cue pc_nodes dummy_nodes st_caps st_batch length].
  f_equal. rewrite map_app. cbn [map]. f_equal.
  unfold update_last_batch. cbn [st_caps st_batch]. rewrite map_length, skipn_map, last_some_map.
  destruct (last (map Some (skipn (length (st_caps s) - st_batch s) (st_caps s))) None) as [b|]; cbn [option_map]; [|reflexivity].
  change (pc_end (erase b)) with (pc_end b). change (pc_start (cue (pc_start c) (pc_end c))) with (pc_start c).
  destruct (_ || _); [|reflexivity]. apply map_tail_map. reflexivity.
Qed.

Lemma erase_run : forall its st q,
  erase_st (afinish (fold_left astep its (st, q)))
  = pfinish (fold_left pstep (map to_pev (map ev_of its)) (erase_st st, option_map snd q)).
Proof.
  induction its as [|it its IH]; intros st q.
  - cbn [fold_left map afinish pfinish]. destruct q as [[r0 t0]|]; cbn [option_map snd]; [|reflexivity].
    rewrite erase_extend by reflexivity. reflexivity.
  - cbn [fold_left map astep]. rewrite IH. f_equal. f_equal. destruct it as [[r|] t]; unfold ev_of; cbn [fst snd to_pev pstep];
      destruct q as [[r0 t0]|]; cbn [option_map snd]; try reflexivity; rewrite erase_extend by reflexivity; reflexivity.
Qed.

Lemma existsb_map : forall A X (f : X -> bool) (g : A -> X) l, existsb f (map g l) = existsb (fun x => f (g x)) l.
Proof. intros A X f g. induction l as [|a l IH]; [reflexivity|]. cbn [map existsb]. rewrite IH. reflexivity. Qed.

Lemma fix_last_rev_erase : forall l, fix_last_rev (map erase l) = map erase (fix_last_rev l).
Proof.
  induction l as [|c t IH]; [reflexivity|]. cbn [map fix_last_rev]. change (pc_end (erase c)) with (pc_end c).
  destruct (Qeq_bool (pc_end c) 0); [|reflexivity]. cbn [map]. rewrite IH. reflexivity.
Qed.

Lemma fix_last_erase : forall l, fix_last (map erase l) = map erase (fix_last l).
Proof. intros l. unfold fix_last. rewrite <- map_rev, fix_last_rev_erase, map_rev. reflexivity. Qed.

Lemma finish_read_erase : forall s, length_check (map to_lcap (st_caps s)) = None ->
  spans_of (finish_read s) = spans_of (finish_read (erase_st s)).
Proof.
  intros s H. unfold finish_read. rewrite H. cbn [erase_st st_caps]. rewrite (erase_cue' (st_caps s)), length_check_cues.
  rewrite <- erase_cue', existsb_map. change (fun x => is_flash (erase x)) with is_flash.
  destruct (existsb is_flash (st_caps s)); [reflexivity|]. destruct (st_caps s) as [|c0 t]; [reflexivity|].
  change (map erase (c0 :: t)) with (erase c0 :: map erase t) at 1. cbv iota. cbn [spans_of].
  rewrite fix_last_erase, map_map. reflexivity.
Qed.

(* the length scan passes: every caption is one row of at most 32 characters without a newline *)
Lemma length_check_rows : forall caps rows, Forall (fun r => basic_row r = true) rows ->
  map pc_nodes caps = map rnodes rows -> length_check (map to_lcap caps) = None.
Proof.
  intros caps rows HF Hn. apply length_check_none_iff. unfold offending. rewrite map_map.
  assert (E : map (fun c => filter spec_long (spec_lines (snd (to_lcap c)))) caps
              = map (fun ns => filter spec_long (spec_lines (concat (map node_text ns)))) (map pc_nodes caps))
    by (rewrite map_map; reflexivity).
  rewrite E, Hn, map_map. clear E Hn. induction HF as [|r rows Hr HF IH]; [reflexivity|].
  cbn [map concat]. rewrite IH, app_nil_r. destruct (row_text_facts r Hr) as [_ Ho].
  unfold offending in Ho. cbn [map snd concat] in Ho. rewrite app_nil_r in Ho.
  unfold rnodes. cbn [map node_text concat]. rewrite app_nil_r. exact Ho.
Qed.

Lemma stored_nodes : forall its, map pc_nodes (st_caps (afinish (fold_left astep its a0))) = map rnodes (rows_of its).
Proof. intros its. unfold a0. rewrite (afold_map _ pc_nodes rnodes) by reflexivity. reflexivity. Qed.

Lemma stored_layouts : forall its,
  map pc_layout (st_caps (afinish (fold_left astep its a0))) = map (fun r => Some (row_pos r)) (rows_of its).
Proof. intros its. unfold a0. rewrite (afold_map _ pc_layout (fun r => Some (row_pos r))) by reflexivity. reflexivity. Qed.

(* C06: well-formed stream -> display events -> spans, beyond one load *)
Theorem popon_stage4_spans : forall d off segs evs,
  forallb seg_ok segs = true -> res_map (seg_event d off) segs = Ok evs -> positive evs ->
  spans_of (read off (map (seg_line d) segs)) = expected_with join_threshold evs.
Proof.
  intros d off segs evs Hok He Hp. destruct (seg_items d off segs evs He) as (its & Hi & Hm & Hr).
  rewrite (read_segs d off segs its Hok Hi).
  rewrite finish_read_erase.
  - unfold a0. rewrite erase_run, Hm. rewrite <- (popon_read_expected evs Hp). reflexivity.
  - apply (length_check_rows _ (rows_of its)); [rewrite Hr; apply loads_basic; exact Hok|apply stored_nodes].
Qed.

(* C05: every load is read as exactly one caption with its row's characters at its row's address, in order *)
Theorem popon_stage4_captions : forall d off segs evs caps,
  forallb seg_ok segs = true -> res_map (seg_event d off) segs = Ok evs -> positive evs ->
  read off (map (seg_line d) segs) = ROk caps ->
  map pc_nodes caps = map (fun r => [CText (row_text r) (row_pos r)]) (loads_of segs) /\
  map pc_layout caps = map (fun r => Some (row_pos r)) (loads_of segs).
Proof.
  intros d off segs evs caps Hok He _ Hread. destruct (seg_items d off segs evs He) as (its & Hi & _ & Hr).
  rewrite (read_segs d off segs its Hok Hi) in Hread. destruct (flash_rejected _ _ Hread) as [-> _]. split.
  - rewrite fix_last_nodes, stored_nodes, Hr. reflexivity.
  - rewrite (fix_last_map _ pc_layout) by reflexivity. rewrite stored_layouts, Hr. reflexivity.
Qed.

Definition ev_instant (d : bool) (off : Q) (s : seg) : result Q :=
  match seg_event d off s with Ok e => Ok (ev_time e) | Err e => Err e end.

Lemma extend_two : forall c1 c2, has_nodes c1 = true -> has_nodes c2 = true ->
  st_caps (stash_extend (stash_extend stash0 [c1]) [c2])
  = [if Qeq_bool (pc_end c1) 0 || negb (Qle_bool join_threshold (pc_start c2 - pc_end c1)) then set_end (pc_start c2) c1 else c1; c2].
Proof.
  intros c1 c2 H1 H2. unfold stash_extend, stash0. cbn [filter]. rewrite H1, H2. unfold update_last_batch, map_tail.
  cbn [st_caps st_batch app length Nat.sub skipn firstn map last].
  destruct (_ || _); reflexivity.
Qed.

Theorem popon_two_loads : forall d off tc1 r1 mid tc2 r2 t1 t2 tm,
  basic_row r1 = true -> basic_row r2 = true ->
  ev_instant d off (SLoad tc1 r1) = Ok t1 -> ev_instant d off (SLoad tc2 r2) = Ok t2 ->
  match mid with Some tcm => ev_instant d off (SClear tcm) = Ok tm /\ (0 < tm)%Q | None => True end -> (0 < t2)%Q ->
  let e1 := match mid with
            | Some _ => if Qle_bool join_threshold (t2 - tm) then tm else t2   (* a gap under five frames is closed *)
            | None => t2
            end in
  is_flash (mkPre t1 e1 [] None) = false ->
  read off (map (seg_line d) ([SLoad tc1 r1] ++ match mid with Some tcm => [SClear tcm] | None => [] end ++ [SLoad tc2 r2]))
  = ROk [rcap r1 t1 e1; rcap r2 t2 (t2 + inject_Z 4000000)%Q].
Proof.
  intros d off tc1 r1 mid tc2 r2 t1 t2 tm H1 H2 G1 G2 Gm Hp2 e1 Hfl.
  unfold ev_instant in G1, G2, Gm. cbn [seg_event] in G1, G2, Gm.
  destruct (get_time tc1 _ off) as [t1'|] eqn:E1; [|discriminate]. inversion G1. subst t1'.
  destruct (get_time tc2 _ off) as [t2'|] eqn:E2; [|discriminate]. inversion G2. subst t2'.
  assert (Hz2 : Qeq_bool t2 0 = false) by (apply Qeq_bool_pos_false; exact Hp2).
  assert (Hfl2 : is_flash (rcap r2 t2 0) = false) by exact (pending_not_flash t2 Hp2).
  assert (Hfin : forall st, st_caps st = [rcap r1 t1 e1; rcap r2 t2 0%Q] -> Qeq_bool e1 0 = false ->
            finish_read st = ROk [rcap r1 t1 e1; rcap r2 t2 (t2 + inject_Z 4000000)%Q]).
  { intros st Hst Hz1. unfold finish_read. rewrite Hst.
    rewrite (length_check_rows _ [r1; r2]); [|repeat constructor; assumption|reflexivity].
    cbn [existsb]. change (is_flash (rcap r1 t1 e1)) with (is_flash (mkPre t1 e1 [] None)). rewrite Hfl, Hfl2. cbn [orb].
    change [rcap r1 t1 e1; rcap r2 t2 0%Q] with ([rcap r1 t1 e1] ++ [rcap r2 t2 0%Q]). rewrite fix_last_spec_all.
    - reflexivity.
    - intros c [<-|[]]. reflexivity.
    - intros c [<-|[]]. exact Hz1. }
  destruct mid as [tcm|].
  - destruct Gm as [Gm Hpm]. destruct (get_time tcm 0 off) as [tm'|] eqn:Em; [|discriminate]. inversion Gm. subst tm'.
    rewrite (read_segs d off _ [(Some r1, t1); (None, tm); (Some r2, t2)]).
    + apply Hfin.
      * unfold a0. cbn [fold_left astep afinish fst snd]. rewrite extend_two by reflexivity.
        cbn [rcap pc_end pc_start]. rewrite (Qeq_bool_pos_false tm Hpm). cbn [orb]. subst e1.
        destruct (Qle_bool join_threshold (t2 - tm)); reflexivity.
      * subst e1. destruct (Qle_bool _ _); apply Qeq_bool_pos_false; assumption.
    + cbn [app forallb seg_ok]. rewrite H1, H2. reflexivity.
    + cbn [app res_map seg_item bind]. rewrite E1, Em, E2. reflexivity.
  - rewrite (read_segs d off _ [(Some r1, t1); (Some r2, t2)]).
    + apply Hfin; [|exact Hz2].
      unfold a0. cbn [fold_left astep afinish fst snd]. rewrite extend_two by reflexivity.
      cbn [rcap pc_end pc_start]. rewrite Hz2. cbn [orb].
      assert (X : Qle_bool join_threshold (t2 - t2) = false).
      { destruct (Qle_bool join_threshold (t2 - t2)) eqn:E; [|reflexivity]. apply Qle_bool_iff in E. exfalso.
        assert (Y : (t2 - t2 == 0)%Q) by ring. rewrite Y in E. revert E. rewrite join_threshold_value. vm_compute. intros E. apply E. reflexivity. }
      rewrite X. reflexivity.
    + cbn [app forallb seg_ok]. rewrite H1, H2. reflexivity.
    + cbn [app res_map seg_item bind]. rewrite E1, E2. reflexivity.
Qed.
