(* C17: the pre-roll arithmetic of SCCWriter.write (PASS 2 / PASS 3) and the timecode format. *)
From Coq Require Import List ZArith QArith Qround Qabs Lia Lqa Bool ZifyBool Arith.
From PV Require Import lib.Sx lib.Str lib.Result model.GenSccw model.SccWrap model.SccWrite spec.SpecSccw
     proofs.SccwStr.
From PV Require lib.Dec.
Import ListNotations.
Open Scope Q_scope.
#[local] Ltac Zify.zify_post_hook ::= Z.to_euclidean_division_equations.

(* ---- PASS 2 as a look-ahead: a caption's clear-screen time is removed exactly when the next caption's
        advanced start is at most 3 frames after it ------------------------------------------------- *)
Fixpoint pass2_ahead (c : str) (s e : Q) (todo : list (str * Q * Q)) : list (str * Q * option Q) :=
  match todo with
  | [] => [(c, s, Some e)]
  | (c', s', e') :: t =>
      let cs := pre_roll c' s' in
      (c, s, if Qle_bool cs (e + 3 * mpc) then None else Some e) :: pass2_ahead c' cs e' t
  end.

Lemma pass2_ahead_eq : forall todo done_ c s e,
  pass2 ((c, s, Some e) :: done_) todo = rev done_ ++ pass2_ahead c s e todo.
Proof.
  induction todo as [|[[c' s'] e'] t IH]; intros done_ c s e; cbn [pass2 pass2_ahead].
  - reflexivity.
  - destruct (Qle_bool (pre_roll c' s') (e + 3 * mpc)); rewrite IH; cbn [rev]; rewrite <- app_assoc; reflexivity.
Qed.

Theorem pass2_lookahead : forall c s e todo,
  pass2 [] ((c, s, e) :: todo) = pass2_ahead c (pre_roll c s) e todo.
Proof. intros. cbn [pass2]. apply (pass2_ahead_eq todo [] c (pre_roll c s) e). Qed.

Definition emitted (l : list (str * Q * option Q)) : list Q :=
  flat_map (fun x => snd (fst x) :: match snd x with Some e => [e] | None => [] end) l.

Fixpoint chain (lo : Q) (l : list Q) : Prop :=
  match l with [] => True | x :: t => lo <= x /\ chain x t end.

Lemma mpc_pos : 0 < mpc.
Proof. reflexivity. Qed.
Lemma code_time_nonneg : forall code, 0 <= code_words code * mpc.
Proof.
  intros. apply Qmult_le_0_compat; [|discriminate]. unfold code_words. change 0 with (inject_Z 0). rewrite <- Zle_Qle. lia.
Qed.

Lemma pre_roll_le : forall code start, 0 <= start -> pre_roll code start <= start /\ 0 <= pre_roll code start.
Proof.
  intros code start H. unfold pre_roll.
  pose proof (code_time_nonneg code) as P.
  destruct (Qle_bool 0 (start - code_words code * mpc)) eqn:E.
  - apply Qle_bool_iff in E. split; lra.
  - split; lra.
Qed.
Lemma pre_roll_exact : forall code start, 0 <= start - code_words code * mpc ->
  pre_roll code start == start - code_words code * mpc.
Proof.
  intros code start H. unfold pre_roll. apply Qle_bool_iff in H. rewrite H. reflexivity.
Qed.

(* the spacing hypothesis: cues are ordered, do not overlap, and each cue starts at least its own
   transmission time (code words x one frame) after the previous cue's start, the first after 0 *)
Fixpoint spaced (prev_start : Q) (todo : list (str * Q * Q)) : Prop :=
  match todo with
  | [] => True
  | (c, s, e) :: t => prev_start <= s - code_words c * mpc /\ s <= e /\
                      match t with [] => True | (_, s', _) :: _ => e <= s' end /\ spaced s t
  end.

Lemma pass2_ahead_chain : forall todo c s s0 e lo,
  lo <= s -> s <= s0 -> s0 <= e -> 0 <= s0 ->
  match todo with [] => True | (_, s', _) :: _ => e <= s' end -> spaced s0 todo ->
  chain lo (emitted (pass2_ahead c s e todo)).
Proof.
  induction todo as [|[[c' s'] e'] t IH]; intros c s s0 e lo L1 L2 L3 L0 N S; cbn [pass2_ahead].
  - simpl. repeat split; lra.
  - destruct S as (S1 & S2 & S3 & S4).
    assert (P : pre_roll c' s' == s' - code_words c' * mpc) by (apply pre_roll_exact; lra).
    pose proof (code_time_nonneg c') as PW. pose proof mpc_pos as M.
    unfold emitted. cbn [flat_map fst snd].
    destruct (Qle_bool (pre_roll c' s') (e + 3 * mpc)) eqn:E; cbn [app chain].
    + split; [exact L1|]. apply (IH c' (pre_roll c' s') s' e' s); try lra; auto.
    + assert (E' : e + 3 * mpc < pre_roll c' s').
      { apply Qnot_le_lt. intros C. apply Qle_bool_iff in C. congruence. }
      split; [exact L1|]. split; [lra|].
      apply (IH c' (pre_roll c' s') s' e' e); try lra; auto.
Qed.

(* timecodes_monotone: the times written are non-negative and non-decreasing *)
Theorem emitted_times_monotone : forall codes, spaced 0 codes -> chain 0 (emitted (pass2 [] codes)).
Proof.
  intros [|[[c s] e] t] S; [exact I|]. rewrite pass2_lookahead.
  destruct S as (S1 & S2 & S3 & S4).
  pose proof (code_time_nonneg c) as PW.
  assert (P : pre_roll c s == s - code_words c * mpc) by (apply pre_roll_exact; lra).
  apply (pass2_ahead_chain t c (pre_roll c s) s e 0); try lra; auto.
Qed.

Fixpoint chainZ (lo : Z) (l : list Z) : Prop :=
  match l with [] => True | x :: t => (lo <= x)%Z /\ chainZ x t end.

Lemma tc_frames_mono : forall a b, a <= b -> (tc_frames a <= tc_frames b)%Z.
Proof.
  intros a b H. unfold tc_frames. apply Qfloor_resp_le. apply Qmult_le_compat_r; [exact H|]. discriminate.
Qed.
Lemma chain_frames : forall l lo, chain lo l -> chainZ (tc_frames lo) (map tc_frames l).
Proof.
  induction l as [|x t IH]; intros lo H; [exact I|]. destruct H as [H1 H2].
  split; [apply tc_frames_mono; exact H1|apply IH; exact H2].
Qed.

Theorem timecodes_monotone : forall codes, spaced 0 codes ->
  chainZ 0 (map tc_frames (emitted (pass2 [] codes))).
Proof. intros codes S. apply (chain_frames _ 0). apply emitted_times_monotone. exact S. Qed.

(* ---- displayed within three frames ---------------------------------------------------------------
   The load line starts at frame F = tc_frames(advanced start) and carries 4 + n + 4 words; the first
   End-Of-Caption is word number n + 6, so the caption is displayed at frame F + n + 6. *)
Theorem visible_within_3_frames : forall code start,
  0 <= start - code_words code * mpc ->
  let n := (Z.of_nat (length code) / 5)%Z in
  let shown := inject_Z (tc_frames (pre_roll code start) + (n + 6)) * mpc in
  start - 3 * mpc < shown /\ shown <= start - 2 * mpc.
Proof.
  intros code start H n shown.
  pose proof (pre_roll_exact code start H) as P.
  set (cs := pre_roll code start) in *.
  assert (W : code_words code == inject_Z n + 8).
  { unfold code_words. fold n. rewrite inject_Z_plus. reflexivity. }
  unfold shown, tc_frames. rewrite inject_Z_plus, inject_Z_plus.
  set (x := cs * (30 # 1001000)).
  pose proof (Qfloor_le x) as F1. pose proof (Qlt_floor x) as F2. rewrite inject_Z_plus in F2.
  set (f := inject_Z (Qfloor x)) in *.
  assert (X : x * mpc == cs) by (unfold x, mpc; field).
  change (inject_Z 6) with 6. change (inject_Z 1) with 1 in F2.
  assert (M : mpc == 1001000 # 30) by reflexivity.
  rewrite W in P. rewrite M in *. split; nra.
Qed.

Lemma two_spec : forall z, (0 <= z < 100)%Z -> two_digits (two z) = Some z.
Proof.
  intros z H. unfold two. replace (z <? 0)%Z with false by lia. rewrite (Dec.zpad2_two z H).
  unfold Dec.two, two_digits, is_digit, digit_val.
  replace ((48 <=? 48 + z / 10) && (48 + z / 10 <=? 57) && ((48 <=? 48 + z mod 10) && (48 + z mod 10 <=? 57)))%Z
    with true by lia.
  f_equal. lia.
Qed.
Lemma two_no_colon : forall z, (0 <= z)%Z -> forallb (fun c => negb (c =? 58)%Z) (two z) = true.
Proof.
  intros z H. unfold two. assert (E : (z <? 0)%Z = false) by lia. rewrite E.
  destruct (dec_nonneg_spec z H) as (D1 & _ & _). destruct (zpad_spec 2 _ D1) as (Z1 & _).
  rewrite forallb_forall in *. intros c Hc. specialize (Z1 c Hc). unfold is_digit in Z1. lia.
Qed.

(* the four fields as variables: the division arithmetic of format_frames stays out of the string argument *)
Lemma timecode_fields : forall h m s r, (0 <= h)%Z -> (0 <= m < 60)%Z -> (0 <= s < 60)%Z -> (0 <= r < 30)%Z ->
  parse_timecode (two h ++ [58%Z] ++ two m ++ [58%Z] ++ two s ++ [58%Z] ++ two r)
  = Some (((h * 60 + m) * 60 + s) * 30 + r)%Z.
Proof.
  intros h m s r Hh Hm Hs Hr. unfold parse_timecode. cbn [app]. rewrite !split_ch_app_sep.
  rewrite !split_ch_nosep by (apply two_no_colon; lia). cbn [app].
  destruct (dec_nonneg_spec h Hh) as (D1 & D2 & D3). destruct (zpad_spec 2 _ D1) as (Z1 & Z2 & Z3 & Z4).
  assert (T : two h = zpad 2 (dec_nonneg h)) by (unfold two; replace (h <? 0)%Z with false by lia; reflexivity).
  assert (I : int_of_digits (two h) = Some h).
  { rewrite T, int_of_digits_spec, Z2, D2; [reflexivity| |exact Z1]. intros C. rewrite C in Z3. cbn in Z3. lia. }
  rewrite I, T, (proj2 (Nat.leb_le _ _) Z3), !two_spec by lia.
  replace ((m <? 60) && (s <? 60) && (r <? 30))%Z with true by lia. reflexivity.
Qed.

Theorem timecode_roundtrip : forall f, (0 <= f)%Z -> parse_timecode (format_frames f) = Some f.
Proof.
  intros f H. unfold format_frames. rewrite timecode_fields by lia. f_equal. lia.
Qed.

Theorem timestamp_roundtrip : forall t, 0 <= t -> parse_timecode (format_timestamp t) = Some (tc_frames t).
Proof.
  intros t H. apply timecode_roundtrip. change 0%Z with (tc_frames 0). apply tc_frames_mono. exact H.
Qed.
