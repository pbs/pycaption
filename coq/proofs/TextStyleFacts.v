(* C11: balance of what the readers return and of what the writers emit. *)
From Coq Require Import List ZArith Bool.
From PV Require Import lib.Sx lib.Str model.TextNodes model.TextWrite model.TextRead model.TextStyle.
From PV Require Import spec.SpecTextXml spec.SpecTextStyle proofs.TextReadFacts.
Import ListNotations.
Open Scope Z_scope.

(* readers: every start node is followed by its end node, properly nested *)
Lemma balanced_aux_shift : forall a b d k, balanced_aux a k = true ->
  balanced_aux (a ++ b) (k + d) = balanced_aux b d.
Proof.
  induction a as [|n a IH]; intros b d k H.
  - cbn [balanced_aux] in H. apply Nat.eqb_eq in H. subst k. reflexivity.
  - destruct n as [s| |[] st]; cbn [app balanced_aux] in *.
    + apply IH. exact H.
    + apply IH. exact H.
    + apply (IH b d (S k) H).
    + destruct k as [|k']; [discriminate|]. cbn [Nat.add]. apply (IH b d k' H).
Qed.

Lemma balanced_app : forall a b, balanced a = true -> balanced b = true -> balanced (a ++ b) = true.
Proof. intros a b Ha Hb. unfold balanced in *. pose proof (balanced_aux_shift a b 0 0 Ha) as Q. cbn [Nat.add] in Q. rewrite Q. exact Hb. Qed.

Lemma balanced_wrap : forall st kids, balanced kids = true ->
  balanced ([NStyle true st] ++ kids ++ [NStyle false st]) = true.
Proof.
  intros st kids H. unfold balanced in *. cbn [app balanced_aux].
  pose proof (balanced_aux_shift kids [NStyle false st] 1 0 H) as Q. cbn [Nat.add] in Q. rewrite Q. reflexivity.
Qed.

Lemma balanced_flat_map : forall (f : xnode -> list node) kids,
  Forall (fun x => balanced (f x) = true) kids -> balanced (flat_map f kids) = true.
Proof.
  intros f kids H. induction H as [|x l Hx Hl IH]; [reflexivity|].
  cbn [flat_map]. apply balanced_app; assumption.
Qed.

Theorem dfxp_reader_nodes_balanced : forall fixed x, balanced (dfxp_nodes fixed x) = true.
Proof.
  intros fixed. induction x as [s|n a kids IH] using xnode_ind2.
  - cbn [dfxp_nodes]. destruct (text_node fixed s); reflexivity.
  - cbn [dfxp_nodes]. destruct (str_eqb n (lit "br")); [reflexivity|].
    destruct (str_eqb n (lit "span")).
    + apply balanced_wrap. apply balanced_flat_map. exact IH.
    + apply balanced_flat_map. exact IH.
Qed.

Theorem sami_reader_nodes_balanced : forall fixed x, balanced (sami_nodes fixed x) = true.
Proof.
  intros fixed. induction x as [s|n a kids IH] using xnode_ind2.
  - cbn [sami_nodes]. destruct (text_node fixed s); reflexivity.
  - cbn [sami_nodes]. destruct (str_eqb n (lit "br")); [reflexivity|].
    pose proof (balanced_flat_map (sami_nodes fixed) kids IH) as Hk.
    destruct (str_eqb n (lit "i")); [apply balanced_wrap; exact Hk|].
    destruct (str_eqb n (lit "b")); [apply balanced_wrap; exact Hk|].
    destruct (str_eqb n (lit "u")); [apply balanced_wrap; exact Hk|].
    destruct (str_eqb n (lit "span")); [|exact Hk].
    destruct (sami_span_args a); [apply balanced_wrap; exact Hk|exact Hk].
Qed.

Theorem dfxp_reader_p_balanced : forall fixed t, balanced (flat_map (dfxp_nodes fixed) t) = true.
Proof. intros fixed t. apply balanced_flat_map. apply Forall_forall. intros x _. apply dfxp_reader_nodes_balanced. Qed.
Theorem sami_reader_p_balanced : forall fixed t, balanced (flat_map (sami_nodes fixed) t) = true.
Proof. intros fixed t. apply balanced_flat_map. apply Forall_forall. intros x _. apply sami_reader_nodes_balanced. Qed.

(* WebVTT, SRT and MicroDVD readers return no style node at all *)
Theorem vtt_reader_nodes_balanced : forall fixed lines, balanced (vtt_cue_nodes fixed lines) = true.
Proof.
  intros fixed lines. unfold vtt_cue_nodes. induction lines as [|l ls IH]; [reflexivity|].
  cbn [map intersperse_break]. destruct (map (fun l0 => NText (vtt_decode fixed l0)) ls) eqn:E; [reflexivity|].
  unfold balanced in *. cbn [balanced_aux]. exact IH.
Qed.

(* induction along spans that do not nest: cur = the style of the span that is open *)
Lemma flat_aux_ind : forall (P : list node -> option style -> Prop),
  P [] None ->
  (forall s ns cur, P ns cur -> P (NText s :: ns) cur) ->
  (forall ns cur, P ns cur -> P (NBreak :: ns) cur) ->
  (forall st ns, P ns (Some st) -> P (NStyle true st :: ns) None) ->
  (forall st0 st ns, style_eqb st0 st = true -> P ns None -> P (NStyle false st :: ns) (Some st0)) ->
  forall ns cur, flat_aux ns cur = true -> P ns cur.
Proof.
  intros P H0 Ht Hb Ho Hc. induction ns as [|[s| |[] st] ns IH]; intros cur H; cbn [flat_aux] in H.
  - destruct cur; [discriminate|exact H0].
  - apply Ht, IH, H.
  - apply Hb, IH, H.
  - destruct cur; [discriminate|]. apply Ho, IH, H.
  - destruct cur as [st0|]; [|discriminate]. apply andb_true_iff in H. apply Hc; [apply H|apply IH, H].
Qed.

(* writers: the instrumented step functions erase to the models of TextWrite.v *)
Lemma span_step_tr_erase : forall attrs line open start st,
  fst (span_step_tr attrs line open start st) = span_step attrs line open start st.
Proof. intros. unfold span_step_tr, span_step. destruct start; [destruct (attrs st)|destruct open]; reflexivity. Qed.

Lemma dfxp_run_tr_erase_gen : forall extra ns acc,
  fst (fold_left (dfxp_step_tr extra) ns acc) = fold_left (dfxp_step extra) ns (fst acc).
Proof.
  intros extra. induction ns as [|n ns IH]; intros [[line open] tr]; [reflexivity|].
  cbn [fold_left]. rewrite IH. f_equal. destruct n as [s| |start st]; cbn [dfxp_step_tr dfxp_step fst]; try reflexivity.
  pose proof (span_step_tr_erase (fun st0 => dfxp_style_attrs st0 ++ extra) line open start st) as E.
  destruct (span_step_tr (fun st0 => dfxp_style_attrs st0 ++ extra) line open start st) as [r ev]. cbn [fst] in *. exact E.
Qed.

Theorem dfxp_run_tr_erase : forall extra open ns, fst (dfxp_run_tr extra open ns) = dfxp_run extra open ns.
Proof. intros. unfold dfxp_run_tr, dfxp_run. apply dfxp_run_tr_erase_gen. Qed.

Lemma sami_run_tr_erase_gen : forall ns acc,
  fst (fold_left sami_step_tr ns acc) = fold_left TextWrite.sami_step ns (fst acc).
Proof.
  induction ns as [|n ns IH]; intros [[line open] tr]; [reflexivity|].
  cbn [fold_left]. rewrite IH. f_equal. destruct n as [s| |[] st]; cbn [sami_step_tr TextWrite.sami_step fst]; try reflexivity.
  - destruct (sami_css st); reflexivity.
  - destruct open; reflexivity.
Qed.

Theorem sami_run_tr_erase : forall open ns, fst (sami_run_tr open ns) = TextWrite.sami_run open ns.
Proof. intros. unfold sami_run_tr, TextWrite.sami_run. apply sami_run_tr_erase_gen. Qed.

(* DFXP: along ANY node list the number of open spans is the open_span flag *)
Definition b2n (b : bool) : nat := if b then 1%nat else 0%nat.

Lemma trace_depth_app : forall a b d, trace_depth (a ++ b) d = match trace_depth a d with Some d' => trace_depth b d' | None => None end.
Proof.
  induction a as [|x a IH]; intros b d; [reflexivity|]. cbn [app trace_depth].
  destruct x; [apply IH|]. destruct d; [reflexivity|apply IH].
Qed.

Lemma dfxp_trace_invariant : forall extra ns line open tr,
  trace_depth tr 0 = Some (b2n open) ->
  let r := fold_left (dfxp_step_tr extra) ns ((line, open), tr) in
  trace_depth (snd r) 0 = Some (b2n (snd (fst r))).
Proof.
  intros extra. induction ns as [|n ns IH]; intros line open tr H; [exact H|].
  cbn [fold_left]. destruct n as [s| |start st]; cbn [dfxp_step_tr].
  - apply IH. exact H.
  - apply IH. exact H.
  - unfold span_step_tr. destruct start.
    + destruct (dfxp_style_attrs st ++ extra) eqn:A.
      * rewrite app_nil_r. apply IH. exact H.
      * apply IH. rewrite trace_depth_app, H. destruct open; reflexivity.
    + destruct open.
      * apply IH. rewrite trace_depth_app, H. reflexivity.
      * rewrite app_nil_r. apply IH. exact H.
Qed.

(* every </span> closes an open <span>, and what is left open at the end is exactly the flag *)
Theorem dfxp_span_markup_depth : forall extra ns,
  trace_depth (snd (dfxp_run_tr extra false ns)) 0 = Some (b2n (snd (fst (dfxp_run_tr extra false ns)))).
Proof. intros. unfold dfxp_run_tr. apply (dfxp_trace_invariant extra ns [] false []). reflexivity. Qed.

(* for spans that do not nest the flag is down at the end: every <span> is closed *)
Lemma dfxp_flat_flag : forall extra ns cur, flat_aux ns cur = true -> forall line tr,
  snd (fst (fold_left (dfxp_step_tr extra) ns
              ((line, match cur with Some st => str_nonempty (dfxp_style_attrs st ++ extra) | None => false end), tr))) = false.
Proof.
  intros extra. refine (flat_aux_ind _ _ _ _ _ _); cbn [fold_left dfxp_step_tr].
  - reflexivity.
  - intros s ns cur IH line tr. apply IH.
  - intros ns cur IH line tr. apply IH.
  - intros st ns IH line tr. unfold span_step_tr. destruct (dfxp_style_attrs st ++ extra) as [|z l]; apply IH.
  - intros st0 st ns _ IH line tr. unfold span_step_tr. destruct (str_nonempty (dfxp_style_attrs st0 ++ extra)); apply IH.
Qed.

Theorem dfxp_span_markup_balanced : forall extra ns, flat_balanced ns = true ->
  trace_depth (snd (dfxp_run_tr extra false ns)) 0 = Some 0%nat.
Proof.
  intros extra ns H. rewrite dfxp_span_markup_depth.
  pose proof (dfxp_flat_flag extra ns None H [] []) as Q. cbv beta iota in Q.
  unfold dfxp_run_tr. change (Some 0%nat) with (Some (b2n false)). f_equal. f_equal. exact Q.
Qed.

Lemma sami_flat_trace : forall ns cur, flat_aux ns cur = true -> forall line tr,
  let open := match cur with Some st => str_nonempty (sami_css st) | None => false end in
  trace_depth tr 0 = Some (b2n open) ->
  let r := fold_left sami_step_tr ns ((line, open), tr) in
  trace_depth (snd r) 0 = Some 0%nat /\ snd (fst r) = false.
Proof.
  refine (flat_aux_ind _ _ _ _ _ _); cbn [fold_left sami_step_tr]; cbv zeta.
  - intros line tr Ht. split; [exact Ht|reflexivity].
  - intros s ns cur IH line tr Ht. apply IH, Ht.
  - intros ns cur IH line tr Ht. apply IH, Ht.
  - intros st ns IH line tr Ht. destruct (sami_css st) as [|z l]; apply IH; [exact Ht|].
    rewrite trace_depth_app, Ht. reflexivity.
  - intros st0 st ns _ IH line tr Ht. destruct (str_nonempty (sami_css st0)); apply IH; [|exact Ht].
    rewrite trace_depth_app, Ht. reflexivity.
Qed.

Theorem sami_span_markup_balanced : forall ns, flat_balanced ns = true ->
  trace_depth (snd (sami_run_tr false ns)) 0 = Some 0%nat /\ snd (fst (sami_run_tr false ns)) = false.
Proof. intros ns H. unfold sami_run_tr. apply (sami_flat_trace ns None H [] []). reflexivity. Qed.

Lemma nested_aux_app : forall a b stk stk', (forall rest, nested_aux (a ++ rest) stk = nested_aux rest stk') ->
  nested_aux (a ++ b) stk = nested_aux b stk'.
Proof. intros a b stk stk' H. apply H. Qed.

Definition open_stack (st : style) : list Z :=
  (if st_b st then [1] else []) ++ (if st_u st then [2] else []) ++ (if st_i st then [0] else []).

Lemma vtt_open_push : forall st rest stk, nested_aux (vtt_open_evs st ++ rest) stk = nested_aux rest (open_stack st ++ stk).
Proof. intros [[] [] [] c] rest stk; reflexivity. Qed.

Lemma vtt_close_pop : forall st rest stk, nested_aux (vtt_close_evs st ++ rest) (open_stack st ++ stk) = nested_aux rest stk.
Proof. intros [[] [] [] c] rest stk; reflexivity. Qed.

Lemma style_eqb_flags : forall a b, style_eqb a b = true -> open_stack a = open_stack b /\ vtt_close_evs a = vtt_close_evs b.
Proof.
  intros [ai ab au ac] [bi bb bu bc] H. unfold style_eqb in H. cbn [st_i st_b st_u st_color] in H.
  apply andb_true_iff in H. destruct H as [H _]. apply andb_true_iff in H. destruct H as [H Hu].
  apply andb_true_iff in H. destruct H as [Hi Hb]. apply Bool.eqb_prop in Hi, Hb, Hu. subst. split; reflexivity.
Qed.

Lemma vtt_flat_nested : forall ns cur, flat_aux ns cur = true ->
  nested_aux (vtt_tag_evs ns) (match cur with Some st => open_stack st | None => [] end) = true.
Proof.
  apply flat_aux_ind; unfold vtt_tag_evs; cbn [flat_map vtt_node_evs app]; try (intros; assumption).
  - reflexivity.
  - intros st ns H. rewrite vtt_open_push, app_nil_r. exact H.
  - intros st0 st ns He H. destruct (style_eqb_flags st0 st He) as [_ Hc].
    rewrite <- Hc, <- (app_nil_r (open_stack st0)), vtt_close_pop. exact H.
Qed.

Theorem vtt_tags_nested : forall ns, flat_balanced ns = true -> well_nested (vtt_tag_evs ns) = true.
Proof. intros ns H. apply (vtt_flat_nested ns None H). Qed.

(* the strings vtt_step writes for a style node are the renderings of those events *)
Theorem vtt_open_is_events : forall st, vtt_open st = concat (map render_tag (vtt_open_evs st)).
Proof. intros [[] [] [] c]; reflexivity. Qed.
Theorem vtt_close_is_events : forall st, vtt_close st = concat (map render_tag (vtt_close_evs st)).
Proof. intros [[] [] [] c]; reflexivity. Qed.

(* a node list used by the non-vacuity examples of props/C11.v *)
Definition ex_nodes : list node :=
  [NStyle true (mkStyle true true false None); NText (lit "a b"); NBreak; NText (lit "c"); NStyle false (mkStyle true true false None);
   NText (lit " d "); NStyle true (mkStyle false false true None); NStyle false (mkStyle false false true None)].

