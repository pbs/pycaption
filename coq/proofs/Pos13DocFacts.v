(* C13: down to the text of the DFXP document - with relativization on, every <region> the writer prints reads
   back (C12's reader model of the attribute strings) as a layout whose lengths are all percentages: the printed
   tts:origin / tts:extent / tts:padding strings carry the unit % and nothing else. *)
From Coq Require Import List ZArith.
From PV Require Import lib.Result model.Geometry model.Positioning spec.SpecGeom spec.SpecPos.
From PV Require Import proofs.Pos12Facts proofs.DfxpTreeFacts proofs.Pos12RegionFacts proofs.Pos13InlineFacts.
Import ListNotations.
Open Scope Z_scope.

Lemma unit_eqb_refl_pct : forall a b, s_unit a = s_unit b -> unit_eqb (s_unit a) PCT = unit_eqb (s_unit b) PCT.
Proof. intros a b H. rewrite H. reflexivity. Qed.

(* all_pct looks at units only, and == layouts have the same units *)
Lemma all_pct_equiv : forall a b, layout_equiv a b -> all_pct a = all_pct b.
Proof.
  intros [o e p al w] [o' e' p' al' w'] (Ho & He & Hp & _). cbn [l_origin l_extent l_padding] in *.
  unfold all_pct, sizes_axes. cbn [l_origin l_extent l_padding]. rewrite !forallb_app. apply f_equal2; [|apply f_equal2].
  - destruct o as [x|], o' as [y|]; cbn [opt_rel] in Ho; try contradiction; [|reflexivity].
    destruct Ho as [[_ U1] [_ U2]]. cbn [forallb fst]. rewrite U1, U2. reflexivity.
  - destruct e as [x|], e' as [y|]; cbn [opt_rel] in He; try contradiction; [|reflexivity].
    destruct He as [[_ U1] [_ U2]]. cbn [forallb fst]. rewrite U1, U2. reflexivity.
  - destruct p as [x|], p' as [y|]; cbn [opt_rel] in Hp; try contradiction; [|reflexivity].
    destruct Hp as ([_ U1] & [_ U2] & [_ U3] & [_ U4]). cbn [forallb fst]. rewrite U1, U2, U3, U4. reflexivity.
Qed.

Lemma all_pct_read_back : forall l, all_pct (spec_read_back l) = all_pct l.
Proof.
  intros [o e p al w]. unfold all_pct, sizes_axes, spec_read_back. cbn [l_origin l_extent l_padding].
  destruct o, e, p; reflexivity.
Qed.

Theorem pct_region_reads_pct : forall k, nonneg_layout k -> all_pct k = true ->
  exists r, read_region (layout_attrs k) = Ok r /\ all_pct r = true.
Proof.
  intros k N P. destruct (dfxp_attr_roundtrip k N) as (r & Er & Qr). exists r. split; [exact Er|].
  rewrite (all_pct_equiv _ _ Qr), all_pct_read_back. exact P.
Qed.

(* every <region> of the document written with relativization on: its printed attributes read back in percentages *)
Theorem dfxp_document_regions_percent : forall c s s', w_rel c = true -> dfxp_transform c s = Ok s' ->
  Forall opt_nonneg (written_layouts s') ->
  forall id a, In (id, a) (map (fun kv => (snd kv, layout_attrs (fst kv))) (region_map (written_layouts s'))) ->
  exists r, read_region a = Ok r /\ all_pct r = true.
Proof.
  intros c s s' Hr H NN id a Hin. apply in_map_iff in Hin. destruct Hin as ([k i] & E & Hk). cbn [fst snd] in E. inversion E; subst.
  apply pct_region_reads_pct; [|eapply dfxp_regions_percent; eauto].
  destruct (region_map_key_occurs _ _ _ Hk) as [Hocc| ->]; [rewrite Forall_forall in NN; exact (NN _ Hocc)|].
  unfold nonneg_layout. cbn. constructor.
Qed.
