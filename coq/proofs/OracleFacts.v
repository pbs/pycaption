(* OracleFacts.v - THE MODEL MEETS THE ORACLE.
   The property oracle of spec/SpecIso.v (the very function that is extracted and evaluated on the implementation's
   observations) is instantiated with D = tree and evaluated on the model's OWN observations of an arbitrary history
   (snapshots of all sets after every operation, outputs, pristine reads): it reports nothing.
   So:  correspondence (implementation observations = model observations, checked per run)
     +  these theorems (model observations satisfy ok_c09 / ok_c10, for ALL histories)
   compose to the property on the implementation, as far as the correspondence reaches. *)
From Coq Require Import List ZArith Bool Arith Lia.
From PV Require Import lib.Sx lib.Str lib.Result model.Store model.Iso spec.SpecIso
     proofs.StoreFacts proofs.IsoFacts proofs.RegionFacts proofs.SccReadFacts.
Import ListNotations.

Definition enc_out (r : result out) : tree :=
  match r with
  | Ok o => TNode 0 [(TInt 0, TNode 1 (map (fun z => (TNone, TInt z)) (out_tokens o))); (TInt 1, out_tree o)]
  | Err e => TNode 1 [(TNone, TInt (err_code e))]
  end.

Definition enc_key (k : Z) (o : wopts) : tree :=
  TNode 2 [(TInt k, TInt (Z.b2z (wo_rel o))); (TInt (Z.b2z (wo_fit o)), TInt (Z.b2z (wo_dims o)));
           (TNone, wo_lang o); (TNone, match wo_pos o with Some p => TInt p | None => TNone end);
           (TNone, TInt (Z.b2z (wo_inline o)))].

Lemma enc_key_inj : forall k o k' o', enc_key k o = enc_key k' o' -> k = k' /\ o = o'.
Proof.
  intros k [r f d l p q] k' [r' f' d' l' p' q'] H. unfold enc_key in H. cbn [wo_rel wo_fit wo_dims wo_lang wo_pos wo_inline] in H.
  injection H as Hk Hr Hf Hd Hl Hp Hq. split; [exact Hk|].
  assert (q = q') by (destruct q, q'; simpl in Hq; congruence).
  assert (r = r') by (destruct r, r'; simpl in Hr; congruence).
  assert (f = f') by (destruct f, f'; simpl in Hf; congruence).
  assert (d = d') by (destruct d, d'; simpl in Hd; congruence).
  assert (p = p') by (destruct p, p'; congruence).
  subst. reflexivity.
Qed.

(* the same read in a pristine process: fresh reader object, initial store *)
Definition pristine_of (c : cfg) (rk : Z) (t : tree) : tree :=
  let '(st, _, s) := read c rk rinst0 t store0 in snap FUEL st s.

Definition digests_of (w : world) : list tree := map (snap FUEL (w_st w)) (w_sets w).

Definition obs_of (c : cfg) (w : world) (o : op) : iobs tree :=
  let digs := digests_of (fst (step c w o)) in
  let n := Z.of_nat (length (w_sets w)) in
  match o with
  | OBuild _ => mkIobs 0%Z n TNone TNone TNone digs
  | ORead _ rk t => mkIobs 1%Z n TNone TNone (pristine_of c rk t) digs
  | OWrite wid k wo si =>
      match nth_error (w_sets w) si with
      | Some s =>
          let wi := match lookup wid (w_writers w) with Some x => x | None => winst0 end in
          mkIobs 2%Z (Z.of_nat si) (enc_key k wo) (enc_out (wr_result (write c k wo wi (w_st w) s))) TNone digs
      | None => mkIobs 0%Z n TNone TNone TNone digs
      end
  | OEdit si _ =>
      match nth_error (w_sets w) si with
      | Some _ => mkIobs 3%Z (Z.of_nat si) TNone TNone TNone digs
      | None => mkIobs 0%Z n TNone TNone TNone digs
      end
  end.

Fixpoint model_obs (c : cfg) (w : world) (ops : list op) : list (iobs tree) :=
  match ops with
  | [] => []
  | o :: t => obs_of c w o :: model_obs c (fst (step c w o)) t
  end.

Lemma prefix_same_map : forall (f g : val -> tree) sets extra,
  (forall sk, In sk sets -> g sk = f sk) ->
  prefix_same tree tree_eqb (map f sets) (map g (sets ++ extra)) = true.
Proof.
  intros f g sets extra H. induction sets as [|x t IH]; simpl; auto.
  rewrite (H x (or_introl eq_refl)), tree_eqb_refl. simpl. apply IH. intros sk Hs. apply H. right. exact Hs.
Qed.

Lemma prefix_same_refl : forall l, prefix_same tree tree_eqb l l = true.
Proof. induction l as [|x t IH]; simpl; [reflexivity|]. rewrite tree_eqb_refl. exact IH. Qed.

Lemma prefix_same_but_map : forall (f g : val -> tree) sets z,
  (forall k sk, nth_error sets k = Some sk -> Z.of_nat k <> z -> g sk = f sk) ->
  prefix_same_but tree tree_eqb z (map f sets) (map g sets) = true.
Proof.
  intros f g sets. induction sets as [|x t IH]; intros z H; simpl; auto.
  apply andb_true_iff. split.
  - destruct (Z.eqb_spec z 0) as [->|Hz]; [reflexivity|]. simpl.
    rewrite (H O x eq_refl) by (simpl; lia). apply tree_eqb_refl.
  - apply IH. intros k sk Hk Hz. apply (H (S k) sk Hk). lia.
Qed.

Lemma dnth_map : forall (f : val -> tree) sets si s,
  nth_error sets si = Some s -> dnth tree TCut (map f sets) (Z.of_nat si) = f s.
Proof.
  intros f sets si s H. unfold dnth. rewrite Nat2Z.id.
  revert si H. induction sets as [|x t IH]; intros [|si] H; simpl in *; try discriminate.
  - inversion H; subst. reflexivity.
  - apply IH. exact H.
Qed.

Lemma dnth_map_last : forall (f : val -> tree) sets s,
  dnth tree TCut (map f (sets ++ [s])) (Z.of_nat (length sets)) = f s.
Proof.
  intros f sets s. apply dnth_map. rewrite nth_error_app2 by lia. rewrite Nat.sub_diag. reflexivity.
Qed.

(* ---- C09: the model meets ok_c09 ------------------------------------------------------------------------------------------ *)
Definition seen_ok (seen : list (tree * tree * tree)) : Prop :=
  Forall (fun e => exists k o, fst (fst e) = enc_key k o /\ snd e = enc_out (output_of k o (snd (fst e)))) seen.

Lemma conflicting_false : forall k o dg seen,
  seen_ok seen -> conflicting tree tree_eqb (enc_key k o) dg (enc_out (output_of k o dg)) seen = false.
Proof.
  intros k o dg seen H. induction H as [|[[key d] out] t (k0 & o0 & Hk & Ho) Ht IH]; simpl; auto.
  simpl in Hk, Ho. rewrite IH. rewrite orb_false_r.
  destruct (tree_eqb key (enc_key k o)) eqn:E1; [|reflexivity].
  destruct (tree_eqb d dg) eqn:E2; [|reflexivity]. cbn [andb].
  apply tree_eqb_eq in E1. apply tree_eqb_eq in E2. subst key d.
  symmetry in E1. destruct (enc_key_inj _ _ _ _ E1) as [-> ->]. subst out. rewrite tree_eqb_refl. reflexivity.
Qed.

Lemma step_sets_write : forall c w wid k wo si, w_sets (fst (step c w (OWrite wid k wo si))) = w_sets w.
Proof. intros. unfold step. destruct (nth_error (w_sets w) si); reflexivity. Qed.

Lemma c09_gen : forall c ops w i seen,
  repaired c -> fix15 c = true -> wf_world w -> seen_ok seen ->
  check_hist tree tree_eqb TCut true false i (digests_of w) seen (model_obs c w ops) = [].
Proof.
  intros c ops. induction ops as [|o t IH]; intros w i seen Hc Hf Hw Hseen; [reflexivity|].
  cbn [model_obs check_hist].
  pose proof (step_wf_world c w o Hc Hw) as Hw1.
  destruct o as [tr|rid rk tr|wid k wo si|si e].
  - (* build *) cbn [obs_of io_kind io_digests]. cbn [Z.eqb andb app]. apply IH; auto.
  - (* read *) cbn [obs_of io_kind io_digests]. cbn [Z.eqb Pos.eqb andb app]. apply IH; auto.
  - (* write *)
    cbn [obs_of]. destruct (nth_error (w_sets w) si) as [s|] eqn:Es.
    + cbn [io_kind io_digests io_key io_out io_set]. cbn [Z.eqb Pos.eqb andb].
      set (wi := match lookup wid (w_writers w) with Some x => x | None => winst0 end).
      destruct (step_write_preserves c w wid k wo si Hw) as (_ & S1 & P1).
      assert (Hsame : digests_of (fst (step c w (OWrite wid k wo si))) = digests_of w).
      { unfold digests_of. rewrite S1. apply map_ext_in. intros v Hv. apply P1.
        destruct Hw as [_ Hs]. rewrite Forall_forall in Hs. auto. }
      rewrite Hsame.
      rewrite prefix_same_refl. cbn [negb app].
      assert (Hdg : dnth tree TCut (digests_of w) (Z.of_nat si) = snap FUEL (w_st w) s) by (apply dnth_map; exact Es).
      rewrite Hdg.
      assert (Hb : below (length (w_st w)) s) by (eapply nth_error_Forall; [exact (proj2 Hw)|exact Es]).
      assert (Hres : wr_result (write c k wo wi (w_st w) s) = output_of k wo (snap FUEL (w_st w) s)).
      { apply write_result_is_output_of; auto. exact (proj1 Hw). }
      fold wi. rewrite Hres. rewrite conflicting_false by exact Hseen. cbn [app].
      rewrite <- Hsame. apply IH; auto.
      constructor; [|exact Hseen]. exists k, wo. cbn [fst snd]. split; reflexivity.
    + cbn [io_kind io_digests]. cbn [Z.eqb andb app]. apply IH; auto.
  - (* edit *)
    cbn [obs_of]. destruct (nth_error (w_sets w) si) as [s|] eqn:Es;
      cbn [io_kind io_digests]; cbn [Z.eqb Pos.eqb andb app]; apply IH; auto.
Qed.

(* For every history of reads, builds, edits and writes (shared / fresh objects), after the repairs, the oracle
   ok_c09 - instantiated on the model's own snapshots and outputs - finds nothing: no write changes any set, and equal
   (writer, options, snapshot) give equal results *)
Theorem model_meets_ok_c09 : forall c ops,
  repaired c -> fix15 c = true ->
  check_hist tree tree_eqb TCut true false 0 [] [] (model_obs c world0 ops) = [].
Proof.
  intros c ops Hc Hf. apply (c09_gen c ops world0 0%Z [] Hc Hf wf_world0 (Forall_nil _)).
Qed.

(* ---- C10: the model meets ok_c10 ------------------------------------------------------------------------------------------ *)
Lemma FUEL_4 : FUEL = S (S (S (S 60))).
Proof. reflexivity. Qed.

Lemma pristine_eq : forall c rk ri t st st' ri' s,
  repaired c -> read c rk ri t st = (st', ri', s) -> snap FUEL st' s = pristine_of c rk t.
Proof.
  intros c rk ri t st st' ri' s Hc H. unfold pristine_of.
  destruct (read c rk rinst0 t store0) as [[st0 r0] s0] eqn:E0. rewrite FUEL_4.
  rewrite (read_result_function_of_document c rk ri t st st' ri' s 60 Hc (le_n _) H).
  rewrite (read_result_function_of_document c rk rinst0 t store0 st0 r0 s0 60 Hc (le_n _) E0). reflexivity.
Qed.

Lemma c10_gen : forall c ops w i seen,
  repaired c -> isolated w ->
  check_hist tree tree_eqb TCut false true i (digests_of w) seen (model_obs c w ops) = [].
Proof.
  intros c ops. induction ops as [|o t IH]; intros w i seen Hc Hw; [reflexivity|].
  cbn [model_obs check_hist].
  destruct (step_isolated c w o Hc Hw) as [Hw1 Hkeep].
  destruct o as [tr|rid rk tr|wid k wo si|si e].
  - (* build *)
    cbn [obs_of io_kind io_digests]. cbn [Z.eqb andb].
    assert (Hps : prefix_same tree tree_eqb (digests_of w) (digests_of (fst (step c w (OBuild tr)))) = true).
    { unfold digests_of, step. destruct (build (dflt c) tr (w_st w)) as [st1 s] eqn:Eb. cbn [fst w_st w_sets].
      apply prefix_same_map. intros sk Hs. destruct (In_nth_error _ _ Hs) as [k Hk].
      assert (A := Hkeep k sk Hk). unfold step in A. rewrite Eb in A. cbn [fst w_st w_sets] in A.
      apply (proj2 (A (fun H => H))). }
    rewrite Hps. cbn [negb app]. apply IH; auto.
  - (* read *)
    cbn [obs_of io_kind io_digests io_set io_pristine]. cbn [Z.eqb Pos.eqb andb].
    unfold step in *. set (ri := match lookup rid (w_readers w) with Some r => r | None => rinst0 end) in *.
    destruct (read c rk ri tr (w_st w)) as [[st1 ri1] s] eqn:Er. cbn [fst w_st w_sets] in *.
    unfold digests_of at 2 3. cbn [w_st w_sets].
    assert (Hps : prefix_same tree tree_eqb (digests_of w) (map (snap FUEL st1) (w_sets w ++ [s])) = true).
    { apply prefix_same_map. intros sk Hs. destruct (In_nth_error _ _ Hs) as [k Hk].
      apply (proj2 (Hkeep k sk Hk (fun H => H))). }
    rewrite Hps. rewrite dnth_map_last. rewrite (pristine_eq c rk ri tr (w_st w) st1 ri1 s Hc Er).
    rewrite tree_eqb_refl. cbn [negb app]. apply (IH _ _ _ Hc Hw1).
  - (* write: ok_c10 asks nothing of writes *)
    cbn [obs_of]. destruct (nth_error (w_sets w) si) as [s|] eqn:Es.
    + cbn [io_kind io_digests]. cbn [Z.eqb Pos.eqb andb app]. apply IH; auto.
    + cbn [io_kind io_digests]. cbn [Z.eqb andb].
      assert (Hsame : fst (step c w (OWrite wid k wo si)) = w) by (unfold step; rewrite Es; reflexivity).
      rewrite Hsame.
      rewrite prefix_same_refl. cbn [negb app]. apply IH; auto.
  - (* edit *)
    cbn [obs_of]. destruct (nth_error (w_sets w) si) as [s|] eqn:Es.
    + cbn [io_kind io_digests io_set]. cbn [Z.eqb Pos.eqb andb].
      assert (Hsets : w_sets (fst (step c w (OEdit si e))) = w_sets w) by (unfold step; rewrite Es; reflexivity).
      assert (Hps : prefix_same_but tree tree_eqb (Z.of_nat si) (digests_of w)
                                    (digests_of (fst (step c w (OEdit si e)))) = true).
      { unfold digests_of. rewrite Hsets. apply prefix_same_but_map. intros k sk Hk Hne.
        apply (proj2 (Hkeep k sk Hk ltac:(simpl; lia))). }
      rewrite Hps. cbn [negb app]. apply IH; auto.
    + cbn [io_kind io_digests]. cbn [Z.eqb andb].
      assert (Hsame : fst (step c w (OEdit si e)) = w) by (unfold step; rewrite Es; reflexivity).
      rewrite Hsame.
      rewrite prefix_same_refl. cbn [negb app]. apply IH; auto.
Qed.

(* For every history, after the repairs, ok_c10 on the model's own observations finds nothing: no read / build changes
   an older set, every read equals the same read in the initial world by a fresh reader, no edit changes another set *)
Theorem model_meets_ok_c10 : forall c ops,
  repaired c -> check_hist tree tree_eqb TCut false true 0 [] [] (model_obs c world0 ops) = [].
Proof. intros c ops Hc. apply (c10_gen c ops world0 0%Z [] Hc isolated_world0). Qed.
