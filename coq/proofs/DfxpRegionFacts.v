(* C07: invariants of the RegionCreator model (model/DfxpRegion.v). *)
From Coq Require Import List ZArith Lia Bool.
From PV Require Import model.DfxpRegion.
Import ListNotations.
Open Scope Z_scope.

Lemma create_ids_ge : forall u seed x, In x (map snd (create_regions u seed)) -> seed <= x.
Proof.
  induction u as [|[c b] t IH]; intros seed x H; cbn [create_regions] in H; [destruct H|].
  destruct b; cbn [map snd] in H.
  - destruct H as [<-|H]; [lia|]. apply IH in H. lia.
  - apply IH. exact H.
Qed.
Lemma create_ids_nodup : forall u seed, NoDup (map snd (create_regions u seed)).
Proof.
  induction u as [|[c b] t IH]; intros seed; cbn [create_regions]; [constructor|].
  destruct b; cbn [map snd]; [|apply IH]. constructor; [|apply IH].
  intros H. apply create_ids_ge in H. lia.
Qed.

Lemma created_nodup : forall cs, NoDup (created cs).
Proof.
  intros cs. unfold created. constructor; [|apply create_ids_nodup].
  intros H. apply create_ids_ge in H. unfold default_id in H. lia.
Qed.

Theorem region_ids_unique : forall cs, NoDup (defined cs).
Proof. intros cs. unfold defined. apply NoDup_filter. apply created_nodup. Qed.

Lemma map_get_in : forall c m id, map_get c m = Some id -> In id (map snd m).
Proof.
  induction m as [|[k v] t IH]; intros id H; cbn [map_get] in H; [discriminate|].
  destruct (k =? c); [injection H as <-; left; reflexivity|right; apply IH; exact H].
Qed.

Lemma region_of_created : forall cs l, In (region_of (region_map cs) l) (created cs).
Proof.
  intros cs l. unfold region_of, created. destruct l as [[[c b] b2]|]; [|left; reflexivity].
  destruct (map_get c (region_map cs)) as [id|] eqn:E; [|left; reflexivity].
  apply map_get_in in E. unfold region_map in E. rewrite map_app in E. apply in_app_iff in E.
  destruct E as [E|[E|[]]]; [right; exact E|left; exact E].
Qed.

Lemma all_refs_created : forall cs r, In r (all_refs cs) -> In r (created cs).
Proof.
  intros cs r H. unfold all_refs, refs in H. apply in_flat_map in H. destruct H as [d [Hd Hr]].
  apply in_map_iff in Hd. destruct Hd as [l [<- _]]. cbn [fst snd] in Hr.
  destruct Hr as [<-|Hr]; [apply region_of_created|].
  apply in_flat_map in Hr. destruct Hr as [p [Hp Hr]]. apply in_map_iff in Hp. destruct Hp as [c [<- _]].
  cbn [fst snd] in Hr. destruct Hr as [<-|Hr]; [apply region_of_created|].
  apply in_map_iff in Hr. destruct Hr as [n [<- _]]. apply region_of_created.
Qed.

Lemma existsb_eqb_In : forall r l, existsb (Z.eqb r) l = true <-> In r l.
Proof.
  intros r l. rewrite existsb_exists. split.
  - intros [x [H1 H2]]. apply Z.eqb_eq in H2. subst. exact H1.
  - intros H. exists r. split; [exact H|apply Z.eqb_refl].
Qed.

(* every region= reference resolves to a region that is defined (exactly one, by uniqueness) *)
Theorem regions_resolve : forall cs r, In r (all_refs cs) -> In r (defined cs).
Proof.
  intros cs r H. unfold defined. apply filter_In. split; [apply all_refs_created; exact H|].
  apply existsb_eqb_In. exact H.
Qed.

(* every region left after cleanup_regions is referenced *)
Theorem no_unreferenced_region : forall cs r, In r (defined cs) -> In r (all_refs cs).
Proof. intros cs r H. unfold defined in H. apply filter_In in H. destruct H as [_ H]. apply existsb_eqb_In. exact H. Qed.

Theorem defined_iff_referenced : forall cs r, In r (defined cs) <-> In r (all_refs cs).
Proof. intros. split; [apply no_unreferenced_region|apply regions_resolve]. Qed.
