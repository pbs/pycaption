(* C08, string level, SRT: the writer model's output document, read back by the model of SRTReader, gives
   every cue with both times floored to the millisecond and its text lines unchanged - although the document's last cue
   has no blank line after it. *)
From Coq Require Import List ZArith QArith Qround Lia Bool ZifyBool.
From PV Require Import lib.Sx lib.Str lib.Result lib.Dec.
From PV Require Import model.TimeRead spec.SpecTime proofs.TimeStrFacts proofs.TimeReadFacts proofs.TimeDocFacts.
From PV Require Import model.TimeWrite spec.SpecTimeW proofs.TimeWriteFacts.
From PV Require Import model.Chain spec.SpecChain proofs.ChainFacts proofs.ChainDocFacts.
Import ListNotations.
Open Scope Z_scope.
#[local] Ltac Zify.zify_post_hook ::= Z.to_euclidean_division_equations.

Definition srt_lines_ok (ls : list str) : bool := match ls with [] => false | _ => forallb text_line_ok ls end.
Definition srt_text_dom (cs : list (Z * Z * list str)) : bool := forallb (fun c => srt_lines_ok (snd c)) cs.

Definition srt_cue_of (k : Z) (c : Z * Z * list str) : srt_cue :=
  let '(s, e, lines) := c in mkSrtCue k (srt_stamp_of s) (srt_stamp_of e) lines 0.
Fixpoint srt_cues_from (k : Z) (cs : list (Z * Z * list str)) : list srt_cue :=
  match cs with [] => [] | c :: t => srt_cue_of k c :: srt_cues_from (k + 1) t end.

Lemma join_nl : forall ls, ls <> [] -> join [10] ls ++ [10] = flat_map (fun l => l ++ [10]) ls.
Proof.
  induction ls as [|a t IH]; intros H; [congruence|]. destruct t as [|b t'].
  - cbn [join flat_map app]. rewrite app_nil_r. reflexivity.
  - remember (b :: t') as r eqn:Er.
    assert (J : join [10] (a :: r) = a ++ [10] ++ join [10] r) by (rewrite Er; reflexivity).
    rewrite J. cbn [flat_map]. rewrite <- IH by (rewrite Er; discriminate). rewrite <- !app_assoc. reflexivity.
Qed.

Lemma srt_block_render : forall k s e ls, 0 <= k -> 0 <= s < 86400000000 -> 0 <= e < 86400000000 -> ls <> [] ->
  srt_write_block k (s, e, ls) = srt_render_cue false (srt_cue_of k (s, e, ls)).
Proof.
  intros k s e ls Hk Hs He Hl. unfold srt_write_block, srt_render_cue, srt_cue_of.
  cbn [sc_idx sc_t0 sc_t1 sc_lines sc_gap nl repeat concat].
  rewrite (proj1 (srt_ts_stamp s Hs)), (proj1 (srt_ts_stamp e He)), (dec_z_nonneg k Hk).
  generalize (srt_render_stamp (srt_stamp_of s)) (srt_render_stamp (srt_stamp_of e)) (dec_nonneg k). intros a b d.
  unfold render_lines, arrow. cbn [nl]. rewrite <- (join_nl ls Hl), <- !app_assoc. reflexivity.
Qed.

Lemma srt_cue_of_dom : forall k s e ls, 0 <= k -> 0 <= s < 86400000000 -> 0 <= e < 86400000000 -> srt_lines_ok ls = true ->
  srt_cue_dom (srt_cue_of k (s, e, ls)) = true.
Proof.
  intros k s e ls Hk Hs He Hl. unfold srt_cue_dom, srt_cue_of. cbn [sc_idx sc_t0 sc_t1 sc_lines].
  destruct (srt_ts_stamp s Hs) as [_ [-> _]]. destruct (srt_ts_stamp e He) as [_ [-> _]].
  unfold srt_lines_ok in Hl. destruct ls as [|l0 lr]; [discriminate|]. rewrite Hl.
  replace (0 <=? k) with true by lia. reflexivity.
Qed.

Lemma srt_blocks_render : forall cs k lo, 0 <= k -> 0 <= lo -> dom_u 1000 lo (times_of_caps cs) -> srt_text_dom cs = true ->
  srt_write_blocks k cs = srt_render false (srt_cues_from k cs)
  /\ forallb srt_cue_dom (srt_cues_from k cs) = true
  /\ srt_expected_caps (srt_cues_from k cs)
     = map (fun c => (fl 1000 (fst (fst c)), fl 1000 (snd (fst c)), snd c)) cs.
Proof.
  induction cs as [|[[s e] ls] t IH]; intros k lo Hk Hlo D T; [repeat split|].
  cbn [times_of_caps map fst snd dom_u] in D. destruct D as [D1 [D2 [D3 [D4 D5]]]].
  cbn [srt_text_dom forallb snd] in T. apply andb_true_iff in T. destruct T as [Tc Tr].
  assert (Hs : 0 <= s < 86400000000) by lia. assert (He : 0 <= e < 86400000000) by lia.
  assert (Hl : ls <> []) by (unfold srt_lines_ok in Tc; destruct ls; [discriminate|discriminate]).
  destruct (IH (k + 1) e ltac:(lia) ltac:(lia) D5 Tr) as [I1 [I2 I3]].
  cbn [srt_write_blocks srt_cues_from]. split; [|split].
  - rewrite (srt_block_render k s e ls Hk Hs He Hl), I1. reflexivity.
  - cbn [forallb]. rewrite I2, (srt_cue_of_dom k s e ls Hk Hs He Tc). reflexivity.
  - cbn [srt_expected_caps flat_map map fst snd]. fold (srt_expected_caps (srt_cues_from (k + 1) t)). rewrite I3.
    cbn [srt_cue_of sc_lines sc_t0 sc_t1].
    destruct (srt_ts_stamp s Hs) as [_ [_ ->]]. destruct (srt_ts_stamp e He) as [_ [_ ->]].
    destruct ls as [|l0 lr]; [congruence|]. reflexivity.
Qed.

Lemma srt_blocks_app : forall a b k,
  srt_write_blocks k (a ++ b) = srt_write_blocks k a ++ srt_write_blocks (k + Z.of_nat (length a)) b.
Proof.
  induction a as [|c t IH]; intros b k; [cbn [app srt_write_blocks length Z.of_nat]; f_equal; lia|].
  cbn [app srt_write_blocks length]. rewrite IH, <- app_assoc. do 3 f_equal. lia.
Qed.

Lemma srt_cues_from_app : forall a b k,
  srt_cues_from k (a ++ b) = srt_cues_from k a ++ srt_cues_from (k + Z.of_nat (length a)) b.
Proof.
  induction a as [|c t IH]; intros b k; [cbn [app srt_cues_from length Z.of_nat]; f_equal; lia|].
  cbn [app srt_cues_from length]. rewrite IH. do 3 f_equal. lia.
Qed.

Theorem srt_roundtrip_string : forall cs,
  dom_u 1000 0 (times_of_caps cs) -> srt_text_dom cs = true ->
  srt_read (srt_write_doc cs)
  = read_result (map (fun c => (fl 1000 (fst (fst c)), fl 1000 (snd (fst c)), snd c)) cs).
Proof.
  intros cs D T. induction cs as [|c init _] using rev_ind; [reflexivity|].
  destruct (srt_blocks_render (init ++ [c]) 1 0 ltac:(lia) ltac:(lia) D T) as [W1 [W2 W3]].
  rewrite <- W3. clear W3. unfold srt_write_doc. rewrite W1, srt_render_lines. rewrite srt_cues_from_app in *.
  cbn [srt_cues_from] in *. set (cc := srt_cue_of (1 + Z.of_nat (length init)) c) in *. set (ci := srt_cues_from 1 init) in *.
  (* the lines of the document: those of the rendered cues without the blank line that closes the last *)
  set (tl := dec_nonneg (sc_idx cc) :: srt_timing cc :: sc_lines cc).
  assert (LL : flat_map srt_cue_lines (ci ++ [cc]) = (flat_map srt_cue_lines ci ++ tl) ++ [([] : str)]).
  { rewrite flat_map_app. cbn [flat_map]. rewrite app_nil_r, <- app_assoc. f_equal.
    unfold cc, srt_cue_of. destruct c as [[? ?] ?]. reflexivity. }
  pose proof (forallb_flat_map _ _ _ _ srt_cue_lines_no_lb W2) as NL.
  rewrite LL, forallb_app in NL. apply andb_true_iff in NL. destruct NL as [NL _].
  rewrite LL, flat_map_app. change (flat_map _ [[]]) with [10]. rewrite removelast_last.
  unfold srt_read. replace (split_lines _) with (flat_map srt_cue_lines ci ++ tl) by (symmetry; exact (splitlines_lines false _ NL)).
  rewrite forallb_app in W2. apply andb_true_iff in W2. destruct W2 as [Wi Wc].
  cbn [forallb] in Wc. rewrite andb_true_r in Wc. destruct (srt_cue_dom_parts cc Wc) as (Hi & _ & _ & _ & Hne).
  rewrite (srt_loop_cues_tail ci tl _ [] [(us (srt_instant (sc_t0 cc)), us (srt_instant (sc_t1 cc)), sc_lines cc)]).
  - cbn [app]. unfold srt_expected_caps at 2. rewrite flat_map_app. cbn [flat_map]. rewrite app_nil_r.
    fold (srt_expected_caps ci). destruct (sc_lines cc) as [|l0 lr] eqn:EL; [congruence|].
    unfold read_result, no_captions_if_empty. destruct (srt_expected_caps ci); reflexivity.
  - rewrite app_length. cbn [length].
    assert (G : forall l, (length l <= length (flat_map srt_cue_lines l))%nat).
    { induction l as [|x t IH]; [reflexivity|]. cbn [flat_map length]. rewrite app_length.
      unfold srt_cue_lines at 1. cbn [length]. lia. }
    specialize (G ci). lia.
  - exact Wi.
  - apply digits_not_blank; [apply dec_nonneg_nonempty|apply dec_nonneg_digits]. exact Hi.
  - intros f acc' Hf. apply srt_loop_last_cue; assumption.
Qed.


Definition line_fmt (f : fmt) : bool := match f with FSrt | FMdvd => true | _ => false end.
Definition floor_caps (u : Z) (cs : list (Z * Z * list str)) : list (Z * Z * list str) :=
  map (fun c => (fl u (fst (fst c)), fl u (snd (fst c)), snd c)) cs.

Lemma dom_u_1000 : forall cs lo, 0 <= lo -> dom_u 40000 lo cs -> dom_u 1000 0 cs.
Proof. intros cs lo Hlo D. exact (dom_u_mono 40000 1000 lo 0 cs ltac:(lia) Hlo D). Qed.

Lemma floor_caps_times : forall u cs, times_of_caps (floor_caps u cs) = map (pi_pt u) (times_of_caps cs).
Proof. intros u cs. unfold times_of_caps, floor_caps. rewrite !map_map. reflexivity. Qed.
Definition hop_keeps (f : fmt) (cs : list (Z * Z * list str)) : Prop :=
  exists o, hop_doc f cs = Ok o /\ times_of_caps o = pi f (times_of_caps cs) /\ map snd o = map snd cs.

Lemma floor_hop_keeps : forall f cs, is_sami f = false -> cs <> [] ->
  hop_doc f cs = read_result (floor_caps (unit_of f) cs) -> hop_keeps f cs.
Proof.
  intros f cs Hf Hne H. exists (floor_caps (unit_of f) cs). split; [|split].
  - rewrite H. destruct cs; [congruence|reflexivity].
  - rewrite floor_caps_times. destruct f; try discriminate Hf; reflexivity.
  - unfold floor_caps. rewrite map_map. reflexivity.
Qed.

Lemma srt_hop_keeps : forall cs lo, cs <> [] -> 0 <= lo -> dom_u 40000 lo (times_of_caps cs) -> srt_text_dom cs = true ->
  hop_keeps FSrt cs.
Proof.
  intros cs lo Hne Hlo D T. apply floor_hop_keeps; [reflexivity|exact Hne|].
  exact (srt_roundtrip_string cs (dom_u_1000 _ lo Hlo D) T).
Qed.

Lemma mdvd_hop_keeps : forall cs lo, cs <> [] -> 0 <= lo -> dom_u 40000 lo (times_of_caps cs) -> text_dom cs = true ->
  hop_keeps FMdvd cs.
Proof.
  intros cs lo Hne Hlo D T. apply floor_hop_keeps; [reflexivity|exact Hne|].
  exact (mdvd_roundtrip_string cs (dom_u_mono 40000 40000 lo 0 _ (Z.le_refl _) Hlo D) T).
Qed.

(* the time domain is carried along by hop_exact, the text domain T by the unchanged lines *)
Lemma run_doc_hops : forall (ok : fmt -> bool) (T : list (Z * Z * list str) -> Prop),
  (forall a b, map snd a = map snd b -> T b -> T a) ->
  (forall f cs lo, ok f = true -> cs <> [] -> 0 <= lo -> dom_u 40000 lo (times_of_caps cs) -> T cs -> hop_keeps f cs) ->
  forall chain cs lo, forallb ok chain = true -> cs <> [] -> 0 <= lo -> dom_u 40000 lo (times_of_caps cs) -> T cs ->
  exists out, run_doc chain cs = Ok out /\ times_of_caps out = run chain (times_of_caps cs) /\ map snd out = map snd cs.
Proof.
  intros ok T Tsnd Hop. induction chain as [|f t IH]; intros cs lo Hc Hne Hlo D HT.
  - exists cs. repeat split.
  - cbn [forallb] in Hc. apply andb_true_iff in Hc. destruct Hc as [Hf Ht].
    destruct (Hop f cs lo Hf Hne Hlo D HT) as (o1 & H1 & H2 & H3).
    assert (Uf : unit_of f <= 40000) by (destruct f; discriminate).
    destruct (hop_exact f 40000 lo (times_of_caps cs) (or_intror eq_refl) Uf Hlo D) as [_ D'].
    rewrite <- H2 in D'.
    destruct (IH o1 (fl (unit_of f) lo) Ht) as (out & R1 & R2 & R3).
    + intros E. subst o1. destruct cs; [congruence|discriminate H3].
    + apply fl_nonneg; [apply is_unit_pos, unit_of_is_unit|exact Hlo].
    + exact D'.
    + exact (Tsnd _ _ H3 HT).
    + exists out. cbn [run_doc]. rewrite H1. split; [exact R1|]. split; [rewrite R2, H2; reflexivity|rewrite R3; exact H3].
Qed.

Theorem run_doc_text : forall chain cs lo, forallb line_fmt chain = true -> cs <> [] -> 0 <= lo ->
  dom_u 40000 lo (times_of_caps cs) -> text_dom cs = true -> srt_text_dom cs = true ->
  exists out, run_doc chain cs = Ok out /\ times_of_caps out = run chain (times_of_caps cs) /\ map snd out = map snd cs.
Proof.
  intros chain cs lo Hc Hne Hlo D T1 T2.
  apply (run_doc_hops line_fmt (fun c => text_dom c = true /\ srt_text_dom c = true)) with (lo := lo); auto.
  - intros a b E. unfold text_dom, srt_text_dom. rewrite !forallb_map_snd, E. auto.
  - intros f c l Hf N L Dc [A B]. destruct f; try discriminate Hf; [eapply srt_hop_keeps|eapply mdvd_hop_keeps]; eassumption.
Qed.
