(* C06 / C16: invariants of the timing-correcting caption list (model/SccStash.v), by induction over the
   operations extend / correct_last_timing, and the facts about fix_last / the flash scan / five-frame joining. *)
From Coq Require Import List ZArith QArith Lia Bool ZifyBool Lqa.
From PV Require Import lib.Sx lib.Str lib.Result model.SccLen model.SccStash.
Import ListNotations.
Local Open Scope Q_scope.

Lemma map_tail_length : forall A n (f : A -> A) l, length (map_tail n f l) = length l.
Proof.
  intros A n f l. unfold map_tail. rewrite app_length, map_length, firstn_length, skipn_length. lia.
Qed.

Lemma map_map_tail : forall A B (f : A -> B) (g : A -> A) n l,
  (forall x, f (g x) = f x) -> map f (map_tail n g l) = map f l.
Proof.
  intros A B f g n l H. unfold map_tail. rewrite map_app, map_map.
  rewrite (map_ext (fun x => f (g x)) f H). rewrite <- map_app, firstn_skipn. reflexivity.
Qed.

Lemma Forall_map_tail : forall A (P : A -> Prop) (f : A -> A) n l,
  (forall x, P x -> P (f x)) -> Forall P l -> Forall P (map_tail n f l).
Proof.
  intros A P f n l Hf H. unfold map_tail.
  rewrite <- (firstn_skipn (length l - n) l) in H at 1. apply Forall_app in H. destruct H as [H1 H2].
  apply Forall_app. split; [exact H1|].
  rewrite Forall_forall in *. intros x Hx. apply in_map_iff in Hx. destruct Hx as [y [<- Hy]].
  apply Hf. apply H2. exact Hy.
Qed.

Lemma map_tail_map : forall A B (f : A -> B) (g : A -> A) (g' : B -> B) n l,
  (forall x, f (g x) = g' (f x)) -> map f (map_tail n g l) = map_tail n g' (map f l).
Proof.
  intros A B f g g' n l H. unfold map_tail. rewrite map_app, map_length.
  rewrite firstn_map, skipn_map, !map_map. f_equal. apply map_ext. exact H.
Qed.

Lemma last_some_map : forall A B (f : A -> B) l,
  last (map Some (map f l)) None = option_map f (last (map Some l) None).
Proof.
  intros A B f l. induction l as [|a l IH]; [reflexivity|].
  destruct l as [|b l]; [reflexivity|]. exact IH.
Qed.

Lemma skipn_snoc : forall A (l : list A) x, skipn (length (l ++ [x]) - 1) (l ++ [x]) = [x].
Proof.
  intros A l x. replace (length (l ++ [x]) - 1)%nat with (length l) by (rewrite app_length; simpl; lia).
  rewrite skipn_app, skipn_all, Nat.sub_diag. reflexivity.
Qed.

Lemma map_tail_1_snoc : forall A (f : A -> A) l x, map_tail 1 f (l ++ [x]) = l ++ [f x].
Proof.
  intros A f l x. unfold map_tail. rewrite skipn_snoc.
  replace (length (l ++ [x]) - 1)%nat with (length l) by (rewrite app_length; simpl; lia).
  rewrite firstn_app, firstn_all, Nat.sub_diag. simpl. rewrite app_nil_r. reflexivity.
Qed.

(* ---- extend / correct_last_timing never drop, reorder or retime the start or the nodes ----- *)
Lemma update_last_batch_map : forall B (f : precap -> B) s new,
  (forall e c, f (set_end e c) = f c) -> map f (update_last_batch s new) = map f (st_caps s).
Proof.
  intros B f s new H. unfold update_last_batch. destruct new as [|n0 new']; [reflexivity|].
  destruct (last _ _) as [b|]; [|reflexivity].
  destruct (_ || _); [|reflexivity].
  apply map_map_tail. intros x. apply H.
Qed.

Lemma stash_extend_map : forall B (f : precap -> B) s items,
  (forall e c, f (set_end e c) = f c) ->
  map f (st_caps (stash_extend s items)) = map f (st_caps s) ++ map f (filter has_nodes items).
Proof.
  intros B f s items H. unfold stash_extend. cbn [st_caps]. rewrite map_app, update_last_batch_map by exact H.
  reflexivity.
Qed.

Lemma correct_last_timing_map : forall B (f : precap -> B) s t,
  (forall e c, f (set_end e c) = f c) -> map f (st_caps (correct_last_timing s t)) = map f (st_caps s).
Proof.
  intros B f s t H. unfold correct_last_timing. cbn [st_caps]. apply map_map_tail. intros x. apply H.
Qed.

Lemma stash_extend_starts : forall s items,
  map pc_start (st_caps (stash_extend s items)) = map pc_start (st_caps s) ++ map pc_start (filter has_nodes items).
Proof. intros s items. apply stash_extend_map. reflexivity. Qed.

Lemma stash_extend_nodes : forall s items,
  map pc_nodes (st_caps (stash_extend s items)) = map pc_nodes (st_caps s) ++ map pc_nodes (filter has_nodes items).
Proof. intros s items. apply stash_extend_map. reflexivity. Qed.

Lemma correct_last_timing_starts : forall s t,
  map pc_start (st_caps (correct_last_timing s t)) = map pc_start (st_caps s).
Proof. intros s t. apply correct_last_timing_map. reflexivity. Qed.

Lemma correct_last_timing_nodes : forall s t,
  map pc_nodes (st_caps (correct_last_timing s t)) = map pc_nodes (st_caps s).
Proof. intros s t. apply correct_last_timing_map. reflexivity. Qed.

(* ---- the batch is always a tail of the list ----------------------------------------------- *)
Definition batch_ok (s : stash) : Prop := (st_batch s <= length (st_caps s))%nat.

Lemma stash_extend_batch_ok : forall s items, batch_ok (stash_extend s items).
Proof. intros s items. unfold batch_ok, stash_extend. cbn [st_caps st_batch]. rewrite app_length. lia. Qed.

Lemma correct_last_timing_batch_ok : forall s t, batch_ok s -> batch_ok (correct_last_timing s t).
Proof.
  intros s t H. unfold batch_ok, correct_last_timing in *. cbn [st_caps st_batch]. rewrite map_tail_length. exact H.
Qed.

Inductive sop : Type := OExtend (items : list precap) | OCorrect (t : Q).
Definition sapply (s : stash) (o : sop) : stash :=
  match o with OExtend i => stash_extend s i | OCorrect t => correct_last_timing s t end.
Definition srun (ops : list sop) : stash := fold_left sapply ops stash0.

(* captions come out in the order in which they were stored, with the starts they were stored with *)
Fixpoint stored (ops : list sop) : list precap :=
  match ops with
  | [] => []
  | OExtend i :: r => filter has_nodes i ++ stored r
  | OCorrect _ :: r => stored r
  end.

Lemma sfold_map : forall B (f : precap -> B), (forall e c, f (set_end e c) = f c) ->
  forall ops s, map f (st_caps (fold_left sapply ops s)) = map f (st_caps s) ++ map f (stored ops).
Proof.
  intros B f H. induction ops as [|o ops IH]; intros s.
  - simpl. rewrite app_nil_r. reflexivity.
  - cbn [fold_left]. rewrite IH. destruct o as [items|t]; cbn [sapply stored].
    + rewrite stash_extend_map by exact H. rewrite map_app, app_assoc. reflexivity.
    + rewrite correct_last_timing_map by exact H. reflexivity.
Qed.

Theorem srun_order : forall ops,
  map pc_start (st_caps (srun ops)) = map pc_start (stored ops) /\
  map pc_nodes (st_caps (srun ops)) = map pc_nodes (stored ops).
Proof.
  intros ops. unfold srun. split.
  - rewrite (sfold_map Q pc_start) by reflexivity. reflexivity.
  - rewrite (sfold_map _ pc_nodes) by reflexivity. reflexivity.
Qed.

Lemma sfold_batch_ok : forall ops s, batch_ok s -> batch_ok (fold_left sapply ops s).
Proof.
  induction ops as [|o ops IH]; intros s H; [exact H|].
  cbn [fold_left]. apply IH. destruct o as [items|t]; cbn [sapply].
  - apply stash_extend_batch_ok.
  - apply correct_last_timing_batch_ok. exact H.
Qed.

Theorem srun_batch_ok : forall ops, batch_ok (srun ops).
Proof. intros ops. apply sfold_batch_ok. unfold batch_ok. simpl. lia. Qed.

Definition end_ok (c : precap) : Prop := (pc_end c == 0 \/ pc_start c <= pc_end c)%Q.

(* An operation history is "timed" relative to a running upper bound `hi` of all starts stored so far:
   - OExtend items: every stored caption c (the members of items that have nodes) has hi <= pc_start c and end_ok c on
     entry, all of them share one start (create_and_store gives every caption of one screen the same times), and the
     bound becomes that start (it stays hi when nothing is stored);
   - OCorrect t: hi <= t (the correction instant is not before any start stored so far).
   `timed ops` asks for this from some initial bound (the list is empty at the beginning, so any bound that is below
   the first stored start and the first correction instants will do).  It is a predicate on the operation list only. *)
Fixpoint timed_from (hi : Q) (ops : list sop) : Prop :=
  match ops with
  | [] => True
  | OExtend items :: r =>
      let new := filter has_nodes items in
      Forall (fun c => hi <= pc_start c /\ end_ok c) new /\
      (forall c d, In c new -> In d new -> pc_start c == pc_start d) /\
      timed_from (match new with [] => hi | c :: _ => pc_start c end) r
  | OCorrect t :: r => hi <= t /\ timed_from hi r
  end.
Definition timed (ops : list sop) : Prop := exists hi, timed_from hi ops.

(* the invariant carried along the history *)
Definition cap_inv (hi : Q) (c : precap) : Prop := end_ok c /\ pc_start c <= hi.

Lemma cap_inv_set_end : forall hi e c, hi <= e -> cap_inv hi c -> cap_inv hi (set_end e c).
Proof.
  intros hi e c He [_ Hs]. split; [|exact Hs]. right. cbn [set_end pc_start pc_end].
  eapply Qle_trans; eassumption.
Qed.

Lemma cap_inv_mono : forall hi hi' c, hi <= hi' -> cap_inv hi c -> cap_inv hi' c.
Proof. intros hi hi' c H [He Hs]. split; [exact He|]. eapply Qle_trans; eassumption. Qed.

Lemma update_last_batch_inv : forall hi s n0 new,
  hi <= pc_start n0 -> Forall (cap_inv hi) (st_caps s) -> Forall (cap_inv hi) (update_last_batch s (n0 :: new)).
Proof.
  intros hi s n0 new Hn H. unfold update_last_batch.
  destruct (last _ _) as [b|]; [|exact H].
  destruct (_ || _); [|exact H].
  apply Forall_map_tail; [|exact H]. intros x Hx. apply cap_inv_set_end; assumption.
Qed.

Lemma sfold_start_le_end : forall ops hi s,
  timed_from hi ops -> Forall (cap_inv hi) (st_caps s) ->
  exists hi', Forall (cap_inv hi') (st_caps (fold_left sapply ops s)).
Proof.
  induction ops as [|o ops IH]; intros hi s Ht Hs.
  - exists hi. exact Hs.
  - cbn [fold_left]. destruct o as [items|t]; cbn [timed_from sapply] in *.
    + destruct Ht as [Hnew [Hsame Hrest]]. unfold stash_extend.
      destruct (filter has_nodes items) as [|n0 new] eqn:E.
      * apply (IH hi); [exact Hrest|]. cbn [st_caps update_last_batch]. rewrite app_nil_r. exact Hs.
      * apply (IH (pc_start n0)); [exact Hrest|]. cbn [st_caps].
        assert (Hn0 : hi <= pc_start n0).
        { rewrite Forall_forall in Hnew. apply (Hnew n0). left. reflexivity. }
        apply Forall_app. split.
        -- eapply Forall_impl; [|apply update_last_batch_inv; eassumption].
           intros c Hc. eapply cap_inv_mono; eassumption.
        -- rewrite Forall_forall in *. intros c Hc. split; [apply (Hnew c Hc)|].
           assert (Heq : pc_start c == pc_start n0) by (apply Hsame; [exact Hc|left; reflexivity]).
           rewrite Heq. apply Qle_refl.
    + destruct Ht as [Hle Hrest]. apply (IH hi); [exact Hrest|].
      unfold correct_last_timing. cbn [st_caps]. apply Forall_map_tail; [|exact Hs].
      intros x Hx. apply cap_inv_set_end; assumption.
Qed.

Theorem srun_start_le_end : forall ops, timed ops -> Forall end_ok (st_caps (srun ops)).
Proof.
  intros ops [hi Ht]. unfold srun.
  destruct (sfold_start_le_end ops hi stash0 Ht) as [hi' H]; [constructor|].
  eapply Forall_impl; [|exact H]. intros c [Hc _]. exact Hc.
Qed.

Definition four (c : precap) : precap := set_end (pc_start c + inject_Z 4000000) c.

Lemma fix_last_rev_map : forall B (f : precap -> B), (forall e c, f (set_end e c) = f c) ->
  forall l, map f (fix_last_rev l) = map f l.
Proof.
  intros B f H. induction l as [|c t IH]; [reflexivity|].
  cbn [fix_last_rev]. destruct (Qeq_bool (pc_end c) 0); [|reflexivity].
  cbn [map]. rewrite H, IH. reflexivity.
Qed.

Lemma fix_last_map : forall B (f : precap -> B), (forall e c, f (set_end e c) = f c) ->
  forall l, map f (fix_last l) = map f l.
Proof.
  intros B f H l. unfold fix_last. rewrite map_rev, fix_last_rev_map by exact H.
  rewrite <- map_rev, rev_involutive. reflexivity.
Qed.

Lemma fix_last_length : forall l, length (fix_last l) = length l.
Proof.
  intros l. rewrite <- (map_length pc_start (fix_last l)), (fix_last_map _ pc_start) by reflexivity.
  apply map_length.
Qed.

Lemma fix_last_starts : forall l, map pc_start (fix_last l) = map pc_start l.
Proof. apply fix_last_map. reflexivity. Qed.

Lemma fix_last_nodes : forall l, map pc_nodes (fix_last l) = map pc_nodes l.
Proof. apply fix_last_map. reflexivity. Qed.

Lemma fix_last_rev_app : forall a b,
  (forall c, In c a -> Qeq_bool (pc_end c) 0 = true) ->
  (b = [] \/ exists c t, b = c :: t /\ Qeq_bool (pc_end c) 0 = false) ->
  fix_last_rev (a ++ b) = map four a ++ b.
Proof.
  induction a as [|x a IH]; intros b Ha Hb.
  - cbn [app map]. destruct Hb as [->|[c [t [-> Hc]]]]; [reflexivity|].
    cbn [fix_last_rev]. rewrite Hc. reflexivity.
  - cbn [app map fix_last_rev]. rewrite (Ha x) by (left; reflexivity).
    rewrite IH; [reflexivity| |exact Hb]. intros c Hc. apply Ha. right. exact Hc.
Qed.

Lemma fix_last_spec_all : forall l1 l2, (forall c, In c l2 -> Qeq_bool (pc_end c) 0 = true) ->
   (forall c, In c l1 -> Qeq_bool (pc_end c) 0 = false) ->
   fix_last (l1 ++ l2) = l1 ++ map (fun c => set_end (pc_start c + inject_Z 4000000) c) l2.
Proof.
  intros l1 l2 H2 H1. unfold fix_last. rewrite rev_app_distr, fix_last_rev_app.
  - rewrite rev_app_distr, rev_involutive, <- map_rev, rev_involutive. reflexivity.
  - intros c Hc. apply H2, in_rev, Hc.
  - destruct (rev l1) as [|c r] eqn:E; [left; reflexivity|right]. exists c, r. split; [reflexivity|].
    apply H1, in_rev. rewrite E. left. reflexivity.
Qed.

Lemma fix_last_ended : forall l, (forall c, In c l -> Qeq_bool (pc_end c) 0 = false) -> fix_last l = l.
Proof.
  intros l H. rewrite <- (app_nil_r l) at 1. rewrite fix_last_spec_all; [apply app_nil_r| |exact H].
  intros c [].
Qed.

Theorem last_four_seconds : forall l c, Qeq_bool (pc_end c) 0 = true ->
   exists l', fix_last (l ++ [c]) = l' ++ [set_end (pc_start c + inject_Z 4000000) c] /\ length l' = length l.
Proof.
  intros l c H. exists (fix_last l). split; [|apply fix_last_length].
  unfold fix_last. rewrite rev_app_distr. cbn [rev app fix_last_rev]. rewrite H. reflexivity.
Qed.

Lemma four_s_not_short : forall s : Q, Qle_bool (inject_Z 50000) (s + inject_Z 4000000 - s) = true.
Proof.
  intros s. apply Qle_bool_iff. change (inject_Z 50000) with (50000 # 1). change (inject_Z 4000000) with (4000000 # 1). lra.
Qed.

Lemma four_not_flash : forall c, is_flash (four c) = false.
Proof.
  intros c. unfold is_flash, four. cbn [set_end pc_start pc_end]. rewrite four_s_not_short. apply andb_false_r.
Qed.

Lemma fix_last_rev_no_flash : forall l, (forall c, In c l -> is_flash c = false) ->
  forall c, In c (fix_last_rev l) -> is_flash c = false.
Proof.
  induction l as [|x t IH]; intros H c Hc; [destruct Hc|].
  cbn [fix_last_rev] in Hc. destruct (Qeq_bool (pc_end x) 0).
  - destruct Hc as [<-|Hc]; [apply four_not_flash|].
    apply IH; [|exact Hc]. intros d Hd. apply H. right. exact Hd.
  - apply H. exact Hc.
Qed.

Lemma fix_last_no_flash : forall l, existsb is_flash l = false -> forall c, In c (fix_last l) -> is_flash c = false.
Proof.
  intros l H c Hc. unfold fix_last in Hc. apply in_rev in Hc.
  apply (fix_last_rev_no_flash (rev l)); [|exact Hc].
  intros d Hd. apply in_rev in Hd.
  destruct (is_flash d) eqn:E; [|reflexivity].
  assert (existsb is_flash l = true) by (apply existsb_exists; exists d; split; assumption). congruence.
Qed.

Theorem flash_rejected : forall s caps, finish_read s = ROk caps ->
   caps = fix_last (st_caps s) /\ forall c, In c caps -> is_flash c = false.
Proof.
  intros s caps H. unfold finish_read in H.
  destruct (length_check _); [discriminate|].
  destruct (existsb is_flash (st_caps s)) eqn:E; [discriminate|].
  destruct (st_caps s) as [|c0 t] eqn:Ec; [discriminate|].
  inversion H. subst caps. split; [reflexivity|]. apply fix_last_no_flash. exact E.
Qed.

Theorem five_frame_join : forall s c b, has_nodes c = true -> batch_ok s ->
  last (map Some (skipn (length (st_caps s) - st_batch s) (st_caps s))) None = Some b ->
  st_caps (stash_extend s [c]) =
    (if Qeq_bool (pc_end b) 0 || negb (Qle_bool join_threshold (pc_start c - pc_end b))
     then map_tail (st_batch s) (set_end (pc_start c)) (st_caps s) else st_caps s) ++ [c]
  /\ st_batch (stash_extend s [c]) = 1%nat.
Proof.
  intros s c b Hc _ Hb. unfold stash_extend. cbn [filter]. rewrite Hc. cbn [st_caps st_batch length].
  split; [|reflexivity]. unfold update_last_batch. rewrite Hb. reflexivity.
Qed.
