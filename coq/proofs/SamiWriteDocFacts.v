(* C02: the document the string-level SAMI writer model prints (model/SamiWriteDoc.v) is a well-formed rendering
   whose syncs are the sync rule's; read by the string-level reader model (C01_sami_string_exact) it yields the captions
   with starts and non-final ends floored to the millisecond, the last cue four seconds (C02 o C01 on whole documents). *)
From Coq Require Import List ZArith QArith Lia Bool ZifyBool Arith.
From PV Require Import lib.Sx lib.Str lib.Result lib.Dec.
From PV Require Import model.Base model.TimeRead model.TimeWrite model.TimeTree model.XmlRead model.SamiText model.Chain model.SamiWriteDoc.
From PV Require Import spec.SpecTime spec.SpecTimeTree spec.SpecXmlDocT spec.SpecSamiText spec.SpecChain.
From PV Require Import proofs.TimeReadFacts proofs.TimeWriteFacts proofs.TimeTreeFacts proofs.ChainFacts proofs.ChainDocFacts.
From PV Require Import proofs.XmlReadFacts proofs.SamiTextFacts proofs.DfxpWriteDocFacts.
Import ListNotations.
Open Scope Z_scope.

Definition sstyles (lang : str) : list (str * str) := [(lower lang, lang)].

Lemma schar_ok_slits : forall s, forallb schar_ok (slits s) = true.
Proof. intros s. unfold slits. induction s as [|c s IH]; [reflexivity|]. cbn [map forallb schar_ok]. exact IH. Qed.

Lemma srun_val_slits : forall s, srun_val (slits s) = s.
Proof. intros s. unfold srun_val, slits. rewrite map_map. cbn [schar_val]. apply map_id. Qed.

Lemma swcontent_cons2 : forall l l2 t,
  swcontent (l :: l2 :: t) = ((slits (snl 4%nat ++ l), mkBr (lit "br") [] true) :: fst (swcontent (l2 :: t)), snd (swcontent (l2 :: t))).
Proof. reflexivity. Qed.

Lemma swcontent_ok : forall lines, scontent_ok (swcontent lines) = true.
Proof.
  induction lines as [|l t IH]; [reflexivity|]. destruct t as [|l2 t].
  - cbn [swcontent]. unfold scontent_ok. cbn [fst snd forallb]. apply schar_ok_slits.
  - rewrite swcontent_cons2. unfold scontent_ok in *. cbn [fst snd forallb]. rewrite schar_ok_slits. cbn [andb sbr_ok br_name br_ws].
    exact IH.
Qed.

Lemma ev_content_ok : forall texts e, scontent_ok (ev_content texts e) = true.
Proof. intros texts [ms i|ms]; cbn [ev_content]; [apply swcontent_ok|reflexivity]. Qed.

Lemma swcontent_text : forall lines, scontent_text (swcontent lines) = flat_map (fun l => snl 4%nat ++ l) lines ++ snl 3%nat.
Proof.
  induction lines as [|l [|l2 t] IH]; [reflexivity| |].
  - unfold scontent_text. cbn [swcontent fst snd flat_map app]. rewrite srun_val_slits, app_nil_r, <- app_assoc. reflexivity.
  - rewrite swcontent_cons2. unfold scontent_text in *. cbn [fst snd flat_map].
    rewrite srun_val_slits, <- app_assoc, IH. cbn [flat_map]. rewrite <- !app_assoc. reflexivity.
Qed.

Definition ev_vis (texts : list (list str)) (e : sev) : bool := has_visible_char (scontent_text (ev_content texts e)).

Lemma wsyncs_cons2 : forall lang texts e e2 t,
  wsyncs lang texts (e :: e2 :: t) = wsync lang texts e (snl 2%nat) :: wsyncs lang texts (e2 :: t).
Proof. reflexivity. Qed.

Lemma find_lang_class : forall lang, find_lang (sstyles lang) (splain [sa1 (lit "class") lang]) = Some lang.
Proof.
  intros lang. cbn [splain map sa_name sa_val sa1 find_lang sstyles].
  change (str_eqb (lower (lit "class")) (lit "lang")) with false. change (str_eqb (lower (lit "class")) (lit "class")) with true.
  cbv iota. unfold sstyles. cbn [assoc_str]. rewrite str_eqb_refl. reflexivity.
Qed.

Lemma wsync_ok : forall default lang texts e after, 0 <= ev_ms e -> is_ws after = true ->
  ssync_ok default (sstyles lang) (wsync lang texts e after) = true.
Proof.
  intros default lang texts e after Hms Ha. unfold ssync_ok, wsync.
  cbn [ss_tag ss_ws ss_ps ss_close ss_after ss_pad ss_ms st_attrs forallb].
  unfold spar_ok. cbn [sp_tag sp_content sp_close sp_after sp_lang st_attrs]. rewrite find_lang_class, str_eqb_refl, ev_content_ok, Ha.
  cbn [splain map sa_name sa_val sa1]. unfold attr_get. cbn [fold_left fst snd].
  change (str_eqb (lower (lit "start")) (lit "start")) with true. cbv iota.
  unfold opt_str_eqb, sami_token, padded. rewrite (dec_z_nonneg _ Hms). cbn [repeat app]. rewrite str_eqb_refl. reflexivity.
Qed.

Lemma wsyncs_ok : forall default lang texts evs, (forall e, In e evs -> 0 <= ev_ms e) ->
  forallb (ssync_ok default (sstyles lang)) (wsyncs lang texts evs) = true.
Proof.
  intros default lang texts. induction evs as [|e t IH]; intros H; [reflexivity|]. destruct t as [|e2 t].
  - cbn [wsyncs forallb]. rewrite wsync_ok; [reflexivity|apply H; left; reflexivity|reflexivity].
  - rewrite wsyncs_cons2. cbn [forallb]. rewrite wsync_ok; [|apply H; left; reflexivity|reflexivity].
    apply IH. intros x Hx. apply H. right. exact Hx.
Qed.

Lemma wsyncs_langs : forall lang texts evs,
  flat_map (fun s => map sp_lang (ss_ps s)) (wsyncs lang texts evs) = map (fun _ => lang) evs.
Proof.
  intros lang texts. induction evs as [|e t IH]; [reflexivity|]. destruct t as [|e2 t]; [reflexivity|].
  rewrite wsyncs_cons2. cbn [flat_map map]. rewrite IH. reflexivity.
Qed.

Lemma wsyncs_body : forall lang texts evs,
  map (fun s => (ss_pad s, ss_ms s, map (fun p => (sp_lang p, has_visible_char (scontent_text (sp_content p)))) (ss_ps s)))
      (wsyncs lang texts evs)
  = map (fun e => (0%nat, ev_ms e, [(lang, ev_vis texts e)])) evs.
Proof.
  intros lang texts. induction evs as [|e t IH]; [reflexivity|]. destruct t as [|e2 t]; [reflexivity|].
  rewrite wsyncs_cons2. cbn [map]. rewrite IH. reflexivity.
Qed.

Lemma first_seen_const : forall (A : Type) lang (l : list A), l <> [] -> first_seen (map (fun _ => lang) l) = [lang].
Proof.
  intros A lang l H. destruct l as [|x l]; [contradiction|]. clear H. unfold first_seen. cbn [map fold_left existsb app].
  induction l as [|y l IH]; [reflexivity|]. cbn [map fold_left]. 
  replace (existsb (str_eqb lang) [lang]) with true by (cbn [existsb]; rewrite str_eqb_refl; reflexivity). exact IH.
Qed.

Lemma sami_events_idx : forall caps last k ms i, In (SCue ms i) (sami_events caps last k) -> (k <= i < k + length caps)%nat.
Proof.
  induction caps as [|[s e] t IH]; intros last k ms i H; [destruct H|].
  cbn [sami_events] in H. apply in_app_or in H. destruct H as [H|H].
  - destruct last as [l|]; [|destruct H]. destruct (negb (sami_ms s =? l)); [|destruct H]. destruct H as [H|[]]. discriminate.
  - destruct H as [H|H]; [inversion H; subst; cbn [length]; lia|]. apply IH in H. cbn [length]. lia.
Qed.

Definition lines_visible (cs : list scap) : bool := forallb (fun c : scap => existsb has_visible_char (snd c)) cs.

Lemma ev_vis_abs : forall cs e, lines_visible cs = true -> In e (sami_write (times_q cs)) ->
  (ev_ms e, ev_vis (map snd cs) e) = ev_abs e.
Proof.
  intros cs e V H. destruct e as [ms i|ms]; cbn [ev_ms ev_abs]; [|reflexivity].
  unfold sami_write in H. apply sami_events_idx in H. unfold times_q in H. rewrite map_length in H.
  unfold ev_vis. cbn [ev_content]. rewrite swcontent_text, lines_text_visible; [reflexivity|].
  unfold lines_visible in V. rewrite forallb_map_snd, forallb_forall in V. apply V, nth_In. rewrite map_length. apply H.
Qed.

Lemma times_q_cue : forall cs, times_q cs = map cue_q (times_of_caps cs).
Proof. intros cs. unfold times_q, times_of_caps. rewrite map_map. reflexivity. Qed.

Lemma wsdoc_ok : forall default lang cs lo, 0 <= lo -> dom_u 1000 lo (times_of_caps cs) ->
  sdoc_ok default (sstyles lang) (wsdoc lang cs) = true.
Proof.
  intros default lang cs lo Hlo D. unfold sdoc_ok, wsdoc. cbn [sd_open sd_ws sd_syncs sd_tail st_name st_attrs st_end].
  rewrite wsyncs_ok; [reflexivity|]. intros e He.
  assert (N : 0 <= fst (ev_abs e)).
  { apply (sami_incr_nonneg _ (-1) ltac:(lia) (sami_abs_dom _ lo Hlo D)). rewrite <- sami_spec_abs, <- times_q_cue.
    apply in_map. exact He. }
  destruct e; exact N.
Qed.

Theorem sami_document_string : forall default lang cs lo, cs <> [] -> 0 <= lo ->
  dom_u 1000 lo (times_of_caps cs) -> lines_visible cs = true ->
  sami_read_string default (sstyles lang) (sami_body_text lang cs)
  = Ok [(lang, set_last_end (map (pi_pt 1000) (times_of_caps cs)))].
Proof.
  intros default lang cs lo Hne Hlo D V. unfold sami_body_text.
  set (evs := sami_write (times_q cs)).
  assert (A : map ev_abs evs = sami_abs (times_of_caps cs)) by (unfold evs; rewrite times_q_cue; apply sami_spec_abs).
  assert (Hevs : evs <> []).
  { intros E. rewrite E in A. destruct cs as [|[[s e] ls] cs]; [contradiction|]. discriminate A. }
  assert (OBS : map (fun e => (ev_ms e, ev_vis (map snd cs) e)) evs = sami_abs (times_of_caps cs)).
  { rewrite <- A. apply map_ext_in. intros e He. apply ev_vis_abs; assumption. }
  assert (LG : sdoc_langs (wsdoc lang cs) = [lang]).
  { unfold sdoc_langs, wsdoc. cbn [sd_syncs]. fold evs. rewrite wsyncs_langs. apply first_seen_const. exact Hevs. }
  assert (PR : sami_abs_of (sami_proj lang (sdoc_body (wsdoc lang cs))) = sami_abs (times_of_caps cs)).
  { unfold sdoc_body, wsdoc. cbn [sd_syncs]. fold evs. rewrite wsyncs_body. rewrite <- OBS.
    unfold sami_proj, sami_abs_of. clear. induction evs as [|e t IH]; [reflexivity|].
    cbn [map flat_map filter fst snd]. rewrite str_eqb_refl. cbn [map app sp_ms sp_text fst snd]. rewrite <- IH. reflexivity. }
  assert (DOM : sami_tree_dom (sdoc_langs (wsdoc lang cs)) (sdoc_body (wsdoc lang cs)) = true).
  { rewrite LG. unfold sami_tree_dom. cbn [distinct existsb negb andb forallb]. rewrite PR, andb_true_r.
    exact (sami_abs_dom _ lo Hlo D). }
  rewrite (sami_string_exact default (sstyles lang) (wsdoc lang cs) (wsdoc_ok default lang cs lo Hlo D) DOM).
  unfold sdoc_expected. rewrite LG. unfold sami_tree_expected. cbn [map]. rewrite PR.
  rewrite (sami_abs_expected (times_of_caps cs) lo D). unfold set_result. cbn [forallb snd].
  destruct (times_of_caps cs) as [|c t] eqn:E; [destruct cs; [contradiction|discriminate E]|].
  cbn [map]. destruct (set_last_end (pi_pt 1000 c :: map (pi_pt 1000) t)) eqn:E2; [exfalso; exact (set_last_end_nonempty _ _ E2)|reflexivity].
Qed.
