(* C17: the decidable domain predicate of model/SccRereadDom.v implies the hypothesis of the re-read theorems. *)
From Coq Require Import List ZArith QArith Lia Bool ZifyBool Arith.
From PV Require Import lib.Sx lib.Str lib.Result model.GenSccw model.SccWrap model.SccWrite spec.SpecSccw model.SccRoundTrip
     model.SccStash model.SccRereadDom.
From PV Require Import proofs.SccDecodeFacts proofs.SccLayoutFacts proofs.SccComposeFacts proofs.SccRereadDoc.
Import ListNotations.
Open Scope Z_scope.

Lemma spaced_b_sound : forall caps p, spaced_b p caps = true -> spaced_w p caps.
Proof.
  induction caps as [|c t IH]; intros p H; [exact I|]. cbn [spaced_b] in H.
  apply andb_prop in H. destruct H as [H H4]. apply andb_prop in H. destruct H as [H1 H2].
  cbn [spaced_w]. split; [apply Qle_bool_iff; exact H1|]. split; [apply Qle_bool_iff; exact H2|apply IH; exact H4].
Qed.

Theorem caps_ok_b_sound : forall caps, caps_ok_b caps = true -> caps_ok caps.
Proof.
  intros caps H. unfold caps_ok_b in H.
  apply andb_prop in H. destruct H as [H H4]. apply andb_prop in H. destruct H as [H H3]. apply andb_prop in H. destruct H as [H1 H2].
  rewrite forallb_forall in H1, H3, H4. split; [|split; [|split]].
  - apply Forall_forall. intros c Hc. specialize (H1 c Hc). unfold cap_dom_b in H1. apply andb_prop in H1. destruct H1 as [A B].
    split; [exact A|]. apply Nat.leb_le. exact B.
  - apply spaced_b_sound. exact H2.
  - apply Forall_forall. intros c Hc. specialize (H3 c Hc). unfold has_word_b in H3. unfold has_word. destruct (words (w_text c)); [discriminate|discriminate].
  - apply Forall_forall. intros c Hc. specialize (H4 c Hc). unfold below_100h_b in H4. unfold below_100h.
    apply negb_true_iff in H4. apply Qnot_le_lt. intros X. apply Qle_bool_iff in X. congruence.
Qed.

(* on the decidable domain the reader model returns captions for the writer model's document *)
Theorem reread_class_on_domain : forall caps, caps_ok_b caps = true -> caps <> [] -> reread_class caps = 0.
Proof.
  intros caps H Ne. unfold reread_class.
  destruct (reread_store caps (caps_ok_b_sound caps H) Ne) as (pcs & -> & _). reflexivity.
Qed.
