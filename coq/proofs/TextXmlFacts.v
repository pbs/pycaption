(* C03: the strict XML content parser reads xml_escape(s) back as the text s, for every string over XML Char. *)
From Coq Require Import List ZArith Bool.
From PV Require Import lib.Sx lib.Str model.TextWrite spec.SpecTextXml proofs.TextStrFacts.
Import ListNotations.
Open Scope Z_scope.

(* per-character view of xml.sax.saxutils.escape *)
Definition xesc1 (c : Z) : str :=
  if c =? 38 then lit "&amp;" else if c =? 62 then lit "&gt;" else if c =? 60 then lit "&lt;" else [c].
Definition xesc (s : str) : str := flat_map xesc1 s.

Definition xml_tab : list (Z * str) := [(38, lit "&amp;"); (62, lit "&gt;"); (60, lit "&lt;")].

Lemma xml_escape_esc : forall s, xml_escape s = flat_map (esc xml_tab) s.
Proof.
  intros s. unfold xml_escape. change (lit "&") with [38]. change (lit ">") with [62]. change (lit "<") with [60].
  rewrite (replace_single 38), !replace_esc by reflexivity. reflexivity.
Qed.

Lemma xml_escape_flat : forall s, xml_escape s = xesc s.
Proof. exact xml_escape_esc. Qed.

(* text characters: XML Char other than CR (a literal CR is a line end and is normalised to LF by every XML parser) *)
Definition xml_text_char (c : Z) : bool := xml_char c && negb (c =? 13).

Lemma trun_app : forall a b st,
  trun st (a ++ b) = match trun st a with Some st' => trun st' b | None => None end.
Proof.
  induction a as [|c a IH]; intros b st; [reflexivity|].
  cbn [app trun]. destruct (tstep st c); [apply IH|reflexivity].
Qed.

Lemma tstep_text_char : forall c nbr cur out, xml_text_char c = true -> c <> 38 -> c <> 60 -> c <> 62 ->
  tstep (mkT (MText nbr false) cur out) c = Some (mkT (MText (if c =? 93 then S nbr else 0%nat) false) (c :: cur) out).
Proof.
  intros c nbr cur out Hc H38 H60 H62. unfold xml_text_char in Hc. apply andb_true_iff in Hc. destruct Hc as [Hx H13].
  unfold tstep, tstep_gen. cbn [ts_mode ts_cur ts_out].
  destruct (Z.eqb_spec c 60); [congruence|]. destruct (Z.eqb_spec c 38); [congruence|].
  rewrite Hx. cbn [negb]. destruct (Z.eqb_spec c 62); [congruence|]. cbn [andb].
  destruct (c =? 13); [discriminate|]. rewrite andb_false_r. reflexivity.
Qed.

Lemma trun_xesc1 : forall c nbr cur out, xml_text_char c = true ->
  exists nbr', trun (mkT (MText nbr false) cur out) (xesc1 c) = Some (mkT (MText nbr' false) (c :: cur) out).
Proof.
  intros c nbr cur out Hc. unfold xesc1.
  destruct (Z.eqb_spec c 38) as [->|H38]; [exists 0%nat; vm_compute; reflexivity|].
  destruct (Z.eqb_spec c 62) as [->|H62]; [exists 0%nat; vm_compute; reflexivity|].
  destruct (Z.eqb_spec c 60) as [->|H60]; [exists 0%nat; vm_compute; reflexivity|].
  eexists. cbn [trun]. rewrite tstep_text_char by assumption. reflexivity.
Qed.

Lemma trun_xesc : forall s nbr cur out, forallb xml_text_char s = true ->
  exists nbr', trun (mkT (MText nbr false) cur out) (xesc s) = Some (mkT (MText nbr' false) (rev s ++ cur) out).
Proof.
  induction s as [|c t IH]; intros nbr cur out Hs.
  - exists nbr. reflexivity.
  - cbn [forallb] in Hs. apply andb_true_iff in Hs. destruct Hs as [Hc Ht].
    unfold xesc. cbn [flat_map]. rewrite trun_app.
    destruct (trun_xesc1 c nbr cur out Hc) as [n1 ->].
    destruct (IH n1 (c :: cur) out Ht) as [n2 H2]. exists n2.
    fold (xesc t). rewrite H2. cbn [rev]. rewrite <- app_assoc. reflexivity.
Qed.

Definition text_nodes (s : str) : list xnode := match s with [] => [] | _ => [XText s] end.

Lemma xtokens_escape : forall s, forallb xml_text_char s = true ->
  xtokens (xml_escape s) = Some (match s with [] => [] | _ => [TkText s] end).
Proof.
  intros s Hs. rewrite xml_escape_flat. unfold xtokens, t_init.
  destruct (trun_xesc s 0%nat [] [] Hs) as [n ->]. unfold t_finish. cbn [ts_mode ts_cur ts_out].
  rewrite app_nil_r. destruct s as [|c t]; [reflexivity|].
  unfold flush. destruct (rev (c :: t)) eqn:E.
  - apply (f_equal (@length Z)) in E. rewrite rev_length in E. discriminate.
  - rewrite <- E, rev_involutive. reflexivity.
Qed.

Theorem escape_parses_back : forall s, forallb xml_text_char s = true ->
  content_parse (xml_escape s) = Some (text_nodes s).
Proof.
  intros s Hs. unfold content_parse. rewrite xtokens_escape by exact Hs.
  destruct s; reflexivity.
Qed.

Corollary escape_displays : forall s, forallb xml_text_char s = true ->
  option_map xlines (content_parse (xml_escape s)) = Some [s].
Proof.
  intros s Hs. rewrite escape_parses_back by exact Hs. destruct s as [|c t]; [reflexivity|].
  cbn [option_map text_nodes]. unfold xlines. cbn. reflexivity.
Qed.
