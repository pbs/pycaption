(* C08, string level, WebVTT: the writer model's document (escaping included), read back by the model of
   WebVTTReader's line loop with the reader's decoding of every text line, gives every cue with both times floored to the
   millisecond and its text lines unchanged - for lines the escaping leaves alone (no & < >). *)
From Coq Require Import List ZArith QArith Qround Lia Bool ZifyBool.
From PV Require Import lib.Sx lib.Str lib.Result lib.Dec.
From PV Require Import model.TimeRead spec.SpecTime proofs.TimeStrFacts proofs.TimeReadFacts proofs.TimeDocFacts.
From PV Require Import model.TimeWrite spec.SpecTimeW proofs.TimeWriteFacts.
From PV Require Import model.Chain spec.SpecChain proofs.ChainFacts proofs.ChainDocFacts proofs.ChainSrtDocFacts.
From PV Require model.TextWrite model.TextRead proofs.TextReadVttTagFacts proofs.TextReadEndVttFacts.
Import ListNotations.
Open Scope Z_scope.
#[local] Ltac Zify.zify_post_hook ::= Z.to_euclidean_division_equations.

(* a pattern with a character the string lacks is never found *)
Lemma replace_aux_absent : forall c p r fuel s, In c p -> ~ In c s -> replace_aux fuel p r s = s.
Proof.
  intros c p r. induction fuel as [|f IH]; intros s Hp Hs; [reflexivity|].
  destruct s as [|x t]; [reflexivity|]. cbn [replace_aux].
  destruct (is_prefix p (x :: t)) eqn:E.
  - exfalso. apply Hs. apply (is_prefix_incl p (x :: t) E c Hp).
  - f_equal. apply IH; [exact Hp|]. intros H. apply Hs. right. exact H.
Qed.

Lemma replace_absent : forall c p r s, In c p -> ~ In c s -> replace p r s = s.
Proof. intros c p r s Hp Hs. unfold replace. destruct p; [reflexivity|]. apply (replace_aux_absent c); assumption. Qed.

(* the text domain: clean lines without & < > *)
Definition plain_char (c : Z) : bool := negb ((c =? 38) || (c =? 60) || (c =? 62)).
Definition vtt_lines_ok (ls : list str) : bool := forallb (fun l => clean_line l && forallb plain_char l) ls.
Definition vtt_text_dom (cs : list (Z * Z * list str)) : bool := forallb (fun c => clean_lines (snd c) && vtt_lines_ok (snd c)) cs.

Lemma plain_not_in : forall l c, forallb plain_char l = true -> (c = 38 \/ c = 60 \/ c = 62) -> ~ In c l.
Proof.
  intros l c H Hc Hin. rewrite forallb_forall in H. specialize (H c Hin). unfold plain_char in H. lia.
Qed.

Lemma vtt_encode_plain : forall l, forallb plain_char l = true -> TextWrite.vtt_encode l = l.
Proof.
  intros l H. unfold TextWrite.vtt_encode.
  rewrite (replace_absent 38 (lit "&") _ l) by (first [left; reflexivity | apply plain_not_in; [exact H|lia]]).
  rewrite (replace_absent 60 (lit "<") _ l) by (first [left; reflexivity | apply plain_not_in; [exact H|lia]]).
  apply (replace_absent 62); [right; right; left; reflexivity | apply plain_not_in; [exact H|lia]].
Qed.

Lemma strip_clean : forall l, clean_line l = true -> strip l = l.
Proof.
  intros l H. destruct (clean_line_parts l H) as [_ [[c [t [E1 Hc]]] [p [z [E2 [Hz _]]]]]].
  apply (strip_ends l c t p z E1 E2 Hc Hz).
Qed.

Lemma vtt_decode_plain : forall l, clean_line l = true -> forallb plain_char l = true -> TextRead.vtt_decode true l = l.
Proof.
  intros l Hc Hp. unfold TextRead.vtt_decode. rewrite (strip_clean l Hc).
  assert (N60 : forallb (fun c => negb (c =? 60)) l = true).
  { apply forallb_forall. intros x Hx. rewrite forallb_forall in Hp. specialize (Hp x Hx). unfold plain_char in Hp. lia. }
  assert (V : TextRead.voice_sub l = l).
  { unfold TextRead.voice_sub. pose proof (TextReadEndVttFacts.voice_text l 1 [] N60) as V.
    rewrite app_nil_r in V. replace (length l + 1)%nat with (S (length l)) in V by lia. rewrite V.
    rewrite TextReadEndVttFacts.voice_sub_nil, app_nil_r. reflexivity. }
  rewrite V.
  assert (O : TextRead.other_sub true l = l).
  { unfold TextRead.other_sub. pose proof (TextReadVttTagFacts.other_sub_text l 1 [] N60) as O.
    rewrite app_nil_r in O. replace (length l + 1)%nat with (S (length l)) in O by lia. rewrite O.
    rewrite TextReadVttTagFacts.other_sub_nil, app_nil_r. reflexivity. }
  rewrite O. unfold TextRead.vtt_entities.
  (* every pattern of the entity chain begins with &, which l lacks: from the innermost outwards nothing is replaced *)
  assert (R : forall p r, In 38 p -> replace p r l = l)
    by (intros p r Hi; apply (replace_absent 38); [exact Hi|apply plain_not_in; [exact Hp|lia]]).
  rewrite !R by (left; reflexivity). reflexivity.
Qed.

Lemma plain_line_spec_ok : forall l, clean_line l = true -> forallb plain_char l = true ->
  (text_line_ok l && no_arrow l) = true.
Proof.
  intros l Hc Hp. apply andb_true_iff. split.
  - unfold text_line_ok. destruct (clean_line_parts l Hc) as [NL [[c [t [E1 _]]] _]].
    rewrite no_linebreak_no_lb, NL. unfold visible_line. rewrite (strip_clean l Hc), E1. reflexivity.
  - unfold no_arrow. destruct (is_infix (lit "-->") l) eqn:E; [|reflexivity]. exfalso.
    apply (plain_not_in l 62 Hp); [lia|]. apply (is_infix_incl _ _ E). right. right. left. reflexivity.
Qed.

Lemma vtt_shifted_0 : forall t, us (vtt_shifted 0 t) = us (vtt_instant t).
Proof. intros t. rewrite vtt_shift_exact. apply Z.add_0_r. Qed.

Definition vtt_cue_of (c : Z * Z * list str) : vtt_cue :=
  let '(s, e, lines) := c in mkVttCue [] (vtt_stamp_of s) (vtt_stamp_of e) [32] [32] None lines 0.

Lemma vtt_lines_ok_in : forall ls l, vtt_lines_ok ls = true -> In l ls -> clean_line l = true /\ forallb plain_char l = true.
Proof. intros ls l H Hl. apply andb_true_iff. unfold vtt_lines_ok in H. rewrite forallb_forall in H. exact (H l Hl). Qed.

Lemma vtt_lines_encode : forall ls, vtt_lines_ok ls = true -> map TextWrite.vtt_encode ls = ls.
Proof.
  intros ls H. rewrite <- (map_id ls) at 2. apply map_ext_in. intros l Hl. apply vtt_encode_plain, (vtt_lines_ok_in ls l H Hl).
Qed.
Lemma vtt_lines_decode : forall ls, vtt_lines_ok ls = true -> map (TextRead.vtt_decode true) ls = ls.
Proof.
  intros ls H. rewrite <- (map_id ls) at 2. apply map_ext_in. intros l Hl. destruct (vtt_lines_ok_in ls l H Hl).
  apply vtt_decode_plain; assumption.
Qed.

Lemma vtt_cue_render : forall s e ls, 0 <= s < 86400000000 -> 0 <= e < 86400000000 -> ls <> [] -> vtt_lines_ok ls = true ->
  vtt_write_cue (s, e, ls) ++ [10] = vtt_render_cue false (vtt_cue_of (s, e, ls)).
Proof.
  intros s e ls Hs He Hl Hok. unfold vtt_write_cue, vtt_render_cue, vtt_cue_of, render_lines.
  cbn [vc_pre vc_t0 vc_t1 vc_ws1 vc_ws2 vc_settings vc_lines vc_gap flat_map nl repeat concat].
  destruct (vtt_ts_stamp s Hs) as [-> _]. destruct (vtt_ts_stamp e He) as [-> _].
  rewrite (vtt_lines_encode ls Hok), <- (join_nl ls Hl), <- !app_assoc. reflexivity.
Qed.

Lemma vtt_cue_of_dom : forall s e ls, 0 <= s < 86400000000 -> 0 <= e < 86400000000 -> ls <> [] -> vtt_lines_ok ls = true ->
  vtt_cue_dom (vtt_cue_of (s, e, ls)) = true.
Proof.
  intros s e ls Hs He Hl Hok. unfold vtt_cue_dom, vtt_cue_of.
  cbn [vc_t0 vc_t1 vc_lines vc_pre vc_settings vc_ws1 vc_ws2 forallb].
  destruct (vtt_ts_stamp s Hs) as [_ [-> _]]. destruct (vtt_ts_stamp e He) as [_ [-> _]].
  assert (L : forallb (fun l => text_line_ok l && no_arrow l) ls = true).
  { apply forallb_forall. intros l Hin. destruct (vtt_lines_ok_in ls l Hok Hin). apply plain_line_spec_ok; assumption. }
  rewrite L. destruct ls; [congruence|]. reflexivity.
Qed.

Lemma vtt_last_cue_process : forall c caps s0 e0, vtt_cue_dom c = true ->
  vtt_loop false (0 * 1000) (vc_pre c ++ vtt_timing c :: vc_lines c) (mkVS caps s0 e0 [] false)
  = Ok (mkVS caps (us (vtt_shifted 0 (vc_t0 c))) (us (vtt_shifted 0 (vc_t1 c))) (vc_lines c) true).
Proof.
  intros c caps s0 e0 Hd. destruct (vtt_cue_dom_parts c Hd) as (H0 & H1 & Hl & _ & Hpre & _ & W1 & W2).
  rewrite vtt_loop_app. rewrite vtt_loop_idle by exact Hpre. cbn [bind vtt_loop].
  assert (TL : vtt_step false (0 * 1000) (mkVS caps s0 e0 [] false) (vtt_timing c)
               = Ok (mkVS caps (us (vtt_shifted 0 (vc_t0 c))) (us (vtt_shifted 0 (vc_t1 c))) [] true)).
  { unfold vtt_step.
    assert (INF : is_infix (lit "-->") (vtt_timing c) = true).
    { unfold vtt_timing. rewrite app_assoc. rewrite <- !app_assoc. rewrite app_assoc. apply is_infix_mid. }
    rewrite INF. cbn [vs_caps vs_nodes]. unfold vtt_timing.
    rewrite (vtt_timing_exact false (0 * 1000) (vc_t0 c) (vc_t1 c) (vc_ws1 c) (vc_ws2 c) _ (last_start caps) H0 H1 W1 W2).
    - cbn [bind fst snd]. rewrite !vtt_shift_exact. reflexivity.
    - destruct (vc_settings c); [right; eexists; reflexivity|left; reflexivity].
    - intros Hs. discriminate Hs. }
  rewrite TL. cbn [bind]. rewrite vtt_loop_text by exact Hl. reflexivity.
Qed.

(* at the end of the input the reader flushes the pending cue as a blank line would have done *)
Definition vtt_flush (st : vtt_state) : list rcap :=
  match vs_nodes st with [] => vs_caps st | _ => vs_caps st ++ [(vs_start st, vs_end st, vs_nodes st)] end.

Lemma vtt_step_blank : forall strict sh st, exists st', vtt_step strict sh st [] = Ok st' /\ vtt_flush st' = vtt_flush st.
Proof.
  intros strict sh [caps s e nodes found]. unfold vtt_step. change (is_infix (lit "-->") []) with false.
  cbn [str_eqb vs_found vs_nodes]. destruct found, nodes; eexists; split; reflexivity.
Qed.

Lemma vtt_read_chopped : forall strict sh (L : list str), forallb no_lb L = true ->
  vtt_read strict sh (flat_map (fun l => l ++ nl_of false) L)
  = vtt_read strict sh (flat_map (fun l => l ++ nl_of false) (L ++ [([] : str)])).
Proof.
  intros strict sh L N. unfold vtt_read. rewrite !splitlines_lines by (rewrite ?forallb_app, ?N; reflexivity).
  rewrite vtt_loop_app. destruct (vtt_loop strict (sh * 1000) L (mkVS [] 0 0 [] false)) as [st|e]; [|reflexivity].
  cbn [bind vtt_loop]. destruct (vtt_step_blank strict (sh * 1000) st) as (st' & E & F). rewrite E. cbn [bind].
  fold (vtt_flush st) (vtt_flush st'). rewrite F. reflexivity.
Qed.

Lemma vtt_cues_render : forall cs lo, 0 <= lo -> dom_u 1000 lo (times_of_caps cs) -> vtt_text_dom cs = true ->
  flat_map (fun y => y ++ [10]) (map vtt_write_cue cs) = flat_map (vtt_render_cue false) (map vtt_cue_of cs)
  /\ forallb vtt_cue_dom (map vtt_cue_of cs) = true
  /\ vtt_expected_caps 0 (map vtt_cue_of cs) = floor_caps 1000 cs.
Proof.
  induction cs as [|[[s e] ls] t IH]; intros lo Hlo D T; [repeat split|].
  cbn [times_of_caps map fst snd dom_u] in D. destruct D as [D1 [D2 [D3 [D4 D5]]]].
  cbn [vtt_text_dom forallb snd] in T. apply andb_true_iff in T. destruct T as [Tc Tr].
  apply andb_true_iff in Tc. destruct Tc as [Tc1 Tc2].
  assert (Hs : 0 <= s < 86400000000) by lia. assert (He : 0 <= e < 86400000000) by lia.
  assert (Hl : ls <> []) by (unfold clean_lines in Tc1; destruct ls; [discriminate|discriminate]).
  destruct (IH e ltac:(lia) D5 Tr) as [I1 [I2 I3]].
  cbn [map flat_map]. split; [|split].
  - rewrite I1, <- (vtt_cue_render s e ls Hs He Hl Tc2). reflexivity.
  - cbn [forallb]. rewrite I2, (vtt_cue_of_dom s e ls Hs He Hl Tc2). reflexivity.
  - cbn [vtt_expected_caps flat_map]. fold (vtt_expected_caps 0 (map vtt_cue_of t)). rewrite I3.
    unfold floor_caps. cbn [map fst snd vtt_cue_of vc_lines vc_t0 vc_t1]. rewrite !vtt_shifted_0.
    destruct (vtt_ts_stamp s Hs) as [_ [_ ->]]. destruct (vtt_ts_stamp e He) as [_ [_ ->]].
    destruct ls as [|l0 lr]; [congruence|]. reflexivity.
Qed.

Lemma decode_floor_caps : forall cs, vtt_text_dom cs = true ->
  map (fun c : rcap => (fst c, map (TextRead.vtt_decode true) (snd c))) (floor_caps 1000 cs) = floor_caps 1000 cs.
Proof.
  induction cs as [|[[s e] ls] t IH]; intros T; [reflexivity|].
  cbn [vtt_text_dom forallb snd] in T. apply andb_true_iff in T. destruct T as [Tc Tr].
  apply andb_true_iff in Tc. destruct Tc as [_ Tc2].
  unfold floor_caps in *. cbn [map fst snd]. rewrite (vtt_lines_decode ls Tc2). f_equal. apply IH. exact Tr.
Qed.

Theorem vtt_roundtrip_string : forall cs,
  dom_u 1000 0 (times_of_caps cs) -> vtt_text_dom cs = true ->
  vtt_read_doc (vtt_write_doc cs) = read_result (floor_caps 1000 cs).
Proof.
  intros cs D T. induction cs as [|c init _] using rev_ind; [reflexivity|].
  destruct (vtt_cues_render (init ++ [c]) 0 ltac:(lia) D T) as (V1 & V2 & V3).
  set (cues := map vtt_cue_of (init ++ [c])) in *.
  (* the document lacks only the blank line that closes the last cue of the rendering *)
  assert (LL : exists L : list str, lit "WEBVTT" :: [] :: flat_map vtt_cue_lines cues = L ++ [([] : str)]).
  { exists (lit "WEBVTT" :: [] :: flat_map vtt_cue_lines (map vtt_cue_of init) ++ vtt_timing (vtt_cue_of c) :: snd c).
    unfold cues. rewrite map_app, flat_map_app. destruct c as [[s e] ls].
    cbn [map flat_map snd]. rewrite app_nil_r. unfold vtt_cue_lines at 2. cbn [vtt_cue_of vc_pre vc_lines vc_gap repeat app].
    change (vtt_timing (vtt_cue_of (s, e, ls)) :: ls ++ [[]]) with ((vtt_timing (vtt_cue_of (s, e, ls)) :: ls) ++ [[]]).
    rewrite !app_comm_cons, app_assoc. reflexivity. }
  destruct LL as [L LL].
  assert (N : forallb no_lb (L ++ [([] : str)]) = true).
  { rewrite <- LL. exact (forallb_flat_map _ _ _ cues vtt_cue_lines_no_lb V2). }
  assert (DOC : vtt_write_doc (init ++ [c]) = flat_map (fun l => l ++ nl_of false) L).
  { apply (app_inv_tail [10]). transitivity (vtt_render false cues).
    - unfold vtt_write_doc, vtt_render. rewrite <- V1, <- !app_assoc, join_nl by (destruct init; discriminate). reflexivity.
    - rewrite vtt_render_lines, LL, flat_map_app. reflexivity. }
  rewrite forallb_app in N. apply andb_true_iff in N.
  unfold vtt_read_doc. rewrite DOC, (vtt_read_chopped false 0 L (proj1 N)), <- LL, <- vtt_render_lines.
  rewrite vtt_doc_exact, V3 by (first [exact V2|discriminate]).
  pose proof (decode_floor_caps _ T) as DEC.
  destruct (floor_caps 1000 (init ++ [c])); [reflexivity|]. unfold read_result. exact (f_equal Ok DEC).
Qed.

Definition line_fmt3 (f : fmt) : bool := match f with FSrt | FMdvd | FVtt => true | _ => false end.

Lemma vtt_hop_keeps : forall cs lo, cs <> [] -> 0 <= lo -> dom_u 40000 lo (times_of_caps cs) -> vtt_text_dom cs = true ->
  hop_keeps FVtt cs.
Proof.
  intros cs lo Hne Hlo D T. apply floor_hop_keeps; [reflexivity|exact Hne|].
  exact (vtt_roundtrip_string cs (dom_u_1000 _ lo Hlo D) T).
Qed.

Definition text_doms (cs : list (Z * Z * list str)) : Prop :=
  text_dom cs = true /\ srt_text_dom cs = true /\ vtt_text_dom cs = true.

Lemma text_doms_snd : forall a b, map snd a = map snd b -> text_doms b -> text_doms a.
Proof.
  intros a b E. unfold text_doms, text_dom, srt_text_dom, vtt_text_dom. rewrite !forallb_map_snd, !(forallb_map_snd (fun ls => clean_lines ls && vtt_lines_ok ls)), E. auto.
Qed.

Lemma line_hop_keeps : forall f cs lo, line_fmt3 f = true -> cs <> [] -> 0 <= lo -> dom_u 40000 lo (times_of_caps cs) ->
  text_doms cs -> hop_keeps f cs.
Proof.
  intros f cs lo Hf Hne Hlo D (T1 & T2 & T3).
  destruct f; try discriminate Hf; [eapply srt_hop_keeps|eapply vtt_hop_keeps|eapply mdvd_hop_keeps]; eassumption.
Qed.

Theorem run_doc_text3 : forall chain cs lo, forallb line_fmt3 chain = true -> cs <> [] -> 0 <= lo ->
  dom_u 40000 lo (times_of_caps cs) -> text_dom cs = true -> srt_text_dom cs = true -> vtt_text_dom cs = true ->
  exists out, run_doc chain cs = Ok out /\ times_of_caps out = run chain (times_of_caps cs) /\ map snd out = map snd cs.
Proof.
  intros chain cs lo Hc Hne Hlo D T1 T2 T3.
  exact (run_doc_hops line_fmt3 text_doms text_doms_snd line_hop_keeps chain cs lo Hc Hne Hlo D (conj T1 (conj T2 T3))).
Qed.
