(* C18: the executable description of the size language used by the check (in_size_lang / spec_parse / ok_parse)
   is the grammar size_lang, and the model of Size.from_string satisfies the oracle on every string. *)
From Coq Require Import List ZArith QArith Qabs Bool Lia Lqa.
From PV Require Import lib.Sx lib.Str lib.StrFacts lib.Result model.Geometry spec.SpecGeom.
From PV Require Import proofs.GeomStr proofs.GeomEq proofs.GeomParse proofs.GeomPrint.
Import ListNotations.
Open Scope Z_scope.

Lemma is_number_inv : forall num, is_number num = true ->
  exists ip fp, num = dotted ip fp /\ all_digits ip = true /\ (fp = [] \/ all_digits fp = true).
Proof.
  intros num H. unfold is_number in H. pose proof (split_ch_join 46 num) as J.
  destruct (split_ch 46 num) as [|a [|b [|c r]]]; try discriminate.
  - exists a, []. unfold dotted. rewrite app_nil_r. cbn [join] in J. auto.
  - apply andb_true_iff in H. destruct H as [Ha Hb]. exists a, b. unfold dotted.
    destruct b as [|x b]; [discriminate|]. cbn [join app] in J. auto.
Qed.

Lemma spec_split_some : forall s num u, spec_split s = Some (num, u) ->
  ends_with (unit_str u) s = Some num /\ is_number num = true.
Proof.
  intros s num u. unfold spec_split. generalize spec_units. induction l as [|w l IH]; cbn [fold_right]; intros H.
  - discriminate.
  - destruct (ends_with (unit_str w) s) as [pre|] eqn:E; [|auto].
    destruct (is_number pre) eqn:N; [|auto]. inversion H; subst. split; assumption.
Qed.

Theorem in_size_lang_iff : forall s, in_size_lang s = true <-> size_lang s.
Proof.
  intros s. unfold in_size_lang. split.
  - intros H. apply orb_true_iff in H. destruct H as [H|H].
    + apply str_eqb_eq in H. subst. constructor.
    + destruct (spec_split s) as [[num u]|] eqn:E; [|discriminate].
      apply spec_split_some in E. destruct E as [E N]. apply ends_with_some in E.
      destruct (is_number_inv _ N) as (ip & fp & -> & Hip & Hfp). subst s. unfold dotted.
      destruct Hfp as [->|Hfp].
      * rewrite app_nil_r. apply SL_int. exact Hip.
      * destruct fp as [|c fp]; [discriminate|]. rewrite <- app_assoc.
        change ((46 :: c :: fp) ++ unit_str u) with (46 :: (c :: fp) ++ unit_str u). apply SL_frac; assumption.
  - intros H. apply orb_true_iff. destruct H as [|ip u Hip|ip fp u Hip Hfp].
    + left. reflexivity.
    + right. destruct (is_number_dotted ip [] Hip (or_introl eq_refl)) as [Hn _].
      unfold dotted in Hn. rewrite app_nil_r in Hn. rewrite (spec_split_unique _ _ Hn). reflexivity.
    + right. destruct (is_number_dotted ip fp Hip (or_intror Hfp)) as [Hn _].
      destruct fp as [|c fp]; [discriminate|]. unfold dotted in Hn.
      change (ip ++ 46 :: (c :: fp) ++ unit_str u) with (ip ++ (46 :: c :: fp) ++ unit_str u).
      rewrite app_assoc, (spec_split_unique _ _ Hn). reflexivity.
Qed.

Definition obs_of (r : result size) : result (Q * unit_) :=
  match r with Ok z => Ok (s_val z, s_unit z) | Err e => Err e end.

Lemma q_rel_close_eq : forall a b, (a == b)%Q -> q_rel_close a b = true.
Proof.
  intros a b H. unfold q_rel_close. apply Qle_bool_iff.
  assert (E : (Qabs (a - b) == 0)%Q). { rewrite H. setoid_replace (b - b)%Q with 0%Q by ring. reflexivity. }
  rewrite E. destruct (Qle_bool (Qabs b) 1) eqn:L; [lra|].
  pose proof (Qabs_nonneg b). lra.
Qed.

(* refinement: on every string, what the model of Size.from_string returns is
   what the size language prescribes: the denoted value and unit, or the syntax error *)
Theorem ok_parse_model : forall s, ok_parse s (obs_of (size_from_string s)) = true.
Proof.
  intros s. unfold ok_parse, spec_parse, size_from_string.
  destruct (str_eqb s (lit "0")) eqn:E0.
  - apply str_eqb_eq in E0. subst s. reflexivity.
  - destruct (spec_split s) as [[num u]|] eqn:E.
    + apply spec_split_some in E. destruct E as [E N]. apply ends_with_some in E.
      destruct (is_number_inv _ N) as (ip & fp & -> & Hip & Hfp).
      destruct (is_number_dotted ip fp Hip Hfp) as [_ Hq].
      destruct (from_string_value ip fp u Hip Hfp) as (v & Hv & Hvq & _).
      unfold size_from_string in Hv. cbn zeta in Hv.
      assert (Es : s = ip ++ match fp with [] => [] | _ :: _ => 46 :: fp end ++ unit_str u).
      { rewrite E. unfold dotted. rewrite <- app_assoc. reflexivity. }
      rewrite <- Es in Hv. rewrite Hv. cbn [obs_of s_val s_unit].
      rewrite q_rel_close_eq by (rewrite Hvq, Hq; reflexivity).
      assert (Eu : unit_eqb u u = true) by (apply unit_eqb_eq; reflexivity). rewrite Eu. reflexivity.
    + assert (Hn : ~ size_lang s).
      { intros L. apply in_size_lang_iff in L. unfold in_size_lang in L. rewrite E0, E in L. discriminate. }
      rewrite (parse_rejects_with_syntax_error _ Hn). reflexivity.
Qed.
