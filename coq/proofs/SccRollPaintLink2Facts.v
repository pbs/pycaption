(* C16 link, wider class of lines (continues proofs/SccRollPaintLinkFacts.v, `rp_link`).

   A generic line (`gseg`): head words `g_hw` (the head command RU2/RU3/RU4 | CR | RDC first, then only skipped
        copies / a carriage return on the empty buffer: `head_runs`) followed by body words which (i) never read the clock
        nor touch the stash / self.time, (ii) leave a buffer `g_buf` whose first node has a non-empty text (so the next
        head flushes it), (iii) is stored by create_and_store as exactly ONE caption `g_cap time` carrying (time, 0) and
        passing the line-length scan (`body_runs`, `buf_ok`). For such lines the spans of `read` are `rp_read` on the flush
        events of the heads (`rp_linkG`, `read_rp_orderedG`): the timing argument (SccRollPaintLinkFacts.v `rp_link_lines`)
        only uses (i)-(iii); every class of lines below is linked by exhibiting its head words, body words, buffer and caption.
        What is TRUE of the model for several rows in one buffer: create_and_store cuts the buffer at every REPOSITION
        node, so rows that are NOT adjacent give several captions sharing the span (time, 0); `rprun` adds ONE cue per
        event, so `spans_of (read ...)` then has duplicates and equals `rp_read` only up to spec/SpecSccTime.v `screens`
        (`nonadjacent_rows_duplicate`). A second row on the NEXT screen row gives a BREAK node instead: one caption with a
        line break, and the link holds on the nose (`rseg3`).
   `rseg2`: one row = PAC [tab offset] + character pairs and SPECIAL characters (`rp_link2`). Every control
        code is sent once or twice (`dd`); PAC + tab offset is doubled as the unit PAC TO PAC TO (PAC PAC TO TO would lose
        the offset: the decoder skips a tab offset that does not directly follow a PAC); sent once, a special character
        must not repeat the special character just before it (`no_rep`, `no_rep_needed`: the decoder drops it).
   `rseg3`: an optional second row on the adjacent screen row (`rp_link3`).
   `rseg4`: every line carries its own flags (`dflags`): head command, carriage return after
        RU, PAC unit of each row, special characters of each row are independently single or doubled (`rp_link4`).
   Not covered (execution only): extended characters / backspace, mid-row codes and italics PACs, a CR / RU in the middle
   of a line, non-adjacent rows (only up to `screens`), a different flag for each special character of one row. *)
From Coq Require Import List ZArith QArith Lia Bool ZifyBool Lqa.
From PV Require Import lib.Sx lib.Str lib.Result model.GenScc model.SccLen model.SccTime model.SccStash model.SccPopon
  model.SccRollPaint model.SccDecoder spec.SpecSccLen spec.SpecSccTime
  proofs.SccLenFacts proofs.SccStashFacts proofs.SccPoponFacts proofs.SccTableFacts proofs.SccRollPaintFacts
  proofs.SccConserveFacts proofs.SccTimeFacts proofs.SccRollPaintLinkFacts.
Import ListNotations.
Local Open Scope Z_scope.
Local Arguments stash_extend : simpl never.

(* the generic line as a record.  gseg_ok g is SccRollPaintLinkFacts.line_ok at the fields of g (heads5, quiet, hd_text,
   head_runs, body_runs, buf_ok unfold to flush_heads, quiet_last, text_first, head_runs1, body_runs1, buf_ok1), so
   rp_linkG is rp_link_lines read at this record *)
Definition heads5 : list Z := [w_ru2; w_ru3; w_ru4; w_rdc; w_cr].
Definition quiet (l : lastcmd) : Prop := forall h, In h heads5 -> last_contains l h = false.

(* the first node of the buffer is a node with a non-empty text: the buffer is not empty (cr_is_empty b = false) *)
Definition hd_text (b : creator) : Prop := exists k c0 txt p rest style, b = mkCr (mkI k (c0 :: txt) p :: rest) style.

(* a head, then body words that fill the empty active buffer with `g_buf` without reading the clock, and whose buffer is
   stored as ONE caption `g_cap time` carrying (time, 0) *)
Record gseg : Type :=
  mkG { g_tc : str; g_head : rhead; g_hw : list Z; g_body : list Z; g_buf : creator; g_cap : Q -> precap }.
Definition gwords (g : gseg) : list Z := g_hw g ++ g_body g.
Definition gline (g : gseg) : sline := (g_tc g, gwords g).
(* the timing skeleton of a line: its timecode and its head (what `rp_events`, `seg_paint`, `seg_event` look at) *)
Definition skel (g : gseg) : rseg := mkSeg (g_tc g) (g_head g) 0 [].

(* the words `g_hw` of the head: the head command first, then only skipped copies / a carriage return on the empty buffer *)
Definition head_runs (g : gseg) : Prop :=
  forall rest s pm st tk t tc fr off,
    (exists d1, forall next, translate_word s (head_word (g_head g)) next =
                             RS pm st tk (LWord (head_word (g_head g))) d1 creator0 t tc (fr + 1) off) ->
    exists l2 d2, ctl_last l2 /\
      translate_words s (g_hw g ++ rest) =
      translate_words (RS pm st tk l2 d2 creator0 t tc (fr + Z.of_nat (length (g_hw g))) off) rest.
Definition body_runs (g : gseg) : Prop :=
  forall pm st tk l d time tc fr off, ctl_last l ->
    exists tk' l' d', quiet l' /\
      translate_words (RS pm st tk l d creator0 time tc fr off) (g_body g) =
      RS pm st tk' l' d' (g_buf g) time tc (fr + Z.of_nat (length (g_body g))) off.
Definition buf_ok (g : gseg) : Prop :=
  hd_text (g_buf g) /\
  forall st time, create_and_store st (g_buf g) time 0 = stash_extend st [g_cap g time] /\
    has_nodes (g_cap g time) = true /\ pc_start (g_cap g time) = time /\ pc_end (g_cap g time) = 0%Q /\
    filter spec_long (spec_lines (cap_text (g_cap g time))) = [].
Definition gseg_ok (g : gseg) : Prop := head_runs g /\ body_runs g /\ buf_ok g.

Definition gl_events (g0 : gseg) (gs : list gseg) (evs : list rpev) (tend : Q) : list rpev :=
  link_events (skel g0) (map skel gs) evs tend.
Definition gl_pending (g0 : gseg) (gs : list gseg) : bool := final_paint (seg_paint false (skel g0)) (map skel gs).

(* a kind of line X seen as generic lines through G: the link of proofs/SccRollPaintLinkFacts.v (rp_link_lines) at the
   skeleton, words, buffer and caption of G x *)
Definition rp_link_via (X : Type) (G : X -> gseg) :=
  rp_link_lines X (fun x => skel (G x)) (fun x => g_hw (G x)) (fun x => g_body (G x)) (fun x => g_buf (G x))
                (fun x => g_cap (G x)).
Definition read_rp_ordered_via (X : Type) (G : X -> gseg) :=
  read_rp_ordered_lines X (fun x => skel (G x)) (fun x => g_hw (G x)) (fun x => g_body (G x)) (fun x => g_buf (G x))
                        (fun x => g_cap (G x)).

Theorem rp_linkG : forall off g0 gs t0 evs tend,
  g_head g0 <> HCr -> Forall gseg_ok (g0 :: gs) ->
  get_time (g_tc g0) 0 off = Ok t0 ->
  rp_events off (seg_paint false (skel g0)) (map skel gs) = Ok evs ->
  (gl_pending g0 gs = false ->
   get_time (g_tc (last gs g0)) (Z.of_nat (length (gwords (last gs g0)))) off = Ok tend) ->
  spans_of (read off (map gline (g0 :: gs))) = rp_read t0 (gl_events g0 gs evs tend) (gl_pending g0 gs).
Proof. exact (rp_link_via gseg (fun g => g)). Qed.

Theorem read_rp_orderedG : forall off g0 gs t0 evs tend l,
  g_head g0 <> HCr -> Forall gseg_ok (g0 :: gs) ->
  get_time (g_tc g0) 0 off = Ok t0 ->
  rp_events off (seg_paint false (skel g0)) (map skel gs) = Ok evs ->
  (gl_pending g0 gs = false ->
   get_time (g_tc (last gs g0)) (Z.of_nat (length (gwords (last gs g0)))) off = Ok tend) ->
  rp_nonneg t0 (gl_events g0 gs evs tend) ->
  increasing t0 (map rp_time (gl_events g0 gs evs tend)) ->
  spans_of (read off (map gline (g0 :: gs))) = Ok l ->
  l = rp_spans t0 (gl_events g0 gs evs tend) (gl_pending g0 gs) /\
  Forall (fun p => (fst p < snd p)%Q) l /\
  (forall i a b, nth_error l i = Some a -> nth_error l (S i) = Some b -> (fst a < fst b)%Q /\ snd a = fst b).
Proof. exact (read_rp_ordered_via gseg (fun g => g)). Qed.


(* ---- one row = PAC [tab offset] then character pairs and special characters ---- *)
Inductive bitem : Type := BChar (w : Z) | BSpec (w : Z).
Record rseg2 : Type := mkSeg2 { s2_tc : str; s2_head : rhead; s2_pac : Z; s2_tab : option Z; s2_items : list bitem }.

Definition item_word (it : bitem) : Z := match it with BChar w => w | BSpec w => w end.
(* a special character is a two-byte control pair: sent once or twice like every control code; a character pair once *)
Definition item_words (dd : bool) (it : bitem) : list Z := match it with BChar w => [w] | BSpec w => ctl dd w end.
(* the preamble address code and its tab offset are doubled as ONE unit PAC TO PAC TO (the decoder skips a tab offset that
   does not directly follow a preamble address code: PAC PAC TO TO would lose the offset) *)
Definition pac_unit2 (dd : bool) (pac : Z) (tab : option Z) : list Z :=
  match tab with None => ctl dd pac | Some t => if dd then [pac; t; pac; t] else [pac; t] end.
(* du: the PAC [+ tab offset] unit is doubled; di: the special characters of the row are doubled *)
Definition rseg2_bodyD (du di : bool) (g : rseg2) : list Z :=
  pac_unit2 du (s2_pac g) (s2_tab g) ++ flat_map (item_words di) (s2_items g).
Definition rseg2_body (dd : bool) (g : rseg2) : list Z := rseg2_bodyD dd dd g.
Definition rseg2_words (dd : bool) (g : rseg2) : list Z := head_words dd (s2_head g) ++ rseg2_body dd g.
Definition rseg2_line (dd : bool) (g : rseg2) : sline := (s2_tc g, rseg2_words dd g).

Definition items_text (l : list bitem) : str := concat (map (fun it => word_chars (item_word it)) l).
Definition seg2_text (g : rseg2) : str := items_text (s2_items g).
Definition seg2_pos (g : rseg2) : pos :=
  match pac_pos (s2_pac g) with
  | Some p => match s2_tab g with
              | None => p
              | Some t => match tab_of t with Some k => (fst p, snd p + k) | None => p end
              end
  | None => (0, 0)
  end.

Definition spec_word (w : Z) : bool := negb (is_none (special_of w)).
Definition item_ok (it : bitem) : bool := match it with BChar w => char_word w | BSpec w => spec_word w end.
(* sent once, a special character that repeats the one just before it is taken for its doubled copy and dropped *)
Fixpoint no_rep (l : list bitem) : bool :=
  match l with
  | [] => true
  | BSpec a :: t => match t with BSpec b :: _ => negb (a =? b) | _ => true end && no_rep t
  | _ :: t => no_rep t
  end.
Definition tab_ok (o : option Z) : bool := match o with None => true | Some t => negb (is_none (tab_of t)) end.
Definition seg_ok2 (dd : bool) (g : rseg2) : bool :=
  plain_pac (s2_pac g) && tab_ok (s2_tab g) && forallb item_ok (s2_items g) && (dd || no_rep (s2_items g))
  && nonempty (rstrip (seg2_text g)) && nil_b' (filter spec_long (spec_lines (rstrip (seg2_text g)))).

Definition to_gseg (dd : bool) (g : rseg2) : gseg :=
  mkG (s2_tc g) (s2_head g) (head_words dd (s2_head g)) (rseg2_body dd g) (tb (seg2_text g) (seg2_pos g))
      (fun t => tcap t 0 (seg2_text g) (seg2_pos g)).

Lemma to_gseg_line : forall dd g, gline (to_gseg dd g) = rseg2_line dd g.
Proof. reflexivity. Qed.

Lemma spec_word_spec : forall w, spec_word w = true ->
  exists txt, special_of w = Some txt /\ is_command w = false /\ is_pac w = false /\ tab_of w = None /\ word_chars w = txt.
Proof.
  intros w H. unfold spec_word in H. destruct (special_of w) as [txt|] eqn:E; [|discriminate H].
  destruct classes_disjoint as (Dsp & _). destruct (Dsp w) as (H1 & H2 & _ & H4); [congruence|].
  exists txt. repeat split; try assumption. unfold word_chars. rewrite H1, H2, E. reflexivity.
Qed.

Section Row.
Variable T : option str -> tracker.
Variable B : option str -> creator.
Hypothesis add_ok : row_ok T B.

Lemma tw_spec : forall w pm st l d o time tc fr off, spec_word w = true -> last_is l w = false ->
  exists d', forall next, translate_word (RS pm st (T o) l d (B o) time tc fr off) w next =
    RS pm st (T (Some (otext o ++ word_chars w))) (LWord w) d' (B (Some (otext o ++ word_chars w))) time tc (fr + 1) off.
Proof.
  intros w pm st l d o time tc fr off Hw Hl. destruct (spec_word_spec w Hw) as (txt & E & H1 & H2 & H3 & Hc).
  destruct (hd_new (RS pm st (T o) l d (B o) time tc fr off) w Hl ltac:(rewrite H2; reflexivity) H3) as [d' Hd].
  exists d'. intros next. apply (tw_add T B add_ok); [exact Hd|]. unfold exec. rewrite H1, H2, E, Hc. reflexivity.
Qed.

Definition item_last (dd : bool) (it : bitem) : lastcmd :=
  match it with BChar w => LWord w | BSpec w => cl_last dd w end.
Definition pre1 (l : lastcmd) (it : bitem) : Prop := match it with BSpec w => last_is l w = false | BChar _ => True end.

Lemma tws_item : forall dd it rest pm st l d o time tc fr off, item_ok it = true -> pre1 l it ->
  exists d', translate_words (RS pm st (T o) l d (B o) time tc fr off) (item_words dd it ++ rest) =
    translate_words (RS pm st (T (Some (otext o ++ word_chars (item_word it)))) (item_last dd it) d'
                        (B (Some (otext o ++ word_chars (item_word it)))) time tc
                        (fr + Z.of_nat (length (item_words dd it))) off) rest.
Proof.
  intros dd [w|w] rest pm st l d o time tc fr off Hok Hpre; cbn [item_ok item_words item_last item_word pre1] in *.
  - destruct (tw_charS T B add_ok w pm st l d o time tc fr off Hok) as [d' E]. exists d'.
    cbn [app translate_words length]. rewrite E. reflexivity.
  - assert (C : twice_once w) by (right; destruct (spec_word_spec w Hok) as (txt & -> & _); discriminate).
    destruct (tws_ctl dd w rest _ pm st _ _ time tc (fr + 1) off C (tw_spec w pm st l d o time tc fr off Hok Hpre)) as [d2 E].
    rewrite E. exists d2. f_equal. apply RS_frames. lia.
Qed.

Definition nc_last (l : lastcmd) : Prop := l = LNone \/ exists w, l = LWord w /\ is_command w = false /\ is_pac w = false.

Lemma nc_last_quiet : forall l, nc_last l -> quiet l.
Proof.
  intros l [->|(w & -> & Hw & _)] h Hh; [reflexivity|exact (quiet_word w Hw h Hh)].
Qed.

Lemma item_last_nc : forall dd it, item_ok it = true -> nc_last (item_last dd it).
Proof.
  intros dd [w|w] H; cbn [item_ok item_last] in *.
  - right. exists w. split; [reflexivity|]. split; apply (char_word_spec w H).
  - destruct dd; [left; reflexivity|]. right. exists w. split; [reflexivity|].
    destruct (spec_word_spec w H) as (txt & _ & H1 & H2 & _). split; assumption.
Qed.

Lemma pre1_step : forall dd it it2 r, item_ok it = true -> item_ok it2 = true -> (dd || no_rep (it :: it2 :: r)) = true ->
  pre1 (item_last dd it) it2.
Proof.
  intros dd [a|a] [b|b] r H1 H2 Hn; cbn [pre1 item_last item_ok] in *; try exact I.
  - cbn [last_is]. apply Z.eqb_neq. intros ->. destruct (char_word_spec b H1) as (_ & _ & Hs & _).
    unfold spec_word in H2. rewrite Hs in H2. discriminate.
  - destruct dd; [reflexivity|]. cbn [orb no_rep] in Hn. apply andb_true_iff in Hn. destruct Hn as [Hn _].
    cbn [cl_last last_is]. apply negb_true_iff. exact Hn.
Qed.

Lemma no_rep_tail : forall dd it r, (dd || no_rep (it :: r)) = true -> (dd || no_rep r) = true.
Proof.
  intros [|] it r H; [reflexivity|]. cbn [orb] in *. destruct it; cbn [no_rep] in H; [exact H|].
  apply andb_true_iff in H. apply H.
Qed.

Lemma tws_items : forall dd items it rest pm st l d o time tc fr off,
  forallb item_ok (it :: items) = true -> (dd || no_rep (it :: items)) = true -> pre1 l it ->
  exists l' d', nc_last l' /\
    translate_words (RS pm st (T o) l d (B o) time tc fr off) (flat_map (item_words dd) (it :: items) ++ rest) =
    translate_words
      (RS pm st (T (Some (otext o ++ items_text (it :: items)))) l' d' (B (Some (otext o ++ items_text (it :: items)))) time tc
          (fr + Z.of_nat (length (flat_map (item_words dd) (it :: items)))) off) rest.
Proof.
  intros dd items. induction items as [|it2 r IH]; intros it rest pm st l d o time tc fr off Hok Hn Hpre;
    cbn [forallb] in Hok; apply andb_true_iff in Hok; destruct Hok as [Hit Hok].
  - cbn [flat_map]. rewrite app_nil_r. destruct (tws_item dd it rest pm st l d o time tc fr off Hit Hpre) as [d' E].
    rewrite E. exists (item_last dd it), d'. split; [apply item_last_nc; exact Hit|].
    unfold items_text. cbn [map concat]. rewrite !app_nil_r. reflexivity.
  - pose proof Hok as Hok'. cbn [forallb] in Hok'. apply andb_true_iff in Hok'. destruct Hok' as [Hit2 _].
    change (flat_map (item_words dd) (it :: it2 :: r)) with (item_words dd it ++ flat_map (item_words dd) (it2 :: r)).
    rewrite <- app_assoc.
    destruct (tws_item dd it (flat_map (item_words dd) (it2 :: r) ++ rest) pm st l d o time tc fr off Hit Hpre) as [d1 E].
    rewrite E.
    destruct (IH it2 rest pm st (item_last dd it) d1 (Some (otext o ++ word_chars (item_word it))) time tc
                (fr + Z.of_nat (length (item_words dd it))) off Hok (no_rep_tail dd it _ Hn)
                (pre1_step dd it it2 r Hit Hit2 Hn)) as (l' & d' & Hl' & E2).
    exists l', d'. split; [exact Hl'|]. rewrite E2. cbn [otext]. unfold items_text. cbn [map concat].
    rewrite <- !app_assoc. f_equal. apply RS_frames. rewrite app_length. lia.
Qed.
End Row.

Lemma tab_range : forall w k, tab_of w = Some k -> 1 <= k <= 3.
Proof.
  intros w k H. unfold tab_of, scc_tab_offsets in H. cbn [assocz] in H.
  repeat (match type of H with (if ?c then _ else _) = _ => destruct c end); inversion H; lia.
Qed.

Lemma tracker_update_tab : forall p k, 1 <= k <= 3 -> tracker_update (tkp p) (fst p, snd p + k) = tkp (fst p, snd p + k).
Proof.
  intros [r c] k Hk. unfold tracker_update, tkp. cbn [tk_pos tk_break tk_repos tk_default map last fst snd].
  replace (r =? r + 1) with false by lia. cbn [andb]. unfold pos_eqb. cbn [fst snd].
  replace (c + k =? c) with false by lia. rewrite andb_false_r.
  replace ((r =? r) && (c + 1 <=? c + k) && (c + k <=? c + 3)) with true by lia. reflexivity.
Qed.

(* a tab offset directly after a preamble address code, on any buffer b it leaves alone: only the tracker moves *)
Lemma tw_tab_at : forall pac w k tk tk' b pm st d time tc fr off, is_pac pac = true -> tab_of w = Some k ->
  (forall next, interpret_command tk b w next = (tk', b, None)) ->
  exists d', forall next, translate_word (RS pm st tk (LWord pac) d b time tc fr off) w next =
    RS pm st tk' (LPacTo pac w) d' b time tc (fr + 1) off.
Proof.
  intros pac w k tk tk' b pm st d time tc fr off Hpac Hk Hi.
  destruct classes_disjoint as (_ & _ & Dpac & Dtab & _).
  destruct (Dtab w) as (Hc & _ & _ & _ & _ & Hn); [congruence|].
  assert (Hpw : is_pac w = false).
  { destruct (is_pac w) eqn:E; [|reflexivity]. destruct (Dpac w E) as (T & _). congruence. }
  assert (Hne : (pac =? w) = false).
  { apply Z.eqb_neq. intros ->. congruence. }
  set (s := RS pm st tk (LWord pac) d b time tc fr off).
  assert (Hd : exists d', handle_double s w = (false, set_dbl s (LPacTo pac w) d')).
  { unfold handle_double. cbv zeta. change (r_last s) with (LWord pac). cbn [last_is]. rewrite Hne, Hpw, Hk, Hpac, andb_false_r.
    cbn [andb]. eexists. reflexivity. }
  destruct Hd as [d' Hd]. exists d'. intros next.
  apply tw_interp; [exact Hd|rewrite Hc; reflexivity|exact Hn|apply Hi].
Qed.

Lemma tab_positioning : forall tk b w k next, tab_of w = Some k ->
  interpret_command tk b w next = (update_positioning tk b w, b, None).
Proof.
  intros tk b w k next Hk. destruct classes_disjoint as (_ & _ & _ & Dtab & _).
  destruct (Dtab w) as (_ & Hm & Hb & Hs & Hbs & _); [congruence|]. apply interpret_positioning; auto.
Qed.

Lemma interpret_tab : forall w k p next, tab_of w = Some k ->
  interpret_command (tkp p) creator0 w next = (tkp (fst p, snd p + k), creator0, None).
Proof.
  intros w k p next Hk. rewrite (tab_positioning _ _ w k next Hk). unfold update_positioning. rewrite Hk.
  cbn [cr_nodes creator0 has_break_before rev has_break_before_rev].
  change (fst (tk_default (tkp p))) with (fst p). change (snd (tk_default (tkp p))) with (snd p).
  rewrite (tracker_update_tab p k (tab_range w k Hk)). reflexivity.
Qed.

(* the second copy of the unit PAC TO: both words are skipped *)
Lemma tw_unit_second : forall pac w k pm st tk d b time tc fr off rest, is_pac pac = true -> tab_of w = Some k ->
  exists d', translate_words (RS pm st tk (LPacTo pac w) d b time tc fr off) (pac :: w :: rest) =
             translate_words (RS pm st tk LNone d' b time tc (fr + 2) off) rest.
Proof.
  intros pac w k pm st tk d b time tc fr off rest Hpac Hk.
  destruct classes_disjoint as (_ & _ & Dpac & _).
  assert (Hpw : is_pac w = false).
  { destruct (is_pac w) eqn:E; [|reflexivity]. destruct (Dpac w E) as (T & _). congruence. }
  assert (S1 : exists d1, forall next, translate_word (RS pm st tk (LPacTo pac w) d b time tc fr off) pac next =
                                      RS pm st tk LNone d1 b time tc (fr + 1) off).
  { eexists. intros next. rewrite translate_word_unfold. change (r_err (RS pm st tk (LPacTo pac w) d b time tc fr off)) with (@None err).
    cbv iota. unfold handle_double. cbv zeta. change (r_last (RS pm st tk (LPacTo pac w) d b time tc fr off)) with (LPacTo pac w).
    cbn [last_is last_contains]. rewrite Hpac, Z.eqb_refl, andb_false_r. cbn [orb andb]. reflexivity. }
  destruct S1 as [d1 S1].
  assert (S2 : exists d2, forall next, translate_word (RS pm st tk LNone d1 b time tc (fr + 1) off) w next =
                                      RS pm st tk LNone d2 b time tc (fr + 1 + 1) off).
  { eexists. intros next. rewrite translate_word_unfold. change (r_err (RS pm st tk LNone d1 b time tc (fr + 1) off)) with (@None err).
    cbv iota. unfold handle_double. cbv zeta. change (r_last (RS pm st tk LNone d1 b time tc (fr + 1) off)) with LNone.
    cbn [last_is last_contains]. rewrite Hpw, Hk, andb_false_r. cbn [andb]. reflexivity. }
  destruct S2 as [d2 S2]. exists d2. cbn [translate_words]. rewrite S1, S2. f_equal. apply RS_frames. lia.
Qed.

Definition after_unit (l : lastcmd) : Prop := forall w, is_pac w = false -> last_is l w = false.

Lemma after_unit_pre1 : forall l it, after_unit l -> item_ok it = true -> pre1 l it.
Proof.
  intros l [w|w] Hl Hw; [exact I|]. apply Hl. destruct (spec_word_spec w Hw) as (txt & _ & _ & H2 & _). exact H2.
Qed.

(* the unit PAC [tab offset], once or twice, on a buffer b the two commands leave alone: the tracker goes tk0 -> tk1 at the
   preamble address code and tk1 -> tk2 at the tab offset *)
Lemma tws_unit_at : forall dd pac tab rest tk0 tk1 tk2 b pm st l d time tc fr off,
  is_pac pac = true -> last_contains l pac = false ->
  (forall next, interpret_command tk0 b pac next = (tk1, b, None)) ->
  match tab with
  | None => tk2 = tk1
  | Some t => exists k, tab_of t = Some k /\ forall next, interpret_command tk1 b t next = (tk2, b, None)
  end ->
  exists l2 d2, after_unit l2 /\
    translate_words (RS pm st tk0 l d b time tc fr off) (pac_unit2 dd pac tab ++ rest) =
    translate_words (RS pm st tk2 l2 d2 b time tc (fr + Z.of_nat (length (pac_unit2 dd pac tab))) off) rest.
Proof.
  intros dd pac tab rest tk0 tk1 tk2 b pm st l d time tc fr off Hpac Hl Hi1 Hi2.
  pose proof (tw_pac_at pac tk0 tk1 b pm st l d time tc fr off Hpac Hl Hi1) as H1.
  destruct tab as [t|]; cbn [pac_unit2].
  - destruct Hi2 as (k & Hk & Hi2). destruct H1 as [d1 H1].
    destruct (tw_tab_at pac t k tk1 tk2 b pm st d1 time tc (fr + 1) off Hpac Hk Hi2) as [d2 H2]. destruct dd.
    + change ([pac; t; pac; t] ++ rest) with (pac :: t :: pac :: t :: rest).
      change (translate_words ?s (pac :: t :: ?r)) with
        (translate_words (translate_word (translate_word s pac (Some t)) t (match r with n :: _ => Some n | [] => None end)) r).
      rewrite H1, H2.
      destruct (tw_unit_second pac t k pm st tk2 d2 b time tc (fr + 1 + 1) off rest Hpac Hk) as [d3 E3].
      rewrite E3. exists LNone, d3. split; [intros w _; reflexivity|]. f_equal. apply RS_frames. cbn [length]. lia.
    + cbn [app translate_words]. rewrite H1, H2. exists (LPacTo pac t), d2. split; [intros w _; reflexivity|].
      f_equal. apply RS_frames. cbn [length]. lia.
  - subst tk2.
    destruct (tws_ctl dd pac rest _ pm st tk1 b time tc (fr + 1) off ltac:(left; rewrite Hpac; apply orb_true_r) H1)
      as [d2 E]. rewrite E. exists (cl_last dd pac), d2. split.
    + intros w Hw. destruct dd; [reflexivity|]. cbn [cl_last last_is]. apply Z.eqb_neq. intros ->. congruence.
    + f_equal. apply RS_frames. lia.
Qed.

Lemma tab_ok_spec : forall tab, tab_ok tab = true ->
  match tab with None => True | Some t => exists k, tab_of t = Some k end.
Proof. intros [t|] H; [|exact I]. cbn [tab_ok] in H. destruct (tab_of t) as [k|]; [exists k; reflexivity|discriminate H]. Qed.

Lemma tws_unit : forall dd pac tab rest p pm st tk l d time tc fr off, plain_pac pac = true -> pac_pos pac = Some p ->
  tab_ok tab = true -> ctl_last l ->
  exists l2 d2, after_unit l2 /\
    translate_words (RS pm st tk l d creator0 time tc fr off) (pac_unit2 dd pac tab ++ rest) =
    translate_words (RS pm st (tkp (match tab with None => p | Some t => match tab_of t with Some k => (fst p, snd p + k)
                                                                                    | None => p end end))
                        l2 d2 creator0 time tc (fr + Z.of_nat (length (pac_unit2 dd pac tab))) off) rest.
Proof.
  intros dd pac tab rest p pm st tk l d time tc fr off Hpp Hpos Htab Hl.
  pose proof (proj1 (plain_pac_spec pac Hpp)) as Hpac.
  apply (tws_unit_at dd pac tab rest tk (tkp p)); [exact Hpac|exact (ctl_last_pac l _ Hl Hpac)| |].
  - intros next. apply interpret_pac_empty; assumption.
  - pose proof (tab_ok_spec tab Htab) as Ht. destruct tab as [t|]; [|reflexivity]. destruct Ht as [k Hk]. rewrite Hk.
    exists k. split; [reflexivity|]. intros next. apply interpret_tab. exact Hk.
Qed.

Lemma seg_ok2_spec : forall dd g, seg_ok2 dd g = true ->
  plain_pac (s2_pac g) = true /\ (exists p, pac_pos (s2_pac g) = Some p) /\ tab_ok (s2_tab g) = true /\
  (exists it r, s2_items g = it :: r /\ forallb item_ok (it :: r) = true /\ (dd || no_rep (it :: r)) = true) /\
  nonempty (rstrip (seg2_text g)) = true /\ filter spec_long (spec_lines (rstrip (seg2_text g))) = [].
Proof.
  intros dd g H. unfold seg_ok2 in H. rewrite !andb_true_iff in H. destruct H as [[[[[H1 H2] H3] H4] H5] H6].
  pose proof (proj1 (plain_pac_spec _ H1)) as Hp.
  split; [exact H1|]. split.
  - unfold is_pac in Hp. destruct (pac_pos (s2_pac g)) as [p|]; [exists p; reflexivity|discriminate].
  - split; [exact H2|]. split; [|split; [exact H5|]].
    + unfold seg2_text in H5. destruct (s2_items g) as [|it r]; [discriminate H5|]. exists it, r. repeat split; assumption.
    + destruct (filter _ _); [reflexivity|discriminate].
Qed.

Lemma row1_runs : forall du di g p it r rest pm st tk l d time tc fr off,
  plain_pac (s2_pac g) = true -> pac_pos (s2_pac g) = Some p -> tab_ok (s2_tab g) = true -> s2_items g = it :: r ->
  forallb item_ok (it :: r) = true -> (di || no_rep (it :: r)) = true -> ctl_last l ->
  exists l' d', nc_last l' /\
    translate_words (RS pm st tk l d creator0 time tc fr off) (rseg2_bodyD du di g ++ rest) =
    translate_words (RS pm st (tkp (seg2_pos g)) l' d' (tb (seg2_text g) (seg2_pos g)) time tc
                        (fr + Z.of_nat (length (rseg2_bodyD du di g))) off) rest.
Proof.
  intros du di g p it r rest pm st tk l d time tc fr off Hpp Hpos Htab Eit Hok Hn Hl. unfold rseg2_bodyD. rewrite <- app_assoc.
  destruct (tws_unit du (s2_pac g) (s2_tab g) (flat_map (item_words di) (s2_items g) ++ rest) p pm st tk l d time tc fr off
              Hpp Hpos Htab Hl) as (l2 & d2 & Hl2 & E). rewrite E.
  assert (Epos : seg2_pos g = match s2_tab g with None => p | Some t => match tab_of t with Some k => (fst p, snd p + k)
                                                                        | None => p end end).
  { unfold seg2_pos. rewrite Hpos. reflexivity. }
  rewrite <- Epos. unfold seg2_text. rewrite Eit.
  assert (Hpre : pre1 l2 it).
  { cbn [forallb] in Hok. apply andb_true_iff in Hok. exact (after_unit_pre1 l2 it Hl2 (proj1 Hok)). }
  change creator0 with (ob None (seg2_pos g)).
  destruct (tws_items (fun _ => tkp (seg2_pos g)) (fun o => ob o (seg2_pos g)) (fun o s => add_chars_ob o (seg2_pos g) s)
              di r it rest pm st l2 d2 None time tc
              (fr + Z.of_nat (length (pac_unit2 du (s2_pac g) (s2_tab g)))) off Hok Hn Hpre) as (l' & d' & Hl' & E2).
  exists l', d'. split; [exact Hl'|]. rewrite E2. cbn [otext app ob]. f_equal.
  apply RS_frames. rewrite app_length. lia.
Qed.

Lemma seg2_body_runs : forall du di g, seg_ok2 di g = true ->
  body_runs1 (rseg2_bodyD du di g) (tb (seg2_text g) (seg2_pos g)).
Proof.
  intros du di g Hg pm st tk l d time tc fr off Hl.
  destruct (seg_ok2_spec di g Hg) as (Hpp & (p & Hpos) & Htab & (it & r & Eit & Hok & Hn) & _ & _).
  destruct (row1_runs du di g p it r [] pm st tk l d time tc fr off Hpp Hpos Htab Eit Hok Hn Hl) as (l' & d' & Hl' & E).
  rewrite app_nil_r in E. exists (tkp (seg2_pos g)), l', d'. split; [apply nc_last_quiet; exact Hl'|exact E].
Qed.

Lemma seg2_buf_ok : forall dd g, seg_ok2 dd g = true -> buf_ok (to_gseg dd g).
Proof.
  intros dd g Hg. destruct (seg_ok2_spec dd g Hg) as (_ & _ & _ & _ & Hn & Hs). exact (tb_buf_ok _ _ Hn Hs).
Qed.

Lemma seg_ok2_gseg : forall dd g, seg_ok2 dd g = true -> gseg_ok (to_gseg dd g).
Proof.
  intros dd g H. split; [exact (tws_head2 dd dd (s2_head g))|]. split; [exact (seg2_body_runs dd dd g H)|exact (seg2_buf_ok dd g H)].
Qed.

(* the timing skeleton of a line, as an `rseg` of proofs/SccRollPaintLinkFacts.v: `rp_events`, `seg_paint`, `seg_event`,
   `final_paint`, `link_events` only look at the timecode and at the head *)
Definition skel2 (g : rseg2) : rseg := mkSeg (s2_tc g) (s2_head g) 0 [].

Theorem rp_link2 : forall dd off g0 gs t0 evs tend,
  s2_head g0 <> HCr -> forallb (seg_ok2 dd) (g0 :: gs) = true ->
  get_time (s2_tc g0) 0 off = Ok t0 ->
  rp_events off (seg_paint false (skel2 g0)) (map skel2 gs) = Ok evs ->
  (final_paint (seg_paint false (skel2 g0)) (map skel2 gs) = false ->
   get_time (s2_tc (last gs g0)) (Z.of_nat (length (rseg2_words dd (last gs g0)))) off = Ok tend) ->
  spans_of (read off (map (rseg2_line dd) (g0 :: gs))) =
  rp_read t0 (link_events (skel2 g0) (map skel2 gs) evs tend) (final_paint (seg_paint false (skel2 g0)) (map skel2 gs)).
Proof.
  intros dd off g0 gs t0 evs tend Hh Hok.
  exact (rp_link_via rseg2 (to_gseg dd) off g0 gs t0 evs tend Hh (forallb_Forall _ _ _ _ (seg_ok2_gseg dd) Hok)).
Qed.

(* start < end, ordered by start, each caption ends exactly when the next one begins; and the spans are the chain *)
Theorem read_rp_ordered2 : forall dd off g0 gs t0 evs tend l,
  s2_head g0 <> HCr -> forallb (seg_ok2 dd) (g0 :: gs) = true ->
  get_time (s2_tc g0) 0 off = Ok t0 ->
  rp_events off (seg_paint false (skel2 g0)) (map skel2 gs) = Ok evs ->
  (final_paint (seg_paint false (skel2 g0)) (map skel2 gs) = false ->
   get_time (s2_tc (last gs g0)) (Z.of_nat (length (rseg2_words dd (last gs g0)))) off = Ok tend) ->
  rp_nonneg t0 (link_events (skel2 g0) (map skel2 gs) evs tend) ->
  increasing t0 (map rp_time (link_events (skel2 g0) (map skel2 gs) evs tend)) ->
  spans_of (read off (map (rseg2_line dd) (g0 :: gs))) = Ok l ->
  l = rp_spans t0 (link_events (skel2 g0) (map skel2 gs) evs tend) (final_paint (seg_paint false (skel2 g0)) (map skel2 gs)) /\
  Forall (fun p => (fst p < snd p)%Q) l /\
  (forall i a b, nth_error l i = Some a -> nth_error l (S i) = Some b -> (fst a < fst b)%Q /\ snd a = fst b).
Proof.
  intros dd off g0 gs t0 evs tend l Hh Hok.
  exact (read_rp_ordered_via rseg2 (to_gseg dd) off g0 gs t0 evs tend l Hh (forallb_Forall _ _ _ _ (seg_ok2_gseg dd) Hok)).
Qed.


(* every control code doubled, the PAC + tab offset as one unit:
     9425 9425 94ad 94ad 9470 97a2 9470 97a2 "ab" 9137 9137 9137 9137        (two music notes) at row 15 column 2
     94ad 94ad 9470 9470 9137 9137 "ef"                                          (a genuine _roll_up)
     9429 9429 9170 97a3->(9723) ... "gh" 91b0 91b0                              (mode switch to paint-on, registered sign) *)
Definition ex2_g1 : rseg2 := mkSeg2 (lit "00:00:01:00") (HRu D2 true) 38000 (Some 38818) [BChar 24930; BSpec 37175; BSpec 37175].
Definition ex2_g2 : rseg2 := mkSeg2 (lit "00:00:03:00") HCr 38000 None [BSpec 37175; BChar 58854].
Definition ex2_g3 : rseg2 := mkSeg2 (lit "00:00:05:10") HRdc 37232 (Some 38691) [BChar 26472; BSpec 37296].

Example rp_link2_example :
  map (rseg2_line true) [ex2_g1; ex2_g2; ex2_g3] =
    [(lit "00:00:01:00", [37925; 37925; 38061; 38061; 38000; 38818; 38000; 38818; 24930; 37175; 37175; 37175; 37175]);
     (lit "00:00:03:00", [38061; 38061; 38000; 38000; 37175; 37175; 58854]);
     (lit "00:00:05:10", [37929; 37929; 37232; 38691; 37232; 38691; 26472; 37296; 37296])] /\
  map seg2_text [ex2_g1; ex2_g2; ex2_g3] = [[97; 98; 9834; 9834]; [9834; 101; 102]; [103; 104; 174]] /\
  map seg2_pos [ex2_g1; ex2_g2; ex2_g3] = [(15, 2); (15, 0); (2, 3)] /\
  spans_of (read 0 (map (rseg2_line true) [ex2_g1; ex2_g2; ex2_g3])) =
    rp_read 1001000 [RRoll 3003000; RRoll (16016000 # 3)] true /\
  spans_of (read 0 (map (rseg2_line true) [ex2_g1; ex2_g2; ex2_g3])) =
    Ok [(1001000, 3003000); (3003000, 16016000 # 3); (16016000 # 3, (16016000 # 3) + four_s)]%Q.
Proof.
  split; [vm_compute; reflexivity|]. split; [vm_compute; reflexivity|]. split; [vm_compute; reflexivity|].
  assert (L : spans_of (read 0 (map (rseg2_line true) [ex2_g1; ex2_g2; ex2_g3])) =
              rp_read 1001000 [RRoll 3003000; RRoll (16016000 # 3)] true).
  { pose proof (rp_link2 true 0 ex2_g1 [ex2_g2; ex2_g3] 1001000 [RRoll 3003000; RRoll (16016000 # 3)] 0) as L.
    unfold link_events in L.
    change (final_paint (seg_paint false (skel2 ex2_g1)) (map skel2 [ex2_g2; ex2_g3])) with true in L.
    rewrite app_nil_r in L. apply L; try (vm_compute; reflexivity); discriminate. }
  split; [exact L|]. rewrite L. exact (proj2 (proj2 rp_link_mixed_example)).
Qed.

(* sent once, a repeated special character is NOT in the class (`no_rep`): the decoder drops the second music note *)
Example no_rep_needed :
  seg_ok2 true ex2_g1 = true /\ seg_ok2 false ex2_g1 = false /\
  (exists c r, read 0 (map (rseg2_line false) [ex2_g1; ex2_g2; ex2_g3]) = ROk (c :: r) /\
               pc_nodes c = [CText [97; 98; 9834] (15, 2)]).
Proof.
  split; [vm_compute; reflexivity|]. split; [vm_compute; reflexivity|]. eexists. eexists. split; vm_compute; reflexivity.
Qed.


(* ---- an optional second row, addressed on the NEXT screen row: one caption with a line break ---- *)
Record row2 : Type := mkRow2 { r2_pac : Z; r2_tab : option Z; r2_items : list bitem }.
Record rseg3 : Type := mkSeg3 { s3_line : rseg2; s3_row2 : option row2 }.

(* the doubling flags of a line - the head command, the carriage return after an RU command, the
   PAC [+ tab offset] unit and the special characters of each row are sent once or twice independently *)
Record dflags : Type := mkDf { f_h1 : bool; f_h2 : bool; f_u1 : bool; f_i1 : bool; f_u2 : bool; f_i2 : bool }.
Definition uni (dd : bool) : dflags := mkDf dd dd dd dd dd dd.
Definition head_wordsD (a b : bool) (h : rhead) : list Z :=
  match h with
  | HRu n cr => ctl a (ru_word n) ++ (if cr then ctl b w_cr else [])
  | HCr => ctl a w_cr
  | HRdc => ctl a w_rdc
  end.
Definition row2_wordsD (du di : bool) (r : row2) : list Z :=
  pac_unit2 du (r2_pac r) (r2_tab r) ++ flat_map (item_words di) (r2_items r).
Definition rseg3_bodyD (f : dflags) (g : rseg3) : list Z :=
  match s3_row2 g with
  | None => rseg2_bodyD (f_u1 f) (f_i1 f) (s3_line g)
  | Some r => rseg2_bodyD (f_u1 f) (f_i1 f) (s3_line g) ++ row2_wordsD (f_u2 f) (f_i2 f) r
  end.
Definition rseg3_wordsD (f : dflags) (g : rseg3) : list Z :=
  head_wordsD (f_h1 f) (f_h2 f) (s2_head (s3_line g)) ++ rseg3_bodyD f g.
Definition rseg3_lineD (f : dflags) (g : rseg3) : sline := (s2_tc (s3_line g), rseg3_wordsD f g).
(* one flag for the whole program *)
Definition rseg3_words (dd : bool) (g : rseg3) : list Z := rseg3_wordsD (uni dd) g.
Definition rseg3_line (dd : bool) (g : rseg3) : sline := rseg3_lineD (uni dd) g.

(* the buffer and the caption of two adjacent rows: every node carries the position of the FIRST row (the column of the
   second row is dropped by the position tracker) *)
Definition tb2 (t1 t2 : str) (p : pos) : creator := mkCr [mkI IText t1 p; mkI IBreak [] p; mkI IText t2 p] SNone.
Definition tcap2 (start e : Q) (t1 t2 : str) (p : pos) : precap :=
  mkPre start e [CText (rstrip t1) p; CBreak p; CText (rstrip t2) p] (Some p).

Definition next_row (a b : Z) : bool :=
  match pac_pos a, pac_pos b with Some p, Some q => fst q =? fst p + 1 | _, _ => false end.
Definition seg_ok3D (f : dflags) (g : rseg3) : bool :=
  match s3_row2 g with
  | None => seg_ok2 (f_i1 f) (s3_line g)
  | Some r =>
      let g1 := s3_line g in
      plain_pac (s2_pac g1) && tab_ok (s2_tab g1) && forallb item_ok (s2_items g1) && (f_i1 f || no_rep (s2_items g1))
      && nonempty (rstrip (seg2_text g1))
      && plain_pac (r2_pac r) && tab_ok (r2_tab r) && forallb item_ok (r2_items r) && (f_i2 f || no_rep (r2_items r))
      && nonempty (rstrip (items_text (r2_items r))) && next_row (s2_pac g1) (r2_pac r)
      && nil_b' (filter spec_long (spec_lines (rstrip (seg2_text g1) ++ [10] ++ rstrip (items_text (r2_items r)))))
  end.

Definition seg_ok3 (dd : bool) (g : rseg3) : bool := seg_ok3D (uni dd) g.

Definition to_gseg3D (f : dflags) (g : rseg3) : gseg :=
  mkG (s2_tc (s3_line g)) (s2_head (s3_line g)) (head_wordsD (f_h1 f) (f_h2 f) (s2_head (s3_line g))) (rseg3_bodyD f g)
      (match s3_row2 g with
       | None => tb (seg2_text (s3_line g)) (seg2_pos (s3_line g))
       | Some r => tb2 (seg2_text (s3_line g)) (items_text (r2_items r)) (seg2_pos (s3_line g))
       end)
      (fun t => match s3_row2 g with
                | None => tcap t 0 (seg2_text (s3_line g)) (seg2_pos (s3_line g))
                | Some r => tcap2 t 0 (seg2_text (s3_line g)) (items_text (r2_items r)) (seg2_pos (s3_line g))
                end).

Lemma to_gseg3_line : forall f g, gline (to_gseg3D f g) = rseg3_lineD f g.
Proof. reflexivity. Qed.

(* the tracker while the second row is written *)
Definition tkb (p : pos) (brk : option Z) (dflt : pos) : tracker := mkTk [p; (fst p + 1, snd p)] brk false dflt.
Definition T2 (p : pos) (c2 : Z) (dflt : pos) (o : option str) : tracker :=
  tkb p (match o with None => Some c2 | Some _ => None end) dflt.
Definition B2 (t1 : str) (p : pos) (o : option str) : creator :=
  mkCr (mkI IText t1 p :: match o with None => [] | Some t => [mkI IBreak [] p; mkI IText t p] end) SNone.

Lemma add_ok2 : forall t1 p c2 dflt o s,
  add_chars (T2 p c2 dflt o) (B2 t1 p o) s = (T2 p c2 dflt (Some (otext o ++ s)), B2 t1 p (Some (otext o ++ s))).
Proof. intros t1 p c2 dflt [t|] s; reflexivity. Qed.

Lemma tracker_update_next : forall p c2, tracker_update (tkp p) (fst p + 1, c2) = tkb p (Some c2) (fst p + 1, c2).
Proof.
  intros [r c] c2. unfold tracker_update, tkp, tkb. cbn [tk_pos tk_break tk_repos tk_default map last fst snd app].
  rewrite Z.eqb_refl. reflexivity.
Qed.

Lemma tracker_update_tab2 : forall p c2 k, 1 <= k <= 3 ->
  tracker_update (tkb p (Some c2) (fst p + 1, c2)) (fst p + 1, c2 + k) = tkb p (Some c2) (fst p + 1, c2 + k).
Proof.
  intros [r c] c2 k Hk. unfold tracker_update, tkb. cbn [tk_pos tk_break tk_repos tk_default map last fst snd].
  replace (r + 1 =? r + 1 + 1) with false by lia.
  replace ((r + 1 =? r + 1) && (c2 + 1 <=? c2 + k) && (c2 + k <=? c2 + 3)) with true by lia. reflexivity.
Qed.

Lemma interpret_pac2 : forall w p c2 t1 next, plain_pac w = true -> pac_pos w = Some (fst p + 1, c2) ->
  interpret_command (tkp p) (tb t1 p) w next = (tkb p (Some c2) (fst p + 1, c2), tb t1 p, None).
Proof.
  intros w p c2 t1 next Hw Hp. destruct (pac_positioning (tkp p) (tb t1 p) w next Hw eq_refl) as [Ht ->].
  unfold update_positioning. rewrite Ht, Hp. cbn [cr_nodes tb]. rewrite tracker_update_next. reflexivity.
Qed.

Lemma interpret_tab2 : forall w k p c2 t1 next, tab_of w = Some k ->
  interpret_command (tkb p (Some c2) (fst p + 1, c2)) (tb t1 p) w next = (tkb p (Some c2) (fst p + 1, c2 + k), tb t1 p, None).
Proof.
  intros w k p c2 t1 next Hk. rewrite (tab_positioning _ _ w k next Hk). unfold update_positioning. rewrite Hk.
  change (has_break_before (cr_nodes (tb t1 p))) with false. cbv iota.
  change (fst (tk_default (tkb p (Some c2) (fst p + 1, c2)))) with (fst p + 1).
  change (snd (tk_default (tkb p (Some c2) (fst p + 1, c2)))) with c2.
  rewrite (tracker_update_tab2 p c2 k (tab_range w k Hk)). reflexivity.
Qed.

Lemma nc_last_pac : forall l w, nc_last l -> is_pac w = true -> last_contains l w = false.
Proof.
  intros l w [->|(x & -> & _ & Hx)] Hw; [reflexivity|]. cbn [last_contains]. apply Z.eqb_neq. intros ->. congruence.
Qed.

Lemma tws_unit2 : forall dd pac tab rest p c2 pm st l d t1 time tc fr off, plain_pac pac = true ->
  pac_pos pac = Some (fst p + 1, c2) -> tab_ok tab = true -> nc_last l ->
  exists dflt l2 d2, after_unit l2 /\
    translate_words (RS pm st (tkp p) l d (tb t1 p) time tc fr off) (pac_unit2 dd pac tab ++ rest) =
    translate_words (RS pm st (tkb p (Some c2) dflt) l2 d2 (tb t1 p) time tc
                        (fr + Z.of_nat (length (pac_unit2 dd pac tab))) off) rest.
Proof.
  intros dd pac tab rest p c2 pm st l d t1 time tc fr off Hpp Hpos Htab Hl.
  pose proof (proj1 (plain_pac_spec pac Hpp)) as Hpac.
  pose proof (tab_ok_spec tab Htab) as Ht.
  exists (match tab with Some t => match tab_of t with Some k => (fst p + 1, c2 + k) | None => (fst p + 1, c2) end
                       | None => (fst p + 1, c2) end).
  apply (tws_unit_at dd pac tab rest (tkp p) (tkb p (Some c2) (fst p + 1, c2))); [exact Hpac|exact (nc_last_pac l _ Hl Hpac)| |].
  - intros next. apply interpret_pac2; assumption.
  - destruct tab as [t|]; [|reflexivity]. destruct Ht as [k Hk]. rewrite Hk.
    exists k. split; [reflexivity|]. intros next. apply interpret_tab2. exact Hk.
Qed.

Lemma store_tb2 : forall st t1 t2 p start e, nonempty (rstrip t1) = true -> nonempty (rstrip t2) = true ->
  create_and_store st (tb2 t1 t2 p) start e = stash_extend st [tcap2 start e t1 t2 p].
Proof.
  intros st t1 t2 p start e H1 H2. pose proof (nonempty_rstrip t1 H1) as N1. pose proof (nonempty_rstrip t2 H2) as N2.
  unfold create_and_store.
  assert (E : cr_is_empty (tb2 t1 t2 p) = false).
  { unfold cr_is_empty, tb2. cbn [cr_nodes existsb i_text]. rewrite N1. reflexivity. }
  rewrite E. unfold tb2. cbn [cr_nodes].
  assert (F : format_italics [mkI IText t1 p; mkI IBreak [] p; mkI IText t2 p] =
              [mkI IText (rstrip t1) p; mkI IBreak [] p; mkI IText (rstrip t2) p]).
  { unfold format_italics. cbn -[rstrip nonempty]. rewrite N1, N2. cbn -[rstrip nonempty]. reflexivity. }
  rewrite F. cbn [build_captions i_kind i_text]. rewrite H1, H2.
  cbn [build_captions app pc_start pc_end pc_nodes i_pos add_node pc_layout]. reflexivity.
Qed.

Lemma seg_ok3_gseg : forall f g, seg_ok3D f g = true -> gseg_ok (to_gseg3D f g).
Proof.
  intros f [g1 ro] H. split.
  { exact (tws_head2 (f_h1 f) (f_h2 f) (s2_head g1)). }
  destruct ro as [r|]; unfold seg_ok3D, to_gseg3D in *; cbn [s3_row2 s3_line] in *.
  2:{ split; [exact (seg2_body_runs (f_u1 f) (f_i1 f) g1 H)|exact (seg2_buf_ok (f_i1 f) g1 H)]. }
  cbv zeta in H. rewrite !andb_true_iff in H.
  destruct H as [[[[[[[[[[[A1 A2] A3] A4] A5] B1] B2'] B3] B4] B5] Hnr] Hsh].
  pose proof (proj1 (plain_pac_spec _ A1)) as Hp1.
  unfold is_pac in Hp1. destruct (pac_pos (s2_pac g1)) as [p|] eqn:Hpos1; [|discriminate Hp1].
  unfold next_row in Hnr. rewrite Hpos1 in Hnr. destruct (pac_pos (r2_pac r)) as [q|] eqn:Hpos2; [|discriminate Hnr].
  apply Z.eqb_eq in Hnr.
  assert (Hrow : fst (seg2_pos g1) = fst p).
  { unfold seg2_pos. rewrite Hpos1. destruct (s2_tab g1) as [t|]; [|reflexivity]. destruct (tab_of t); reflexivity. }
  destruct (s2_items g1) as [|it1 r1] eqn:E1.
  { unfold seg2_text in A5. rewrite E1 in A5. discriminate A5. }
  destruct (r2_items r) as [|it2 r2] eqn:E2; [discriminate B5|].
  set (P := seg2_pos g1) in *. set (t1 := seg2_text g1) in *. set (t2 := items_text (it2 :: r2)) in *.
  assert (Hpos2' : pac_pos (r2_pac r) = Some (fst P + 1, snd q)).
  { rewrite Hpos2, Hrow, <- Hnr. destruct q; reflexivity. }
  split.
  - intros pm st tk l d time tc fr off Hl. cbn [g_body g_buf]. unfold rseg3_bodyD. cbn [s3_row2 s3_line].
    destruct (row1_runs (f_u1 f) (f_i1 f) g1 p it1 r1 (row2_wordsD (f_u2 f) (f_i2 f) r) pm st tk l d time tc fr off A1 Hpos1 A2 E1 A3 A4 Hl)
      as (l1 & d1 & Hl1 & Ea). rewrite Ea. fold P. fold t1. unfold row2_wordsD.
    destruct (tws_unit2 (f_u2 f) (r2_pac r) (r2_tab r) (flat_map (item_words (f_i2 f)) (r2_items r)) P (snd q) pm st l1 d1 t1 time tc
                (fr + Z.of_nat (length (rseg2_bodyD (f_u1 f) (f_i1 f) g1))) off B1 Hpos2' B2' Hl1) as (dflt & l2 & d2 & Hl2 & Eb).
    rewrite Eb. rewrite E2.
    assert (Hpre : pre1 l2 it2).
    { cbn [forallb] in B3. apply andb_true_iff in B3. exact (after_unit_pre1 l2 it2 Hl2 (proj1 B3)). }
    change (tkb P (Some (snd q)) dflt) with (T2 P (snd q) dflt None). change (tb t1 P) with (B2 t1 P None).
    destruct (tws_items (T2 P (snd q) dflt) (B2 t1 P) (add_ok2 t1 P (snd q) dflt) (f_i2 f) r2 it2 [] pm st l2 d2 None time tc
                (fr + Z.of_nat (length (rseg2_bodyD (f_u1 f) (f_i1 f) g1)) + Z.of_nat (length (pac_unit2 (f_u2 f) (r2_pac r) (r2_tab r)))) off
                B3 B4 Hpre) as (l' & d' & Hl' & Ec).
    rewrite app_nil_r in Ec. rewrite Ec. cbn [translate_words otext app].
    eexists. exists l', d'. split; [apply nc_last_quiet; exact Hl'|]. fold t2. 
    change (B2 t1 P (Some t2)) with (tb2 t1 t2 P). apply RS_frames. rewrite !app_length, !Nat2Z.inj_add. ring.
  - unfold buf_ok. cbn [g_buf g_cap]. split.
    + pose proof (nonempty_rstrip _ A5) as H0. destruct t1 as [|c0 txt]; [discriminate H0|].
      exists IText, c0, txt, P, [mkI IBreak [] P; mkI IText t2 P], SNone. reflexivity.
    + intros st time. split; [apply store_tb2; assumption|].
      split; [reflexivity|]. split; [reflexivity|]. split; [reflexivity|].
      unfold cap_text, tcap2. cbn [pc_nodes map node_text concat]. rewrite app_nil_r.
      destruct (filter _ _); [reflexivity|discriminate Hsh].
Qed.

Definition rseg4 : Type := (dflags * rseg3)%type.
Definition rseg4_words (x : rseg4) : list Z := rseg3_wordsD (fst x) (snd x).
Definition rseg4_line (x : rseg4) : sline := rseg3_lineD (fst x) (snd x).
Definition seg_ok4 (x : rseg4) : bool := seg_ok3D (fst x) (snd x).
Definition skel3 (g : rseg3) : rseg := skel2 (s3_line g).
Definition skel4 (x : rseg4) : rseg := skel3 (snd x).
(* every line with its own flags *)
Theorem rp_link4 : forall off g0 gs t0 evs tend,
  s2_head (s3_line (snd g0)) <> HCr -> forallb seg_ok4 (g0 :: gs) = true ->
  get_time (s2_tc (s3_line (snd g0))) 0 off = Ok t0 ->
  rp_events off (seg_paint false (skel4 g0)) (map skel4 gs) = Ok evs ->
  (final_paint (seg_paint false (skel4 g0)) (map skel4 gs) = false ->
   get_time (s2_tc (s3_line (snd (last gs g0)))) (Z.of_nat (length (rseg4_words (last gs g0)))) off = Ok tend) ->
  spans_of (read off (map rseg4_line (g0 :: gs))) =
  rp_read t0 (link_events (skel4 g0) (map skel4 gs) evs tend) (final_paint (seg_paint false (skel4 g0)) (map skel4 gs)).
Proof.
  intros off g0 gs t0 evs tend Hh Hok.
  exact (rp_link_via rseg4 (fun x => to_gseg3D (fst x) (snd x)) off g0 gs t0 evs tend Hh
           (forallb_Forall _ _ _ _ (fun x => seg_ok3_gseg (fst x) (snd x)) Hok)).
Qed.

Theorem read_rp_ordered4 : forall off g0 gs t0 evs tend l,
  s2_head (s3_line (snd g0)) <> HCr -> forallb seg_ok4 (g0 :: gs) = true ->
  get_time (s2_tc (s3_line (snd g0))) 0 off = Ok t0 ->
  rp_events off (seg_paint false (skel4 g0)) (map skel4 gs) = Ok evs ->
  (final_paint (seg_paint false (skel4 g0)) (map skel4 gs) = false ->
   get_time (s2_tc (s3_line (snd (last gs g0)))) (Z.of_nat (length (rseg4_words (last gs g0)))) off = Ok tend) ->
  rp_nonneg t0 (link_events (skel4 g0) (map skel4 gs) evs tend) ->
  increasing t0 (map rp_time (link_events (skel4 g0) (map skel4 gs) evs tend)) ->
  spans_of (read off (map rseg4_line (g0 :: gs))) = Ok l ->
  l = rp_spans t0 (link_events (skel4 g0) (map skel4 gs) evs tend) (final_paint (seg_paint false (skel4 g0)) (map skel4 gs)) /\
  Forall (fun p => (fst p < snd p)%Q) l /\
  (forall i a b, nth_error l i = Some a -> nth_error l (S i) = Some b -> (fst a < fst b)%Q /\ snd a = fst b).
Proof.
  intros off g0 gs t0 evs tend l Hh Hok.
  exact (read_rp_ordered_via rseg4 (fun x => to_gseg3D (fst x) (snd x)) off g0 gs t0 evs tend l Hh
           (forallb_Forall _ _ _ _ (fun x => seg_ok3_gseg (fst x) (snd x)) Hok)).
Qed.

Theorem rp_link3 : forall dd off g0 gs t0 evs tend,
  s2_head (s3_line g0) <> HCr -> forallb (seg_ok3 dd) (g0 :: gs) = true ->
  get_time (s2_tc (s3_line g0)) 0 off = Ok t0 ->
  rp_events off (seg_paint false (skel3 g0)) (map skel3 gs) = Ok evs ->
  (final_paint (seg_paint false (skel3 g0)) (map skel3 gs) = false ->
   get_time (s2_tc (s3_line (last gs g0))) (Z.of_nat (length (rseg3_words dd (last gs g0)))) off = Ok tend) ->
  spans_of (read off (map (rseg3_line dd) (g0 :: gs))) =
  rp_read t0 (link_events (skel3 g0) (map skel3 gs) evs tend) (final_paint (seg_paint false (skel3 g0)) (map skel3 gs)).
Proof.
  intros dd off g0 gs t0 evs tend Hh Hok.
  exact (rp_link_via rseg3 (to_gseg3D (uni dd)) off g0 gs t0 evs tend Hh (forallb_Forall _ _ _ _ (seg_ok3_gseg (uni dd)) Hok)).
Qed.

Theorem read_rp_ordered3 : forall dd off g0 gs t0 evs tend l,
  s2_head (s3_line g0) <> HCr -> forallb (seg_ok3 dd) (g0 :: gs) = true ->
  get_time (s2_tc (s3_line g0)) 0 off = Ok t0 ->
  rp_events off (seg_paint false (skel3 g0)) (map skel3 gs) = Ok evs ->
  (final_paint (seg_paint false (skel3 g0)) (map skel3 gs) = false ->
   get_time (s2_tc (s3_line (last gs g0))) (Z.of_nat (length (rseg3_words dd (last gs g0)))) off = Ok tend) ->
  rp_nonneg t0 (link_events (skel3 g0) (map skel3 gs) evs tend) ->
  increasing t0 (map rp_time (link_events (skel3 g0) (map skel3 gs) evs tend)) ->
  spans_of (read off (map (rseg3_line dd) (g0 :: gs))) = Ok l ->
  l = rp_spans t0 (link_events (skel3 g0) (map skel3 gs) evs tend) (final_paint (seg_paint false (skel3 g0)) (map skel3 gs)) /\
  Forall (fun p => (fst p < snd p)%Q) l /\
  (forall i a b, nth_error l i = Some a -> nth_error l (S i) = Some b -> (fst a < fst b)%Q /\ snd a = fst b).
Proof.
  intros dd off g0 gs t0 evs tend l Hh Hok.
  exact (read_rp_ordered_via rseg3 (to_gseg3D (uni dd)) off g0 gs t0 evs tend l Hh
           (forallb_Forall _ _ _ _ (seg_ok3_gseg (uni dd)) Hok)).
Qed.


(* 9425 9425 94ad 94ad 9170 9170 "ab" 9240 97a1 9240 97a1 9137 9137 "cd": rows 2 and 3, one caption "ab" BREAK "(note)cd" *)
Definition ex3_g1 : rseg3 := mkSeg3 (mkSeg2 (lit "00:00:01:00") (HRu D2 true) 37232 None [BChar 24930])
                                    (Some (mkRow2 37440 (Some 38817) [BSpec 37175; BChar 58212])).
Definition ex3_g2 : rseg3 := mkSeg3 ex2_g2 None.
Definition ex3_g3 : rseg3 := mkSeg3 ex2_g3 None.

Example rp_link3_example :
  map (rseg3_line true) [ex3_g1; ex3_g2; ex3_g3] =
    [(lit "00:00:01:00", [37925; 37925; 38061; 38061; 37232; 37232; 24930; 37440; 38817; 37440; 38817; 37175; 37175; 58212]);
     (lit "00:00:03:00", [38061; 38061; 38000; 38000; 37175; 37175; 58854]);
     (lit "00:00:05:10", [37929; 37929; 37232; 38691; 37232; 38691; 26472; 37296; 37296])] /\
  (exists c r, read 0 (map (rseg3_line true) [ex3_g1; ex3_g2; ex3_g3]) = ROk (c :: r) /\
               pc_nodes c = [CText [97; 98] (2, 0); CBreak (2, 0); CText [9834; 99; 100] (2, 0)]) /\
  spans_of (read 0 (map (rseg3_line true) [ex3_g1; ex3_g2; ex3_g3])) =
    rp_read 1001000 [RRoll 3003000; RRoll (16016000 # 3)] true /\
  spans_of (read 0 (map (rseg3_line true) [ex3_g1; ex3_g2; ex3_g3])) =
    Ok [(1001000, 3003000); (3003000, 16016000 # 3); (16016000 # 3, (16016000 # 3) + four_s)]%Q.
Proof.
  split; [vm_compute; reflexivity|]. split; [eexists; eexists; split; vm_compute; reflexivity|].
  assert (L : spans_of (read 0 (map (rseg3_line true) [ex3_g1; ex3_g2; ex3_g3])) =
              rp_read 1001000 [RRoll 3003000; RRoll (16016000 # 3)] true).
  { pose proof (rp_link3 true 0 ex3_g1 [ex3_g2; ex3_g3] 1001000 [RRoll 3003000; RRoll (16016000 # 3)] 0) as L.
    unfold link_events in L.
    change (final_paint (seg_paint false (skel3 ex3_g1)) (map skel3 [ex3_g2; ex3_g3])) with true in L.
    rewrite app_nil_r in L. apply L; try (vm_compute; reflexivity); discriminate. }
  split; [exact L|]. rewrite L. exact (proj2 (proj2 rp_link_mixed_example)).
Qed.

(* rows that are NOT adjacent (row 2 then row 15 in one roll-up buffer): create_and_store cuts the buffer at the REPOSITION
   node and stores TWO captions with the same span, while `rprun` adds one cue per event: the link holds up to `screens`
   (spec/SpecSccTime.v), not on the nose *)
Definition ex_nonadj : list sline :=
  [(lit "00:00:01:00", [37925; 38061; 37232; 24930; 38000; 58212]); (lit "00:00:03:00", [38061; 38000; 58854])].

Example nonadjacent_rows_duplicate :
  exists l l', spans_of (read 0 ex_nonadj) = Ok l /\ rp_read 1001000 [RRoll 3003000; RRoll 3103100] false = Ok l' /\
    l = [(1001000, 3003000); (1001000, 3003000); (3003000, 3103100)]%Q /\ l <> l' /\ screens l = l'.
Proof.
  eexists. eexists. split; [vm_compute; reflexivity|]. split; [vm_compute; reflexivity|]. split; [reflexivity|].
  split; [discriminate|vm_compute; reflexivity].
Qed.

(* line 1: RU2 doubled, CR single, first PAC single, second PAC + tab offset doubled as a unit, music note single;
   line 2: everything single; line 3: RDC single, PAC + tab offset doubled, registered sign single *)
Definition ex4_x1 : rseg4 := (mkDf true false false true true false, ex3_g1).
Definition ex4_x2 : rseg4 := (uni false, ex3_g2).
Definition ex4_x3 : rseg4 := (mkDf false true true false false false, ex3_g3).

Example rp_link4_example :
  map rseg4_line [ex4_x1; ex4_x2; ex4_x3] =
    [(lit "00:00:01:00", [37925; 37925; 38061; 37232; 24930; 37440; 38817; 37440; 38817; 37175; 58212]);
     (lit "00:00:03:00", [38061; 38000; 37175; 58854]);
     (lit "00:00:05:10", [37929; 37232; 38691; 37232; 38691; 26472; 37296])] /\
  spans_of (read 0 (map rseg4_line [ex4_x1; ex4_x2; ex4_x3])) =
    rp_read 1001000 [RRoll 3003000; RRoll (16016000 # 3)] true /\
  spans_of (read 0 (map rseg4_line [ex4_x1; ex4_x2; ex4_x3])) =
    Ok [(1001000, 3003000); (3003000, 16016000 # 3); (16016000 # 3, (16016000 # 3) + four_s)]%Q.
Proof.
  split; [vm_compute; reflexivity|].
  assert (L : spans_of (read 0 (map rseg4_line [ex4_x1; ex4_x2; ex4_x3])) =
              rp_read 1001000 [RRoll 3003000; RRoll (16016000 # 3)] true).
  { pose proof (rp_link4 0 ex4_x1 [ex4_x2; ex4_x3] 1001000 [RRoll 3003000; RRoll (16016000 # 3)] 0) as L.
    unfold link_events in L.
    change (final_paint (seg_paint false (skel4 ex4_x1)) (map skel4 [ex4_x2; ex4_x3])) with true in L.
    rewrite app_nil_r in L. apply L; try (vm_compute; reflexivity); discriminate. }
  split; [exact L|]. rewrite L. exact (proj2 (proj2 rp_link_mixed_example)).
Qed.

Print Assumptions rp_linkG.
Print Assumptions read_rp_orderedG.
Print Assumptions rp_link2.
Print Assumptions read_rp_ordered2.
Print Assumptions rp_link2_example.
Print Assumptions no_rep_needed.
Print Assumptions rp_link3.
Print Assumptions read_rp_ordered3.
Print Assumptions rp_link3_example.
Print Assumptions nonadjacent_rows_duplicate.
Print Assumptions rp_link4.
Print Assumptions read_rp_ordered4.
Print Assumptions rp_link4_example.
