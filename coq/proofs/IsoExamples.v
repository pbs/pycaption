(* IsoExamples.v - concrete histories: non-vacuity of the C09 / C10 theorems and the `_refuted` witnesses for the
   behaviour before the three repairs in pycaption. *)
From Coq Require Import List ZArith Bool Arith Lia String.
From PV Require Import lib.Sx lib.Str lib.Result model.Store model.Iso proofs.StoreFacts proofs.IsoFacts.
Import ListNotations.
Open Scope Z_scope.

Definition t_text (s : string) : tree :=
  TNode KNode [(TInt 1, TInt 1); (TInt 2, TStr (lit s)); (TInt 3, TNone); (TInt 4, TNone); (TInt 5, TNone)].
Definition t_italics (start : bool) : tree :=
  TNode KNode [(TInt 1, TInt 2); (TInt 2, TNode KDict [(TStr (lit "s:italics"), TStr (lit "b:True"))]);
               (TInt 3, TStr (if start then lit "b:True" else lit "b:False")); (TInt 4, TNone); (TInt 5, TNone)].
Definition t_lay (c : Z) : tree := TNode KLayout [(TInt 1, TInt c); (TInt 2, TNone)].
Definition t_cap (style : tree) (nodes : list tree) (lay : tree) : tree :=
  TNode KCaption [(TInt 1, TInt 0); (TInt 2, TInt 1000000);
                  (TInt 3, TNode KList (map (fun n => (TNone, n)) nodes)); (TInt 4, style); (TInt 5, lay)].
Definition t_set (styles : tree) (caps : list tree) : tree :=
  TNode KSet [(TInt 1, TNode KDict [(TStr (lit "s:en"), TNode KCapList ((TInt 1, TNone) :: map (fun c => (TNone, c)) caps))]);
              (TInt 2, styles); (TInt 3, TNone)].
Definition t_dict0 : tree := TNode KDict [].

(* a caption with a style start and no end / a balanced one; explicit style dicts *)
Definition unbalanced : tree := t_set t_dict0 [t_cap t_dict0 [t_italics true; t_text "open"] TNone].
Definition balanced : tree := t_set t_dict0 [t_cap t_dict0 [t_italics true; t_text "fine"; t_italics false] TNone].
(* layout with an origin and no extent (flags: truthy + origin): fit_to_screen builds a new Layout *)
Definition positioned : tree := t_set t_dict0 [t_cap t_dict0 [t_text "x"] (t_lay 18)].

Definition dflt_opts : wopts := mkWopts true true false TNone None false.

Definition tokens_of (r : list (mobs * list tree)) (i : nat) : list Z :=
  match nth_error r i with Some (m, _) => mo_tokens m | None => [] end.
Definition trees_of (r : list (mobs * list tree)) (i : nat) : list tree :=
  match nth_error r i with Some (_, t) => t | None => [] end.

(* the history of defect 15: one DFXP writer object writes the unbalanced set, then the balanced one;
   a fresh object writes the balanced one *)
Definition hist15 (k : Z) : list op :=
  [OBuild unbalanced; OBuild balanced;
   OWrite 0 k dflt_opts 1; OWrite 0 k dflt_opts 0; OWrite 0 k dflt_opts 1; OWrite 1 k dflt_opts 1].

(* before the repair the reused writer starts the balanced document with a stray close tag *)
Theorem open_span_leak_refuted :
  let r := run (mkCfg true true false) world0 (hist15 W_DFXP) in
  tokens_of r 4 <> tokens_of r 5 /\ tokens_of r 4 <> tokens_of r 2.
Proof. vm_compute. split; discriminate. Qed.

Theorem open_span_leak_refuted_sami :
  let r := run (mkCfg true true false) world0 (hist15 W_SAMI) in tokens_of r 4 <> tokens_of r 5.
Proof. vm_compute. discriminate. Qed.

(* after it: same object again = fresh object = first time *)
Example open_span_reset_example :
  forall k, In k [W_DFXP; W_SAMI; W_LEGACY; W_SINGLE] ->
  let r := run fixed world0 (hist15 k) in
  tokens_of r 4 = tokens_of r 5 /\ tokens_of r 4 = tokens_of r 2.
Proof.
  intros k Hk. simpl in Hk. destruct Hk as [<-|[<-|[<-|[<-|[]]]]]; vm_compute; split; reflexivity.
Qed.

(* non-vacuity of write_inv / write_preserves_input: the DFXP writer does assign (to its copy), the input keeps its
   snapshot *)
Example dfxp_write_assigns_on_its_copy :
  let w1 := run_world fixed world0 [OBuild positioned] in
  let s := nth 0 (w_sets w1) VNone in
  let r := write fixed W_DFXP dflt_opts winst0 (w_st w1) s in
  wr_fp r = [(KCaption, 5)] /\ wr_copies r = 1 /\
  (List.length (w_st w1) < List.length (wr_store r))%nat /\
  snap FUEL (wr_store r) s = snap FUEL (w_st w1) s /\
  snap FUEL (w_st w1) s = positioned.
Proof.
  cbv zeta. split; [vm_compute; reflexivity|]. split; [vm_compute; reflexivity|].
  split; [vm_compute; lia|]. split; vm_compute; reflexivity.
Qed.

(* the same assignments applied to the INPUT instead of a copy (the deepcopy line deleted) change its snapshot:
   the footprint theorem is not true of a writer model without the copy *)
Definition dfxp_assign_in_place (st : store) (s : val) : store :=
  let t := snap FUEL st s in
  let p := make_plan W_DFXP dflt_opts false TNone t in
  fst (apply_slots st (dfxp_slots st (sel_langs st s (keys_of (dfxp_langs dflt_opts t)))) (p_slots p) []).

Theorem write_without_copy_refuted :
  let w1 := run_world fixed world0 [OBuild positioned] in
  let s := nth 0 (w_sets w1) VNone in
  snap FUEL (dfxp_assign_in_place (w_st w1) s) s <> snap FUEL (w_st w1) s.
Proof. vm_compute. discriminate. Qed.

(* an error exit: px units, no video size -> RelativizationError, input untouched, open_span as it was *)
Definition absolute : tree := t_set t_dict0 [t_cap t_dict0 [t_text "x"] (t_lay 23)].

Example dfxp_error_exit :
  let w1 := run_world fixed world0 [OBuild absolute] in
  let s := nth 0 (w_sets w1) VNone in
  let r := write fixed W_DFXP dflt_opts winst0 (w_st w1) s in
  wr_result r = Err ERelativization /\ snap FUEL (wr_store r) s = snap FUEL (w_st w1) s.
Proof. vm_compute. split; reflexivity. Qed.

From PV Require Import proofs.RegionFacts.

(* pristine results of two small documents (what the real readers return; empty style dicts are explicit here, the
   reader models decide which of them come from default arguments) *)
Definition doc_a : tree := t_set t_dict0 [t_cap t_dict0 [t_text "hello"] TNone].
Definition doc_b : tree := t_set t_dict0 [t_cap t_dict0 [t_text "other"] TNone].
Definition red : tree := TNode KDict [(TStr (lit "s:color"), TStr (lit "s:red"))].

Definition set_after (c : cfg) (ops : list op) (k : nat) : tree :=
  let w := run_world c world0 ops in snap FUEL (w_st w) (nth k (w_sets w) VNone).

(* defect 2 (before the base.py repair): read A, read B, A.add_style(..) shows up in B; so does a caption style;
   and a LATER read of B's document no longer returns what a pristine read returns *)
Theorem shared_default_refuted :
  let c := mkCfg false true true in
  let h := [ORead 0 R_SRT doc_a; ORead 1 R_SRT doc_b] in
  set_after c (h ++ [OEdit 0 (EAddStyle (TStr (lit "s:x")) red)]) 1 <> set_after c h 1 /\
  set_after c (h ++ [OEdit 0 (ECapStyle 0 0 (TStr (lit "s:bold")) (TStr (lit "b:True")))]) 1 <> set_after c h 1 /\
  set_after c (h ++ [OEdit 0 (EAddStyle (TStr (lit "s:x")) red); ORead 2 R_SRT doc_b]) 2 <> doc_b.
Proof. vm_compute. repeat split; discriminate. Qed.

(* defect 3 (before the SCCReader repair): the second read of one reader object also returns the first read's
   captions, and shares their node lists with the first result *)
Theorem scc_reuse_refuted :
  let c := mkCfg true false true in
  set_after c [ORead 0 R_SCC doc_a; ORead 0 R_SCC doc_b] 1 <> set_after c [ORead 0 R_SCC doc_a; ORead 1 R_SCC doc_b] 1 /\
  (let w := run_world c world0 [ORead 0 R_SCC doc_a; ORead 0 R_SCC doc_b] in
   shares FUEL (w_st w) (nth 0 (w_sets w) VNone) (nth 1 (w_sets w) VNone) = true).
Proof. vm_compute. split; [discriminate|reflexivity]. Qed.

(* after the repairs: the same histories behave *)
Example isolation_example :
  let h := [ORead 0 R_SRT doc_a; ORead 1 R_SRT doc_b] in
  set_after fixed (h ++ [OEdit 0 (EAddStyle (TStr (lit "s:x")) red)]) 1 = doc_b /\
  set_after fixed (h ++ [OEdit 0 (EAddStyle (TStr (lit "s:x")) red)]) 0 <> doc_a /\
  set_after fixed (h ++ [OEdit 0 (EAddStyle (TStr (lit "s:x")) red); ORead 0 R_SRT doc_b]) 2 = doc_b /\
  set_after fixed [ORead 0 R_SCC doc_a; ORead 0 R_SCC doc_b] 1 = doc_b /\
  set_after fixed [ORead 0 R_SCC doc_a; ORead 0 R_SCC doc_b] 0 = doc_a.
Proof. vm_compute. repeat split; try reflexivity; discriminate. Qed.

(* ---- non-empty worlds for the history theorems ------------------------------------------------------------------------ *)
Definition belowb (n : nat) (v : val) : bool := match v with VLoc l => Nat.ltb l n | _ => true end.
Definition wfb (st : store) : bool :=
  forallb (fun o => forallb (fun kv => belowb (List.length st) (fst kv) && belowb (List.length st) (snd kv)) (o_items o)) st.
Definition wf_worldb (w : world) : bool := wfb (w_st w) && forallb (belowb (List.length (w_st w))) (w_sets w).

Lemma belowb_sound : forall n v, belowb n v = true -> below n v.
Proof. intros n [] H; simpl in *; auto. apply Nat.ltb_lt. exact H. Qed.

Lemma wfb_sound : forall st, wfb st = true -> wf st.
Proof.
  intros st H l o Hg. unfold wfb in H. rewrite forallb_forall in H.
  specialize (H o (nth_error_In _ _ Hg)). rewrite forallb_forall in H.
  unfold items_below. apply Forall_forall. intros kv Hin. specialize (H kv Hin).
  apply andb_true_iff in H. destruct H. split; apply belowb_sound; assumption.
Qed.

Lemma wf_worldb_sound : forall w, wf_worldb w = true -> wf_world w.
Proof.
  intros w H. apply andb_true_iff in H. destruct H as [A B]. split; [apply wfb_sound; exact A|].
  apply Forall_forall. intros v Hv. rewrite forallb_forall in B. apply belowb_sound. auto.
Qed.

(* two sets that SHARE objects (the two default-argument dicts, before the base.py repair) plus a third one *)
Definition shared_world : world :=
  run_world (mkCfg false true true) world0 [ORead 0 R_SRT doc_a; ORead 1 R_SRT doc_b; OBuild positioned].

Example shared_world_wf : wf_world shared_world /\ List.length (w_sets shared_world) = 3%nat /\
  shares FUEL (w_st shared_world) (nth 0 (w_sets shared_world) VNone) (nth 1 (w_sets shared_world) VNone) = true.
Proof. split; [apply wf_worldb_sound; vm_compute; reflexivity|]. vm_compute. split; reflexivity. Qed.

Definition some_writes : list op :=
  [OWrite 0 W_DFXP dflt_opts 2; OWrite 1 W_SAMI dflt_opts 0; OWrite 0 W_DFXP dflt_opts 1; OWrite 2 W_LEGACY dflt_opts 2;
   OWrite 3 W_SINGLE (mkWopts true true false TNone (Some 18) false) 2].

(* the hypotheses of the history theorems hold on it, and the conclusion is not `[] = []` *)
Example history_theorem_instance :
  forallb is_write some_writes = true /\
  map (snap FUEL (w_st (run_world fixed shared_world some_writes))) (w_sets (run_world fixed shared_world some_writes))
  = [doc_a; doc_b; positioned] /\
  (List.length (w_st shared_world) < List.length (w_st (run_world fixed shared_world some_writes)))%nat.
Proof. split; [reflexivity|]. split; [vm_compute; reflexivity|vm_compute; lia]. Qed.

(* the region invariant and the edit footprint on a concrete world: set 0 owns the interval its read allocated *)
Definition two_reads : world := run_world fixed world0 [ORead 0 R_DFXP doc_a; ORead 1 R_SCC doc_b].

Example edit_footprint_instance :
  let st := w_st two_reads in
  let s0 := nth 0 (w_sets two_reads) VNone in
  let s1 := nth 1 (w_sets two_reads) VNone in
  let st' := do_edit fixed st s0 (EAppendNode 0 0 (t_text "more")) in
  snap FUEL st' s1 = snap FUEL st s1 /\ snap FUEL st' s0 <> snap FUEL st s0 /\ shares FUEL st' s0 s1 = false.
Proof. vm_compute. split; [reflexivity|split; [discriminate|reflexivity]]. Qed.

(* ---- the hypotheses of the model-meets-oracle theorems are satisfiable on histories that write ------------------------- *)
From PV Require Import spec.SpecIso proofs.OracleFacts.

Definition small_history : list op :=
  [OBuild positioned; OWrite 0 W_DFXP dflt_opts 0; OBuild unbalanced; OWrite 0 W_DFXP dflt_opts 1;
   OWrite 0 W_DFXP dflt_opts 0; OWrite 1 W_DFXP dflt_opts 0].

(* and the oracle really runs over write records with equal keys and equal snapshots there *)
Example small_history_observations :
  map (fun o => (io_kind o, io_set o)) (model_obs fixed world0 small_history)
  = [(0, 0); (2, 0); (0, 1); (2, 1); (2, 0); (2, 0)]%Z /\
  check_hist tree tree_eqb TCut true true 0 [] [] (model_obs fixed world0 small_history) = [].
Proof. vm_compute. split; reflexivity. Qed.

(* the oracle is not vacuous on model observations: before the open_span repair it reports clause 2 *)
Example oracle_reports_open_span_leak :
  check_hist tree tree_eqb TCut true false 0 [] [] (model_obs (mkCfg true true false) world0 (hist15 W_DFXP)) = [(4, 2); (5, 2)]%Z.
Proof. vm_compute. reflexivity. Qed.

(* ... and before the default-dict repair it reports clause 5 (edit of set 0 changes set 1) and clause 4 *)
Example oracle_reports_shared_default :
  check_hist tree tree_eqb TCut false true 0 [] []
    (model_obs (mkCfg false true true) world0
       [ORead 0 R_SRT doc_a; ORead 1 R_SRT doc_b; OEdit 0 (EAddStyle (TStr (lit "s:x")) red); ORead 2 R_SRT doc_b])
  = [(2, 5); (3, 4)]%Z.
Proof. vm_compute. reflexivity. Qed.

(* ---- DAG-shaped read results: a span's start and end node carry ONE dict ------------------------------------------------ *)
Definition t_italics_end_shared : tree :=
  TNode KNode [(TInt 1, TInt 2); (TInt 2, TNode KShare []); (TInt 3, TStr (lit "b:False")); (TInt 4, TNone); (TInt 5, TNone)].
Definition doc_span : tree :=
  t_set t_dict0 [t_cap t_dict0 [t_italics true; t_text "x"; t_italics_end_shared] TNone].
(* what its snapshot looks like: the end node shows the start node's dict *)
Definition doc_span_snapshot : tree :=
  t_set t_dict0 [t_cap t_dict0 [t_italics true; t_text "x"; t_italics false] TNone].

Definition content_of (t : tree) (ni : nat) : tree :=
  let cap := nth 0 (telems (snd (nth 0 (set_langs_t t) (TNone, TNone)))) TNone in
  tfield (nth ni (cap_nodes_t cap) TNone) 2.

Example span_dict_is_shared_in_the_model :
  set_after fixed [ORead 0 R_DFXP doc_span] 0 = doc_span_snapshot /\
  (* node.content['color'] = 'pink' on the START node (index 0) shows up in the END node (index 2) too *)
  let after := set_after fixed [ORead 0 R_DFXP doc_span;
                                OEdit 0 (ENodeDict 0 0 0 (TStr (lit "s:color")) (TStr (lit "s:pink")))] 0 in
  content_of after 0 = content_of after 2 /\ content_of after 0 <> content_of doc_span_snapshot 0 /\
  (* ... but not when the reader built two dict literals (no marker: SAMI <i>, SCC) *)
  let after' := set_after fixed [ORead 0 R_DFXP doc_span_snapshot;
                                 OEdit 0 (ENodeDict 0 0 0 (TStr (lit "s:color")) (TStr (lit "s:pink")))] 0 in
  content_of after' 0 <> content_of after' 2.
Proof. vm_compute. repeat split; try reflexivity; discriminate. Qed.
