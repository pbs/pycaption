(* Facts about the SCC time translator model (C06): decimal round trip, exactness of get_time on rendered
   timecodes, the 1001/1000 relation, the 1/3-microsecond lattice, and the slack of the joining threshold. *)
From Coq Require Import List ZArith QArith Qabs Lia Bool ZifyBool.
From PV Require Import lib.Sx lib.Str lib.Result model.GenScc model.SccTime model.SccStash spec.SpecSccTime.
From PV Require lib.StrFacts.
Import ListNotations.

Local Open Scope Z_scope.

(* 1. decimal printing round trip                                                                    *)

Definition dfold (ds : str) (a : Z) : Z := fold_left (fun a c => a * 10 + (c - 48)) ds a.

Lemma dva_fold : forall ds a, forallb is_digit ds = true -> digits_val_acc ds a = Some (dfold ds a).
Proof.
  induction ds as [|c t IH]; intros a H.
  - reflexivity.
  - simpl in H. apply andb_prop in H. destruct H as [Hc Ht].
    simpl. rewrite Hc. unfold digit_val. rewrite IH by assumption. reflexivity.
Qed.

Lemma dec_aux_spec : forall fuel z acc, 0 <= z -> z < 2 ^ Z.of_nat fuel -> (1 <= fuel)%nat ->
  exists ds, dec_aux fuel z acc = ds ++ acc /\ ds <> [] /\ forallb is_digit ds = true /\ dfold ds 0 = z.
Proof.
  induction fuel as [|f IH]; intros z acc Hz Hlt Hf; [lia|].
  change (dec_aux (S f) z acc) with
    (if z <? 10 then (48 + z mod 10) :: acc else dec_aux f (z / 10) ((48 + z mod 10) :: acc)).
  destruct (z <? 10) eqn:E.
  - exists [48 + z mod 10]. split; [reflexivity|]. split; [discriminate|].
    assert (z mod 10 = z) by (apply Z.mod_small; lia).
    rewrite H. split.
    + cbn [forallb]. unfold is_digit. lia.
    + unfold dfold; cbn [fold_left]. lia.
  - assert (Hf1 : (1 <= f)%nat). { destruct f; [simpl in Hlt; lia | lia]. }
    rewrite Nat2Z.inj_succ, Z.pow_succ_r in Hlt by lia.
    destruct (IH (z / 10) ((48 + z mod 10) :: acc)) as (ds & E1 & E2 & E3 & E4).
    + apply Z.div_pos; lia.
    + apply Z.div_lt_upper_bound; lia.
    + assumption.
    + exists (ds ++ [48 + z mod 10]). rewrite E1. split.
      { rewrite <- app_assoc. reflexivity. }
      split.
      { intro H; apply app_eq_nil in H; destruct H; discriminate. }
      split.
      { rewrite forallb_app, E3. cbn [forallb]. unfold is_digit. pose proof (Z.mod_pos_bound z 10). lia. }
      unfold dfold in *. rewrite fold_left_app, E4. cbn [fold_left]. pose proof (Z.div_mod z 10). lia.
Qed.

Lemma dec_nonneg_spec : forall z, 0 <= z ->
  dec_nonneg z <> [] /\ forallb is_digit (dec_nonneg z) = true /\ dfold (dec_nonneg z) 0 = z.
Proof.
  intros z Hz. unfold dec_nonneg.
  destruct (dec_aux_spec (S (Z.to_nat (Z.log2 z))) z [] Hz) as (ds & E1 & E2 & E3 & E4).
  - rewrite Nat2Z.inj_succ, Z2Nat.id by apply Z.log2_nonneg.
    destruct (Z.eq_dec z 0) as [->|Hn].
    + simpl. lia.
    + apply Z.log2_spec. lia.
  - lia.
  - rewrite E1, app_nil_r. auto.
Qed.

Lemma dec_nonneg_digits : forall z, 0 <= z -> forallb is_digit (dec_nonneg z) = true /\ dec_nonneg z <> [].
Proof. intros z Hz. destruct (dec_nonneg_spec z Hz) as (A & B & C). auto. Qed.

Lemma dec_nonneg_val : forall z, 0 <= z -> int_of_digits (dec_nonneg z) = Some z.
Proof.
  intros z Hz. destruct (dec_nonneg_spec z Hz) as (A & B & C).
  unfold int_of_digits. destruct (dec_nonneg z) eqn:E; [congruence|].
  rewrite dva_fold by assumption. congruence.
Qed.

(* 2. two-digit fields                                                                               *)

Lemma str_eqb_eq : forall a b, str_eqb a b = true -> a = b.
Proof. exact StrFacts.str_eqb_eq. Qed.

Lemma two_digits : forall z, 0 <= z < 100 -> two z = [48 + z / 10; 48 + z mod 10].
Proof.
  assert (H : forallb (fun z => str_eqb (two z) [48 + z / 10; 48 + z mod 10]) (map Z.of_nat (seq 0 100)) = true)
    by (vm_compute; reflexivity).
  intros z Hz. rewrite forallb_forall in H. apply str_eqb_eq. apply (H z).
  replace z with (Z.of_nat (Z.to_nat z)) by lia. apply in_map. apply in_seq. lia.
Qed.

Lemma two_is : forall z, 0 <= z < 100 ->
  exists a b, two z = [a; b] /\ is_digit a = true /\ is_digit b = true /\ (a - 48) * 10 + (b - 48) = z.
Proof.
  intros z Hz. exists (48 + z / 10), (48 + z mod 10). split; [apply two_digits; assumption|].
  pose proof (Z.div_mod z 10). pose proof (Z.mod_pos_bound z 10).
  assert (0 <= z / 10 < 10) by (split; [apply Z.div_pos; lia | apply Z.div_lt_upper_bound; lia]).
  unfold is_digit. lia.
Qed.

(* 3. get_time on a rendered timecode                                                                *)

Lemma digit_range : forall c, is_digit c = true -> 48 <= c <= 57.
Proof. unfold is_digit; intros; lia. Qed.

Lemma int2 : forall a b, is_digit a = true -> is_digit b = true ->
  int_of_digits [a; b] = Some ((a - 48) * 10 + (b - 48)).
Proof.
  intros a b Ha Hb. unfold int_of_digits. cbn [digits_val_acc]. rewrite Ha, Hb. unfold digit_val.
  f_equal; lia.
Qed.

Definition semi2colon (c : Z) : Z := if c =? c_semi then c_colon else c.

Lemma map_semi_digits : forall ds, forallb is_digit ds = true -> map semi2colon ds = ds.
Proof.
  induction ds as [|c t IH]; intro H; [reflexivity|].
  cbn [forallb] in H. apply andb_prop in H. destruct H as [H1 H2]. apply digit_range in H1.
  cbn [map]. rewrite IH by assumption. unfold semi2colon, c_semi.
  destruct (c =? 59) eqn:E; [lia | reflexivity].
Qed.

Lemma split_digits_end : forall ds cur, forallb is_digit ds = true -> split_ch_aux 58 ds cur = [rev cur ++ ds].
Proof.
  induction ds as [|c t IH]; intros cur H.
  - cbn [split_ch_aux]. rewrite app_nil_r. reflexivity.
  - cbn [forallb] in H. apply andb_prop in H. destruct H as [H1 H2]. apply digit_range in H1.
    cbn [split_ch_aux]. destruct (c =? 58) eqn:E; [lia|].
    rewrite IH by assumption. cbn [rev]. rewrite <- app_assoc. reflexivity.
Qed.

Lemma split_digits_sep : forall ds cur rest, forallb is_digit ds = true ->
  split_ch_aux 58 (ds ++ 58 :: rest) cur = (rev cur ++ ds) :: split_ch_aux 58 rest [].
Proof.
  induction ds as [|c t IH]; intros cur rest H.
  - cbn [app split_ch_aux]. rewrite Z.eqb_refl, app_nil_r. reflexivity.
  - cbn [forallb] in H. apply andb_prop in H. destruct H as [H1 H2]. apply digit_range in H1.
    cbn [app split_ch_aux]. destruct (c =? 58) eqn:E; [lia|].
    rewrite IH by assumption. cbn [rev]. rewrite <- app_assoc. reflexivity.
Qed.

Lemma has_semi_digits : forall ds, forallb is_digit ds = true -> existsb (Z.eqb c_semi) ds = false.
Proof.
  induction ds as [|c t IH]; intro H; [reflexivity|].
  cbn [forallb] in H. apply andb_prop in H. destruct H as [H1 H2]. apply digit_range in H1.
  cbn [existsb]. rewrite IH by assumption. unfold c_semi. destruct (59 =? c) eqn:E; [lia | reflexivity].
Qed.

Lemma fields_of_stamp : forall x y z w sep,
  forallb is_digit x = true -> forallb is_digit y = true -> forallb is_digit z = true ->
  forallb is_digit w = true -> sep = 58 \/ sep = 59 ->
  split_ch c_colon (map semi2colon (x ++ 58 :: y ++ 58 :: z ++ sep :: w)) = [x; y; z; w].
Proof.
  intros x y z w sep Hx Hy Hz Hw Hsep.
  rewrite map_app. cbn [map]. rewrite map_app. cbn [map]. rewrite map_app. cbn [map].
  rewrite !map_semi_digits by assumption.
  assert (E58 : semi2colon 58 = 58) by reflexivity.
  assert (Esep : semi2colon sep = 58) by (destruct Hsep; subst; reflexivity).
  rewrite E58, Esep. unfold split_ch, c_colon.
  rewrite !split_digits_sep by assumption. rewrite split_digits_end by assumption. reflexivity.
Qed.

Lemma semi_of_stamp : forall x y z w sep,
  forallb is_digit x = true -> forallb is_digit y = true -> forallb is_digit z = true ->
  forallb is_digit w = true -> sep = 58 \/ sep = 59 ->
  has_semi (x ++ 58 :: y ++ 58 :: z ++ sep :: w) = (sep =? 59).
Proof.
  intros x y z w sep Hx Hy Hz Hw Hsep. unfold has_semi.
  rewrite existsb_app. cbn [existsb]. rewrite existsb_app. cbn [existsb]. rewrite existsb_app. cbn [existsb].
  rewrite !has_semi_digits by assumption.
  destruct Hsep; subst; reflexivity.
Qed.

Lemma translate_ok : forall a b c d e f sep ds ff off,
  is_digit a = true -> is_digit b = true -> is_digit c = true -> is_digit d = true ->
  is_digit e = true -> is_digit f = true -> sep = 58 \/ sep = 59 ->
  forallb is_digit ds = true -> ds <> [] -> int_of_digits ds = Some ff ->
  translate_time (a :: b :: 58 :: c :: d :: 58 :: e :: f :: sep :: ds) off
  = Ok (time_formula ((a - 48) * 10 + (b - 48)) ((c - 48) * 10 + (d - 48)) ((e - 48) * 10 + (f - 48)) ff
          (sep =? 59) off).
Proof.
  intros a b c d e f sep ds ff off Ha Hb Hc Hd He Hf Hsep Hds Hne Hint.
  unfold translate_time.
  assert (P : tc_prefix_ok (a :: b :: 58 :: c :: d :: 58 :: e :: f :: sep :: ds) = true).
  { destruct ds as [|x ds']; [congruence|]. cbn [forallb] in Hds. cbn [tc_prefix_ok].
    unfold c_colon, c_semi, is_digit in *. lia. }
  rewrite P. cbn [negb].
  change (a :: b :: 58 :: c :: d :: 58 :: e :: f :: sep :: ds)
    with ([a; b] ++ 58 :: [c; d] ++ 58 :: [e; f] ++ sep :: ds).
  assert (D2 : forall u v, is_digit u = true -> is_digit v = true -> forallb is_digit [u; v] = true).
  { intros u v Hu Hv. cbn [forallb]. rewrite Hu, Hv. reflexivity. }
  change (fun c0 : Z => if c0 =? c_semi then c_colon else c0) with semi2colon.
  rewrite fields_of_stamp by auto. rewrite semi_of_stamp by auto.
  rewrite !int2 by assumption. rewrite Hint. reflexivity.
Qed.

Local Open Scope Q_scope.

Lemma floor0_qmax0 : forall a b, a == b -> floor0 a == qmax0 b.
Proof.
  intros a b H. unfold floor0, qmax0.
  assert (E : Qle_bool 0 a = Qle_bool 0 b) by (apply Qleb_comp; [reflexivity | assumption]).
  rewrite E. destruct (Qle_bool 0 b); [assumption | reflexivity].
Qed.

Lemma formula_spec : forall tc k off,
  time_formula (tc_h tc) (tc_m tc) (tc_s tc) (tc_f tc + k) (tc_drop tc) off == spec_instant tc k off.
Proof.
  intros tc k off. unfold time_formula, spec_instant. cbv zeta. apply floor0_qmax0. rewrite Qred_correct.
  replace (tc_h tc * 3600 + tc_m tc * 60 + tc_s tc)%Z with (3600 * tc_h tc + 60 * tc_m tc + tc_s tc)%Z by ring.
  unfold rate, us_per_s, million, Qdiv. destruct (tc_drop tc); ring.
Qed.

Theorem get_time_exact : forall tc k off, tc_wf tc = true -> (0 <= k)%Z ->
  exists t, get_time (render_tc tc) k off = Ok t /\ (t == spec_instant tc k off)%Q.
Proof.
  intros tc k off Hwf Hk. unfold tc_wf in Hwf.
  assert (Hb : (0 <= tc_h tc < 100 /\ 0 <= tc_m tc < 100 /\ 0 <= tc_s tc < 100 /\ 0 <= tc_f tc < 100 /\
                0 <= tc_f tc + k)%Z) by lia.
  destruct Hb as (Hh & Hm & Hs & Hf & Hfk).
  destruct (two_is _ Hh) as (a & b & Eab & Da & Db & Vab).
  destruct (two_is _ Hm) as (c & d & Ecd & Dc & Dd & Vcd).
  destruct (two_is _ Hs) as (e & f & Eef & De & Df & Vef).
  destruct (two_is _ Hf) as (g & h & Egh & Dg & Dh & Vgh).
  unfold render_tc. rewrite Eab, Ecd, Eef, Egh.
  set (sep := if tc_drop tc then 59%Z else 58%Z).
  assert (Hsep : sep = 58%Z \/ sep = 59%Z) by (subst sep; destruct (tc_drop tc); auto).
  unfold get_time.
  change (last2 ([a; b] ++ [58%Z] ++ [c; d] ++ [58%Z] ++ [e; f] ++ [sep] ++ [g; h])) with [g; h].
  change (but_last2 ([a; b] ++ [58%Z] ++ [c; d] ++ [58%Z] ++ [e; f] ++ [sep] ++ [g; h]))
    with [a; b; 58%Z; c; d; 58%Z; e; f; sep].
  rewrite int2 by assumption. rewrite Vgh.
  unfold dec_z. rewrite (proj2 (Z.ltb_ge _ _) Hfk).
  destruct (dec_nonneg_digits _ Hfk) as [Hd Hne]. pose proof (dec_nonneg_val _ Hfk) as Hv.
  cbn [app].
  rewrite (translate_ok a b c d e f sep _ (tc_f tc + k)%Z off) by assumption.
  eexists. split; [reflexivity|].
  rewrite Vab, Vcd, Vef.
  replace (sep =? 59)%Z with (tc_drop tc) by (subst sep; destruct (tc_drop tc); reflexivity).
  apply formula_spec.
Qed.

(* 4. non-drop-frame time is 1001/1000 of drop-frame time                                            *)

Lemma floor0_nonneg : forall q, 0 <= q -> floor0 q == q.
Proof. intros q H. unfold floor0. apply Qle_bool_iff in H. rewrite H. reflexivity. Qed.

Lemma secs_nonneg : forall S F, (0 <= S)%Z -> (0 <= F)%Z -> 0 <= inject_Z S + inject_Z F / inject_Z 30.
Proof.
  intros S F HS HF. apply Qle_trans with (inject_Z S + 0).
  - rewrite Qplus_0_r. change 0 with (inject_Z 0). rewrite <- Zle_Qle. assumption.
  - apply Qplus_le_r. apply Qle_shift_div_l; [reflexivity|]. rewrite Qmult_0_l.
    change 0 with (inject_Z 0). rewrite <- Zle_Qle. assumption.
Qed.

Lemma scaled_nonneg : forall X r, 0 <= X -> 0 <= r -> 0 <= Qred (X * r * us_per_s - 0).
Proof.
  intros X r HX Hr. rewrite Qred_correct.
  setoid_replace (X * r * us_per_s - 0) with (X * (r * us_per_s)) by ring.
  apply Qmult_le_0_compat; [assumption|]. apply Qmult_le_0_compat; [assumption|].
  unfold us_per_s. change 0 with (inject_Z 0). rewrite <- Zle_Qle. lia.
Qed.

Theorem ndf_is_1001_1000_of_df : forall h m s ff, (0 <= h)%Z -> (0 <= m)%Z -> (0 <= s)%Z -> (0 <= ff)%Z ->
  (time_formula h m s ff false 0 == time_formula h m s ff true 0 * (1001 # 1000))%Q.
Proof.
  intros h m s ff Hh Hm Hs Hf. unfold time_formula.
  set (X := inject_Z (h * 3600 + m * 60 + s) + inject_Z ff / inject_Z 30).
  assert (HX : 0 <= X) by (apply secs_nonneg; lia).
  rewrite (floor0_nonneg (Qred (X * rate false * us_per_s - 0))).
  2:{ apply scaled_nonneg; [assumption|]. unfold rate. unfold Qle; simpl; lia. }
  rewrite (floor0_nonneg (Qred (X * rate true * us_per_s - 0))).
  2:{ apply scaled_nonneg; [assumption|]. unfold rate. unfold Qle; simpl; lia. }
  rewrite !Qred_correct. unfold rate. ring.
Qed.

(* 5. lattice: instants with a whole-second offset are multiples of 1/3 microsecond                  *)

Theorem scc_time_lattice : forall tc k (off_s : Z),
  exists n : Z, (spec_instant tc k (inject_Z off_s * inject_Z 1000000) == n # 3)%Q.
Proof.
  intros tc k off_s. unfold spec_instant. cbv zeta. unfold qmax0, million.
  generalize (3600 * tc_h tc + 60 * tc_m tc + tc_s tc)%Z (tc_f tc + k)%Z. intros S F.
  match goal with |- context [Qle_bool 0 ?x] => destruct (Qle_bool 0 x) end.
  2:{ exists 0%Z. reflexivity. }
  destruct (tc_drop tc).
  - exists ((S * 30 + F) * 100000 - off_s * 3000000)%Z.
    unfold Qeq, Qminus, Qplus, Qmult, Qdiv, Qinv, Qopp, inject_Z. simpl. lia.
  - exists ((S * 30 + F) * 100100 - off_s * 3000000)%Z.
    unfold Qeq, Qminus, Qplus, Qmult, Qdiv, Qinv, Qopp, inject_Z. simpl. lia.
Qed.

(* 6. slack of the joining threshold on the frame lattice                                            *)

Definition jt_value : Q := Eval vm_compute in join_threshold.

Lemma join_threshold_value : join_threshold = jt_value.
Proof. vm_compute. reflexivity. Qed.

Theorem join_threshold_slack : forall (n : Z) (drop : bool),
  let gap := (inject_Z n * ((inject_Z 1000000 / inject_Z 30) * rate drop))%Q in
  (n <= 5 -> (gap + (1 # 2) < join_threshold)%Q)%Z /\ (6 <= n -> (join_threshold + (1 # 2) < gap)%Q)%Z.
Proof.
  intros n drop gap. subst gap. rewrite join_threshold_value. unfold jt_value.
  destruct drop; unfold rate, Qlt; cbn -[Z.mul Z.add]; lia.
Qed.

Lemma join_threshold_close : (thr_hi - (1 # 1000000) < join_threshold)%Q /\ (join_threshold <= thr_hi)%Q.
Proof.
  split.
  - unfold Qlt. vm_compute. reflexivity.
  - unfold Qle. vm_compute. discriminate.
Qed.
