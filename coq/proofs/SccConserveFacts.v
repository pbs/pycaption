(* C16: characters are conserved in roll-up / paint-on streams. For every stream over the roll-up / paint-on alphabet the
   non-blank characters handed to the buffer are exactly the non-blank characters of the captions returned, in order
   (blanks are excluded because the decoder strips blanks at line ends). *)
From Coq Require Import List ZArith QArith Lia Bool.
From PV Require Import lib.Sx lib.Str lib.Result model.GenScc model.SccLen model.SccTime model.SccStash model.SccDecoder
  proofs.SccStashFacts proofs.SccTableFacts proofs.SccItalicsFacts proofs.SccDoubleFacts.
Import ListNotations.
Open Scope Z_scope.

(* `wf_nodes` is defined twice with the same body (SccItalicsFacts, SccDoubleFacts); here it is the second one *)
Notation wf_nodes := SccDoubleFacts.wf_nodes.

Lemma wf_bridge : forall l, wf_nodes l -> SccItalicsFacts.wf_nodes l.
Proof. intros l H. exact H. Qed.

Definition stash_text (s : stash) : str := concat (map (fun c => concat (map ctext (pc_nodes c))) (st_caps s)).
Definition total (s : rstate) : str := nonspace (stash_text (r_stash s)) ++ nonspace (content (buf s)).

(* the alphabet: roll-up 2/3/4, resume direct captioning, carriage return, preamble address codes, tab offsets,
   special characters, and words that are none of command / PAC / special / extended (character pairs, fillers) *)
Definition rp_word (w : Z) : bool :=
  (w =? w_ru2) || (w =? w_ru3) || (w =? w_ru4) || (w =? w_rdc) || (w =? w_cr) || is_pac w
  || (match tab_of w with Some _ => true | None => false end)
  || (match special_of w with Some _ => true | None => false end)
  || (negb (is_command w) && negb (is_pac w) && (match extended_of w with Some _ => false | None => true end)).

(* the characters a word hands to the buffer when it is executed *)
Definition word_chars (w : Z) : str :=
  if is_command w || is_pac w then [] else
  match special_of w with
  | Some t => t
  | None => match extended_of w with
            | Some _ => []
            | None => match char_of (hi w), char_of (lo w) with Some a, Some b => a ++ b | _, _ => [] end
            end
  end.

(* characters sent by a word list run from state s; the second copy of a doubled code counts once, as decided by the
   decoder's doubling memory *)
Fixpoint sent (s : rstate) (ws : list Z) : str :=
  match ws with
  | [] => []
  | w :: t => (if fst (handle_double s w) then [] else word_chars w)
              ++ sent (translate_word s w (match t with n :: _ => Some n | [] => None end)) t
  end.

Definition rp_inv (s : rstate) : Prop :=
  (r_active s = MRoll \/ r_active s = MPaint) /\ r_queue s = None /\
  content (r_pop s) = [] /\ (r_active s = MRoll -> content (r_paint s) = []) /\
  (r_active s = MPaint -> content (r_roll s) = []) /\
  wf_nodes (cr_nodes (r_pop s)) /\ wf_nodes (cr_nodes (r_paint s)) /\ wf_nodes (cr_nodes (r_roll s)).

(* ---- storing a buffer moves its non-blank text into the caption list ------------------------------ *)
Lemma cr_is_empty_content : forall c, cr_is_empty c = true -> content c = [].
Proof.
  intros c H. unfold cr_is_empty in H. apply negb_true_iff in H.
  change (ncontent (cr_nodes c) = []). apply ncontent_empty. intros n Hn.
  destruct (i_text n) as [|x t] eqn:E; [reflexivity|]. exfalso.
  assert (X : existsb (fun n => nonempty (i_text n)) (cr_nodes c) = true).
  { apply existsb_exists. exists n. split; [exact Hn|]. rewrite E. reflexivity. }
  congruence.
Qed.

Lemma strip_line_ends_wf : forall l, Forall wfn l -> Forall wfn (strip_line_ends l).
Proof.
  induction l as [|n t IH]; intros H; [constructor|]. inversion H as [|? ? Hn Ht]; subst.
  rewrite sle_cons2. constructor; [|apply IH; exact Ht].
  destruct (is_text n && next_plain_is_sep t) eqn:E; [|exact Hn].
  apply andb_true_iff in E. destruct E as [E _].
  intros F. change (is_text (rstrip_node n)) with (is_text n) in F. congruence.
Qed.

Lemma format_italics_wf : forall l, wf_nodes l -> SccItalicsFacts.wf_nodes (format_italics l).
Proof.
  intros l H. apply wf_bridge in H. apply wf_nodes_Forall in H. apply wf_nodes_Forall.
  rewrite format_italics_is. apply strip_line_ends_wf, passes16_wf. exact H.
Qed.

Definition ctext_of (c : precap) : str := concat (map ctext (pc_nodes c)).

Lemma filter_has_nodes_text : forall l,
  concat (map ctext_of (filter has_nodes l)) = concat (map ctext_of l).
Proof.
  induction l as [|c l IH]; [reflexivity|]. cbn [filter map concat].
  destruct (has_nodes c) eqn:E.
  - cbn [map concat]. rewrite IH. reflexivity.
  - rewrite IH. unfold has_nodes in E. unfold ctext_of at 2. destruct (pc_nodes c); [reflexivity|discriminate].
Qed.

Lemma create_and_store_text : forall s c start e, wf_nodes (cr_nodes c) ->
  nonspace (stash_text (create_and_store s c start e)) = nonspace (stash_text s) ++ nonspace (content c).
Proof.
  intros s c start e W. unfold create_and_store. destruct (cr_is_empty c) eqn:E.
  - rewrite (cr_is_empty_content c E). cbn [nonspace filter]. rewrite app_nil_r. reflexivity.
  - unfold stash_text. fold ctext_of. rewrite (stash_extend_map _ ctext_of) by reflexivity.
    rewrite concat_app, nonspace_app. f_equal.
    rewrite filter_has_nodes_text. unfold ctext_of.
    rewrite build_captions_text by (apply format_italics_wf; exact W).
    cbn [map concat pc_nodes app]. rewrite format_italics_nonspace by (apply wf_bridge; exact W). reflexivity.
Qed.

Lemma stash_text_correct_last_timing : forall s t, stash_text (correct_last_timing s t) = stash_text s.
Proof.
  intros s t. unfold stash_text. fold ctext_of. rewrite (correct_last_timing_map _ ctext_of) by reflexivity. reflexivity.
Qed.

Lemma stash_text_fix_last : forall s, concat (map ctext_of (fix_last (st_caps s))) = stash_text s.
Proof. intros s. unfold stash_text. fold ctext_of. rewrite (fix_last_map _ ctext_of) by reflexivity. reflexivity. Qed.

(* ---- what `total` and `rp_inv` depend on ---------------------------------------------------------- *)
Definition core (s : rstate) : str * creator * creator * creator * mode * option (creator * Q) :=
  (stash_text (r_stash s), r_pop s, r_paint s, r_roll s, r_active s, r_queue s).

Lemma core_eq : forall a b, core a = core b ->
  stash_text (r_stash a) = stash_text (r_stash b) /\ r_pop a = r_pop b /\ r_paint a = r_paint b /\
  r_roll a = r_roll b /\ r_active a = r_active b /\ r_queue a = r_queue b.
Proof. intros a b H. unfold core in H. inversion H. auto 10. Qed.

Lemma buf_core : forall a b, core a = core b -> buf a = buf b.
Proof.
  intros a b H. destruct (core_eq a b H) as (_ & H2 & H3 & H4 & H5 & _). unfold buf. rewrite H2, H3, H4, H5. reflexivity.
Qed.

Lemma total_core : forall a b, core a = core b -> total a = total b.
Proof.
  intros a b H. unfold total. rewrite (buf_core a b H). destruct (core_eq a b H) as (H1 & _). rewrite H1. reflexivity.
Qed.

Lemma inv_core : forall a b, core a = core b -> rp_inv b -> rp_inv a.
Proof.
  intros a b H I. destruct (core_eq a b H) as (_ & H2 & H3 & H4 & H5 & H6). unfold rp_inv in *.
  rewrite H2, H3, H4, H5, H6. exact I.
Qed.

Lemma active_core : forall a b, core a = core b -> r_active a = r_active b.
Proof. intros a b H. apply (core_eq a b H). Qed.

Lemma core_set_tk : forall s x, core (set_tk s x) = core s.  Proof. reflexivity. Qed.
Lemma core_set_dbl : forall s l d, core (set_dbl s l d) = core s.  Proof. reflexivity. Qed.
Lemma core_set_time : forall s x, core (set_time s x) = core s.  Proof. reflexivity. Qed.
Lemma core_set_clock : forall s x f, core (set_clock s x f) = core s.  Proof. reflexivity. Qed.
Lemma core_set_err : forall s x, core (set_err s x) = core s.  Proof. reflexivity. Qed.
Lemma core_bump : forall s, core (bump s) = core s.  Proof. reflexivity. Qed.

Lemma core_with_time : forall s k, (forall t, core (k t) = core s) -> core (with_time s k) = core s.
Proof. intros s k H. unfold with_time. destruct (get_time _ _ _); [apply H|apply core_set_err]. Qed.

Lemma core_set_buf : forall a b c, core a = core b -> core (set_buf a c) = core (set_buf b c).
Proof.
  intros a b c H. destruct (core_eq a b H) as (H1 & H2 & H3 & H4 & H5 & H6).
  unfold set_buf. rewrite <- H5. destruct (r_active a) eqn:E; unfold core;
    cbn [r_stash r_pop r_paint r_roll r_active r_queue]; rewrite ?H1, ?H2, ?H3, ?H4, ?H6; reflexivity.
Qed.

Lemma set_buf_buf : forall s c, buf (set_buf s c) = c.
Proof.
  intros s c. unfold buf, set_buf. destruct (r_active s) eqn:E; cbn [r_active r_pop r_paint r_roll]; rewrite ?E; reflexivity.
Qed.

Lemma set_buf_stash : forall s c, r_stash (set_buf s c) = r_stash s.
Proof. intros s c. unfold set_buf. destruct (r_active s); reflexivity. Qed.

Lemma set_buf_active : forall s c, r_active (set_buf s c) = r_active s.
Proof. intros s c. unfold set_buf. destruct (r_active s) eqn:E; cbn [r_active]; rewrite ?E; reflexivity. Qed.

Lemma inv_wf_buf : forall s, rp_inv s -> wf_nodes (cr_nodes (buf s)).
Proof.
  intros s (Ha & _ & _ & _ & _ & W1 & W2 & W3). unfold buf. destruct (r_active s); assumption.
Qed.

Lemma set_buf_inv : forall s c, rp_inv s -> wf_nodes (cr_nodes c) -> rp_inv (set_buf s c).
Proof.
  intros s c (Ha & Hq & Hp & Hrp & Hpr & W1 & W2 & W3) W. unfold rp_inv, set_buf.
  destruct Ha as [Ha|Ha]; rewrite Ha in *; cbn [r_active r_pop r_paint r_roll r_queue];
    repeat split; auto; intros; discriminate.
Qed.

Lemma set_buf_total : forall s c, total (set_buf s c) = nonspace (stash_text (r_stash s)) ++ nonspace (content c).
Proof. intros s c. unfold total. rewrite set_buf_buf, set_buf_stash. reflexivity. Qed.

Lemma wf_creator0 : wf_nodes (cr_nodes creator0).
Proof. intros n []. Qed.

(* ---- the two effects of an executed word: a flush moves the text of the buffer to the caption list, an edit leaves the
   caption list alone --------------------------------------------------------------------------------------- *)
Definition flush_res (s X : rstate) : Prop := total X = total s /\ content (buf X) = [] /\ rp_inv X.
Definition edited (f : str -> str) (s X : rstate) : Prop :=
  stash_text (r_stash X) = stash_text (r_stash s) /\ content (buf X) = f (content (buf s)) /\ rp_inv X.

Lemma core_stash : forall a b, core a = core b -> stash_text (r_stash a) = stash_text (r_stash b).
Proof. intros a b H. apply (core_eq a b H). Qed.

Lemma flush_res_core : forall s s0 X X0, core s = core s0 -> core X = core X0 -> flush_res s0 X0 -> flush_res s X.
Proof.
  intros s s0 X X0 Hs HX (T & C & I). split; [|split].
  - rewrite (total_core _ _ HX), (total_core _ _ Hs). exact T.
  - rewrite (buf_core _ _ HX). exact C.
  - exact (inv_core _ _ HX I).
Qed.

Lemma edited_core : forall f s s0 X X0, core s = core s0 -> core X = core X0 -> edited f s0 X0 -> edited f s X.
Proof.
  intros f s s0 X X0 Hs HX (T & C & I). split; [|split].
  - rewrite (core_stash _ _ HX), (core_stash _ _ Hs). exact T.
  - rewrite (buf_core _ _ HX), (buf_core _ _ Hs). exact C.
  - exact (inv_core _ _ HX I).
Qed.

Lemma edited_total : forall f s X, edited f s X ->
  total X = nonspace (stash_text (r_stash s)) ++ nonspace (f (content (buf s))).
Proof. intros f s X (H1 & H2 & _). unfold total. rewrite H1, H2. reflexivity. Qed.

(* a state that is `set_buf s c` as far as `core` sees *)
Lemma set_buf_edited : forall s X c, rp_inv s -> wf_nodes (cr_nodes c) -> core X = core (set_buf s c) ->
  edited (fun _ => content c) s X.
Proof.
  intros s X c I W HC. split; [|split].
  - rewrite (core_stash _ _ HC), set_buf_stash. reflexivity.
  - rewrite (buf_core _ _ HC), set_buf_buf. reflexivity.
  - apply (inv_core _ _ HC). apply set_buf_inv; assumption.
Qed.

(* the common pattern: store the active buffer as a caption and start a fresh one *)
Definition flushed (s : rstate) (a b : Q) : rstate := set_buf (store s (buf s) a b) creator0.
Definition flush_post (s s' : rstate) : Prop := flush_res s s' /\ r_active s' = r_active s.

Lemma flushed_spec : forall s a b, rp_inv s -> flush_post s (flushed s a b).
Proof.
  intros s a b I. unfold flushed. split; [split; [|split]|].
  - rewrite set_buf_total. unfold store. cbn [r_stash set_stash].
    rewrite create_and_store_text by (apply inv_wf_buf; exact I).
    unfold total. cbn [content creator0 cr_nodes map concat nonspace filter]. rewrite app_nil_r. reflexivity.
  - rewrite set_buf_buf. reflexivity.
  - apply set_buf_inv; [exact I|apply wf_creator0].
  - rewrite set_buf_active. reflexivity.
Qed.

Lemma roll_up_core : forall s, core (roll_up s) = core (flushed s (r_time s) 0%Q).
Proof.
  intros s. unfold roll_up. cbv zeta. fold (flushed s (r_time s) 0%Q).
  apply core_with_time. intros t. unfold core. cbn [r_stash r_pop r_paint r_roll r_active r_queue set_stash set_time].
  rewrite stash_text_correct_last_timing. reflexivity.
Qed.

Lemma roll_up_spec : forall s, rp_inv s -> flush_post s (roll_up s).
Proof.
  intros s I. destruct (flushed_spec s (r_time s) 0%Q I) as [R A]. pose proof (roll_up_core s) as HC.
  split; [exact (flush_res_core s s _ _ eq_refl HC R)|]. rewrite (active_core _ _ HC). exact A.
Qed.

Lemma empty_post : forall s, rp_inv s -> cr_is_empty (buf s) = true -> flush_post s s.
Proof. intros s I E. split; [split; [|split]|]; [reflexivity|apply cr_is_empty_content; exact E|exact I|reflexivity]. Qed.

Lemma flush_implicit_spec : forall s, rp_inv s -> flush_post s (flush_implicit s).
Proof.
  intros s I. unfold flush_implicit. destruct I as (Ha & I'). assert (I : rp_inv s) by (split; assumption).
  destruct Ha as [Ha|Ha]; rewrite Ha.
  - destruct (cr_is_empty (buf s)) eqn:E; [apply empty_post; assumption|apply roll_up_spec; exact I].
  - destruct (cr_is_empty (buf s)) eqn:E; [apply empty_post; assumption|].
    apply (flushed_spec s (r_time s) 0%Q I).
Qed.

Lemma activate_spec : forall s m, rp_inv s -> (m = MRoll \/ m = MPaint) ->
  rp_inv (activate s m) /\ total (activate s m) = total s.
Proof.
  intros s m I Hm. unfold activate. destruct (mode_eqb m (r_active s)) eqn:E; [split; [exact I|reflexivity]|].
  destruct (flush_implicit_spec s I) as ((T & C & IF) & A). set (F := flush_implicit s) in *.
  rewrite <- T. clear T. destruct IF as (Ha & Hq & Hp & Hrp & Hpr & W1 & W2 & W3).
  unfold total, rp_inv, buf in *. cbn [set_active r_stash r_pop r_paint r_roll r_active r_queue].
  rewrite <- A in E.
  destruct Ha as [Ha|Ha]; rewrite Ha in *; destruct Hm as [->| ->]; try discriminate E.
  - rewrite C, (Hrp eq_refl). repeat split; auto; intros; discriminate.
  - rewrite C, (Hpr eq_refl). repeat split; auto; intros; discriminate.
Qed.

Lemma flush_buffer_spec : forall s, rp_inv s -> flush_res s (flush_buffer s).
Proof.
  intros s I. unfold flush_buffer.
  destruct (cr_is_empty (buf s)) eqn:E; [exact (proj1 (empty_post s I E))|exact (proj1 (flushed_spec s _ _ I))].
Qed.

Lemma switch_core : forall s,
  core (if (match r_err s with Some _ => true | None => false end) then s else with_time s (fun t => set_time s t))
  = core s.
Proof. intros s. destruct (r_err s); [reflexivity|]. apply core_with_time. reflexivity. Qed.

Lemma tc_roll : forall s w next, (w = w_ru2 \/ w = w_ru3 \/ w = w_ru4) ->
  translate_command s w next =
  (let s2 := flush_buffer (activate s MRoll) in
   if (match r_err s2 with Some _ => true | None => false end) then s2 else with_time s2 (fun t => set_time s2 t)).
Proof. intros s w next [->|[->| ->]]; reflexivity. Qed.

Lemma tc_paint : forall s next,
  translate_command s w_rdc next =
  (let s2 := flush_buffer (activate s MPaint) in
   if (match r_err s2 with Some _ => true | None => false end) then s2 else with_time s2 (fun t => set_time s2 t)).
Proof. reflexivity. Qed.

Lemma tc_cr : forall s next, translate_command s w_cr next = if cr_is_empty (buf s) then s else roll_up s.
Proof. reflexivity. Qed.

Lemma tc_other : forall s w next, ~ In w [w_rcl; w_ru2; w_ru3; w_ru4; w_rdc; w_edm; w_cr; w_enm; w_eoc] ->
  translate_command s w next = do_interpret s w next.
Proof.
  intros s w next H.
  assert (Hc : forall c, In c [w_rcl; w_ru2; w_ru3; w_ru4; w_rdc; w_edm; w_cr; w_enm; w_eoc] -> (w =? c) = false).
  { intros c Hin. apply Z.eqb_neq. intros ->. exact (H Hin). }
  unfold translate_command.
  rewrite (Hc w_rcl), (Hc w_rdc), (Hc w_ru2), (Hc w_ru3), (Hc w_ru4), (Hc w_enm), (Hc w_eoc), (Hc w_cr), (Hc w_edm)
    by (cbn [In]; tauto).
  reflexivity.
Qed.

Lemma mode_switch_spec : forall s m, rp_inv s -> (m = MRoll \/ m = MPaint) ->
  let s2 := flush_buffer (activate s m) in
  flush_res s (if (match r_err s2 with Some _ => true | None => false end) then s2
               else with_time s2 (fun t => set_time s2 t)).
Proof.
  intros s m I Hm s2. destruct (activate_spec s m I Hm) as (I1 & T1).
  destruct (flush_buffer_spec _ I1) as (T2 & C2 & I2). fold s2 in T2, C2, I2.
  apply (flush_res_core s s _ s2 eq_refl (switch_core s2)). split; [rewrite T2; exact T1|split; assumption].
Qed.

Lemma do_interpret_fine : forall s w next, rp_inv s ->
  edited (fun _ => content (snd (fst (interpret_command (r_tk s) (buf s) w next)))) s (do_interpret s w next).
Proof.
  intros s w next I. pose proof (inv_wf_buf s I) as W. unfold do_interpret.
  pose proof (interpret_command_wf (r_tk s) (buf s) w next W) as W'.
  destruct (interpret_command (r_tk s) (buf s) w next) as [[t c] e]. cbn [fst snd] in *.
  apply (set_buf_edited s _ c I W'). destruct e; [rewrite core_set_err|]; apply core_set_buf, core_set_tk.
Qed.

(* a word that is interpreted without touching the text *)
Lemma do_interpret_plain : forall s w next, rp_inv s ->
  memz w scc_mid_row_codes = false -> memz w scc_background_color_codes = false -> w <> w_bs ->
  edited (fun a => a) s (do_interpret s w next).
Proof.
  intros s w next I Hm Hb Hw. destruct (do_interpret_fine s w next I) as (H1 & H2 & H3).
  split; [exact H1|split; [|exact H3]].
  rewrite H2. apply interpret_command_content_plain; try assumption. apply inv_wf_buf. exact I.
Qed.

Lemma add_to_buf_fine : forall s txt, rp_inv s -> edited (fun a => a ++ txt) s (add_to_buf s txt).
Proof.
  intros s txt I. pose proof (inv_wf_buf s I) as W. unfold add_to_buf.
  pose proof (add_chars_wf (r_tk s) (buf s) txt W) as W'.
  pose proof (add_chars_content (r_tk s) (buf s) txt) as C'.
  destruct (add_chars (r_tk s) (buf s) txt) as [t c]. cbn [snd] in W', C'.
  unfold edited. rewrite <- C'. apply (set_buf_edited s _ c I W'). apply core_set_buf, core_set_tk.
Qed.

Definition exec (s : rstate) (w : Z) (next : option Z) : rstate :=
  if is_command w || is_pac w then translate_command s w next
  else match special_of w with
       | Some txt => add_to_buf s txt
       | None =>
           match extended_of w with
           | Some txt => add_to_buf (set_buf s (handle_backspace w (buf s))) txt
           | None =>
               match char_of (hi w), char_of (lo w) with
               | Some a, Some b => add_to_buf s (a ++ b)
               | _, _ => s
               end
           end
       end.

Lemma translate_word_unfold : forall s w next,
  translate_word s w next =
  match r_err s with
  | Some _ => s
  | None =>
      let '(skip, s1) := handle_double s w in
      if skip then bump s1
      else let X := exec s1 w next in match r_err X with Some _ => X | None => bump X end
  end.
Proof. reflexivity. Qed.

Lemma exec_cmd : forall s w next, (is_command w || is_pac w) = true ->
  exec s w next = translate_command s w next /\ word_chars w = [].
Proof. intros s w next H. unfold exec, word_chars. rewrite H. split; reflexivity. Qed.

Lemma ctrl_commands : is_command w_ru2 = true /\ is_command w_ru3 = true /\ is_command w_ru4 = true /\
  is_command w_rdc = true /\ is_command w_cr = true.
Proof. repeat split; vm_compute; reflexivity. Qed.

Lemma word_chars_command : forall w, (is_command w || is_pac w) = true -> word_chars w = [].
Proof. intros w H. unfold word_chars. rewrite H. reflexivity. Qed.

(* every word of the alphabet flushes, or appends its characters to the active buffer *)
Lemma exec_rp : forall s w next, rp_inv s -> rp_word w = true ->
  (In w [w_ru2; w_ru3; w_ru4; w_rdc; w_cr] /\ is_command w = true /\ flush_res s (exec s w next)) \/
  (~ In w [w_ru2; w_ru3; w_ru4; w_rdc; w_cr] /\ edited (fun a => a ++ word_chars w) s (exec s w next)).
Proof.
  intros s w next I Hw. destruct ctrl_commands as (C2 & C3 & C4 & Cd & Cc).
  destruct classes_disjoint as (Dspecial & _ & Dpac & Dtab & _).
  assert (Plain : forall X, (is_command w || is_pac w) = true -> edited (fun a => a) s X ->
                            edited (fun a => a ++ word_chars w) s X).
  { intros X Hc R. rewrite word_chars_command by exact Hc. destruct R as (H1 & H2 & H3).
    split; [exact H1|split; [rewrite H2; symmetry; apply app_nil_r|exact H3]]. }
  assert (Roll : forall r, (r = w_ru2 \/ r = w_ru3 \/ r = w_ru4) -> is_command r = true -> flush_res s (exec s r next)).
  { intros r R Hc. destruct (exec_cmd s r next) as [-> _]; [rewrite Hc; reflexivity|].
    rewrite tc_roll by exact R. apply mode_switch_spec; auto. }
  unfold rp_word in Hw. rewrite !orb_true_iff in Hw.
  destruct Hw as [[[[[[[[Hw|Hw]|Hw]|Hw]|Hw]|Hw]|Hw]|Hw]|Hw].
  1-5: apply Z.eqb_eq in Hw; subst w; left; (split; [cbn [In]; tauto|]).
  1-3: split; [assumption|apply Roll; auto].
  - split; [exact Cd|]. destruct (exec_cmd s w_rdc next) as [-> _]; [rewrite Cd; reflexivity|].
    rewrite tc_paint. apply mode_switch_spec; auto.
  - split; [exact Cc|]. destruct (exec_cmd s w_cr next) as [-> _]; [rewrite Cc; reflexivity|].
    rewrite tc_cr. destruct (cr_is_empty (buf s)) eqn:E; [exact (proj1 (empty_post s I E))|exact (proj1 (roll_up_spec s I))].
  - (* preamble address code *)
    destruct (Dpac w Hw) as (_ & Hm & Hb & Hn). right. split; [intros Hin; apply Hn; cbn [In] in *; tauto|].
    assert (Hc : (is_command w || is_pac w) = true) by (rewrite Hw; apply orb_true_r).
    destruct (exec_cmd s w next Hc) as [-> _]. rewrite tc_other by (intros Hin; apply Hn; cbn [In] in *; tauto).
    apply Plain; [exact Hc|]. apply do_interpret_plain; try assumption. intros ->. apply Hn. cbn [In]. tauto.
  - (* tab offset *)
    assert (Ht : tab_of w <> None) by (destruct (tab_of w); [discriminate|discriminate]).
    destruct (Dtab w Ht) as (Hc & Hm & Hb & _ & Hbs & Hn). right. split; [intros Hin; apply Hn; cbn [In] in *; tauto|].
    destruct (exec_cmd s w next) as [-> _]; [rewrite Hc; reflexivity|]. rewrite tc_other by exact Hn.
    apply Plain; [rewrite Hc; reflexivity|]. apply do_interpret_plain; assumption.
  - (* special character *)
    assert (Hs : special_of w <> None) by (destruct (special_of w); [discriminate|discriminate]).
    destruct (Dspecial w Hs) as (Hc & Hp & _ & _). right.
    split; [intros Hin; cbn [In] in Hin; intuition (subst w; congruence)|].
    unfold exec, word_chars. rewrite Hc, Hp. cbn [orb]. destruct (special_of w) as [txt|]; [|congruence].
    apply add_to_buf_fine. exact I.
  - (* character pair, filler *)
    rewrite !andb_true_iff in Hw. destruct Hw as [[Hc Hp] Hx]. apply negb_true_iff in Hc, Hp. right.
    split; [intros Hin; cbn [In] in Hin; intuition (subst w; congruence)|].
    assert (Id : edited (fun a => a ++ []) s s) by (split; [reflexivity|split; [symmetry; apply app_nil_r|exact I]]).
    unfold exec, word_chars. rewrite Hc, Hp. cbn [orb].
    destruct (special_of w) as [txt|]; [apply add_to_buf_fine; exact I|].
    destruct (extended_of w); [discriminate|].
    destruct (char_of (hi w)) as [a|]; [|exact Id]. destruct (char_of (lo w)) as [b|]; [|exact Id].
    apply add_to_buf_fine. exact I.
Qed.

Lemma handle_double_set : forall s w, exists l d, snd (handle_double s w) = set_dbl s l d.
Proof.
  intros s w. unfold handle_double. cbv zeta.
  destruct (_ && last_is (r_last s) w); [eexists; eexists; reflexivity|].
  destruct (is_pac w && last_contains (r_last s) w); [eexists; eexists; reflexivity|].
  destruct (tab_of w).
  - destruct (r_last s) as [|p|p t]; try (eexists; eexists; reflexivity).
    destruct (is_pac p); eexists; eexists; reflexivity.
  - eexists; eexists; reflexivity.
Qed.

Theorem rp_step : forall s w next, rp_inv s -> rp_word w = true -> r_err s = None ->
  let s' := translate_word s w next in r_err s' = None ->
  total s' = total s ++ nonspace (if fst (handle_double s w) then [] else word_chars w) /\ rp_inv s'.
Proof.
  intros s w next I Hw He s' _. subst s'. rewrite translate_word_unfold, He.
  destruct (handle_double_set s w) as (l & d & Hs).
  destruct (handle_double s w) as [skip s1]. cbn [fst snd] in *. subst s1.
  assert (I1 : rp_inv (set_dbl s l d)) by (apply (inv_core _ s (core_set_dbl s l d)); exact I).
  destruct skip.
  - cbn [nonspace filter]. rewrite app_nil_r. split.
    + apply total_core. reflexivity.
    + apply (inv_core _ s); [reflexivity|exact I].
  - cbv zeta. set (X := exec (set_dbl s l d) w next).
    assert (HC : core (match r_err X with Some _ => X | None => bump X end) = core X) by (destruct (r_err X); reflexivity).
    rewrite (total_core _ _ HC). change (total s) with (total (set_dbl s l d)).
    destruct (exec_rp (set_dbl s l d) w next I1 Hw) as [(_ & Hc & T & _ & IX)|[_ R]]; fold X in T, IX || fold X in R.
    + rewrite word_chars_command by (rewrite Hc; reflexivity). cbn [nonspace filter]. rewrite app_nil_r.
      split; [exact T|exact (inv_core _ _ HC IX)].
    + split; [|exact (inv_core _ _ HC (proj2 (proj2 R)))].
      rewrite (edited_total _ _ _ R), nonspace_app, app_assoc. reflexivity.
Qed.

Lemma translate_word_err : forall s w next e, r_err s = Some e -> translate_word s w next = s.
Proof. intros s w next e H. unfold translate_word. rewrite H. reflexivity. Qed.

Lemma translate_words_ok : forall ws s, r_err (translate_words s ws) = None -> r_err s = None.
Proof.
  induction ws as [|w t IH]; intros s H; [exact H|]. cbn [translate_words] in H. apply IH in H.
  destruct (r_err s) as [e|] eqn:E; [|reflexivity]. rewrite (translate_word_err s w _ e E) in H. congruence.
Qed.

Lemma enter_fine : forall off tc w next, (w = w_ru2 \/ w = w_ru3 \/ w = w_ru4 \/ w = w_rdc) ->
  let s := translate_word (set_clock (rstate0 off) tc 0) w next in
  rp_inv s /\ stash_text (r_stash s) = [] /\ content (buf s) = [].
Proof.
  intros off tc w next Hw s. subst s.
  assert (HC : exists m, (m = MRoll \/ m = MPaint) /\
             core (translate_word (set_clock (rstate0 off) tc 0) w next) = ([], creator0, creator0, creator0, m, None)).
  { destruct Hw as [->|[->|[->| ->]]]; [exists MRoll|exists MRoll|exists MRoll|exists MPaint]; (split; [auto|]);
      cbv -[get_time]; destruct (get_time _ _ _); reflexivity. }
  destruct HC as (m & Hm & HC). set (s := translate_word _ _ _) in *.
  unfold core in HC. injection HC as H1 H2 H3 H4 H5 H6.
  split; [|split; [exact H1|]].
  - unfold rp_inv. rewrite H2, H3, H4, H5, H6. repeat split; auto; try apply wf_creator0.
  - unfold buf. rewrite H2, H3, H4, H5. destruct Hm as [->| ->]; reflexivity.
Qed.

Theorem rp_enter : forall off tc w next, (w = w_ru2 \/ w = w_ru3 \/ w = w_ru4 \/ w = w_rdc) ->
  let s := translate_word (set_clock (rstate0 off) tc 0) w next in r_err s = None -> rp_inv s /\ total s = [].
Proof.
  intros off tc w next Hw s _. destruct (enter_fine off tc w next Hw) as (I & H1 & H2). fold s in I, H1, H2.
  split; [exact I|]. unfold total. rewrite H1, H2. reflexivity.
Qed.

Fixpoint sent_lines (s : rstate) (ls : list sline) : str :=
  match ls with
  | [] => []
  | l :: t => sent (set_clock s (fst l) 0) (snd l) ++ sent_lines (translate_line s l) t
  end.
Definition caps_text (caps : list precap) : str := concat (map (fun c => concat (map ctext (pc_nodes c))) caps).

Lemma translate_lines_ok : forall ls s, r_err (fold_left translate_line ls s) = None -> r_err s = None.
Proof.
  induction ls as [|l t IH]; intros s H; [exact H|]. cbn [fold_left] in H. apply IH in H.
  destruct (r_err s) as [e|] eqn:E; [|reflexivity]. unfold translate_line in H. rewrite E in H. congruence.
Qed.

(* what `read` returns when it returns captions: no error was recorded, and the non-blank text of the captions is
   `total` of the state before the final flush *)
Lemma read_total : forall off ls caps, read off ls = ROk caps ->
  let S := fold_left translate_line ls (rstate0 off) in
  r_err S = None /\ (rp_inv S -> nonspace (caps_text caps) = total S).
Proof.
  intros off ls caps Hread S. unfold read, run_lines in Hread. cbv zeta in Hread. fold S in Hread.
  destruct (r_err S) as [e|] eqn:ES; [rewrite ES in Hread; discriminate|].
  destruct (r_err (flush_implicit S)) as [e|]; [discriminate|].
  split; [reflexivity|]. intros IS. destruct (flush_implicit_spec S IS) as ((TF & CF & _) & _).
  apply flash_rejected in Hread. destruct Hread as [-> _]. unfold caps_text. fold ctext_of. rewrite stash_text_fix_last.
  rewrite <- TF. unfold total. rewrite CF. cbn [nonspace filter]. rewrite app_nil_r. reflexivity.
Qed.

(* ---- a stream, word by word: an invariant P between the decoder state and an accumulator that every word of the
   alphabet `ok` maintains holds at the end of `read`.  `accw` / `accl` accumulate over the words of a line / over
   lines, consulting the decoder state as `sent` does ---------------------------------------------------------- *)
Section Stream.
Variables (A : Type) (ok : Z -> bool) (P : rstate -> A -> Prop) (step : rstate -> Z -> A -> A)
  (accw : rstate -> list Z -> A -> A) (accl : rstate -> list sline -> A -> A).
Hypothesis P_core : forall a b x, core a = core b -> P b x -> P a x.
Hypothesis P_step : forall s w next x, rp_inv s -> ok w = true -> r_err s = None ->
  r_err (translate_word s w next) = None -> P s x ->
  P (translate_word s w next) (step s w x) /\ rp_inv (translate_word s w next).
Hypothesis accw_nil : forall s x, accw s [] x = x.
Hypothesis accw_cons : forall s w t x,
  accw s (w :: t) x = accw (translate_word s w (match t with n :: _ => Some n | [] => None end)) t (step s w x).
Hypothesis accl_nil : forall s x, accl s [] x = x.
Hypothesis accl_cons : forall s l t x, accl s (l :: t) x = accl (translate_line s l) t (accw (set_clock s (fst l) 0) (snd l) x).

Lemma stream_words : forall ws s x, rp_inv s -> forallb ok ws = true -> r_err s = None ->
  r_err (translate_words s ws) = None -> P s x ->
  P (translate_words s ws) (accw s ws x) /\ rp_inv (translate_words s ws).
Proof.
  induction ws as [|w t IH]; intros s x I Hws He Hfin Px; [rewrite accw_nil; split; assumption|].
  cbn [forallb] in Hws. apply andb_true_iff in Hws. destruct Hws as [Hw Ht]. rewrite accw_cons. cbn [translate_words] in *.
  pose proof (translate_words_ok _ _ Hfin) as He1.
  destruct (P_step s w _ x I Hw He He1 Px) as [P1 I1]. exact (IH _ _ I1 Ht He1 Hfin P1).
Qed.

Lemma stream_lines : forall ls s x, rp_inv s -> forallb (fun l => forallb ok (snd l)) ls = true -> r_err s = None ->
  r_err (fold_left translate_line ls s) = None -> P s x ->
  P (fold_left translate_line ls s) (accl s ls x) /\ rp_inv (fold_left translate_line ls s).
Proof.
  induction ls as [|l t IH]; intros s x I Hls He Hfin Px; [rewrite accl_nil; split; assumption|].
  cbn [forallb] in Hls. apply andb_true_iff in Hls. destruct Hls as [Hl Ht]. rewrite accl_cons. cbn [fold_left] in *.
  pose proof (translate_lines_ok _ _ Hfin) as He1.
  assert (El : translate_line s l = translate_words (set_clock s (fst l) 0) (snd l))
    by (unfold translate_line; rewrite He; reflexivity).
  rewrite El in *.
  destruct (stream_words (snd l) (set_clock s (fst l) 0) x (inv_core _ s eq_refl I) Hl He He1 (P_core (set_clock s (fst l) 0) s x eq_refl Px))
    as [P1 I1].
  exact (IH _ _ I1 Ht He1 Hfin P1).
Qed.

Theorem stream_read : forall off tc0 w0 ws0 ls caps x0,
  (w0 = w_ru2 \/ w0 = w_ru3 \/ w0 = w_ru4 \/ w0 = w_rdc) ->
  forallb ok ws0 = true -> forallb (fun l => forallb ok (snd l)) ls = true ->
  read off ((tc0, w0 :: ws0) :: ls) = ROk caps ->
  let s1 := translate_word (set_clock (rstate0 off) tc0 0) w0 (match ws0 with n :: _ => Some n | [] => None end) in
  let sA := translate_words s1 ws0 in
  P s1 x0 ->
  P (fold_left translate_line ls sA) (accl sA ls (accw s1 ws0 x0)) /\
  nonspace (caps_text caps) = total (fold_left translate_line ls sA).
Proof.
  intros off tc0 w0 ws0 ls caps x0 Hw0 Hws0 Hls Hread s1 sA Px.
  destruct (read_total _ _ _ Hread) as [ES Hcaps]. change (r_err (fold_left translate_line ls sA) = None) in ES.
  pose proof (translate_lines_ok ls sA ES) as EA. pose proof (translate_words_ok _ _ EA) as E1.
  destruct (enter_fine off tc0 w0 (match ws0 with n :: _ => Some n | [] => None end) Hw0) as (I1 & _).
  destruct (stream_words ws0 s1 x0 I1 Hws0 E1 EA Px) as [PA IA].
  destruct (stream_lines ls sA _ IA Hls EA ES PA) as [PS IS]. split; [exact PS|exact (Hcaps IS)].
Qed.
End Stream.

(* the accumulator of the roll-up / paint-on alphabet: the non-blank characters sent so far *)
Definition rp_acc (s : rstate) (w : Z) (x : str) : str :=
  x ++ nonspace (if fst (handle_double s w) then [] else word_chars w).

Lemma rp_acc_step : forall s w next x, rp_inv s -> rp_word w = true -> r_err s = None ->
  r_err (translate_word s w next) = None -> total s = x ->
  total (translate_word s w next) = rp_acc s w x /\ rp_inv (translate_word s w next).
Proof. intros s w next x I Hw He He1 <-. exact (rp_step s w next I Hw He He1). Qed.

Lemma sent_acc_cons : forall s w t x,
  x ++ nonspace (sent s (w :: t)) =
  rp_acc s w x ++ nonspace (sent (translate_word s w (match t with n :: _ => Some n | [] => None end)) t).
Proof. intros s w t x. cbn [sent]. unfold rp_acc. rewrite nonspace_app, app_assoc. reflexivity. Qed.

Theorem rp_words : forall ws s, rp_inv s -> forallb rp_word ws = true -> r_err s = None ->
  r_err (translate_words s ws) = None ->
  total (translate_words s ws) = total s ++ nonspace (sent s ws) /\ rp_inv (translate_words s ws).
Proof.
  intros ws s I Hws He Hfin.
  exact (stream_words str rp_word (fun s x => total s = x) rp_acc (fun s ws x => x ++ nonspace (sent s ws)) rp_acc_step
           (fun _ x => app_nil_r x) sent_acc_cons ws s (total s) I Hws He Hfin eq_refl).
Qed.

Theorem rollup_painton_conserved : forall off tc0 w0 ws0 ls caps,
  (w0 = w_ru2 \/ w0 = w_ru3 \/ w0 = w_ru4 \/ w0 = w_rdc) ->
  forallb rp_word ws0 = true -> forallb (fun l => forallb rp_word (snd l)) ls = true ->
  read off ((tc0, w0 :: ws0) :: ls) = ROk caps ->
  nonspace (caps_text caps) = nonspace (sent_lines (rstate0 off) ((tc0, w0 :: ws0) :: ls)).
Proof.
  intros off tc0 w0 ws0 ls caps Hw0 Hws0 Hls Hread.
  destruct (enter_fine off tc0 w0 (match ws0 with n :: _ => Some n | [] => None end) Hw0) as (_ & H1 & H2).
  destruct (stream_read str rp_word (fun s x => total s = x) rp_acc (fun s ws x => x ++ nonspace (sent s ws))
              (fun s ls x => x ++ nonspace (sent_lines s ls)) (fun a b x H E => eq_trans (total_core a b H) E) rp_acc_step
              (fun _ x => app_nil_r x) sent_acc_cons (fun _ x => app_nil_r x)
              (fun s l t x => eq_trans (f_equal (app x) (nonspace_app _ _)) (app_assoc _ _ _))
              off tc0 w0 ws0 ls caps [] Hw0 Hws0 Hls Hread) as [TS ->].
  - unfold total. rewrite H1, H2. reflexivity.
  - rewrite TS. cbn [app sent_lines fst snd sent].
    assert (W0 : word_chars w0 = []) by (destruct Hw0 as [->|[->|[->| ->]]]; reflexivity).
    rewrite W0. destruct (fst (handle_double _ w0)); cbn [app]; rewrite nonspace_app; reflexivity.
Qed.

(* storing a buffer "ab c" / break / "d " on top of a caption list that already holds "x y" *)
Example create_and_store_text_example :
  let c := mkCr [mkI IText [97; 98; 32; 99] (14, 0); mkI IBreak [] (15, 0); mkI IText [100; 32] (15, 0)] SNone in
  let s := create_and_store stash0 (mkCr [mkI IText [120; 32; 121] (1, 0)] SNone) 0 0 in
  wf_nodes (cr_nodes c) /\ nonspace (stash_text s) = [120; 121] /\ nonspace (content c) = [97; 98; 99; 100] /\
  nonspace (stash_text (create_and_store s c 1000000 0)) = [120; 121; 97; 98; 99; 100].
Proof.
  intros c s.
  assert (W : wf_nodes (cr_nodes c)).
  { intros n Hn Ht. cbn [c cr_nodes In] in Hn. destruct Hn as [<-|[<-|[<-|[]]]]; try discriminate Ht; reflexivity. }
  split; [exact W|]. split; [vm_compute; reflexivity|]. split; [vm_compute; reflexivity|].
  rewrite (create_and_store_text s c 1000000 0 W). vm_compute. reflexivity.
Qed.

(* roll-up 2, carriage return, PAC row 15, "ab": one more "ab" is handed to the buffer; a carriage return moves the text
   to the caption list and hands over nothing *)
Local Notation ex_enter := (translate_word (set_clock (rstate0 0) (lit "00:00:01:00") 0) w_ru2 (Some w_cr)).
Local Notation ex_state := (translate_words ex_enter [w_cr; 38000; 24930]).

Example rp_step_example :
  rp_inv ex_state /\ r_err ex_state = None /\ total ex_state = [97; 98] /\
  rp_word 24930 = true /\ fst (handle_double ex_state 24930) = false /\ word_chars 24930 = [97; 98] /\
  total (translate_word ex_state 24930 None) = [97; 98; 97; 98] /\
  total (translate_word ex_state w_cr None) = [97; 98] /\ content (buf (translate_word ex_state w_cr None)) = [].
Proof.
  assert (E1 : r_err ex_enter = None) by (vm_compute; reflexivity).
  assert (Hfin : r_err ex_state = None) by (vm_compute; reflexivity).
  assert (Hf : forallb rp_word [w_cr; 38000; 24930] = true) by (vm_compute; reflexivity).
  destruct (rp_enter 0 (lit "00:00:01:00") w_ru2 (Some w_cr) ltac:(auto) E1) as [I1 _].
  destruct (rp_words [w_cr; 38000; 24930] _ I1 Hf E1 Hfin) as [_ I].
  assert (T : total ex_state = [97; 98]) by (vm_compute; reflexivity).
  assert (Hw : rp_word 24930 = true) by (vm_compute; reflexivity).
  assert (Hc : rp_word w_cr = true) by (vm_compute; reflexivity).
  assert (F1 : r_err (translate_word ex_state 24930 None) = None) by (vm_compute; reflexivity).
  assert (F2 : r_err (translate_word ex_state w_cr None) = None) by (vm_compute; reflexivity).
  destruct (rp_step ex_state 24930 None I Hw Hfin F1) as [S1 _].
  destruct (rp_step ex_state w_cr None I Hc Hfin F2) as [S2 _].
  split; [exact I|]. split; [exact Hfin|]. split; [exact T|]. split; [exact Hw|].
  split; [vm_compute; reflexivity|]. split; [vm_compute; reflexivity|].
  split; [rewrite S1, T; vm_compute; reflexivity|]. split; [rewrite S2, T; vm_compute; reflexivity|].
  vm_compute. reflexivity.
Qed.
