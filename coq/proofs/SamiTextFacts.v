(* C01: the string-level SAMI reader model (model/SamiText.v) on every rendering of every abstract document
   (spec/SpecSamiText.v): tokens, then the sync / paragraph machine, give the <sync> list and the languages of the
   abstract document, hence (TimeTreeFacts.sami_tree_exact) the captions it denotes. *)
From Coq Require Import List ZArith Lia Bool ZifyBool Arith.
From PV Require Import lib.Sx lib.Str lib.Result lib.Dec.
From PV Require Import model.Langs model.TimeRead model.TimeTree model.XmlRead model.SamiText.
From PV Require Import spec.SpecTime spec.SpecTimeTree spec.SpecXmlDocT spec.SpecSamiText.
From PV Require Import proofs.TimeStrFacts proofs.TimeTreeFacts proofs.XmlReadFacts.
Import ListNotations.
Open Scope Z_scope.

Lemma sunescape_is_by : forall s r, sunescape s r = unescape_by sref_char s r.
Proof. induction s as [|c s IH]; intros [r|]; cbn [sunescape unescape_by]; rewrite ?IH; reflexivity. Qed.

(* the SAMI table only adds a name to the XML one *)
Lemma sref_char_ext : forall name v, ref_char name = Some v -> sref_char name = Some v.
Proof.
  intros name v H. unfold sref_char. destruct (str_eqb name (lit "nbsp")) eqn:E; [|exact H].
  apply str_eqb_eq in E. subst name. discriminate H.
Qed.

Lemma sunescape_schar : forall x rest, schar_ok x = true ->
  sunescape (render_schar x ++ rest) None = schar_val x :: sunescape rest None.
Proof.
  intros [c|c|] rest H; rewrite !sunescape_is_by; cbn [render_schar schar_val schar_ok] in *.
  - apply (unescape_by_esc_ch _ sref_char_ext). right. right. reflexivity.
  - apply andb_true_iff in H. destruct H as [H0 Hr]. rewrite <- !app_assoc.
    apply (unescape_by_dec _ _ _ sref_char_ext); [lia|destruct ((128 <=? c) && (c <? 160)); [discriminate|reflexivity]].
  - reflexivity.
Qed.

Lemma sunescape_srun : forall r rest, forallb schar_ok r = true ->
  sunescape (render_srun r ++ rest) None = srun_val r ++ sunescape rest None.
Proof.
  unfold render_srun, srun_val. induction r as [|x r IH]; intros rest H; [reflexivity|].
  cbn [forallb] in H. apply andb_true_iff in H. destruct H as [Hx Hr].
  cbn [flat_map map]. rewrite <- app_assoc, (sunescape_schar x _ Hx), (IH rest Hr). reflexivity.
Qed.

Lemma render_schar_not_lt : forall x, schar_ok x = true -> forallb not_lt (render_schar x) = true.
Proof.
  intros [c|c|] H; cbn [render_schar schar_ok] in *; [apply esc_ch_not_lt| |reflexivity].
  apply andb_true_iff in H. destruct H as [H0 _].
  assert (Hc : 0 <= c) by lia. exact (render_tchar_not_lt (c, true) (or_introl Hc)).
Qed.

Lemma render_srun_not_lt : forall r, forallb schar_ok r = true -> forallb not_lt (render_srun r) = true.
Proof. intros r. unfold render_srun. apply forallb_flat_map. exact render_schar_not_lt. Qed.

Lemma render_schar_nonempty : forall x, render_schar x <> [].
Proof.
  intros [c|c|]; cbn [render_schar]; [exact (render_tchar_nonempty (c, false))|discriminate|discriminate].
Qed.

Lemma unq_plain_facts : forall c, unq_plain c = true ->
  h_ws c = false /\ unq_c c = true /\ (c =? 38) = false /\ (c =? 34) = false /\ (c =? 39) = false.
Proof.
  intros c H. unfold unq_plain, name_c, lc_letter, is_digit, uc_letter in H. unfold unq_c, h_ws. lia.
Qed.

Lemma sattr_parts : forall a, sattr_ok a = true ->
  is_ws (sa_pre a) = true /\ sa_pre a <> [] /\ is_ws (sa_e1 a) = true /\ is_ws (sa_e2 a) = true
  /\ aname_ok (sa_name a) = true
  /\ (sa_q a = 34 \/ sa_q a = 39 \/ sa_q a = 0 /\ forallb unq_plain (sa_val a) = true /\ sa_val a <> []).
Proof.
  intros a H. unfold sattr_ok in H.
  apply andb_prop in H as [[[[[Hp Hne]%andb_prop H1]%andb_prop H2]%andb_prop Hn]%andb_prop Hq]. repeat split; try assumption.
  - intros E. rewrite E in Hne. discriminate.
  - apply orb_prop in Hq as [[Hq|Hq]%orb_prop|[[Hq Hv]%andb_prop Hvn]%andb_prop]; [left|right; left|right; right; repeat split]; try (apply Z.eqb_eq, Hq).
    + exact Hv.
    + intros E. rewrite E in Hvn. discriminate.
Qed.

Lemma sparse_attr_render : forall a T, sattr_ok a = true -> (sa_q a = 0 -> stops unq_c T) ->
  sparse_attr (sa_name a ++ sa_e1 a ++ [61] ++ sa_e2 a
               ++ (if sa_q a =? 0 then sa_val a else [sa_q a] ++ esc_val (sa_q a) (sa_val a) ++ [sa_q a]) ++ T)
  = Some (lower (sa_name a), sa_val a, T).
Proof.
  intros [pre name e1 e2 q v] T H HT. destruct (sattr_parts _ H) as (_ & _ & H1 & H2 & Hn & Hq).
  cbn [sa_pre sa_name sa_e1 sa_e2 sa_q sa_val] in *.
  destruct (aname_ok_inv name Hn) as (c & t & En & Hc & Hnc).
  assert (Hna : forallb attr_name_c name = true) by (rewrite En; apply anames_attr; exact Hnc).
  set (V := (if q =? 0 then v else [q] ++ esc_val q v ++ [q]) ++ T).
  assert (S1 : stops attr_name_c (e1 ++ [61] ++ e2 ++ V)).
  { apply stops_ws_then; [exact H1| |reflexivity]. intros x Hx. apply xws_facts in Hx. tauto. }
  unfold sparse_attr. destruct (span_app attr_name_c name _ Hna S1) as [-> ->].
  rewrite En. cbv iota. rewrite <- En.
  rewrite (drop_while_stops h_ws e1 _ (is_ws_h_ws _ H1)) by reflexivity.
  cbn [app]. change (61 =? 61) with true. cbv iota. unfold V.
  destruct (q =? 0) eqn:Eq0.
  - destruct Hq as [Hq|[Hq|(Hq0 & Hall & Hne)]]; [lia|lia|].
    destruct v as [|x v]; [congruence|]. pose proof Hall as Hx. cbn [forallb] in Hx. apply andb_true_iff in Hx. destruct Hx as [Hx _].
    destruct (unq_plain_facts x Hx) as (W & U & A & Q1 & Q2).
    rewrite (drop_while_stops h_ws e2 _ (is_ws_h_ws _ H2)) by exact W.
    cbn [app]. rewrite Q1, Q2, U. cbn [orb].
    assert (Hu : forallb unq_c (x :: v) = true).
    { revert Hall. apply forallb_weaken. intros y Hy. apply unq_plain_facts in Hy. tauto. }
    change (x :: v ++ T) with ((x :: v) ++ T).
    destruct (span_app unq_c (x :: v) T Hu (HT Hq0)) as [-> ->].
    rewrite sunescape_is_by, unescape_by_plain; [reflexivity|].
    revert Hall. apply forallb_weaken. intros y Hy. apply unq_plain_facts in Hy. destruct Hy as (_ & _ & -> & _). reflexivity.
  - assert (Hq' : q = 34 \/ q = 39) by (destruct Hq as [?|[?|[? _]]]; lia). clear Hq. rename Hq' into Hq.
    assert (Hqw : h_ws q = false) by (destruct Hq; subst q; reflexivity).
    rewrite <- !app_assoc. cbn [app].
    rewrite (drop_while_stops h_ws e2 _ (is_ws_h_ws _ H2)) by exact Hqw.
    assert (Hqq : (q =? 34) || (q =? 39) = true) by lia. rewrite Hqq.
    destruct (to_app q _ T (esc_val_lacks q v Hq)) as [-> ->].
    rewrite sunescape_is_by, (unescape_by_esc_val _ sref_char_ext) by (unfold quote_or_text; tauto). reflexivity.
Qed.

Lemma render_sattr_shape : forall a T,
  render_sattr a ++ T
  = sa_pre a ++ sa_name a ++ sa_e1 a ++ [61] ++ sa_e2 a
    ++ (if sa_q a =? 0 then sa_val a else [sa_q a] ++ esc_val (sa_q a) (sa_val a) ++ [sa_q a]) ++ T.
Proof. intros a T. unfold render_sattr. rewrite <- !app_assoc. reflexivity. Qed.

Definition tag_end (e : str) (slash : bool) : str := e ++ (if slash then [47; 62] else [62]).

Lemma attrs_tail_stops : forall (f : Z -> bool) l e slash rest,
  (forall x, xws x = true -> f x = false) -> f 62 = false -> (slash = true -> f 47 = false) ->
  forallb sattr_ok l = true -> is_ws e = true -> stops f (flat_map render_sattr l ++ tag_end e slash ++ rest).
Proof.
  intros f l e slash rest Hw H62 H47 Hl He. destruct l as [|a l].
  - cbn [flat_map app]. unfold tag_end. destruct e as [|x e].
    + destruct slash; [apply H47; reflexivity|assumption].
    + cbn [app stops]. cbn [is_ws forallb] in He. apply andb_true_iff in He. apply Hw. tauto.
  - cbn [forallb] in Hl. apply andb_true_iff in Hl. destruct Hl as [Ha _].
    destruct (sattr_parts a Ha) as (Hp & Hne & _).
    cbn [flat_map]. rewrite <- app_assoc, render_sattr_shape. destruct (sa_pre a) as [|x p]; [congruence|].
    cbn [app stops]. apply Hw. cbn [is_ws forallb] in Hp. apply andb_true_iff in Hp. tauto.
Qed.

Lemma sparse_attrs_render : forall l fuel acc e slash rest,
  forallb sattr_ok l = true -> is_ws e = true -> (length l < fuel)%nat -> (slash = true -> l = []) ->
  sparse_attrs fuel (flat_map render_sattr l ++ tag_end e slash ++ rest) acc = Some (rev acc ++ splain l, rest).
Proof.
  induction l as [|a l IH]; intros fuel acc e slash rest Hl He Hf Hs; (destruct fuel as [|f]; [cbn [length] in Hf; lia|]).
  - cbn [flat_map app sparse_attrs splain map]. rewrite app_nil_r. unfold tag_end. rewrite <- app_assoc.
    rewrite (drop_while_stops h_ws e _ (is_ws_h_ws _ He)) by (destruct slash; reflexivity).
    destruct slash; reflexivity.
  - pose proof Hl as Hl0. cbn [forallb] in Hl. apply andb_true_iff in Hl. destruct Hl as [Ha Hl].
    destruct (sattr_parts a Ha) as (Hpre & _ & _ & _ & Hname & _).
    destruct (aname_ok_inv _ Hname) as (c & t & En & Hc & Hnc).
    cbn [flat_map]. rewrite <- app_assoc, render_sattr_shape. cbn [sparse_attrs].
    assert (Hcw : h_ws c = false) by (apply lc_letter_name_c, name_c_facts in Hc; tauto).
    rewrite (drop_while_stops h_ws (sa_pre a) _ (is_ws_h_ws _ Hpre)) by (rewrite En; exact Hcw).
    assert (ST : sa_q a = 0 -> stops unq_c (flat_map render_sattr l ++ tag_end e slash ++ rest)).
    { intros _. assert (Hsl : slash = false) by (destruct slash; [discriminate (Hs eq_refl)|reflexivity]).
      apply attrs_tail_stops; [|reflexivity|rewrite Hsl; discriminate|exact Hl|exact He].
      intros y Hy. apply xws_facts in Hy. destruct Hy as (W & _). unfold unq_c. rewrite W. reflexivity. }
    pose proof (sparse_attr_render a _ Ha ST) as P.
    rewrite En in P |- *. cbn [app] in P |- *.
    destruct (name_c_facts c (lc_letter_name_c c Hc)) as (_ & _ & _ & _ & E62 & E47 & _).
    rewrite E62, E47. rewrite P.
    rewrite IH; [|exact Hl|exact He|cbn [length] in Hf; lia|intros Hs'; discriminate (Hs Hs')].
    cbn [rev splain map]. rewrite <- app_assoc, En. reflexivity.
Qed.

Lemma render_sattrs_length : forall l T, (length l <= length (flat_map render_sattr l ++ T))%nat.
Proof.
  induction l as [|a l IH]; intros T; [cbn; lia|]. cbn [flat_map length]. rewrite <- app_assoc, app_length.
  specialize (IH T).
  assert (1 <= length (render_sattr a))%nat by (unfold render_sattr; rewrite !app_length; cbn [length]; lia). lia.
Qed.

(* ---- tokens: one step -------------------------------------------------------------------------------------------- *)
Lemma tagname_inv : forall n, tagname_ok n = true ->
  exists c t, n = c :: t /\ is_letter c = true /\ forallb tag_name_c n = true /\ (c =? 47) = false /\ (c =? 60) = false.
Proof.
  intros n H. unfold tagname_ok in H. apply andb_true_iff in H. destruct H as [Hl Hne].
  destruct n as [|c t]; [discriminate|]. exists c, t. pose proof Hl as Hl'. cbn [forallb] in Hl'. apply andb_true_iff in Hl'.
  destruct Hl' as [Hc _]. repeat split; try exact Hc.
  - revert Hl. apply forallb_weaken. intros x Hx. unfold is_letter in Hx. unfold tag_name_c, h_ws. lia.
  - unfold is_letter in Hc. lia.
  - unfold is_letter in Hc. lia.
Qed.

Lemma stoks_open : forall f name l e slash X, tagname_ok name = true -> forallb sattr_ok l = true -> is_ws e = true ->
  (slash = true -> l = []) ->
  stoks (S f) ([60] ++ name ++ flat_map render_sattr l ++ tag_end e slash ++ X)
  = match stoks f X with Some r => Some (SOpen (lower name) (splain l) :: r) | None => None end.
Proof.
  intros f name l e slash X Hn Hl He Hs. destruct (tagname_inv name Hn) as (c & t & En & Hc & Htn & E47 & _).
  assert (ST : stops tag_name_c (flat_map render_sattr l ++ tag_end e slash ++ X)).
  { apply attrs_tail_stops; [|reflexivity|reflexivity|exact Hl|exact He]. intros y Hy. apply xws_facts in Hy. tauto. }
  cbn [app]. rewrite En. cbn [app stoks]. change (60 =? 60) with true. cbv iota. rewrite E47, Hc.
  change (c :: t ++ flat_map render_sattr l ++ tag_end e slash ++ X) with ((c :: t) ++ flat_map render_sattr l ++ tag_end e slash ++ X).
  rewrite <- En.
  destruct (span_app tag_name_c name _ Htn ST) as [-> ->].
  rewrite sparse_attrs_render; [reflexivity|exact Hl|exact He| |exact Hs].
  rewrite app_length. pose proof (render_sattrs_length l (tag_end e slash ++ X)). lia.
Qed.

Lemma stoks_close : forall f name w X, tagname_ok name = true -> is_ws w = true ->
  stoks (S f) (render_sclose (name, w) ++ X)
  = match stoks f X with Some r => Some (SClose (lower name) :: r) | None => None end.
Proof.
  intros f name w X Hn Hw. destruct (tagname_inv name Hn) as (c & t & En & Hc & Htn & _).
  unfold render_sclose. cbn [fst snd]. rewrite <- !app_assoc. cbn [app stoks].
  change (60 =? 60) with true. cbv iota. change (47 =? 47) with true. cbv iota.
  assert (ST : stops tag_name_c (w ++ 62 :: X)).
  { apply stops_ws_then; [exact Hw| |reflexivity]. intros y Hy. apply xws_facts in Hy. tauto. }
  destruct (span_app tag_name_c name _ Htn ST) as [-> ->].
  rewrite (drop_while_stops h_ws w _ (is_ws_h_ws _ Hw)) by reflexivity. cbn [app]. change (62 =? 62) with true. reflexivity.
Qed.

Definition text_tok (txt : str) : list stok := match txt with [] => [] | _ => [SText (sunescape txt None)] end.

Lemma stoks_text_then : forall txt X lX, forallb not_lt txt = true -> stops not_lt X ->
  (forall f, (length X < f)%nat -> stoks f X = Some lX) ->
  forall fuel, (length (txt ++ X) < fuel)%nat -> stoks fuel (txt ++ X) = Some (text_tok txt ++ lX).
Proof.
  intros txt X lX Ht HX HR fuel Hf. destruct txt as [|c t].
  - cbn [app text_tok]. exact (HR fuel Hf).
  - destruct fuel as [|f]; [lia|]. cbn [app length] in Hf.
    pose proof Ht as Ht'. cbn [forallb] in Ht'. apply andb_true_iff in Ht'. destruct Ht' as [Hc _].
    assert (E : (c =? 60) = false) by (unfold not_lt in Hc; lia).
    cbn [app stoks]. rewrite E. change (c :: t ++ X) with ((c :: t) ++ X).
    destruct (span_app not_lt (c :: t) X Ht HX) as [-> ->].
    rewrite (HR f) by (rewrite app_length in Hf; lia). reflexivity.
Qed.

(* ---- tokens of the structures ----------------------------------------------------------------------------------- *)
Definition tk (r : str) (l : list stok) : Prop :=
  forall X lX, stops not_lt X -> (forall f, (length X < f)%nat -> stoks f X = Some lX) ->
  forall f, (length (r ++ X) < f)%nat -> stoks f (r ++ X) = Some (l ++ lX).
(* pieces that end in '>' need nothing of what follows *)
Definition tk0 (r : str) (l : list stok) : Prop :=
  forall X lX, (forall f, (length X < f)%nat -> stoks f X = Some lX) ->
  forall f, (length (r ++ X) < f)%nat -> stoks f (r ++ X) = Some (l ++ lX).
Definition lt_start (r : str) : Prop := match r with [] => True | c :: _ => c = 60 end.

Lemma tk0_tk : forall r l, tk0 r l -> tk r l.
Proof. intros r l H X lX _. apply H. Qed.

Lemma tk_nil : tk [] [].
Proof. intros X lX _ H f Hf. exact (H f Hf). Qed.

Lemma tk0_app_tk : forall r1 l1 r2 l2, tk0 r1 l1 -> tk r2 l2 -> tk (r1 ++ r2) (l1 ++ l2).
Proof.
  intros r1 l1 r2 l2 H1 H2 X lX SX HX f Hf. rewrite <- !app_assoc in *.
  apply (H1 (r2 ++ X) (l2 ++ lX)); [|exact Hf]. intros f' Hf'. apply H2; assumption.
Qed.

Lemma tk0_then : forall r1 x r2 l2, tk0 r1 [x] -> tk r2 l2 -> tk (r1 ++ r2) (x :: l2).
Proof. intros r1 x r2 l2. exact (tk0_app_tk r1 [x] r2 l2). Qed.

Lemma tk0_app_tk0 : forall r1 l1 r2 l2, tk0 r1 l1 -> tk0 r2 l2 -> tk0 (r1 ++ r2) (l1 ++ l2).
Proof.
  intros r1 l1 r2 l2 H1 H2 X lX HX f Hf. rewrite <- !app_assoc in *.
  apply (H1 (r2 ++ X) (l2 ++ lX)); [|exact Hf]. intros f' Hf'. apply H2; assumption.
Qed.

Lemma tk_app_lt : forall r1 l1 r2 l2, tk r1 l1 -> tk r2 l2 -> lt_start r2 -> tk (r1 ++ r2) (l1 ++ l2).
Proof. intros r1 l1 r2 l2 H1 H2 S2. exact (reads_app_lt stoks (@app stok) (fun a b r => eq_sym (app_assoc a b r)) r1 l1 r2 l2 H1 S2 H2). Qed.

Lemma tk_text : forall t, forallb not_lt t = true -> tk t (text_tok t).
Proof. intros t Ht X lX SX HX f Hf. apply stoks_text_then; assumption. Qed.

Lemma tk0_step : forall c r x,
  (forall f X, stoks (S f) ((c :: r) ++ X) = match stoks f X with Some l => Some (x :: l) | None => None end) ->
  tk0 (c :: r) [x].
Proof.
  intros c r x H X lX HX f Hf. destruct f as [|f]; [lia|]. rewrite H, (HX f); [reflexivity|].
  rewrite app_length in Hf. cbn [length] in Hf. lia.
Qed.

Lemma tk0_open : forall name l e slash, tagname_ok name = true -> forallb sattr_ok l = true -> is_ws e = true ->
  (slash = true -> l = []) -> tk0 ([60] ++ name ++ flat_map render_sattr l ++ tag_end e slash) [SOpen (lower name) (splain l)].
Proof.
  intros name l e slash Hn Hl He Hs. apply tk0_step. intros f X.
  rewrite <- (stoks_open f name l e slash X Hn Hl He Hs). cbn [app]. rewrite <- !app_assoc. reflexivity.
Qed.

Lemma tk0_stag : forall t, tagname_ok (st_name t) = true -> forallb sattr_ok (st_attrs t) = true -> is_ws (st_end t) = true ->
  tk0 (render_stag t) [SOpen (lower (st_name t)) (splain (st_attrs t))].
Proof. intros t Hn Hl He. apply (tk0_open (st_name t) (st_attrs t) (st_end t) false Hn Hl He). discriminate. Qed.

Lemma tk0_sclose : forall c, tagname_ok (fst c) = true -> is_ws (snd c) = true ->
  tk0 (render_sclose c) [SClose (lower (fst c))].
Proof. intros [n w] Hn Hw. apply tk0_step. intros f X. exact (stoks_close f n w X Hn Hw). Qed.

Lemma tk0_sbr : forall b, sbr_ok b = true -> tk0 (render_sbr b) [SOpen (lit "br") []].
Proof.
  intros b H. unfold sbr_ok in H. apply andb_prop in H as [[Hn Hbr]%andb_prop Hw].
  rewrite <- (str_eqb_eq _ _ Hbr).
  exact (tk0_open (br_name b) [] (br_ws b) (br_slash b) Hn eq_refl Hw (fun _ => eq_refl)).
Qed.

Lemma text_tok_ws : forall w, is_ws w = true -> text_tok w = match w with [] => [] | _ => [SText w] end.
Proof.
  intros [|c w] H; [reflexivity|]. unfold text_tok.
  rewrite sunescape_is_by, (unescape_by_plain _ _ (is_ws_lacks_amp _ H)). reflexivity.
Qed.

Lemma tk_ws : forall w, is_ws w = true -> tk w (text_tok w).
Proof. intros w H. apply tk_text. apply is_ws_not_lt. exact H. Qed.

Lemma text_tok_srun : forall r, forallb schar_ok r = true ->
  text_tok (render_srun r) = match r with [] => [] | _ => [SText (srun_val r)] end.
Proof.
  intros [|x r] H; [reflexivity|]. unfold text_tok.
  pose proof (sunescape_srun (x :: r) [] H) as U. rewrite app_nil_r in U. cbn [sunescape] in U. rewrite app_nil_r in U. rewrite U.
  destruct (render_srun (x :: r)) eqn:E; [|reflexivity].
  unfold render_srun in E. cbn [flat_map] in E. apply app_eq_nil in E. destruct E as [E _]. exfalso. exact (render_schar_nonempty x E).
Qed.

Definition toks_content (c : scontent) : list stok :=
  flat_map (fun it : srun * sbr => text_tok (render_srun (fst it)) ++ [SOpen (lit "br") []]) (fst c)
  ++ text_tok (render_srun (snd c)).

Lemma lt_start_sbr : forall b X, lt_start (render_sbr b ++ X).
Proof. intros. reflexivity. Qed.
Lemma lt_start_stag : forall t X, lt_start (render_stag t ++ X).
Proof. intros. reflexivity. Qed.
Lemma lt_start_sclose : forall c X, lt_start (render_sclose c ++ X).
Proof. intros. reflexivity. Qed.

Lemma tk_content : forall c, scontent_ok c = true -> tk (render_scontent c) (toks_content c).
Proof.
  intros [items last] H. unfold scontent_ok, render_scontent, toks_content in *. cbn [fst snd] in *.
  apply andb_true_iff in H. destruct H as [Hi Hl].
  induction items as [|[r b] items IH].
  - cbn [flat_map app]. apply tk_text. apply render_srun_not_lt. exact Hl.
  - cbn [forallb fst snd] in Hi. apply andb_true_iff in Hi. destruct Hi as [Hrb Hi]. apply andb_true_iff in Hrb. destruct Hrb as [Hr Hb].
    cbn [flat_map fst snd]. rewrite <- !app_assoc.
    apply tk_app_lt; [apply tk_text; apply render_srun_not_lt; exact Hr| |apply lt_start_sbr].
    apply tk0_app_tk; [apply tk0_sbr; exact Hb|]. exact (IH Hi).
Qed.

Definition toks_par (p : spar) : list stok :=
  SOpen (lit "p") (splain (st_attrs (sp_tag p))) :: toks_content (sp_content p) ++ SClose (lit "p") :: text_tok (sp_after p).

Lemma tk0_stag_ok : forall ln t, stag_ok ln t = true -> tk0 (render_stag t) [SOpen ln (splain (st_attrs t))].
Proof.
  intros ln t H. unfold stag_ok in H. apply andb_prop in H as [[[Hn Hln]%andb_prop Hl]%andb_prop He].
  rewrite <- (str_eqb_eq _ _ Hln). apply tk0_stag; assumption.
Qed.

Lemma tk0_sclose_ok : forall ln c, sclose_ok ln c = true -> tk0 (render_sclose c) [SClose ln].
Proof.
  intros ln c H. unfold sclose_ok in H. apply andb_prop in H as [[Hn Hln]%andb_prop Hw].
  rewrite <- (str_eqb_eq _ _ Hln). apply tk0_sclose; assumption.
Qed.

Lemma spar_parts : forall default styles p, spar_ok default styles p = true ->
  stag_ok (lit "p") (sp_tag p) = true /\ scontent_ok (sp_content p) = true /\ sclose_ok (lit "p") (sp_close p) = true
  /\ is_ws (sp_after p) = true
  /\ match find_lang styles (splain (st_attrs (sp_tag p))) with Some l => l | None => default end = sp_lang p.
Proof.
  intros default styles p H. unfold spar_ok in H. apply andb_prop in H as [[[[Ht Hc]%andb_prop Hcl]%andb_prop Hw]%andb_prop HL].
  apply str_eqb_eq in HL. tauto.
Qed.

Lemma tk_par : forall default styles p, spar_ok default styles p = true -> tk (render_spar p) (toks_par p).
Proof.
  intros default styles p H. destruct (spar_parts _ _ _ H) as (Ht & Hc & Hcl & Hw & _).
  unfold render_spar, toks_par.
  apply tk0_then; [apply tk0_stag_ok; exact Ht|].
  apply tk_app_lt; [apply tk_content; exact Hc| |apply lt_start_sclose].
  apply tk0_then; [apply tk0_sclose_ok; exact Hcl|apply tk_ws; exact Hw].
Qed.

Lemma tk_flat_map : forall (A : Type) (r : A -> str) (t : A -> list stok) (l : list A),
  (forall x, In x l -> tk (r x) (t x) /\ exists s, r x = 60 :: s) -> tk (flat_map r l) (flat_map t l).
Proof.
  intros A r t l H. induction l as [|x l IH]; [exact tk_nil|]. cbn [flat_map].
  apply tk_app_lt; [apply H; left; reflexivity|apply IH; intros y Hy; apply H; right; exact Hy|].
  destruct l as [|y l]; [exact I|]. cbn [flat_map].
  destruct (H y (or_intror (or_introl eq_refl))) as [_ [s ->]]. reflexivity.
Qed.

Definition toks_sync (s : ssync) : list stok :=
  SOpen (lit "sync") (splain (st_attrs (ss_tag s))) :: text_tok (ss_ws s) ++ flat_map toks_par (ss_ps s)
  ++ SClose (lit "sync") :: text_tok (ss_after s).

Lemma ssync_parts : forall default styles s, ssync_ok default styles s = true ->
  stag_ok (lit "sync") (ss_tag s) = true /\ is_ws (ss_ws s) = true /\ forallb (spar_ok default styles) (ss_ps s) = true
  /\ sclose_ok (lit "sync") (ss_close s) = true /\ is_ws (ss_after s) = true
  /\ attr_get (lit "start") (splain (st_attrs (ss_tag s))) = Some (padded (ss_pad s) (ss_ms s)).
Proof.
  intros default styles s H. unfold ssync_ok in H. apply andb_prop in H as [H Hs]. do 4 (apply andb_true_iff in H; destruct H as [H ?]).
  repeat split; try assumption. unfold opt_str_eqb in Hs.
  destruct (attr_get (lit "start") (splain (st_attrs (ss_tag s)))) as [x|]; [|discriminate].
  rewrite (str_eqb_eq _ _ Hs). reflexivity.
Qed.

Lemma tk_sync : forall default styles s, ssync_ok default styles s = true -> tk (render_ssync s) (toks_sync s).
Proof.
  intros default styles s H. destruct (ssync_parts _ _ _ H) as (H1 & H2 & H3 & H4 & H5 & _).
  unfold render_ssync, toks_sync.
  apply tk0_then; [apply tk0_stag_ok; exact H1|].
  assert (L : lt_start (flat_map render_spar (ss_ps s) ++ render_sclose (ss_close s) ++ ss_after s)).
  { destruct (ss_ps s); reflexivity. }
  apply tk_app_lt; [apply tk_ws; exact H2| |exact L].
  apply tk_app_lt; [| |apply lt_start_sclose].
  - apply tk_flat_map. intros p Hp. split; [|eexists; reflexivity].
    rewrite forallb_forall in H3. exact (tk_par default styles p (H3 p Hp)).
  - apply tk0_then; [apply tk0_sclose_ok; exact H4|apply tk_ws; exact H5].
Qed.

Definition toks_doc (d : sdoc) : list stok :=
  SOpen (lower (st_name (sd_open d))) (splain (st_attrs (sd_open d))) :: text_tok (sd_ws d)
  ++ flat_map toks_sync (sd_syncs d)
  ++ flat_map (fun c : (str * str) * str => SClose (lower (fst (fst c))) :: text_tok (snd c)) (sd_tail d).

Lemma other_name_ok : forall n, other_name n = true -> tagname_ok n = true.
Proof. intros n H. unfold other_name in H. apply andb_true_iff in H. destruct H as [H _]. apply andb_true_iff in H. tauto. Qed.

Lemma sdoc_parts : forall default styles d, sdoc_ok default styles d = true ->
  other_name (st_name (sd_open d)) = true /\ forallb sattr_ok (st_attrs (sd_open d)) = true /\ is_ws (st_end (sd_open d)) = true
  /\ is_ws (sd_ws d) = true /\ forallb (ssync_ok default styles) (sd_syncs d) = true
  /\ forallb (fun c : (str * str) * str => other_name (fst (fst c)) && is_ws (snd (fst c)) && is_ws (snd c)) (sd_tail d) = true.
Proof.
  intros default styles d H. unfold sdoc_ok in H. do 5 (apply andb_true_iff in H; destruct H as [H ?]).
  repeat split; assumption.
Qed.

Theorem stoks_doc : forall default styles d, sdoc_ok default styles d = true ->
  stoks (S (length (render_sdoc d))) (render_sdoc d) = Some (toks_doc d).
Proof.
  intros default styles d H. destruct (sdoc_parts _ _ _ H) as (H1 & H2 & H3 & H4 & H5 & H6).
  assert (T : tk (render_sdoc d) (toks_doc d)).
  { unfold render_sdoc, toks_doc.
    apply tk0_then; [apply tk0_stag; [apply other_name_ok; exact H1|exact H2|exact H3]|].
    assert (L2 : lt_start (flat_map (fun c : (str * str) * str => render_sclose (fst c) ++ snd c) (sd_tail d))).
    { destruct (sd_tail d); reflexivity. }
    assert (L : lt_start (flat_map render_ssync (sd_syncs d)
                          ++ flat_map (fun c : (str * str) * str => render_sclose (fst c) ++ snd c) (sd_tail d))).
    { destruct (sd_syncs d); [exact L2|reflexivity]. }
    apply tk_app_lt; [apply tk_ws; exact H4| |exact L].
    apply tk_app_lt; [| |exact L2].
    - apply tk_flat_map. intros s Hs. split; [|eexists; reflexivity].
      rewrite forallb_forall in H5. exact (tk_sync default styles s (H5 s Hs)).
    - apply tk_flat_map. intros c Hc. split; [|eexists; reflexivity].
      rewrite forallb_forall in H6. specialize (H6 c Hc). apply andb_true_iff in H6. destruct H6 as [H6 W2].
      apply andb_true_iff in H6. destruct H6 as [N W1].
      apply tk0_then; [apply tk0_sclose; [apply other_name_ok; exact N|exact W1]|apply tk_ws; exact W2]. }
  pose proof (T [] [] I (fun f Hf => ltac:(destruct f; [cbn in Hf; lia|reflexivity])) (S (length (render_sdoc d)))) as P.
  rewrite !app_nil_r in P. apply P. lia.
Qed.

Section Machine.
Context (default : str) (styles : list (str * str)).
Let step := sstep default styles.
Definition add_lang (lg : list str) (l : str) : list str := if existsb (str_eqb l) lg then lg else lg ++ [l].

Lemma step_open_p : forall st a, step st (SOpen (lit "p") a)
  = let st' := close_p st in
    mkSst (st_syncs st') (st_cur st') (Some (match find_lang styles a with Some l => l | None => default end, []))
          (add_lang (st_langs st') (match find_lang styles a with Some l => l | None => default end)).
Proof. reflexivity. Qed.

Lemma step_open_sync : forall st a, step st (SOpen (lit "sync") a)
  = let st' := close_sync st in mkSst (st_syncs st') (Some (attr_get (lit "start") a, [])) None (st_langs st').
Proof. reflexivity. Qed.

Lemma step_close_p : forall st, step st (SClose (lit "p")) = close_p st.
Proof. reflexivity. Qed.

Lemma step_close_sync : forall st, step st (SClose (lit "sync")) = close_sync st.
Proof. reflexivity. Qed.

Lemma step_other : forall st n, other_name n = true ->
  step st (SClose (lower n)) = st /\ forall a, step st (SOpen (lower n) a) = st.
Proof.
  intros st n H. unfold other_name in H. apply andb_prop in H as [[_ P]%andb_prop S]. apply negb_true_iff in P, S.
  unfold step. cbn [sstep]. rewrite P, S. split; reflexivity.
Qed.

Lemma fold_text_closed : forall w sy cur lg rest,
  fold_left step (text_tok w ++ rest) (mkSst sy cur None lg) = fold_left step rest (mkSst sy cur None lg).
Proof. intros [|c w] sy cur lg rest; reflexivity. Qed.

Lemma fold_run : forall r sy cur l txt lg rest, forallb schar_ok r = true ->
  fold_left step (text_tok (render_srun r) ++ rest) (mkSst sy cur (Some (l, txt)) lg)
  = fold_left step rest (mkSst sy cur (Some (l, txt ++ srun_val r)) lg).
Proof.
  intros r sy cur l txt lg rest H. rewrite (text_tok_srun r H). destruct r as [|x r].
  - cbn [app srun_val map]. rewrite app_nil_r. reflexivity.
  - reflexivity.
Qed.

Lemma fold_content : forall c sy cur l txt lg rest, scontent_ok c = true ->
  fold_left step (toks_content c ++ rest) (mkSst sy cur (Some (l, txt)) lg)
  = fold_left step rest (mkSst sy cur (Some (l, txt ++ scontent_text c)) lg).
Proof.
  intros [items last] sy cur l txt lg rest H. unfold scontent_ok, toks_content, scontent_text in *. cbn [fst snd] in *.
  apply andb_true_iff in H. destruct H as [Hi Hl]. revert txt.
  induction items as [|[r b] items IH]; intros txt.
  - cbn [flat_map app]. apply fold_run. exact Hl.
  - cbn [forallb fst snd] in Hi. apply andb_true_iff in Hi. destruct Hi as [Hrb Hi]. apply andb_true_iff in Hrb. destruct Hrb as [Hr _].
    cbn [flat_map fst snd]. rewrite <- !app_assoc. rewrite (fold_run r _ _ _ _ _ _ Hr). cbn [app fold_left].
    change (step (mkSst sy cur (Some (l, txt ++ srun_val r)) lg) (SOpen (lit "br") [])) with (mkSst sy cur (Some (l, txt ++ srun_val r)) lg).
    rewrite app_assoc. rewrite (IH Hi). rewrite <- app_assoc. reflexivity.
Qed.

Definition par_obs (p : spar) : str * bool := (sp_lang p, has_visible_char (scontent_text (sp_content p))).

Lemma fold_par : forall p sy start ps lg rest, spar_ok default styles p = true ->
  fold_left step (toks_par p ++ rest) (mkSst sy (Some (start, ps)) None lg)
  = fold_left step rest (mkSst sy (Some (start, ps ++ [par_obs p])) None (add_lang lg (sp_lang p))).
Proof.
  intros p sy start ps lg rest H. destruct (spar_parts _ _ _ H) as (_ & Hc & _ & _ & HL).
  unfold toks_par. cbn [app fold_left]. rewrite step_open_p. cbn [close_p st_p st_syncs st_cur st_langs].
  rewrite HL, <- app_assoc, (fold_content (sp_content p) _ _ _ _ _ _ Hc). cbn [app fold_left].
  rewrite step_close_p. cbn [close_p st_p st_syncs st_cur st_langs]. rewrite fold_text_closed, visible_has. reflexivity.
Qed.

Lemma fold_pars : forall l sy start ps lg rest, forallb (spar_ok default styles) l = true ->
  fold_left step (flat_map toks_par l ++ rest) (mkSst sy (Some (start, ps)) None lg)
  = fold_left step rest (mkSst sy (Some (start, ps ++ map par_obs l)) None (fold_left add_lang (map sp_lang l) lg)).
Proof.
  induction l as [|p l IH]; intros sy start ps lg rest H.
  - cbn [flat_map app map fold_left]. rewrite app_nil_r. reflexivity.
  - cbn [forallb] in H. apply andb_true_iff in H. destruct H as [Hp Hl].
    cbn [flat_map]. rewrite <- app_assoc, (fold_par p _ _ _ _ _ Hp), (IH _ _ _ _ _ Hl).
    cbn [map fold_left]. rewrite <- app_assoc. reflexivity.
Qed.

Definition sync_obs (s : ssync) : xsync := (Some (padded (ss_pad s) (ss_ms s)), map par_obs (ss_ps s)).

Lemma fold_sync : forall s sy lg rest, ssync_ok default styles s = true ->
  fold_left step (toks_sync s ++ rest) (mkSst sy None None lg)
  = fold_left step rest (mkSst (sy ++ [sync_obs s]) None None (fold_left add_lang (map sp_lang (ss_ps s)) lg)).
Proof.
  intros s sy lg rest H. destruct (ssync_parts _ _ _ H) as (_ & _ & H3 & _ & _ & H6).
  unfold toks_sync. cbn [app fold_left]. rewrite step_open_sync. cbn [close_sync close_p st_p st_syncs st_cur st_langs].
  rewrite H6, <- !app_assoc, fold_text_closed, (fold_pars _ _ _ _ _ _ H3). cbn [app fold_left].
  rewrite step_close_sync. cbn [close_sync close_p st_p st_syncs st_cur st_langs app]. rewrite fold_text_closed. reflexivity.
Qed.

Lemma fold_syncs : forall l sy lg rest, forallb (ssync_ok default styles) l = true ->
  fold_left step (flat_map toks_sync l ++ rest) (mkSst sy None None lg)
  = fold_left step rest (mkSst (sy ++ map sync_obs l) None None
                               (fold_left add_lang (flat_map (fun s => map sp_lang (ss_ps s)) l) lg)).
Proof.
  induction l as [|s l IH]; intros sy lg rest H.
  - cbn [flat_map app map fold_left]. rewrite app_nil_r. reflexivity.
  - cbn [forallb] in H. apply andb_true_iff in H. destruct H as [Hs Hl].
    cbn [flat_map]. rewrite <- app_assoc, (fold_sync s _ _ _ Hs), (IH _ _ _ Hl).
    cbn [map]. rewrite <- app_assoc, fold_left_app. reflexivity.
Qed.

Lemma fold_tail : forall tl sy lg, forallb (fun c : (str * str) * str => other_name (fst (fst c)) && is_ws (snd (fst c)) && is_ws (snd c)) tl = true ->
  fold_left step (flat_map (fun c : (str * str) * str => SClose (lower (fst (fst c))) :: text_tok (snd c)) tl) (mkSst sy None None lg)
  = mkSst sy None None lg.
Proof.
  induction tl as [|c tl IH]; intros sy lg H; [reflexivity|].
  cbn [forallb] in H. apply andb_true_iff in H. destruct H as [Hc Ht]. apply andb_true_iff in Hc. destruct Hc as [Hc _].
  apply andb_true_iff in Hc. destruct Hc as [N _].
  cbn [flat_map app fold_left]. rewrite (proj1 (step_other _ _ N)), fold_text_closed. exact (IH sy lg Ht).
Qed.

Theorem machine_doc : forall d, sdoc_ok default styles d = true ->
  sami_machine default styles (toks_doc d)
  = (first_seen (flat_map (fun s => map sp_lang (ss_ps s)) (sd_syncs d)), map sync_obs (sd_syncs d)).
Proof.
  intros d H. destruct (sdoc_parts _ _ _ H) as (H1 & _ & _ & _ & H5 & H6).
  assert (E : fold_left step (toks_doc d) (mkSst [] None None [])
              = mkSst (map sync_obs (sd_syncs d)) None None
                      (fold_left add_lang (flat_map (fun s => map sp_lang (ss_ps s)) (sd_syncs d)) [])).
  { unfold toks_doc. cbn [fold_left].
    rewrite (proj2 (step_other _ _ H1)), fold_text_closed, (fold_syncs _ _ _ _ H5), (fold_tail _ _ _ H6). reflexivity. }
  unfold sami_machine. fold step. rewrite E. reflexivity.
Qed.
End Machine.

Lemma sync_obs_render : forall d, map sync_obs (sd_syncs d) = map async_render (sdoc_body d).
Proof. intros d. unfold sdoc_body. rewrite map_map. reflexivity. Qed.

Theorem sami_string_exact : forall default styles d,
  sdoc_ok default styles d = true -> sami_tree_dom (sdoc_langs d) (sdoc_body d) = true ->
  sami_read_string default styles (render_sdoc d) = sdoc_expected d.
Proof.
  intros default styles d H D. unfold sami_read_string.
  rewrite (stoks_doc default styles d H), (machine_doc default styles d H). cbn [fst snd].
  rewrite sync_obs_render. unfold sdoc_expected. exact (sami_tree_exact (sdoc_langs d) (sdoc_body d) D).
Qed.
