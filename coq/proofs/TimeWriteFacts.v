(* Proofs for C02: the timestamp formatters print fields that an independent parser reads back
   as floor(rhe t / 1000) ms; rhe is the identity on integers and stays within the values the
   statement accepts; MicroDVD frames / SAMI milliseconds are floors printed as integer
   literals; SAMI sync rule; SRT / merged writers emit one cue per maximal run. *)
From Coq Require Import List ZArith QArith Qround Lia Bool ZifyBool.
From PV Require Import lib.Sx lib.Str lib.Result lib.Dec.
From PV Require Import model.Base spec.SpecBase proofs.BaseFacts proofs.TimeStrFacts.
From PV Require Import model.TimeWrite spec.SpecTimeW.
Import ListNotations.
Open Scope Z_scope.
#[local] Ltac Zify.zify_post_hook ::= Z.to_euclidean_division_equations.

Lemma Qfloor_nd : forall n d, Qfloor (n # d) = n / Zpos d.
Proof. reflexivity. Qed.

Lemma up_ok_nd : forall n d, up_ok (n # d) = (Zpos d <=? 2 * (n mod Zpos d)).
Proof.
  intros n d. unfold up_ok, Qle_bool, Qminus, Qplus, Qopp, inject_Z. rewrite Qfloor_nd. cbn [Qnum Qden].
  rewrite Pos.mul_1_r. lia.
Qed.

Lemma rhe_cases : forall q, rhe q = Qfloor q \/ (rhe q = Qfloor q + 1 /\ up_ok q = true).
Proof.
  intros [n d]. unfold rhe. rewrite up_ok_nd.
  assert (T : Qfloor ((n # d) * 2) = (n * 2) / Zpos d).
  { unfold Qmult. cbn [Qnum Qden]. rewrite Qfloor_nd, Pos.mul_1_r. reflexivity. }
  rewrite T, Qfloor_nd.
  destruct (n * 2 / Zpos d =? 2 * (n / Zpos d)) eqn:E1; [left; reflexivity|].
  assert (Hup : (Zpos d <=? 2 * (n mod Zpos d)) = true) by (pose proof (Pos2Z.is_pos d); nia).
  destruct (Qeq_bool _ _); [destruct (Z.even _)|]; (left; reflexivity) || (right; split; [reflexivity|exact Hup]).
Qed.

Lemma rhe_int : forall z, rhe (inject_Z z) = z.
Proof.
  intros z. unfold rhe, inject_Z. unfold Qmult. cbn [Qnum Qden]. rewrite !Qfloor_nd.
  change (Zpos (1 * 1)) with 1. change (Zpos 1) with 1. rewrite !Z.div_1_r.
  assert (E : (z * 2 =? 2 * z) = true) by lia. rewrite E. reflexivity.
Qed.

Lemma floor_ms_div : forall q, floor_ms q = Qfloor q / 1000.
Proof.
  intros [n d]. unfold floor_ms, Qdiv, Qmult, Qinv. cbn [Qnum Qden]. rewrite !Qfloor_nd.
  rewrite Z.mul_1_r, Pos2Z.inj_mul. rewrite Z.div_div by lia. reflexivity.
Qed.

(* nested floors: (n / d) * 25 / 10^6 and n * 25 / (d * 10^6) are the same integer *)
Lemma floor_frames_div : forall q, floor_frames q = Qfloor q * 25 / 1000000.
Proof.
  intros [n d]. unfold floor_frames, Qdiv, Qmult, Qinv. cbn [Qnum Qden]. rewrite !Qfloor_nd.
  rewrite Z.mul_1_r, Pos.mul_1_r, Pos2Z.inj_mul. pose proof (Pos2Z.is_pos d). nia.
Qed.

(* the value the timedelta-based formatters denote is one the statement accepts *)
Lemma acc_ms_rhe : forall t, acc_ms t (rhe t / 1000) = true.
Proof.
  intros t. unfold acc_ms. rewrite floor_ms_div.
  destruct (rhe_cases t) as [->|[-> Hup]].
  - rewrite Z.eqb_refl. reflexivity.
  - rewrite Hup, Z.eqb_refl. cbn [andb]. apply orb_true_r.
Qed.

Lemma acc_ms_floor : forall t, acc_ms t (floor_ms t) = true.
Proof. intros. unfold acc_ms. rewrite Z.eqb_refl. reflexivity. Qed.

Lemma floor_ms_inj : forall z, floor_ms (inject_Z z) = z / 1000.
Proof. intros z. rewrite floor_ms_div, Qfloor_Z. reflexivity. Qed.

Lemma up_ok_int : forall z, up_ok (inject_Z z) = false.
Proof.
  intros z. unfold inject_Z. rewrite up_ok_nd. lia.
Qed.

Lemma acc_ms_int : forall z v, acc_ms (inject_Z z) v = true <-> v = z / 1000.
Proof.
  intros z v. unfold acc_ms. rewrite floor_ms_div, Qfloor_Z, up_ok_int. cbn [andb]. rewrite orb_false_r. apply Z.eqb_eq.
Qed.

Lemma acc_frames_int : forall z v, acc_frames (inject_Z z) v = true <-> v = z * 25 / 1000000.
Proof.
  intros z v. unfold acc_frames. rewrite floor_frames_div, Qfloor_Z, up_ok_int. cbn [andb]. rewrite orb_false_r.
  apply Z.eqb_eq.
Qed.

Lemma d2_two : forall n, 0 <= n < 100 -> d2 (48 + n / 10) (48 + n mod 10) = Some n.
Proof. intros n Hn. unfold d2. rewrite !TimeStrFacts.is_digit_d by lia. cbn [andb]. f_equal. lia. Qed.

Lemma d3_three : forall n, 0 <= n < 1000 ->
  d3 (48 + n / 100) (48 + n / 10 mod 10) (48 + n mod 10) = Some n.
Proof. intros n Hn. unfold d3. rewrite !TimeStrFacts.is_digit_d by lia. cbn [andb]. f_equal. lia. Qed.

(* the clock fields of a whole number of microseconds below 24 h; clock_fields is all later proofs use of them *)
Definition f_h (t : Z) := t / 1000000 / 3600.
Definition f_m (t : Z) := t / 1000000 mod 3600 / 60.
Definition f_s (t : Z) := t / 1000000 mod 3600 mod 60.
Definition f_ms (t : Z) := t mod 1000000 / 1000.

Lemma clock_fields : forall t, 0 <= t < 86400000000 ->
  0 <= f_h t < 24 /\ 0 <= f_m t < 60 /\ 0 <= f_s t < 60 /\ 0 <= f_ms t < 1000 /\
  t / 1000 = ((f_h t * 60 + f_m t) * 60 + f_s t) * 1000 + f_ms t.
Proof. intros t Ht. unfold f_h, f_m, f_s, f_ms. lia. Qed.

Lemma td_seconds_day : forall u, 0 <= u < 86400000000 -> td_seconds u = u / 1000000.
Proof. intros u Hu. apply Z.mod_small. lia. Qed.

Lemma format_ts_shape : forall sep t, 0 <= rhe t < 86400000000 ->
  format_ts sep t
  = two (f_h (rhe t)) ++ 58 :: two (f_m (rhe t)) ++ 58 :: two (f_s (rhe t)) ++ sep :: three (f_ms (rhe t)).
Proof.
  intros sep t Hu. destruct (clock_fields _ Hu) as (Hh & Hm & Hs & Hf & _).
  unfold format_ts. cbv zeta. rewrite (td_seconds_day _ Hu). unfold td_micro.
  fold (f_h (rhe t)) (f_m (rhe t)) (f_s (rhe t)) (f_ms (rhe t)).
  unfold fmt2, fmt3. rewrite !zpad2_two, zpad3_three by lia. reflexivity.
Qed.

Lemma parse_hms_fields : forall sep h m s f,
  0 <= h < 100 -> 0 <= m < 60 -> 0 <= s < 60 -> 0 <= f < 1000 ->
  parse_hms sep (two h ++ 58 :: two m ++ 58 :: two s ++ sep :: three f)
  = Some (((h * 60 + m) * 60 + s) * 1000 + f).
Proof.
  intros sep h m s f Hh Hm Hs Hf. unfold two, three. cbn [app]. unfold parse_hms.
  change (58 =? 58) with true. rewrite Z.eqb_refl. cbn [andb].
  rewrite !d2_two by lia. rewrite d3_three by lia.
  assert (C : ((m <? 60) && (s <? 60)) = true) by lia. rewrite C. reflexivity.
Qed.

(* format, then parse with the independent clock parser: floor(rhe t / 1000) ms; the parser
   succeeding means 2/2/2/3 digit fields, MM < 60, SS < 60 *)
Lemma fmt_hms_denotes : forall sep t, 0 <= rhe t < 86400000000 ->
  parse_hms sep (format_ts sep t) = Some (rhe t / 1000).
Proof.
  intros sep t Hu. rewrite format_ts_shape by exact Hu. destruct (clock_fields _ Hu) as (Hh & Hm & Hs & Hf & E).
  rewrite parse_hms_fields by lia. rewrite E. reflexivity.
Qed.

Lemma srt_ts_full : forall t, 0 <= rhe t < 86400000000 -> srt_ts t = format_ts 44 t.
Proof. intros t Hu. unfold srt_ts. rewrite format_ts_shape by exact Hu. reflexivity. Qed.

Lemma fmt_hms_ok : forall sep t, 0 <= rhe t < 86400000000 -> ok_hms sep t (format_ts sep t) = true.
Proof. intros sep t Hu. unfold ok_hms. rewrite fmt_hms_denotes by exact Hu. apply acc_ms_rhe. Qed.

Lemma fmt_hms_int : forall sep z, 0 <= z < 86400000000 ->
  parse_hms sep (format_ts sep (inject_Z z)) = Some (z / 1000).
Proof. intros sep z Hz. rewrite fmt_hms_denotes by (rewrite rhe_int; exact Hz). rewrite rhe_int. reflexivity. Qed.

Lemma is_digit_d : forall d, 0 <= d <= 9 -> is_digit (48 + d) = true.
Proof. exact TimeStrFacts.is_digit_d. Qed.

Lemma parse_mmss_fields : forall m s f, 0 <= m < 60 -> 0 <= s < 60 -> 0 <= f < 1000 ->
  parse_mmss (two m ++ 58 :: two s ++ 46 :: three f) = Some ((m * 60 + s) * 1000 + f).
Proof.
  intros m s f Hm Hs Hf. unfold two, three. cbn [app]. unfold parse_mmss.
  change (58 =? 58) with true. change (46 =? 46) with true. cbn [andb].
  rewrite !d2_two by lia. rewrite d3_three by lia.
  assert (C : ((m <? 60) && (s <? 60)) = true) by lia. rewrite C. reflexivity.
Qed.

Lemma divmod_60_60 : forall x, x / 60 / 60 = x / 3600 /\ x / 60 mod 60 = x mod 3600 / 60 /\ x mod 60 = x mod 3600 mod 60.
Proof. intros x. lia. Qed.

Lemma vtt_ts_shape : forall t, 0 <= rhe t < 86400000000 ->
  let body := two (f_m (rhe t)) ++ 58 :: two (f_s (rhe t)) ++ 46 :: three (f_ms (rhe t)) in
  vtt_ts t = if f_h (rhe t) =? 0 then body else two (f_h (rhe t)) ++ 58 :: body.
Proof.
  intros t Hu body. destruct (clock_fields _ Hu) as (Hh & Hm & Hs & Hf & _).
  unfold vtt_ts. cbv zeta. rewrite (td_seconds_day _ Hu). unfold td_micro.
  destruct (divmod_60_60 (rhe t / 1000000)) as (-> & -> & ->).
  fold (f_h (rhe t)) (f_m (rhe t)) (f_s (rhe t)) (f_ms (rhe t)).
  unfold fmt2, fmt3. rewrite !zpad2_two, zpad3_three by lia. reflexivity.
Qed.

Lemma vtt_ts_denotes : forall t, 0 <= rhe t < 86400000000 ->
  parse_vtt (vtt_ts t) = Some (rhe t / 1000).
Proof.
  intros t Hu. rewrite vtt_ts_shape by exact Hu. cbv zeta.
  destruct (clock_fields _ Hu) as (Hh & Hm & Hs & Hf & E). rewrite E.
  generalize dependent (f_ms (rhe t)). generalize dependent (f_s (rhe t)). generalize dependent (f_m (rhe t)).
  generalize dependent (f_h (rhe t)). intros h Hh m Hm s Hs f Hf _.
  unfold parse_vtt. destruct (h =? 0) eqn:H0.
  - rewrite parse_mmss_fields by lia. f_equal. lia.
  - (* twelve characters are no mm:ss.ttt: the hour digits are split off at the first colon *)
    assert (N : parse_mmss (two h ++ 58 :: two m ++ 58 :: two s ++ 46 :: three f) = None) by reflexivity.
    rewrite N.
    rewrite take_while_stops, drop_while_stops
      by (first [apply two_digits; lia | reflexivity]).
    change (length (two h)) with 2%nat. change (2 <=? 2)%nat with true. cbv iota.
    pose proof (int_of_two h ltac:(lia)) as I. change (digits_val_acc (two h) 0 = Some h) in I. rewrite I.
    rewrite parse_mmss_fields by lia. f_equal. lia.
Qed.

Lemma vtt_ts_ok : forall t, 0 <= rhe t < 86400000000 -> ok_vtt t (vtt_ts t) = true.
Proof. intros t Hu. unfold ok_vtt. rewrite vtt_ts_denotes by exact Hu. apply acc_ms_rhe. Qed.

Lemma vtt_ts_int : forall z, 0 <= z < 86400000000 -> parse_vtt (vtt_ts (inject_Z z)) = Some (z / 1000).
Proof. intros z Hz. rewrite vtt_ts_denotes by (rewrite rhe_int; exact Hz). rewrite rhe_int. reflexivity. Qed.

(* the hour field is written exactly when it is non-zero *)
Lemma vtt_ts_hours_iff : forall t, 0 <= rhe t < 86400000000 ->
  length (vtt_ts t) = if rhe t <? 3600000000 then 9%nat else 12%nat.
Proof.
  intros t Hu. rewrite vtt_ts_shape by exact Hu. cbv zeta.
  assert (C : (f_h (rhe t) =? 0) = (rhe t <? 3600000000)) by (unfold f_h; lia).
  rewrite C. destruct (rhe t <? 3600000000); reflexivity.
Qed.

Lemma qtrunc_nonneg : forall q, (0 <= q)%Q -> qtrunc q = Qfloor q.
Proof. intros q H. unfold qtrunc. apply Qle_bool_iff in H. rewrite H. reflexivity. Qed.

Lemma frames_q_nonneg : forall t, (0 <= t)%Q -> (0 <= t * 25 / 1000000)%Q.
Proof.
  intros t Ht. unfold Qdiv. apply Qmult_le_0_compat; [apply Qmult_le_0_compat; [exact Ht|discriminate]|discriminate].
Qed.

Lemma mdvd_frames_floor : forall t, (0 <= t)%Q -> mdvd_frames t = floor_frames t.
Proof. intros t Ht. unfold mdvd_frames, floor_frames. apply qtrunc_nonneg, frames_q_nonneg, Ht. Qed.

Lemma floor_nonneg : forall q, (0 <= q)%Q -> 0 <= Qfloor q.
Proof. intros q H. change 0 with (Qfloor 0). apply Qfloor_resp_le. exact H. Qed.

Lemma dec_z_nonneg : forall z, 0 <= z -> dec_z z = dec_nonneg z.
Proof. intros z Hz. unfold dec_z. assert (E : (z <? 0) = false) by lia. rewrite E. reflexivity. Qed.

(* the frame token is a decimal integer literal denoting floor(t*25/10^6); frame n covers
   [n*40000, (n+1)*40000) microseconds *)
Lemma mdvd_token_ok : forall t, (0 <= t)%Q -> ok_frames t (mdvd_token t) = true.
Proof.
  intros t Ht. unfold ok_frames, mdvd_token, parse_int.
  rewrite mdvd_frames_floor by exact Ht.
  assert (H0 : 0 <= floor_frames t) by (apply floor_nonneg, frames_q_nonneg, Ht).
  rewrite dec_z_nonneg by exact H0. rewrite int_of_dec by exact H0. unfold acc_frames. rewrite Z.eqb_refl. reflexivity.
Qed.

Lemma mdvd_token_int : forall z, 0 <= z -> mdvd_token (inject_Z z) = dec_nonneg (z * 25 / 1000000).
Proof.
  intros z Hz. unfold mdvd_token.
  assert (Hq : (0 <= inject_Z z)%Q) by (unfold Qle, inject_Z; cbn [Qnum Qden]; lia).
  rewrite mdvd_frames_floor, floor_frames_div, Qfloor_Z by exact Hq. apply dec_z_nonneg. lia.
Qed.

Lemma mdvd_frame_int : forall z, 0 <= z ->
  parse_int (mdvd_token (inject_Z z)) = Some (z * 25 / 1000000) /\
  (z * 25 / 1000000) * 40000 <= z < (z * 25 / 1000000 + 1) * 40000.
Proof. intros z Hz. split; [rewrite mdvd_token_int by exact Hz; apply int_of_dec|]; lia. Qed.

Lemma sami_token_ok : forall t, (0 <= t)%Q ->
  match parse_int (sami_token (sami_ms t)) with Some v => v = floor_ms t | None => False end.
Proof.
  intros t Ht. unfold sami_token, sami_ms, parse_int. fold (floor_ms t).
  assert (H0 : 0 <= floor_ms t).
  { unfold floor_ms. apply floor_nonneg. unfold Qdiv. apply Qmult_le_0_compat; [exact Ht|discriminate]. }
  rewrite dec_z_nonneg by exact H0. rewrite int_of_dec by exact H0. reflexivity.
Qed.

Definition sev_obs (e : sev) : Z * bool :=
  match e with SCue ms _ => (ms, false) | SBlank ms => (ms, true) end.

Lemma sami_events_lead : forall caps l i,
  map sev_obs (sami_events caps (Some l) i) =
  (match caps with
   | (s, _) :: _ => if floor_ms s =? l then [] else [(l, true)]
   | [] => []
   end) ++ map sev_obs (sami_events caps None i).
Proof.
  intros [|[s e] t] l i; [reflexivity|].
  cbn [sami_events]. unfold sami_ms. fold (floor_ms s).
  destruct (floor_ms s =? l); reflexivity.
Qed.

(* the writer model's syncs of a language ARE the rule of the statement, for every caption list *)
Lemma sami_sync_rule : forall caps, map sev_obs (sami_write caps) = sami_rule caps.
Proof.
  intros caps. unfold sami_write. generalize 0%nat.
  induction caps as [|[s e] t IH]; intros i; [reflexivity|].
  cbn [sami_events sami_rule app map sev_obs]. unfold sami_ms at 1. fold (floor_ms s). f_equal.
  rewrite sami_events_lead. unfold sami_ms. fold (floor_ms e). rewrite IH.
  destruct t as [|[s' e'] t']; reflexivity.
Qed.

Lemma sami_rule_ok : forall caps, ok_sami_ms caps (sami_rule caps) = true.
Proof.
  induction caps as [|[s e] t IH]; [reflexivity|].
  cbn [sami_rule ok_sami_ms]. rewrite acc_ms_floor. cbn [andb].
  destruct t as [|[s' e'] t']; [reflexivity|].
  cbn [sami_rule] in IH.
  destruct (floor_ms s' =? floor_ms e) eqn:E.
  - cbn [app sami_rule].
    assert (A : acc_ms e (floor_ms s') = true).
    { apply Z.eqb_eq in E. rewrite E. apply acc_ms_floor. }
    rewrite A. cbn [andb]. exact IH.
  - cbn [app sami_rule]. rewrite acc_ms_floor, E. cbn [andb negb]. exact IH.
Qed.

Lemma sami_write_ok : forall caps, ok_sami_ms caps (map sev_obs (sami_write caps)) = true.
Proof. intros. rewrite sami_sync_rule. apply sami_rule_ok. Qed.

(* ---- SRT: one cue per maximal run of equal (start, end) ------------------------------------- *)
Lemma srt_fold_tail : forall t a b, a <> [] ->
  fold_left srt_step t (a ++ b) = fold_left srt_step t a ++ b.
Proof.
  induction t as [|c t IH]; intros a b Ha; [reflexivity|].
  cbn [fold_left]. destruct a as [|m ms]; [congruence|].
  cbn [app srt_step]. destruct (same_span c m).
  - rewrite app_comm_cons. apply IH. discriminate.
  - rewrite !app_comm_cons. apply IH. discriminate.
Qed.

(* spans of the cues: the last member of every run *)
Definition run_last (r : caption * list caption) : caption := last (snd r) (fst r).

Lemma span_eqb_span : forall a b, span_eqb a b = true -> span_eqb b a = true.
Proof. intros a b H. rewrite span_sym. exact H. Qed.

Lemma run_last_cons : forall c d ds, run_last (c, d :: ds) = run_last (d, ds).
Proof.
  intros c d ds. unfold run_last. cbn [fst snd]. revert c d. induction ds as [|x ds IH]; intros c d; [reflexivity|].
  change (last (d :: x :: ds) c) with (last (x :: ds) c). rewrite (IH c x), (IH d x). reflexivity.
Qed.

(* the cue under construction carries the times of the latest member of its run, whatever nodes it has gathered *)
Lemma srt_fold_runs : forall t m n,
  map span (rev (fold_left srt_step t [mkCap (c_start m) (c_end m) n])) = map (fun r => span (run_last r)) (runs (m :: t)).
Proof.
  induction t as [|x t IH]; intros m n; [reflexivity|].
  cbn [fold_left srt_step]. rewrite same_span_eq. change (span_eqb x (mkCap _ _ n)) with (span_eqb x m).
  specialize (IH x). rewrite (runs_cons m). destruct (runs_head x t) as (ds & rest & Hr). rewrite Hr in *.
  rewrite (span_sym m x). destruct (span_eqb x m).
  - rewrite IH. cbn [map]. rewrite run_last_cons. reflexivity.
  - change [x; ?c] with ([x] ++ [c]). rewrite srt_fold_tail, rev_app_distr by discriminate. cbn [rev app map] in *.
    rewrite <- (IH (c_nodes x)). destruct x. reflexivity.
Qed.

Lemma srt_cues_are_runs : forall caps, map span (srt_merge caps) = map (fun r => span (run_last r)) (runs caps).
Proof. intros [|c t]; [reflexivity|]. rewrite <- (srt_fold_runs t c (c_nodes c)). destruct c. reflexivity. Qed.

Lemma run_last_span : forall caps r, In r (runs caps) -> span_eqb (run_last r) (fst r) = true.
Proof.
  intros caps [c cs] Hr. unfold run_last. cbn [fst snd].
  destruct cs as [|x xs]; [apply span_refl|].
  apply (runs_members_same caps (c, x :: xs) _ Hr). apply last_in.
Qed.

(* legacy / single-position DFXP: merge_concurrent_captions, then one <p> per caption *)
Lemma merged_cues_are_runs : forall caps, nodes_nonempty caps = true ->
  exists l, merge_lang caps = Ok l /\ map span l = map (fun r => span (fst r)) (runs caps).
Proof.
  intros caps H. exists (spec_merge_lang caps). split; [apply merge_lang_spec; exact H|].
  unfold spec_merge_lang. rewrite map_map. apply map_ext. intros [c cs]. reflexivity.
Qed.

(* ---- SCC time lattice: frames of 1/30 s, optionally stretched by 1001/1000, are thirds of a
   microsecond: k * 100000 / 3 or k * 100100 / 3.  On such points rounding to a whole
   microsecond never crosses a millisecond boundary, so both admissible readings coincide. *)
Lemma lattice_no_ms_crossing : forall k c, c = 100100 \/ c = 100000 ->
  rhe ((k * c) # 3) / 1000 = floor_ms ((k * c) # 3).
Proof.
  intros k c Hc. rewrite floor_ms_div.
  destruct (rhe_cases ((k * c) # 3)) as [->|[-> Hup]]; [reflexivity|].
  rewrite up_ok_nd in Hup. rewrite Qfloor_nd. destruct Hc as [-> | ->]; lia.
Qed.

(* ---- the repaired defects, on record ------------------------------------------------------- *)
Lemma sami_float_start_refuted : exists t, (0 <= t)%Q /\ parse_int (sami_token_unfixed t) = None.
Proof. exists (2000001 # 2). split; [discriminate|]. vm_compute. reflexivity. Qed.

Lemma sami_blank_after_ms0_refuted :
  exists caps, ok_sami_ms caps (map sev_obs (sami_events_unfixed caps None 0)) = false.
Proof. exists [(inject_Z 0, inject_Z 900); (inject_Z 5000000, inject_Z 6000000)]. vm_compute. reflexivity. Qed.

(* ---- cue structure: the writer models satisfy the document oracle ok_cues ------------------------------ *)
Lemma time_ok_parts : forall t, time_ok t = true -> (0 <= t)%Q /\ 0 <= rhe t < 86400000000.
Proof.
  intros t H. unfold time_ok in H. apply andb_true_iff in H. destruct H as [H1 H2].
  split; [apply Qle_bool_iff; exact H1|].
  (* over Z, with t = n / d and q its floor: 2 n < 172799999999 d bounds 2 q, and 2 q + 1 when the fraction is >= 1/2 *)
  pose proof (rhe_cases t) as R. destruct t as [n d]. unfold up_ok in R. rewrite Qfloor_nd in R.
  unfold Qle_bool, Qminus, Qplus, Qopp, inject_Z in *. cbn [Qnum Qden] in *.
  pose proof (Pos2Z.is_pos d) as Hd. rewrite ?Pos2Z.inj_mul in *.
  pose proof (Z.mul_div_le n _ Hd) as L. assert (Q0 : 0 <= n / Zpos d) by (apply Z.div_pos; lia).
  generalize dependent (n / Zpos d). intros q R L Q0.
  assert (Q : q * 2 < 172799999999) by (apply (Z.mul_lt_mono_pos_l (Zpos d)); lia).
  destruct R as [-> | [-> U]]; [lia|].
  assert (Q1 : q * 2 + 1 < 172799999999) by (apply (Z.mul_lt_mono_pos_l (Zpos d)); lia). lia.
Qed.

Lemma acc_ms_comp : forall t t' v, (t == t')%Q -> acc_ms t v = acc_ms t' v.
Proof.
  intros t t' v H. unfold acc_ms, floor_ms, up_ok.
  assert (F : Qfloor t = Qfloor t') by (apply Qfloor_comp; exact H).
  assert (G : Qfloor (t / 1000) = Qfloor (t' / 1000)) by (apply Qfloor_comp; rewrite H; reflexivity).
  rewrite F, G. f_equal. f_equal. apply Qleb_comp; [reflexivity|rewrite H; reflexivity].
Qed.

Lemma ok_hms_comp : forall sep t t' tok, (t == t')%Q -> ok_hms sep t tok = ok_hms sep t' tok.
Proof. intros. unfold ok_hms. destruct (parse_hms sep tok); [apply acc_ms_comp; assumption|reflexivity]. Qed.

(* a cue printed from caption c' conveys every caption c with the same span *)
Lemma hms_cue_conveys : forall sep (c c' : caption),
  span_eqb c' c = true -> time_ok (c_start c') = true -> time_ok (c_end c') = true ->
  ok_hms sep (c_start c) (format_ts sep (c_start c')) && ok_hms sep (c_end c) (format_ts sep (c_end c')) = true.
Proof.
  intros sep c c' Hs T1 T2. apply andb_true_iff in Hs. destruct Hs as [Q1 Q2]. apply Qeq_bool_iff in Q1, Q2.
  rewrite <- (ok_hms_comp _ _ _ _ Q1), <- (ok_hms_comp _ _ _ _ Q2), !fmt_hms_ok by (apply time_ok_parts; assumption).
  reflexivity.
Qed.

Lemma may_merge_absorb : forall k c cs rest obs, (forall x, In x cs -> span_eqb c x = true) ->
  ok_may_merge k (Some c) rest obs = true -> ok_may_merge k (Some c) (cs ++ rest) obs = true.
Proof.
  intros k c cs rest obs H R. induction cs as [|x cs IH]; [exact R|].
  cbn [app ok_may_merge]. rewrite (H x (or_introl eq_refl)), IH by (intros y Hy; apply H; right; exact Hy). reflexivity.
Qed.

(* cues that stand for the runs of a caption list, each conveying the first caption of its run, are accepted
   by the "may merge" oracle whatever cue came before *)
Lemma may_merge_runs : forall k (g : caption * list caption -> str * str) rs pending,
  (forall r, In r rs -> tok_ok k (fst r) (g r) = true /\ forall x, In x (snd r) -> span_eqb (fst r) x = true) ->
  ok_may_merge k pending (concat (map (fun r => fst r :: snd r) rs)) (map g rs) = true.
Proof.
  intros k g. induction rs as [|[c cs] rs IH]; intros pending H; [reflexivity|].
  destruct (H (c, cs) (or_introl eq_refl)) as [Hc Hcs]. cbn [fst snd] in Hc, Hcs.
  cbn [map concat fst snd app ok_may_merge]. rewrite Hc, (may_merge_absorb k c cs _ _ Hcs).
  - apply orb_true_r.
  - apply IH. intros r Hr. apply H. right. exact Hr.
Qed.

Definition hms_tok (sep : Z) (c : caption) : str * str := (format_ts sep (c_start c), format_ts sep (c_end c)).

Lemma caps_time_ok_in : forall caps c, caps_time_ok caps = true -> In c caps ->
  time_ok (c_start c) = true /\ time_ok (c_end c) = true.
Proof.
  intros caps c H Hin. unfold caps_time_ok in H. rewrite forallb_forall in H. specialize (H c Hin).
  apply andb_true_iff in H. exact H.
Qed.

Lemma run_last_in : forall caps r, In r (runs caps) -> In (run_last r) caps.
Proof.
  intros caps [c cs] Hr. rewrite <- (runs_partition caps). apply in_concat.
  exists (c :: cs). split; [apply in_map_iff; exists (c, cs); split; [reflexivity|exact Hr]|].
  unfold run_last. cbn [fst snd]. destruct cs as [|x xs]; [left; reflexivity|]. right. apply last_in.
Qed.

(* SRT: the cues of the writer model (merge loop, then the [:12] stamps) satisfy the oracle *)
Lemma srt_model_meets_oracle : forall caps, caps_time_ok caps = true ->
  ok_cues WSrt caps (map (fun c => (srt_ts (c_start c), srt_ts (c_end c))) (srt_merge caps)) = true.
Proof.
  intros caps H. unfold ok_cues.
  (* the tokens depend on the spans only, and the spans are those of the last member of every run *)
  assert (E : map (fun c => (srt_ts (c_start c), srt_ts (c_end c))) (srt_merge caps)
              = map (fun r => hms_tok 44 (run_last r)) (runs caps)).
  { transitivity (map (fun sp : Q * Q => (srt_ts (fst sp), srt_ts (snd sp))) (map span (srt_merge caps))).
    - rewrite map_map. reflexivity.
    - rewrite srt_cues_are_runs. rewrite map_map. apply map_ext_in. intros r Hr. unfold hms_tok, span. cbn [fst snd].
      destruct (caps_time_ok_in caps _ H (run_last_in caps r Hr)) as [T1 T2].
      destruct (time_ok_parts _ T1) as [_ B1]. destruct (time_ok_parts _ T2) as [_ B2].
      rewrite !srt_ts_full by assumption. reflexivity. }
  rewrite E. rewrite <- (runs_partition caps) at 1.
  apply may_merge_runs. intros r Hr. split.
  - destruct (caps_time_ok_in caps _ H (run_last_in caps r Hr)) as [T1 T2].
    apply (hms_cue_conveys 44 (fst r) (run_last r)); [apply (run_last_span caps); exact Hr|exact T1|exact T2].
  - intros x Hx. rewrite span_sym. apply (runs_members_same caps r x Hr Hx).
Qed.

(* legacy / single-position DFXP: merge_concurrent_captions, then one <p> per merged caption *)
Lemma merged_model_meets_oracle : forall caps, caps_time_ok caps = true -> nodes_nonempty caps = true ->
  exists l, merge_lang caps = Ok l /\ ok_cues WMerged caps (map (hms_tok 46) l) = true.
Proof.
  intros caps H Hn. exists (spec_merge_lang caps). split; [apply merge_lang_spec; exact Hn|].
  unfold ok_cues, spec_merge_lang. rewrite map_map. rewrite <- (runs_partition caps) at 1.
  apply (may_merge_runs WMerged (fun r => hms_tok 46 (join_run r))). intros [c cs] Hr. cbn [fst snd]. split.
  - assert (Hin : In c caps) by (apply (runs_heads_in caps (c, cs)); exact Hr).
    destruct (caps_time_ok_in caps c H Hin) as [T1 T2].
    unfold hms_tok. cbn [join_run c_start c_end].
    apply (hms_cue_conveys 46 c c); [apply span_refl|exact T1|exact T2].
  - intros x Hx. rewrite span_sym. apply (runs_members_same caps (c, cs) x Hr Hx).
Qed.

(* DFXP one <p> per caption, MicroDVD one line per caption *)
Lemma ok_each_map : forall k (g : caption -> str * str) caps,
  (forall c, In c caps -> tok_ok k c (g c) = true) -> ok_each k caps (map g caps) = true.
Proof.
  intros k g. induction caps as [|c t IH]; intros H; [reflexivity|].
  cbn [map ok_each]. rewrite (H c (or_introl eq_refl)). apply IH. intros x Hx. apply H. right. exact Hx.
Qed.

Lemma dfxp_model_meets_oracle : forall caps, caps_time_ok caps = true -> ok_cues WDfxp caps (dfxp_tokens caps) = true.
Proof.
  intros caps H. apply ok_each_map. intros c Hc. destruct (caps_time_ok_in caps c H Hc) as [Hs He].
  unfold tok_ok. cbn [fst snd ok_token]. unfold dfxp_ts.
  rewrite !fmt_hms_ok by (apply time_ok_parts; assumption). reflexivity.
Qed.

Lemma mdvd_model_meets_oracle : forall caps, caps_time_ok caps = true -> ok_cues WMdvd caps (mdvd_tokens caps) = true.
Proof.
  intros caps H. apply ok_each_map. intros c Hc. destruct (caps_time_ok_in caps c H Hc) as [Hs He].
  unfold tok_ok. cbn [fst snd ok_token].
  rewrite !mdvd_token_ok by (apply time_ok_parts; assumption). reflexivity.
Qed.

(* ---- WebVTT: the grouping loop, characterised (a description of the MODEL, not a demand of the statement) ---- *)
Definition text_layouts (nodes : list vnode) : list (option Z) :=
  flat_map (fun n => match n with VText l => [l] | _ => [] end) nodes.

Fixpoint layout_changes (prev : option Z) (ls : list (option Z)) : nat :=
  match ls with
  | [] => O
  | l :: t => (match prev with
               | Some c => if opt_z_eqb l (Some c) then O else 1%nat
               | None => O
               end + layout_changes l t)%nat
  end.

Definition shows_something (nodes : list vnode) : bool :=
  existsb (fun n => match n with VText _ => true | VStyle e => e | VBreak => true end) nodes.

Definition spec_groups (nodes : list vnode) : nat :=
  if shows_something nodes then S (layout_changes None (text_layouts nodes)) else O.

Lemma vtt_group_fold : forall nodes g ne cur, (cur <> None -> ne = true) ->
  fst (fold_left vtt_group_step nodes (g, ne, cur))
  = ((g + layout_changes cur (text_layouts nodes))%nat, ne || shows_something nodes).
Proof.
  induction nodes as [|n nodes IH]; intros g ne cur Hinv.
  - cbn [fold_left fst text_layouts flat_map layout_changes shows_something existsb].
    rewrite Nat.add_0_r, orb_false_r. reflexivity.
  - cbn [fold_left]. destruct n as [l|e|];
      cbn [vtt_group_step text_layouts flat_map app layout_changes shows_something existsb].
    + rewrite IH by reflexivity. rewrite !orb_true_r. f_equal. fold (text_layouts nodes).
      destruct cur as [c|]; [rewrite (Hinv ltac:(discriminate)); cbn [andb]; destruct (opt_z_eqb l (Some c))|rewrite andb_false_r];
        cbn [negb]; lia.
    + rewrite IH by (intros Hc; rewrite (Hinv Hc); reflexivity). rewrite orb_assoc. reflexivity.
    + rewrite IH by reflexivity. rewrite !orb_true_r. reflexivity.
Qed.

Lemma nothing_shown_no_text : forall nodes, shows_something nodes = false -> text_layouts nodes = [].
Proof.
  induction nodes as [|n t IH]; intros H; [reflexivity|].
  cbn [shows_something existsb] in H. apply orb_false_iff in H. destruct H as [H1 H2].
  destruct n as [l|e|]; try discriminate H1. cbn [text_layouts flat_map app]. apply IH. exact H2.
Qed.

Lemma vtt_group_count_spec : forall nodes, vtt_group_count nodes = spec_groups nodes.
Proof.
  intros nodes. unfold vtt_group_count, spec_groups. destruct nodes as [|n t]; [reflexivity|].
  pose proof (vtt_group_fold (n :: t) O false None ltac:(congruence)) as F. cbn [orb Nat.add] in F.
  destruct (fold_left vtt_group_step (n :: t) (O, false, None)) as [[g ne] c]. cbn [fst] in F. apply pair_equal_spec in F. destruct F as [-> ->].
  destruct (shows_something (n :: t)) eqn:S; [reflexivity|].
  rewrite (nothing_shown_no_text _ S). reflexivity.
Qed.

(* WebVTT: a caption that shows something gets one or more cues, all with its times: accepted by "may split" *)
Lemma may_split_repeat : forall k c (o : str * str) n rest_o rest_c, tok_ok k c o = true ->
  ok_may_split k rest_o rest_c = true ->
  ok_may_split k (repeat o (S n) ++ rest_o) (c :: rest_c) = true.
Proof.
  intros k c o n rest_o rest_c Ho Hr. induction n as [|n IH].
  - cbn [repeat app ok_may_split]. rewrite Ho, Hr. reflexivity.
  - change (repeat o (S (S n))) with (o :: repeat o (S n)). cbn [app ok_may_split]. rewrite Ho. cbn [andb].
    rewrite IH. apply orb_true_r.
Qed.

Lemma vtt_model_meets_oracle : forall caps : list (caption * list vnode), caps_time_ok (map fst caps) = true ->
  forallb (fun cn => shows_something (snd cn)) caps = true ->
  ok_cues WVtt (map fst caps) (vtt_tokens caps) = true.
Proof.
  intros caps H S. unfold ok_cues, vtt_tokens. induction caps as [|[c nodes] t IH]; [reflexivity|].
  cbn [map fst caps_time_ok forallb] in H. apply andb_true_iff in H. destruct H as [Hc Ht].
  apply andb_true_iff in Hc. destruct Hc as [Hs He].
  cbn [forallb snd] in S. apply andb_true_iff in S. destruct S as [S1 S2].
  destruct (time_ok_parts _ Hs) as [_ Bs]. destruct (time_ok_parts _ He) as [_ Be].
  cbn [map fst snd concat]. unfold vtt_cap_tokens. rewrite vtt_group_count_spec. unfold spec_groups. rewrite S1.
  apply may_split_repeat; [|apply IH; assumption].
  unfold tok_ok. cbn [fst snd ok_token]. rewrite !vtt_ts_ok by assumption. reflexivity.
Qed.
