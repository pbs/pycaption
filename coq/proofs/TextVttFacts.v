(* C03, WebVTT: the cue-text reading of encode(s) is s; encode(s) never contains "-->";
   the cue text assembled from any node list never has an empty line inside. *)
From Coq Require Import List ZArith Bool.
From PV Require Import lib.Sx lib.Str lib.StrFacts model.TextNodes model.TextWrite spec.SpecTextVtt proofs.TextStrFacts.
From PV Require lib.StrSplit.
Import ListNotations.
Open Scope Z_scope.

Definition arrow : str := [45; 45; 62].
Definition arrow_esc : str := lit "--&gt;".
Definition rep (s : str) : str := replace arrow arrow_esc s.

Definition vesc1 (c : Z) : str := if c =? 38 then lit "&amp;" else if c =? 60 then lit "&lt;" else [c].
Definition vesc (s : str) : str := flat_map vesc1 s.

Lemma vtt_encode_rep : forall s, vtt_encode s = rep (vesc s).
Proof.
  intros s. unfold vtt_encode, rep, vesc. change (lit "-->") with arrow. change (lit "--&gt;") with arrow_esc.
  f_equal. change (lit "&") with [38]. change (lit "<") with [60].
  rewrite (replace_single 38), replace_esc by reflexivity. reflexivity.
Qed.

Lemma rep_nil : rep [] = [].
Proof. reflexivity. Qed.

Lemma rep_cons : forall c t,
  rep (c :: t) = if is_prefix arrow (c :: t) then arrow_esc ++ rep (skipn 3 (c :: t)) else c :: rep t.
Proof. intros c t. unfold rep. rewrite replace_cons by discriminate. reflexivity. Qed.

Lemma rep_other : forall c t, c <> 45 -> rep (c :: t) = c :: rep t.
Proof.
  intros c t H. rewrite rep_cons. unfold arrow. cbn [is_prefix].
  destruct (Z.eqb_spec 45 c); [congruence|]. reflexivity.
Qed.

Lemma rep_arrow : forall t, rep (45 :: 45 :: 62 :: t) = arrow_esc ++ rep t.
Proof. intros t. rewrite rep_cons. reflexivity. Qed.

Lemma rep_plain : forall a t, forallb (fun c => negb (c =? 45)) a = true -> rep (a ++ t) = a ++ rep t.
Proof.
  induction a as [|c a IH]; intros t H; [reflexivity|]. cbn [forallb] in H. apply andb_true_iff in H.
  destruct H as [Hc Ha]. cbn [app]. rewrite rep_other, (IH t Ha); [reflexivity|]. intros ->. discriminate.
Qed.

Lemma arrow_inv : forall x, is_prefix arrow x = true -> exists t', x = 45 :: 45 :: 62 :: t'.
Proof. intros x H. destruct (is_prefix_inv _ _ H) as [t' ->]. exists t'. reflexivity. Qed.

(* the first two characters survive rep *)
Lemma rep_prefix1 : forall t, is_prefix [62] (rep t) = is_prefix [62] t.
Proof.
  intros [|b t]; [reflexivity|]. rewrite rep_cons.
  destruct (is_prefix arrow (b :: t)) eqn:E.
  - unfold arrow in E. cbn [is_prefix] in E. apply andb_true_iff in E. destruct E as [E _].
    apply Z.eqb_eq in E. subst b. reflexivity.
  - reflexivity.
Qed.

Lemma rep_prefix2 : forall t, is_prefix [45; 62] (rep t) = is_prefix [45; 62] t.
Proof.
  intros [|a t]; [reflexivity|]. rewrite rep_cons.
  destruct (is_prefix arrow (a :: t)) eqn:E.
  - destruct (arrow_inv _ E) as [t' ->]. reflexivity.
  - change (is_prefix [45; 62] (a :: rep t)) with ((45 =? a) && is_prefix [62] (rep t)).
    change (is_prefix [45; 62] (a :: t)) with ((45 =? a) && is_prefix [62] t).
    rewrite rep_prefix1. reflexivity.
Qed.

Lemma rep_no_arrow : forall x, is_infix arrow (rep x) = false.
Proof.
  apply (replace_ind arrow); [discriminate|reflexivity|]. intros c t H. rewrite rep_cons.
  destruct (is_prefix arrow (c :: t)) eqn:E.
  - destruct (arrow_inv _ E) as [t' Ht]. rewrite Ht in H |- *. exact H.
  - cbn [is_infix]. rewrite H, orb_false_r.
    change (is_prefix arrow (c :: rep t)) with ((45 =? c) && is_prefix [45; 62] (rep t)).
    rewrite rep_prefix2. exact E.
Qed.

Theorem vtt_encode_no_arrow : forall s, is_infix (lit "-->") (vtt_encode s) = false.
Proof. intros s. rewrite vtt_encode_rep. apply rep_no_arrow. Qed.

Lemma vesc_prefix2 : forall t, is_prefix [45; 62] (vesc t) = is_prefix [45; 62] t.
Proof.
  intros [|a t]; [reflexivity|]. unfold vesc. cbn [flat_map]. fold (vesc t).
  unfold vesc1 at 1.
  destruct (Z.eqb_spec a 38) as [->|H38]; [reflexivity|].
  destruct (Z.eqb_spec a 60) as [->|H60]; [reflexivity|].
  cbn [app is_prefix]. destruct (45 =? a); [|reflexivity]. cbn [andb].
  destruct t as [|b t']; [reflexivity|]. unfold vesc. cbn [flat_map]. unfold vesc1 at 1.
  destruct (Z.eqb_spec b 38) as [->|B38]; [reflexivity|].
  destruct (Z.eqb_spec b 60) as [->|B60]; [reflexivity|].
  cbn [app is_prefix]. reflexivity.
Qed.

(* the three references the writer emits, read by the tokenizer from the data state *)
Lemma display_amp : forall R out, vtt_display_aux VData (lit "&amp;" ++ R) out = vtt_display_aux VData R (38 :: out).
Proof. reflexivity. Qed.
Lemma display_lt : forall R out, vtt_display_aux VData (lit "&lt;" ++ R) out = vtt_display_aux VData R (60 :: out).
Proof. reflexivity. Qed.
Lemma display_gt : forall R out, vtt_display_aux VData (lit "&gt;" ++ R) out = vtt_display_aux VData R (62 :: out).
Proof. reflexivity. Qed.
Lemma display_char : forall c R out, c <> 38 -> c <> 60 ->
  vtt_display_aux VData (c :: R) out = vtt_display_aux VData R (c :: out).
Proof.
  intros c R out H1 H2. cbn [vtt_display_aux]. destruct (Z.eqb_spec c 38); [congruence|]. destruct (Z.eqb_spec c 60); [congruence|]. reflexivity.
Qed.

Lemma display_roundtrip : forall s out, vtt_display_aux VData (rep (vesc s)) out = rev out ++ s.
Proof.
  apply (replace_ind arrow (fun s => forall out, vtt_display_aux VData (rep (vesc s)) out = rev out ++ s)); [discriminate| |].
  { intros out. cbn. rewrite app_nil_r. reflexivity. }
  intros c t IH out. unfold vesc. cbn [flat_map]. fold (vesc t). destruct (is_prefix arrow (c :: t)) eqn:E.
  - destruct (arrow_inv _ E) as [t' Ht]. injection Ht as -> ->. cbn [arrow length skipn] in IH.
    unfold vesc. cbn [flat_map]. fold (vesc t'). change (vesc1 45) with [45]. change (vesc1 62) with [62].
    cbn [app]. rewrite rep_arrow. change (arrow_esc ++ rep (vesc t')) with (45 :: 45 :: lit "&gt;" ++ rep (vesc t')).
    rewrite !display_char by discriminate. rewrite display_gt, IH. cbn [rev]. rewrite <- !app_assoc. reflexivity.
  - unfold vesc1. destruct (Z.eqb_spec c 38) as [->|H38].
    { rewrite rep_plain, display_amp, IH by reflexivity. cbn [rev]. rewrite <- app_assoc. reflexivity. }
    destruct (Z.eqb_spec c 60) as [->|H60].
    { rewrite rep_plain, display_lt, IH by reflexivity. cbn [rev]. rewrite <- app_assoc. reflexivity. }
    cbn [app]. rewrite rep_cons.
    assert (E' : is_prefix arrow (c :: vesc t) = false).
    { change ((45 =? c) && is_prefix [45; 62] (vesc t) = false). rewrite vesc_prefix2. exact E. }
    rewrite E', display_char, IH by assumption. cbn [rev]. rewrite <- app_assoc. reflexivity.
Qed.

Theorem vtt_encode_roundtrip : forall s, vtt_display (vtt_encode s) = s.
Proof. intros s. unfold vtt_display. rewrite vtt_encode_rep. apply display_roundtrip. Qed.

(* ---- no empty line inside the cue text ------------------------------------------------ *)
(* left-to-right automaton: prev_nl = "at the start of a line"; fails on a line feed at a line start *)
Fixpoint nl_ok (prev_nl : bool) (s : str) : bool :=
  match s with
  | [] => true
  | c :: t => if c =? 10 then negb prev_nl && nl_ok true t else nl_ok false t
  end.

Definition no_nl (s : str) : bool := forallb (fun c => negb (c =? 10)) s.

(* what nl_ok means: every line but the last is non-empty *)
Lemma nl_ok_lines_aux : forall s cur,
  forallb str_nonempty (removelast (split_ch_aux 10 s cur)) = nl_ok (negb (str_nonempty cur)) s.
Proof.
  induction s as [|c t IH]; intros cur; [reflexivity|].
  cbn [split_ch_aux nl_ok]. destruct (c =? 10).
  - destruct (StrSplit.split_ch_aux_cons 10 t []) as (x & l & E). rewrite E.
    change (removelast (rev cur :: x :: l)) with (rev cur :: removelast (x :: l)). rewrite <- E. cbn [forallb]. rewrite (IH []). cbn [str_nonempty negb].
    rewrite negb_involutive. f_equal. destruct cur as [|a cur']; [reflexivity|].
    cbn [rev str_nonempty]. destruct (rev cur' ++ [a]) eqn:E2; [|reflexivity].
    apply app_eq_nil in E2. destruct E2; discriminate.
  - rewrite (IH (c :: cur)). reflexivity.
Qed.

Lemma nl_ok_lines : forall s, nl_ok true s = forallb str_nonempty (removelast (split_ch 10 s)).
Proof. intros s. unfold split_ch. rewrite nl_ok_lines_aux. reflexivity. Qed.

Lemma nl_ok_app : forall a pn rest, no_nl a = true ->
  nl_ok pn (a ++ rest) = nl_ok (if str_nonempty a then false else pn) rest.
Proof.
  induction a as [|c a IH]; intros pn rest Ha; [reflexivity|].
  cbn [no_nl forallb] in Ha. apply andb_true_iff in Ha. destruct Ha as [Hc Ha].
  cbn [app nl_ok str_nonempty]. destruct (c =? 10); [discriminate|].
  rewrite (IH false rest Ha). destruct (str_nonempty a); reflexivity.
Qed.

Lemma vtt_encode_no_nl : forall s, no_nl s = true -> no_nl (vtt_encode s) = true.
Proof.
  intros s H. unfold vtt_encode, no_nl.
  repeat (apply replace_forallb; [discriminate|reflexivity|]). exact H.
Qed.

Lemma vtt_text_props : forall s, no_nl s = true -> no_nl (vtt_text s) = true /\ str_nonempty (vtt_text s) = true.
Proof.
  intros s H. unfold vtt_text. pose proof (vtt_encode_no_nl s H) as He.
  destruct (vtt_encode s) eqn:E; [split; reflexivity|]. split; [exact He|reflexivity].
Qed.

Fixpoint texts_no_nl (ns : list node) : bool :=
  match ns with
  | [] => true
  | NText s :: t => no_nl s && texts_no_nl t
  | _ :: t => texts_no_nl t
  end.

Lemma vtt_open_no_nl : forall st, no_nl (vtt_open st) = true.
Proof. intros [[] [] [] c]; reflexivity. Qed.
Lemma vtt_close_no_nl : forall st, no_nl (vtt_close st) = true.
Proof. intros [[] [] [] c]; reflexivity. Qed.

(* the automaton as a state transformer (None = an empty line was met) *)
Fixpoint nl_run (pn : bool) (s : str) : option bool :=
  match s with
  | [] => Some pn
  | c :: t => if c =? 10 then (if pn then None else nl_run true t) else nl_run false t
  end.

Lemma nl_ok_run : forall s pn, nl_ok pn s = match nl_run pn s with Some _ => true | None => false end.
Proof.
  induction s as [|c t IH]; intros pn; [reflexivity|]. cbn [nl_ok nl_run].
  destruct (c =? 10); [|apply IH]. destruct pn; cbn [negb andb]; [reflexivity|apply IH].
Qed.

Lemma nl_run_app : forall a b pn,
  nl_run pn (a ++ b) = match nl_run pn a with Some st => nl_run st b | None => None end.
Proof.
  induction a as [|c a IH]; intros b pn; [reflexivity|]. cbn [app nl_run].
  destruct (c =? 10); [|apply IH]. destruct pn; [reflexivity|apply IH].
Qed.

Lemma nl_run_no_nl : forall a pn, no_nl a = true -> nl_run pn a = Some (if str_nonempty a then false else pn).
Proof.
  induction a as [|c a IH]; intros pn H; [reflexivity|].
  cbn [no_nl forallb] in H. apply andb_true_iff in H. destruct H as [Hc Ha].
  cbn [nl_run str_nonempty]. destruct (c =? 10); [discriminate|]. rewrite (IH false Ha). destruct (str_nonempty a); reflexivity.
Qed.

Lemma nl_run_rep : forall x pn, nl_run pn (rep x) = nl_run pn x.
Proof.
  apply (replace_ind arrow (fun x => forall pn, nl_run pn (rep x) = nl_run pn x)); [discriminate|reflexivity|].
  intros c t H pn. rewrite rep_cons. destruct (is_prefix arrow (c :: t)) eqn:E.
  - destruct (arrow_inv _ E) as [t' Ht]. rewrite Ht in H |- *. apply H.
  - cbn [nl_run]. destruct (c =? 10); [destruct pn; [reflexivity|]|]; apply H.
Qed.

(* appending a piece without '-' that does not start with '>' cannot create an arrow *)
Definition safe_piece (p : str) : bool := forallb (fun c => negb (c =? 45)) p && negb (is_prefix [62] p).

Lemma no_dash_no_arrow : forall p, forallb (fun c => negb (c =? 45)) p = true -> is_infix arrow p = false.
Proof.
  induction p as [|c p IH]; intros H; [reflexivity|].
  cbn [forallb] in H. apply andb_true_iff in H. destruct H as [Hc Hp].
  cbn [is_infix]. rewrite (IH Hp), orb_false_r. unfold arrow. cbn [is_prefix].
  rewrite Z.eqb_sym. destruct (c =? 45); [discriminate|reflexivity].
Qed.

Lemma no_arrow_app_safe : forall s p, is_infix arrow s = false -> safe_piece p = true -> is_infix arrow (s ++ p) = false.
Proof.
  intros s p Hs Hp. unfold safe_piece in Hp. apply andb_true_iff in Hp. destruct Hp as [Hd H62].
  induction s as [|c s IH].
  - cbn [app]. apply no_dash_no_arrow. exact Hd.
  - cbn [is_infix] in Hs. apply orb_false_iff in Hs. destruct Hs as [Hpre Hs].
    cbn [app is_infix]. rewrite (IH Hs), orb_false_r.
    unfold arrow in *. destruct s as [|d [|e s']]; cbn [app is_prefix] in *.
    + destruct (45 =? c); [|reflexivity]. cbn [andb]. destruct p as [|x p']; [reflexivity|].
      cbn [forallb] in Hd. apply andb_true_iff in Hd. destruct Hd as [Hx _].
      rewrite (Z.eqb_sym 45 x). destruct (x =? 45); [discriminate|reflexivity].
    + destruct (45 =? c); [|reflexivity]. destruct (45 =? d); [|reflexivity]. cbn [andb].
      destruct p as [|x p']; [reflexivity|]. cbn [is_prefix] in H62. rewrite andb_true_r in H62.
      destruct (62 =? x); [discriminate|reflexivity].
    + exact Hpre.
Qed.

Lemma vtt_open_safe : forall st, safe_piece (vtt_open st) = true.
Proof. intros [[] [] [] c]; reflexivity. Qed.
Lemma vtt_close_safe : forall st, safe_piece (vtt_close st) = true.
Proof. intros [[] [] [] c]; reflexivity. Qed.

Lemma fold_left_inv : forall {A B} (P : A -> Prop) (Q : B -> Prop) (f : A -> B -> A) l a,
  (forall a b, P a -> Q b -> P (f a b)) -> Forall Q l -> P a -> P (fold_left f l a).
Proof.
  intros A B P Q f l. induction l as [|b l IH]; intros a Hstep Hl Ha; [exact Ha|].
  inversion Hl; subst. cbn [fold_left]. apply IH; [exact Hstep|assumption|]. apply Hstep; assumption.
Qed.

Lemma vtt_step_no_arrow : forall acc n,
  is_infix arrow (fst (fst acc)) = false -> is_infix arrow (fst (fst (vtt_step true acc n))) = false.
Proof.
  intros [[s first] prev] n H. cbn [fst] in H. destruct n as [t| |[] st]; cbn [vtt_step fst].
  - apply rep_no_arrow.
  - apply no_arrow_app_safe; [exact H|]. destruct first; [reflexivity|]. destruct prev; reflexivity.
  - apply no_arrow_app_safe; [exact H|apply vtt_open_safe].
  - apply no_arrow_app_safe; [exact H|apply vtt_close_safe].
Qed.

Theorem vtt_cue_text_no_arrow : forall ns, is_infix (lit "-->") (vtt_cue_text ns) = false.
Proof.
  intros ns. unfold vtt_cue_text, vtt_cue_text_gen.
  apply (fold_left_inv (fun acc => is_infix arrow (fst (fst acc)) = false) (fun _ => True)).
  - intros a b Ha _. apply vtt_step_no_arrow. exact Ha.
  - apply Forall_forall. intros; exact I.
  - reflexivity.
Qed.

Theorem vtt_arrow_across_nodes_refuted : exists ns, is_infix (lit "-->") (vtt_cue_text_prefix ns) = true.
Proof. exists [NText (lit "a--"); NText (lit ">b")]. vm_compute. reflexivity. Qed.

Definition vinv (acc : str * bool * bool) : Prop :=
  exists st, nl_run true (fst (fst acc)) = Some st /\
             (st = true -> snd (fst acc) = true \/ snd acc = false).

Definition node_no_nl (n : node) : Prop := match n with NText t => no_nl t = true | _ => True end.

Lemma vtt_step_vinv : forall acc n, vinv acc -> node_no_nl n -> vinv (vtt_step true acc n).
Proof.
  intros [[s first] prev] n [st [Hrun Hinv]] Hn. cbn [fst snd] in *. unfold vinv.
  destruct n as [t| |[] sty]; cbn [vtt_step fst snd].
  - destruct (vtt_text_props t Hn) as [H1 H2]. exists false. split; [|discriminate].
    change (arrow_fix (s ++ vtt_text t)) with (rep (s ++ vtt_text t)).
    rewrite nl_run_rep, nl_run_app, Hrun, (nl_run_no_nl _ st H1), H2. reflexivity.
  - exists true. split; [|intros _; right; reflexivity].
    rewrite nl_run_app, Hrun. destruct first.
    + rewrite nl_run_app, (nl_run_no_nl nbsp_ent st eq_refl). reflexivity.
    + destruct prev.
      * cbn [app nl_run]. change (10 =? 10) with true. cbv iota. destruct st; [|reflexivity].
        destruct (Hinv eq_refl); discriminate.
      * rewrite nl_run_app, (nl_run_no_nl nbsp_ent st eq_refl). reflexivity.
  - eexists. split; [rewrite nl_run_app, Hrun; apply nl_run_no_nl; apply vtt_open_no_nl|]. intros _. right. reflexivity.
  - eexists. split; [rewrite nl_run_app, Hrun; apply nl_run_no_nl; apply vtt_close_no_nl|]. intros _. right. reflexivity.
Qed.

Lemma texts_no_nl_Forall : forall ns, texts_no_nl ns = true -> Forall node_no_nl ns.
Proof.
  induction ns as [|n ns IH]; intros H; [constructor|].
  destruct n as [t| |a b]; cbn [texts_no_nl] in H.
  - apply andb_true_iff in H. destruct H as [Ht Hns]. constructor; [exact Ht|apply IH; exact Hns].
  - constructor; [exact I|apply IH; exact H].
  - constructor; [exact I|apply IH; exact H].
Qed.

(* every line of the cue text except possibly the last is non-empty: no blank line ends the cue early *)
Theorem vtt_cue_text_no_blank_line : forall ns, texts_no_nl ns = true ->
  forallb str_nonempty (removelast (split_ch 10 (vtt_cue_text ns))) = true.
Proof.
  intros ns H. rewrite <- nl_ok_lines, nl_ok_run. unfold vtt_cue_text, vtt_cue_text_gen.
  assert (G : vinv (fold_left (vtt_step true) ns ([], true, false))).
  { apply (fold_left_inv vinv node_no_nl).
    - intros a b Ha Hb. apply vtt_step_vinv; assumption.
    - apply texts_no_nl_Forall. exact H.
    - exists true. split; [reflexivity|]. intros _. left. reflexivity. }
  destruct G as [st [-> _]]. reflexivity.
Qed.
