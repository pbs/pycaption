(* C04, WebVTT: the replace chain of WebVTTReader._decode decodes every character reference exactly once. *)
From Coq Require Import List ZArith Bool.
From PV Require Import lib.Sx lib.Str lib.StrFacts model.TextNodes model.TextRead proofs.TextStrFacts.
Import ListNotations.
Open Scope Z_scope.

(* cue text as the WebVTT grammar structures it: literal characters other than '&', and references &name; *)
Inductive piece : Type := PRaw (c : Z) | PEnt (name : str).

Definition render_piece (p : piece) : str :=
  match p with PRaw c => [c] | PEnt n => 38 :: n ++ [59] end.
Definition render (ps : list piece) : str := flat_map render_piece ps.

Definition name_ok (n : str) : bool := forallb (fun c => negb (c =? 38) && negb (c =? 59)) n.
Definition piece_ok (p : piece) : bool :=
  match p with PRaw c => negb (c =? 38) | PEnt n => name_ok n end.

Definition subst_piece (n0 : str) (v0 : Z) (p : piece) : piece :=
  match p with
  | PEnt n => if str_eqb n0 n then PRaw v0 else p
  | _ => p
  end.

Lemma class_neq : forall (P : Z -> bool) c k, P c = true -> P k = false -> (c =? k) = false.
Proof. intros P c k Hc Hk. destruct (Z.eqb_spec c k) as [->|_]; [congruence|reflexivity]. Qed.
Lemma class_no_ch : forall (P : Z -> bool) k s, P k = false -> forallb P s = true -> forallb (fun c => negb (c =? k)) s = true.
Proof. intros P k s Hk. apply forallb_weaken. intros c Hc. rewrite (class_neq P c k Hc Hk). reflexivity. Qed.

Lemma prefix_name_semi : forall n0 n R, name_ok n0 = true -> name_ok n = true ->
  is_prefix (n0 ++ [59]) ((n ++ [59]) ++ R) = str_eqb n0 n.
Proof.
  induction n0 as [|x n0 IH]; intros n R H0 Hn.
  - destruct n as [|y n]; [reflexivity|]. cbn [app is_prefix str_eqb].
    cbn [name_ok forallb] in Hn. apply andb_true_iff in Hn. destruct Hn as [Hy _]. apply andb_true_iff in Hy.
    destruct Hy as [_ Hy]. rewrite (Z.eqb_sym 59 y). destruct (y =? 59); [discriminate|reflexivity].
  - cbn [name_ok forallb] in H0. apply andb_true_iff in H0. destruct H0 as [Hx H0].
    destruct n as [|y n].
    + cbn [app is_prefix str_eqb]. apply andb_true_iff in Hx. destruct Hx as [_ Hx].
      destruct (x =? 59); [discriminate|reflexivity].
    + cbn [name_ok forallb] in Hn. apply andb_true_iff in Hn. destruct Hn as [_ Hn].
      cbn [app is_prefix str_eqb]. rewrite (IH n R H0 Hn). reflexivity.
Qed.

Lemma replace_skip : forall x p r s R, forallb (fun c => negb (c =? x)) s = true ->
  replace (x :: p) r (s ++ R) = s ++ replace (x :: p) r R.
Proof.
  intros x p r s R. induction s as [|c s IH]; intros H; [reflexivity|].
  cbn [forallb] in H. apply andb_true_iff in H. destruct H as [Hc Hs].
  cbn [app]. rewrite replace_cons by discriminate. cbn [is_prefix]. rewrite (Z.eqb_sym x c).
  destruct (c =? x); [discriminate|]. cbn [andb]. rewrite (IH Hs). reflexivity.
Qed.

Lemma name_ok_no_amp : forall n, name_ok n = true -> forallb (fun c => negb (c =? 38)) n = true.
Proof. intros n. apply forallb_weaken. intros c H. apply andb_true_iff in H. apply H. Qed.

(* one replace of the chain = decoding the references with that name, nothing else *)
Lemma replace_entity_step : forall n0 v0 ps, name_ok n0 = true -> forallb piece_ok ps = true ->
  replace (38 :: n0 ++ [59]) [v0] (render ps) = render (map (subst_piece n0 v0) ps).
Proof.
  intros n0 v0 ps H0. induction ps as [|p ps IH]; intros Hps; [reflexivity|].
  cbn [forallb] in Hps. apply andb_true_iff in Hps. destruct Hps as [Hp Hps].
  unfold render in *. cbn [flat_map map]. destruct p as [c|n]; cbn [render_piece subst_piece piece_ok] in *.
  - rewrite replace_skip, (IH Hps) by (cbn [forallb]; rewrite Hp; reflexivity). reflexivity.
  - cbn [app]. rewrite replace_cons by discriminate.
    cbn [is_prefix]. rewrite Z.eqb_refl. cbn [andb]. rewrite prefix_name_semi by assumption.
    destruct (str_eqb n0 n) eqn:E.
    + apply str_eqb_eq in E. subst n. cbn [render_piece app length skipn]. rewrite skipn_app_exact, (IH Hps). reflexivity.
    + cbn [render_piece app]. f_equal. rewrite replace_skip, (IH Hps); [reflexivity|].
      rewrite forallb_app, (name_ok_no_amp n Hp). reflexivity.
Qed.

Lemma subst_piece_ok : forall n0 v0 ps, v0 <> 38 -> forallb piece_ok ps = true ->
  forallb piece_ok (map (subst_piece n0 v0) ps) = true.
Proof.
  intros n0 v0 ps Hv. apply forallb_map_mono. intros [c|n] Hp; cbn [subst_piece]; [exact Hp|].
  destruct (str_eqb n0 n); [|exact Hp]. cbn [piece_ok]. destruct (Z.eqb_spec v0 38); [congruence|reflexivity].
Qed.

(* the six named references of the reader, in the order of the chain *)
Definition vtt_ref_value (n : str) : option Z :=
  if str_eqb n (lit "lt") then Some 60 else if str_eqb n (lit "gt") then Some 62
  else if str_eqb n (lit "lrm") then Some 8206 else if str_eqb n (lit "rlm") then Some 8207
  else if str_eqb n (lit "nbsp") then Some 160 else if str_eqb n (lit "amp") then Some 38 else None.

Definition decode_piece (p : piece) : piece :=
  match p with
  | PEnt n => match vtt_ref_value n with Some v => PRaw v | None => p end
  | _ => p
  end.

(* both sides test the six names in the same order *)
Lemma chain_pieces : forall p,
  subst_piece (lit "amp") 38 (subst_piece (lit "nbsp") 160 (subst_piece (lit "rlm") 8207
    (subst_piece (lit "lrm") 8206 (subst_piece (lit "gt") 62 (subst_piece (lit "lt") 60 p))))) = decode_piece p.
Proof.
  intros [c|n]; [reflexivity|]. unfold decode_piece, vtt_ref_value. rewrite !(str_eqb_sym n). cbn [subst_piece].
  destruct (str_eqb (lit "lt") n); [reflexivity|]. cbn [subst_piece].
  destruct (str_eqb (lit "gt") n); [reflexivity|]. cbn [subst_piece].
  destruct (str_eqb (lit "lrm") n); [reflexivity|]. cbn [subst_piece].
  destruct (str_eqb (lit "rlm") n); [reflexivity|]. cbn [subst_piece].
  destruct (str_eqb (lit "nbsp") n); [reflexivity|]. cbn [subst_piece].
  destruct (str_eqb (lit "amp") n); reflexivity.
Qed.

(* every reference is decoded exactly once; unknown references and everything else stay as they are *)
Theorem vtt_entities_once : forall ps, forallb piece_ok ps = true ->
  vtt_entities (render ps) = render (map decode_piece ps).
Proof.
  intros ps H. unfold vtt_entities.
  change (lit "&lt;") with (38 :: lit "lt" ++ [59]). change (lit "&gt;") with (38 :: lit "gt" ++ [59]).
  change (lit "&lrm;") with (38 :: lit "lrm" ++ [59]). change (lit "&rlm;") with (38 :: lit "rlm" ++ [59]).
  change (lit "&nbsp;") with (38 :: lit "nbsp" ++ [59]). change (lit "&amp;") with (38 :: lit "amp" ++ [59]).
  (* innermost first; every step keeps the pieces well formed *)
  rewrite !replace_entity_step by (try reflexivity; repeat (apply subst_piece_ok; [discriminate|]); exact H).
  rewrite !map_map. f_equal. apply map_ext. intros p. apply chain_pieces.
Qed.

(* in particular: &amp;lt; is the four characters &lt; *)
Example vtt_amp_lt : vtt_entities (lit "&amp;lt;") = lit "&lt;".
Proof. vm_compute. reflexivity. Qed.
