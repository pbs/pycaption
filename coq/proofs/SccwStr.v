(* String lemmas used by the C17 proofs: split_ch / join, decimal printing (lib/Str.v definitions). *)
From Coq Require Import List ZArith Lia Bool.
From PV Require Import lib.Sx lib.Str.
From PV Require lib.Dec lib.StrSplit.
Import ListNotations.
Open Scope Z_scope.
Ltac Zify.zify_post_hook ::= Z.to_euclidean_division_equations.

Lemma split_ch_aux_app_nosep : forall sep a rest cur, forallb (fun c => negb (c =? sep)) a = true ->
  split_ch_aux sep (a ++ rest) cur = split_ch_aux sep rest (rev a ++ cur).
Proof.
  induction a as [|x t IH]; intros rest cur H; [reflexivity|].
  simpl in H. apply andb_prop in H. destruct H as [H1 H2]. cbn [app split_ch_aux].
  destruct (x =? sep); [discriminate|]. rewrite IH by exact H2. cbn [rev]. rewrite <- app_assoc. reflexivity.
Qed.

Lemma split_ch_aux_cur : forall sep s cur,
  split_ch_aux sep s cur = match split_ch_aux sep s [] with
                           | x :: t => (rev cur ++ x) :: t
                           | [] => []
                           end.
Proof. exact StrSplit.split_ch_aux_cur. Qed.

Lemma split_ch_aux_app_sep : forall sep a b cur,
  split_ch_aux sep (a ++ sep :: b) cur = split_ch_aux sep a cur ++ split_ch_aux sep b [].
Proof.
  induction a as [|c t IH]; intros b cur; cbn [app split_ch_aux].
  - rewrite Z.eqb_refl. reflexivity.
  - destruct (c =? sep).
    + rewrite IH. reflexivity.
    + apply IH.
Qed.
Lemma split_ch_app_sep : forall sep a b, split_ch sep (a ++ sep :: b) = split_ch sep a ++ split_ch sep b.
Proof. intros. apply split_ch_aux_app_sep. Qed.

Lemma split_ch_join : forall sep ls, ls <> [] -> split_ch sep (join [sep] ls) = flat_map (split_ch sep) ls.
Proof.
  induction ls as [|a t IH]; intros H; [congruence|].
  destruct t as [|b t'].
  - simpl. rewrite app_nil_r. reflexivity.
  - change (join [sep] (a :: b :: t')) with (a ++ [sep] ++ join [sep] (b :: t')).
    cbn [app]. rewrite split_ch_app_sep, IH by discriminate. reflexivity.
Qed.

Lemma split_ch_nosep : forall sep s, forallb (fun c => negb (c =? sep)) s = true -> split_ch sep s = [s].
Proof.
  intros sep s H. unfold split_ch. rewrite <- (app_nil_r s) at 1.
  rewrite split_ch_aux_app_nosep by exact H. simpl. rewrite app_nil_r, rev_involutive. reflexivity.
Qed.

Definition dval (s : str) : Z := fold_left (fun a c => a * 10 + digit_val c) s 0.

Lemma fold_dval : forall s a, fold_left (fun a c => a * 10 + digit_val c) s a
                              = a * 10 ^ Z.of_nat (length s) + dval s.
Proof.
  unfold dval. induction s as [|c t IH]; intros a.
  - simpl. lia.
  - cbn [fold_left length]. rewrite IH, (IH (0 * 10 + digit_val c)).
    rewrite Nat2Z.inj_succ, Z.pow_succ_r by lia. lia.
Qed.
Lemma dval_cons : forall c t, dval (c :: t) = digit_val c * 10 ^ Z.of_nat (length t) + dval t.
Proof. intros. unfold dval at 1. cbn [fold_left]. rewrite fold_dval. lia. Qed.
Lemma dval_app : forall a b, dval (a ++ b) = dval a * 10 ^ Z.of_nat (length b) + dval b.
Proof. intros. unfold dval at 1. rewrite fold_left_app. fold (dval a). apply fold_dval. Qed.

Lemma digits_val_acc_spec : forall s a, forallb is_digit s = true ->
  digits_val_acc s a = Some (fold_left (fun a c => a * 10 + digit_val c) s a).
Proof.
  induction s as [|c t IH]; intros a H; [reflexivity|].
  simpl in H. apply andb_prop in H. destruct H as [H1 H2]. cbn [digits_val_acc fold_left].
  rewrite H1. apply IH. exact H2.
Qed.
Lemma int_of_digits_spec : forall s, s <> [] -> forallb is_digit s = true -> int_of_digits s = Some (dval s).
Proof. intros s N H. destruct s; [congruence|]. unfold int_of_digits. apply digits_val_acc_spec. exact H. Qed.

Lemma dec_nonneg_spec : forall z, 0 <= z ->
  forallb is_digit (dec_nonneg z) = true /\ dval (dec_nonneg z) = z /\ dec_nonneg z <> [].
Proof.
  intros z Hz. pose proof (Dec.dec_nonneg_digits z Hz) as D. split; [exact D|]. split; [|apply Dec.dec_nonneg_nonempty].
  pose proof (Dec.dec_nonneg_val z Hz) as V. rewrite (digits_val_acc_spec _ 0 D) in V. injection V as V. exact V.
Qed.

Lemma zpad_spec : forall w s, forallb is_digit s = true ->
  forallb is_digit (zpad w s) = true /\ dval (zpad w s) = dval s /\ (w <= length (zpad w s))%nat
  /\ (length s <= length (zpad w s))%nat.
Proof.
  intros w s H. unfold zpad. repeat split.
  - rewrite forallb_app, H, andb_true_r. induction (w - length s)%nat; simpl; auto.
  - rewrite dval_app. assert (Z0 : forall n, dval (repeat 48 n) = 0).
    { induction n; [reflexivity|]. cbn [repeat]. rewrite dval_cons, IHn. reflexivity. }
    rewrite Z0. lia.
  - rewrite app_length, repeat_length. lia.
  - rewrite app_length. lia.
Qed.

Lemma split_ch_forallb : forall (p : Z -> bool) sep s x, forallb (fun c => p c || (c =? sep)) s = true ->
  In x (split_ch sep s) -> forallb p x = true.
Proof.
  intros p sep s x Hs Hx. destruct (StrSplit.split_ch_part sep s x Hx) as (a & b & E).
  apply forallb_forall. intros c Hc. rewrite forallb_forall in Hs.
  specialize (Hs c ltac:(rewrite E, !in_app_iff; tauto)). destruct (c =? sep) eqn:Q; [|rewrite orb_false_r in Hs; exact Hs].
  apply Z.eqb_eq in Q. subst c. destruct (StrSplit.split_ch_no_sep sep s x Hx Hc).
Qed.
