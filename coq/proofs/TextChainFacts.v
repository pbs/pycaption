(* C11, closure: what a reader model returns for the payload a writer model wrote (balanced flat spans)
   is again in the writers' domain: texts over XML Char without CR, style dictionaries without colour, spans flat and
   balanced with the end node repeating the start node.  Hence the round-trip theorems compose: DFXP -> SAMI -> DFXP and
   SAMI -> DFXP -> SAMI on the flags of every visible character. *)
From Coq Require Import List ZArith Bool Lia.
From PV Require Import lib.Sx lib.Str lib.StrFacts model.TextNodes model.TextWrite model.TextRead.
From PV Require Import spec.SpecTextXml spec.SpecTextStyle spec.SpecTextChain.
From PV Require Import proofs.TextStrFacts proofs.TextXmlFacts proofs.TextPayloadFacts proofs.TextStyleFacts.
From PV Require Import proofs.TextRoundtripFacts.
From PV Require lib.Dec.
Import ListNotations.
Open Scope Z_scope.

(* characters of a text node come from the source string (or are the blank that stands for a wrap) *)
Section chars.
  Variable P : Z -> bool.
  Hypothesis P32 : P 32 = true.

  Lemma forallb_take_while : forall f (s : str), forallb P s = true -> forallb P (take_while f s) = true.
  Proof.
    intros f s. induction s as [|c s IH]; intros H; [reflexivity|]. cbn [forallb] in H. apply andb_true_iff in H. destruct H as [Hc Hs].
    cbn [take_while]. destruct (f c); [cbn [forallb]; rewrite Hc, (IH Hs); reflexivity|reflexivity].
  Qed.
  Lemma split_by_aux_chars : forall f s cur, forallb P s = true -> forallb P cur = true ->
    Forall (fun l => forallb P l = true) (split_by_aux f s cur).
  Proof.
    intros f s. induction s as [|c s IH]; intros cur Hs Hc.
    - cbn [split_by_aux]. constructor; [rewrite forallb_rev; exact Hc|constructor].
    - cbn [forallb] in Hs. apply andb_true_iff in Hs. destruct Hs as [Hx Hs]. cbn [split_by_aux]. destruct (f c).
      + constructor; [rewrite forallb_rev; exact Hc|]. apply IH; [exact Hs|reflexivity].
      + apply IH; [exact Hs|]. cbn [forallb]. rewrite Hx, Hc. reflexivity.
  Qed.
  Lemma concat_pieces_chars : forall ls, Forall (fun l => forallb P l = true) ls ->
    forallb P (concat (map (fun l => 32 :: lstrip l) (filter nonblank_b ls))) = true.
  Proof.
    induction ls as [|l ls IH]; intros H; [reflexivity|]. inversion H as [|x y Hl Hls]; subst. cbn [filter].
    destruct (nonblank_b l); [|apply IH; exact Hls]. cbn [map concat]. cbn [forallb app]. rewrite P32. cbn [andb].
    rewrite forallb_app, (IH Hls), andb_true_r. apply forallb_lstrip_by. exact Hl.
  Qed.
  Lemma text_node_chars : forall s t, text_node true s = Some t -> forallb P s = true -> forallb P t = true.
  Proof.
    intros s t H Hs. unfold text_node in H. destruct (text_first s) as [[p first]|] eqn:E; [|discriminate]. injection H as <-.
    unfold text_first in E. destruct (rstrip_by is_lf _) as [|z l]; [discriminate|]. injection E as Ep Ef.
    rewrite forallb_app. apply andb_true_iff. split.
    - rewrite <- Ef. apply forallb_take_while. apply forallb_skipn. exact Hs.
    - apply concat_pieces_chars. apply split_by_aux_chars; [apply forallb_skipn; exact Hs|reflexivity].
  Qed.
End chars.

(* token lists: spans do not nest *)
Fixpoint tfl (toks : list xtok) (open : bool) : option bool :=
  match toks with
  | [] => Some open
  | TkOpen _ _ :: t => if open then None else tfl t true
  | TkClose _ :: t => if open then tfl t false else None
  | _ :: t => tfl t open
  end.
Lemma tfl_app : forall a b o, tfl (a ++ b) o = match tfl a o with Some o' => tfl b o' | None => None end.
Proof. induction a as [|tk a IH]; intros b o; [reflexivity|]. destruct tk; cbn [app tfl]; try apply IH; destruct o; try reflexivity; apply IH. Qed.

Section closure.
  Variable dom : style -> bool.
  Variable atok : style -> option (list (str * str)).

  Definition TokP (tk : xtok) : Prop :=
    match tk with
    | TkText s => forallb xml_text_char s = true
    | TkOpen _ a => exists st, dom st = true /\ atok st = Some a
    | _ => True
    end.
  Definition Inv (a : ast) (open : bool) : Prop :=
    tfl (rev (a_out a)) false = Some open /\ Forall TokP (a_out a) /\ forallb xml_text_char (a_cur a) = true.

  Lemma flush_inv : forall cur out o, tfl (rev out) false = Some o -> Forall TokP out -> forallb xml_text_char cur = true ->
    tfl (rev (flush cur out)) false = Some o /\ Forall TokP (flush cur out).
  Proof.
    intros cur out o H1 H2 H3. unfold flush. destruct cur as [|c cur]; [split; assumption|]. split.
    - cbn [rev]. rewrite tfl_app, H1. reflexivity.
    - constructor; [|exact H2]. cbn [TokP]. rewrite forallb_rev. exact H3.
  Qed.

  Lemma inv_text : forall s a o, forallb xml_text_char s = true -> Inv a o -> Inv (a_text s a) o.
  Proof. intros s a o Hs (H1 & H2 & H3). split; [|split]; try assumption. unfold a_text. cbn [a_cur]. rewrite forallb_app, forallb_rev, Hs, H3. reflexivity. Qed.
  Lemma inv_lit : forall ws a o, forallb lit_space ws = true -> Inv a o -> Inv (a_lit ws a) o.
  Proof. intros ws a o Hs (H1 & H2 & H3). split; [|split]; try assumption. unfold a_lit. cbn [a_cur]. rewrite forallb_app, forallb_rev, (proj1 (lit_space_plain ws Hs)), H3. reflexivity. Qed.
  Lemma inv_rstrip : forall a o, Inv a o -> Inv (a_rstrip a) o.
  Proof. intros a o (H1 & H2 & H3). split; [|split]; try assumption. unfold a_rstrip. cbn [a_cur]. rewrite <- lstrip_by_drop_while. apply forallb_lstrip_by, H3. Qed.
  Lemma inv_mark : forall tk a o o', Inv a o -> TokP tk -> tfl [tk] o = Some o' -> Inv (a_mark tk a) o'.
  Proof.
    intros tk a o o' (H1 & H2 & H3) Htk Hfl. destruct (flush_inv (a_cur a) (a_out a) o H1 H2 H3) as [F1 F2].
    unfold a_mark. split; [|split]; cbn [a_cur a_out]; [|constructor; assumption|reflexivity].
    cbn [rev]. rewrite tfl_app, F1. exact Hfl.
  Qed.
  Lemma inv_br : forall a o, Inv a o -> Inv (a_br a) o.
  Proof.
    intros a o H. unfold a_br. apply inv_lit; [reflexivity|]. apply (inv_mark _ _ o o); [apply inv_rstrip; exact H|exact I|reflexivity].
  Qed.
  Lemma inv_close : forall a, Inv a true -> Inv (a_close a) false.
  Proof. intros a H. unfold a_close. apply (inv_mark _ _ true false); [exact H|exact I|reflexivity]. Qed.
  Lemma inv_close_sp : forall a, Inv a true -> Inv (a_close_sp a) false.
  Proof.
    intros a H. unfold a_close_sp. apply inv_lit; [reflexivity|]. apply (inv_mark _ _ true false); [apply inv_rstrip; exact H|exact I|reflexivity].
  Qed.

  Lemma abs_run_inv : forall sfx acl, forallb lit_space sfx = true -> (forall a, Inv a true -> Inv (acl a) false) ->
    forall ns cur, flat_aux ns cur = true -> forall a, nodes_ok dom ns = true -> Inv a (flag_of atok cur) ->
    Inv (fst (fold_left (abs_step sfx acl atok) ns (a, flag_of atok cur))) false.
  Proof.
    intros sfx acl Hsfx Hacl. refine (flat_aux_ind _ _ _ _ _ _); cbn [fold_left abs_step nodes_ok flag_of].
    - intros a _ Ha. exact Ha.
    - intros s ns cur IH a Hn Ha. apply andb_true_iff in Hn. destruct Hn as [Hs Hn]. apply (IH _ Hn).
      apply inv_lit; [exact Hsfx|]. apply inv_text; assumption.
    - intros ns cur IH a Hn Ha. apply (IH _ Hn), inv_br, Ha.
    - intros st ns IH a Hn Ha. apply andb_true_iff in Hn. destruct Hn as [Hd Hn]. cbn [flag_of] in IH.
      destruct (atok st) as [attrs|] eqn:E; apply (IH _ Hn); [|exact Ha].
      apply (inv_mark _ _ false true); [exact Ha| |reflexivity]. exists st. split; assumption.
    - intros st0 st ns _ IH a Hn Ha. apply andb_true_iff in Hn. destruct Hn as [_ Hn].
      destruct (opt_some (atok st0)); apply (IH _ Hn); [apply Hacl|]; exact Ha.
  Qed.

  Lemma abs_tokens_inv : forall sfx acl ns, forallb lit_space sfx = true -> (forall a, Inv a true -> Inv (acl a) false) ->
    flat_balanced ns = true -> nodes_ok dom ns = true ->
    tfl (abs_tokens sfx acl atok ns) false = Some false /\ Forall TokP (abs_tokens sfx acl atok ns).
  Proof.
    intros sfx acl ns Hsfx Hacl Hf Hn. unfold abs_tokens, abs_run.
    pose proof (abs_run_inv sfx acl Hsfx Hacl ns None Hf (mkA [] []) Hn) as Q. cbn [flag_of] in Q.
    assert (I0 : Inv (mkA [] []) false) by (split; [reflexivity|split; [constructor|reflexivity]]). specialize (Q I0). apply inv_rstrip in Q.
    destruct Q as (H1 & H2 & H3). cbv zeta. destruct (flush_inv _ _ _ H1 H2 H3) as [F1 F2].
    split; [exact F1|]. apply Forall_rev. exact F2.
  Qed.

  Variable rd : xnode -> list node.
  Variable est : list (str * str) -> option style.
  Hypothesis rd_text : forall s, rd (XText s) = match text_node true s with Some t => [NText t] | None => [] end.
  Hypothesis est_plain : forall st a, dom st = true -> atok st = Some a ->
    match est a with Some s' => plain_style s' = true | None => True end.

  Definition cur_of (stk : list (option style)) : option style := match stk with [Some st] => Some st | _ => None end.
  Definition stk_ok (stk : list (option style)) (open : bool) : Prop :=
    (open = false /\ stk = []) \/ (open = true /\ exists o, stk = [o] /\ match o with Some s' => plain_style s' = true | None => True end).

  Lemma style_eqb_refl : forall st, style_eqb st st = true.
  Proof.
    intros [i b u c]. unfold style_eqb. cbn [st_i st_b st_u st_color]. rewrite !eqb_reflx. cbn [andb].
    destruct c as [c|]; [apply StrFacts.str_eqb_refl|reflexivity].
  Qed.

  Lemma nodes_ok_app : forall d a b, nodes_ok d (a ++ b) = nodes_ok d a && nodes_ok d b.
  Proof.
    intros d a b. induction a as [|n a IH]; [reflexivity|]. destruct n; cbn [app nodes_ok]; rewrite IH; try reflexivity; apply andb_assoc.
  Qed.

  Lemma rd_text_facts : forall s cur, forallb xml_text_char s = true ->
    nodes_ok plain_style (rd (XText s)) = true /\ (forall rest, flat_aux (rd (XText s) ++ rest) cur = flat_aux rest cur).
  Proof.
    intros s cur Hs. rewrite rd_text. destruct (text_node true s) as [t|] eqn:E; [|split; reflexivity]. split; [|reflexivity].
    cbn [nodes_ok]. rewrite (text_node_chars xml_text_char eq_refl s t E Hs). reflexivity.
  Qed.

  Lemma tok_nodes_closed : forall toks stk open, Forall TokP toks -> tfl toks open = Some false -> stk_ok stk open ->
    nodes_ok plain_style (tok_nodes rd est toks stk) = true /\ flat_aux (tok_nodes rd est toks stk) (cur_of stk) = true.
  Proof.
    induction toks as [|tk toks IH]; intros stk open HP Hfl Hst.
    - cbn [tfl] in Hfl. injection Hfl as ->. destruct Hst as [[_ ->]|[Hc _]]; [split; reflexivity|discriminate].
    - inversion HP as [|x y Htk HPs]; subst. destruct tk as [s|n a|n|n a]; cbn [tfl tok_nodes] in *.
      + destruct (rd_text_facts s (cur_of stk) Htk) as [R1 R2]. destruct (IH stk open HPs Hfl Hst) as [I1 I2].
        rewrite nodes_ok_app, R1, I1, R2. split; [reflexivity|exact I2].
      + destruct open; [discriminate|]. destruct Hst as [[_ ->]|[Hc _]]; [|discriminate].
        destruct Htk as (st & Hd & Ha). pose proof (est_plain st a Hd Ha) as Hp.
        assert (Hst2 : stk_ok [est a] true) by (right; split; [reflexivity|exists (est a); split; [reflexivity|exact Hp]]).
        destruct (IH [est a] true HPs Hfl Hst2) as [I1 I2]. destruct (est a) as [s'|]; cbn [open_piece app nodes_ok flat_aux cur_of] in *.
        * rewrite Hp, I1. split; [reflexivity|exact I2].
        * split; assumption.
      + destruct open; [|discriminate]. destruct Hst as [[Hc _]|[_ (o & -> & Ho)]]; [discriminate|].
        assert (Hst2 : stk_ok [] false) by (left; split; reflexivity).
        destruct (IH [] false HPs Hfl Hst2) as [I1 I2]. cbn [hd tl]. destruct o as [s'|]; cbn [close_piece app nodes_ok flat_aux cur_of] in *.
        * rewrite Ho, I1, style_eqb_refl. split; [reflexivity|exact I2].
        * split; assumption.
      + destruct (IH stk open HPs Hfl Hst) as [I1 I2]. cbn [nodes_ok flat_aux]. split; assumption.
  Qed.
End closure.

Lemma flag3_eqb_eq : forall a b, flag3_eqb a b = true -> a = b.
Proof. intros [[[] []] []] [[[] []] []] H; try reflexivity; discriminate. Qed.

Lemma flags_eqb_trans : forall m A B C, flags_eqb m A B = true -> flags_eqb m B C = true -> flags_eqb m A C = true.
Proof.
  intros m. induction A as [|[c f] A IH]; intros [|[d g] B] [|[e h] C] H1 H2; cbn [flags_eqb] in *; try discriminate; [reflexivity|].
  apply andb_true_iff in H1. destruct H1 as [H1 H1r]. apply andb_true_iff in H1. destruct H1 as [Hc Hf].
  apply andb_true_iff in H2. destruct H2 as [H2 H2r]. apply andb_true_iff in H2. destruct H2 as [Hd Hg].
  apply Z.eqb_eq in Hc. apply Z.eqb_eq in Hd. subst. rewrite Z.eqb_refl. apply flag3_eqb_eq in Hf. apply flag3_eqb_eq in Hg.
  rewrite Hf, Hg, flag3_eqb_refl. cbn [andb]. apply (IH B C H1r H2r).
Qed.

Lemma flags_eqb_weaken : forall A B, flags_eqb m_ibu A B = true -> flags_eqb m_i A B = true.
Proof.
  induction A as [|[c f] A IH]; intros [|[d g] B] H; cbn [flags_eqb] in *; try discriminate; [reflexivity|].
  apply andb_true_iff in H. destruct H as [H Hr]. apply andb_true_iff in H. destruct H as [Hc Hf].
  rewrite Hc, (IH B Hr). cbn [andb]. rewrite andb_true_r.
  destruct f as [[[] []] []], g as [[[] []] []]; try reflexivity; discriminate.
Qed.

Lemma dfxp_est_plain : forall region st a, plain_style st = true -> dfxp_atok region st = Some a ->
  match dfxp_est a with Some s' => plain_style s' = true | None => True end.
Proof.
  intros region [i b u c] a H E. unfold plain_style in H. cbn [st_color] in H. destruct c; [discriminate|].
  destruct region, i; cbn in E; try discriminate; injection E as <-; reflexivity.
Qed.

Lemma sami_est_plain : forall st a, plain_style st = true -> sami_atok st = Some a ->
  match sami_span_args a with Some s' => plain_style s' = true | None => True end.
Proof.
  intros [i b u c] a H E. unfold plain_style in H. cbn [st_color] in H. destruct c; [discriminate|].
  destruct i, b, u; vm_compute in E; try discriminate; injection E as <-; vm_compute; reflexivity.
Qed.

Theorem dfxp_roundtrip_closed : forall region ns, nodes_ok plain_style ns = true -> flat_balanced ns = true ->
  exists t, content_parse (dfxp_payload (extra_of region) ns) = Some t /\
            nodes_ok plain_style (flat_map (dfxp_nodes true) t) = true /\
            flat_balanced (flat_map (dfxp_nodes true) t) = true /\
            ok_flags m_i ns (flat_map (dfxp_nodes true) t) = true.
Proof.
  intros region ns Hn Hf. destruct (dfxp_plain_core region ns Hn Hf) as (t & Ht & _ & Hnodes & Hfl). exists t.
  destruct (abs_tokens_inv plain_style (dfxp_atok region) [] a_close ns eq_refl (inv_close plain_style (dfxp_atok region)) Hf Hn) as [T1 T2].
  destruct (tok_nodes_closed plain_style (dfxp_atok region) (dfxp_nodes true) dfxp_est (fun _ => eq_refl) (dfxp_est_plain region)
              _ [] false T2 T1 (or_introl (conj eq_refl eq_refl))) as [C1 C2].
  rewrite <- Hnodes in C1, C2. repeat split; assumption.
Qed.

Theorem sami_roundtrip_closed : forall ns, nodes_ok plain_style ns = true -> flat_balanced ns = true ->
  exists t, content_parse (sami_payload ns) = Some t /\
            nodes_ok plain_style (flat_map (sami_nodes true) t) = true /\
            flat_balanced (flat_map (sami_nodes true) t) = true /\
            ok_flags m_ibu ns (flat_map (sami_nodes true) t) = true.
Proof.
  intros ns Hn Hf. destruct (sami_core ns Hn Hf) as (t & Ht & _ & Hnodes & Hfl). exists t.
  destruct (abs_tokens_inv plain_style sami_atok (lit " ") a_close_sp ns eq_refl (inv_close_sp plain_style sami_atok) Hf Hn) as [T1 T2].
  destruct (tok_nodes_closed plain_style sami_atok (sami_nodes true) sami_span_args (fun _ => eq_refl) sami_est_plain
              _ [] false T2 T1 (or_introl (conj eq_refl eq_refl))) as [C1 C2].
  rewrite <- Hnodes in C1, C2. repeat split; assumption.
Qed.

Theorem chain_dfxp_sami_dfxp : forall r1 r2 ns, nodes_ok plain_style ns = true -> flat_balanced ns = true ->
  exists n1 n2 n3,
    rd_dfxp (dfxp_payload (extra_of r1) ns) = Some n1 /\
    rd_sami (sami_payload n1) = Some n2 /\
    rd_dfxp (dfxp_payload (extra_of r2) n2) = Some n3 /\
    ok_flags m_i ns n2 = true /\ ok_flags m_i ns n3 = true /\ flat_balanced n3 = true /\ nodes_ok plain_style n3 = true.
Proof.
  intros r1 r2 ns Hn Hf.
  destruct (dfxp_roundtrip_closed r1 ns Hn Hf) as (t1 & P1 & N1 & F1 & G1).
  destruct (sami_roundtrip_closed _ N1 F1) as (t2 & P2 & N2 & F2 & G2).
  destruct (dfxp_roundtrip_closed r2 _ N2 F2) as (t3 & P3 & N3 & F3 & G3).
  exists (flat_map (dfxp_nodes true) t1), (flat_map (sami_nodes true) t2), (flat_map (dfxp_nodes true) t3).
  unfold rd_dfxp, rd_sami. rewrite P1, P2, P3. cbn [option_map]. repeat split; try assumption.
  - unfold ok_flags in *. apply (flags_eqb_trans m_i _ _ _ G1). apply flags_eqb_weaken. exact G2.
  - unfold ok_flags in *. apply (flags_eqb_trans m_i _ _ _ G1). apply (flags_eqb_trans m_i _ _ _ (flags_eqb_weaken _ _ G2)). exact G3.
Qed.

Theorem chain_sami_dfxp_sami : forall r ns, nodes_ok plain_style ns = true -> flat_balanced ns = true ->
  exists n1 n2 n3,
    rd_sami (sami_payload ns) = Some n1 /\
    rd_dfxp (dfxp_payload (extra_of r) n1) = Some n2 /\
    rd_sami (sami_payload n2) = Some n3 /\
    ok_flags m_ibu ns n1 = true /\ ok_flags m_i ns n2 = true /\ ok_flags m_i ns n3 = true /\
    flat_balanced n3 = true /\ nodes_ok plain_style n3 = true.
Proof.
  intros r ns Hn Hf.
  destruct (sami_roundtrip_closed ns Hn Hf) as (t1 & P1 & N1 & F1 & G1).
  destruct (dfxp_roundtrip_closed r _ N1 F1) as (t2 & P2 & N2 & F2 & G2).
  destruct (sami_roundtrip_closed _ N2 F2) as (t3 & P3 & N3 & F3 & G3).
  exists (flat_map (sami_nodes true) t1), (flat_map (dfxp_nodes true) t2), (flat_map (sami_nodes true) t3).
  unfold rd_dfxp, rd_sami. rewrite P1, P2, P3. cbn [option_map]. repeat split; try assumption.
  - unfold ok_flags in *. apply (flags_eqb_trans m_i _ _ _ (flags_eqb_weaken _ _ G1)). exact G2.
  - unfold ok_flags in *. apply (flags_eqb_trans m_i _ _ _ (flags_eqb_weaken _ _ G1)). apply (flags_eqb_trans m_i _ _ _ G2).
    apply flags_eqb_weaken. exact G3.
Qed.

(* the same as statements about the executable chain functions (spec/SpecTextChain.v) *)
Corollary chain_dsd_flags : forall r1 r2 ns, nodes_ok plain_style ns = true -> flat_balanced ns = true ->
  exists n3, chain_dsd (extra_of r1) (extra_of r2) ns = Some n3 /\ ok_flags m_i ns n3 = true /\ flat_balanced n3 = true.
Proof.
  intros r1 r2 ns Hn Hf. destruct (chain_dfxp_sami_dfxp r1 r2 ns Hn Hf) as (n1 & n2 & n3 & E1 & E2 & E3 & _ & G & F & _).
  exists n3. unfold chain_dsd, obind. rewrite E1, E2, E3. repeat split; assumption.
Qed.

Corollary chain_sds_flags : forall r ns, nodes_ok plain_style ns = true -> flat_balanced ns = true ->
  exists n3, chain_sds (extra_of r) ns = Some n3 /\ ok_flags m_i ns n3 = true /\ flat_balanced n3 = true.
Proof.
  intros r ns Hn Hf. destruct (chain_sami_dfxp_sami r ns Hn Hf) as (n1 & n2 & n3 & E1 & E2 & E3 & _ & _ & G & F & _).
  exists n3. unfold chain_sds, obind. rewrite E1, E2, E3. repeat split; assumption.
Qed.
