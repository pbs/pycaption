(* RegionFacts.v - C10: construction (build / read) allocates a fresh closed region; regions of different caption
   sets stay disjoint and closed over arbitrary histories; an edit touches only the region of its own set. *)
From Coq Require Import List ZArith Bool Arith Lia.
From PV Require Import lib.Sx lib.Str lib.Dec lib.Result model.Store model.Iso proofs.StoreFacts proofs.IsoFacts.
Import ListNotations.

(* ---- construction from a tree allocates a fresh closed region ------------------------------------------------------ *)
Definition build_go (dflt : store -> Z -> store * val) :=
  fix go (l : list (tree * tree)) (st : store) : store * list (val * val) :=
    match l with
    | [] => (st, [])
    | (a, b) :: r =>
        let '(st1, a') := build dflt a st in
        let '(st2, b') := build dflt b st1 in
        let '(st3, r') := go r st2 in
        (st3, (a', b') :: r')
    end.

Lemma build_node : forall dflt k items st,
  build dflt (TNode k items) st =
  if (k =? KDefault)%Z then dflt st (match items with (_, TInt w) :: _ => w | _ => 0%Z end)
  else let '(st1, its) := build_go dflt items st in new_obj st1 k its.
Proof. reflexivity. Qed.

Lemma dflt_inv : forall c st0 st w st' v,
  fix2 c = true -> inv st0 st -> dflt c st w = (st', v) ->
  inv st0 st' /\ (length st <= length st')%nat /\ inr (length st0) (length st') v.
Proof.
  intros c st0 st w st' v Hc Hinv H. unfold dflt in H. rewrite Hc in H.
  assert (Hits : items_inr (length st0) (length st) []) by constructor.
  destruct (inv_new_obj _ _ _ _ _ _ Hinv Hits H) as (A & B & C). auto.
Qed.

Lemma build_inv : forall c t st0 st st' v,
  fix2 c = true -> inv st0 st -> build (dflt c) t st = (st', v) ->
  inv st0 st' /\ (length st <= length st')%nat /\ inr (length st0) (length st') v.
Proof.
  intros c t st0 st st' v Hc. revert st st' v.
  induction t as [z|s| | |k items IH] using tree_ind2; intros st st' v Hinv H;
    try (simpl in H; inversion H; subst; split; [assumption|split; [lia|exact I]]).
  rewrite build_node in H. destruct (k =? KDefault)%Z; [eapply dflt_inv; eauto|].
  assert (Hgo : forall st st1 its, inv st0 st -> build_go (dflt c) items st = (st1, its) ->
                inv st0 st1 /\ (length st <= length st1)%nat /\ items_inr (length st0) (length st1) its).
  { clear - IH. induction IH as [|[a b] r [IHa IHb] _ IHr]; intros sa sb its Ia Hb.
    - simpl in Hb. inversion Hb; subst. split; [assumption|split; [lia|constructor]].
    - cbn [build_go] in Hb. cbn [fst snd] in IHa, IHb.
      destruct (build (dflt c) a sa) as [s1 a'] eqn:Ea.
      destruct (build (dflt c) b s1) as [s2 b'] eqn:Eb.
      destruct (build_go (dflt c) r s2) as [s3 r'] eqn:Er.
      inversion Hb; subst. clear Hb.
      destruct (IHa _ _ _ Ia Ea) as (I1 & L1 & V1).
      destruct (IHb _ _ _ I1 Eb) as (I2 & L2 & V2).
      destruct (IHr _ _ _ I2 Er) as (I3 & L3 & V3).
      split; [exact I3|]. split; [lia|]. constructor; [|exact V3]. cbn [fst snd]. split; inr_up. }
  destruct (build_go (dflt c) items st) as [st1 its] eqn:Eg.
  destruct (Hgo _ _ _ Hinv Eg) as (I1 & L1 & V1).
  destruct (inv_new_obj _ _ _ _ _ _ I1 V1 H) as (I2 & V2 & L2).
  split; [exact I2|]. split; [lia|exact V2].
Qed.

(* ---- decidable equality on snapshots is equality -------------------------------------------------------------------- *)
Definition items_eqb (l1 l2 : list (tree * tree)) : bool :=
  (fix go (l1 l2 : list (tree * tree)) : bool :=
     match l1, l2 with
     | [], [] => true
     | (a1, b1) :: t1, (a2, b2) :: t2 => tree_eqb a1 a2 && tree_eqb b1 b2 && go t1 t2
     | _, _ => false
     end) l1 l2.

Lemma tree_eqb_node : forall k1 l1 k2 l2, tree_eqb (TNode k1 l1) (TNode k2 l2) = ((k1 =? k2)%Z && items_eqb l1 l2).
Proof. reflexivity. Qed.
Lemma items_eqb_cons : forall a1 b1 t1 a2 b2 t2,
  items_eqb ((a1, b1) :: t1) ((a2, b2) :: t2) = (tree_eqb a1 a2 && tree_eqb b1 b2 && items_eqb t1 t2).
Proof. reflexivity. Qed.

Lemma tree_eqb_refl : forall t, tree_eqb t t = true.
Proof.
  induction t as [z|s| | |k items IH] using tree_ind2; try reflexivity; [apply Z.eqb_refl|apply str_eqb_refl|].
  rewrite tree_eqb_node, Z.eqb_refl. cbn [andb].
  induction IH as [|[a b] r [Ha Hb] _ IHr]; [reflexivity|].
  rewrite items_eqb_cons. cbn [fst snd] in Ha, Hb. rewrite Ha, Hb. exact IHr.
Qed.

Lemma tree_eqb_eq : forall a b, tree_eqb a b = true -> a = b.
Proof.
  induction a as [z|s| | |k items IH] using tree_ind2; intros [z'|s'| |k' items'|] H; try discriminate H; auto.
  - apply Z.eqb_eq in H. subst. reflexivity.
  - apply str_eqb_eq in H. subst. reflexivity.
  - rewrite tree_eqb_node in H. apply andb_true_iff in H. destruct H as [A B].
    apply Z.eqb_eq in A. subst k'. f_equal.
    revert items' B. induction IH as [|[a1 b1] r [Ha Hb] _ IHr]; intros [|[a2 b2] r'] B; try discriminate B; auto.
    rewrite items_eqb_cons in B. apply andb_true_iff in B. destruct B as [B C]. apply andb_true_iff in B.
    destruct B as [B1 B2]. cbn [fst snd] in Ha, Hb. rewrite (Ha a2 B1), (Hb b2 B2), (IHr r' C). reflexivity.
Qed.

(* ---- the sharing pass of the read models (DAG-shaped results) ---------------------------------------------------------- *)
Lemma same_snapshots_sound : forall st a b, same_snapshots st a b = true ->
  forall m, (m <= FUEL)%nat -> snap m st a = snap m st b.
Proof.
  intros st a b H m Hm. unfold same_snapshots in H. rewrite forallb_forall in H.
  apply tree_eqb_eq. apply H. apply in_seq. lia.
Qed.

Definition pass_ok (st0 st st' : store) : Prop :=
  inv st0 st' /\ length st' = length st /\ (forall n v, (n <= S FUEL)%nat -> snap n st' v = snap n st v).

Lemma pass_ok_refl : forall st0 st, inv st0 st -> pass_ok st0 st st.
Proof. intros. split; [assumption|]. split; [reflexivity|]. intros; reflexivity. Qed.

Lemma pass_ok_trans : forall st0 a b c, pass_ok st0 a b -> pass_ok st0 b c -> pass_ok st0 a c.
Proof.
  intros st0 a b c (I1 & L1 & S1) (I2 & L2 & S2). split; [exact I2|]. split; [congruence|].
  intros n v Hn. rewrite S2, S1 by assumption. reflexivity.
Qed.

Lemma pass_ok_then : forall st0 st st1 st2,
  pass_ok st0 st st1 -> (inv st0 st1 -> length st1 = length st -> pass_ok st0 st1 st2) -> pass_ok st0 st st2.
Proof. intros st0 st st1 st2 H K. eapply pass_ok_trans; [exact H|]. destruct H as (I1 & L1 & _). auto. Qed.

Lemma share_nodes_ok : forall st0 hs ts st stack,
  inv st0 st -> Forall (inr (length st0) (length st)) hs -> Forall (inr (length st0) (length st)) stack ->
  pass_ok st0 st (share_nodes st hs ts stack).
Proof.
  intros st0. induction hs as [|h hr IH]; intros ts st stack Hinv Hhs Hst; [apply pass_ok_refl; exact Hinv|].
  destruct ts as [|n tr]; [apply pass_ok_refl; exact Hinv|]. cbn [share_nodes].
  inversion Hhs as [|? ? Hh Hhr]; subst.
  destruct (node_is_style n); [|apply IH; auto].
  destruct (is_true (tfield n 3)).
  - apply IH; auto. constructor; [apply field_inr; auto|exact Hst].
  - destruct stack as [|d rest]; [apply IH; auto; constructor|].
    inversion Hst as [|? ? Hd Hrest]; subst. cbn [tl].
    destruct (is_share (tfield n 2) && has_field st h (VInt 2) && same_snapshots st d (field st h (VInt 2))) eqn:G;
      [|apply IH; auto].
    apply andb_true_iff in G. destruct G as [G G3]. apply andb_true_iff in G. destruct G as [_ G2].
    eapply pass_ok_then; [|intros I1 L1; apply IH; auto; rewrite L1; assumption].
    split; [apply inv_set_field; auto; exact I|]. split; [apply length_set_field|].
    intros m v Hm. apply (snap_set_field_same st h (VInt 2) d FUEL); auto.
    + unfold has_field in G2. destruct (assoc (VInt 2) (items_of st h)); [exact I|discriminate].
    + apply same_snapshots_sound. exact G3.
Qed.

Lemma share_caps_ok : forall st0 hcs tcs st,
  inv st0 st -> Forall (inr (length st0) (length st)) hcs -> pass_ok st0 st (share_caps st hcs tcs).
Proof.
  intros st0. induction hcs as [|hc hr IH]; intros tcs st Hinv Hh; [apply pass_ok_refl; exact Hinv|].
  destruct tcs as [|tc tr]; [apply pass_ok_refl; exact Hinv|]. cbn [share_caps].
  inversion Hh as [|? ? Hc Hr]; subst.
  eapply pass_ok_then; [|intros I1 L1; apply IH; auto; rewrite L1; exact Hr].
  apply share_nodes_ok; auto. apply elems_inr; auto. apply field_inr; auto.
Qed.

Lemma share_langs_ok : forall st0 hls tls st,
  inv st0 st -> items_inr (length st0) (length st) hls -> pass_ok st0 st (share_langs st hls tls).
Proof.
  intros st0. induction hls as [|hkv hr IH]; intros tls st Hinv Hh; [apply pass_ok_refl; exact Hinv|].
  destruct tls as [|tkv tr]; [apply pass_ok_refl; exact Hinv|]. cbn [share_langs].
  inversion Hh as [|? ? [_ Hv] Hr]; subst.
  eapply pass_ok_then; [|intros I1 L1; apply IH; auto; unfold items_inr in *; rewrite L1; exact Hr].
  apply share_caps_ok; auto. apply elems_inr; auto.
Qed.

Lemma share_set_ok : forall st0 st s t,
  inv st0 st -> inr (length st0) (length st) s -> pass_ok st0 st (share_set st s t).
Proof. intros. unfold share_set. apply share_langs_ok; auto. apply set_langs_inr; auto. Qed.

(* ---- a read allocates a fresh closed region (after the repairs: no default-argument object, no stale stash) -------- *)
Lemma scc_pre_inv : forall c st0 st cap st' p,
  fix2 c = true -> inv st0 st -> scc_pre c st cap = (st', p) ->
  inv st0 st' /\ (length st <= length st')%nat /\ inr (length st0) (length st') p.
Proof.
  intros c st0 st cap st' p Hc Hinv H. unfold scc_pre in H.
  destruct (build (dflt c) (tfield cap 3) st) as [st1 nodes] eqn:E1.
  destruct (build (dflt c) (tfield cap 4) st1) as [st2 style] eqn:E2.
  destruct (build (dflt c) (tfield cap 5) st2) as [st3 lay] eqn:E3.
  destruct (build_inv c _ st0 _ _ _ Hc Hinv E1) as (I1 & L1 & V1).
  destruct (build_inv c _ st0 _ _ _ Hc I1 E2) as (I2 & L2 & V2).
  destruct (build_inv c _ st0 _ _ _ Hc I2 E3) as (I3 & L3 & V3).
  assert (Hits : items_inr (length st0) (length st3)
                   [(VInt 1, vkey_of_tree (tfield cap 1)); (VInt 2, vkey_of_tree (tfield cap 2));
                    (VInt 3, nodes); (VInt 4, style); (VInt 5, lay)]).
  { assert (Hk : forall t, inr (length st0) (length st3) (vkey_of_tree t)) by (intros []; exact I).
    repeat (constructor; [cbv beta; cbn [fst snd]; split; [exact I|first [apply Hk|inr_up]]|]). constructor. }
  destruct (inv_new_obj _ _ _ _ _ _ I3 Hits H) as (I4 & V4 & L4).
  split; [exact I4|]. split; [lia|exact V4].
Qed.

Lemma cap_of_pre_inv : forall st0 st p st' cp,
  inv st0 st -> inr (length st0) (length st) p -> cap_of_pre st p = (st', cp) ->
  inv st0 st' /\ (length st <= length st')%nat /\ inr (length st0) (length st') cp.
Proof.
  intros st0 st p st' cp Hinv Hp H. unfold cap_of_pre in H.
  assert (Hits : items_inr (length st0) (length st)
                   [(VInt 1, field st p (VInt 1)); (VInt 2, field st p (VInt 2)); (VInt 3, field st p (VInt 3));
                    (VInt 4, field st p (VInt 4)); (VInt 5, field st p (VInt 5))]).
  { repeat (constructor; [cbv beta; cbn [fst snd]; split; [exact I|apply field_inr; auto]|]). constructor. }
  destruct (inv_new_obj _ _ _ _ _ _ Hinv Hits H) as (I1 & V1 & L1). auto.
Qed.

Theorem read_inv : forall c rk ri t st st' ri' s,
  fix2 c = true -> fix3 c = true -> read c rk ri t st = (st', ri', s) ->
  inv st st' /\ inr (length st) (length st') s.
Proof.
  intros c rk ri t st st' ri' s Hc2 Hc3 H. unfold read in H.
  destruct (rk =? R_SCC)%Z.
  - rewrite Hc3 in H. cbn [app] in H.
    set (kv := match set_langs_t t with x :: _ => x | [] => (TNone, TNone) end) in *.
    match type of H with (let '(_, _) := ?X in _) = _ => destruct X as [st1 pres] eqn:E1 end.
    assert (HP : inv st st1 /\ (length st <= length st1)%nat /\ Forall (inr (length st) (length st1)) pres).
    { eapply (fold_inv _ _ st (fun _ (_ : tree) => True) (fun n => Forall (inr (length st) n)));
        [auto| |apply inv_refl| |constructor|exact E1].
      - intros s0 l cap s1 l' I0 _ _ N0 E. cbv beta iota in E.
        destruct (scc_pre c s0 cap) as [s2 p] eqn:Ep. inversion E; subst.
        destruct (scc_pre_inv c st _ _ _ _ Hc2 I0 Ep) as (I1 & L1 & V1).
        split; [exact I1|]. split; [exact L1|]. apply Forall_app. split.
        + eapply Forall_inr_mono; eauto.
        + constructor; [exact V1|constructor].
      - apply Forall_forall. intros; exact I. }
    destruct HP as (I1 & L1 & N1).
    match type of H with (let '(_, _) := ?X in _) = _ => destruct X as [st2 caps] eqn:E2 end.
    assert (HP : inv st st2 /\ (length st1 <= length st2)%nat /\ items_inr (length st) (length st2) caps).
    { eapply (fold_inv _ _ st (inr (length st)) (items_inr (length st)));
        [apply inr_mono| |exact I1|exact N1|constructor|exact E2].
      intros s0 l p s1' l' I0 _ Hp N0 E. cbv beta iota in E.
      destruct (cap_of_pre s0 p) as [s2 cp] eqn:Ec. inversion E; subst.
      destruct (cap_of_pre_inv st _ _ _ _ I0 Hp Ec) as (I1' & L1' & V1').
      split; [exact I1'|]. split; [exact L1'|]. unfold items_inr. apply Forall_app. split.
      - eapply items_inr_mono; [exact N0|exact L1'].
      - constructor; [split; [exact I|exact V1']|constructor]. }
    destruct HP as (I2 & L2 & N2).
    destruct (new_obj st2 KCapList ((VInt 1, VNone) :: caps)) as [st3 cl] eqn:E3.
    assert (H3 : items_inr (length st) (length st2) ((VInt 1, VNone) :: caps)).
    { constructor; [split; exact I|exact N2]. }
    destruct (inv_new_obj _ _ _ _ _ _ I2 H3 E3) as (I3 & V3 & L3).
    destruct (new_obj st3 KDict [(vkey_of_tree (fst kv), cl)]) as [st4 d] eqn:E4.
    assert (H4 : items_inr (length st) (length st3) [(vkey_of_tree (fst kv), cl)]).
    { constructor; [split; [destruct (fst kv); exact I|exact V3]|constructor]. }
    destruct (inv_new_obj _ _ _ _ _ _ I3 H4 E4) as (I4 & V4 & L4).
    destruct (dflt c st4 1) as [st5 sty] eqn:E5.
    destruct (dflt_inv c st st4 1%Z st5 sty Hc2 I4 E5) as (I5 & L5 & V5).
    destruct (new_obj st5 KSet [(VInt 1, d); (VInt 2, sty); (VInt 3, VNone)]) as [st6 s6] eqn:E6.
    assert (H6 : items_inr (length st) (length st5) [(VInt 1, d); (VInt 2, sty); (VInt 3, VNone)]).
    { constructor; [split; [exact I|inr_up]|]. constructor; [split; [exact I|exact V5]|].
      constructor; [split; exact I|constructor]. }
    destruct (inv_new_obj _ _ _ _ _ _ I5 H6 E6) as (I6 & V6 & L6).
    inversion H; subst. split; assumption.
  - cbv zeta in H. destruct (build (dflt c) (unshare (mark_defaults rk t)) st) as [st1 s1] eqn:Eb.
    destruct (build_inv c _ st st st1 s1 Hc2 (inv_refl st) Eb) as (I1 & L1 & V1).
    destruct (share_set_ok st st1 s1 (mark_defaults rk t) I1 V1) as (I2 & L2 & _).
    inversion H; subst. split; [exact I2|]. rewrite L2. exact V1.
Qed.

Definition inR (R : loc -> Prop) (v : val) : Prop := match v with VLoc l => R l | _ => True end.
Definition items_inR (R : loc -> Prop) (its : list (val * val)) : Prop :=
  Forall (fun kv => inR R (fst kv) /\ inR R (snd kv)) its.
Definition closedR (st : store) (R : loc -> Prop) : Prop :=
  forall l o, R l -> get st l = Some o -> items_inR R (o_items o).
Definition boundedR (n : nat) (R : loc -> Prop) : Prop := forall l, R l -> (l < n)%nat.

Lemma inR_impl : forall (R R' : loc -> Prop) v, (forall l, R l -> R' l) -> inR R v -> inR R' v.
Proof. intros R R' [] H Hv; simpl in *; auto. Qed.

Lemma inr_inR : forall (R : loc -> Prop) m n v, (forall l, (m <= l < n)%nat -> R l) -> inr m n v -> inR R v.
Proof. intros R m n [] H Hv; simpl in *; auto. Qed.

Lemma inv_closedR : forall st0 st, inv st0 st -> closedR st (fun l => (length st0 <= l < length st)%nat).
Proof.
  intros st0 st Hinv l o Hl Hg. generalize (inv_closed _ _ Hinv l o (proj1 Hl) Hg).
  apply items_all_impl. intros v. apply inr_inR. auto.
Qed.

(* snapshots inside a closed region only depend on the objects of the region *)
Lemma snap_region : forall st st' R n v,
  closedR st R -> (forall l, R l -> get st' l = get st l) -> inR R v -> snap n st' v = snap n st v.
Proof. intros st st' R n v Hc Ha. exact (snap_closed (inR R) st st' Hc Ha n v). Qed.

(* the region of a set while an edit is running: its old region R plus whatever was allocated since st0 *)
Definition RN (R : loc -> Prop) (n0 n : nat) : loc -> Prop := fun l => R l \/ (n0 <= l < n)%nat.

Record rinv (R : loc -> Prop) (st0 st : store) : Prop := mkRinv {
  r_frame : forall l, (l < length st0)%nat -> ~ R l -> get st l = get st0 l;
  r_len : (length st0 <= length st)%nat;
  r_closed : closedR st (RN R (length st0) (length st));
  r_bound : boundedR (length st0) R
}.

Lemma inR_RN_mono : forall R n0 n n' v, inR (RN R n0 n) v -> (n <= n')%nat -> inR (RN R n0 n') v.
Proof. intros R n0 n n' v H Hn. revert H. apply inR_impl. intros l [Hl|Hl]; [left; exact Hl|right; lia]. Qed.

Lemma rinv_refl : forall R st, closedR st R -> boundedR (length st) R -> rinv R st st.
Proof.
  intros R st Hc Hb. constructor; auto.
  intros l o [Hl|Hl] Hg; [|lia]. generalize (Hc l o Hl Hg).
  apply items_all_impl. intros v. apply inR_impl. intros l0 H0. left. exact H0.
Qed.

Lemma RN_lt : forall R st0 st l, rinv R st0 st -> RN R (length st0) (length st) l -> (l < length st)%nat.
Proof.
  intros R st0 st l H [Hl|Hl]; [|lia]. pose proof (r_bound _ _ _ H l Hl). pose proof (r_len _ _ _ H). lia.
Qed.

Lemma r_items_of : forall R st0 st v,
  rinv R st0 st -> inR (RN R (length st0) (length st)) v -> items_inR (RN R (length st0) (length st)) (items_of st v).
Proof.
  intros R st0 st v H Hv. destruct v as [| | |l]; simpl; try constructor.
  destruct (get st l) as [o|] eqn:Hg; [|constructor]. apply (r_closed _ _ _ H l o Hv Hg).
Qed.

Lemma r_field : forall R st0 st v k,
  rinv R st0 st -> inR (RN R (length st0) (length st)) v -> inR (RN R (length st0) (length st)) (field st v k).
Proof. intros. apply (field_all (inR _)); [apply r_items_of; auto|exact I]. Qed.

Lemma r_elems : forall R st0 st v,
  rinv R st0 st -> inR (RN R (length st0) (length st)) v -> Forall (inR (RN R (length st0) (length st))) (elems st v).
Proof. intros. apply elems_all, r_items_of; auto. Qed.

Lemma nth_mod_P : forall (A : Type) (P : A -> Prop) (l : list A) n d, Forall P l -> P d -> P (nth_mod l n d).
Proof.
  intros A P l n d Hl Hd. unfold nth_mod. destruct l as [|x t]; [exact Hd|].
  rewrite Forall_forall in Hl. destruct (nth_in_or_default (Nat.modulo n (length (x :: t))) (x :: t) d) as [Hin|He].
  - apply Hl. exact Hin.
  - rewrite He. exact Hd.
Qed.

Lemma r_lang : forall R st0 st s li,
  rinv R st0 st -> inR (RN R (length st0) (length st)) s ->
  inR (RN R (length st0) (length st)) (snd (nth_mod (set_langs st s) li (VNone, VNone))).
Proof.
  intros R st0 st s li H Hs.
  apply (nth_mod_P _ (fun kv => inR (RN R (length st0) (length st)) (fst kv) /\ inR (RN R (length st0) (length st)) (snd kv)));
    [|exact (conj I I)].
  unfold set_langs. apply r_items_of; auto. apply r_field; auto.
Qed.

Lemma r_the_cap : forall R st0 st s li ci,
  rinv R st0 st -> inR (RN R (length st0) (length st)) s -> inR (RN R (length st0) (length st)) (the_cap st s li ci).
Proof. intros. unfold the_cap. apply nth_mod_P; [|exact I]. apply r_elems; auto. apply r_lang; auto. Qed.

Lemma rinv_set_items : forall R st0 st v its,
  rinv R st0 st -> inR (RN R (length st0) (length st)) v -> items_inR (RN R (length st0) (length st)) its ->
  rinv R st0 (set_items st v its).
Proof.
  intros R st0 st v its H Hv Hits. unfold set_items. destruct v as [| | |l]; auto.
  destruct (get st l) as [o|] eqn:Hg; auto. simpl in Hv. constructor.
  - intros l' Hl' Hn. rewrite get_upd_other; [apply (r_frame _ _ _ H); auto|].
    intros ->. destruct Hv as [Hv|Hv]; [contradiction|lia].
  - rewrite length_upd. apply (r_len _ _ _ H).
  - rewrite length_upd. intros l' o' Hl' Hg'. destruct (Nat.eq_dec l l') as [->|Hne].
    + rewrite get_upd_same in Hg' by (eapply get_some_lt; eauto). inversion Hg'; subst. exact Hits.
    + rewrite get_upd_other in Hg' by assumption. apply (r_closed _ _ _ H l' o' Hl' Hg').
  - apply (r_bound _ _ _ H).
Qed.

Lemma rinv_set_field : forall R st0 st v k x,
  rinv R st0 st -> inR (RN R (length st0) (length st)) v -> inR (RN R (length st0) (length st)) k ->
  inR (RN R (length st0) (length st)) x -> rinv R st0 (set_field st v k x).
Proof.
  intros. unfold set_field. apply rinv_set_items; auto. apply (assoc_set_all (inR _)); auto. apply r_items_of; auto.
Qed.

Lemma rinv_append_item : forall R st0 st v x,
  rinv R st0 st -> inR (RN R (length st0) (length st)) v -> inR (RN R (length st0) (length st)) x ->
  rinv R st0 (append_item st v x).
Proof.
  intros. unfold append_item. apply rinv_set_items; auto. unfold items_inR. apply Forall_app.
  split; [apply r_items_of; auto|]. constructor; [split; [exact I|assumption]|constructor].
Qed.

(* an allocation-only extension (build) keeps the region invariant; what it allocated belongs to the region *)
Lemma rinv_ext : forall R st0 st st',
  rinv R st0 st -> inv st st' -> rinv R st0 st'.
Proof.
  intros R st0 st st' H [Ha Hl Hc]. pose proof (r_len _ _ _ H) as L0. constructor.
  - intros l Hl' Hn. rewrite Ha by lia. apply (r_frame _ _ _ H); auto.
  - lia.
  - intros l o HR Hg. destruct (Nat.lt_ge_cases l (length st)) as [Hlt|Hge].
    + rewrite Ha in Hg by assumption.
      assert (HR' : RN R (length st0) (length st) l). { destruct HR as [HR|HR]; [left; exact HR|right; lia]. }
      generalize (r_closed _ _ _ H l o HR' Hg). apply items_all_impl. intros v Hv. eapply inR_RN_mono; eauto.
    + generalize (Hc l o Hge Hg). apply items_all_impl. intros v. apply inr_inR. intros l0 Hl0. right. lia.
  - apply (r_bound _ _ _ H).
Qed.

Lemma inr_RN : forall R n0 n n' v, inr n n' v -> (n0 <= n)%nat -> inR (RN R n0 n') v.
Proof. intros R n0 n n' [] H Hn; simpl in *; auto. right. lia. Qed.

Lemma build_rinv : forall c R st t st1 x,
  fix2 c = true -> rinv R st st -> build (dflt c) t st = (st1, x) ->
  rinv R st st1 /\ (length st <= length st1)%nat /\ inR (RN R (length st) (length st1)) x.
Proof.
  intros c R st t st1 x Hc H0 Eb. destruct (build_inv c _ st st st1 x Hc (inv_refl st) Eb) as (I1 & L1 & V1).
  split; [exact (rinv_ext R st st st1 H0 I1)|]. split; [exact L1|]. eapply inr_RN; eauto.
Qed.

Lemma vkey_scalar : forall R t, inR R (vkey_of_tree t).
Proof. intros R []; exact I. Qed.

(* an edit of the set rooted at s (region R) assigns only inside R and to what it allocates itself *)
Theorem do_edit_rinv : forall c R st s e,
  fix2 c = true -> closedR st R -> boundedR (length st) R -> inR R s -> rinv R st (do_edit c st s e).
Proof.
  intros c R st s e Hc Hcl Hb Hs.
  pose proof (rinv_refl R st Hcl Hb) as H0.
  assert (Hs0 : inR (RN R (length st) (length st)) s).
  { destruct s; simpl in *; auto. left. exact Hs. }
  destruct e as [sel rules|sel k v|li ci f v|li ci node|li ci k v|li ci lay|li ci ni f v|li ci|li ci ni k v]; cbn [do_edit].
  - destruct (build (dflt c) rules st) as [st1 r] eqn:Eb.
    destruct (build_rinv c R st _ st1 r Hc H0 Eb) as (H1 & L1 & V1).
    apply rinv_set_field; auto.
    + apply r_field; auto. eapply inR_RN_mono; eauto.
    + apply vkey_scalar.
  - destruct (field st (field st s (VInt 2)) (vkey_of_tree sel)) as [| | |l] eqn:Ed; auto.
    apply rinv_set_field; auto; try apply vkey_scalar.
    rewrite <- Ed. apply r_field; auto. apply r_field; auto.
  - apply rinv_set_field; auto; try exact I; try apply vkey_scalar. apply r_the_cap; auto.
  - destruct (build (dflt c) node st) as [st1 n] eqn:Eb.
    destruct (build_rinv c R st _ st1 n Hc H0 Eb) as (H1 & L1 & V1).
    apply rinv_append_item; auto. apply r_field; auto. apply r_the_cap; auto. eapply inR_RN_mono; eauto.
  - apply rinv_set_field; auto; try apply vkey_scalar. apply r_field; auto. apply r_the_cap; auto.
  - destruct (build (dflt c) lay st) as [st1 l] eqn:Eb.
    destruct (build_rinv c R st _ st1 l Hc H0 Eb) as (H1 & L1 & V1).
    apply rinv_set_field; auto; try exact I. apply r_the_cap; auto. eapply inR_RN_mono; eauto.
  - destruct (build (dflt c) v st) as [st1 x] eqn:Eb.
    destruct (build_rinv c R st _ st1 x Hc H0 Eb) as (H1 & L1 & V1).
    apply rinv_set_field; auto; try exact I. eapply inR_RN_mono; [|exact L1]. apply nth_mod_P; [|exact I].
    apply r_elems; auto. apply r_field; auto. apply r_the_cap; auto.
  - apply rinv_set_items; auto; [apply r_lang; auto|]. apply (remove_nth_elem_all (inR _)). apply r_items_of; auto. apply r_lang; auto.
  - set (n := nth_mod (elems st (field st (the_cap st s li ci) (VInt 3))) ni VNone).
    assert (Hn : inR (RN R (length st) (length st)) n).
    { apply nth_mod_P; [|exact I]. apply r_elems; auto. apply r_field; auto. apply r_the_cap; auto. }
    destruct (field st n (VInt 2)) as [| | |l] eqn:Ed; auto.
    apply rinv_set_field; auto; try apply vkey_scalar. rewrite <- Ed. apply r_field; auto.
Qed.

(* ---- the world invariant: every caption set owns a closed region, regions are pairwise disjoint --------------------- *)
Definition disjointRs (Rs : list (loc -> Prop)) : Prop :=
  forall i j Ri Rj l, i <> j -> nth_error Rs i = Some Ri -> nth_error Rs j = Some Rj -> Ri l -> Rj l -> False.

Record regions_ok (st : store) (sets : list val) (Rs : list (loc -> Prop)) : Prop := mkRegs {
  g_roots : Forall2 (fun s R => inR R s) sets Rs;
  g_closed : Forall (closedR st) Rs;
  g_bound : Forall (boundedR (length st)) Rs;
  g_disj : disjointRs Rs
}.

Definition isolated (w : world) : Prop := exists Rs, regions_ok (w_st w) (w_sets w) Rs.

Lemma isolated_world0 : isolated world0.
Proof.
  exists []. constructor; try constructor.
  intros i j Ri Rj l _ H. destruct i; discriminate.
Qed.

Lemma Forall2_nth : forall (A B : Type) (P : A -> B -> Prop) la lb i a,
  Forall2 P la lb -> nth_error la i = Some a -> exists b, nth_error lb i = Some b /\ P a b.
Proof.
  intros A B P la lb i a H. revert i. induction H as [|x y ta tb Hxy Ht IH]; intros i Hi.
  - destruct i; discriminate.
  - destruct i as [|i]; simpl in *.
    + inversion Hi; subst. exists y. auto.
    + apply IH. exact Hi.
Qed.

Lemma nth_error_snoc : forall (A : Type) (l : list A) x k y,
  nth_error (l ++ [x]) k = Some y -> nth_error l k = Some y \/ (k = length l /\ y = x).
Proof.
  intros A l x k y H. destruct (Nat.lt_ge_cases k (length l)) as [Hk|Hk].
  - rewrite nth_error_app1 in H by assumption. left. exact H.
  - rewrite nth_error_app2 in H by assumption. right.
    destruct (k - length l)%nat as [|[|m]] eqn:E; simpl in H; try discriminate. inversion H. split; [lia|reflexivity].
Qed.

Lemma regions_ok_nth : forall st sets Rs k sk,
  regions_ok st sets Rs -> nth_error sets k = Some sk ->
  exists R, nth_error Rs k = Some R /\ inR R sk /\ closedR st R /\ boundedR (length st) R.
Proof.
  intros st sets Rs k sk [Hr Hc Hb _] Hk. destruct (Forall2_nth _ _ _ _ _ _ _ Hr Hk) as (R & HR & Hs).
  exists R. split; [exact HR|]. split; [exact Hs|]. split; eapply nth_error_Forall; eauto.
Qed.

(* allocation-only steps (build, read, write): every old region keeps its objects *)
Lemma regions_ext : forall st st' sets Rs,
  regions_ok st sets Rs -> inv st st' -> regions_ok st' sets Rs.
Proof.
  intros st st' sets Rs [Hr Hc Hb Hd] [Ha Hl _]. constructor; auto.
  - rewrite Forall_forall in *. intros R HR l o Hl' Hg.
    rewrite Ha in Hg by (apply (Hb R HR); exact Hl'). apply (Hc R HR l o Hl' Hg).
  - eapply Forall_impl; [|exact Hb]. intros R HbR l HR. specialize (HbR l HR). lia.
Qed.

Lemma regions_new : forall st st' sets Rs s,
  regions_ok st sets Rs -> inv st st' -> inr (length st) (length st') s ->
  regions_ok st' (sets ++ [s]) (Rs ++ [fun l => (length st <= l < length st')%nat]).
Proof.
  intros st st' sets Rs s Hreg Hinv Hs.
  destruct (regions_ext st st' sets Rs Hreg Hinv) as [Hr Hc Hb Hd].
  destruct Hreg as [_ _ Hb0 _].
  constructor.
  - apply Forall2_app; [exact Hr|]. constructor; [|constructor]. destruct s; simpl in *; auto.
  - apply Forall_app. split; [exact Hc|]. constructor; [exact (inv_closedR _ _ Hinv)|constructor].
  - apply Forall_app. split; [exact Hb|]. constructor; [|constructor]. intros l Hl. lia.
  - intros i j Ri Rj l Hij Hi Hj HRi HRj. apply nth_error_snoc in Hi, Hj.
    destruct Hi as [Hi|[-> ->]], Hj as [Hj|[-> ->]].
    + eapply Hd; eauto.
    + pose proof (nth_error_Forall _ _ _ _ _ Hb0 Hi l HRi). lia.
    + pose proof (nth_error_Forall _ _ _ _ _ Hb0 Hj l HRj). lia.
    + congruence.
Qed.

Fixpoint replace_nth {A : Type} (n : nat) (x : A) (l : list A) : list A :=
  match l, n with
  | [], _ => []
  | _ :: t, O => x :: t
  | y :: t, S m => y :: replace_nth m x t
  end.

Lemma nth_error_replace : forall (A : Type) n (x : A) l k y,
  nth_error (replace_nth n x l) k = Some y -> (k = n /\ y = x) \/ (k <> n /\ nth_error l k = Some y).
Proof.
  intros A n x l. revert n. induction l as [|a l IH]; intros [|n] [|k] y H; simpl in H; try discriminate.
  - left. split; congruence.
  - right. split; [discriminate|exact H].
  - right. split; [discriminate|exact H].
  - destruct (IH n k y H) as [[-> ->]|[Hne Hk]]; [left; auto|right; split; [congruence|exact Hk]].
Qed.

Lemma Forall_replace_ix : forall (A : Type) (P : A -> Prop) n x l,
  P x -> (forall k y, k <> n -> nth_error l k = Some y -> P y) -> Forall P (replace_nth n x l).
Proof.
  intros A P n x l Hx Hl. apply Forall_forall. intros y Hin. apply In_nth_error in Hin. destruct Hin as [k Hk].
  apply nth_error_replace in Hk. destruct Hk as [[-> ->]|[Hne Hk]]; eauto.
Qed.

Lemma Forall_replace : forall (A : Type) (P : A -> Prop) n x l, Forall P l -> P x -> Forall P (replace_nth n x l).
Proof.
  intros A P n x l H Hx. revert n. induction H; intros [|n]; simpl; auto.
Qed.

Lemma Forall2_replace_r : forall (A B : Type) (P : A -> B -> Prop) la lb n a y,
  Forall2 P la lb -> nth_error la n = Some a -> P a y -> Forall2 P la (replace_nth n y lb).
Proof.
  intros A B P la lb n a y H. revert n. induction H; intros [|n] Hn Hp; simpl in *; try discriminate.
  - inversion Hn; subst. constructor; auto.
  - constructor; auto.
Qed.

(* an edit of set j: its region grows by what the edit allocated, every other region keeps its objects *)
Lemma regions_edit : forall c st sets Rs j s e,
  fix2 c = true -> regions_ok st sets Rs -> nth_error sets j = Some s ->
  exists R, nth_error Rs j = Some R /\
    (forall k Rk l, k <> j -> nth_error Rs k = Some Rk -> Rk l -> get (do_edit c st s e) l = get st l) /\
    regions_ok (do_edit c st s e) sets
               (replace_nth j (RN R (length st) (length (do_edit c st s e))) Rs).
Proof.
  intros c st sets Rs j s e Hc Hreg Hj.
  destruct (regions_ok_nth _ _ _ _ _ Hreg Hj) as (R & HR & HsR & HcR & HbR). destruct Hreg as [Hr Hcl Hb Hd].
  exists R. split; [exact HR|].
  pose proof (do_edit_rinv c R st s e Hc HcR HbR HsR) as Hri.
  set (st' := do_edit c st s e) in *.
  assert (Hframe : forall k Rk l, k <> j -> nth_error Rs k = Some Rk -> Rk l -> get st' l = get st l).
  { intros k Rk l Hk HRk Hl. apply (r_frame _ _ _ Hri).
    - apply (nth_error_Forall _ _ _ _ _ Hb HRk l Hl).
    - intros HRl. eapply (Hd k j Rk R l); eauto. }
  split; [exact Hframe|]. constructor.
  - eapply Forall2_replace_r; eauto. destruct s; simpl in *; auto. left. exact HsR.
  - apply Forall_replace_ix; [apply (r_closed _ _ _ Hri)|]. intros k Rk Hne Hk l o Hl Hg.
    rewrite (Hframe k Rk l Hne Hk Hl) in Hg. apply (nth_error_Forall _ _ _ _ _ Hcl Hk l o Hl Hg).
  - apply Forall_replace_ix; [intros l Hl; eapply RN_lt; eauto|]. intros k Rk Hne Hk l Hl.
    pose proof (nth_error_Forall _ _ _ _ _ Hb Hk l Hl). pose proof (r_len _ _ _ Hri). lia.
  - intros a b Ra Rb l Hab Ha Hb' HRa HRb. apply nth_error_replace in Ha, Hb'.
    destruct Ha as [[-> ->]|[Haj Ha]], Hb' as [[-> ->]|[Hbj Hb']]; try congruence.
    + destruct HRa as [HRa|HRa]; [eapply (Hd j b R Rb l); eauto|]. pose proof (nth_error_Forall _ _ _ _ _ Hb Hb' l HRb). lia.
    + destruct HRb as [HRb|HRb]; [eapply (Hd a j Ra R l); eauto|]. pose proof (nth_error_Forall _ _ _ _ _ Hb Ha l HRa). lia.
    + eapply (Hd a b); eauto.
Qed.

(* ---- one step of a history, any operation (after the repairs) ---------------------------------------------------------- *)
Definition repaired (c : cfg) : Prop := fix2 c = true /\ fix3 c = true.

Definition edits_set (o : op) (k : nat) : Prop := match o with OEdit j _ => j = k | _ => False end.

Lemma snap_regions_frame : forall st st' sets Rs k sk,
  regions_ok st sets Rs -> nth_error sets k = Some sk ->
  (forall R l, nth_error Rs k = Some R -> R l -> get st' l = get st l) -> forall n, snap n st' sk = snap n st sk.
Proof.
  intros st st' sets Rs k sk Hreg Hk Hf n. destruct (regions_ok_nth _ _ _ _ _ Hreg Hk) as (R & HR & Hs & Hc & _).
  apply (snap_region st st' R); auto. intros l. apply Hf. exact HR.
Qed.

Lemma regions_inv_frame : forall st st' sets Rs k sk,
  regions_ok st sets Rs -> inv st st' -> nth_error sets k = Some sk -> forall n, snap n st' sk = snap n st sk.
Proof.
  intros st st' sets Rs k sk Hreg I1 Hk. apply (snap_regions_frame _ _ _ _ _ _ Hreg Hk). intros R l HR Hl.
  apply (inv_agree _ _ I1). apply (nth_error_Forall _ _ _ _ _ (g_bound _ _ _ Hreg) HR l Hl).
Qed.

Theorem step_isolated : forall c w o,
  repaired c -> isolated w ->
  let w' := fst (step c w o) in
  isolated w' /\
  (forall k sk, nth_error (w_sets w) k = Some sk -> ~ edits_set o k ->
                nth_error (w_sets w') k = Some sk /\ forall n, snap n (w_st w') sk = snap n (w_st w) sk).
Proof.
  intros c w o [Hc2 Hc3] [Rs Hreg]. cbv zeta. destruct o as [t|rid rk t|wid k wo si|si e]; unfold step.
  - (* build *)
    destruct (build (dflt c) t (w_st w)) as [st1 s] eqn:Eb. cbn [fst w_st w_sets].
    destruct (build_inv c t (w_st w) (w_st w) st1 s Hc2 (inv_refl _) Eb) as (I1 & L1 & V1).
    split; [eexists; apply regions_new; eauto|].
    intros k sk Hk _. split; [rewrite nth_error_app1; auto; apply nth_error_Some; congruence|].
    eapply regions_inv_frame; eauto.
  - (* read *)
    set (ri := match lookup rid (w_readers w) with Some r => r | None => rinst0 end).
    destruct (read c rk ri t (w_st w)) as [[st1 ri1] s] eqn:Er. cbn [fst w_st w_sets].
    destruct (read_inv c rk ri t (w_st w) st1 ri1 s Hc2 Hc3 Er) as (I1 & V1).
    split; [eexists; apply regions_new; eauto|].
    intros k sk Hk _. split; [rewrite nth_error_app1; auto; apply nth_error_Some; congruence|].
    eapply regions_inv_frame; eauto.
  - (* write *)
    destruct (nth_error (w_sets w) si) as [s|] eqn:Es; cbn [fst w_st w_sets].
    + set (wi := match lookup wid (w_writers w) with Some x => x | None => winst0 end).
      pose proof (write_inv c k wo wi (w_st w) s) as I1.
      split; [eexists; eapply regions_ext; eauto|].
      intros k0 sk Hk _. split; [exact Hk|].
      eapply regions_inv_frame; eauto.
    + split; [exists Rs; exact Hreg|]. intros k0 sk Hk _. split; [exact Hk|reflexivity].
  - (* edit *)
    destruct (nth_error (w_sets w) si) as [s|] eqn:Es; cbn [fst w_st w_sets].
    + destruct (regions_edit c (w_st w) (w_sets w) Rs si s e Hc2 Hreg Es) as (R & HR & Hframe & Hreg').
      split; [eexists; exact Hreg'|].
      intros k sk Hk Hne. split; [exact Hk|]. simpl in Hne.
      apply (snap_regions_frame _ _ _ _ _ _ Hreg Hk). intros Rk l HRk Hl. apply (Hframe k Rk l); auto.
    + split; [exists Rs; exact Hreg|]. intros k0 sk Hk _. split; [exact Hk|reflexivity].
Qed.

Theorem history_isolated : forall c ops w, repaired c -> isolated w -> isolated (run_world c w ops).
Proof.
  intros c ops. induction ops as [|o t IH]; intros w Hc Hw; simpl; auto.
  apply IH; auto. apply (step_isolated c w o Hc Hw).
Qed.

(* C10: an edit of set j never changes set k <> j, in any world reachable by any history *)
Theorem edits_isolated : forall c ops j k e sk,
  repaired c -> j <> k ->
  let w := run_world c world0 ops in
  nth_error (w_sets w) k = Some sk ->
  forall n, snap n (w_st (fst (step c w (OEdit j e)))) sk = snap n (w_st w) sk.
Proof.
  intros c ops j k e sk Hc Hjk w Hk n.
  assert (Hw : isolated w) by (apply history_isolated; auto; apply isolated_world0).
  destruct (step_isolated c w (OEdit j e) Hc Hw) as [_ H].
  apply (H k sk Hk). simpl. exact Hjk.
Qed.

(* C10: reads, builds and writes never change a set that exists already *)
Theorem creation_and_writes_preserve_sets : forall c ops o k sk,
  repaired c -> (match o with OEdit _ _ => False | _ => True end) ->
  let w := run_world c world0 ops in
  nth_error (w_sets w) k = Some sk ->
  forall n, snap n (w_st (fst (step c w o))) sk = snap n (w_st w) sk.
Proof.
  intros c ops o k sk Hc Ho w Hk n.
  assert (Hw : isolated w) by (apply history_isolated; auto; apply isolated_world0).
  destruct (step_isolated c w o Hc Hw) as [_ H].
  apply (H k sk Hk). destruct o; simpl; auto.
Qed.

(* C10: the mutable footprints of two different sets are disjoint (the model's aliasing observer says "no") *)
Lemma reach_fold_region : forall st (R : loc -> Prop) f its a,
  (forall v acc, inR R v -> Forall R acc -> Forall R (reach f st v acc)) ->
  items_inR R its -> Forall R a ->
  Forall R (fold_left (fun a kv => reach f st (snd kv) (reach f st (fst kv) a)) its a).
Proof.
  intros st R f its a IH Hi. revert a. unfold items_inR in Hi.
  induction its as [|[k x] t IHt]; intros a Ha; simpl; auto.
  inversion Hi as [|? ? [A B] Ht]; subst. cbn [fst snd] in *.
  apply IHt; auto.
Qed.

Lemma reach_in_region : forall st R fuel v acc,
  closedR st R -> inR R v -> Forall R acc -> Forall R (reach fuel st v acc).
Proof.
  intros st R fuel. induction fuel as [|f IH]; intros v acc Hc Hv Hacc.
  - destruct v as [| | |l]; simpl; auto. destruct (mem_loc l acc); auto.
  - destruct v as [| | |l]; simpl; auto. destruct (mem_loc l acc); auto.
    simpl in Hv.
    assert (Hi : items_inR R (items_of st (VLoc l))).
    { simpl. destruct (get st l) as [o|] eqn:Hg; [apply (Hc l o Hv Hg)|constructor]. }
    apply reach_fold_region; auto.
Qed.

Lemma mem_loc_In : forall l ls, mem_loc l ls = true -> In l ls.
Proof.
  intros l ls. induction ls as [|x t IH]; simpl; [discriminate|].
  intros H. apply orb_true_iff in H. destruct H as [H|H]; [left; apply Nat.eqb_eq in H; auto|right; auto].
Qed.

Theorem sets_disjoint : forall c ops i j si sj n,
  repaired c -> i <> j ->
  let w := run_world c world0 ops in
  nth_error (w_sets w) i = Some si -> nth_error (w_sets w) j = Some sj ->
  shares n (w_st w) si sj = false.
Proof.
  intros c ops i j si sj n Hc Hij w Hi Hj.
  assert (Hw : isolated w) by (apply history_isolated; auto; apply isolated_world0).
  destruct Hw as [Rs Hreg].
  destruct (regions_ok_nth _ _ _ _ _ Hreg Hi) as (Ri & HRi & Hsi & Hci & _).
  destruct (regions_ok_nth _ _ _ _ _ Hreg Hj) as (Rj & HRj & Hsj & Hcj & _).
  unfold shares. destruct (existsb _ _) eqn:E; auto. exfalso.
  apply existsb_exists in E. destruct E as (l & Hin & Hm). apply mem_loc_In in Hm.
  pose proof (reach_in_region (w_st w) Ri n si [] Hci Hsi (Forall_nil _)) as Fi.
  pose proof (reach_in_region (w_st w) Rj n sj [] Hcj Hsj (Forall_nil _)) as Fj.
  rewrite Forall_forall in Fi, Fj. eapply (g_disj _ _ _ Hreg i j Ri Rj l); eauto.
Qed.

(* ---- what a read returns is a function of (reader kind, document) ------------------------------------------------------ *)
(* with fix3 the reader object's state is not consulted at all: fresh object = reused object, exactly *)
Theorem read_reader_independent : forall c rk ri1 ri2 t st,
  fix3 c = true -> read c rk ri1 t st = read c rk ri2 t st.
Proof. intros c rk ri1 ri2 t st H. unfold read. rewrite H. reflexivity. Qed.

(* the snapshot of a freshly built structure: the construction tree itself (defaults -> {}), cut at depth n *)
Fixpoint clean_trunc (n : nat) (t : tree) : tree :=
  match t with
  | TNode k items =>
      match n with
      | O => TCut
      | S m =>
          if (k =? KDefault)%Z then TNode KDict []
          else TNode k ((fix go (l : list (tree * tree)) : list (tree * tree) :=
                           match l with [] => [] | (a, b) :: r => (clean_trunc m a, clean_trunc m b) :: go r end) items)
      end
  | TCut => TNone
  | x => x
  end.

Definition ct_items (m : nat) (l : list (tree * tree)) : list (tree * tree) :=
  (fix go (l : list (tree * tree)) : list (tree * tree) :=
     match l with [] => [] | (a, b) :: r => (clean_trunc m a, clean_trunc m b) :: go r end) l.

Lemma ct_items_cons : forall m a b r, ct_items m ((a, b) :: r) = (clean_trunc m a, clean_trunc m b) :: ct_items m r.
Proof. reflexivity. Qed.

Lemma clean_trunc_node : forall m k items,
  clean_trunc (S m) (TNode k items) = if (k =? KDefault)%Z then TNode KDict [] else TNode k (ct_items m items).
Proof. reflexivity. Qed.

Definition ext (st st' : store) : Prop := agree_below (length st) st st' /\ (length st <= length st')%nat.

Lemma ext_refl : forall st, ext st st.
Proof. intros st. split; [intros l _; reflexivity|lia]. Qed.

Lemma ext_trans : forall a b c, ext a b -> ext b c -> ext a c.
Proof.
  intros a b c [A1 L1] [A2 L2]. split; [|lia]. intros l Hl. rewrite A2 by lia. apply A1. exact Hl.
Qed.

Lemma inv_ext : forall st0 st, inv st0 st -> ext st0 st.
Proof. intros st0 st [A L _]. split; assumption. Qed.

Lemma ext_alloc : forall st o, ext st (st ++ [o]).
Proof. intros st o. split; [intros l Hl; apply get_app_l; exact Hl|rewrite app_length; lia]. Qed.

(* a value built in st1 keeps its snapshot when the store is extended afterwards *)
Lemma snap_built_stable : forall st0 st1 st2 v n,
  inv st0 st1 -> ext st1 st2 -> inr (length st0) (length st1) v -> snap n st2 v = snap n st1 v.
Proof.
  intros st0 st1 st2 v n I1 [A2 L2] Hv.
  apply (snap_region st1 st2 (fun l => (length st0 <= l < length st1)%nat)).
  - exact (inv_closedR _ _ I1).
  - intros l Hl. apply A2. lia.
  - destruct v; simpl in *; auto.
Qed.

Lemma snap_new_obj : forall st k its st' v sc n,
  new_obj st k its = (st', v) -> ext st' sc ->
  snap (S n) sc v = TNode k (map (fun kv => (snap n sc (fst kv), snap n sc (snd kv))) its).
Proof.
  intros st k its st' v sc n H [A _]. unfold new_obj, alloc in H. inversion H; subst.
  cbn [snap]. rewrite A by (rewrite app_length; simpl; lia). rewrite get_app_new. reflexivity.
Qed.

Lemma build_ext : forall c t st st' v, fix2 c = true -> build (dflt c) t st = (st', v) -> ext st st'.
Proof.
  intros c t st st' v Hc H. destruct (build_inv c t st st st' v Hc (inv_refl _) H) as (I & _ & _).
  apply inv_ext. exact I.
Qed.

(* the snapshot of a built value is the construction tree, in the store the build returns and in every extension of
   it: stated over the extensions, the induction needs no separate stability argument for the items built earlier *)
Lemma snap_build_ext : forall c t st st' v n sc,
  fix2 c = true -> build (dflt c) t st = (st', v) -> ext st' sc -> snap n sc v = clean_trunc n t.
Proof.
  intros c t st st' v n sc Hc. revert st st' v n sc.
  induction t as [z|s| | |k items IH] using tree_ind2; intros st st' v n sc H X;
    try (simpl in H; inversion H; subst; destruct n; reflexivity).
  rewrite build_node in H. destruct n as [|n].
  { destruct (k =? KDefault)%Z.
    - unfold dflt in H. rewrite Hc in H. unfold new_obj, alloc in H. inversion H; subst. reflexivity.
    - destruct (build_go (dflt c) items st) as [st1 its]. unfold new_obj, alloc in H. inversion H; subst. reflexivity. }
  rewrite clean_trunc_node. destruct (k =? KDefault)%Z.
  - unfold dflt in H. rewrite Hc in H. rewrite (snap_new_obj _ _ _ _ _ _ n H X). reflexivity.
  - assert (Hgo : forall sa sb its, build_go (dflt c) items sa = (sb, its) ->
                  ext sa sb /\
                  forall sc, ext sb sc ->
                    map (fun kv => (snap n sc (fst kv), snap n sc (snd kv))) its = ct_items n items).
    { clear - IH Hc. induction IH as [|[a b] r [IHa IHb] _ IHr]; intros sa sb its Hb.
      - simpl in Hb. inversion Hb; subst. split; [apply ext_refl|]. intros; reflexivity.
      - cbn [build_go] in Hb. cbn [fst snd] in IHa, IHb.
        destruct (build (dflt c) a sa) as [s1 a'] eqn:Ea.
        destruct (build (dflt c) b s1) as [s2 b'] eqn:Eb.
        destruct (build_go (dflt c) r s2) as [s3 r'] eqn:Er.
        inversion Hb; subst. clear Hb.
        pose proof (build_ext c _ _ _ _ Hc Ea) as X1. pose proof (build_ext c _ _ _ _ Hc Eb) as X2.
        destruct (IHr s2 sb r' Er) as (X3 & Hr).
        split; [eapply ext_trans; [exact X1|eapply ext_trans; eauto]|].
        intros sc Xc. cbn [map fst snd]. rewrite ct_items_cons. f_equal; [|apply Hr; exact Xc]. f_equal.
        + apply (IHa _ _ _ n sc Ea). eapply ext_trans; [exact X2|eapply ext_trans; eauto].
        + apply (IHb _ _ _ n sc Eb). eapply ext_trans; eauto. }
    destruct (build_go (dflt c) items st) as [st1 its] eqn:Eg.
    destruct (Hgo st st1 its Eg) as (X1 & Hits).
    rewrite (snap_new_obj _ _ _ _ _ _ n H X). f_equal. apply Hits.
    eapply ext_trans; [|exact X]. unfold new_obj, alloc in H. inversion H; subst. apply ext_alloc.
Qed.

Theorem snap_build : forall c t st st' v n,
  fix2 c = true -> build (dflt c) t st = (st', v) -> snap n st' v = clean_trunc n t.
Proof. intros c t st st' v n Hc H. exact (snap_build_ext c t st st' v n st' Hc H (ext_refl st')). Qed.

(* MODEL-ONLY: for the five build-based reader models the snapshot of the result (up to the depth to which the sharing
   pass compares snapshots) is clean_trunc of the given result tree with the sharing markers resolved: it does not
   depend on the store nor on the reader object *)
Theorem read_result_function_of_document_partial : forall c rk ri t st st' ri' s n,
  fix2 c = true -> (rk =? R_SCC)%Z = false -> (n <= S FUEL)%nat -> read c rk ri t st = (st', ri', s) ->
  snap n st' s = clean_trunc n (unshare (mark_defaults rk t)).
Proof.
  intros c rk ri t st st' ri' s n Hc Hk Hn H. unfold read in H. rewrite Hk in H. cbv zeta in H.
  destruct (build (dflt c) (unshare (mark_defaults rk t)) st) as [st1 s1] eqn:Eb.
  destruct (build_inv c _ st st st1 s1 Hc (inv_refl st) Eb) as (I1 & L1 & V1).
  destruct (share_set_ok st st1 s1 (mark_defaults rk t) I1 V1) as (_ & _ & S2).
  inversion H; subst. rewrite S2 by exact Hn. eapply snap_build; eauto.
Qed.

(* ---- every operation keeps the store well formed (needed to chain the write theorems through ANY history) ---------- *)
Lemma items_of_below : forall st v, wf st -> items_below (length st) (items_of st v).
Proof.
  intros st v Hwf. destruct v as [| | |l]; simpl; try constructor.
  destruct (get st l) as [o|] eqn:Hg; [apply (Hwf l o Hg)|constructor].
Qed.

Lemma field_below : forall st v k, wf st -> below (length st) (field st v k).
Proof. intros. apply (field_all (below _)); [apply items_of_below; auto|exact I]. Qed.

Lemma elems_below : forall st v, wf st -> Forall (below (length st)) (elems st v).
Proof. intros. apply elems_all, items_of_below; auto. Qed.

Lemma the_cap_below : forall st s li ci, wf st -> below (length st) (the_cap st s li ci).
Proof.
  intros st s li ci Hwf. unfold the_cap. apply nth_mod_P; [|exact I]. apply elems_below; auto.
Qed.

Lemma wf_set_items : forall (st0 st : store) v its,
  wf st -> (length st0 <= length st)%nat -> items_below (length st) its ->
  wf (set_items st v its) /\ (length st0 <= length (set_items st v its))%nat.
Proof.
  intros st0 st v its Hwf Hl Hits. rewrite length_set_items. split; [|exact Hl]. unfold set_items.
  destruct v as [| | |l]; auto. destruct (get st l) as [o|] eqn:Hg; auto. intros l' o' Hg'. rewrite length_upd.
  destruct (Nat.eq_dec l l') as [->|Hne].
  - rewrite get_upd_same in Hg' by (eapply get_some_lt; eauto). inversion Hg'; subst. exact Hits.
  - rewrite get_upd_other in Hg' by assumption. apply (Hwf l' o' Hg').
Qed.

Lemma wf_set_field : forall (st0 st : store) v k x,
  wf st -> (length st0 <= length st)%nat -> below (length st) k -> below (length st) x ->
  wf (set_field st v k x) /\ (length st0 <= length (set_field st v k x))%nat.
Proof.
  intros. unfold set_field. apply wf_set_items; auto. apply (assoc_set_all (below _)); auto. apply items_of_below; auto.
Qed.

Lemma vkey_below : forall n t, below n (vkey_of_tree t).
Proof. intros n []; exact I. Qed.

Lemma build_wf : forall c t st st' v,
  fix2 c = true -> wf st -> build (dflt c) t st = (st', v) ->
  wf st' /\ (length st <= length st')%nat /\ below (length st') v.
Proof.
  intros c t st st' v Hc Hwf H.
  destruct (build_inv c t st st st' v Hc (inv_refl _) H) as (I1 & L1 & V1).
  split; [eapply inv_wf; eauto|]. split; [exact L1|]. eapply inr_below; eauto.
Qed.

Theorem do_edit_wf : forall c st s e,
  fix2 c = true -> wf st -> wf (do_edit c st s e) /\ (length st <= length (do_edit c st s e))%nat.
Proof.
  intros c st s e Hc Hwf.
  destruct e as [sel rules|sel k v|li ci f v|li ci node|li ci k v|li ci lay|li ci ni f v|li ci|li ci ni k v]; cbn [do_edit].
  - destruct (build (dflt c) rules st) as [st1 r] eqn:Eb.
    destruct (build_wf c _ _ _ _ Hc Hwf Eb) as (W1 & L1 & V1). apply wf_set_field; auto. apply vkey_below.
  - destruct (field st (field st s (VInt 2)) (vkey_of_tree sel)); try (split; [assumption|lia]).
    apply wf_set_field; auto; apply vkey_below.
  - apply wf_set_field; auto; [exact I|apply vkey_below].
  - destruct (build (dflt c) node st) as [st1 n] eqn:Eb.
    destruct (build_wf c _ _ _ _ Hc Hwf Eb) as (W1 & L1 & V1).
    unfold append_item. apply wf_set_items; auto. unfold items_below. apply Forall_app.
    split; [apply items_of_below; auto|]. constructor; [split; [exact I|exact V1]|constructor].
  - apply wf_set_field; auto; apply vkey_below.
  - destruct (build (dflt c) lay st) as [st1 l] eqn:Eb.
    destruct (build_wf c _ _ _ _ Hc Hwf Eb) as (W1 & L1 & V1). apply wf_set_field; auto. exact I.
  - destruct (build (dflt c) v st) as [st1 x] eqn:Eb.
    destruct (build_wf c _ _ _ _ Hc Hwf Eb) as (W1 & L1 & V1). apply wf_set_field; auto. exact I.
  - apply wf_set_items; auto. apply (remove_nth_elem_all (below _)). apply items_of_below; auto.
  - destruct (field st (nth_mod (elems st (field st (the_cap st s li ci) (VInt 3))) ni VNone) (VInt 2));
      try (split; [assumption|lia]).
    apply wf_set_field; auto; apply vkey_below.
Qed.

Lemma wf_world_new : forall w st' s rs ws,
  wf_world w -> inv (w_st w) st' -> inr (length (w_st w)) (length st') s ->
  wf_world (mkWorld st' (w_sets w ++ [s]) rs ws).
Proof.
  intros w st' s rs ws Hw I1 V1. destruct (inv_step_world w st' rs ws Hw I1) as [[W S] _]. cbn [w_st w_sets] in W, S.
  split; cbn [w_st w_sets]; [exact W|]. apply Forall_app. split; [exact S|]. constructor; [eapply inr_below; eauto|constructor].
Qed.

Theorem step_wf_world : forall c w o, repaired c -> wf_world w -> wf_world (fst (step c w o)).
Proof.
  intros c w o [Hc2 Hc3] [Hwf Hsets]. destruct o as [t|rid rk t|wid k wo si|si e]; unfold step.
  - destruct (build (dflt c) t (w_st w)) as [st1 s] eqn:Eb. cbn [fst].
    destruct (build_inv c t _ _ _ _ Hc2 (inv_refl _) Eb) as (I1 & _ & V1).
    exact (wf_world_new w _ _ _ _ (conj Hwf Hsets) I1 V1).
  - set (ri := match lookup rid (w_readers w) with Some r => r | None => rinst0 end).
    destruct (read c rk ri t (w_st w)) as [[st1 ri1] s] eqn:Er. cbn [fst].
    destruct (read_inv c rk ri t (w_st w) st1 ri1 s Hc2 Hc3 Er) as (I1 & V1).
    exact (wf_world_new w _ _ _ _ (conj Hwf Hsets) I1 V1).
  - apply (step_write_preserves c w wid k wo si (conj Hwf Hsets)).
  - destruct (nth_error (w_sets w) si) as [s|]; cbn [fst]; [|split; assumption].
    destruct (do_edit_wf c (w_st w) s e Hc2 Hwf) as [W1 L1]. split; cbn [w_st w_sets]; [exact W1|].
    eapply Forall_impl; [|exact Hsets]. intros v Hv. eapply below_mono; eauto.
Qed.

Theorem history_wf_world : forall c ops w, repaired c -> wf_world w -> wf_world (run_world c w ops).
Proof.
  intros c ops. induction ops as [|o t IH]; intros w Hc Hw; simpl; auto. apply IH; auto. apply step_wf_world; auto.
Qed.

(* C09 through ANY history: after arbitrary reads, builds, edits and writes, a write changes no set *)
Theorem write_after_any_history_preserves : forall c ops wid k o si,
  repaired c ->
  let w := run_world c world0 ops in
  let w' := fst (step c w (OWrite wid k o si)) in
  w_sets w' = w_sets w /\ forall fuel, map (snap fuel (w_st w')) (w_sets w) = map (snap fuel (w_st w)) (w_sets w).
Proof.
  intros c ops wid k o si Hc w w'.
  assert (Hw : wf_world w) by (apply history_wf_world; auto; apply wf_world0).
  destruct (step_write_preserves c w wid k o si Hw) as (_ & S & P). split; [exact S|].
  intros fuel. apply map_ext_in. intros v Hv. apply P. destruct Hw as [_ Hs]. rewrite Forall_forall in Hs. auto.
Qed.
