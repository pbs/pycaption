(* C20 own output FROM THE TEXT NODES: the writer models of model/OwnWrite.v produce documents that the model
   of detect_format recognises as their own format, for every caption set of the domain of spec/SpecOwnNodes.v.
   SRT and MicroDVD here; WebVTT in DetectVttFacts.v. *)
From Coq Require Import List ZArith Bool Lia ZifyBool.
From PV Require Import lib.Sx lib.Str lib.Result lib.Dec lib.StrSplit model.Generated model.Detect spec.SpecDetect
  spec.SpecOwn model.OwnWrite spec.SpecOwnNodes proofs.DetectFacts proofs.DetectOwnFacts.
Import ListNotations.
Open Scope Z_scope.
#[local] Ltac Zify.zify_post_hook ::= Z.to_euclidean_division_equations.

Lemma free_part : forall ms p s, part p s -> free ms s = true -> free ms p = true.
Proof. intros ms p s [a [b ->]] H. apply (free_mid ms a p b H). Qed.

(* strip, split on '\n', blank lines dropped, joined again: no marker that lacks '\n' can appear *)
Lemma srt_clean_free : forall ms raw, markers_ok ms = true -> free ms raw = true -> free ms (srt_clean raw) = true.
Proof.
  intros ms raw Hok Hraw. apply (free_join ms _ Hok). apply forallb_forall. intros p Hp.
  apply filter_In in Hp. destruct Hp as [Hp _]. apply split_ch_part in Hp.
  apply (free_part ms p raw (part_trans _ _ _ Hp (strip_part raw)) Hraw).
Qed.

Definition time_char (c : Z) : bool :=
  is_digit c || (c =? 58) || (c =? 44) || (c =? 46) || (c =? 32) || (c =? 45) || (c =? 62).

Lemma digits_time : forall s, forallb is_digit s = true -> forallb time_char s = true.
Proof. intros s. apply forallb_weaken. intros c H. unfold time_char. rewrite H. reflexivity. Qed.

Lemma td_seconds_range : forall us, 0 <= td_seconds us < 86400.
Proof. intros us. unfold td_seconds. lia. Qed.
Lemma td_millis_range : forall us, 0 <= td_millis us < 1000.
Proof. intros us. unfold td_millis. lia. Qed.

Lemma srt_timestamp_class : forall us, forallb time_char (srt_timestamp us) = true.
Proof.
  intros us. unfold srt_timestamp. pose proof (td_seconds_range us) as Hs. pose proof (td_millis_range us) as Hm.
  set (s := td_seconds us) in *. set (ms := td_millis us) in *.
  rewrite !forallb_app.
  rewrite (digits_time _ (two_digits (s / 3600) ltac:(lia))).
  rewrite (digits_time _ (two_digits ((s mod 3600) / 60) ltac:(lia))).
  rewrite (digits_time _ (two_digits ((s mod 3600) mod 60) ltac:(lia))).
  rewrite (digits_time _ (three_digits ms ltac:(lia))). reflexivity.
Qed.

Lemma srt_timing_class : forall c, forallb time_char (srt_timing c) = true.
Proof. intros c. unfold srt_timing. rewrite !forallb_app, !srt_timestamp_class. reflexivity. Qed.

Lemma time_no_linebreak : forall s, forallb time_char s = true -> no_linebreak s = true.
Proof.
  intros s. unfold no_linebreak. apply forallb_weaken. intros c H.
  unfold time_char, is_digit in H. unfold is_linebreak. lia.
Qed.

Lemma srt_timing_first_ok : forall c, srt_first_ok (srt_timing c) = true.
Proof.
  intros c. unfold srt_first_ok. rewrite (time_no_linebreak _ (srt_timing_class c)). cbn [andb].
  unfold srt_timing. apply is_infix_app_r.
  change (lit " --> " ++ srt_timestamp (oc_end c)) with ([32] ++ (srt_arrow ++ 32 :: srt_timestamp (oc_end c))).
  apply is_infix_app_r. apply is_infix_self_app.
Qed.

Lemma srt_timing_free : forall c, free before_srt (srt_timing c) = true.
Proof.
  intros c. apply (class_free_srt time_char _ eq_refl (srt_timing_class c)); reflexivity.
Qed.

Definition cap_free (ms : list (str * bool)) (c : ocap) : bool := free ms (cap_text c).

Lemma srt_merge_forall : forall Q : ocap -> bool,
  (forall a b, Q a = true -> Q b = true ->
               Q (mk_ocap (oc_start b) (oc_end b) (oc_nodes a ++ OBreak :: oc_nodes b)) = true) ->
  forall l, forallb Q l = true -> forallb Q (srt_merge l) = true.
Proof.
  intros Q HQ [|c0 l] H; [reflexivity|]. cbn [forallb] in H. apply andb_true_iff in H. destruct H as [H0 H].
  cbn [srt_merge]. revert c0 H0 H. induction l as [|c t IH]; intros last Hl H.
  - cbn [srt_merge_from forallb]. rewrite Hl. reflexivity.
  - cbn [forallb] in H. apply andb_true_iff in H. destruct H as [Hc Ht].
    cbn [srt_merge_from]. destruct (same_span c last).
    + apply IH; [apply HQ; assumption|exact Ht].
    + cbn [forallb]. rewrite Hl. apply IH; assumption.
Qed.

Lemma srt_merge_free : forall l, forallb (cap_free before_srt) l = true ->
  forallb (cap_free before_srt) (srt_merge l) = true.
Proof.
  apply srt_merge_forall. intros a b Ha Hb. unfold cap_free, cap_text in *. cbn [oc_nodes].
  rewrite flat_map_app. apply (free_sep_nl _ _ _ markers_ok_srt Ha Hb).
Qed.

Lemma srt_merge_from_cons : forall l last, exists c t, srt_merge_from last l = c :: t.
Proof.
  induction l as [|c t IH]; intros last; [cbn; eauto|].
  cbn [srt_merge_from]. destruct (same_span c last); [apply IH|eauto].
Qed.

Lemma srt_cues_ok : forall l, forallb (cap_free before_srt) l = true -> forallb srt_cue_ok (map srt_cue l) = true.
Proof.
  induction l as [|c t IH]; intros H; [reflexivity|].
  cbn [forallb] in H. apply andb_true_iff in H. destruct H as [Hc Ht].
  cbn [map forallb]. rewrite (IH Ht), andb_true_r.
  unfold srt_cue_ok, srt_cue. cbn [fst snd]. rewrite srt_timing_free. cbn [andb].
  apply (srt_clean_free _ _ markers_ok_srt Hc).
Qed.

Lemma srt_blocks_w_eq : forall cues k, srt_blocks_w k cues = srt_blocks k cues.
Proof. induction cues as [|[tl txt] t IH]; intros k; [reflexivity|]. cbn [srt_blocks_w srt_blocks]. rewrite IH. reflexivity. Qed.

Lemma srt_lang_document : forall caps, srt_lang caps = srt_document (map srt_cue (srt_merge caps)).
Proof. intros caps. unfold srt_lang, srt_document, drop_last. cbv zeta. rewrite srt_blocks_w_eq. reflexivity. Qed.

(* the document of one language is empty or ends with a newline: what is written behind it starts a new line *)
Lemma srt_document_nl : forall cues, srt_document cues = [] \/ exists d, srt_document cues = d ++ [10].
Proof.
  intros cues. assert (E : forall k, cues = [] \/ exists X, srt_blocks k cues = X ++ [10; 10]).
  { induction cues as [|[tl txt] t IH]; intros k; [left; reflexivity|right]. cbn [srt_blocks].
    destruct (IH (k + 1)) as [-> | [X ->]]; eexists; [rewrite app_nil_r|]; rewrite !app_assoc; reflexivity. }
  destruct (E 1) as [-> | [X EX]]; [left; reflexivity|right]. exists X.
  unfold srt_document. rewrite EX, drop_last_app by discriminate. reflexivity.
Qed.

Lemma srt_join_free : forall docs,
  (forall d, In d docs -> free before_srt d = true /\ (d = [] \/ exists d', d = d' ++ [10])) ->
  free before_srt (join srt_sep docs) = true.
Proof.
  induction docs as [|d [|d2 t] IH]; intros H; [reflexivity| |]; destruct (H d (or_introl eq_refl)) as [F E]; [exact F|].
  rewrite join_cons2.
  assert (R : free before_srt (srt_sep ++ join srt_sep (d2 :: t)) = true).
  { apply (free_sep_nl _ (lit "MULTI-LANGUAGE SRT") _ markers_ok_srt eq_refl). apply IH. intros x Hx. apply H. right. exact Hx. }
  destruct E as [-> | [d' ->]]; [exact R|]. rewrite <- app_assoc.
  apply (free_sep_nl _ d' _ markers_ok_srt (free_mid _ [] d' [10] F) R).
Qed.

Lemma srt_write_free : forall langs, caps_free before_srt langs = true -> free before_srt (srt_write langs) = true.
Proof.
  intros langs H. apply srt_join_free. intros d Hd. apply in_map_iff in Hd. destruct Hd as [l [<- Hl]].
  rewrite srt_lang_document. split; [apply srt_document_free, srt_cues_ok, srt_merge_free|apply srt_document_nl].
  unfold caps_free in H. rewrite forallb_forall in H. apply (H l Hl).
Qed.

(* the document starts with "1", the timing line of the first (merged) caption, and its text *)
Lemma srt_write_shape : forall c t langs, exists tl rest,
  srt_write ((c :: t) :: langs) = [49] ++ 10 :: tl ++ 10 :: rest /\ srt_first_ok tl = true.
Proof.
  intros c t langs. unfold srt_write. cbn [map]. rewrite srt_lang_document.
  destruct (srt_merge_from_cons t c) as [c0 [t0 Hm]]. cbn [srt_merge]. rewrite Hm. cbn [map].
  unfold srt_cue at 1. rewrite srt_document_shape.
  exists (srt_timing c0). destruct (map srt_lang langs) as [|d ds].
  - eexists. split; [reflexivity|apply srt_timing_first_ok].
  - eexists. split; [|apply srt_timing_first_ok]. rewrite join_cons2.
    cbn [app]. rewrite <- !app_assoc. cbn [app]. reflexivity.
Qed.

Theorem own_nodes_srt : forall langs, srt_dom langs = true ->
  detect_format (srt_write langs) = Ok (Some R_SRT).
Proof.
  intros langs H. unfold srt_dom in H. apply andb_true_iff in H. destruct H as [Hne Hfree].
  destruct langs as [|[|c t] langs]; try discriminate.
  pose proof (srt_write_free _ Hfree) as F.
  destruct (srt_write_shape c t langs) as [tl [rest [Hs Hok]]].
  rewrite Hs in F |- *. apply (detected_srt tl rest Hok F).
Qed.

Definition lowr (lw : bool) (s : str) : str := if lw then u_lower s else s.
Lemma lowr_app : forall lw a b, lowr lw (a ++ b) = lowr lw a ++ lowr lw b.
Proof. intros [|] a b; [apply u_lower_app|reflexivity]. Qed.
Lemma lowr_bar : forall lw s, lowr lw (124 :: s) = 124 :: lowr lw s.
Proof. intros [|] s; reflexivity. Qed.

(* every occurrence of m in (anything ++ X) is matched by one in (the same ++ Y) *)
Definition occ_le (m : str) (lw : bool) (X Y : str) : Prop :=
  forall p, is_infix m (p ++ lowr lw X) = true -> is_infix m (p ++ lowr lw Y) = true.

Lemma occ_le_refl : forall m lw X, occ_le m lw X X.
Proof. intros m lw X p H. exact H. Qed.

Lemma occ_le_app : forall m lw a X Y, occ_le m lw X Y -> occ_le m lw (a ++ X) (a ++ Y).
Proof.
  intros m lw a X Y H p Hp. rewrite lowr_app, app_assoc in *. apply H. exact Hp.
Qed.

(* a '|' that stands for a line end q *)
Lemma occ_le_bar : forall m lw q X Y, m <> [] -> ~ In 124 m -> occ_le m lw X Y -> occ_le m lw (124 :: X) (q ++ Y).
Proof.
  intros m lw q X Y Hm Hb H p Hp. rewrite lowr_bar in Hp.
  destruct (is_infix_sep m p 124 _ Hm Hb Hp) as [H1|H1].
  - apply is_infix_app_l. exact H1.
  - apply is_infix_app_r. rewrite lowr_app. apply is_infix_app_r. apply (H [] H1).
Qed.

(* mdvd_sub looks two characters ahead ("\r\n"), so it is not structurally recursive on the tail alone: induction
   on its cases, with the length argument made once *)
Lemma mdvd_sub_ind : forall P : str -> str -> Prop,
  P [] [] ->
  (forall t, P t (mdvd_sub t) -> P (13 :: 10 :: t) (124 :: mdvd_sub t)) ->
  (forall t, P t (mdvd_sub t) -> P (13 :: t) (124 :: mdvd_sub t)) ->
  (forall t, P t (mdvd_sub t) -> P (10 :: t) (124 :: mdvd_sub t)) ->
  (forall c t, (c =? 13) = false -> (c =? 10) = false -> P t (mdvd_sub t) -> P (c :: t) (c :: mdvd_sub t)) ->
  forall s, P s (mdvd_sub s).
Proof.
  intros P H0 Hcrlf Hcr Hlf Hc s.
  assert (G : forall n s, (length s <= n)%nat -> P s (mdvd_sub s)); [|exact (G _ s (le_n _))].
  clear s. induction n as [|n IH]; intros [|c t] Hl; try exact H0; cbn [length] in Hl; [lia|].
  cbn [mdvd_sub]. destruct (c =? 13) eqn:E13.
  - assert (c = 13) by lia. subst c. destruct t as [|c2 t2]; [exact (Hcr [] H0)|].
    cbn [length] in Hl. destruct (c2 =? 10) eqn:E10.
    + assert (c2 = 10) by lia. subst c2. apply Hcrlf, IH. lia.
    + apply Hcr, IH. cbn [length]. lia.
  - destruct (c =? 10) eqn:E10.
    + assert (c = 10) by lia. subst c. apply Hlf, IH. lia.
    + apply Hc; [exact E13|exact E10|]. apply IH. lia.
Qed.

Lemma mdvd_sub_le : forall m lw, m <> [] -> ~ In 124 m -> forall s X Y,
  occ_le m lw X Y -> occ_le m lw (mdvd_sub s ++ X) (s ++ Y).
Proof.
  intros m lw Hm Hb s.
  apply (mdvd_sub_ind (fun s r => forall X Y, occ_le m lw X Y -> occ_le m lw (r ++ X) (s ++ Y))); clear s.
  - intros X Y H. exact H.
  - intros t IH X Y H. apply (occ_le_bar m lw [13; 10] _ _ Hm Hb (IH X Y H)).
  - intros t IH X Y H. apply (occ_le_bar m lw [13] _ _ Hm Hb (IH X Y H)).
  - intros t IH X Y H. apply (occ_le_bar m lw [10] _ _ Hm Hb (IH X Y H)).
  - intros c t _ _ IH X Y H. apply (occ_le_app m lw [c] _ _ (IH X Y H)).
Qed.

Lemma mdvd_nodes_le : forall m lw, m <> [] -> ~ In 124 m -> forall ns,
  occ_le m lw (flat_map mdvd_node ns) (flat_map node_text ns).
Proof.
  intros m lw Hm Hb. induction ns as [|n t IH]; [apply occ_le_refl|].
  cbn [flat_map]. destruct n as [s| |st i u b]; cbn [mdvd_node node_text].
  - apply (mdvd_sub_le m lw Hm Hb s _ _ IH).
  - cbn [app]. change (10 :: flat_map node_text t) with ([10] ++ flat_map node_text t).
    apply (occ_le_bar m lw _ _ _ Hm Hb IH).
  - exact IH.
Qed.

Lemma mdvd_clean_part : forall raw, part (mdvd_clean raw) raw.
Proof. intros raw. unfold mdvd_clean. apply (part_trans _ (strip raw)); [apply rstrip_by_part|apply strip_part]. Qed.

Lemma mdvd_clean_free : forall c, free before_mdvd (cap_text c) = true ->
  free before_mdvd (mdvd_clean (mdvd_raw c)) = true.
Proof.
  intros c H. apply (free_part _ _ _ (mdvd_clean_part (mdvd_raw c))).
  apply free_spec. intros m lw [E|[]]. injection E as <- <-. apply not_true_is_false. intros E.
  assert (Hb : ~ In 124 dfxp_marker) by (vm_compute; intuition discriminate).
  pose proof (mdvd_nodes_le dfxp_marker true ltac:(discriminate) Hb (oc_nodes c) [] E) as H2.
  change (has dfxp_marker true (cap_text c) = true) in H2.
  rewrite (free_has _ _ _ _ H (or_introl eq_refl)) in H2. discriminate.
Qed.

Lemma digits_frame : forall s, forallb is_digit s = true -> forallb frame_char s = true.
Proof. intros s. apply forallb_weaken. intros c H. unfold frame_char. rewrite H. reflexivity. Qed.

Lemma dec_frame_digits : forall us, 0 <= us -> ascii_digits (dec_z (mdvd_frame us)) = true.
Proof.
  intros us H. unfold mdvd_frame, dec_z. replace (us / 40000 <? 0) with false by lia.
  unfold ascii_digits. pose proof (dec_nonneg_nonempty (us / 40000)) as Hne.
  destruct (dec_nonneg (us / 40000)) eqn:E; [congruence|]. rewrite <- E. apply dec_nonneg_digits. lia.
Qed.

Lemma ascii_digits_forall : forall d, ascii_digits d = true -> forallb is_digit d = true.
Proof. intros [|c d] H; [discriminate|exact H]. Qed.

Lemma mdvd_cue_ok_of : forall c, 0 <= oc_start c -> 0 <= oc_end c -> free before_mdvd (cap_text c) = true ->
  mdvd_cue_ok (mdvd_cue c) = true.
Proof.
  intros c Hs He Hf. unfold mdvd_cue_ok, mdvd_cue. cbn [fst snd]. rewrite (mdvd_clean_free c Hf), andb_true_r.
  unfold mdvd_prefix. rewrite !forallb_app.
  rewrite (digits_frame _ (ascii_digits_forall _ (dec_frame_digits _ Hs))).
  rewrite (digits_frame _ (ascii_digits_forall _ (dec_frame_digits _ He))). reflexivity.
Qed.

Lemma mdvd_lang_document : forall caps, mdvd_lang caps = mdvd_document (map mdvd_cue caps).
Proof. intros caps. unfold mdvd_lang, mdvd_document. rewrite map_map. reflexivity. Qed.

Lemma mdvd_document_app : forall a b, mdvd_document (a ++ b) = mdvd_document a ++ mdvd_document b.
Proof. intros a b. unfold mdvd_document. rewrite map_app, concat_app. reflexivity. Qed.

Lemma mdvd_write_document : forall langs, mdvd_write langs = mdvd_document (map mdvd_cue (concat langs)).
Proof.
  unfold mdvd_write. induction langs as [|l t IH]; [reflexivity|].
  cbn [map concat]. rewrite IH, map_app, mdvd_document_app, mdvd_lang_document. reflexivity.
Qed.

Theorem own_nodes_mdvd : forall langs, mdvd_dom langs = true ->
  detect_format (mdvd_write langs) = Ok (Some R_MDVD).
Proof.
  intros langs H. unfold mdvd_dom in H. apply andb_true_iff in H. destruct H as [H Hfree].
  apply andb_true_iff in H. destruct H as [H _]. apply andb_true_iff in H. destruct H as [Hne Ht].
  unfold times_nonneg in Ht. unfold caps_free in Hfree. rewrite <- forallb_concat in Ht, Hfree.
  rewrite mdvd_write_document.
  destruct (concat langs) as [|c rest]; [discriminate|].
  assert (Hall : forallb mdvd_cue_ok (map mdvd_cue (c :: rest)) = true).
  { rewrite forallb_forall in *. intros q Hq. apply in_map_iff in Hq. destruct Hq as [x [<- Hx]].
    specialize (Ht x Hx). apply mdvd_cue_ok_of; [lia|lia|exact (Hfree x Hx)]. }
  rewrite forallb_forall in Ht. specialize (Ht c (or_introl eq_refl)).
  exact (own_mdvd (dec_z (mdvd_frame (oc_start c))) (dec_z (mdvd_frame (oc_end c))) _ _
           (dec_frame_digits (oc_start c) ltac:(lia)) (dec_frame_digits (oc_end c) ltac:(lia)) Hall).
Qed.
