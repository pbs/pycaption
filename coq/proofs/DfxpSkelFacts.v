(* C07: the rendered DFXP document (model/DfxpSkel.v) is accepted by the document machine of
   spec/SpecXmlDoc.v.  The content machine is compositional - a run stays a run when the machine has more
   elements open underneath (and more text read before), so accepted content is accepted inside any element; every
   element of the skeleton is accepted in its place, and under the open root the document machine is the content
   machine. *)
From Coq Require Import List ZArith Lia Bool Permutation.
From PV Require Import lib.Sx lib.Str lib.StrFacts model.DfxpXml model.DfxpDoc model.DfxpSkel spec.SpecXmlAttr spec.SpecXmlDoc.
From PV Require Import proofs.XmlAttrFacts proofs.DfxpPayloadFacts proofs.DfxpDocFacts.
Import ListNotations.
Open Scope Z_scope.

(* simulation: the related machine has more open elements below, other events, other text read before; of the text
   read (kept reversed) only a final ']' or ']]' matters, since the machine refuses '>' after "]]" *)
Definition hd1 (a : str) : bool := match a with x :: _ => x =? 93 | [] => false end.
Definition hd2 (a : str) : bool := match a with x :: y :: _ => (x =? 93) && (y =? 93) | _ => false end.
Definition arel (a a' : str) : Prop := (hd1 a' = true -> hd1 a = true) /\ (hd2 a' = true -> hd2 a = true).
Definition vrel (v v' : vst) : Prop :=
  match v, v' with
  | VNormal a, VNormal a' => arel a a'
  | VRef a n, VRef a' n' => n = n' /\ arel a a'
  | _, _ => False
  end.
Definition mrel (m m' : mode) : Prop :=
  match m, m' with
  | MContent v, MContent v' => vrel v v'
  | MContent _, _ => False
  | _, MContent _ => False
  | _, _ => m = m'
  end.
Definition srel (base : list str) (s s' : pst) : Prop :=
  p_stack s' = p_stack s ++ base /\ p_tag s' = p_tag s /\ p_attrs s' = p_attrs s /\ p_aname s' = p_aname s
  /\ mrel (p_mode s) (p_mode s').

Lemma arel_cons : forall c a a', arel a a' -> arel (c :: a) (c :: a').
Proof.
  intros c a a' [H1 H2]. split; cbn [hd1 hd2]; [auto|].
  destruct a as [|x a], a' as [|y a']; cbn [hd1] in *; try discriminate; auto.
  - intros H. apply andb_prop in H. destruct H as [_ H]. specialize (H1 H). discriminate.
  - intros H. apply andb_prop in H. destruct H as [Hc H]. rewrite Hc, (H1 H). reflexivity.
Qed.

Lemma vstep_sim : forall v v' c w, vrel v v' -> vstep v c = Some w -> exists w', vstep v' c = Some w' /\ vrel w w'.
Proof.
  intros v v' c w R H. destruct v as [a|a n], v' as [a'|a' n']; cbn [vrel] in R; try contradiction.
  - cbn [vstep] in *. destruct (c =? 38); [inversion H; subst; eexists; split; [reflexivity|]; cbn [vrel]; auto|].
    destruct (c =? 60); [discriminate|]. destruct (is_xml_char c); [|discriminate].
    inversion H; subst. eexists; split; [reflexivity|]. cbn [vrel]. apply arel_cons; exact R.
  - destruct R as [<- R]. cbn [vstep] in *. destruct (c =? 59).
    + destruct (decode_ref (rev n)); [|discriminate]. inversion H; subst. eexists; split; [reflexivity|].
      cbn [vrel]. apply arel_cons; exact R.
    + destruct (length n <? 10)%nat; [|discriminate]. inversion H; subst. eexists; split; [reflexivity|]. cbn [vrel]. auto.
Qed.

Lemma after_brackets_hd2 : forall a, after_brackets (VNormal a) = hd2 a.
Proof. intros [|x [|y a]]; reflexivity. Qed.

Lemma xstep_sim : forall base s s' c t, srel base s s' -> xstep s c = Some t ->
  exists t', xstep s' c = Some t' /\ srel base t t'.
Proof.
  intros base [stack ev tag attrs aname m] [stack' ev' tag' attrs' aname' m'] c t (Hs & Ht & Ha & Hn & Hm) H.
  cbn [p_stack p_tag p_attrs p_aname p_mode] in *. subst stack' tag' attrs' aname'.
  destruct m.
  1: { (* content: the machines may differ in the text read so far, as far as vrel allows *)
    destruct m'; cbn [mrel] in Hm; try contradiction. cbn [xstep] in *.
    destruct (c =? 60).
    + destruct v as [a|a n]; [|discriminate]. destruct v0 as [a'|]; [|contradiction]. cbn [flush_text] in *.
      inversion H; subst. eexists; split; [reflexivity|]. repeat split.
    + assert (AB : after_brackets v = true \/ after_brackets v0 = false).
      { destruct v as [a|a n], v0 as [a'|a' n']; cbn [vrel] in Hm; try contradiction; [|right; reflexivity].
        rewrite !after_brackets_hd2. destruct Hm as [_ H2]. destruct (hd2 a'); [left; auto|right; reflexivity]. }
      destruct ((c =? 62) && after_brackets v) eqn:E; [discriminate|].
      assert (E' : (c =? 62) && after_brackets v0 = false).
      { destruct (c =? 62); [|reflexivity]. cbn [andb] in *. destruct AB as [AB|AB]; [congruence|exact AB]. }
      rewrite E'. destruct (vstep v c) as [w|] eqn:V; [|discriminate]. inversion H; subst.
      destruct (vstep_sim v v0 c w Hm V) as (w' & V' & R'). rewrite V'. eexists; split; [reflexivity|]. repeat split. exact R'. }
  (* outside content the two machines are in the same mode and read the same tag fields: they take the same branch *)
  all: destruct m'; cbn [mrel] in Hm; try contradiction; try discriminate; try (inversion Hm; subst); cbn [xstep] in *;
    repeat match type of H with
           | context [if ?b then _ else _] => destruct b
           | context [match ?x with _ => _ end] => destruct x; cbn [app]
           end; try discriminate; inversion H; subst; eexists; (split; [reflexivity|repeat split; cbn; auto]).
Qed.

Lemma xrun_sim : forall base f s s' t, srel base s s' -> xrun s f = Some t ->
  exists t', xrun s' f = Some t' /\ srel base t t'.
Proof.
  induction f as [|c f IH]; intros s s' t R H; cbn [xrun] in *.
  - inversion H; subst. exists s'. split; [reflexivity|exact R].
  - destruct (xstep s c) as [s1|] eqn:X; [|discriminate]. destruct (xstep_sim base s s' c s1 R X) as (s1' & X' & R1).
    rewrite X'. apply (IH s1 s1' t R1 H).
Qed.

(* in content mode the tag fields are empty (invariant of every run from pst0) *)
Definition wf (s : pst) : Prop :=
  match p_mode s with MContent _ => p_tag s = [] /\ p_attrs s = [] /\ p_aname s = [] | _ => True end.
Lemma xstep_wf : forall s c t, wf s -> xstep s c = Some t -> wf t.
Proof.
  intros [stack ev tag attrs aname m] c t W H. unfold wf in *. cbn [p_mode p_tag p_attrs p_aname] in *.
  destruct m; cbn [xstep] in H;
    repeat match type of H with
           | context [if ?b then _ else _] => destruct b
           | context [match ?x with _ => _ end] => destruct x
           end; try discriminate; inversion H; subst; cbn; auto.
Qed.
Lemma xrun_wf : forall f s t, wf s -> xrun s f = Some t -> wf t.
Proof.
  induction f as [|c f IH]; intros s t W H; cbn [xrun] in H; [inversion H; subst; exact W|].
  destruct (xstep s c) as [s1|] eqn:X; [|discriminate]. apply (IH s1 t (xstep_wf s c s1 W X) H).
Qed.

(* a run that ends in content, normal text: so does the run of a related machine *)
Lemma xrun_sim_cst : forall base f s s' st ev acc, srel base s s' -> xrun s f = Some (cst st ev acc) ->
  exists ev' acc', xrun s' f = Some (cst (st ++ base) ev' acc').
Proof.
  intros base f s s' st ev acc R X.
  destruct (xrun_sim base f s s' _ R X) as ([stack' ev' tag' attrs' aname' m'] & X' & (Hs & Ht & Ha & Hn & Hm)).
  cbn [p_stack p_tag p_attrs p_aname p_mode cst] in *. subst. destruct m'; cbn [mrel] in Hm; try contradiction.
  destruct v; cbn [vrel] in Hm; [|contradiction]. exists ev', acc0. exact X'.
Qed.

Definition content_ok (s : str) : Prop := exists evs, content_parse s = Some evs.
Lemma content_ok_accepted : forall f, content_ok f <-> accepted [] f.
Proof.
  intros f. unfold content_ok, content_parse, accepted. split.
  - intros [evs H]. destruct (xrun pst0 f) as [[stack ev1 tag attrs aname m]|] eqn:X; [|discriminate].
    destruct stack; [|discriminate]. destruct m; try discriminate. destruct v as [a|]; [|discriminate].
    assert (W : wf (mkPst [] ev1 tag attrs aname (MContent (VNormal a)))) by (apply (xrun_wf f pst0); [cbn; auto|exact X]).
    unfold wf in W. cbn [p_mode p_tag p_attrs p_aname] in W. destruct W as (-> & -> & ->). exists ev1, a. reflexivity.
  - intros (ev & acc & R). rewrite R. eexists. reflexivity.
Qed.

(* content accepted on its own (content_parse) is accepted inside any element, after any text not ending in ']' *)
Lemma content_in_context : forall f evs, content_parse f = Some evs ->
  forall base ev acc, hd1 acc = false -> exists ev' acc', xrun (cst base ev acc) f = Some (cst base ev' acc').
Proof.
  intros f evs H base ev acc Hacc. destruct (proj1 (content_ok_accepted f) (ex_intro _ evs H)) as (ev1 & a & X).
  apply (xrun_sim_cst base f pst0 (cst base ev acc) [] ev1 a); [|exact X].
  repeat split; cbn [p_mode pst0 cst mrel vrel]; intros H0; exfalso.
  - rewrite Hacc in H0; discriminate.
  - destruct acc as [|x [|y r]]; cbn [hd1 hd2] in *; try discriminate. rewrite Hacc in H0. discriminate.
Qed.

(* white space is character data: leading white space may be dropped, trailing white space too *)
Lemma ws_run : forall w st ev acc s1, forallb is_space w = true -> xrun (cst st ev acc) w = Some s1 ->
  exists acc1, s1 = cst st ev acc1.
Proof.
  induction w as [|c w IH]; intros st ev acc s1 Hw H; cbn [xrun] in H; [inversion H; subst; eexists; reflexivity|].
  cbn [forallb] in Hw. apply andb_prop in Hw. destruct Hw as [Hc Hw].
  destruct (space_facts c Hc) as (F59 & F62 & F60 & F38). unfold cst in H at 1. cbn [xstep] in H. rewrite F60, F62 in H.
  cbn [andb vstep] in H. rewrite F38, F60 in H. destruct (is_xml_char c); [|discriminate]. apply (IH st ev (c :: acc) s1 Hw H).
Qed.

Lemma content_strip : forall f, content_ok f -> content_ok (strip f).
Proof.
  intros f H. apply content_ok_accepted. apply content_ok_accepted in H. destruct H as (ev1 & a & X).
  destruct (lstrip_split is_space f) as (w & E & Hw). fold (lstrip f) in E.
  rewrite E, xrun_app in X. destruct (xrun pst0 w) as [s1|] eqn:X1; [|discriminate].
  destruct (ws_run w [] [] [] s1 Hw X1) as [acc1 ->].
  unfold strip, strip_by. fold (lstrip f). fold (rstrip (lstrip f)). apply rstrip_accepted.
  apply (xrun_sim_cst [] (lstrip f) (cst [] [] acc1) pst0 [] ev1 a); [repeat split; cbn; discriminate|exact X].
Qed.

(* attributes of a bs4 tag: sorted, values through attr_out *)
Lemma doc_attrs_texts : forall attrs, flat_map doc_attr attrs = flat_map (attr_text false) attrs.
Proof. intros attrs. apply flat_map_ext. intros kv. unfold doc_attr, attr_text, attr_out. rewrite xml_escape_esc. reflexivity. Qed.

(* attrs_ok does not depend on the order *)
Lemma insert_perm : forall a l, Permutation (a :: l) (insert_attr a l).
Proof.
  intros a l. induction l as [|b t IH]; cbn [insert_attr]; [apply Permutation_refl|].
  destruct (str_leb (fst a) (fst b)); [apply Permutation_refl|].
  apply perm_trans with (b :: a :: t); [apply perm_swap|apply perm_skip; exact IH].
Qed.
Lemma sort_perm : forall l, Permutation l (sort_attrs l).
Proof.
  induction l as [|a t IH]; [apply Permutation_refl|]. cbn [sort_attrs fold_right]. fold (sort_attrs t).
  apply perm_trans with (a :: sort_attrs t); [apply perm_skip; exact IH|apply insert_perm].
Qed.
Lemma attrs_ok_sorted : forall attrs, attrs_ok attrs [] -> attrs_ok (sort_attrs attrs) [].
Proof.
  intros attrs H. apply attrs_ok_wf in H. destruct H as [F N]. apply attrs_ok_wf. pose proof (sort_perm attrs) as P.
  split; [exact (Permutation_Forall P F)|exact (Permutation_NoDup (Permutation_map fst P) N)].
Qed.

Lemma ind_accepts : forall n a, accepts a a (ind n).
Proof.
  induction n as [|n IH]; intros a; [apply accepts_nil|]. change (ind (S n)) with ([32] ++ ind n).
  apply (accepts_app a a a); [apply accepts_space|apply IH].
Qed.
Lemma lf_accepts : forall a, accepts a a [10].
Proof. intros a ev acc. exists ev, (10 :: acc). reflexivity. Qed.

Lemma accepts_empty : forall nl name attrs a, valid_name name = true -> attrs_ok attrs [] ->
  accepts a a ([60] ++ name ++ flat_map (attr_text nl) attrs ++ [47; 62]).
Proof.
  intros nl name attrs a Hn Ha ev acc.
  replace ([60] ++ name ++ flat_map (attr_text nl) attrs ++ [47; 62]) with (([60] ++ name ++ flat_map (attr_text nl) attrs) ++ [47; 62])
    by (rewrite <- !app_assoc; reflexivity).
  rewrite xrun_app, open_run by assumption. destruct attrs as [|x r].
  - cbn [xrun xstep]. change (is_name_char 47) with false. change (is_xml_space 47) with false. cbv iota.
    cbn [Z.eqb Pos.eqb]. cbn [xstep]. cbn [Z.eqb Pos.eqb]. eexists. eexists. reflexivity.
  - eexists. eexists. cbn [xrun xstep tst]. reflexivity.
Qed.

(* start tag, children, end tag, each on lines of their own *)
Lemma full_elem_accepts : forall n name attrs inner a, valid_name name = true -> attrs_ok attrs [] ->
  accepts (name :: a) (name :: a) inner ->
  accepts a a (ind n ++ [60] ++ name ++ doc_attrs attrs ++ [62; 10] ++ inner ++ ind n ++ [60; 47] ++ name ++ [62; 10]).
Proof.
  intros n name attrs inner a Hn Ha Hi. apply attrs_ok_sorted in Ha. unfold doc_attrs. rewrite doc_attrs_texts.
  set (F := flat_map (attr_text false) (sort_attrs attrs)).
  replace (ind n ++ [60] ++ name ++ F ++ [62; 10] ++ inner ++ ind n ++ [60; 47] ++ name ++ [62; 10])
    with (ind n ++ ([60] ++ name ++ F ++ [62]) ++ [10] ++ inner ++ ind n ++ ([60; 47] ++ name ++ [62]) ++ [10])
    by (rewrite <- !app_assoc; reflexivity).
  apply (accepts_app a a a); [apply ind_accepts|].
  apply (accepts_app a (name :: a) a); [apply accepts_open; assumption|].
  apply (accepts_app _ (name :: a) a); [apply lf_accepts|].
  apply (accepts_app _ (name :: a) a); [exact Hi|].
  apply (accepts_app _ (name :: a) a); [apply ind_accepts|].
  apply (accepts_app _ a a); [apply accepts_close; exact Hn|apply lf_accepts].
Qed.

Lemma elem_accepts : forall n name attrs inner a, valid_name name = true -> attrs_ok attrs [] ->
  accepts (name :: a) (name :: a) inner -> accepts a a (elem n name attrs inner).
Proof.
  intros n name attrs inner a Hn Ha Hi. unfold elem. destruct inner; [|apply full_elem_accepts; assumption].
  apply attrs_ok_sorted in Ha. unfold doc_attrs. rewrite doc_attrs_texts. set (F := flat_map (attr_text false) (sort_attrs attrs)).
  replace (ind n ++ [60] ++ name ++ F ++ [47; 62; 10]) with (ind n ++ ([60] ++ name ++ F ++ [47; 62]) ++ [10])
    by (rewrite <- !app_assoc; reflexivity).
  apply (accepts_app a a a); [apply ind_accepts|]. apply (accepts_app a a a); [apply accepts_empty; assumption|apply lf_accepts].
Qed.

Lemma flat_map_accepts : forall (A : Type) (f : A -> str) l a, (forall x, In x l -> accepts a a (f x)) -> accepts a a (flat_map f l).
Proof.
  intros A f l a H. induction l as [|x t IH]; [apply accepts_nil|]. cbn [flat_map].
  apply (accepts_app a a a); [apply H; left; reflexivity|apply IH; intros y Hy; apply H; right; exact Hy].
Qed.

Lemma sp_content_accepts : forall s evs b, content_parse s = Some evs -> accepts b b ([32] ++ s).
Proof.
  intros s evs b H ev acc. cbn [app xrun]. unfold cst at 1. cbn [xstep]. cbn [Z.eqb Pos.eqb andb vstep]. cbn [Z.eqb Pos.eqb].
  change (is_xml_char 32) with true. cbv iota. apply (content_in_context s evs H b ev (32 :: acc)). reflexivity.
Qed.

Definition skp_ok (p : skp) : Prop := attrs_ok (kp_attrs p) [] /\ content_ok (kp_text p).
Definition skdiv_ok (dv : skdiv) : Prop := attrs_ok (kd_attrs dv) [] /\ Forall skp_ok (kd_ps dv).
Definition skdoc_ok (d : skdoc) : Prop :=
  attrs_ok (k_tt d) [] /\ Forall (fun a => attrs_ok a []) (k_styles d) /\ Forall (fun a => attrs_ok a []) (k_regions d)
  /\ Forall skdiv_ok (k_divs d).

Lemma p_text_accepts : forall t b, content_ok t -> accepts b b (p_text t).
Proof.
  intros t b H. unfold p_text. destruct (content_strip t H) as [evs' H']. destruct (strip t) as [|c s] eqn:E; [apply accepts_nil|].
  change (ind 4) with (ind 3 ++ [32]). rewrite <- app_assoc.
  apply (accepts_app b b b); [apply ind_accepts|]. rewrite app_assoc.
  apply (accepts_app b b b); [apply (sp_content_accepts _ evs'); exact H'|apply lf_accepts].
Qed.

(* a <p> is written with start and end tag even when it has no text *)
Lemma p_elem_accepts : forall p a, skp_ok p -> accepts a a (p_elem p).
Proof.
  intros p a [Ha Ht].
  exact (full_elem_accepts 3 (lit "p") (kp_attrs p) (p_text (kp_text p)) a eq_refl Ha (p_text_accepts _ _ Ht)).
Qed.

Lemma head_accepts : forall d a, skdoc_ok d -> accepts a a (head_elem d).
Proof.
  intros d a (_ & Hs & Hr & _). unfold head_elem. apply elem_accepts; [reflexivity|exact I|].
  apply (accepts_app _ (lit "head" :: a) _).
  - apply elem_accepts; [reflexivity|exact I|]. apply flat_map_accepts. intros x Hx.
    apply elem_accepts; [reflexivity| |apply accepts_nil]. rewrite Forall_forall in Hs. apply Hs. exact Hx.
  - apply elem_accepts; [reflexivity|exact I|]. apply flat_map_accepts. intros x Hx.
    apply elem_accepts; [reflexivity| |apply accepts_nil]. rewrite Forall_forall in Hr. apply Hr. exact Hx.
Qed.
Lemma body_accepts : forall d a, skdoc_ok d -> accepts a a (body_elem d).
Proof.
  intros d a (_ & _ & _ & Hd). unfold body_elem. apply elem_accepts; [reflexivity|exact I|].
  apply flat_map_accepts. intros dv Hdv. rewrite Forall_forall in Hd. destruct (Hd dv Hdv) as [Ha Hp].
  apply elem_accepts; [reflexivity|exact Ha|]. apply flat_map_accepts. intros p Hp'. apply p_elem_accepts.
  rewrite Forall_forall in Hp. apply Hp. exact Hp'.
Qed.

Lemma drun_app : forall a b st, drun st (a ++ b) = match drun st a with Some st' => drun st' b | None => None end.
Proof. induction a as [|c t IH]; intros b st; cbn [app drun]; [reflexivity|]. destruct (dstep st c); [apply IH|reflexivity]. Qed.

(* inside the root element (something is open underneath) the document machine is the content machine *)
Lemma drun_root_sim : forall base f s s' t, base <> [] -> srel base s s' -> xrun s f = Some t ->
  exists t', drun (DRoot, s') f = Some (DRoot, t') /\ srel base t t'.
Proof.
  intros base. induction f as [|c f IH]; intros s s' t B R H; cbn [xrun drun] in *.
  - inversion H; subst. exists s'. split; [reflexivity|exact R].
  - destruct (xstep s c) as [s1|] eqn:X; [|discriminate]. destruct (xstep_sim base s s' c s1 R X) as (s1' & X' & R1).
    unfold dstep. cbn [fst snd]. rewrite X'.
    assert (C : root_closed s1' = false).
    { unfold root_closed. destruct R1 as (Hs & _). rewrite Hs. destruct (p_stack s1); [destruct base; [contradiction|reflexivity]|reflexivity]. }
    rewrite C. apply (IH s1 s1' t B R1 H).
Qed.

(* without '>' an element is neither completed nor closed *)
Lemma no_gt_step : forall s c t, root_closed s = false -> (c =? 62) = false -> xstep s c = Some t -> root_closed t = false.
Proof.
  intros [stack ev tag attrs aname m] c t C G H. unfold root_closed in *. cbn [p_stack p_mode] in *.
  destruct m; cbn [xstep] in H; rewrite ?G in H; cbn [andb] in H;
    repeat match type of H with
           | context [if ?b then _ else _] => destruct b
           | context [match ?x with _ => _ end] => destruct x
           end; try discriminate; inversion H; subst; cbn [p_stack p_mode]; try reflexivity; try exact C;
    try (destruct stack; reflexivity).
Qed.
Lemma drun_no_gt : forall f s t, has 62 f = false -> root_closed s = false -> xrun s f = Some t ->
  drun (DRoot, s) f = Some (DRoot, t) /\ root_closed t = false.
Proof.
  induction f as [|c f IH]; intros s t G C H; cbn [xrun drun] in *; [inversion H; subst; split; [reflexivity|exact C]|].
  unfold has in G. cbn [existsb] in G. apply orb_false_elim in G. destruct G as [G1 G2].
  destruct (xstep s c) as [s1|] eqn:X; [|discriminate]. unfold dstep. cbn [fst snd]. rewrite X.
  assert (G1' : (c =? 62) = false) by lia.
  rewrite (no_gt_step s c s1 C G1' X). apply (IH s1 t G2 (no_gt_step s c s1 C G1' X) H).
Qed.

Lemma has_app : forall c a b, has c (a ++ b) = has c a || has c b.
Proof. intros. unfold has. apply existsb_app. Qed.
Lemma name_no_gt : forall n, forallb is_name_char n = true -> has 62 n = false.
Proof.
  induction n as [|c t IH]; intros H; [reflexivity|]. cbn [forallb] in H. apply andb_prop in H. destruct H as [H1 H2].
  unfold has. cbn [existsb]. fold (has 62 t). rewrite (IH H2), orb_false_r. unfold is_name_char, is_name_start in H1. lia.
Qed.
Lemma valid_name_chars : forall n, valid_name n = true -> forallb is_name_char n = true.
Proof.
  intros [|c t] H; [discriminate|]. cbn [valid_name] in H. apply andb_prop in H. destruct H as [H1 H2].
  cbn [forallb]. rewrite H2, andb_true_r. apply (name_start_facts c H1).
Qed.
Lemma attr_out_no_gt : forall v, has 62 (attr_out v) = false.
Proof.
  intros v. unfold attr_out. rewrite xml_escape_esc. unfold quote_value.
  destruct (has 34 (flat_map (esc false false) v)); [destruct (has 39 (flat_map (esc false false) v))|].
  - rewrite quot_esc, !has_app, has_gt_free. reflexivity.
  - rewrite !has_app, has_gt_free. reflexivity.
  - rewrite !has_app, has_gt_free. reflexivity.
Qed.
Lemma doc_attrs_no_gt : forall attrs, Forall good_attr attrs -> has 62 (flat_map doc_attr attrs) = false.
Proof.
  induction 1 as [|[n v] t [H1 H2] _ IH]; [reflexivity|]. cbn [flat_map]. unfold doc_attr at 1. cbn [fst snd] in *.
  rewrite !has_app, IH, attr_out_no_gt, (name_no_gt n (valid_name_chars n H1)). reflexivity.
Qed.

Definition tt_name : str := lit "tt".

(* the prolog (an XML declaration) and the start tag of the root *)
Lemma root_open_run : forall attrs, attrs_ok attrs [] ->
  drun (DPre, pst0) ([10] ++ [60] ++ tt_name ++ doc_attrs attrs ++ [62])
  = Some (DRoot, cst [tt_name] [EOpen tt_name (sort_attrs attrs)] []).
Proof.
  intros attrs Ha. apply attrs_ok_sorted in Ha. unfold doc_attrs. set (F := flat_map doc_attr (sort_attrs attrs)).
  (* the start tag as a run of the content machine *)
  pose proof (open_tag_run false tt_name (sort_attrs attrs) [] [] [] eq_refl Ha) as T. rewrite <- doc_attrs_texts in T. fold F in T.
  change (map EText [] ++ []) with (@nil xev) in T.
  assert (G : has 62 (tt_name ++ F) = false).
  { rewrite has_app. unfold F. rewrite doc_attrs_no_gt; [reflexivity|]. apply attrs_ok_wf in Ha. apply Ha. }
  replace ([60] ++ tt_name ++ F ++ [62]) with ([60] ++ (tt_name ++ F) ++ [62]) in T |- * by (rewrite <- !app_assoc; reflexivity).
  cbn [app xrun] in T. unfold cst in T at 1. cbn [xstep flush_text] in T. cbn [Z.eqb Pos.eqb map app] in T.
  rewrite xrun_app in T. destruct (xrun (mkPst [] [] [] [] [] MLt) (tt_name ++ F)) as [s1|] eqn:X1; [|discriminate].
  destruct (drun_no_gt (tt_name ++ F) (mkPst [] [] [] [] [] MLt) s1 G eq_refl X1) as [Dr C1].
  cbn [xrun] in T. destruct (xstep s1 62) as [s2|] eqn:X2; [|discriminate]. inversion T; subst s2.
  cbn [app drun]. unfold dstep at 1. cbn [fst snd]. change (is_xml_space 10) with true. cbv iota.
  unfold dstep at 1. cbn [fst snd]. change (is_xml_space 60) with false. cbv iota. cbn [Z.eqb Pos.eqb]. cbn [xstep pst0 flush_text map app].
  cbn [Z.eqb Pos.eqb]. rewrite drun_app, Dr. cbn [drun]. unfold dstep. cbn [fst snd]. rewrite X2. reflexivity.
Qed.

Lemma root_elem_split : forall attrs inner, inner <> [] ->
  prolog ++ elem 0 tt_name attrs inner
  = prolog ++ ([60] ++ tt_name ++ doc_attrs attrs ++ [62]) ++ ([10] ++ inner) ++ lit "</tt>" ++ [10].
Proof.
  intros attrs inner Hne. unfold elem. destruct inner; [contradiction|]. rewrite <- !app_assoc. reflexivity.
Qed.
Lemma prolog_decl : forall rest, xml_decl (prolog ++ rest) = Some ([10] ++ rest).
Proof. reflexivity. Qed.

(* the whole document: the prolog is an XML declaration; after the start tag of the root, the children (run on their
   own, lifted under the open root) and the end tag take the document machine to its final phase *)
Lemma root_document_run : forall attrs inner, attrs_ok attrs [] -> inner <> [] -> accepts [] [] inner ->
  exists f st, drun (DRoot, cst [tt_name] [EOpen tt_name (sort_attrs attrs)] []) f = Some (DPost, st) /\
               doc_parse (prolog ++ elem 0 tt_name attrs inner) = Some (rev (p_ev st)).
Proof.
  intros attrs inner Ha Hne Hi. destruct (accepts_app [] [] [] _ _ (lf_accepts []) Hi [] []) as (ev2 & acc2 & E2).
  assert (R : srel [tt_name] (cst [] [] []) (cst [tt_name] [EOpen tt_name (sort_attrs attrs)] [])) by (repeat split; cbn; discriminate).
  destruct (drun_root_sim [tt_name] _ _ _ _ ltac:(discriminate) R E2) as ([st3 ev3 tag3 at3 an3 m3] & E3 & (Hs & Ht & Hat & Han & Hm)).
  cbn [p_stack p_tag p_attrs p_aname p_mode cst app] in Hs, Ht, Hat, Han, Hm. subst. destruct m3; cbn [mrel] in Hm; try contradiction.
  destruct v as [a3|]; cbn [vrel] in Hm; [|contradiction].
  eexists (([10] ++ inner) ++ lit "</tt>" ++ [10]), _. split; [rewrite drun_app, E3; reflexivity|].
  unfold doc_parse. rewrite root_elem_split, prolog_decl by exact Hne.
  rewrite app_assoc, drun_app, (root_open_run attrs Ha), drun_app, E3. reflexivity.
Qed.

Lemma elem_nonempty : forall n name attrs inner, elem n name attrs inner <> [].
Proof. intros n name attrs inner. unfold elem. destruct inner; destruct n; cbn [ind repeat app]; discriminate. Qed.

Lemma skeleton_run : forall d, skdoc_ok d ->
  exists f st, drun (DRoot, cst [tt_name] [EOpen tt_name (sort_attrs (k_tt d))] []) f = Some (DPost, st) /\
               doc_parse (dfxp_document d) = Some (rev (p_ev st)).
Proof.
  intros d H. apply root_document_run; [apply H| |].
  - destruct (head_elem d) eqn:E; [exfalso; apply (elem_nonempty _ _ _ _ E)|discriminate].
  - apply (accepts_app [] [] []); [apply head_accepts; exact H|apply body_accepts; exact H].
Qed.

(* THE document theorem: every rendered skeleton whose attribute dictionaries have valid, distinct names and values
   made of XML characters, and whose <p> payloads are well-formed content, is a well-formed XML document: XML
   declaration, exactly one root element, white space only outside it *)
Theorem skeleton_wellformed : forall d, skdoc_ok d -> exists evs, doc_parse (dfxp_document d) = Some evs.
Proof. intros d H. destruct (skeleton_run d H) as (f & st & _ & E). eexists. exact E. Qed.

Lemma tt_attrs_ok : forall lang, forallb is_xml_char lang = true -> attrs_ok (tt_attrs lang) [].
Proof. intros lang H. cbn [tt_attrs attrs_ok]. repeat split; try reflexivity. exact H. Qed.

(* composed with the payload theorem: from caption nodes to the whole document *)
Definition p_of_caption (legacy : bool) (ids : list str) (p : list (str * str) * list cnode) : skp :=
  mkSkp (fst p) (fst (caption_payload legacy ids (snd p))).
Definition doc_of_captions (legacy : bool) (ids : list str) (lang : str) (styles regions : list (list (str * str)))
  (divs : list (list (str * str) * list (list (str * str) * list cnode))) : skdoc :=
  mkSkdoc (tt_attrs lang) styles regions
          (map (fun dv => mkSkdiv (fst dv) (map (p_of_caption legacy ids) (snd dv))) divs).
Definition caption_ok (ids : list str) (p : list (str * str) * list cnode) : Prop :=
  attrs_ok (fst p) [] /\ Forall cnode_ok (snd p) /\ balanced (map (to_pnode ids) (snd p)).

Lemma doc_of_captions_ok : forall legacy ids lang styles regions divs,
  forallb is_xml_char lang = true ->
  Forall (fun a => attrs_ok a []) styles -> Forall (fun a => attrs_ok a []) regions ->
  Forall (fun dv => attrs_ok (fst dv) [] /\ Forall (caption_ok ids) (snd dv)) divs ->
  skdoc_ok (doc_of_captions legacy ids lang styles regions divs).
Proof.
  intros legacy ids lang styles regions divs Hl Hs Hr Hd. unfold doc_of_captions, skdoc_ok.
  cbn [k_tt k_styles k_regions k_divs]. split; [apply tt_attrs_ok; exact Hl|]. split; [exact Hs|]. split; [exact Hr|].
  rewrite Forall_forall in *. intros dv Hdv. apply in_map_iff in Hdv. destruct Hdv as (x & <- & Hx).
  destruct (Hd x Hx) as [Ha Hp]. split; [exact Ha|]. cbn [kd_ps]. rewrite Forall_forall in *. intros p Hp'.
  apply in_map_iff in Hp'. destruct Hp' as (y & <- & Hy). destruct (Hp y Hy) as (A1 & A2 & A3).
  split; [exact A1|]. cbn [kp_text p_of_caption]. apply caption_payload_wellformed; assumption.
Qed.

Theorem document_of_captions_wellformed : forall legacy ids lang styles regions divs,
  forallb is_xml_char lang = true ->
  Forall (fun a => attrs_ok a []) styles -> Forall (fun a => attrs_ok a []) regions ->
  Forall (fun dv => attrs_ok (fst dv) [] /\ Forall (caption_ok ids) (snd dv)) divs ->
  exists evs, doc_parse (dfxp_document (doc_of_captions legacy ids lang styles regions divs)) = Some evs.
Proof. intros. apply skeleton_wellformed, doc_of_captions_ok; assumption. Qed.
