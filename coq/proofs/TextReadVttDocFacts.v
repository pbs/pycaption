(* C04, WebVTT documents: the line loop of WebVTTReader._parse returns exactly the cues of a document that also
   contains cue identifiers and NOTE / STYLE / REGION blocks, before and after cues, with any number of blank lines. *)
From Coq Require Import List ZArith Bool Lia ZifyBool.
From PV Require Import lib.Sx lib.Str lib.StrFacts model.TextNodes model.TextRead spec.SpecTextRead.
Import ListNotations.
Open Scope Z_scope.

Definition line_plain (l : str) : bool := negb (has_arrow_b l) && (match l with [] => false | _ => true end).

Definition wf_block (b : vblock) : bool :=
  match b with
  | BCue ident timing items =>
      (match ident with Some i => line_plain i | None => true end) && has_arrow_b timing &&
      forallb line_plain (payload_lines items)
  | BOther ls => forallb line_plain ls
  end.

Fixpoint wf_blocks (bs : list (vblock * nat)) : bool :=
  match bs with
  | [] => true
  | [(b, _)] => wf_block b
  | (b, g) :: t => wf_block b && (1 <=? g)%nat && wf_blocks t
  end.

Definition lstate := (list node * bool * list (list node))%type.
Definition run (fixed : bool) (ls : list str) (st : lstate) : lstate := fold_left (vtt_line_step fixed) ls st.
Definition finish (st : lstate) : list (list node) :=
  let '(nodes, _, caps) := st in rev (match nodes with [] => caps | _ => rev nodes :: caps end).

Lemma run_app : forall fixed a b st, run fixed (a ++ b) st = run fixed b (run fixed a st).
Proof. intros. unfold run. apply fold_left_app. Qed.

(* a non-empty line without an arrow: payload inside a cue, ignored outside *)
Lemma step_plain : forall fixed nodes found caps l, line_plain l = true ->
  vtt_line_step fixed (nodes, found, caps) l =
  if found then (NText (vtt_decode fixed l) :: match nodes with [] => [] | _ => NBreak :: nodes end, true, caps)
  else (nodes, false, caps).
Proof.
  intros fixed nodes found caps l H. unfold line_plain in H. apply andb_true_iff in H. destruct H as [Ha Hn].
  apply negb_true_iff in Ha. unfold vtt_line_step. rewrite Ha. destruct l; [discriminate|]. destruct found; reflexivity.
Qed.

Lemma run_plain_ignored : forall fixed ls nodes caps, forallb line_plain ls = true ->
  run fixed ls (nodes, false, caps) = (nodes, false, caps).
Proof.
  intros fixed. induction ls as [|l ls IH]; intros nodes caps H; [reflexivity|].
  cbn [forallb] in H. apply andb_true_iff in H. destruct H as [Hl Hls].
  unfold run. cbn [fold_left]. rewrite (step_plain _ _ _ _ _ Hl). apply IH, Hls.
Qed.

Lemma run_blank_idle : forall fixed g caps, run fixed (repeat [] g) ([], false, caps) = ([], false, caps).
Proof. intros fixed. induction g as [|g IH]; intros caps; [reflexivity|]. unfold run in *. cbn [repeat fold_left vtt_line_step]. apply IH. Qed.

Lemma run_payload : forall fixed ls acc caps, forallb line_plain ls = true -> acc <> [] ->
  run fixed ls (acc, true, caps) =
  (rev (flat_map (fun l => [NBreak; NText (vtt_decode fixed l)]) ls) ++ acc, true, caps).
Proof.
  intros fixed. induction ls as [|l ls IH]; intros acc caps H Hacc; [reflexivity|].
  cbn [forallb] in H. apply andb_true_iff in H. destruct H as [Hl Hls].
  unfold run. cbn [fold_left]. rewrite (step_plain _ _ _ _ _ Hl). destruct acc as [|a acc']; [congruence|].
  fold (run fixed ls (NText (vtt_decode fixed l) :: NBreak :: a :: acc', true, caps)).
  rewrite IH by (try exact Hls; discriminate). cbn [flat_map app rev]. rewrite <- !app_assoc. reflexivity.
Qed.

Lemma intersperse_cons : forall x l, intersperse_break (x :: l) = x :: flat_map (fun y => [NBreak; y]) l.
Proof.
  intros x l. revert x. induction l as [|y l IH]; intros x; [reflexivity|].
  change (intersperse_break (x :: y :: l)) with (x :: NBreak :: intersperse_break (y :: l)). rewrite IH. reflexivity.
Qed.

Lemma run_cue_lines : forall fixed ls caps, forallb line_plain ls = true -> ls <> [] ->
  run fixed ls ([], true, caps) = (rev (vtt_cue_nodes fixed ls), true, caps).
Proof.
  intros fixed [|l ls] caps H Hne; [congruence|].
  cbn [forallb] in H. apply andb_true_iff in H. destruct H as [Hl Hls].
  unfold run. cbn [fold_left]. rewrite (step_plain _ _ _ _ _ Hl).
  fold (run fixed ls ([NText (vtt_decode fixed l)], true, caps)).
  rewrite run_payload by (try exact Hls; discriminate).
  unfold vtt_cue_nodes. cbn [map]. rewrite intersperse_cons. cbn [rev].
  rewrite flat_map_concat_map, (flat_map_concat_map _ (map _ ls)), map_map. reflexivity.
Qed.

Lemma rev_cue_nonnil : forall fixed items, rev (vtt_cue_nodes fixed (payload_lines items)) <> [].
Proof.
  intros fixed items E. apply (f_equal (@length node)) in E. rewrite rev_length in E. unfold vtt_cue_nodes, payload_lines in E.
  pose proof (split_ch_nonempty 10 (serialise F_VTT items)) as N. destruct (split_ch 10 _); [congruence|].
  cbn [map] in E. rewrite intersperse_cons in E. discriminate.
Qed.

(* blank lines after a cue: the first one closes it, the others are idle *)
Lemma run_gap_after_cue : forall fixed g nodes caps, nodes <> [] -> (1 <= g)%nat ->
  run fixed (repeat [] g) (nodes, true, caps) = ([], false, rev nodes :: caps).
Proof.
  intros fixed g nodes caps Hn Hg. destruct g as [|g]; [lia|]. unfold run. cbn [repeat fold_left vtt_line_step].
  change (has_arrow_b []) with false. cbv iota. destruct nodes as [|n ns]; [congruence|]. cbn [andb].
  apply (run_blank_idle fixed g).
Qed.

Definition cue_of (fixed : bool) (b : vblock) : list (list node) :=
  match b with BCue _ _ items => [vtt_cue_nodes fixed (payload_lines items)] | BOther _ => [] end.

Lemma run_block_lines : forall fixed b caps, wf_block b = true ->
  run fixed (block_lines b) ([], false, caps) =
  match b with
  | BCue _ _ items => (rev (vtt_cue_nodes fixed (payload_lines items)), true, caps)
  | BOther _ => ([], false, caps)
  end.
Proof.
  intros fixed [ident timing items|ls] caps H; cbn [wf_block block_lines] in *.
  - apply andb_true_iff in H. destruct H as [H Hp]. apply andb_true_iff in H. destruct H as [Hi Ht].
    rewrite run_app.
    assert (Hid : run fixed (match ident with Some i => [i] | None => [] end) ([], false, caps) = ([], false, caps)).
    { destruct ident as [i|]; [|reflexivity]. apply run_plain_ignored. cbn [forallb]. rewrite Hi. reflexivity. }
    rewrite Hid. unfold run at 1. cbn [fold_left vtt_line_step]. rewrite Ht.
    fold (run fixed (payload_lines items) ([], true, caps)).
    apply run_cue_lines; [exact Hp|]. unfold payload_lines. apply split_ch_nonempty.
  - apply run_plain_ignored. exact H.
Qed.

(* a block and the blank lines after it: at least one closes its cue; at the end of the document finish does *)
Lemma run_block_gap : forall fixed b g caps, wf_block b = true -> (1 <= g)%nat ->
  run fixed (block_lines b ++ repeat [] g) ([], false, caps) = ([], false, rev (cue_of fixed b) ++ caps).
Proof.
  intros fixed b g caps H Hg. rewrite run_app, (run_block_lines fixed b caps H). destruct b as [ident timing items|ls]; cbn [cue_of].
  - rewrite run_gap_after_cue, rev_involutive by (try exact Hg; apply rev_cue_nonnil). reflexivity.
  - apply run_blank_idle.
Qed.

Lemma finish_last_block : forall fixed b caps, wf_block b = true ->
  finish (run fixed (block_lines b) ([], false, caps)) = rev caps ++ cue_of fixed b.
Proof.
  intros fixed b caps H. rewrite (run_block_lines fixed b caps H). destruct b as [ident timing items|ls]; cbn [cue_of finish].
  - pose proof (rev_cue_nonnil fixed items) as N. destruct (rev (vtt_cue_nodes fixed (payload_lines items))) eqn:E; [congruence|].
    rewrite <- E, rev_involutive. reflexivity.
  - rewrite app_nil_r. reflexivity.
Qed.

Lemma run_blocks : forall fixed bs caps, wf_blocks bs = true ->
  finish (run fixed (blocks_lines bs) ([], false, caps)) = rev caps ++ flat_map (fun bg => cue_of fixed (fst bg)) bs.
Proof.
  intros fixed. induction bs as [|[b g] bs IH]; intros caps H.
  - cbn. rewrite app_nil_r. reflexivity.
  - cbn [blocks_lines flat_map fst]. destruct bs as [|bg2 bs'].
    + (* last block: any gap *)
      cbn [wf_blocks] in H. cbn [blocks_lines flat_map]. rewrite !app_nil_r. destruct g as [|g].
      * cbn [repeat]. rewrite app_nil_r. apply finish_last_block, H.
      * rewrite run_block_gap by (try exact H; lia). cbn [finish]. rewrite rev_app_distr, rev_involutive. reflexivity.
    + change (wf_block b && (1 <=? g)%nat && wf_blocks (bg2 :: bs') = true) in H. apply andb_true_iff in H. destruct H as [H Hrest]. apply andb_true_iff in H. destruct H as [Hb Hg].
      rewrite app_assoc, run_app, run_block_gap, (IH _ Hrest), rev_app_distr, rev_involutive, <- app_assoc by (try exact Hb; lia).
      reflexivity.
Qed.

(* the reader returns one caption per cue, in order, with the decoded payload lines: identifiers, NOTE / STYLE /
   REGION blocks and header lines never reach a caption, wherever they stand *)
Theorem vtt_document_cues : forall fixed header bs,
  forallb line_plain header = true -> wf_blocks bs = true ->
  vtt_parse fixed (vtt_document_lines header bs) =
  map (fun items => vtt_cue_nodes fixed (payload_lines items)) (cues_of bs).
Proof.
  intros fixed header bs Hh Hb. unfold vtt_parse, vtt_document_lines.
  change (fold_left (vtt_line_step fixed) (header ++ [[]] ++ blocks_lines bs) ([], false, []))
    with (run fixed (header ++ [[]] ++ blocks_lines bs) ([], false, [])).
  rewrite !run_app, (run_plain_ignored fixed header [] [] Hh).
  change (run fixed [[]] ([], false, [])) with (([], false, []) : lstate).
  pose proof (run_blocks fixed bs [] Hb) as R. unfold finish in R. cbn [rev app] in R.
  destruct (run fixed (blocks_lines bs) ([], false, [])) as [[nodes found] caps]. rewrite R.
  unfold cues_of. rewrite !flat_map_concat_map, concat_map, !map_map. f_equal. apply map_ext.
  intros [[ident timing items|ls] g]; reflexivity.
Qed.
