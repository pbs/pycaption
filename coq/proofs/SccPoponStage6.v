(* C05 / C06, stage 6 of the pop-on refinement: WHOLE PROGRAMS. Several loads, each on its own line,
   Erase-Displayed-Memory lines anywhere in between, control codes single or doubled.
   The lifting is generic in the class of loads (Section Loads): a load line is run from any between-lines state `B`
   (H_line), what is stored for a load is one batch of captions (H_good, one stash_extend call), the stream is folded over
   its segments, and the stash is computed in closed form: the captions of load i carry the i-th span of the display
   events. Instance of this stage: the basic loads of stage 3 (several rows of basic characters, plain white preambles,
   pairwise distinct rows, any transmission order); the load step is stage 3's load_run3 run from `B` (load_line6),
   the batch is `map (cap_of t0 t1) (expected_load l)`. *)
From Coq Require Import List ZArith QArith Qabs Lia Bool ZifyBool Lqa.
From PV Require Import lib.Sx lib.Str lib.StrFacts lib.Result lib.ResultFacts model.GenScc model.SccLen model.SccTime model.SccStash model.SccDecoder model.SccLayout
                       model.SccPopon spec.Spec608 spec.SpecScc05 spec.SpecSccLen spec.SpecSccTime proofs.SccTableFacts
                       proofs.SccDoubleFacts proofs.SccLenFacts proofs.SccStashFacts proofs.SccTimeFacts proofs.SccPoponFacts
                       proofs.SccPoponStage1 proofs.SccPoponStage3 proofs.SccPoponStage4.
Import ListNotations. Open Scope Z_scope.

(* performance only (see stage 1) *)
Local Strategy 1000 [basic_code is_basic].
Local Arguments stash_extend : simpl never.

Inductive pseg : Type := PLoad (tc : str) (l : load) | PClear (tc : str).
Definition pseg_line (d : bool) (s : pseg) : sline :=
  match s with PLoad tc l => (tc, emit_load d l) | PClear tc => (tc, emit_clear d) end.
Definition pseg_ok (s : pseg) : bool := match s with PLoad _ l => basic_load l | PClear _ => true end.
(* the display event of a segment: the instant of its (first) End-Of-Caption word / of its Erase-Displayed-Memory word *)
Definition pseg_event (d : bool) (off : Q) (s : pseg) : result ev :=
  match s with
  | PLoad tc l => match get_time tc (Z.of_nat (length (emit_load d l)) - (if d then 2 else 1)) off with
                  | Ok t => Ok (Show t) | Err e => Err e end
  | PClear tc => match get_time tc 0 off with Ok t => Ok (Clear t) | Err e => Err e end
  end.
Definition ploads_of (segs : list pseg) : list load :=
  flat_map (fun s => match s with PLoad _ l => [l] | PClear _ => [] end) segs.

Definition rmap {A B} (f : A -> B) (r : result A) : result B := match r with Ok a => Ok (f a) | Err e => Err e end.

Definition lcr (l : load) : creator := mkCr (load_nodes l) SNone.

Lemma load_line6 : forall d off ld st tk l ds q tm tc fr tc' t, basic_load ld = true -> last_is l w_enm = false ->
  get_time tc' (Z.of_nat (length (emit_load d ld)) - (if d then 2 else 1)) off = Ok t ->
  exists cr tk' l' ds' fr',
    translate_line (B off st tk l ds q tm tc fr) (tc', emit_load d ld)
    = B off (popped st q t) tk' l' ds' (Some (cr, t)) t tc' fr'
    /\ cr = lcr ld /\ last_is l' w_edm = false /\ last_is l' w_enm = false.
Proof.
  intros d off ld st tk l ds q tm tc fr tc' t H Hl Hg. rewrite translate_line_B.
  destruct (load_run3 d ld st tk l ds creator0 creator0 creator0 q tm tc' 0 off None t H Hl Hg) as (tk' & l' & ds' & E & Hl').
  exists (lcr ld), tk', l', ds', (0 + Z.of_nat (length (emit_load d ld))). split; [exact E|split; [reflexivity|]].
  destruct Hl' as [->| ->]; split; reflexivity.
Qed.

Definition lcaps (l : load) (t0 t1 : Q) : list precap := map (cap_of t0 t1) (expected_load l).

Lemma store_load6 : forall st l t0 t1, basic_load l = true ->
  create_and_store st (lcr l) t0 t1 = stash_extend st (lcaps l t0 t1).
Proof.
  intros st l t0 t1 H. destruct (basic_load_parts l H) as (r & t & -> & Hrow & F & _). exact (store_load_any st t0 t1 r t Hrow F).
Qed.

Lemma basic_load_expected : forall l, basic_load l = true -> expected_load l <> [] /\ Forall good_ecap (expected_load l).
Proof.
  intros l H. destruct (basic_load_parts l H) as (r & t & -> & Hrow & F & _).
  split; [apply expected_load_nonempty|exact (expected_load_good r t Hrow F)].
Qed.

Lemma skipn_app_len : forall A (acc X : list A), skipn (length (acc ++ X) - length X) (acc ++ X) = X.
Proof.
  intros A acc X. rewrite app_length. replace (length acc + length X - length X)%nat with (length acc) by lia.
  rewrite skipn_app, skipn_all, Nat.sub_diag. reflexivity.
Qed.

Lemma map_tail_app_len : forall A (f : A -> A) (acc X : list A), map_tail (length X) f (acc ++ X) = acc ++ map f X.
Proof.
  intros A f acc X. unfold map_tail. rewrite skipn_app_len, app_length.
  replace (length acc + length X - length X)%nat with (length acc) by lia.
  rewrite firstn_app, firstn_all, Nat.sub_diag. cbn [firstn]. rewrite app_nil_r. reflexivity.
Qed.

Lemma last_some_ne : forall A (l : list A), l <> [] -> exists x, last (map Some l) None = Some x.
Proof.
  intros A. induction l as [|a t IH]; intros H; [congruence|]. destruct t as [|b t'].
  - exists a. reflexivity.
  - destruct IH as [x Hx]; [discriminate|]. exists x. exact Hx.
Qed.

Lemma filter_nil_all : forall A (f : A -> bool) l x, filter f l = [] -> In x l -> f x = false.
Proof.
  intros A f. induction l as [|a l IH]; intros x H Hx; [destruct Hx|]. cbn [filter] in H.
  destruct (f a) eqn:E; [discriminate|]. destruct Hx as [<-|Hx]; [exact E|exact (IH x H Hx)].
Qed.

Lemma map_snoc_inv : forall A X (f : A -> X) bl l p, map f bl = l ++ [p] ->
  exists bl1 a, bl = bl1 ++ [a] /\ f a = p /\ map f bl1 = l.
Proof.
  intros A X f bl l p H. induction bl as [|b0 bl0 _] using rev_ind.
  - destruct l; discriminate.
  - rewrite map_app in H. cbn [map] in H. apply app_inj_tail in H. destruct H as [H1 H2]. exists bl0, b0. auto.
Qed.

Lemma combine_map2 : forall A X Y (f : A -> X) (g : A -> Y) l, combine (map f l) (map g l) = map (fun a => (f a, g a)) l.
Proof. intros A X Y f g. induction l as [|a l IH]; [reflexivity|]. cbn [map combine]. rewrite IH. reflexivity. Qed.

Lemma map_const_repeat : forall A X (x : X) (l : list A), map (fun _ => x) l = repeat x (length l).
Proof. intros A X x. induction l as [|a l IH]; [reflexivity|]. cbn [map length repeat]. rewrite IH. reflexivity. Qed.

Lemma offending_app : forall a b, offending (a ++ b) = offending a ++ offending b.
Proof. intros a b. unfold offending. rewrite map_app, concat_app. reflexivity. Qed.

Lemma load_ok_length : forall es os sp rest sp', load_ok es os sp = Some (rest, sp') -> length os = (length es + length rest)%nat.
Proof.
  induction es as [|e es IH]; intros os sp rest sp' H.
  - cbn [load_ok] in H. inversion H. reflexivity.
  - cbn [load_ok] in H. destruct os as [|o os]; [discriminate|].
    destruct (cap_ok e o && _); [|discriminate]. apply IH in H. cbn [length]. lia.
Qed.

Lemma screens_repeat : forall x n rest, screens (repeat x (S n) ++ rest) = screens (x :: rest).
Proof.
  intros x. induction n as [|n IH]; intros rest; [reflexivity|].
  change (repeat x (S (S n)) ++ rest) with (x :: x :: (repeat x n ++ rest)).
  change (screens (x :: x :: (repeat x n ++ rest)))
    with (if Qeq_bool (fst x) (fst x) && Qeq_bool (snd x) (snd x) then screens (x :: (repeat x n ++ rest))
          else x :: screens (x :: (repeat x n ++ rest))).
  rewrite !Qeq_bool_refl. cbn [andb]. exact (IH rest).
Qed.

Lemma screens_cons_hd : forall x l l', hd_error l = hd_error l' -> screens l = screens l' -> screens (x :: l) = screens (x :: l').
Proof.
  intros x l l' Hh Hs. destruct l as [|y l], l' as [|y' l'']; try discriminate Hh; [reflexivity|].
  inversion Hh. subst y'. cbn [screens] in *. rewrite Hs. reflexivity.
Qed.

(* a batch: a load with the (start, end) its captions carry *)
Definition batch : Type := (load * (Q * Q))%type.
Definition bspans (b : batch) : list (Q * Q) := repeat (snd b) (length (expected_load (fst b))).

Lemma screens_batches : forall bl : list batch, Forall (fun b => expected_load (fst b) <> []) bl ->
  screens (flat_map bspans bl) = screens (map snd bl).
Proof.
  intros bl F. induction F as [|b bl Hne F IH]; [reflexivity|].
  cbn [flat_map map]. unfold bspans at 1.
  destruct (expected_load (fst b)) as [|e0 es]; [congruence|]. cbn [length]. rewrite screens_repeat.
  apply screens_cons_hd; [|exact IH].
  destruct F as [|b' bl' Hne' F']; [reflexivity|].
  cbn [flat_map map hd_error]. unfold bspans at 1. destruct (expected_load (fst b')) as [|e1 es']; [congruence|]. reflexivity.
Qed.

Lemma stores_cons : forall o e evs,
  stores o (e :: evs) = match o with Some s => [(s, ev_time e)] | None => [] end
                        ++ stores (match e with Show t => Some t | Clear _ => None end) evs.
Proof. intros [s|] [t|t] evs; reflexivity. Qed.

(* The oracle demands start < end for every caption and strictly increasing starts from load to load. The instants of a
   stream are whatever its timecodes say, so this needs a hypothesis on the events: every event happens strictly after
   the most recent Show (in particular the Show instants increase strictly, and a caption is taken off the screen
   strictly after it was shown). Strictly increasing event instants imply it (sorted_after_show). *)
Fixpoint after_show (last : option Q) (evs : list ev) : Prop :=
  match evs with
  | [] => True
  | e :: r => match last with Some s => (s < ev_time e)%Q | None => True end
              /\ after_show (match e with Show t => Some t | Clear _ => last end) r
  end.

Definition lt_opt (lo : option Q) (s : Q) : Prop := match lo with Some x => (x < s)%Q | None => True end.

Fixpoint wf_raw (lo : option Q) (l : list (Q * option Q)) : Prop :=
  match l with
  | [] => True
  | (s, oe) :: t => lt_opt lo s /\ match oe with Some e => (s < e)%Q | None => True end /\ wf_raw (Some s) t
  end.

Fixpoint wf_spans (lo : option Q) (l : list (Q * Q)) : Prop :=
  match l with
  | [] => True
  | (s, e) :: t => lt_opt lo s /\ (s < e)%Q /\ wf_spans (Some s) t
  end.

Lemma raw_wf : forall evs last shown lo, after_show last evs ->
  match shown with Some s => last = Some s /\ lt_opt lo s | None => lo = last end ->
  wf_raw lo (raw_spans evs shown).
Proof.
  induction evs as [|e evs IH]; intros last shown lo Ha Hs.
  - destruct shown as [s|]; cbn [raw_spans wf_raw]; [|exact I]. destruct Hs as [_ Hs]. auto.
  - cbn [after_show] in Ha. destruct Ha as [Hlt Ha]. destruct e as [t|t]; cbn [ev_time raw_spans] in *.
    + destruct shown as [s|].
      * destruct Hs as [-> Hlo]. cbn [app wf_raw]. split; [exact Hlo|split; [exact Hlt|]].
        apply (IH (Some t)); [exact Ha|]. split; [reflexivity|exact Hlt].
      * subst lo. cbn [app]. apply (IH (Some t)); [exact Ha|]. split; [reflexivity|exact Hlt].
    + destruct shown as [s|].
      * destruct Hs as [-> Hlo]. cbn [app wf_raw]. split; [exact Hlo|split; [exact Hlt|]].
        apply (IH (Some s)); [exact Ha|reflexivity].
      * subst lo. cbn [app]. apply (IH last); [exact Ha|reflexivity].
Qed.

Lemma four_s_pos : forall s : Q, (s < s + four_s)%Q.
Proof. intros s. unfold four_s. change (inject_Z 4000000) with (4000000 # 1)%Q. lra. Qed.

Lemma close_wf : forall thr r lo, wf_raw lo r -> wf_spans lo (close_gaps thr r).
Proof.
  intros thr. induction r as [|[s oe] r IH]; intros lo H; [exact I|].
  cbn [wf_raw] in H. destruct H as (Hlo & He & Hr). cbn [close_gaps wf_spans]. split; [exact Hlo|split; [|apply IH; exact Hr]].
  destruct oe as [e|]; [|apply four_s_pos]. destruct r as [|[s' oe'] r']; [exact He|].
  destruct (Qle_bool thr (s' - e)); [exact He|]. cbn [wf_raw lt_opt] in Hr. apply Hr.
Qed.

Lemma expected_wf : forall thr evs spans, after_show None evs -> expected_with thr evs = Ok spans -> wf_spans None spans.
Proof.
  intros thr evs spans Ha H. unfold expected_with in H. cbv zeta in H.
  destruct (existsb flash _); [discriminate|].
  assert (W : wf_spans None (close_gaps thr (raw_spans evs None))).
  { apply close_wf. apply (raw_wf evs None None None Ha). reflexivity. }
  destruct (close_gaps thr (raw_spans evs None)); [discriminate|]. inversion H. subst spans. exact W.
Qed.

(* strictly increasing event instants are enough *)
Fixpoint increasing (last : option Q) (evs : list ev) : Prop :=
  match evs with
  | [] => True
  | e :: r => lt_opt last (ev_time e) /\ increasing (Some (ev_time e)) r
  end.

Lemma sorted_after_show : forall evs last prev, increasing prev evs ->
  match last with Some s => match prev with Some p => (s <= p)%Q | None => False end | None => True end ->
  after_show last evs.
Proof.
  induction evs as [|e evs IH]; intros last prev Hi Hl; [exact I|].
  cbn [increasing after_show] in *. destruct Hi as [Hp Hi]. split.
  - destruct last as [s|]; [|exact I]. destruct prev as [p|]; [|contradiction]. cbn [lt_opt] in Hp. cbv beta iota in Hl. lra.
  - apply (IH _ (Some (ev_time e)) Hi). destruct e as [t|t]; cbn [ev_time] in *.
    + apply Qle_refl.
    + destruct last as [s|]; [|exact I]. destruct prev as [p|]; [|contradiction]. cbn [lt_opt] in Hp. cbv beta iota in Hl. lra.
Qed.

Corollary increasing_after_show : forall evs, increasing None evs -> after_show None evs.
Proof. intros evs H. apply (sorted_after_show evs None None H). exact I. Qed.

(* LIFTING: what is known about ONE load of a class (H_line, H_good, H_wf) is lifted to whole programs of loads of the class:
   the captions of load i carry the i-th span of the display events (prog_read_batches), C06 (prog_spans_mult, prog_spans),
   C05 (prog_ok, prog_refines). *)
Section Loads.
  Variable lc_ok : load -> bool.                     (* the class of loads *)
  Variable lc_good : load -> creator -> Prop.        (* what is known about the creator queued for a load of the class *)
  (* anything else one wants to know about the batch stored for a load shown at t0 (carried through to the conclusions,
     not used by the lifting; `fun _ _ _ => True` if nothing) *)
  Variable lc_caps : load -> Q -> list precap -> Prop.

  Hypothesis H_line : forall d off ld st tk l ds q tm tc fr tc' t,
    lc_ok ld = true -> last_is l w_enm = false ->
    get_time tc' (Z.of_nat (length (emit_load d ld)) - (if d then 2 else 1)) off = Ok t ->
    exists cr tk' l' ds' fr',
      translate_line (B off st tk l ds q tm tc fr) (tc', emit_load d ld)
        = B off (popped st q t) tk' l' ds' (Some (cr, t)) t tc' fr'
      /\ lc_good ld cr /\ last_is l' w_edm = false /\ last_is l' w_enm = false.

  (* the stash may later reset the END of the captions of a batch (update_last_batch, fix_last): the oracle clause is
     about the captions with any end e after their start *)
  Hypothesis H_good : forall ld cr st t0 t1, lc_ok ld = true -> lc_good ld cr ->
    exists caps, create_and_store st cr t0 t1 = stash_extend st caps /\ caps <> [] /\
      Forall (fun c => pc_start c = t0 /\ pc_end c = t1 /\ has_nodes c = true) caps /\
      (forall c ln, In c caps -> In ln (lines_of (cap_text c)) -> (length ln <= 32)%nat) /\
      (forall e, (t0 < e)%Q -> forall rest,
         load_ok (expected_load ld) (map observe (map (set_end e) caps) ++ rest) None = Some (rest, Some (t0, e))) /\
      lc_caps ld t0 caps.

  Hypothesis H_wf : forall ld, lc_ok ld = true -> load_wf ld = true.

  Definition cseg_ok (s : pseg) : bool := match s with PLoad _ l => lc_ok l | PClear _ => true end.

  Definition cbatch : Type := ((load * list precap) * (Q * Q))%type.
  Definition cb_load (b : cbatch) : load := fst (fst b).
  Definition cb_span (b : cbatch) : Q * Q := snd b.
  Definition cb_caps (b : cbatch) : list precap := map (set_end (snd (snd b))) (snd (fst b)).
  Definition cb_ext (st : stash) (b : cbatch) : stash := stash_extend st (cb_caps b).

  (* independent of the end *)
  Definition cb_good (b : cbatch) : Prop :=
    let ld := fst (fst b) in let caps := snd (fst b) in let s := fst (snd b) in
    caps <> [] /\ Forall (fun c => pc_start c = s /\ has_nodes c = true) caps /\
    (forall c ln, In c caps -> In ln (lines_of (cap_text c)) -> (length ln <= 32)%nat) /\
    (forall e, (s < e)%Q -> forall rest,
       load_ok (expected_load ld) (map observe (map (set_end e) caps) ++ rest) None = Some (rest, Some (s, e))) /\
    lc_caps ld s caps.

  Definition reend (b : cbatch) (e : Q) : cbatch := (fst b, (fst (snd b), e)).
  Lemma cb_good_reend : forall b e, cb_good b -> cb_good (reend b e).
  Proof. intros [[ld caps] [s e0]] e H. exact H. Qed.

  Lemma store_cbatch : forall ld cr st t0 t1, lc_ok ld = true -> lc_good ld cr ->
    exists caps, create_and_store st cr t0 t1 = cb_ext st ((ld, caps), (t0, t1)) /\ cb_good ((ld, caps), (t0, t1)).
  Proof.
    intros ld cr st t0 t1 Hok Hg. destruct (H_good ld cr st t0 t1 Hok Hg) as (caps & E & Hne & F & Hs & Ho & Hc).
    exists caps. unfold cb_ext, cb_caps, cb_good. cbn [fst snd]. rewrite map_set_end_id.
    - split; [exact E|]. split; [exact Hne|]. split; [|split; [exact Hs|split; [exact Ho|exact Hc]]].
      refine (Forall_impl _ _ F). intros c (A & _ & C). split; assumption.
    - refine (Forall_impl _ _ F). intros c Hc0. apply Hc0.
  Qed.

  Lemma cb_good_length : forall b, cb_good b -> length (snd (fst b)) = length (expected_load (cb_load b)).
  Proof.
    intros [[ld caps] [s e]] (_ & _ & _ & Ho & _). cbn [cb_load fst snd] in Ho |- *.
    assert (Hlt : (s < s + 1)%Q) by lra. specialize (Ho _ Hlt []). apply load_ok_length in Ho.
    rewrite app_nil_r, !map_length in Ho. cbn [length] in Ho. lia.
  Qed.

  Lemma cb_good_expected : forall b, cb_good b -> expected_load (cb_load b) <> [].
  Proof.
    intros b H E. pose proof (cb_good_length b H) as L. rewrite E in L. destruct H as (Hne & _).
    destruct (snd (fst b)); [congruence|discriminate].
  Qed.

  Definition lq : Type := option ((load * creator) * Q).
  Definition lq_real (q : lq) : option (creator * Q) := match q with Some ((_, cr), t) => Some (cr, t) | None => None end.
  Definition lq_load (q : lq) : list load := match q with Some ((l, _), _) => [l] | None => [] end.
  Definition lq_time (q : lq) : option Q := match q with Some (_, t) => Some t | None => None end.
  Definition lq_ok (q : lq) : Prop := match q with Some ((l, cr), _) => lc_ok l = true /\ lc_good l cr | None => True end.
  Definition linv (l : lastcmd) (q : lq) : Prop :=
    last_is l w_enm = false /\ (q = None \/ last_is l w_edm = false) /\ lq_ok q.

  (* popping the queue at t stores at most one good batch, which ends at t *)
  Lemma popped_batch : forall q st t, lq_ok q ->
    exists bs, popped st (lq_real q) t = fold_left cb_ext bs st /\ Forall cb_good bs /\ map cb_load bs = lq_load q
               /\ map cb_span bs = match lq_time q with Some s => [(s, t)] | None => [] end.
  Proof.
    intros [[[l0 cr0] t0]|] st t Hq.
    - destruct Hq as [H1 H2]. destruct (store_cbatch l0 cr0 st t0 t H1 H2) as (caps & E & Hb).
      exists [((l0, caps), (t0, t))]. split; [exact E|]. split; [constructor; [exact Hb|constructor]|split; reflexivity].
    - exists []. split; [reflexivity|]. split; [constructor|split; reflexivity].
  Qed.

  (* every line of the stream pops the queue at the instant of its event; a load line queues its load *)
  Lemma seg_step : forall d off s e st tk l ds q tm tc fr, cseg_ok s = true -> pseg_event d off s = Ok e -> linv l q ->
    exists tk' l' ds' q' tm' tc' fr',
      translate_line (B off st tk l ds (lq_real q) tm tc fr) (pseg_line d s)
      = B off (popped st (lq_real q) (ev_time e)) tk' l' ds' (lq_real q') tm' tc' fr'
      /\ linv l' q' /\ lq_load q' = match s with PLoad _ ld => [ld] | PClear _ => [] end
      /\ lq_time q' = match e with Show t => Some t | Clear _ => None end.
  Proof.
    intros d off s e st tk l ds q tm tc fr Hs He (Hl1 & Hl2 & Hq). destruct s as [tc1 ld|tc1]; cbn [pseg_event cseg_ok pseg_line] in Hs, He |- *.
    - destruct (get_time tc1 _ off) as [t|x] eqn:Eg; [|discriminate]. inversion He. subst e.
      destruct (H_line d off ld st tk l ds (lq_real q) tm tc fr tc1 t Hs Hl1 Eg) as (cr & tk' & l' & ds' & fr' & E & Hg & Hl' & Hl'').
      exists tk', l', ds', (Some ((ld, cr), t)), t, tc1, fr'. split; [exact E|].
      split; [split; [exact Hl''|split; [right; exact Hl'|split; assumption]]|split; reflexivity].
    - destruct (get_time tc1 0 off) as [t|x] eqn:Eg; [|discriminate]. inversion He. subst e.
      assert (Hi : forall l', last_is l' w_enm = false -> linv l' None) by (intros l' H; split; [exact H|split; [left; reflexivity|exact I]]).
      destruct q as [[[l0 cr0] t0]|]; cbn [lq_real popped ev_time].
      + destruct Hl2 as [X|Hl2]; [discriminate|].
        destruct (clear_line_some d off st tk l ds cr0 t0 tm tc fr tc1 t Hl2 Eg) as (l' & ds' & fr' & E & Hl').
        exists tk, l', ds', None, tm, tc1, fr'. split; [exact E|]. split; [exact (Hi l' Hl')|split; reflexivity].
      + destruct (clear_line_none d off st tk l ds tm tc fr tc1) as (l' & ds' & fr' & E & Hl').
        exists tk, l', ds', None, tm, tc1, fr'. split; [exact E|]. split; [exact (Hi l' Hl')|split; reflexivity].
  Qed.

  (* the lines of the stream from a between-lines state, followed by the final flush of the queue: the stash is extended
     by one good batch per queued load, with the (start, end) the event-level model stores (stores, SccPoponFacts) *)
  Lemma run_csegs : forall d off segs evs st tk l ds q tm tc fr,
    forallb cseg_ok segs = true -> res_map (pseg_event d off) segs = Ok evs -> linv l q ->
    exists bl st' tk' l' ds' q' tm' tc' fr',
      fold_left translate_line (map (pseg_line d) segs) (B off st tk l ds (lq_real q) tm tc fr)
      = B off st' tk' l' ds' (lq_real q') tm' tc' fr'
      /\ popped st' (lq_real q') 0 = fold_left cb_ext bl st
      /\ Forall cb_good bl /\ map cb_load bl = lq_load q ++ ploads_of segs /\ map cb_span bl = stores (lq_time q) evs.
  Proof.
    intros d off. induction segs as [|s segs IH]; intros evs st tk l ds q tm tc fr Hok He Hinv.
    - inversion He. destruct (popped_batch q st 0 (proj2 (proj2 Hinv))) as (bs & E & F & E1 & E2).
      exists bs, st, tk, l, ds, q, tm, tc, fr. rewrite app_nil_r, E2. split; [reflexivity|]. split; [exact E|].
      split; [exact F|split; [exact E1|]]. destruct q as [[? ?]|]; reflexivity.
    - destruct (res_map_cons _ _ _ _ He) as (e & evs' & Hev & He' & ->).
      rewrite forallb_cons in Hok. apply andb_true_iff in Hok. destruct Hok as [Hs Hok].
      destruct (seg_step d off s e st tk l ds q tm tc fr Hs Hev Hinv) as (tk1 & l1 & ds1 & q1 & tm1 & tc1 & fr1 & E1 & Hinv1 & Hld & Htm).
      destruct (popped_batch q st (ev_time e) (proj2 (proj2 Hinv))) as (bs & Eb & Fb & Lb & Sb).
      destruct (IH evs' (popped st (lq_real q) (ev_time e)) tk1 l1 ds1 q1 tm1 tc1 fr1 Hok He' Hinv1) as (bl & st' & tk' & l' & ds' & q' & tm' & tc' & fr' & E2 & Ep & F2 & L2 & S2).
      exists (bs ++ bl), st', tk', l', ds', q', tm', tc', fr'. cbn [map fold_left]. rewrite E1. split; [exact E2|].
      rewrite fold_left_app, <- Eb, !map_app, Lb, Sb, L2, S2, Hld, Htm, stores_cons. split; [exact Ep|].
      split; [apply Forall_app; split; assumption|split; reflexivity].
  Qed.

  Theorem read_csegs : forall d off segs evs,
    forallb cseg_ok segs = true -> res_map (pseg_event d off) segs = Ok evs ->
    exists bl, read off (map (pseg_line d) segs) = finish_read (fold_left cb_ext bl stash0)
               /\ Forall cb_good bl /\ map cb_load bl = ploads_of segs /\ map cb_span bl = stores None evs.
  Proof.
    intros d off segs evs Hok He.
    destruct (run_csegs d off segs evs stash0 tracker0 LNone false None 0%Q (lit "00:00:00;00") 0 Hok He)
      as (bl & st & tk & l & ds & q & tm & tc & fr & E & Ep & Fb & El & Es).
    { split; [reflexivity|split; [left; reflexivity|exact I]]. }
    exists bl. split; [|split; [exact Fb|split; [exact El|exact Es]]].
    unfold read, run_lines. change (rstate0 off) with (B off stash0 tracker0 LNone false (lq_real None) 0%Q (lit "00:00:00;00") 0).
    rewrite E. rewrite <- Ep. unfold B. cbn [r_err]. unfold flush_implicit. cbn [r_active r_queue].
    destruct q as [[[l0 cr0] t0]|]; cbn [lq_real popped].
    - unfold pop_on. cbn [r_queue]. unfold store, set_queue, set_stash. cbn [r_err r_stash]. reflexivity.
    - reflexivity.
  Qed.

  (* the lookahead form (closeM of the event-level model, loads and captions carried along) *)
  Fixpoint closeC (l : list cbatch) : list cbatch :=
    match l with
    | [] => []
    | b :: r =>
        reend b (match r with
                 | b' :: _ => if Qeq_bool (snd (snd b)) 0 || negb (Qle_bool join_threshold (fst (snd b') - snd (snd b)))
                              then fst (snd b') else snd (snd b)
                 | [] => snd (snd b)
                 end) :: closeC r
    end.

  Lemma closeC_snd : forall l, map cb_span (closeC l) = closeM (map cb_span l).
  Proof.
    induction l as [|[[ld caps] [s e]] r IH]; [reflexivity|]. cbn [closeC map]. rewrite IH.
    destruct r as [|[[ld' caps'] [s' e']] r']; reflexivity.
  Qed.

  Lemma closeC_load : forall l, map cb_load (closeC l) = map cb_load l.
  Proof. induction l as [|b r IH]; [reflexivity|]. cbn [closeC map]. rewrite IH. reflexivity. Qed.

  Lemma closeC_good : forall l, Forall cb_good l -> Forall cb_good (closeC l).
  Proof. intros l F. induction F as [|b l Hb F IH]; [constructor|]. cbn [closeC]. constructor; [apply cb_good_reend; exact Hb|exact IH]. Qed.

  Lemma cb_caps_filter : forall b, cb_good b -> filter has_nodes (cb_caps b) = cb_caps b.
  Proof.
    intros [[ld caps] [s e]] (_ & F & _). unfold cb_caps. cbn [fst snd] in F |- *. apply filter_all.
    rewrite Forall_forall in F. intros c Hc. apply in_map_iff in Hc. destruct Hc as (x & <- & Hx). apply (F x Hx).
  Qed.

  Lemma cb_caps_nonempty : forall b, cb_good b -> cb_caps b <> [].
  Proof. intros [[ld caps] [s e]] (Hne & _). unfold cb_caps. cbn [fst snd] in Hne |- *. destruct caps; [congruence|discriminate]. Qed.

  (* storing the next batch decides the end of the whole previous batch *)
  Lemma cb_ext_snoc : forall acc b b', cb_good b -> cb_good b' ->
    cb_ext (mkStash (acc ++ cb_caps b) (length (cb_caps b))) b' =
    mkStash ((acc ++ cb_caps (reend b (if Qeq_bool (snd (snd b)) 0 || negb (Qle_bool join_threshold (fst (snd b') - snd (snd b)))
                                       then fst (snd b') else snd (snd b)))) ++ cb_caps b') (length (cb_caps b')).
  Proof.
    intros acc b b' Hb Hb'. unfold cb_ext, stash_extend. rewrite (cb_caps_filter b' Hb'). f_equal. f_equal.
    unfold update_last_batch. cbn [st_caps st_batch]. rewrite skipn_app_len.
    destruct b as [[ld caps] [s e]], b' as [[ld' caps'] [s' e']]. destruct Hb as (Hne & _). destruct Hb' as (Hne' & F' & _).
    unfold cb_caps, reend. cbn [fst snd] in Hne, Hne', F' |- *. rewrite last_some_map.
    destruct (last_some_ne _ _ Hne) as [x ->]. cbn [option_map].
    destruct caps' as [|c0 cs']; [congruence|]. cbn [map].
    change (pc_end (set_end e x)) with e. change (pc_start (set_end e' c0)) with (pc_start c0).
    destruct (Forall_inv F') as [Hs0 _]. rewrite Hs0.
    destruct (Qeq_bool e 0 || negb (Qle_bool join_threshold (s' - e))); [|reflexivity].
    rewrite map_tail_app_len, map_map. reflexivity.
  Qed.

  Lemma fold_cb_ext : forall r acc b, cb_good b -> Forall cb_good r ->
    st_caps (fold_left cb_ext r (mkStash (acc ++ cb_caps b) (length (cb_caps b)))) = acc ++ flat_map cb_caps (closeC (b :: r)).
  Proof.
    induction r as [|b' r IH]; intros acc b Hb Hr.
    - cbn [fold_left st_caps closeC flat_map]. rewrite app_nil_r. destruct b as [[ld caps] [s e]]. reflexivity.
    - inversion Hr as [|? ? Hb' Hr']; subst. cbn [fold_left]. rewrite (cb_ext_snoc acc b b' Hb Hb').
      rewrite IH by assumption. rewrite <- app_assoc. reflexivity.
  Qed.

  Lemma fold_cb_ext0 : forall l, Forall cb_good l -> st_caps (fold_left cb_ext l stash0) = flat_map cb_caps (closeC l).
  Proof.
    intros [|b r] H; [reflexivity|]. inversion H as [|? ? Hb Hr]; subst. cbn [fold_left].
    unfold cb_ext at 2. rewrite stash_extend0, (cb_caps_filter b Hb). change (cb_caps b) with ([] ++ cb_caps b) at 1.
    rewrite fold_cb_ext by assumption. reflexivity.
  Qed.

  Lemma caps_short : forall e caps, (forall c ln, In c caps -> In ln (lines_of (cap_text c)) -> (length ln <= 32)%nat) ->
    offending (map to_lcap (map (set_end e) caps)) = [].
  Proof.
    intros e. induction caps as [|c caps IH]; intros H; [reflexivity|]. unfold offending in IH |- *. cbn [map concat].
    rewrite IH by (intros c0 ln H0 H1; apply (H c0 ln); [right; exact H0|exact H1]). rewrite app_nil_r.
    apply filter_none. intros ln Hln. unfold spec_long.
    assert (L : (length ln <= 32)%nat) by (apply (H c ln); [left; reflexivity|exact Hln]). lia.
  Qed.

  Lemma cbatches_not_long : forall bl, Forall cb_good bl -> offending (map to_lcap (flat_map cb_caps bl)) = [].
  Proof.
    intros bl F. induction F as [|b bl Hb F IH]; [reflexivity|].
    cbn [flat_map]. rewrite map_app, offending_app, IH, app_nil_r. destruct Hb as (_ & _ & Hs & _).
    unfold cb_caps. apply caps_short. exact Hs.
  Qed.

  Lemma cbatch_flash : forall b, cb_good b -> existsb is_flash (cb_caps b) = flash (snd b).
  Proof.
    intros [[ld caps] [s e]] (Hne & F & _). unfold cb_caps. cbn [fst snd] in Hne, F |- *.
    induction F as [|c caps [Hc _] F IH]; [congruence|]. cbn [map existsb].
    assert (E : is_flash (set_end e c) = flash (s, e)).
    { unfold is_flash, flash. cbn [set_end pc_start pc_end fst snd]. rewrite Hc. reflexivity. }
    rewrite E. destruct caps as [|c' caps']; [apply orb_false_r|]. rewrite IH by discriminate. apply orb_diag.
  Qed.

  Lemma cbatches_flash : forall bl, Forall cb_good bl -> existsb is_flash (flat_map cb_caps bl) = existsb flash (map cb_span bl).
  Proof.
    intros bl F. induction F as [|b bl Hb F IH]; [reflexivity|].
    cbn [flat_map map existsb]. rewrite existsb_app, IH, (cbatch_flash b Hb). reflexivity.
  Qed.

  Lemma finish_read_cbatches : forall st bl, Forall cb_good bl -> st_caps st = flat_map cb_caps bl ->
    finish_read st = if existsb flash (map cb_span bl) then RErr ETiming
                     else match bl with [] => RErr ENoCaptions | _ => ROk (fix_last (flat_map cb_caps bl)) end.
  Proof.
    intros st bl F E. unfold finish_read. rewrite E.
    rewrite (proj2 (length_check_none_iff _) (cbatches_not_long bl F)), (cbatches_flash bl F).
    destruct (existsb flash (map cb_span bl)); [reflexivity|]. destruct bl as [|b bl']; [reflexivity|].
    inversion F as [|? ? Hb F']; subst. pose proof (cb_caps_nonempty b Hb) as Hne. cbn [flat_map] in *.
    destruct (cb_caps b) as [|c0 cs]; [congruence|]. reflexivity.
  Qed.

  Lemma cb_caps_ended : forall bl, Forall pos_end (map cb_span bl) -> forall c, In c (flat_map cb_caps bl) -> Qeq_bool (pc_end c) 0 = false.
  Proof.
    intros bl H c Hc. apply in_flat_map in Hc. destruct Hc as ([[ld caps] [s e]] & Hb & Hc).
    unfold cb_caps in Hc. cbn [fst snd] in Hc. apply in_map_iff in Hc. destruct Hc as (x & <- & _).
    change (pc_end (set_end e x)) with e. apply Qeq_bool_pos_false.
    rewrite Forall_forall in H. apply (H (s, e)). change (s, e) with (snd ((ld, caps), (s, e))). apply in_map. exact Hb.
  Qed.

  Theorem prog_read_batches : forall d off segs evs,
    forallb cseg_ok segs = true -> res_map (pseg_event d off) segs = Ok evs -> positive evs ->
    match expected_with join_threshold evs with
    | Ok spans => exists bl, Forall cb_good bl /\ map cb_load bl = ploads_of segs /\ map cb_span bl = spans /\
                             read off (map (pseg_line d) segs) = ROk (flat_map cb_caps bl)
    | Err e => read off (map (pseg_line d) segs) = RErr e
    end.
  Proof.
    intros d off segs evs Hok He Hp. destruct (read_csegs d off segs evs Hok He) as (bl0 & -> & Fb & El & Es0).
    pose proof (closeC_good _ Fb) as Fc.
    rewrite (finish_read_cbatches _ (closeC bl0) Fc (fold_cb_ext0 _ Fb)).
    assert (Ef : map cb_load (closeC bl0) = ploads_of segs) by (rewrite closeC_load; exact El).
    assert (Es : map cb_span (closeC bl0) = closeM (map deflt (raw_spans evs None))) by (rewrite closeC_snd, Es0; reflexivity).
    revert Fc Ef Es. generalize (closeC bl0). intros bl Fc Ef Es.
    assert (G : good (raw_spans evs None)) by (apply raw_spans_good; [exact Hp|intros s Hs; discriminate]).
    unfold expected_with. cbv zeta.
    destruct (close_shape _ G) as [[HF HE]|[l [s [HF [Hs [HE HG]]]]]].
    - rewrite HE in Es. rewrite <- Es in HF |- *. destruct (existsb flash (map cb_span bl)); [reflexivity|].
      destruct bl as [|b bl']; [reflexivity|]. cbn [map]. exists (b :: bl'). split; [exact Fc|]. split; [exact Ef|split; [reflexivity|]].
      rewrite fix_last_ended; [reflexivity|]. apply cb_caps_ended. exact HF.
    - rewrite HE in Es. rewrite HG. destruct (map_snoc_inv _ _ _ bl l (s, 0%Q) Es) as (bl1 & [[ld caps] [s0 e0]] & -> & Hlast & E1). injection Hlast as -> ->.
      rewrite map_app, !existsb_app. cbn [map existsb cb_span snd].
      change (flash (s, 0%Q)) with (is_flash (cue s 0)). rewrite (pending_not_flash s Hs), four_s_not_flash. rewrite E1.
      destruct (existsb flash l); [reflexivity|]. cbn [orb].
      assert (X : forall (A : Type) (x : A) (k : list A) (R : Type) (a b : R),
                     match k ++ [x] with [] => a | _ :: _ => b end = b) by (intros A x [|y k] R a b; reflexivity).
      rewrite !X. exists (bl1 ++ [((ld, caps), (s, (s + four_s)%Q))]). rewrite !map_app in Ef |- *. cbn [map cb_span fst snd] in Ef, E1 |- *.
      apply Forall_app in Fc. destruct Fc as [Fc1 Fc2]. pose proof (Forall_inv Fc2) as Hb.
      split; [apply Forall_app; split; [exact Fc1|constructor; [exact (cb_good_reend _ (s + four_s)%Q Hb)|constructor]]|].
      split; [exact Ef|split; [rewrite map_app, E1; reflexivity|]].
      rewrite !flat_map_app. cbn [flat_map]. rewrite !app_nil_r. rewrite fix_last_spec_all.
      + f_equal. f_equal. unfold cb_caps. cbn [fst snd]. rewrite map_map. destruct Hb as (_ & F & _). cbn [fst snd] in F.
        apply map_ext_in. intros c Hc. rewrite Forall_forall in F. destruct (F c Hc) as [Hsc _].
        unfold set_end. cbn [pc_start pc_end pc_nodes pc_layout]. rewrite Hsc. reflexivity.
      + intros c Hc. unfold cb_caps in Hc. cbn [fst snd] in Hc. apply in_map_iff in Hc. destruct Hc as (x & <- & _). reflexivity.
      + apply cb_caps_ended. rewrite E1. exact HF.
  Qed.

  (* when the captions stored for a load are a function `capsf` of the load, the start and the end *)
  Corollary prog_read_as : forall capsf : load -> Q -> Q -> list precap,
    (forall ld s caps e, lc_caps ld s caps -> map (set_end e) caps = capsf ld s e) ->
    forall d off segs evs, forallb cseg_ok segs = true -> res_map (pseg_event d off) segs = Ok evs -> positive evs ->
    match expected_with join_threshold evs with
    | Ok spans => length spans = length (ploads_of segs) /\
                  read off (map (pseg_line d) segs)
                  = ROk (flat_map (fun b : batch => capsf (fst b) (fst (snd b)) (snd (snd b))) (combine (ploads_of segs) spans))
    | Err e => read off (map (pseg_line d) segs) = RErr e
    end.
  Proof.
    intros capsf Hf d off segs evs Hok He Hp. pose proof (prog_read_batches d off segs evs Hok He Hp) as H.
    destruct (expected_with join_threshold evs) as [spans|e]; [|exact H].
    destruct H as (bl & Fb & <- & <- & ->). rewrite !map_length. split; [reflexivity|]. f_equal.
    rewrite combine_map2. induction Fb as [|[[ld caps] [s e]] bl Hb Fb IH]; [reflexivity|].
    cbn [flat_map map]. rewrite IH. f_equal. destruct Hb as (_ & _ & _ & _ & Hc). exact (Hf ld s caps e Hc).
  Qed.

  Lemma spans_cbatches : forall bl, Forall cb_good bl ->
    map (fun c => (pc_start c, pc_end c)) (flat_map cb_caps bl) = flat_map bspans (combine (map cb_load bl) (map cb_span bl)).
  Proof.
    intros bl F. induction F as [|b bl Hb F IH]; [reflexivity|]. cbn [flat_map map combine]. rewrite map_app, IH. f_equal.
    pose proof (cb_good_length b Hb) as L. destruct b as [[ld caps] [s e]]. destruct Hb as (_ & Fs & _).
    unfold bspans, cb_caps, cb_load. cbn [cb_load fst snd] in L, Fs |- *. rewrite <- L, map_map, <- map_const_repeat. apply map_ext_in. intros c Hc.
    rewrite Forall_forall in Fs. destruct (Fs c Hc) as [Hsc _]. cbn [set_end pc_start pc_end]. rewrite Hsc. reflexivity.
  Qed.

  (* C06 with multiplicities: the span of load i once per caption of its batch, that is length (expected_load l_i) times *)
  Theorem prog_spans_mult : forall d off segs evs,
    forallb cseg_ok segs = true -> res_map (pseg_event d off) segs = Ok evs -> positive evs ->
    spans_of (read off (map (pseg_line d) segs))
    = rmap (fun spans => flat_map bspans (combine (ploads_of segs) spans)) (expected_with join_threshold evs).
  Proof.
    intros d off segs evs Hok He Hp. pose proof (prog_read_batches d off segs evs Hok He Hp) as H.
    destruct (expected_with join_threshold evs) as [spans|e]; cbn [rmap].
    - destruct H as (bl & Fb & <- & <- & ->). cbn [spans_of]. rewrite (spans_cbatches bl Fb). reflexivity.
    - rewrite H. reflexivity.
  Qed.

  (* C06 *)
  Theorem prog_spans : forall d off segs evs,
    forallb cseg_ok segs = true -> res_map (pseg_event d off) segs = Ok evs -> positive evs ->
    rmap screens (spans_of (read off (map (pseg_line d) segs))) = rmap screens (expected_with join_threshold evs).
  Proof.
    intros d off segs evs Hok He Hp. pose proof (prog_read_batches d off segs evs Hok He Hp) as H.
    destruct (expected_with join_threshold evs) as [spans|e]; cbn [rmap].
    - destruct H as (bl & Fb & Hf & <- & ->). cbn [spans_of rmap]. rewrite (spans_cbatches bl Fb), screens_batches.
      + rewrite combine_map2, map_map. reflexivity.
      + rewrite combine_map2. rewrite Forall_forall in Fb |- *. intros b Hb. apply in_map_iff in Hb. destruct Hb as (g & <- & Hg).
        exact (cb_good_expected g (Fb g Hg)).
    - rewrite H. reflexivity.
  Qed.

  Lemma loads_ok_cbatches : forall bl prev, Forall cb_good bl -> wf_spans prev (map cb_span bl) ->
    loads_ok (map cb_load bl) (map observe (flat_map cb_caps bl)) prev = true.
  Proof.
    intros bl prev F. revert prev. induction F as [|[[ld caps] [s e]] bl Hb F IH]; intros prev W; [reflexivity|].
    cbn [map cb_span wf_spans] in W. destruct W as (Hlo & Hlt & W). destruct Hb as (_ & _ & _ & Ho & _). cbn [fst snd] in Ho.
    cbn [map cb_load fst flat_map loads_ok]. rewrite map_app. unfold cb_caps at 1. cbn [fst snd].
    rewrite (Ho e Hlt). rewrite (IH (Some s) W), andb_true_r.
    destruct prev as [p|]; [|reflexivity]. cbn [lt_opt] in Hlo.
    destruct (Qle_bool s p) eqn:E; [|reflexivity]. apply Qle_bool_iff in E. exfalso. exact (Qlt_not_le _ _ Hlo E).
  Qed.

  Lemma ploads_class : forall segs, forallb cseg_ok segs = true -> Forall (fun l => lc_ok l = true) (ploads_of segs).
  Proof.
    induction segs as [|s segs IH]; intros H; [constructor|].
    rewrite forallb_cons in H. apply andb_true_iff in H. destruct H as [Hs Ht]. unfold ploads_of in IH |- *. cbn [flat_map].
    destruct s as [tc l|tc]; cbn [app]; [constructor; [exact Hs|]|]; exact (IH Ht).
  Qed.

  (* C05 *)
  Theorem prog_ok : forall d off segs evs caps,
    forallb cseg_ok segs = true -> res_map (pseg_event d off) segs = Ok evs -> positive evs -> after_show None evs ->
    read off (map (pseg_line d) segs) = ROk caps ->
    ok_c05 (mkProg d (ploads_of segs)) (Ok (map observe caps)) = true.
  Proof.
    intros d off segs evs caps Hok He Hp Ha Hread. pose proof (prog_read_batches d off segs evs Hok He Hp) as H.
    destruct (expected_with join_threshold evs) as [spans|e] eqn:Ee; [|rewrite H in Hread; discriminate].
    destruct H as (bl & Fb & Hf & Hs & Hr). rewrite Hr in Hread. inversion Hread. subst caps.
    unfold ok_c05. cbn [pg_loads]. rewrite <- Hf. apply loads_ok_cbatches; [exact Fb|].
    rewrite Hs. exact (expected_wf _ evs spans Ha Ee).
  Qed.

  (* C05 with the read outcome made explicit *)
  Corollary prog_refines : forall d off segs evs spans,
    forallb cseg_ok segs = true -> res_map (pseg_event d off) segs = Ok evs -> positive evs -> after_show None evs ->
    expected_with join_threshold evs = Ok spans ->
    exists caps, read off (map (pseg_line d) segs) = ROk caps /\
                 ok_c05 (mkProg d (ploads_of segs)) (Ok (map observe caps)) = true /\
                 dom_c05 (mkProg d (ploads_of segs)) = true.
  Proof.
    intros d off segs evs spans Hok He Hp Ha Ee. pose proof (prog_read_batches d off segs evs Hok He Hp) as H.
    rewrite Ee in H. destruct H as (bl & Fb & Hf & Hs & Hr). exists (flat_map cb_caps bl). split; [exact Hr|split].
    - exact (prog_ok d off segs evs _ Hok He Hp Ha Hr).
    - unfold dom_c05. cbn [pg_loads]. pose proof (ploads_class segs Hok) as Fl.
      destruct (ploads_of segs) as [|l0 ls] eqn:El.
      + exfalso. destruct bl as [|b bl']; [|discriminate Hf]. cbn [map] in Hs. subst spans.
        unfold expected_with in Ee. cbv zeta in Ee. destruct (existsb flash _); [discriminate|].
        destruct (close_gaps _ _); discriminate.
      + apply forallb_forall. intros l Hl. rewrite Forall_forall in Fl. exact (H_wf l (Fl l Hl)).
  Qed.
End Loads.

Definition oset_end (e : Q) (o : ocap) : ocap := mkO (o_start o) e (o_nodes o) (o_xy o).
Lemma observe_set_end : forall e c, observe (set_end e c) = oset_end e (observe c).
Proof. reflexivity. Qed.

(* a batch observed as the expected captions of its load (`oc e`: with start t0 and end e), all with nodes and short lines,
   meets the clauses of H_good about its captions *)
Lemma observed_batch : forall (oc : Q -> ecap -> ocap) ld caps t0 t1,
  map observe caps = map (oc t1) (expected_load ld) -> expected_load ld <> [] ->
  (forall e x, o_start (oc e x) = t0 /\ o_end (oc e x) = e) -> (forall e x, oset_end e (oc t1 x) = oc e x) ->
  (forall e, (t0 < e)%Q -> Forall (fun x => cap_ok x (oc e x) = true) (expected_load ld)) ->
  filter has_nodes caps = caps -> (forall c, In c caps -> filter spec_long (spec_lines (cap_text c)) = []) ->
  caps <> [] /\
  Forall (fun c => pc_start c = t0 /\ pc_end c = t1 /\ has_nodes c = true) caps /\
  (forall c ln, In c caps -> In ln (lines_of (cap_text c)) -> (length ln <= 32)%nat) /\
  (forall e, (t0 < e)%Q -> forall rest,
     load_ok (expected_load ld) (map observe (map (set_end e) caps) ++ rest) None = Some (rest, Some (t0, e))).
Proof.
  intros oc ld caps t0 t1 Ho Hne Hse Hoe Hok Hn Hs. split; [|split; [|split]].
  - intros ->. destruct (expected_load ld); [congruence|discriminate Ho].
  - rewrite Forall_forall. intros c Hc.
    assert (Hin : In (observe c) (map (oc t1) (expected_load ld))) by (rewrite <- Ho; apply in_map; exact Hc).
    apply in_map_iff in Hin. destruct Hin as (x & Hx & _). destruct (Hse t1 x) as [Hs0 He0]. rewrite Hx in Hs0, He0.
    split; [exact Hs0|split; [exact He0|]]. rewrite <- Hn in Hc. apply filter_In in Hc. apply Hc.
  - intros c ln Hc Hln. pose proof (filter_nil_all _ _ _ ln (Hs c Hc) Hln) as L. unfold spec_long in L. lia.
  - intros e Hlt rest.
    rewrite (map_map (set_end e) observe), (map_ext _ _ (observe_set_end e)), <- (map_map observe (oset_end e)), Ho, map_map,
            (map_ext _ _ (Hoe e)), (load_ok_rest t0 e (expected_load ld) _ rest); [destruct (expected_load ld); [congruence|reflexivity]| |left; reflexivity].
    generalize (Hok e Hlt). generalize (expected_load ld). intros es F.
    induction F as [|x es Hx _ IH]; cbn [map]; constructor; [exact (conj Hx (Hse e x))|exact IH].
Qed.

(* the batch stored for a basic load shown at t0: the captions of the 608 screen, with some end *)
Definition basic_caps (ld : load) (t0 : Q) (caps : list precap) : Prop := exists t1, caps = lcaps ld t0 t1.

Lemma basic_store : forall ld cr st t0 t1, basic_load ld = true -> cr = lcr ld ->
  exists caps, create_and_store st cr t0 t1 = stash_extend st caps /\ caps <> [] /\
    Forall (fun c => pc_start c = t0 /\ pc_end c = t1 /\ has_nodes c = true) caps /\
    (forall c ln, In c caps -> In ln (lines_of (cap_text c)) -> (length ln <= 32)%nat) /\
    (forall e, (t0 < e)%Q -> forall rest,
       load_ok (expected_load ld) (map observe (map (set_end e) caps) ++ rest) None = Some (rest, Some (t0, e))) /\
    basic_caps ld t0 caps.
Proof.
  intros ld cr st t0 t1 H ->. destruct (basic_load_expected ld H) as [Hne Fg].
  exists (lcaps ld t0 t1). split; [exact (store_load6 st ld t0 t1 H)|].
  destruct (observed_batch (ocap_of t0) ld (lcaps ld t0 t1) t0 t1) as (A & B & C & D); try (intros; split; reflexivity); try assumption.
  - unfold lcaps. rewrite map_map. apply map_ext. intros x. apply observe_cap_of.
  - intros e Hlt. apply (Forall_impl _ (fun x Hx => cap_ok_good t0 e x Hx Hlt) Fg).
  - exact (has_nodes_caps t0 t1 _ Fg).
  - intros c Hc. apply (proj1 (Forall_forall _ _) (proj1 (concat_nil_Forall _) (caps_not_long t0 t1 _ Fg))). unfold lcaps. rewrite map_map.
    apply in_map_iff. exists c. split; [reflexivity|exact Hc].
  - repeat split; try assumption. exists t1. reflexivity.
Qed.

Lemma basic_wf : forall ld, basic_load ld = true -> load_wf ld = true.
Proof. intros ld H. unfold basic_load in H. apply andb_true_iff in H. apply H. Qed.

Corollary popon_stage6_read : forall d off segs evs,
  forallb pseg_ok segs = true -> res_map (pseg_event d off) segs = Ok evs -> positive evs ->
  match expected_with join_threshold evs with
  | Ok spans => length spans = length (ploads_of segs) /\
                read off (map (pseg_line d) segs)
                = ROk (flat_map (fun b => map (cap_of (fst (snd b)) (snd (snd b))) (expected_load (fst b)))
                                (combine (ploads_of segs) spans))
  | Err e => read off (map (pseg_line d) segs) = RErr e
  end.
Proof.
  apply (prog_read_as basic_load (fun ld cr => cr = lcr ld) basic_caps load_line6 basic_store lcaps).
  intros ld s caps e [t1 ->]. unfold lcaps. rewrite map_map. reflexivity.
Qed.

(* C06 with multiplicities *)
Theorem popon_stage6_spans_mult : forall d off segs evs,
  forallb pseg_ok segs = true -> res_map (pseg_event d off) segs = Ok evs -> positive evs ->
  spans_of (read off (map (pseg_line d) segs))
  = rmap (fun spans => flat_map bspans (combine (ploads_of segs) spans)) (expected_with join_threshold evs).
Proof. exact (prog_spans_mult basic_load _ basic_caps load_line6 basic_store). Qed.

(* C06 *)
Theorem popon_stage6_spans : forall d off segs evs,
  forallb pseg_ok segs = true -> res_map (pseg_event d off) segs = Ok evs -> positive evs ->
  rmap screens (spans_of (read off (map (pseg_line d) segs))) = rmap screens (expected_with join_threshold evs).
Proof. exact (prog_spans basic_load _ basic_caps load_line6 basic_store). Qed.

(* C05 with the read outcome made explicit *)
Corollary popon_stage6 : forall d off segs evs spans,
  forallb pseg_ok segs = true -> res_map (pseg_event d off) segs = Ok evs -> positive evs -> after_show None evs ->
  expected_with join_threshold evs = Ok spans ->
  exists caps, read off (map (pseg_line d) segs) = ROk caps /\
               ok_c05 (mkProg d (ploads_of segs)) (Ok (map observe caps)) = true /\
               dom_c05 (mkProg d (ploads_of segs)) = true.
Proof. exact (prog_refines basic_load _ basic_caps load_line6 basic_store basic_wf). Qed.

(* two loads (three captions, then one), a clear line in between: four captions, spans 1.. as expected *)
Definition wit_segs : list pseg :=
  [PLoad (lit "00:00:01;00") wit_load; PClear (lit "00:00:03;00");
   PLoad (lit "00:00:04;00") [wit_row 15 0 0 (lit "ok")]].
(* a load of one row: row_ok is all of load_wf *)
Lemma basic_load_one : forall r, basic_row r = true -> basic_load [r] = true.
Proof.
  intros r H. unfold basic_load, load_wf. cbn [forallb]. rewrite H. unfold basic_row in H.
  apply andb_true_iff in H. destruct H as [H _]. apply andb_true_iff in H. rewrite (proj1 H). reflexivity.
Qed.

Example wit_segs_ok : forallb pseg_ok wit_segs = true /\
  map (fun l => length (expected_load l)) (ploads_of wit_segs) = [3; 1]%nat.
Proof.
  split; [|vm_compute; reflexivity].
  cbn [wit_segs forallb pseg_ok]. rewrite (proj1 wit_load_basic), basic_load_one; [reflexivity|vm_compute; reflexivity].
Qed.

(* the hypotheses of the theorems hold for it (doubled control codes, offset 0), and the model returns the three captions
   of the first load with the span of the first Show and the caption of the second with its own *)
Example wit_segs_run :
  let evs := [Show (5600000 # 3); Clear 3000000; Show (12700000 # 3)] in
  res_map (pseg_event true 0) wit_segs = Ok evs /\ positive evs /\ after_show None evs /\
  expected_with join_threshold evs = Ok [(5600000 # 3, 3000000%Q); (12700000 # 3, 24700000 # 3)] /\
  spans_of (read 0 (map (pseg_line true) wit_segs))
  = Ok [(5600000 # 3, 3000000%Q); (5600000 # 3, 3000000%Q); (5600000 # 3, 3000000%Q); (12700000 # 3, 24700000 # 3)].
Proof.
  cbv zeta. set (evs := [Show (5600000 # 3); Clear 3000000; Show (12700000 # 3)]).
  assert (He : res_map (pseg_event true 0) wit_segs = Ok evs) by (vm_compute; reflexivity).
  assert (Hp : positive evs) by (intros e [<-|[<-|[<-|[]]]]; reflexivity).
  assert (Hx : expected_with join_threshold evs = Ok [(5600000 # 3, 3000000%Q); (12700000 # 3, 24700000 # 3)])
    by (vm_compute; reflexivity).
  split; [exact He|]. split; [exact Hp|]. split; [cbn; repeat split|]. split; [exact Hx|].
  rewrite (popon_stage6_spans_mult true 0 wit_segs evs (proj1 wit_segs_ok) He Hp), Hx. vm_compute. reflexivity.
Qed.

(* the hypothesis `after_show` of popon_stage6 cannot be dropped: timecodes running backwards give positive instants,
   the stream is read, and the first caption ends before it starts, which the oracle rejects *)
Definition back_segs : list pseg :=
  [PLoad (lit "00:00:05;00") [wit_row 15 0 0 (lit "a")]; PLoad (lit "00:00:01;00") [wit_row 15 0 0 (lit "b")]].
Example after_show_needed :
  forallb pseg_ok back_segs = true /\
  res_map (pseg_event false 0) back_segs = Ok [Show (15400000 # 3); Show (3400000 # 3)] /\
  positive [Show (15400000 # 3); Show (3400000 # 3)] /\
  match read 0 (map (pseg_line false) back_segs) with
  | ROk caps => ok_c05 (mkProg false (ploads_of back_segs)) (Ok (map observe caps)) = false
  | _ => False
  end.
Proof.
  assert (Hok : forallb pseg_ok back_segs = true) by (cbn [back_segs forallb pseg_ok]; rewrite !basic_load_one; [reflexivity|vm_compute; reflexivity..]).
  assert (He : res_map (pseg_event false 0) back_segs = Ok [Show (15400000 # 3); Show (3400000 # 3)]) by (vm_compute; reflexivity).
  assert (Hp : positive [Show (15400000 # 3); Show (3400000 # 3)]) by (intros e [<-|[<-|[]]]; reflexivity).
  split; [exact Hok|]. split; [exact He|]. split; [exact Hp|].
  pose proof (popon_stage6_read false 0 back_segs _ Hok He Hp) as H.
  replace (expected_with join_threshold [Show (15400000 # 3); Show (3400000 # 3)])
    with (Ok [(15400000 # 3, 3400000 # 3); (3400000 # 3, 15400000 # 3)] : result (list (Q * Q))) in H by (vm_compute; reflexivity).
  destruct H as [_ ->]. vm_compute. reflexivity.
Qed.

(* Outside the instance of this stage (as in stages 1, 3, 4): rows with special / extended characters, mid-row codes,
   backspaces, italic or coloured preambles (stages 7 and 9 apply the lifting to them), and streams whose loads are not
   each on a line of their own. *)
