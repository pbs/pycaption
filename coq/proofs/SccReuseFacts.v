(* SccReuseFacts.v - C10: reading with a reused SCCReader object.  With a reset that covers the decoder state the result of
   every read() of every history is the result of the same read() on a new object. *)
From Coq Require Import List ZArith QArith Bool.
From PV Require Import lib.Sx lib.Str lib.Result model.SccTime model.SccStash model.SccDecoder model.SccReuse
                       model.ReaderReuse proofs.ReaderReuseFacts.
Import ListNotations.

Lemma covers_has : forall fs f, covers fs = true -> has fs f = true.
Proof.
  intros fs f H. unfold covers in H. rewrite forallb_forall in H. apply H.
  destruct f; cbn; tauto.
Qed.

(* a covering reset re-creates the whole decoder state, whatever the object went through before *)
Theorem reset_covers_fresh : forall fs s offset, covers fs = true -> reset_fields fs s offset = rstate0 offset.
Proof.
  intros fs s offset H. unfold reset_fields. rewrite !(covers_has fs _ H). reflexivity.
Qed.

(* one read(): the result is that of a new reader object, for every state the object may be in *)
Theorem reader_read_is_fresh_read : forall fs s offset ls,
  covers fs = true -> snd (reader_read fs s offset ls) = read offset ls.
Proof.
  intros fs s offset ls H. unfold reader_read, read, run_lines. rewrite (reset_covers_fresh fs s offset H).
  cbn [snd]. destruct (r_err (fold_left translate_line ls (rstate0 offset))); reflexivity.
Qed.

Lemma reader_history_obj : forall fs docs s,
  reader_history fs s docs
  = obj_history rstate doc read_result fld (fun _ s => s) (fun fs s d => reader_read fs s (fst d) (snd d)) fs s docs.
Proof.
  intros fs docs. induction docs as [|d t IH]; intros s; [reflexivity|].
  cbn [reader_history obj_history]. unfold obj_read at 1. destruct (reader_read fs s (fst d) (snd d)). rewrite IH. reflexivity.
Qed.

(* any history of reads on one object: read k returns what a new object returns for document k *)
Theorem reader_history_isolated : forall fs docs s,
  covers fs = true -> reader_history fs s docs = map (fun d => read (fst d) (snd d)) docs.
Proof.
  intros fs docs s H. rewrite reader_history_obj.
  apply (obj_history_isolated _ _ _ _ _ _ (fun d => read (fst d) (snd d)) covers); [|exact H].
  intros fs0 s0 d H0. apply reader_read_is_fresh_read. exact H0.
Qed.

(* hence: the same document read again later, after anything else, on the same object: the same result *)
Theorem reader_history_same_document_same_result : forall fs before between after d s,
  covers fs = true ->
  let rs := reader_history fs s (before ++ d :: between ++ d :: after) in
  nth_error rs (length before) = nth_error rs (length before + S (length between)).
Proof.
  intros fs before between after d s H. cbv zeta. rewrite reader_history_obj.
  apply (obj_history_same_document _ _ _ _ _ _ (fun d => read (fst d) (snd d)) covers); [|exact H].
  intros fs0 s0 d0 H0. apply reader_read_is_fresh_read. exact H0.
Qed.

Theorem code_reset_covers : covers code_reset = true.
Proof. reflexivity. Qed.

(* which fields matter: the time translator (_last_time, _frames) is re-initialised by start_at() at the first line of every
   document, and nothing looks at it when there is no line - a reset that leaves these two out still isolates every read *)
Lemma has_cons_other : forall f g fs, fld_code f <> fld_code g -> has (f :: fs) g = has fs g.
Proof. intros f g fs H. unfold has. cbn [existsb]. destruct (Z.eqb (fld_code f) (fld_code g)) eqn:E; [apply Z.eqb_eq in E; contradiction|reflexivity]. Qed.

Theorem time_translator_reset_redundant : forall fs s offset ls,
  covers (FTc :: FFrames :: fs) = true -> snd (reader_read fs s offset ls) = read offset ls.
Proof.
  intros fs s offset ls H.
  assert (K : forall g, fld_code g <> 10%Z -> fld_code g <> 11%Z -> has fs g = true).
  { intros g G1 G2. rewrite <- (has_cons_other FFrames g fs), <- (has_cons_other FTc g (FFrames :: fs)).
    - apply covers_has. exact H.
    - cbn. congruence.
    - cbn. congruence. }
  unfold reader_read, read, run_lines, reset_fields.
  rewrite (K FStash), (K FTk), (K FLast), (K FDstart), (K FPop), (K FPaint), (K FRoll), (K FActive), (K FQueue), (K FTime);
    try (cbn; discriminate).
  cbn [snd].
  destruct ls as [|l t].
  - cbn. reflexivity.
  - cbn [fold_left]. unfold translate_line at 2 4. cbn [r_err rstate0]. unfold set_clock. cbn. reflexivity.
Qed.
