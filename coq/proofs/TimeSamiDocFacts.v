(* C02: the SAMI DOCUMENT with several languages.  model/Langs.v models where SAMIWriter puts every
   paragraph (_recreate_sync / _find_closest_sync: the first language appends its syncs, a further language adds its
   paragraph to the first sync of that start or inserts a new sync after the last earlier / before the first later one);
   proofs/SamiSyncFacts.v proves that for sorted languages the paragraphs of a class stand in the writer's order.
   Here: what a reader of the document sees per language - (start ms of the enclosing sync, is it the blank paragraph) in
   DOCUMENT ORDER - is the statement's sync rule (spec/SpecTimeW.v sami_rule) and satisfies the extracted oracle
   ok_sami_ms, (a) for the FIRST language whatever its shape and whatever follows, (b) for EVERY language of a set whose
   languages are all timelines, for any number of languages; (c) refuted for a further language that is no timeline. *)
From Coq Require Import List ZArith QArith Qround Lia Bool ZifyBool.
From PV Require Import lib.Sx lib.Str lib.Result lib.Dec model.Langs spec.SpecTimeW spec.SpecTimeSamiDoc proofs.SamiSyncFacts proofs.TimeWriteFacts.
Import ListNotations.
Open Scope Z_scope.

Lemma doc_obs_cpars : forall cls b, doc_obs cls b = map (fun q => (fst q, is_blank_par (snd q))) (cpars cls b).
Proof.
  intros cls b. unfold doc_obs, cpars. induction b as [|s r IH]; [reflexivity|].
  cbn [flat_map]. rewrite map_app, IH, map_map. reflexivity.
Qed.

Lemma timeline_caps_sorted : forall caps lo, timeline_us lo caps -> caps_sorted (lo / 1000) caps.
Proof.
  induction caps as [|c t IH]; intros lo H; cbn [timeline_us caps_sorted] in *; [exact I|].
  destruct H as (H1 & H2 & H3). repeat split.
  - apply Z.div_le_mono; lia.
  - apply Z.div_le_mono; lia.
  - apply IH. exact H3.
Qed.

(* the writer's paragraph sequence of one language, observed, IS the rule: the blank that the writer emits before
   cue i+1 is the blank the rule puts after cue i *)
Lemma lang_pars_rule : forall caps last, texts_ok caps ->
  map (fun q => (fst q, is_blank_par (snd q))) (lang_pars caps last)
  = (match caps with
     | c :: _ => if blank_due last (wc_start c / 1000) then [(last_or0 last, true)] else []
     | [] => []
     end) ++ sami_rule (wspans caps).
Proof.
  induction caps as [|c t IH]; intros last T; [reflexivity|].
  cbn [lang_pars wspans map sami_rule]. fold (wspans t).
  rewrite map_app. cbn [map fst snd].
  assert (Tc : is_blank_par (wc_text c) = false) by (apply T; left; reflexivity).
  assert (Tt : texts_ok t) by (intros x Hx; apply T; right; exact Hx).
  rewrite Tc, (IH (Some (wc_end c / 1000)) Tt). rewrite floor_ms_inj.
  assert (B : map (fun q : Z * str => (fst q, is_blank_par (snd q)))
                (if blank_due last (wc_start c / 1000) then [(last_or0 last, nbsp_text)] else [])
              = if blank_due last (wc_start c / 1000) then [(last_or0 last, true)] else []).
  { destruct (blank_due last (wc_start c / 1000)); [|reflexivity]. cbn [map fst snd]. unfold is_blank_par.
    rewrite str_eqb_refl. reflexivity. }
  rewrite B. f_equal. f_equal.
  destruct t as [|c' t']; [reflexivity|].
  cbn [wspans map]. rewrite !floor_ms_inj. cbn [blank_due last_or0].
  destruct (wc_start c' / 1000 =? wc_end c / 1000) eqn:E; cbn [negb]; reflexivity.
Qed.

Lemma lang_pars_rule_none : forall caps, texts_ok caps ->
  map (fun q => (fst q, is_blank_par (snd q))) (lang_pars caps None) = sami_rule (wspans caps).
Proof. intros caps T. rewrite (lang_pars_rule caps None T). destruct caps; reflexivity. Qed.

(* (a) the FIRST language: any cues at all (overlapping, nested, unsorted, repeated), any further languages *)
Theorem sami_first_language_rule : forall l0 caps0 rest, ~ In l0 (map fst rest) -> texts_ok caps0 ->
  doc_obs l0 (sami_write ((l0, caps0) :: rest)) = sami_rule (wspans caps0).
Proof.
  intros l0 caps0 rest N T. rewrite doc_obs_cpars. unfold sami_write. cbn [write_langs].
  rewrite (write_langs_other rest false l0 _ N).
  destruct (write_lang_primary_general l0 caps0 None [] (fun y (H : In y []) => match H with end)) as (P0 & _).
  rewrite P0. cbn [cpars flat_map app]. apply lang_pars_rule_none. exact T.
Qed.

(* (b) every language of a set of timelines, for any number of languages *)
Theorem sami_every_language_rule : forall cs, NoDup (map fst cs) ->
  (forall l caps, In (l, caps) cs -> timeline_us 0 caps /\ texts_ok caps) ->
  forall l caps, In (l, caps) cs -> doc_obs l (sami_write cs) = sami_rule (wspans caps).
Proof.
  intros cs N H l caps Hin. rewrite doc_obs_cpars.
  rewrite (sami_language_order cs N) with (caps := caps); [|intros l' caps' H'|exact Hin].
  - apply lang_pars_rule_none. apply (H l caps Hin).
  - change 0 with (0 / 1000). apply timeline_caps_sorted. apply (H l' caps' H').
Qed.

Theorem sami_document_meets_oracle : forall cs, NoDup (map fst cs) ->
  (forall l caps, In (l, caps) cs -> timeline_us 0 caps /\ texts_ok caps) ->
  forall l caps, In (l, caps) cs -> ok_sami_ms (wspans caps) (doc_obs l (sami_write cs)) = true.
Proof. intros cs N H l caps Hin. rewrite (sami_every_language_rule cs N H l caps Hin). apply sami_rule_ok. Qed.

Theorem sami_first_language_meets_oracle : forall l0 caps0 rest, ~ In l0 (map fst rest) -> texts_ok caps0 ->
  ok_sami_ms (wspans caps0) (doc_obs l0 (sami_write ((l0, caps0) :: rest))) = true.
Proof. intros. rewrite sami_first_language_rule by assumption. apply sami_rule_ok. Qed.

(* (c) a FURTHER language that is no timeline: exactly the rule's syncs, in another order; the oracle refuses *)
Definition ex_en : list wcue := [mkWcue 0 1000000 (lit "a")].
Definition ex_fr : list wcue := [mkWcue 0 1000000 (lit "b"); mkWcue 0 1000000 (lit "c"); mkWcue 3000000 4000000 (lit "d")].
Lemma sami_later_language_order_refuted :
  let cs := [(lit "en", ex_en); (lit "fr", ex_fr)] in
  sami_rule (wspans ex_fr) = [(0, false); (1000, true); (0, false); (1000, true); (3000, false)]
  /\ doc_obs (lit "fr") (sami_write cs) = [(0, false); (0, false); (1000, true); (1000, true); (3000, false)]
  /\ ok_sami_ms (wspans ex_fr) (doc_obs (lit "fr") (sami_write cs)) = false
  /\ doc_obs (lit "fr") (sami_write [(lit "fr", ex_fr); (lit "en", ex_en)]) = sami_rule (wspans ex_fr).
Proof. vm_compute. repeat split; reflexivity. Qed.
