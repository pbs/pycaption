(* String lemmas used by the C01/C02 proofs: strip_by over padded strings, split_ch over
   concatenations, digit strings do not contain separators, lines of a rendered document. *)
From Coq Require Import List ZArith Bool.
From PV Require Import lib.Sx lib.Str lib.StrFacts model.TimeRead.
Import ListNotations.
Open Scope Z_scope.

Lemma is_digit_d : forall d, 0 <= d <= 9 -> is_digit (48 + d) = true.
Proof.
  intros d [H0 H9]. unfold is_digit. apply andb_true_iff.
  split; apply Z.leb_le; [exact (proj1 (Z.add_le_mono_l 0 d 48) H0)|exact (proj1 (Z.add_le_mono_l d 9 48) H9)].
Qed.

Lemma forallb_repeat : forall (A : Type) (p : A -> bool) x n, p x = true -> forallb p (repeat x n) = true.
Proof. intros A p x n H. induction n as [|n IH]; [reflexivity|]. cbn [repeat forallb]. rewrite H. exact IH. Qed.

Lemma clean_stops : forall (f : Z -> bool) s y, s <> [] -> forallb (fun c => negb (f c)) s = true ->
  match s ++ y with [] => True | c :: _ => f c = false end.
Proof.
  intros f [|c s] y Hne H; [congruence|]. cbn [forallb] in H. apply andb_true_iff in H.
  cbn [app]. destruct (f c); [destruct H; discriminate|reflexivity].
Qed.

(* lstrip_by is drop_while, up to conversion *)
Lemma strip_by_pad : forall f a s b, forallb f a = true -> forallb f b = true -> s <> [] ->
  forallb (fun c => negb (f c)) s = true -> strip_by f (a ++ s ++ b) = s.
Proof.
  intros f a s b Ha Hb Hne Hs. unfold strip_by, rstrip_by. change lstrip_by with drop_while.
  rewrite (proj2 (span_app f a (s ++ b) Ha (clean_stops f s b Hne Hs))).
  assert (Hr : rev s <> []) by (intros E; apply (f_equal (@rev Z)) in E; rewrite rev_involutive in E; exact (Hne E)).
  rewrite rev_app_distr, <- (app_nil_r (rev s)).
  rewrite (proj2 (span_app f (rev b) _ (eq_trans (forallb_rev f b) Hb) (clean_stops f (rev s) [] Hr (eq_trans (forallb_rev _ s) Hs)))).
  rewrite app_nil_r. apply rev_involutive.
Qed.

Lemma strip_by_clean : forall f s, s <> [] -> forallb (fun c => negb (f c)) s = true -> strip_by f s = s.
Proof. intros f s Hne Hs. rewrite <- (app_nil_r s) at 1. exact (strip_by_pad f [] s [] eq_refl eq_refl Hne Hs). Qed.

Definition lacks (c : Z) (s : str) : bool := forallb (fun x => negb (x =? c)) s.

Lemma split_ch_aux_skip : forall sep a b cur, lacks sep a = true ->
  split_ch_aux sep (a ++ b) cur = split_ch_aux sep b (rev a ++ cur).
Proof.
  induction a as [|x a IH]; intros b cur H; [reflexivity|].
  cbn [lacks forallb] in H. apply andb_true_iff in H. destruct H as [Hx Ha].
  cbn [app split_ch_aux]. destruct (x =? sep); [discriminate|].
  rewrite IH by exact Ha. cbn [rev]. rewrite <- app_assoc. reflexivity.
Qed.

Lemma split_ch_cons : forall sep a rest, lacks sep a = true ->
  split_ch sep (a ++ sep :: rest) = a :: split_ch sep rest.
Proof.
  intros. unfold split_ch. rewrite split_ch_aux_skip by assumption.
  cbn [split_ch_aux]. rewrite Z.eqb_refl, app_nil_r, rev_involutive. reflexivity.
Qed.

Lemma split_ch_last : forall sep a, lacks sep a = true -> split_ch sep a = [a].
Proof.
  intros. unfold split_ch. rewrite <- (app_nil_r a) at 1. rewrite split_ch_aux_skip by assumption.
  cbn [split_ch_aux]. rewrite app_nil_r, rev_involutive. reflexivity.
Qed.

Lemma digits_lack : forall sep a, is_digit sep = false -> forallb is_digit a = true -> lacks sep a = true.
Proof.
  intros sep a Hs Ha. unfold lacks. apply (forallb_weaken is_digit); [|exact Ha].
  intros x Hx. destruct (x =? sep) eqn:E; [|reflexivity].
  apply Z.eqb_eq in E. subst. congruence.
Qed.

Lemma lacks_app : forall c a b, lacks c (a ++ b) = lacks c a && lacks c b.
Proof. intros. unfold lacks. apply forallb_app. Qed.

Lemma has_ch_lacks : forall c s, lacks c s = true -> existsb (Z.eqb c) s = false.
Proof.
  induction s as [|x s IH]; intros H; [reflexivity|].
  cbn [lacks forallb] in H. apply andb_true_iff in H. destruct H as [Hx Hs].
  cbn [existsb]. rewrite (IH Hs). rewrite Z.eqb_sym. destruct (x =? c); [discriminate|reflexivity].
Qed.

Lemma has_ch_app_hit : forall c a b, existsb (Z.eqb c) (a ++ c :: b) = true.
Proof.
  intros. rewrite existsb_app. cbn [existsb]. rewrite Z.eqb_refl. apply orb_true_r.
Qed.


Definition no_lb (l : str) : bool := forallb (fun c => negb ((c =? 10) || (c =? 13))) l.

Definition nl_of (crlf : bool) : str := if crlf then [13; 10] else [10].

Lemma split_lines_aux_line : forall crlf l rest cur st, no_lb l = true ->
  split_lines_aux (l ++ nl_of crlf ++ rest) cur st = (rev cur ++ l) :: split_lines_aux rest [] false.
Proof.
  intros crlf. induction l as [|c l IH]; intros rest cur st H.
  - rewrite app_nil_r. destruct crlf; reflexivity.
  - cbn [no_lb forallb] in H. apply andb_true_iff in H. destruct H as [Hc Hl].
    cbn [app split_lines_aux]. unfold is_lf_cr.
    destruct ((c =? 10) || (c =? 13)); [discriminate|].
    rewrite IH by exact Hl. cbn [rev]. rewrite <- app_assoc. reflexivity.
Qed.

Lemma splitlines_lines : forall crlf ls, forallb no_lb ls = true ->
  split_lines (flat_map (fun l => l ++ nl_of crlf) ls) = ls.
Proof.
  intros crlf ls H. unfold split_lines.
  induction ls as [|l ls IH]; [reflexivity|].
  cbn [forallb] in H. apply andb_true_iff in H. destruct H as [Hl Hls].
  cbn [flat_map]. rewrite <- app_assoc, split_lines_aux_line by exact Hl.
  cbn [rev app]. f_equal. exact (IH Hls).
Qed.

Lemma split_ch_join : forall sep ls, ls <> [] -> forallb (lacks sep) ls = true ->
  split_ch sep (join [sep] ls) = ls.
Proof.
  intros sep ls. induction ls as [|l ls IH]; intros Hne H; [congruence|].
  cbn [forallb] in H. apply andb_true_iff in H. destruct H as [Hl Hls].
  destruct ls as [|l2 ls'].
  - cbn [join]. apply split_ch_last. exact Hl.
  - change (join [sep] (l :: l2 :: ls')) with (l ++ [sep] ++ join [sep] (l2 :: ls')).
    cbn [app]. rewrite split_ch_cons by exact Hl. f_equal. apply IH; [discriminate|exact Hls].
Qed.
