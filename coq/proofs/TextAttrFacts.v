(* C03: xml.sax.saxutils.quoteattr round trip through the strict XML parser, for EVERY string over XML Char,
   and the start tags the DFXP writers assemble from a style dictionary WITH a colour:
     quoteattr s = q ++ body ++ q, q a double or a single quote, q and the less-than sign do not occur in body, and the
     attribute value reading of the strict parser (references decoded, literal white space normalised) of body is exactly s;
   the tokenizer in tag mode walks over a quoted value; parse_attrs reads one attribute (key = quote value quote);
   hence a tag written as a name followed by such attributes, with distinct keys, is read as exactly that list (tag_markup). *)
From Coq Require Import List ZArith Bool Lia.
From PV Require Import lib.Sx lib.Str lib.StrFacts model.TextNodes model.TextWrite spec.SpecTextXml.
From PV Require Import proofs.TextStrFacts proofs.TextXmlFacts proofs.TextPayloadFacts.
Import ListNotations.
Open Scope Z_scope.

Definition qa1 (c : Z) : str :=
  if c =? 38 then lit "&amp;" else if c =? 62 then lit "&gt;" else if c =? 60 then lit "&lt;"
  else if c =? 10 then lit "&#10;" else if c =? 13 then lit "&#13;" else if c =? 9 then lit "&#9;" else [c].
Definition qq1 (c : Z) : str := if c =? 34 then lit "&quot;" else qa1 c.

Definition qa_data (s : str) : str :=
  replace [9] (lit "&#9;") (replace [13] (lit "&#13;") (replace [10] (lit "&#10;") (xml_escape s))).

Definition qa_tab : list (Z * str) := xml_tab ++ [(10, lit "&#10;"); (13, lit "&#13;"); (9, lit "&#9;")].
Definition qq_tab : list (Z * str) := (34, lit "&quot;") :: qa_tab.

Lemma qa_data_flat : forall s, qa_data s = flat_map qa1 s.
Proof. intros s. unfold qa_data. rewrite xml_escape_esc, !replace_esc by reflexivity. reflexivity. Qed.

Lemma qq_data_flat : forall s, replace [34] (lit "&quot;") (qa_data s) = flat_map qq1 s.
Proof.
  intros s. rewrite qa_data_flat. change qa1 with (esc qa_tab). rewrite replace_esc by reflexivity.
  apply flat_map_ext_str. intros x. unfold qq1. destruct (Z.eqb_spec x 34) as [->|H]; [reflexivity|].
  apply Z.eqb_neq in H. cbn [esc qa_tab xml_tab app]. rewrite H. reflexivity.
Qed.

Definition qa_quote (s : str) : Z :=
  let d := qa_data s in if mem_ch 34 d then if mem_ch 39 d then 34 else 39 else 34.
Definition qa_body (s : str) : str :=
  let d := qa_data s in if mem_ch 34 d then if mem_ch 39 d then flat_map qq1 s else d else d.

Lemma quoteattr_shape : forall s, quoteattr s = [qa_quote s] ++ qa_body s ++ [qa_quote s].
Proof.
  intros s. unfold qa_body. rewrite <- qq_data_flat. unfold quoteattr, qa_quote, qa_data. cbv zeta.
  destruct (mem_ch 34 _); [|reflexivity]. destruct (mem_ch 39 _); reflexivity.
Qed.

Lemma qa_quote_cases : forall s, qa_quote s = 34 \/ qa_quote s = 39.
Proof. intros s. unfold qa_quote. cbv zeta. destruct (mem_ch 34 _); [destruct (mem_ch 39 _)|]; auto. Qed.

Lemma qa_body_esc : forall s, qa_body s = flat_map (esc qa_tab) s \/ qa_body s = flat_map (esc qq_tab) s.
Proof. intros s. unfold qa_body. cbv zeta. rewrite qa_data_flat. destruct (mem_ch 34 _); [destruct (mem_ch 39 _)|]; auto. Qed.

Lemma mem_ch_avoids : forall c s, forallb (fun y => negb (y =? c)) s = true -> mem_ch c s = false.
Proof.
  intros c s. induction s as [|y s IH]; intros H; [reflexivity|]. cbn [forallb] in H. apply andb_true_iff in H.
  destruct H as [Hy H]. apply negb_true_iff in Hy. unfold mem_ch. cbn [existsb]. rewrite Z.eqb_sym, Hy. exact (IH H).
Qed.

Lemma qa_body_no_quote : forall s, mem_ch (qa_quote s) (qa_body s) = false.
Proof.
  intros s. unfold qa_quote, qa_body. cbv zeta.
  destruct (mem_ch 34 (qa_data s)) eqn:E34; [|exact E34].
  destruct (mem_ch 39 (qa_data s)) eqn:E39; [|exact E39].
  apply mem_ch_avoids. exact (flat_esc_avoids 34 qq_tab s eq_refl).
Qed.

(* a character both tables escape does not occur between the quotes: the less-than sign, CR *)
Lemma qa_body_avoids : forall c s, escaped c qa_tab && escaped c qq_tab = true ->
  forallb (fun y => negb (y =? c)) (qa_body s) = true.
Proof.
  intros c s H. apply andb_true_iff in H. destruct (qa_body_esc s) as [-> | ->]; apply flat_esc_avoids; apply H.
Qed.

(* ---- the strict parser's attribute value reading of the quoted body is the string itself ------------------------- *)
Lemma attr_value_plain : forall c t acc, xml_char c = true -> c <> 60 -> c <> 38 -> c <> 13 -> c <> 10 -> c <> 9 ->
  attr_value (c :: t) None acc = attr_value t None (c :: acc).
Proof.
  intros c t acc Hx H60 H38 H13 H10 H9. cbn [attr_value].
  destruct (Z.eqb_spec c 60); [congruence|]. destruct (Z.eqb_spec c 38); [congruence|]. rewrite Hx. cbn [negb].
  destruct (Z.eqb_spec c 13); [congruence|]. destruct (Z.eqb_spec c 10); [congruence|]. destruct (Z.eqb_spec c 9); [congruence|].
  reflexivity.
Qed.

Lemma attr_value_ref_aux : forall name r v t acc, forallb (fun c => negb (c =? 59)) name = true ->
  ref_value (rev r ++ name) = Some v -> attr_value (name ++ 59 :: t) (Some r) acc = attr_value t None (v :: acc).
Proof.
  induction name as [|c name IH]; intros r v t acc Hn Hr.
  - rewrite app_nil_r in Hr. cbn [app attr_value]. change (59 =? 59) with true. cbv iota. rewrite Hr. reflexivity.
  - cbn [forallb] in Hn. apply andb_true_iff in Hn. destruct Hn as [Hc Hn]. cbn [app attr_value].
    apply negb_true_iff in Hc. rewrite Hc. apply IH; [exact Hn|]. cbn [rev]. rewrite <- app_assoc. exact Hr.
Qed.

Lemma attr_value_ref : forall name v t acc, forallb (fun c => negb (c =? 59)) name = true -> ref_value name = Some v ->
  attr_value ((38 :: name ++ [59]) ++ t) None acc = attr_value t None (v :: acc).
Proof.
  intros name v t acc Hn Hr. cbn [app]. rewrite <- app_assoc. cbn [app attr_value].
  change (38 =? 60) with false. change (38 =? 38) with true. cbv iota.
  apply attr_value_ref_aux; assumption.
Qed.

Lemma attr_value_qa1 : forall c t acc, xml_char c = true -> attr_value (qa1 c ++ t) None acc = attr_value t None (c :: acc).
Proof.
  intros c t acc Hx. unfold qa1.
  destruct (Z.eqb_spec c 38) as [->|H38]; [apply (attr_value_ref (lit "amp") 38); reflexivity|].
  destruct (Z.eqb_spec c 62) as [->|H62]; [apply (attr_value_ref (lit "gt") 62); reflexivity|].
  destruct (Z.eqb_spec c 60) as [->|H60]; [apply (attr_value_ref (lit "lt") 60); reflexivity|].
  destruct (Z.eqb_spec c 10) as [->|H10]; [apply (attr_value_ref (lit "#10") 10); reflexivity|].
  destruct (Z.eqb_spec c 13) as [->|H13]; [apply (attr_value_ref (lit "#13") 13); reflexivity|].
  destruct (Z.eqb_spec c 9) as [->|H9]; [apply (attr_value_ref (lit "#9") 9); reflexivity|].
  cbn [app]. apply attr_value_plain; assumption.
Qed.

Lemma attr_value_qq1 : forall c t acc, xml_char c = true -> attr_value (qq1 c ++ t) None acc = attr_value t None (c :: acc).
Proof.
  intros c t acc Hx. unfold qq1. destruct (Z.eqb_spec c 34) as [->|H]; [apply (attr_value_ref (lit "quot") 34); reflexivity|].
  apply attr_value_qa1. exact Hx.
Qed.

Lemma attr_value_flat : forall (f : Z -> str), (forall c t acc, xml_char c = true -> attr_value (f c ++ t) None acc = attr_value t None (c :: acc)) ->
  forall s acc, forallb xml_char s = true -> attr_value (flat_map f s) None acc = Some (rev acc ++ s).
Proof.
  intros f Hf. induction s as [|c s IH]; intros acc Hs.
  - cbn [flat_map attr_value]. rewrite app_nil_r. reflexivity.
  - cbn [forallb] in Hs. apply andb_true_iff in Hs. destruct Hs as [Hc Hs]. cbn [flat_map].
    rewrite (Hf c _ acc Hc), (IH (c :: acc) Hs). cbn [rev]. rewrite <- app_assoc. reflexivity.
Qed.

Theorem qa_body_value : forall s, forallb xml_char s = true -> attr_value (qa_body s) None [] = Some s.
Proof.
  intros s Hs. destruct (qa_body_esc s) as [-> | ->].
  - apply (attr_value_flat qa1 attr_value_qa1 s [] Hs).
  - apply (attr_value_flat qq1 attr_value_qq1 s [] Hs).
Qed.

(* ---- the tokenizer in tag mode -------------------------------------------------------------------------------- *)
(* the quote automaton of the tag state: None = the tag text ends or is rejected inside s *)
Fixpoint tag_q (s : str) (q : Z) : option Z :=
  match s with
  | [] => Some q
  | c :: t =>
      if q =? 0 then
        if c =? 62 then None else if c =? 60 then None
        else if (c =? 34) || (c =? 39) then tag_q t c else tag_q t 0
      else if c =? q then tag_q t 0 else if c =? 60 then None else tag_q t q
  end.

Lemma trun_tag : forall s acc q out q', tag_q s q = Some q' ->
  trun (mkT (MTag acc q) [] out) s = Some (mkT (MTag (rev s ++ acc) q') [] out).
Proof.
  induction s as [|c s IH]; intros acc q out q' H.
  - cbn [tag_q] in H. injection H as <-. reflexivity.
  - cbn [tag_q] in H. cbn [trun]. unfold tstep, tstep_gen. cbn [ts_mode ts_cur ts_out].
    replace (rev (c :: s) ++ acc) with (rev s ++ c :: acc) by (cbn [rev]; rewrite <- app_assoc; reflexivity).
    destruct (q =? 0).
    + destruct (c =? 62); [discriminate|]. destruct (c =? 60); [discriminate|].
      destruct ((c =? 34) || (c =? 39)); apply IH; exact H.
    + destruct (c =? q); [apply IH; exact H|]. destruct (c =? 60); [discriminate|]. apply IH; exact H.
Qed.

Lemma tag_q_app : forall a b q, tag_q (a ++ b) q = match tag_q a q with Some q1 => tag_q b q1 | None => None end.
Proof.
  induction a as [|c a IH]; intros b q; [reflexivity|]. cbn [app tag_q].
  destruct (q =? 0).
  - destruct (c =? 62); [reflexivity|]. destruct (c =? 60); [reflexivity|]. destruct ((c =? 34) || (c =? 39)); apply IH.
  - destruct (c =? q); [apply IH|]. destruct (c =? 60); [reflexivity|apply IH].
Qed.

Lemma tag_q_quoted : forall d q, q = 34 \/ q = 39 -> mem_ch q d = false -> mem_ch 60 d = false -> tag_q d q = Some q.
Proof.
  induction d as [|c d IH]; intros q Hq Hm H60; [reflexivity|].
  unfold mem_ch in Hm, H60. cbn [existsb] in Hm, H60. apply orb_false_iff in Hm. apply orb_false_iff in H60.
  destruct Hm as [Hc Hm]. destruct H60 as [Hc60 H60]. cbn [tag_q].
  assert (Hq0 : (q =? 0) = false) by (destruct Hq; subst; reflexivity). rewrite Hq0.
  rewrite Z.eqb_sym, Hc. rewrite Z.eqb_sym, Hc60. apply IH; assumption.
Qed.

Lemma tag_q_attr : forall q d post, q = 34 \/ q = 39 -> mem_ch q d = false -> mem_ch 60 d = false ->
  tag_q (q :: d ++ q :: post) 0 = tag_q post 0.
Proof.
  intros q d post Hq Hm H60.
  assert (E : forall t, tag_q (q :: t) 0 = tag_q t q /\ tag_q (q :: t) q = tag_q t 0)
    by (intros t; destruct Hq; subst q; split; reflexivity).
  rewrite (proj1 (E _)), tag_q_app, (tag_q_quoted d q Hq Hm H60). apply E.
Qed.

Lemma markup_of_body : forall body tk, tag_q body 0 = Some 0 -> parse_tag body = Some tk -> no13 body = true ->
  markup ([60] ++ body ++ [62]) tk.
Proof.
  intros body tk Hq Hp H13. split; [|split].
  - intros nbr cur out. exists 0%nat.
    change ([60] ++ body ++ [62]) with (60 :: (body ++ [62])).
    assert (H1 : tstep (mkT (MText nbr false) cur out) 60 = Some (mkT (MTag [] 0) [] (flush cur out))) by reflexivity.
    cbn [trun]. rewrite H1, trun_app, (trun_tag body [] 0 (flush cur out) 0 Hq). cbn [trun].
    assert (H2 : tstep (mkT (MTag (rev body ++ []) 0) [] (flush cur out)) 62 = Some (mkT (MText 0 false) [] (tk :: flush cur out))).
    { unfold tstep, tstep_gen. cbn [ts_mode ts_cur ts_out]. change (0 =? 0) with true. change (62 =? 62) with true. cbv iota.
      rewrite app_nil_r, rev_involutive, Hp. reflexivity. }
    rewrite H2. reflexivity.
  - unfold no13 in *. cbn [app forallb]. rewrite forallb_app, H13. reflexivity.
  - exists ([60] ++ body). rewrite <- app_assoc. reflexivity.
Qed.

Lemma until_app : forall q raw rest, mem_ch q raw = false ->
  drop_until q (raw ++ q :: rest) = Some rest /\ take_until q (raw ++ q :: rest) = raw.
Proof.
  intros q raw rest. induction raw as [|c raw IH]; intros H; cbn [app drop_until take_until].
  - rewrite Z.eqb_refl. split; reflexivity.
  - unfold mem_ch in H. cbn [existsb] in H. apply orb_false_iff in H. destruct H as [Hc H].
    rewrite Z.eqb_sym, Hc. destruct (IH H) as [-> ->]. split; reflexivity.
Qed.

Definition key_ok (k : str) : bool :=
  match k with c :: _ => name_start c && forallb name_char k && qname_ok k | [] => false end.

Lemma name_start_facts : forall c, name_start c = true -> xml_ws c = false /\ c <> 47.
Proof. intros c H. unfold name_start, ascii_letter in H. unfold xml_ws. split; lia. Qed.

(* the body of parse_attrs for an input whose first non-blank character is not a slash *)
Lemma parse_attrs_cons : forall f s acc c t, drop_while xml_ws s = c :: t -> c <> 47 ->
  parse_attrs (S f) s acc =
  if (length (c :: t) =? length s)%nat then None else
  match parse_name (c :: t) with
  | None => None
  | Some (k, r) =>
      match drop_while xml_ws r with
      | 61 :: r1 =>
          match drop_while xml_ws r1 with
          | q :: r2 =>
              if (q =? 34) || (q =? 39) then
                match drop_until q r2, attr_value (take_until q r2) None [] with
                | Some r3, Some v => if has_key k acc then None else parse_attrs f r3 ((k, v) :: acc)
                | _, _ => None
                end
              else None
          | [] => None
          end
      | _ => None
      end
  end.
Proof.
  intros f s acc c t Hd Hc. cbn [parse_attrs]. rewrite Hd.
  destruct c as [|p|p]; [reflexivity| |reflexivity].
  do 6 (try (destruct p as [p|p|]; try reflexivity)). congruence.
Qed.

Lemma parse_name_key : forall k rest, key_ok k = true -> take_while name_char rest = [] ->
  parse_name (k ++ rest) = Some (k, rest).
Proof.
  intros k rest Hk Hr. destruct k as [|c k]; [discriminate|]. unfold key_ok in Hk.
  apply andb_true_iff in Hk. destruct Hk as [Hk Hq]. apply andb_true_iff in Hk. destruct Hk as [Hs Hn].
  pose proof (take_drop_while name_char rest) as E. rewrite Hr in E. cbn [app] in E.
  unfold parse_name, parse_name0. cbn [app]. rewrite Hs. change (c :: k ++ rest) with ((c :: k) ++ rest).
  rewrite (take_while_app_all _ _ rest Hn), (drop_while_app_all _ _ rest Hn), Hr, app_nil_r, Hq, E. reflexivity.
Qed.

Lemma parse_attrs_one : forall f k raw v q rest acc,
  key_ok k = true -> q = 34 \/ q = 39 -> mem_ch q raw = false -> attr_value raw None [] = Some v -> has_key k acc = false ->
  parse_attrs (S f) (32 :: k ++ 61 :: q :: raw ++ q :: rest) acc = parse_attrs f rest ((k, v) :: acc).
Proof.
  intros f k raw v q rest acc Hk Hq Hm Hv Hh. set (X := q :: raw ++ q :: rest).
  pose proof (parse_name_key k (61 :: X) Hk eq_refl) as Hpn.
  destruct k as [|c k']; [discriminate|]. unfold key_ok in Hk.
  apply andb_true_iff in Hk. destruct Hk as [Hk _]. apply andb_true_iff in Hk. destruct Hk as [Hns _].
  destruct (name_start_facts c Hns) as [Hws H47].
  assert (Hd : drop_while xml_ws (32 :: (c :: k') ++ 61 :: X) = c :: k' ++ 61 :: X).
  { cbn [drop_while app]. change (xml_ws 32) with true. cbv iota. rewrite Hws. reflexivity. }
  rewrite (parse_attrs_cons f _ acc c (k' ++ 61 :: X) Hd H47).
  replace (Nat.eqb (length (c :: k' ++ 61 :: X)) (length (32 :: (c :: k') ++ 61 :: X))) with false
    by (symmetry; apply Nat.eqb_neq; cbn [length app]; lia).
  change (c :: k' ++ 61 :: X) with ((c :: k') ++ 61 :: X). rewrite Hpn.
  change (drop_while xml_ws (61 :: X)) with (61 :: X). cbv iota.
  assert (HX : drop_while xml_ws X = X) by (unfold X; destruct Hq; subst q; reflexivity).
  rewrite HX. unfold X.
  replace ((q =? 34) || (q =? 39)) with true by (destruct Hq; subst q; reflexivity).
  destruct (until_app q raw rest Hm) as [-> ->]. rewrite Hv, Hh. reflexivity.
Qed.

Lemma parse_tag_open : forall body n r, hd 0 body <> 47 -> parse_name body = Some (n, r) ->
  parse_tag body = match parse_attrs (S (length r)) r [] with
                   | Some (a, true) => Some (TkEmpty n a)
                   | Some (a, false) => Some (TkOpen n a)
                   | None => None
                   end.
Proof.
  intros body n r H47 Hn. unfold parse_tag. destruct body as [|c t]; [rewrite Hn; reflexivity|].
  cbn [hd] in H47. destruct c as [|p|p]; [rewrite Hn; reflexivity| |rewrite Hn; reflexivity].
  do 6 (try (destruct p as [p|p|]; try (rewrite Hn; reflexivity))). congruence.
Qed.

(* ---- a whole tag: name, then attributes written as  blank key = quote text quote ------------------------------- *)
(* what the parser needs of the text d between two quotes q, to read the value v *)
Definition quoted (q : Z) (d v : str) : Prop :=
  (q = 34 \/ q = 39) /\ mem_ch q d = false /\ mem_ch 60 d = false /\ no13 d = true /\ attr_value d None [] = Some v.

Theorem quoteattr_quoted : forall s, forallb xml_char s = true -> quoted (qa_quote s) (qa_body s) s.
Proof.
  intros s Hs. split; [apply qa_quote_cases|]. split; [apply qa_body_no_quote|].
  split; [apply mem_ch_avoids, (qa_body_avoids 60 s eq_refl)|].
  split; [exact (qa_body_avoids 13 s eq_refl)|exact (qa_body_value s Hs)].
Qed.

Record qattr := mkQ { q_key : str; q_quote : Z; q_raw : str; q_val : str }.
Definition qattr_kv (a : qattr) : str * str := (q_key a, q_val a).
Definition qattr_ok (a : qattr) : Prop := key_ok (q_key a) = true /\ quoted (q_quote a) (q_raw a) (q_val a).
Fixpoint attrs_text (l : list qattr) (post : str) : str :=
  match l with
  | [] => post
  | a :: t => 32 :: q_key a ++ 61 :: q_quote a :: q_raw a ++ q_quote a :: attrs_text t post
  end.
(* no key twice (acc: the attributes read so far) *)
Fixpoint keys_fresh (l : list qattr) (acc : list (str * str)) : bool :=
  match l with [] => true | a :: t => negb (has_key (q_key a) acc) && keys_fresh t (qattr_kv a :: acc) end.

Lemma no13_app : forall a b, no13 (a ++ b) = no13 a && no13 b.
Proof. intros. unfold no13. apply forallb_app. Qed.

Lemma name_plain : forall k, forallb name_char k = true -> no13 k = true /\ forall t, tag_q (k ++ t) 0 = tag_q t 0.
Proof.
  induction k as [|c k IH]; intros H; [split; reflexivity|]. cbn [forallb] in H. apply andb_true_iff in H.
  destruct H as [Hc Hk]. destruct (IH Hk) as [I1 I2].
  assert (F : c <> 62 /\ c <> 60 /\ c <> 34 /\ c <> 39 /\ c <> 13)
    by (unfold name_char, name_start, ascii_letter, is_digit in Hc; lia).
  destruct F as (H62 & H60 & H34 & H39 & H13). split.
  - cbn [no13 forallb]. destruct (Z.eqb_spec c 13); [congruence|exact I1].
  - intros t. cbn [app tag_q]. change (0 =? 0) with true. cbv iota.
    destruct (Z.eqb_spec c 62); [congruence|]. destruct (Z.eqb_spec c 60); [congruence|].
    destruct (Z.eqb_spec c 34); [congruence|]. destruct (Z.eqb_spec c 39); [congruence|]. apply I2.
Qed.

Lemma key_ok_chars : forall k, key_ok k = true -> forallb name_char k = true.
Proof.
  intros [|c k] H; [discriminate|]. unfold key_ok in H. apply andb_true_iff in H. destruct H as [H _].
  apply andb_true_iff in H. apply H.
Qed.

Lemma attrs_text_app : forall l post r, attrs_text l post ++ r = attrs_text l (post ++ r).
Proof.
  induction l as [|a l IH]; intros post r; [reflexivity|]. cbn [attrs_text app].
  rewrite <- app_assoc. cbn [app]. rewrite <- app_assoc. cbn [app]. rewrite IH. reflexivity.
Qed.

Lemma attrs_text_plain : forall l post, Forall qattr_ok l ->
  no13 (attrs_text l post) = no13 post /\ tag_q (attrs_text l post) 0 = tag_q post 0.
Proof.
  intros l post H. induction H as [|a l [Hk (Hq & Hm & H60 & H13 & _)] _ [I1 I2]]; [split; reflexivity|].
  destruct (name_plain _ (key_ok_chars _ Hk)) as [N1 N2]. cbn [attrs_text]. split.
  - change (no13 ([32] ++ q_key a ++ [61; q_quote a] ++ q_raw a ++ [q_quote a] ++ attrs_text l post) = no13 post).
    rewrite !no13_app, N1, H13, I1. destruct Hq as [-> | ->]; reflexivity.
  - change (tag_q (q_key a ++ 61 :: q_quote a :: q_raw a ++ q_quote a :: attrs_text l post) 0 = tag_q post 0).
    rewrite N2. change (tag_q (61 :: ?t) 0) with (tag_q t 0). rewrite (tag_q_attr _ _ _ Hq Hm H60). exact I2.
Qed.

(* one unit of fuel per attribute *)
Lemma parse_attrs_text : forall l post acc f, Forall qattr_ok l -> keys_fresh l acc = true ->
  parse_attrs (length l + f) (attrs_text l post) acc = parse_attrs f post (rev (map qattr_kv l) ++ acc).
Proof.
  induction l as [|a l IH]; intros post acc f H Hf; [reflexivity|].
  inversion H as [|? ? [Hk (Hq & Hm & _ & _ & Hv)] Hl]; subst. cbn [keys_fresh] in Hf. apply andb_true_iff in Hf.
  destruct Hf as [Hh Hf]. apply negb_true_iff in Hh. cbn [attrs_text length Nat.add].
  rewrite (parse_attrs_one _ _ _ _ _ _ acc Hk Hq Hm Hv Hh). fold (qattr_kv a).
  rewrite (IH post _ f Hl Hf). cbn [map rev]. rewrite <- app_assoc. reflexivity.
Qed.

Lemma attrs_text_length : forall l post, (length l <= length (attrs_text l post))%nat.
Proof.
  induction l as [|a l IH]; intros post; cbn [attrs_text length]; [lia|]. specialize (IH post).
  rewrite app_length. cbn [length]. rewrite app_length. cbn [length]. lia.
Qed.

Theorem tag_parse : forall name l (slash : bool), key_ok name = true -> Forall qattr_ok l -> keys_fresh l [] = true ->
  parse_tag (name ++ attrs_text l (if slash then [47] else [])) =
  Some ((if slash then TkEmpty else TkOpen) name (map qattr_kv l)).
Proof.
  intros name l slash Hn Hl Hf. set (post := if slash then [47] else []).
  rewrite <- (rev_involutive (map qattr_kv l)), (parse_tag_open _ name (attrs_text l post)).
  - pose proof (attrs_text_length l post).
    replace (S (length (attrs_text l post))) with (length l + S (length (attrs_text l post) - length l))%nat by lia.
    rewrite (parse_attrs_text l post [] _ Hl Hf), app_nil_r. unfold post. destruct slash; reflexivity.
  - destruct name as [|c n]; [discriminate|]. unfold key_ok in Hn. apply andb_true_iff in Hn. destruct Hn as [Hn _].
    apply andb_true_iff in Hn. destruct Hn as [Hs _]. exact (proj2 (name_start_facts c Hs)).
  - apply (parse_name_key _ _ Hn). unfold post. destruct l, slash; reflexivity.
Qed.

Theorem tag_markup : forall name l (slash : bool), key_ok name = true -> Forall qattr_ok l -> keys_fresh l [] = true ->
  markup ([60] ++ name ++ attrs_text l ((if slash then [47] else []) ++ [62]))
         ((if slash then TkEmpty else TkOpen) name (map qattr_kv l)).
Proof.
  intros name l slash Hn Hl Hf. set (post := if slash then [47] else []). rewrite <- attrs_text_app, (app_assoc name).
  destruct (name_plain _ (key_ok_chars _ Hn)) as [N1 N2]. destruct (attrs_text_plain l post Hl) as [A1 A2].
  apply markup_of_body.
  - rewrite N2, A2. unfold post. destruct slash; reflexivity.
  - apply tag_parse; assumption.
  - rewrite no13_app, N1, A1. unfold post. destruct slash; reflexivity.
Qed.

(* an element with one attribute whose value is written by quoteattr: the parser returns exactly the string.
   First with the quoted value as variables: conversion over terms that contain quoteattr s is slow *)
Lemma one_attr_element : forall q d v, quoted q d v ->
  parse_tag (lit "a x=" ++ [q] ++ d ++ [q]) = Some (TkOpen (lit "a") [(lit "x", v)]) /\
  content_parse (lit "<a x=" ++ ([q] ++ d ++ [q]) ++ lit "/>") = Some [XElem (lit "a") [(lit "x", v)] []].
Proof.
  intros q d v H.
  assert (Hl : Forall qattr_ok [mkQ (lit "x") q d v]) by (constructor; [split; [reflexivity|exact H]|constructor]).
  split.
  - exact (tag_parse (lit "a") _ false eq_refl Hl eq_refl).
  - destruct (tag_markup (lit "a") _ true eq_refl Hl eq_refl) as [Hm _]. destruct (Hm 0%nat [] []) as [n Hn].
    rewrite <- !app_assoc. unfold content_parse, xtokens, t_init.
    change (lit "<a x=" ++ [q] ++ d ++ [q] ++ lit "/>") with ([60] ++ lit "a" ++ attrs_text [mkQ (lit "x") q d v] ([47] ++ [62])).
    rewrite Hn. reflexivity.
Qed.

Theorem quoteattr_tag_roundtrip : forall s, forallb xml_char s = true ->
  parse_tag (lit "a x=" ++ quoteattr s) = Some (TkOpen (lit "a") [(lit "x", s)]).
Proof. intros s Hs. rewrite quoteattr_shape. apply one_attr_element, quoteattr_quoted, Hs. Qed.

Theorem quoteattr_content_roundtrip : forall s, forallb xml_char s = true ->
  content_parse (lit "<a x=" ++ quoteattr s ++ lit "/>") = Some [XElem (lit "a") [(lit "x", s)] []].
Proof. intros s Hs. rewrite quoteattr_shape. apply one_attr_element, quoteattr_quoted, Hs. Qed.

(* ---- the span start tags of the DFXP writers, style dictionaries with a colour ----------------------------------- *)
Definition color_style (st : style) : bool := match st_color st with None => true | Some c => forallb xml_char c end.

Definition dfxp_atok_c (region : bool) (st : style) : option (list (str * str)) :=
  match (if st_i st then [(lit "tts:fontStyle", lit "italic")] else []) ++
        (match st_color st with Some c => [(lit "tts:color", c)] | None => [] end) ++
        (if region then [(lit "region", lit "bottom")] else []) with
  | [] => None
  | a => Some a
  end.

Lemma dfxp_atok_c_plain : forall region st, plain_style st = true -> dfxp_atok_c region st = dfxp_atok region st.
Proof. intros region [i b u c] H. unfold plain_style in H. cbn [st_color] in H. destruct c; [discriminate|]. reflexivity. Qed.

Lemma span_quoted_markup : forall (i region : bool) q d c, quoted q d c ->
  markup (lit "<span" ++ (((if i then lit " tts:fontStyle=""italic""" else []) ++ lit " tts:color=" ++ [q] ++ d ++ [q]) ++
                          extra_of region) ++ lit ">")
         (TkOpen (lit "span") ((if i then [(lit "tts:fontStyle", lit "italic")] else []) ++ [(lit "tts:color", c)] ++
                               (if region then [(lit "region", lit "bottom")] else []))).
Proof.
  intros i region q d c H.
  set (qi := mkQ (lit "tts:fontStyle") 34 (lit "italic") (lit "italic")). set (qc := mkQ (lit "tts:color") q d c).
  set (qr := mkQ (lit "region") 34 (lit "bottom") (lit "bottom")).
  assert (Hi : qattr_ok qi) by (split; [reflexivity|split; [left; reflexivity|repeat split]]).
  assert (Hr : qattr_ok qr) by (split; [reflexivity|split; [left; reflexivity|repeat split]]).
  assert (Hc : qattr_ok qc) by (split; [reflexivity|exact H]).
  set (l := (if i then [qi] else []) ++ [qc] ++ (if region then [qr] else [])).
  assert (Hl : Forall qattr_ok l) by (unfold l; destruct i, region; cbn [app]; repeat (constructor; [assumption|]); constructor).
  rewrite <- !app_assoc. destruct i, region; exact (tag_markup (lit "span") l false eq_refl Hl eq_refl).
Qed.

Lemma span_color_markup : forall i region c, forallb xml_char c = true ->
  let st := mkStyle i false false (Some c) in
  markup (lit "<span" ++ (dfxp_style_attrs st ++ extra_of region) ++ lit ">")
         (TkOpen (lit "span") ((if i then [(lit "tts:fontStyle", lit "italic")] else []) ++ [(lit "tts:color", c)] ++
                               (if region then [(lit "region", lit "bottom")] else []))).
Proof.
  intros i region c Hc st. unfold dfxp_style_attrs, st. cbn [st_i st_color]. rewrite quoteattr_shape.
  apply span_quoted_markup, quoteattr_quoted, Hc.
Qed.

Lemma dfxp_attrs_agree_c : forall region,
  attrs_agree color_style (fun st => dfxp_style_attrs st ++ extra_of region) (dfxp_atok_c region).
Proof.
  intros region [i b u [c|]] H.
  - pose proof (span_color_markup i region c H) as Q. destruct i; (split; [discriminate|exact Q]).
  - rewrite (dfxp_atok_c_plain region (mkStyle i b u None) eq_refl). exact (dfxp_attrs_agree region (mkStyle i b u None) eq_refl).
Qed.

(* DFXPWriter / SinglePositioningDFXPWriter / LegacyDFXPWriter payloads, style dictionaries with any colour over XML Char *)
Theorem dfxp_payload_tokens_c : forall region ns, nodes_ok color_style ns = true ->
  xtokens (dfxp_payload (extra_of region) ns) = Some (abs_tokens [] a_close (dfxp_atok_c region) ns).
Proof. intros region ns H. exact (payload_tokens _ _ _ ns (dfxp_attrs_agree_c region) H). Qed.

Theorem legacy_payload_tokens_c : forall ns, nodes_ok color_style ns = true ->
  xtokens (legacy_payload ns) = Some (abs_tokens [] a_close (dfxp_atok_c false) ns).
Proof. intros ns H. rewrite legacy_payload_dfxp. exact (dfxp_payload_tokens_c false ns H). Qed.

Corollary dfxp_payload_parse_c : forall region ns, nodes_ok color_style ns = true ->
  content_parse (dfxp_payload (extra_of region) ns) = xbuild (abs_tokens [] a_close (dfxp_atok_c region) ns) [] [].
Proof. intros. unfold content_parse. rewrite dfxp_payload_tokens_c by assumption. reflexivity. Qed.
