(* C15: the weakest reading of "naming each offending line" (the message contains the line's text) follows from the
   exact message format; and non-vacuity of the whole-reader theorem (read yields both outcomes on concrete streams). *)
From Coq Require Import List ZArith QArith Lia Bool.
From PV Require Import lib.Sx lib.Str lib.StrFacts lib.Result model.SccLen model.SccStash model.SccDecoder spec.SpecSccLen.
From PV Require Import proofs.SccLenFacts.
Import ListNotations.
Open Scope Z_scope.

Lemma is_prefix_app_l : forall a b s, is_prefix (a ++ b) s = true -> is_prefix a s = true.
Proof.
  induction a as [|x a IH]; intros b s H; [reflexivity|].
  destruct s as [|y s]; simpl in *; [discriminate|].
  apply andb_true_iff in H. destruct H as [H1 H2]. rewrite H1. simpl. exact (IH _ _ H2).
Qed.

Lemma is_infix_app_part : forall a b s, is_infix (a ++ b) s = true -> is_infix a s = true.
Proof.
  intros a b s. induction s as [|y s IH]; intros H.
  - rewrite is_infix_unfold in H. rewrite orb_false_r in H. rewrite is_infix_unfold.
    rewrite (is_prefix_app_l _ _ _ H). reflexivity.
  - rewrite is_infix_unfold in H. apply orb_true_iff in H. rewrite is_infix_unfold. destruct H as [H|H].
    + rewrite (is_prefix_app_l _ _ _ H). reflexivity.
    + rewrite (IH H). apply orb_true_r.
Qed.

Lemma names_mentions : forall msg l, names msg l = true -> mentions msg l = true.
Proof. intros msg l H. unfold names in H. unfold mentions. exact (is_infix_app_part _ _ _ H). Qed.

Theorem ok_c15_implies_loose : forall caps out, ok_c15 caps out = true -> ok_c15_loose caps out = true.
Proof.
  intros caps [msg|] H; [|exact H]. unfold ok_c15 in H. unfold ok_c15_loose.
  apply andb_true_iff in H. destruct H as [H1 H2]. rewrite H1. simpl.
  apply forallb_forall. intros l Hl. apply names_mentions. exact (proj1 (forallb_forall _ _) H2 l Hl).
Qed.

Theorem length_check_meets_loose_oracle : forall caps, ok_c15_loose caps (length_check caps) = true.
Proof. intros caps. apply ok_c15_implies_loose. apply length_check_meets_oracle. Qed.

(* read on concrete streams: ENM RCL PAC(row 15) text EOC / EDM with a row of 34 and of 32 characters *)
Definition row_stream (n : nat) : list sline :=
  [(lit "00:00:01:00", [38062; 37920; 38000] ++ repeat 24929 n ++ [37935]); (lit "00:00:05:00", [37932])].

Example read_raises_on_34 : exists m, read 0 (row_stream 17) = RLen m.
Proof. eexists. vm_compute. reflexivity. Qed.
Example read_returns_32 : exists c, read 0 (row_stream 16) = ROk [c] /\ length (cap_text c) = 32%nat.
Proof. eexists. split; vm_compute; reflexivity. Qed.
