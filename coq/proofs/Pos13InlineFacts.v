(* C13: DFXPWriter with write_inline_positioning (dfxp_transform_inline, after the fix of the set-level leak):
   every layout that reaches the document - as a region or as inline attributes of a div / p / span, the set-level
   fallback of get_positioning_info included - is in percentages; refusal as an equivalence; and, for both modes, every
   region of the region table is made from a percentage layout. *)
From Coq Require Import List ZArith Bool.
From PV Require Import lib.Result model.Geometry model.Positioning spec.SpecPos spec.SpecPos7.
From PV Require Import proofs.PosFacts proofs.Pos12RegionFacts.
Import ListNotations.
Open Scope Z_scope.

Theorem dfxp_inline_writes_percentages : forall c s s', w_rel c = true -> dfxp_transform_inline c s = Ok s' ->
  opt_all_pct (ns_layout s') = true /\ forallb opt_all_pct (written_layouts s') = true.
Proof.
  intros c s s' Hr H. unfold dfxp_transform_inline in H.
  destruct (rel_only c (ns_layout s)) as [g|] eqn:Eg; [|discriminate]. cbn [bind] in H.
  destruct (res_map (dfxp_lang c) (ns_langs s)) as [ls|] eqn:E; [|discriminate]. cbn [bind] in H. inversion H; subst.
  cbn [ns_layout]. split; [eapply rel_only_pct; eauto|].
  unfold written_layouts. cbn [ns_langs]. eapply dfxp_langs_pct; eauto.
Qed.

(* get_positioning_info returns one of the four layouts it is given *)
Lemma dfxp_choice_cases : forall g l c n,
  dfxp_choice g l c n = n \/ dfxp_choice g l c n = c \/ dfxp_choice g l c n = l \/ dfxp_choice g l c n = g.
Proof.
  intros g l c n. unfold dfxp_choice. cbn zeta.
  destruct (opt_layout_truthy n) eqn:Tn.
  - rewrite Tn. rewrite Tn. left. reflexivity.
  - destruct (opt_layout_truthy c) eqn:Tc.
    + rewrite Tc. right. left. reflexivity.
    + destruct (opt_layout_truthy l); [right; right; left|right; right; right]; reflexivity.
Qed.

Lemma in_written_lang : forall s lg, In lg (ns_langs s) -> In (nl_layout lg) (written_layouts s).
Proof. intros s lg H. unfold written_layouts. apply in_flat_map. exists lg. split; [exact H|left; reflexivity]. Qed.
Lemma in_written_cap : forall s lg cp, In lg (ns_langs s) -> In cp (nl_caps lg) -> In (nc_layout cp) (written_layouts s).
Proof.
  intros s lg cp H Hc. unfold written_layouts. apply in_flat_map. exists lg. split; [exact H|right].
  apply in_flat_map. exists cp. split; [exact Hc|left; reflexivity].
Qed.
Lemma in_written_node : forall s lg cp n, In lg (ns_langs s) -> In cp (nl_caps lg) -> In n (nc_nodes cp) ->
  In (n_layout n) (written_layouts s).
Proof.
  intros s lg cp n H Hc Hn. unfold written_layouts. apply in_flat_map. exists lg. split; [exact H|right].
  apply in_flat_map. exists cp. split; [exact Hc|right; apply in_map; exact Hn].
Qed.

(* what is written inline on ANY element is one of the set's layouts; so with relativization on it is in percentages *)
Theorem inline_layouts_pct : forall s, opt_all_pct (ns_layout s) = true -> forallb opt_all_pct (written_layouts s) = true ->
  forallb opt_all_pct (inline_layouts s) = true.
Proof.
  intros s Hg Hw. rewrite forallb_forall in Hw. apply forallb_forall. intros x Hx.
  assert (None_ok : opt_all_pct None = true) by reflexivity.
  assert (Ch : forall l c n, opt_all_pct l = true -> opt_all_pct c = true -> opt_all_pct n = true ->
                             opt_all_pct (dfxp_choice (ns_layout s) l c n) = true).
  { intros l c n Hl Hc Hn. destruct (dfxp_choice_cases (ns_layout s) l c n) as [->|[->|[->| ->]]]; assumption. }
  unfold inline_layouts in Hx. apply in_flat_map in Hx. destruct Hx as (lg & Hlg & Hx).
  pose proof (Hw _ (in_written_lang s lg Hlg)) as Pl.
  destruct Hx as [<-|Hx]; [apply Ch; [exact Pl|reflexivity|reflexivity]|].
  apply in_flat_map in Hx. destruct Hx as (cp & Hcp & Hx).
  pose proof (Hw _ (in_written_cap s lg cp Hlg Hcp)) as Pc.
  destruct Hx as [<-|Hx]; [apply Ch; [exact Pl|exact Pc|reflexivity]|].
  apply in_flat_map in Hx. destruct Hx as (n & Hn & Hx).
  destruct (style_start (n_kind n) && opt_layout_truthy (n_layout n)); [|destruct Hx].
  destruct Hx as [<-|[]]. apply Ch; [exact Pl|exact Pc|]. exact (Hw _ (in_written_node s lg cp n Hlg Hcp Hn)).
Qed.

Theorem dfxp_inline_attributes_percent : forall c s s', w_rel c = true -> dfxp_transform_inline c s = Ok s' ->
  forallb opt_all_pct (inline_layouts s') = true.
Proof.
  intros c s s' Hr H. destruct (dfxp_inline_writes_percentages c s s' Hr H) as [Hg Hw]. apply inline_layouts_pct; assumption.
Qed.

(* refusal: exactly when the set-level layout or a language / caption / node-level layout needs a missing dimension *)
Theorem dfxp_inline_refused_iff : forall c s, w_rel c = true ->
  ((exists e, dfxp_transform_inline c s = Err e) <-> existsb (opt_needs c) (ns_layout s :: written_layouts s) = true).
Proof.
  intros c s Hr. unfold written_layouts. cbn [existsb].
  rewrite orb_true_iff, <- (rel_only_refused_iff c _ Hr), <- (langs_refused_iff (rel_only c) c _ Hr (fun o => rel_only_refused_iff c o Hr)).
  apply bind2_refused.
Qed.

Lemma rel_only_err : forall c o e, rel_only c o = Err e -> e = ERelativization.
Proof.
  intros c [l|] e H; cbn [rel_only] in H; [|discriminate]. destruct (layout_truthy l && w_rel c); [|discriminate].
  destruct (layout_as_pct l (w_w c) (w_h c)) eqn:E; [discriminate|]. inversion H; subst. exact (layout_as_pct_err _ _ _ _ E).
Qed.

Theorem dfxp_inline_refuses_with_relativization_error : forall c s e, w_rel c = true ->
  dfxp_transform_inline c s = Err e -> e = ERelativization.
Proof.
  intros c s e Hr H. unfold dfxp_transform_inline in H. destruct (rel_only c (ns_layout s)) as [g|e0] eqn:Eg; cbn [bind] in H.
  - apply (dfxp_refuses_with_relativization_error c s e Hr). unfold dfxp_transform.
    destruct (res_map (dfxp_lang c) (ns_langs s)) as [ls|e1]; cbn [bind] in *; [discriminate|exact H].
  - inversion H; subst. exact (rel_only_err _ _ _ Eg).
Qed.

(* ---- the region table of the transformed set: every <region> is made from a percentage layout ---------------------- *)
Theorem regions_of_pct_layouts : forall ls, forallb opt_all_pct ls = true ->
  forall k id, In (k, id) (region_map ls) -> all_pct k = true.
Proof.
  intros ls H k id Hin. rewrite forallb_forall in H.
  destruct (region_map_key_occurs _ _ _ Hin) as [Hk| ->]; [exact (H _ Hk)|reflexivity].
Qed.

Theorem dfxp_inline_regions_percent : forall c s s', w_rel c = true -> dfxp_transform_inline c s = Ok s' ->
  forall k id, In (k, id) (region_map (written_layouts s')) -> all_pct k = true.
Proof. intros c s s' Hr H. apply regions_of_pct_layouts. exact (proj2 (dfxp_inline_writes_percentages c s s' Hr H)). Qed.

Theorem dfxp_regions_percent : forall c s s', w_rel c = true -> dfxp_transform c s = Ok s' ->
  forall k id, In (k, id) (region_map (written_layouts s')) -> all_pct k = true.
Proof. intros c s s' Hr H. apply regions_of_pct_layouts. eapply dfxp_writes_percentages; eauto. Qed.
