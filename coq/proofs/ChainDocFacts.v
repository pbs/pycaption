(* C08, string level, MicroDVD: the writer model's output document, read back by the reader
   model, gives every cue with its frames floored and its text lines unchanged. *)
From Coq Require Import List ZArith QArith Qround Lia Bool ZifyBool.
From PV Require Import lib.Sx lib.Str lib.Result lib.Dec.
From PV Require Import model.TimeRead spec.SpecTime proofs.TimeStrFacts proofs.TimeReadFacts proofs.TimeDocFacts.
From PV Require Import model.TimeWrite spec.SpecTimeW proofs.TimeWriteFacts.
From PV Require Import model.Chain spec.SpecChain proofs.ChainFacts.
Import ListNotations.
Open Scope Z_scope.
#[local] Ltac Zify.zify_post_hook ::= Z.to_euclidean_division_equations.

(* a text line the MicroDVD format can carry unchanged: no line break, no '|', visible at both ends *)
Definition clean_line (l : str) : bool :=
  no_linebreak l && negb (existsb (Z.eqb 124) l)
  && match l with [] => false | c :: _ => negb (is_space c) end
  && match rev l with [] => false | c :: _ => negb (is_space c) end.

Definition clean_lines (ls : list str) : bool :=
  match ls with [] => false | _ => forallb clean_line ls end.

Lemma clean_line_parts : forall l, clean_line l = true ->
  no_lb l = true /\ (exists c t, l = c :: t /\ is_space c = false) /\
  (exists p z, l = p ++ [z] /\ is_space z = false /\ z <> 124).
Proof.
  intros l H. unfold clean_line in H.
  apply andb_true_iff in H. destruct H as [H H4]. apply andb_true_iff in H. destruct H as [H H3].
  apply andb_true_iff in H. destruct H as [H1 H2].
  split; [exact H1|]. split.
  - destruct l as [|c t]; [discriminate|]. exists c, t. split; [reflexivity|]. destruct (is_space c); [discriminate|reflexivity].
  - destruct (rev l) as [|z rp] eqn:E; [discriminate|]. exists (rev rp), z.
    assert (EL : l = rev rp ++ [z]) by (rewrite <- (rev_involutive l), E; reflexivity).
    split; [exact EL|]. split; [destruct (is_space z); [discriminate|reflexivity]|].
    intros ->. rewrite EL, existsb_app in H2. cbn [existsb] in H2. rewrite Z.eqb_refl, orb_true_r in H2. discriminate H2.
Qed.

Lemma no_lb_lacks_10 : forall l, no_lb l = true -> lacks 10 l = true.
Proof.
  intros l. unfold no_lb, lacks. apply forallb_weaken. intros x Hx. destruct (x =? 10); [discriminate Hx|reflexivity].
Qed.

Lemma strip_ends : forall s c t p z, s = c :: t -> s = p ++ [z] -> is_space c = false -> is_space z = false ->
  strip s = s.
Proof.
  intros s c t p z E1 E2 Hc Hz. unfold strip, strip_by, rstrip_by.
  assert (L1 : lstrip_by is_space s = s) by (apply lstrip_by_keep; rewrite E1; exact Hc).
  rewrite L1.
  assert (L2 : lstrip_by is_space (rev s) = rev s).
  { apply lstrip_by_keep. rewrite E2, rev_app_distr. exact Hz. }
  rewrite L2. apply rev_involutive.
Qed.

(* the joined text of clean lines: shape of its two ends, no newline, '|' never last *)
Lemma join_clean : forall ls, clean_lines ls = true ->
  let j := join [124] ls in
  (exists c t, j = c :: t /\ is_space c = false) /\
  (exists p z, j = p ++ [z] /\ is_space z = false /\ z <> 124) /\
  lacks 10 j = true.
Proof.
  intros ls H. unfold clean_lines in H. destruct ls as [|l ls]; [discriminate|].
  cbv zeta. revert l H. induction ls as [|l2 ls IH]; intros l H;
    cbn [forallb] in H; apply andb_true_iff in H; destruct H as [Hl Hrest];
    destruct (clean_line_parts l Hl) as [Nl [[c [t [E Hc]]] Last]]; apply no_lb_lacks_10 in Nl.
  - cbn [join]. split; [exists c, t; auto|]. split; [exact Last|exact Nl].
  - destruct (IH l2 Hrest) as [_ [[p [z [E2 Hz]]] L10]].
    change (join [124] (l :: l2 :: ls)) with (l ++ [124] ++ join [124] (l2 :: ls)).
    split; [|split].
    + rewrite E. cbn [app]. eexists. eexists. split; [reflexivity|exact Hc].
    + exists (l ++ [124] ++ p), z. rewrite E2, <- !app_assoc. split; [reflexivity|exact Hz].
    + rewrite !lacks_app, L10, Nl. reflexivity.
Qed.

Lemma no_double_nl : forall j, lacks 10 j = true -> is_infix [10; 10] (j ++ [10]) = false.
Proof.
  induction j as [|c j IH]; intros H; [reflexivity|].
  cbn [lacks forallb] in H. apply andb_true_iff in H. destruct H as [Hc Hj].
  cbn [app is_infix is_prefix]. assert (E : (10 =? c) = false) by lia. rewrite E. cbn [andb orb].
  apply IH. exact Hj.
Qed.

Lemma no_bar_nl : forall j, lacks 10 j = true -> (forall p z, j = p ++ [z] -> z <> 124) ->
  is_infix [124; 10] (j ++ [10]) = false.
Proof.
  induction j as [|c j IH]; intros H HL; [reflexivity|].
  cbn [lacks forallb] in H. apply andb_true_iff in H. destruct H as [Hc Hj].
  cbn [app is_infix]. rewrite (IH Hj) by (intros p z E; apply (HL (c :: p) z); rewrite E; reflexivity).
  rewrite orb_false_r. destruct j as [|d j']; cbn [app is_prefix].
  - specialize (HL [] c eq_refl). lia.
  - cbn [lacks forallb] in Hj. apply andb_true_iff in Hj. destruct Hj as [Hd _]. lia.
Qed.

Lemma collapse_noop : forall fuel p r s, is_infix p s = false -> collapse fuel p r s = s.
Proof. intros [|f] p r s H; [reflexivity|]. cbn [collapse]. rewrite H. reflexivity. Qed.

Lemma mdvd_content_clean : forall ls, clean_lines ls = true -> mdvd_content ls = join [124] ls ++ [10].
Proof.
  intros ls H. destruct (join_clean ls H) as [[c [t [E1 Hc]]] [[p [z [E2 [Hz Hz1]]]] L10]].
  unfold mdvd_content. rewrite (strip_ends _ c t p z E1 E2 Hc Hz).
  rewrite (collapse_noop _ [10; 10] [10] (join [124] ls ++ [10])) by (apply no_double_nl; exact L10).
  apply collapse_noop. apply no_bar_nl; [exact L10|].
  intros p' z' E'. rewrite E2 in E'. apply app_inj_tail in E'. destruct E' as [_ <-]. exact Hz1.
Qed.

Definition mdvd_cue_of (c : Z * Z * list str) : mdvd_cue :=
  let '(s, e, lines) := c in mkMc 0 (s * 25 / 1000000) 0 (e * 25 / 1000000) lines.

Lemma frame_us : forall t, us (frame_instant None (t * 25 / 1000000)) = fl 40000 t.
Proof. intros t. unfold frame_instant, fps_q. rewrite us_frames by lia. unfold fl. lia. Qed.

Lemma mdvd_write_cue_render : forall s e ls, 0 <= s -> 0 <= e -> clean_lines ls = true ->
  mdvd_write_cue (s, e, ls) = mdvd_render_cue false (mdvd_cue_of (s, e, ls)).
Proof.
  intros s e ls Hs He Hl. unfold mdvd_write_cue, mdvd_render_cue, mdvd_cue_of, brace.
  cbn [mc_pad0 mc_n0 mc_pad1 mc_n1 mc_lines nl].
  rewrite !mdvd_token_int by assumption. rewrite mdvd_content_clean by exact Hl.
  cbn [app]. rewrite <- !app_assoc. cbn [app]. reflexivity.
Qed.

Definition text_dom (cs : list (Z * Z * list str)) : bool := forallb (fun c => clean_lines (snd c)) cs.

Definition times_of_caps (cs : list (Z * Z * list str)) : list cue := map (fun c => (fst (fst c), snd (fst c))) cs.

Lemma forallb_map_snd : forall (p : list str -> bool) (cs : list (Z * Z * list str)),
  forallb (fun c => p (snd c)) cs = forallb p (map snd cs).
Proof. intros p cs. induction cs as [|c t IH]; [reflexivity|]. cbn [forallb map]. rewrite IH. reflexivity. Qed.

(* what the reader's specification asks of the lines of a cue *)
Lemma clean_lines_mdvd : forall ls, clean_lines ls = true ->
  forallb mdvd_line_ok ls = true /\ existsb (fun l => negb (str_eqb l [])) ls = true /\ nonempty_lines ls = ls.
Proof.
  intros ls H. unfold clean_lines in H.
  assert (A : forallb mdvd_line_ok ls = true /\ nonempty_lines ls = ls
              /\ (ls <> [] -> existsb (fun l => negb (str_eqb l [])) ls = true)).
  { assert (C : forallb clean_line ls = true) by (destruct ls; [reflexivity|exact H]). clear H.
    induction ls as [|l ls IH]; [repeat split; congruence|].
    cbn [forallb] in C. apply andb_true_iff in C. destruct C as [Cl Cls]. destruct (IH Cls) as (I1 & I2 & _).
    destruct (clean_line_parts l Cl) as (_ & (c & t & -> & _) & _).
    unfold clean_line in Cl. apply andb_true_iff in Cl. destruct Cl as [Cl _]. apply andb_true_iff in Cl.
    unfold nonempty_lines in *. cbn [forallb filter existsb str_eqb negb orb]. unfold mdvd_line_ok at 1.
    rewrite (proj1 Cl), I1, I2. repeat split. }
  destruct A as (A1 & A2 & A3). repeat split; try assumption. apply A3. destruct ls; [discriminate H|discriminate].
Qed.

Theorem mdvd_roundtrip_string : forall cs,
  dom_u 40000 0 (times_of_caps cs) -> text_dom cs = true ->
  mdvd_read (mdvd_write cs)
  = read_result (map (fun c => (fl 40000 (fst (fst c)), fl 40000 (snd (fst c)), snd c)) cs).
Proof.
  intros cs D T.
  assert (W : forall lo l, 0 <= lo -> dom_u 40000 lo (times_of_caps l) -> text_dom l = true ->
              flat_map mdvd_write_cue l = flat_map (mdvd_render_cue false) (map mdvd_cue_of l)
              /\ forallb mdvd_cue_dom (map mdvd_cue_of l) = true
              /\ mdvd_expected_caps None (map mdvd_cue_of l)
                 = map (fun c => (fl 40000 (fst (fst c)), fl 40000 (snd (fst c)), snd c)) l).
  { intros lo l. revert lo. induction l as [|[[s e] ls] l IH]; intros lo Hlo Dl Tl; [repeat split|].
    cbn [times_of_caps map fst snd dom_u] in Dl. destruct Dl as [D1 [D2 [D3 [D4 D5]]]].
    cbn [text_dom forallb snd] in Tl. apply andb_true_iff in Tl. destruct Tl as [Tc Tr].
    destruct (IH e ltac:(lia) D5 Tr) as [I1 [I2 I3]]. destruct (clean_lines_mdvd ls Tc) as (L1 & L2 & L3).
    cbn [flat_map map forallb]. rewrite (mdvd_write_cue_render s e ls ltac:(lia) ltac:(lia) Tc), I1, I2.
    split; [reflexivity|]. split.
    - rewrite andb_true_r. unfold mdvd_cue_dom, mdvd_cue_of. cbn [mc_n0 mc_n1 mc_lines mc_pad0 mc_pad1]. rewrite L1.
      (* the end frame is not 0: not the spelling of the frame-rate header *)
      assert (C : (e * 25 / 1000000 =? 0) = false) by lia. rewrite C, andb_false_r. cbn [andb negb]. lia.
    - cbn [mdvd_expected_caps flat_map]. fold (mdvd_expected_caps None (map mdvd_cue_of l)). rewrite I3.
      unfold mdvd_nonempty, mdvd_cue_of. cbn [mc_lines mc_n0 mc_n1]. rewrite L2, L3, !frame_us. reflexivity. }
  destruct (W 0 cs ltac:(lia) D T) as [W1 [W2 W3]].
  unfold mdvd_write. rewrite W1.
  change (flat_map (mdvd_render_cue false) (map mdvd_cue_of cs)) with (mdvd_render false None (map mdvd_cue_of cs)).
  rewrite mdvd_doc_exact by (first [reflexivity|exact W2]). rewrite W3. reflexivity.
Qed.
