(* C04, WebVTT tags: OTHER_SPAN_PATTERN (repaired) deletes exactly the tags whose NAME is c, i, b, u, v, ruby, rt
   or lang and the timestamp tags, and leaves every other tag literally in the text; VOICE_SPAN_PATTERN turns
   <v.classes Name> into "Name: ". *)
From Coq Require Import List ZArith Bool Lia ZifyBool.
From PV Require Import lib.Sx lib.Str lib.StrFacts model.TextNodes model.TextRead proofs.TextStrFacts proofs.TextReadVttFacts.
Import ListNotations.
Open Scope Z_scope.

Definition tag_name_char (c : Z) : bool := is_word c || (c =? 45).
Definition is_boundary (c : Z) : bool := (c =? 32) || (c =? 9) || (c =? 46).
Definition known_names : list str :=
  [lit "c"; lit "i"; lit "b"; lit "u"; lit "v"; lit "ruby"; lit "rt"; lit "lang"].
Definition no_angle (b : str) : bool := forallb (fun c => negb (c =? 60) && negb (c =? 62)) b.
Definition rest_ok (r : str) : bool := match r with [] => true | c :: _ => is_boundary c end.

(* the text between '<' and '>' of a tag WebVTT defines (by name), resp. does not define *)
Definition known_body (b : str) : bool :=
  no_angle b &&
  existsb (fun n => is_prefix n (strip_slash b) && rest_ok (skipn (length n) (strip_slash b))) known_names.

Definition stamp_tail (r1 : str) : bool :=
  match r1 with
  | [p; f1; f2; f3] => (p =? 46) && is_digit f1 && is_digit f2 && is_digit f3
  | [c1; c; d; p; f1; f2; f3] =>
      (c1 =? 58) && is_digit c && is_digit d && (p =? 46) && is_digit f1 && is_digit f2 && is_digit f3
  | _ => false
  end.
(* a WebVTT timestamp tag body: H+:MM[:SS].mmm *)
Definition stamp_body (s : str) : bool :=
  match take_while is_digit s, drop_while is_digit s with
  | _ :: _, c0 :: a :: b :: r1 => (c0 =? 58) && is_digit a && is_digit b && stamp_tail r1
  | _, _ => false
  end.

(* a tag WebVTT defines: by name, or a timestamp *)
Definition tag_body (b : str) : bool := known_body b || (no_angle b && stamp_body b).

Definition ascii_letter (c : Z) : bool := ((65 <=? c) && (c <=? 90)) || ((97 <=? c) && (c <=? 122)).
Definition unknown_body (b : str) : bool :=
  let s := strip_slash b in
  let name := take_while tag_name_char s in
  no_angle b && (match s with c :: _ => ascii_letter c | [] => false end) &&
  negb (mem_str name known_names).

Inductive vseg : Type := SText (s : str) | SKnown (body : str) | SUnknown (body : str).

Definition seg_ok (g : vseg) : bool :=
  match g with
  | SText s => forallb (fun c => negb (c =? 60)) s
  | SKnown b => tag_body b
  | SUnknown b => unknown_body b
  end.
Definition seg_render (g : vseg) : str :=
  match g with SText s => s | SKnown b => 60 :: b ++ [62] | SUnknown b => 60 :: b ++ [62] end.
Definition seg_display (g : vseg) : str :=
  match g with SText s => s | SKnown _ => [] | SUnknown b => 60 :: b ++ [62] end.

Lemma drop_to_app : forall q r R, forallb (fun c => negb (c =? q)) r = true -> drop_to q (r ++ q :: R) = Some R.
Proof.
  intros q r R. induction r as [|c r IH]; intros H.
  - cbn [app drop_to]. rewrite Z.eqb_refl. reflexivity.
  - cbn [forallb] in H. apply andb_true_iff in H. destruct H as [Hc Hr]. cbn [app drop_to].
    destruct (c =? q); [discriminate|]. apply IH. exact Hr.
Qed.

Lemma no_angle_no_gt : forall b, no_angle b = true -> forallb (fun c => negb (c =? 62)) b = true.
Proof. intros b. apply forallb_weaken. intros c H. apply andb_true_iff in H. apply H. Qed.
Lemma no_angle_no_lt : forall b, no_angle b = true -> forallb (fun c => negb (c =? 60)) b = true.
Proof. intros b. apply forallb_weaken. intros c H. apply andb_true_iff in H. apply H. Qed.
Lemma no_angle_strip_slash : forall b, no_angle b = true -> no_angle (strip_slash b) = true.
Proof.
  intros [|c b] H; [reflexivity|]. unfold strip_slash. destruct (c =? 47); [|exact H].
  cbn [no_angle forallb] in H. apply andb_true_iff in H. apply H.
Qed.

Lemma suffix_after_name : forall r R, rest_ok r = true -> forallb (fun c => negb (c =? 62)) r = true ->
  other_suffix true (r ++ 62 :: R) = Some R.
Proof.
  intros [|c r] R Hok Hno; [reflexivity|]. cbn [rest_ok] in Hok. cbn [forallb] in Hno.
  apply andb_true_iff in Hno. destruct Hno as [Hc Hr].
  cbn [app other_suffix]. destruct (c =? 62); [discriminate|]. unfold is_boundary in Hok. rewrite Hok.
  apply drop_to_app. exact Hr.
Qed.

Lemma suffix_name_char_fails : forall d X, tag_name_char d = true -> other_suffix true (d :: X) = None.
Proof.
  intros d X H. cbn [other_suffix].
  rewrite (class_neq _ d 62 H eq_refl), (class_neq _ d 32 H eq_refl), (class_neq _ d 9 H eq_refl), (class_neq _ d 46 H eq_refl).
  reflexivity.
Qed.

Lemma forallb_skipn' : forall (P : Z -> bool) n s, forallb P s = true -> forallb P (skipn n s) = true.
Proof. exact (@forallb_skipn Z). Qed.

Lemma known_name : forall n, In n known_names ->
  forallb tag_name_char n = true /\ forall r, other_name (n ++ r) = Some r.
Proof. intros n H. cbn [known_names In] in H. repeat destruct H as [<-|H]; try (split; reflexivity). destruct H. Qed.

(* a known tag is matched and deleted through its closing bracket *)
Lemma known_matches : forall b R, known_body b = true ->
  match other_name (strip_slash b ++ 62 :: R) with Some r => other_suffix true r | None => None end = Some R.
Proof.
  intros b R H. unfold known_body in H. apply andb_true_iff in H. destruct H as [Hna H].
  apply existsb_exists in H. destruct H as (n & Hin & H). apply andb_true_iff in H. destruct H as [Hp Hr].
  pose proof (no_angle_no_gt _ (no_angle_strip_slash b Hna)) as Hgt.
  destruct (is_prefix_inv _ _ Hp) as [r Hs]. rewrite Hs in Hr, Hgt |- *. rewrite skipn_app_exact in Hr.
  rewrite forallb_app in Hgt. apply andb_true_iff in Hgt.
  rewrite <- app_assoc, (proj2 (known_name n Hin)). apply suffix_after_name; [exact Hr|apply Hgt].
Qed.

Lemma stamp_tail_inv : forall r1, stamp_tail r1 = true -> exists f1 f2 f3,
  is_digit f1 = true /\ is_digit f2 = true /\ is_digit f3 = true /\
  (r1 = [46; f1; f2; f3] \/ exists c d, is_digit c = true /\ is_digit d = true /\ r1 = [58; c; d; 46; f1; f2; f3]).
Proof.
  intros r1 H. unfold stamp_tail in H.
  destruct r1 as [|p [|f1 [|f2 [|f3 [|e1 [|e2 [|e3 [|e4 r]]]]]]]]; try discriminate;
    repeat (apply andb_true_iff in H; destruct H as [H ?]); apply Z.eqb_eq in H; subst p.
  - exists f1, f2, f3. auto.
  - match goal with Hq : (f3 =? 46) = true |- _ => apply Z.eqb_eq in Hq; subst f3 end.
    exists e1, e2, e3. repeat split; try assumption. right. exists f1, f2. auto.
Qed.

Lemma stamp_body_inv : forall s, stamp_body s = true -> exists x h a b r1,
  s = (x :: h) ++ 58 :: a :: b :: r1 /\ forallb is_digit (x :: h) = true /\
  is_digit a = true /\ is_digit b = true /\ stamp_tail r1 = true.
Proof.
  intros s H. unfold stamp_body in H.
  pose proof (take_drop_while is_digit s) as TD. pose proof (take_while_all is_digit s) as TA.
  destruct (take_while is_digit s) as [|x h]; [discriminate|].
  destruct (drop_while is_digit s) as [|c0 [|a [|b r1]]]; try discriminate.
  apply andb_true_iff in H. destruct H as [H Ht]. apply andb_true_iff in H. destruct H as [H Hb].
  apply andb_true_iff in H. destruct H as [Hc Ha]. apply Z.eqb_eq in Hc. subst c0.
  exists x, h, a, b, r1. auto.
Qed.

Lemma ts_match_stamp : forall s T, stamp_body s = true -> ts_match (s ++ T) = Some T.
Proof.
  intros s T H. destruct (stamp_body_inv s H) as (x & h & a & b & r1 & -> & Hh & Ha & Hb & Ht).
  unfold ts_match. rewrite <- app_assoc. change ((58 :: a :: b :: r1) ++ T) with (58 :: (a :: b :: r1) ++ T).
  destruct (span_app is_digit (x :: h) (58 :: (a :: b :: r1) ++ T) Hh eq_refl) as [-> ->].
  cbn [app two_digits]. rewrite Ha, Hb. cbn [andb].
  destruct (stamp_tail_inv r1 Ht) as (f1 & f2 & f3 & H1 & H2 & H3 & [->|(c & d & Hc & Hd & ->)]); cbn [app two_digits].
  - cbn [three_digits]. rewrite H1, H2, H3. reflexivity.
  - rewrite Hc, Hd. cbn [andb three_digits]. rewrite H1, H2, H3. reflexivity.
Qed.

Definition stamp_char (c : Z) : bool := is_digit c || (c =? 58) || (c =? 46).
Lemma stamp_chars : forall s, stamp_body s = true ->
  forallb stamp_char s = true /\ (exists x t, s = x :: t /\ is_digit x = true).
Proof.
  intros s H. destruct (stamp_body_inv s H) as (x & h & a & b & r1 & -> & Hh & Ha & Hb & Ht).
  assert (DG : forall l, forallb is_digit l = true -> forallb stamp_char l = true)
    by (intros l; apply forallb_weaken; intros c Hc; unfold stamp_char; rewrite Hc; reflexivity).
  split.
  - rewrite forallb_app, (DG _ Hh).
    destruct (stamp_tail_inv r1 Ht) as (f1 & f2 & f3 & H1 & H2 & H3 & [->|(c & d & Hc & Hd & ->)]);
      cbn [forallb]; unfold stamp_char; rewrite Ha, Hb, H1, H2, H3, ?Hc, ?Hd; reflexivity.
  - exists x, (h ++ 58 :: a :: b :: r1). split; [reflexivity|]. cbn [forallb] in Hh. apply andb_true_iff in Hh. apply Hh.
Qed.

Lemma other_name_digit : forall x t, is_digit x = true -> other_name (x :: t) = ts_match (x :: t).
Proof.
  intros x t Hx. assert (N : forall k, is_digit k = false -> (x =? k) = false) by (intros k; apply class_neq, Hx).
  unfold other_name. rewrite !N by reflexivity.
  change (lit "ruby") with [114; 117; 98; 121]. change (lit "rt") with [114; 116]. change (lit "lang") with [108; 97; 110; 103].
  cbn [is_prefix]. rewrite !(Z.eqb_sym _ x), !N by reflexivity. reflexivity.
Qed.

Lemma stamp_matches : forall s R, stamp_body s = true ->
  match other_name (strip_slash s ++ 62 :: R) with Some r => other_suffix true r | None => None end = Some R.
Proof.
  intros s R H. pose proof (ts_match_stamp s (62 :: R) H) as M.
  destruct (stamp_chars s H) as (_ & x & t & -> & Hx).
  cbn [strip_slash]. rewrite (class_neq _ x 47 Hx eq_refl). cbn [app] in *.
  rewrite (other_name_digit x _ Hx), M. reflexivity.
Qed.

Lemma tag_matches : forall b R, tag_body b = true ->
  match other_name (strip_slash b ++ 62 :: R) with Some r => other_suffix true r | None => None end = Some R.
Proof.
  intros b R H. unfold tag_body in H. apply orb_true_iff in H. destruct H as [H|H]; [apply known_matches, H|].
  apply andb_true_iff in H. apply stamp_matches, H.
Qed.

Lemma mem_str_iff : forall x l, mem_str x l = true <-> In x l.
Proof.
  intros x l. unfold mem_str. rewrite existsb_exists. split.
  - intros (y & Hy & E). apply str_eqb_eq in E. subst y. exact Hy.
  - intros H. exists x. split; [exact H|apply str_eqb_refl].
Qed.

Lemma prefix_skipn : forall p s, is_prefix p s = true -> s = p ++ skipn (length p) s.
Proof. intros p s H. destruct (is_prefix_inv p s H) as [t ->]. rewrite skipn_app_exact. reflexivity. Qed.

Lemma other_name_inv : forall s r, other_name s = Some r ->
  (exists n, In n known_names /\ s = n ++ r) \/ ts_match s = Some r.
Proof.
  intros [|c t] r H; [discriminate|]. unfold other_name in H.
  destruct ((c =? 99) || (c =? 105) || (c =? 98) || (c =? 117) || (c =? 118)) eqn:E.
  - injection H as <-. left. exists [c]. split; [|reflexivity].
    repeat (apply orb_true_iff in E; destruct E as [E|E]); apply Z.eqb_eq in E; subst c; apply mem_str_iff; reflexivity.
  - destruct (is_prefix (lit "ruby") (c :: t)) eqn:P1.
    { injection H as <-. left. exists (lit "ruby"). split; [apply mem_str_iff; reflexivity|apply prefix_skipn, P1]. }
    destruct (is_prefix (lit "rt") (c :: t)) eqn:P2.
    { injection H as <-. left. exists (lit "rt"). split; [apply mem_str_iff; reflexivity|apply prefix_skipn, P2]. }
    destruct (is_prefix (lit "lang") (c :: t)) eqn:P3.
    { injection H as <-. left. exists (lit "lang"). split; [apply mem_str_iff; reflexivity|apply prefix_skipn, P3]. }
    right. exact H.
Qed.

Lemma letter_not_digit : forall c, ascii_letter c = true -> is_digit c = false.
Proof. intros c H. unfold ascii_letter in H. unfold is_digit. lia. Qed.

(* an unknown tag is not matched: a defined name its text begins with is a proper prefix of its name, so a name
   character follows where the pattern wants a boundary *)
Lemma unknown_fails : forall b R, unknown_body b = true ->
  match other_name (strip_slash b ++ 62 :: R) with Some r => other_suffix true r | None => None end = None.
Proof.
  intros b R H. unfold unknown_body in H. apply andb_true_iff in H. destruct H as [H Hmem].
  apply andb_true_iff in H. destruct H as [_ Hl]. apply negb_true_iff in Hmem.
  set (s := strip_slash b) in *.
  destruct (other_name (s ++ 62 :: R)) as [r|] eqn:E; [|reflexivity].
  destruct (other_name_inv _ _ E) as [(n & Hin & Hs)|Hts].
  - assert (Q : take_while tag_name_char s = n ++ take_while tag_name_char r).
    { rewrite <- (take_while_app_all _ n r (proj1 (known_name n Hin))), <- Hs. symmetry. apply take_while_before. reflexivity. }
    rewrite Q in Hmem. destruct r as [|d X]; cbn [take_while] in Hmem.
    + rewrite app_nil_r, (proj2 (mem_str_iff n _) Hin) in Hmem. discriminate.
    + destruct (tag_name_char d) eqn:Hd; [apply suffix_name_char_fails, Hd|].
      rewrite app_nil_r, (proj2 (mem_str_iff n _) Hin) in Hmem. discriminate.
  - destruct s as [|c s']; [discriminate|]. unfold ts_match in Hts. cbn [app take_while] in Hts.
    rewrite (letter_not_digit c Hl) in Hts. discriminate.
Qed.

Definition render (gs : list vseg) : str := flat_map seg_render gs.
Definition display (gs : list vseg) : str := flat_map seg_display gs.

Lemma other_sub_text : forall s f R, forallb (fun c => negb (c =? 60)) s = true ->
  other_sub_aux true (length s + f) (s ++ R) = s ++ other_sub_aux true f R.
Proof.
  induction s as [|c s IH]; intros f R H; [reflexivity|].
  cbn [forallb] in H. apply andb_true_iff in H. destruct H as [Hc Hs].
  cbn [length Nat.add app other_sub_aux]. destruct (c =? 60); [discriminate|]. rewrite IH by exact Hs. reflexivity.
Qed.

Lemma strip_slash_app_gt : forall b R, strip_slash (b ++ 62 :: R) = strip_slash b ++ 62 :: R.
Proof. intros [|c b] R; [reflexivity|]. cbn [app strip_slash]. destruct (c =? 47); reflexivity. Qed.

Lemma other_sub_nil : forall f, other_sub_aux true f [] = [].
Proof. destruct f; reflexivity. Qed.

Lemma tag_no_angle : forall b, tag_body b = true -> no_angle b = true.
Proof.
  intros b H. unfold tag_body, known_body in H. apply orb_true_iff in H. destruct H as [H|H]; apply andb_true_iff in H; apply H.
Qed.
Lemma unknown_no_angle : forall b, unknown_body b = true -> no_angle b = true.
Proof.
  intros b H. unfold unknown_body in H. apply andb_true_iff in H. destruct H as [H _]. apply andb_true_iff in H. apply H.
Qed.

(* any surplus k of fuel: a deleted tag uses one unit for all its characters *)
Lemma other_sub_segments_fuel : forall gs k, forallb seg_ok gs = true ->
  other_sub_aux true (length (render gs) + k) (render gs) = display gs.
Proof.
  induction gs as [|g gs IH]; intros k Hok; [apply other_sub_nil|].
  cbn [forallb] in Hok. apply andb_true_iff in Hok. destruct Hok as [Hg Hgs].
  unfold render, display in *. cbn [flat_map].
  destruct g as [s|b|b]; cbn [seg_ok seg_render seg_display] in *.
  - rewrite app_length, <- Nat.add_assoc, other_sub_text, IH by assumption. reflexivity.
  - cbn [app length Nat.add other_sub_aux]. rewrite Z.eqb_refl.
    rewrite <- app_assoc at 1. cbn [app]. rewrite strip_slash_app_gt, (tag_matches b _ Hg).
    rewrite app_length, (Nat.add_comm (length (b ++ [62]))), <- Nat.add_assoc. apply IH, Hgs.
  - cbn [app length Nat.add other_sub_aux]. rewrite Z.eqb_refl.
    rewrite <- app_assoc at 1. cbn [app]. rewrite strip_slash_app_gt, (unknown_fails b _ Hg).
    rewrite app_length, <- Nat.add_assoc, other_sub_text, IH; [reflexivity|exact Hgs|].
    rewrite forallb_app, (no_angle_no_lt b (unknown_no_angle b Hg)). reflexivity.
Qed.

(* known tags (by NAME) vanish, every other tag stays literally, text is untouched *)
Theorem vtt_tags_by_name : forall gs, forallb seg_ok gs = true -> other_sub true (render gs) = display gs.
Proof. intros gs H. unfold other_sub. rewrite <- Nat.add_1_r. apply other_sub_segments_fuel, H. Qed.

(* the pinned pattern (other_sub false) deletes tags whose name merely begins with c, i, b, u or v *)
Theorem vtt_unknown_tag_refuted : exists gs, forallb seg_ok gs = true /\ other_sub false (render gs) <> display gs.
Proof.
  exists [SUnknown (lit "bar"); SText (lit "x"); SUnknown (lit "/bar"); SText (lit " "); SUnknown (lit "verbatim"); SText (lit "z")].
  split; [vm_compute; reflexivity|vm_compute; discriminate].
Qed.

Definition class_ok (c : str) : bool := match c with [] => false | _ => forallb is_word c end.

Definition dotted (cls : list str) : str := concat (map (fun c => 46 :: c) cls).
Lemma concat_dots_length : forall cls : list str, (length cls <= length (dotted cls))%nat.
Proof. unfold dotted. induction cls as [|c cls IH]; [reflexivity|]. cbn [map concat length]. rewrite app_length. cbn [length]. lia. Qed.

Lemma voice_classes_ok : forall cls f X, forallb class_ok cls = true -> (length cls <= f)%nat ->
  voice_classes f (concat (map (fun c => 46 :: c) cls) ++ 32 :: X) = 32 :: X.
Proof.
  induction cls as [|c cls IH]; intros f X Hc Hf.
  - cbn [map concat app]. destruct f; reflexivity.
  - cbn [forallb] in Hc. apply andb_true_iff in Hc. destruct Hc as [Hc Hcls].
    cbn [length] in Hf. destruct f as [|f']; [lia|].
    cbn [map concat]. unfold class_ok in Hc. destruct c as [|x c]; [discriminate|].
    cbn [forallb] in Hc. apply andb_true_iff in Hc. destruct Hc as [Hx Hcw].
    rewrite <- app_assoc. cbn [app voice_classes]. rewrite Hx.
    change (x :: c ++ concat (map (fun c0 => 46 :: c0) cls) ++ 32 :: X)
      with ((x :: c) ++ concat (map (fun c0 => 46 :: c0) cls) ++ 32 :: X).
    rewrite drop_while_stops.
    + apply IH; [exact Hcls|lia].
    + cbn [forallb]. rewrite Hx, Hcw. reflexivity.
    + destruct cls as [|c2 cls']; cbn [map concat app]; reflexivity.
Qed.

(* <v.class1.class2 Name> becomes "Name: " *)
Theorem vtt_voice_tag : forall cls name R f, forallb class_ok cls = true ->
  forallb (fun c => negb (c =? 62)) name = true ->
  voice_sub_aux (S f) (lit "<v" ++ concat (map (fun c => 46 :: c) cls) ++ lit " " ++ name ++ lit ">" ++ R)
  = name ++ lit ": " ++ voice_sub_aux f R.
Proof.
  intros cls name R f Hc Hn. change (lit "<v") with [60; 118]. change (lit " ") with [32]. change (lit ">") with [62].
  change (lit ": ") with [58; 32]. cbn [app voice_sub_aux]. rewrite !Z.eqb_refl.
  unfold voice_match.
  rewrite voice_classes_ok; [|exact Hc|].
  - change (32 :: name ++ 62 :: R) with (32 :: (name ++ 62 :: R)).
    rewrite drop_to_app by exact Hn.
    assert (T : take_to 62 (name ++ 62 :: R) = name).
    { clear - Hn. induction name as [|c n IH]; cbn [app take_to]; [rewrite Z.eqb_refl; reflexivity|].
      cbn [forallb] in Hn. apply andb_true_iff in Hn. destruct Hn as [Hc Hn]. destruct (c =? 62); [discriminate|].
      rewrite IH by exact Hn. reflexivity. }
    rewrite T. reflexivity.
  - rewrite !app_length. pose proof (concat_dots_length cls) as Q. unfold dotted in Q. lia.
Qed.
