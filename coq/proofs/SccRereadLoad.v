(* C17: the SCC reader model (model/SccDecoder.v: translate_word with the double-command filter,
   the position tracker, the node creator) run on the words of ONE load line of the SCC writer's layout
       ENM ENM RCL RCL  { PAC_r PAC_r  characters of row r in pairs (filler 0x80) }  r = first.. first+n-1   EDM EDM EOC EOC
   for ARBITRARY rows of basic characters on consecutive rows within 1..15 (the writer's PACs are the indent form with
   indent 0, see proofs/SccwBridgeFacts.v).  Result (`load_line_run`): the caption displayed before is closed at the
   instant of the first EDM, and - unless all rows are blank - a plain buffer (text and break nodes only) whose words are
   the words of the rows is queued with the instant of the first EOC as its start. *)
From Coq Require Import List ZArith QArith Lia Bool.
From PV Require Import lib.Sx lib.Str lib.Result model.GenScc model.SccTime model.SccStash model.SccDecoder.
From PV Require Import model.SccWrite spec.SpecSccw model.SccRoundTrip.
From PV Require Import proofs.SccDecodeFacts proofs.SccDocFacts proofs.SccwBridgeFacts proofs.SccRereadNodes proofs.SccRereadLines.
From PV Require proofs.SccTableFacts proofs.SccDoubleFacts proofs.SccPoponStage1 proofs.SccPoponStage2 proofs.SccWordsFacts.
Import ListNotations.
Open Scope Z_scope.

Module S1 := SccPoponStage1.
Module S2 := SccPoponStage2.

Ltac proj_red :=
  cbn [r_stash r_tk r_last r_dstart r_pop r_paint r_roll r_active r_queue r_time r_tc r_frames r_offset r_err
       set_dbl set_buf set_tk set_stash set_active set_queue set_time set_clock set_err buf bump
       andb orb negb fst snd].

Definition wpac (row : Z) : Z := word_z (pacw row).
Definition rows15 : list Z := map Z.of_nat (seq 1 15).

Lemma wpac_table :
  forallb (fun row => let w := wpac row in
             match pac_pos w with Some (r, c) => (r =? row) && (c =? 0) | None => false end
             && is_pac w && negb (w =? w_bs) && negb (memz w S1.ctl_words)
             && negb (memz w scc_background_color_codes) && negb (memz w scc_mid_row_codes)
             && negb (memz w scc_italics_commands)) rows15 = true.
Proof. vm_compute. reflexivity. Qed.

Lemma wpac_facts : forall row, 1 <= row <= 15 ->
  pac_pos (wpac row) = Some (row, 0) /\ is_pac (wpac row) = true /\ (wpac row =? w_bs) = false
  /\ ~ In (wpac row) S1.ctl_words /\ memz (wpac row) scc_background_color_codes = false
  /\ memz (wpac row) scc_mid_row_codes = false /\ memz (wpac row) scc_italics_commands = false.
Proof.
  intros row H. pose proof wpac_table as T. rewrite forallb_forall in T.
  assert (I : In row rows15).
  { unfold rows15. apply in_map_iff. exists (Z.to_nat row). split; [lia|]. apply in_seq. lia. }
  specialize (T row I). cbv zeta in T.
  repeat (apply andb_prop in T; let X := fresh "X" in destruct T as [T X]).
  destruct (pac_pos (wpac row)) as [[r c]|]; [|discriminate]. apply andb_prop in T. destruct T as [T1 T2].
  assert (r = row) by lia. assert (c = 0) by lia. subst.
  repeat split; try (apply negb_true_iff; assumption); try assumption.
  apply SccTableFacts.memz_notIn. apply negb_true_iff. assumption.
Qed.

(* a PAC without italics on a buffer without style only moves the cursor *)
Lemma interp_pac_plain : forall tk nodes w n, (w =? w_bs) = false -> memz w scc_background_color_codes = false ->
  memz w scc_mid_row_codes = false -> memz w scc_italics_commands = false ->
  interpret_command tk (mkCr nodes SNone) w n = (update_positioning tk (mkCr nodes SNone) w, mkCr nodes SNone, None).
Proof.
  intros tk nodes w n Hbs Hbg Hmid Hit. unfold interpret_command. cbv zeta. rewrite Hbs, Hbg, Hit, Hmid.
  destruct (memz w scc_style_setting_commands); cbn [cr_style cr_nodes andb];
    destruct (prev_text nodes) as [[x y]|]; reflexivity.
Qed.

(* what the double-command filter remembers between the words of a load line *)
Definition lok (l : lastcmd) : Prop :=
  l = LNone \/ exists w a b, l = LWord w /\ char_of (hi w) = Some a /\ char_of (lo w) = Some b.

Lemma lok_not_code : forall l w, lok l -> (is_command w || is_pac w) = true -> last_contains l w = false /\ last_is l w = false.
Proof.
  intros l w [->|(x & a & b & -> & Ha & Hb)] H; [split; reflexivity|].
  destruct (S1.char_word_class x a b Ha Hb) as (Hc & Hp & _). cbn [last_contains last_is].
  destruct (Z.eqb_spec x w) as [->|]; [|split; reflexivity]. rewrite Hc, Hp in H. discriminate.
Qed.

Lemma tw_cmd_first : forall s w n, r_err s = None -> is_command w = true -> is_pac w = false -> tab_of w = None ->
  last_is (r_last s) w = false ->
  translate_word s w n
  = let s1 := translate_command (set_dbl s (LWord w) (if is_cue_start w then false else r_dstart s)) w n in
    match r_err s1 with Some _ => s1 | None => bump s1 end.
Proof.
  intros s w n He Hc Hp Ht Hl. unfold translate_word, handle_double. cbv zeta. rewrite He, Hp, Ht, Hl, !andb_false_r. cbn [negb andb].
  rewrite andb_true_r, Hc. reflexivity.
Qed.

Lemma ctl_facts : forall w, In w [w_enm; w_rcl; w_edm; w_eoc] ->
  is_command w = true /\ is_pac w = false /\ tab_of w = None.
Proof. intros w H. cbn [In] in H. destruct H as [<-|[<-|[<-|[<-|[]]]]]; vm_compute; repeat split. Qed.

Lemma edm_facts : (w_edm =? w_bs) = false /\ memz w_edm scc_background_color_codes = false
  /\ memz w_edm scc_style_setting_commands = false /\ memz w_edm scc_mid_row_codes = false
  /\ tab_of w_edm = None /\ pac_pos w_edm = None.
Proof. vm_compute. repeat split. Qed.

Section Load.
Variables (pa ro : creator) (off : Q).

Definition ST (st : stash) (tk : tracker) (l : lastcmd) (ds : bool) (nodes : list inode) (q : option (creator * Q))
              (tm : Q) (tc : str) (fr : Z) : rstate :=
  mkR st tk l ds (mkCr nodes SNone) pa ro MPop q tm tc fr off None.

(* one word of characters: a basic character and the byte that shares its word *)
Definition acked (tk : tracker) : tracker := mkTk (tk_pos tk) None false (tk_default tk).

Lemma basic_byte : forall c, is_basic c = true -> 0 <= byte_of c < 256 /\ char_of (byte_of c) = Some [c] /\ tame [c] = true.
Proof.
  intros c Hc. destruct (basic_facts c Hc) as [Eb Hb]. rewrite Eb. destruct (S1.carries_bc c Hb) as [Rg Hch].
  split; [exact Rg|]. split; [exact Hch|]. unfold tame. cbn [forallb]. rewrite andb_true_r.
  destruct (is_space c) eqn:Es; [|reflexivity]. rewrite (S1.basic_space c Hb Es). reflexivity.
Qed.

Lemma tw_chars : forall st tk l ds nodes q tm tc fr c0 b cs n, is_basic c0 = true ->
  0 <= b < 256 -> char_of b = Some cs -> tame cs = true ->
  tk_repos tk = false -> plain nodes = true -> forallb tame_node nodes = true ->
  let w := word_z (byte_of c0, b) in
  exists nodes', translate_word (ST st tk l ds nodes q tm tc fr) w n = ST st (acked tk) (LWord w) ds nodes' q tm tc (fr + 1)
                 /\ plain nodes' = true /\ forallb tame_node nodes' = true /\ lok (LWord w)
                 /\ last_text nodes' = true /\ ntext nodes' = ntext nodes ++ brk_str tk ++ c0 :: cs.
Proof.
  intros st tk l ds nodes q tm tc fr c0 b cs n B0 Rb Hb Tb R P TN w. destruct (basic_byte c0 B0) as (_ & H0 & T0).
  assert (Ha : char_of (hi w) = Some [c0])
    by (unfold w, word_z, SccRoundTrip.word_z; cbn [fst snd]; rewrite S1.hi_word by exact Rb; exact H0).
  assert (Hl : char_of (lo w) = Some cs)
    by (unfold w, word_z, SccRoundTrip.word_z; cbn [fst snd]; rewrite S1.lo_word by exact Rb; exact Hb).
  assert (TS : tame ([c0] ++ cs) = true) by (unfold tame in *; rewrite forallb_app, T0, Tb; reflexivity).
  destruct (S1.char_word_class w [c0] cs Ha Hl) as (Hc & Hp & Hs & He & Ht & Hq & Hbs).
  destruct (add_chars_plain tk nodes ([c0] ++ cs) R P TN TS) as (nodes' & E & P' & L' & N' & T').
  exists nodes'. split; [|split; [exact P'|split; [exact T'|split; [right; exists w, [c0], cs; auto|split; [exact L'|exact N']]]]].
  unfold ST, translate_word. proj_red. unfold handle_double. proj_red. rewrite Hc, Hp, Hs, He, Ht, Hq.
  proj_red. rewrite ?andb_false_r. proj_red. rewrite Ha, Hl. unfold add_to_buf. proj_red. rewrite E. proj_red. reflexivity.
Qed.

(* the characters of one row: bytes in pairs, the last one alone with the filler *)
Definition tk_after (tk : tracker) (cs : str) : tracker := match cs with [] => tk | _ => acked tk end.

Lemma row_run : forall st ds q tm tc nx n line, (length line <= n)%nat -> forallb is_basic line = true ->
  forall tk l nodes fr, tk_repos tk = false -> plain nodes = true -> forallb tame_node nodes = true -> lok l ->
  exists l' nodes',
    S1.tws (ST st tk l ds nodes q tm tc fr) (map word_z (pair_up (map byte_of line))) nx
      = ST st (tk_after tk line) l' ds nodes' q tm tc (fr + Z.of_nat (length (pair_up (map byte_of line))))
    /\ plain nodes' = true /\ forallb tame_node nodes' = true /\ lok l'
    /\ match line with
       | [] => nodes' = nodes
       | _ => last_text nodes' = true /\ ntext nodes' = ntext nodes ++ brk_str tk ++ line
       end.
Proof.
  induction n as [|n IH]; intros [|c0 [|c1 t]] Ln B tk l nodes fr R P T L; cbn [length] in Ln; try lia;
    cbn [map pair_up S1.tws length tk_after].
  1, 2: exists l, nodes; rewrite Z.add_0_r; auto.
  - cbn [forallb] in B. rewrite andb_true_r in B.
    destruct (tw_chars st tk l ds nodes q tm tc fr c0 128 [] nx B ltac:(lia) S1.char_of_pad eq_refl R P T)
      as (nodes' & E & P' & T' & L' & C').
    rewrite E. eexists _, nodes'. split; [reflexivity|]. auto.
  - cbn [forallb] in B. apply andb_prop in B. destruct B as [B0 B]. apply andb_prop in B. destruct B as [B1 Bt].
    destruct (basic_byte c1 B1) as (R1 & H1 & T1). set (rest := map word_z (pair_up (map byte_of t))).
    destruct (tw_chars st tk l ds nodes q tm tc fr c0 (byte_of c1) [c1] (S1.nxt rest nx) B0 R1 H1 T1 R P T)
      as (nodes1 & E & P1 & T1' & L1 & Lt1 & N1).
    fold (S1.nxt rest nx). rewrite E.
    destruct (IH t ltac:(lia) Bt (acked tk) _ nodes1 (fr + 1) eq_refl P1 T1' L1) as (l' & nodes' & E' & P' & T' & L' & C').
    exists l', nodes'. split; [|split; [exact P'|split; [exact T'|split; [exact L'|]]]].
    + unfold rest. rewrite E'. replace (tk_after (acked tk) t) with (acked tk) by (destruct t; reflexivity). f_equal. lia.
    + destruct t as [|c2 t'].
      * subst nodes'. split; [exact Lt1|exact N1].
      * destruct C' as [C1 C2]. split; [exact C1|]. rewrite C2, N1. change (brk_str (acked tk)) with (@nil Z).
        rewrite <- !app_assoc. reflexivity.
Qed.

Lemma tw_pac_pair : forall st tk l ds nodes q tm tc fr row nx, 1 <= row <= 15 -> lok l ->
  S1.tws (ST st tk l ds nodes q tm tc fr) [wpac row; wpac row] nx
  = ST st (tracker_update (match nodes with [] => tracker_reset tk | _ => tk end) (row, 0)) LNone ds nodes q tm tc (fr + 2).
Proof.
  intros st tk l ds nodes q tm tc fr row nx H L. destruct (wpac_facts row H) as (Hp & Hpac & Hbs & Hctl & Hbg & Hmid & Hit).
  destruct (SccDoubleFacts.pac_facts _ Hpac) as [Ht Hq].
  assert (Hcp : (is_command (wpac row) || is_pac (wpac row)) = true) by (rewrite Hpac; apply orb_true_r).
  destruct (lok_not_code l _ L Hcp) as [Hl _].
  cbn [S1.tws]. unfold ST.
  rewrite (S2.tw_cmd st tk l ds (mkCr nodes SNone) pa ro q tm tc fr off (wpac row) (Some (wpac row)) (LWord (wpac row)) _ _ Hcp Hctl
             (S1.hd_pac st tk l ds (mkCr nodes SNone) pa ro q tm tc fr off (wpac row) Hpac Hl)
             (interp_pac_plain tk nodes _ _ Hbs Hbg Hmid Hit)).
  rewrite SccDoubleFacts.pac_second; [|reflexivity|exact Hpac|cbn [r_last last_contains]; apply Z.eqb_refl].
  rewrite (S1.up_pac_gen _ _ _ _ Ht Hp). unfold bump, set_dbl, set_clock. proj_red. cbn [cr_nodes]. f_equal. lia.
Qed.

Lemma tracker_next_row : forall tk ps r c r', tk_pos tk = ps ++ [(r, c)] -> tk_repos tk = false -> r' = r + 1 ->
  exists c', tracker_update tk (r', 0) = mkTk (tk_pos tk ++ [(r', c')]) (Some 0) false (r', 0).
Proof.
  intros [tp tb tr td] ps r c r' E R ->. cbn [tk_pos tk_repos] in *. subst. unfold tracker_update.
  cbn [tk_pos tk_break tk_repos tk_default]. rewrite map_app. cbn [map]. rewrite last_last, Z.eqb_refl. eexists. reflexivity.
Qed.

Definition rinv (r : Z) (tk : tracker) (nodes : list inode) : Prop :=
  tk_repos tk = false /\ (nodes = [] \/ (last_text nodes = true /\ exists ps c, tk_pos tk = ps ++ [(r, c)])).

Lemma basic_no_nl : forall line, forallb is_basic line = true -> no_nl line = true.
Proof.
  induction line as [|c t IH]; intros H; [reflexivity|]. cbn [forallb] in H. apply andb_prop in H. destruct H as [Hc Ht].
  cbn [no_nl forallb]. fold (no_nl t). rewrite (IH Ht), andb_true_r. destruct (Z.eqb_spec c 10) as [->|]; [|reflexivity].
  vm_compute in Hc. discriminate.
Qed.

Definition rows_short (lines : list str) : Prop := Forall (fun line : str => (length line <= 32)%nat) lines.

Lemma rows_run : forall lines st ds q tm tc nx first tk l nodes fr,
  1 <= first -> first + Z.of_nat (length lines) <= 16 ->
  Forall (fun line => forallb is_basic line = true) lines ->
  rinv (first - 1) tk nodes -> plain nodes = true -> forallb tame_node nodes = true -> lok l ->
  exists tk' l' nodes',
    S1.tws (ST st tk l ds nodes q tm tc fr) (map word_z (flat_map roww (number_rows first lines))) nx
    = ST st tk' l' ds nodes' q tm tc (fr + Z.of_nat (length (flat_map roww (number_rows first lines))))
    /\ rinv (first + Z.of_nat (length lines) - 1) tk' nodes' /\ plain nodes' = true /\ forallb tame_node nodes' = true /\ lok l'
    /\ words (ntext nodes') = words (ntext nodes) ++ flat_map words lines
    /\ (short (ntext nodes) = true -> rows_short lines -> short (ntext nodes') = true).
Proof.
  induction lines as [|line t IH]; intros st ds q tm tc nx first tk l nodes fr H1 H2 B I P T L.
  - exists tk, l, nodes. cbn [number_rows flat_map map S1.tws length]. rewrite !Z.add_0_r, app_nil_r. auto 10.
  - inversion B as [|? ? Bl Bt]; subst. cbn [number_rows flat_map length] in *.
    change (roww (first, line)) with (pacw first :: pacw first :: pair_up (map byte_of line)). rewrite !map_app.
    change (map word_z (pacw first :: pacw first :: pair_up (map byte_of line)))
      with ([wpac first; wpac first] ++ map word_z (pair_up (map byte_of line))).
    rewrite <- app_assoc. rewrite (S1.tws_app [wpac first; wpac first]), (S1.tws_app (map word_z (pair_up (map byte_of line)))).
    rewrite (tw_pac_pair st tk l ds nodes q tm tc fr first _ ltac:(lia) L).
    set (tk1 := tracker_update (match nodes with [] => tracker_reset tk | _ => tk end) (first, 0)).
    destruct I as [R I].
    assert (K : tk_repos tk1 = false /\ (exists ps c, tk_pos tk1 = ps ++ [(first, c)])
                /\ brk_str tk1 = match nodes with [] => [] | _ => [10] end).
    { destruct I as [->|(Lt & ps & c & E)].
      - unfold tk1. rewrite S1.tracker_reset_first. split; [reflexivity|]. split; [exists [], 0; reflexivity|reflexivity].
      - assert (Nn : nodes <> []) by (intros ->; discriminate).
        destruct (tracker_next_row tk ps (first - 1) c first E R ltac:(lia)) as (c' & E').
        unfold tk1. destruct nodes as [|n0 nt]; [congruence|]. rewrite E'. split; [reflexivity|]. split; [|reflexivity].
        exists (tk_pos tk), c'. reflexivity. }
    destruct K as (R1 & (ps1 & c1 & E1) & Bk).
    destruct (row_run st ds q tm tc (S1.nxt (map word_z (flat_map roww (number_rows (first + 1) t))) nx) _ line (le_n _) Bl
                tk1 LNone nodes (fr + 2) R1 P T (or_introl eq_refl)) as (l2 & nodes2 & E2 & P2 & T2 & L2 & C2).
    rewrite E2.
    assert (I2 : rinv (first + 1 - 1) (tk_after tk1 line) nodes2).
    { replace (first + 1 - 1) with first by lia. split; [destruct line; [exact R1|reflexivity]|].
      destruct line as [|c0 cs].
      - subst nodes2. destruct I as [->|(Lt & _)]; [left; reflexivity|right]. split; [exact Lt|]. exists ps1, c1. exact E1.
      - right. split; [exact (proj1 C2)|]. exists ps1, c1. exact E1. }
    destruct (IH st ds q tm tc nx (first + 1) (tk_after tk1 line) l2 nodes2 (fr + 2 + Z.of_nat (length (pair_up (map byte_of line))))
                ltac:(lia) ltac:(lia) Bt I2 P2 T2 L2) as (tk' & l' & nodes' & E' & I' & P' & T' & L' & W' & S').
    exists tk', l', nodes'. rewrite E'. split; [|split; [|split; [exact P'|split; [exact T'|split; [exact L'|split]]]]].
    + f_equal. rewrite !app_length. cbn [length]. lia.
    + replace (first + Z.of_nat (S (length t)) - 1) with (first + 1 + Z.of_nat (length t) - 1) by lia. exact I'.
    + rewrite W'. rewrite app_assoc. f_equal. destruct line as [|c0 cs].
      * subst nodes2. cbn. rewrite app_nil_r. reflexivity.
      * destruct C2 as [_ ->]. rewrite Bk. destruct I as [->|(Lt & _)].
        -- reflexivity.
        -- destruct nodes as [|n0 nt]; [discriminate|]. change ([10] ++ c0 :: cs) with (10 :: c0 :: cs).
           apply SccWordsFacts.words_nl.
    + intros Sh Fl. inversion Fl as [|? ? Fl1 Flt]; subst. apply S'; [|exact Flt]. destruct line as [|c0 cs].
      * subst nodes2. exact Sh.
      * destruct C2 as [_ ->]. rewrite Bk. pose proof (basic_no_nl _ Bl) as Nn. destruct I as [->|(Lt & _)].
        -- cbn [ntext map concat app]. apply runs_ok_line; [exact Nn|cbn [length] in *; lia].
        -- destruct nodes as [|n0 nt]; [discriminate|]. change ([10] ++ c0 :: cs) with (10 :: c0 :: cs). unfold short.
           rewrite runs_ok_app_nl. unfold short in Sh. rewrite Sh. apply runs_ok_line; [exact Nn|cbn [length] in *; lia].
Qed.

(* a framing command sent twice: the first does its work, the second is dropped by the double-command filter *)
Lemma pair_ctl : forall st tk l ds nodes q tm tc fr w nx st' tk' nodes' q' tm', In w [w_enm; w_rcl; w_edm; w_eoc] -> lok l ->
  (forall ds1, translate_command (ST st tk (LWord w) ds1 nodes q tm tc fr) w (Some w)
               = ST st' tk' (LWord w) ds1 nodes' q' tm' tc fr) ->
  exists ds', S1.tws (ST st tk l ds nodes q tm tc fr) [w; w] nx = ST st' tk' LNone ds' nodes' q' tm' tc (fr + 2).
Proof.
  intros st tk l ds nodes q tm tc fr w nx st' tk' nodes' q' tm' H L E. destruct (ctl_facts w H) as (Hc & Hp & Ht).
  destruct (lok_not_code l w L ltac:(rewrite Hc; reflexivity)) as [_ Hl]. cbn [S1.tws].
  rewrite (tw_cmd_first (ST st tk l ds nodes q tm tc fr) w (Some w)); [|reflexivity|exact Hc|exact Hp|exact Ht|exact Hl]. cbv zeta.
  set (ds1 := if is_cue_start w then false else r_dstart (ST st tk l ds nodes q tm tc fr)).
  change (set_dbl (ST st tk l ds nodes q tm tc fr) (LWord w) ds1) with (ST st tk (LWord w) ds1 nodes q tm tc fr).
  rewrite E.
  change (bump (ST st' tk' (LWord w) ds1 nodes' q' tm' tc fr)) with (ST st' tk' (LWord w) ds1 nodes' q' tm' tc (fr + 1)).
  cbn [r_err ST].
  eexists. rewrite S1.tw_second; [|reflexivity|reflexivity|unfold SccDoubleFacts.doubled_type; rewrite Hc; reflexivity].
  unfold ST, bump, set_dbl, set_clock. proj_red. f_equal. lia.
Qed.

Lemma pair_enm : forall st tk ds nodes q tm tc fr nx, exists ds',
  S1.tws (ST st tk LNone ds nodes q tm tc fr) [w_enm; w_enm] nx = ST st (tracker_reset tk) LNone ds' [] q tm tc (fr + 2).
Proof. intros. apply pair_ctl; [cbn [In]; tauto|left; reflexivity|reflexivity]. Qed.

Lemma pair_rcl : forall st tk ds nodes q tm tc fr nx, exists ds',
  S1.tws (ST st tk LNone ds nodes q tm tc fr) [w_rcl; w_rcl] nx = ST st tk LNone ds' nodes q tm tc (fr + 2).
Proof. intros. apply pair_ctl; [cbn [In]; tauto|left; reflexivity|reflexivity]. Qed.

(* Erase-Displayed-Memory: the caption on display (if any) is closed at this instant *)
Definition closed (st : stash) (q : option (creator * Q)) (t : Q) : stash :=
  match q with Some (c0, a) => create_and_store st c0 a t | None => st end.

Lemma pair_edm : forall st tk l ds nodes q tm tc fr nx t1, lok l -> get_time tc fr off = Ok t1 -> exists ds',
  S1.tws (ST st tk l ds nodes q tm tc fr) [w_edm; w_edm] nx = ST (closed st q t1) tk LNone ds' nodes None tm tc (fr + 2).
Proof.
  intros st tk l ds nodes q tm tc fr nx t1 L G. apply pair_ctl; [cbn [In]; tauto|exact L|]. intros ds1.
  destruct q as [[c0 a]|].
  - unfold translate_command. cbn [Z.eqb Pos.eqb w_edm w_rcl w_rdc w_ru2 w_ru3 w_ru4 w_enm w_eoc w_cr orb andb r_queue ST set_dbl].
    unfold with_time, ST. proj_red. rewrite G. reflexivity.
  - unfold translate_command. cbn [Z.eqb Pos.eqb w_edm w_rcl w_rdc w_ru2 w_ru3 w_ru4 w_enm w_eoc w_cr orb andb r_queue ST set_dbl].
    unfold do_interpret, ST. proj_red. destruct edm_facts as (A & B & C & D & E & F).
    rewrite (S2.interp_plain tk (mkCr nodes SNone) w_edm (Some w_edm) A B C D). unfold update_positioning. rewrite E, F. reflexivity.
Qed.

(* End-Of-Caption with nothing on display: the buffer is queued with this instant as its start *)
Definition queued (nodes : list inode) (t : Q) : option (creator * Q) :=
  if cr_is_empty (mkCr nodes SNone) then None else Some (mkCr nodes SNone, t).
Definition after_eoc (nodes : list inode) : list inode := if cr_is_empty (mkCr nodes SNone) then nodes else [].

Lemma pair_eoc : forall st tk ds nodes tm tc fr nx t2, get_time tc fr off = Ok t2 -> exists ds',
  S1.tws (ST st tk LNone ds nodes None tm tc fr) [w_eoc; w_eoc] nx
  = ST st tk LNone ds' (after_eoc nodes) (queued nodes t2) t2 tc (fr + 2).
Proof.
  intros st tk ds nodes tm tc fr nx t2 G. apply pair_ctl; [cbn [In]; tauto|left; reflexivity|]. intros ds1.
  rewrite S1.translate_command_eoc. unfold with_time, ST, after_eoc, queued. proj_red. rewrite G. proj_red.
  destruct (cr_is_empty (mkCr nodes SNone)); reflexivity.
Qed.

Definition load_words (first : Z) (lines : list str) : list Z :=
  map word_z ((pre4 ++ flat_map roww (number_rows first lines) ++ post3) ++ [EOC]).

Lemma load_words_eq : forall first lines,
  load_words first lines
  = [w_enm; w_enm] ++ [w_rcl; w_rcl] ++ map word_z (flat_map roww (number_rows first lines)) ++ [w_edm; w_edm] ++ [w_eoc; w_eoc].
Proof.
  intros. unfold load_words. rewrite !map_app. change (map word_z pre4) with ([w_enm; w_enm] ++ [w_rcl; w_rcl]).
  change (map word_z post3) with ([w_edm; w_edm] ++ [w_eoc]). change (map word_z [EOC]) with [w_eoc].
  rewrite <- !app_assoc. reflexivity.
Qed.

Lemma load_line_run : forall lines first st tk ds nodes0 q tm tc0 fr0 tc t1 t2,
  1 <= first -> first + Z.of_nat (length lines) <= 16 ->
  Forall (fun line => forallb is_basic line = true) lines ->
  get_time tc (Z.of_nat (length (flat_map roww (number_rows first lines))) + 4) off = Ok t1 ->
  get_time tc (Z.of_nat (length (flat_map roww (number_rows first lines))) + 6) off = Ok t2 ->
  exists tk' ds' nodes,
    translate_line (ST st tk LNone ds nodes0 q tm tc0 fr0) (tc, load_words first lines)
    = ST (closed st q t1) tk' LNone ds' (after_eoc nodes) (queued nodes t2) t2 tc
         (Z.of_nat (length (flat_map roww (number_rows first lines))) + 8)
    /\ plain nodes = true /\ forallb tame_node nodes = true /\ words (ntext nodes) = flat_map words lines
    /\ (rows_short lines -> short (ntext nodes) = true).
Proof.
  intros lines first st tk ds nodes0 q tm tc0 fr0 tc t1 t2 H1 H2 B G1 G2.
  set (rw := flat_map roww (number_rows first lines)) in *. set (n := Z.of_nat (length rw)) in *.
  unfold translate_line. cbn [r_err ST fst snd].
  change (set_clock (ST st tk LNone ds nodes0 q tm tc0 fr0) tc 0) with (ST st tk LNone ds nodes0 q tm tc 0).
  rewrite S1.tws_words, load_words_eq. fold rw.
  rewrite (S1.tws_app [w_enm; w_enm]), (S1.tws_app [w_rcl; w_rcl]), (S1.tws_app (map word_z rw)), (S1.tws_app [w_edm; w_edm]).
  destruct (pair_enm st tk ds nodes0 q tm tc 0 (S1.nxt ([w_rcl; w_rcl] ++ map word_z rw ++ [w_edm; w_edm] ++ [w_eoc; w_eoc]) None)) as (d1 & ->).
  destruct (pair_rcl st (tracker_reset tk) d1 [] q tm tc (0 + 2) (S1.nxt (map word_z rw ++ [w_edm; w_edm] ++ [w_eoc; w_eoc]) None)) as (d2 & ->).
  destruct (rows_run lines st d2 q tm tc (S1.nxt ([w_edm; w_edm] ++ [w_eoc; w_eoc]) None) first (tracker_reset tk) LNone [] (0 + 2 + 2)
              H1 H2 B (conj eq_refl (or_introl eq_refl)) eq_refl eq_refl (or_introl eq_refl))
    as (tk' & l' & nodes & E & _ & P & T & L & W & Sh).
  fold rw in E. rewrite E. fold n. replace (0 + 2 + 2 + n) with (n + 4) by lia.
  destruct (pair_edm st tk' l' d2 nodes q tm tc (n + 4) (S1.nxt [w_eoc; w_eoc] None) t1 L G1) as (d3 & ->).
  replace (n + 4 + 2) with (n + 6) by lia.
  destruct (pair_eoc (closed st q t1) tk' d3 nodes tm tc (n + 6) None t2 G2) as (d4 & ->).
  exists tk', d4, nodes. split; [f_equal; lia|]. split; [exact P|]. split; [exact T|]. split; [rewrite W; reflexivity|].
  intros Fl. apply Sh; [reflexivity|exact Fl].
Qed.

Lemma clear_line_run : forall st tk ds nodes q tm tc0 fr0 tc t, get_time tc 0 off = Ok t -> exists ds',
  translate_line (ST st tk LNone ds nodes q tm tc0 fr0) (tc, [w_edm; w_edm]) = ST (closed st q t) tk LNone ds' nodes None tm tc 2.
Proof.
  intros st tk ds nodes q tm tc0 fr0 tc t G. unfold translate_line. cbn [r_err ST fst snd].
  change (set_clock (ST st tk LNone ds nodes q tm tc0 fr0) tc 0) with (ST st tk LNone ds nodes q tm tc 0).
  rewrite S1.tws_words. destruct (pair_edm st tk LNone ds nodes q tm tc 0 None t (or_introl eq_refl) G) as (d & ->).
  exists d. reflexivity.
Qed.
End Load.
