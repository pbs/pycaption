(* DeepcopyFacts.v - deepcopy is structure preserving: the snapshot of the copy equals the snapshot of the original,
   for every store (sharing and cycles included), every fuel of deepcopy that suffices, every fuel of snap.
   Proof: the memo is, at the end, a simulation between the original objects and their copies. *)
From Coq Require Import List ZArith Bool Arith Lia.
From PV Require Import lib.Sx lib.Str model.Store proofs.StoreFacts.
Import ListNotations.

Definition vrel (m : memo) (v v' : val) : Prop :=
  match v with
  | VLoc a => exists b, mlookup a m = Some b /\ v' = VLoc b
  | _ => v' = v
  end.

Definition irel (m : memo) (its its' : list (val * val)) : Prop :=
  Forall2 (fun kv kv' => vrel m (fst kv) (fst kv') /\ vrel m (snd kv) (snd kv')) its its'.

(* b is a finished copy of a *)
Definition copied (st0 st : store) (m : memo) (a b : loc) : Prop :=
  exists o o', get st0 a = Some o /\ get st b = Some o' /\ o_kind o' = o_kind o /\ irel m (o_items o) (o_items o').

(* pend: the (original, copy) pairs whose copy is still being filled (the recursion stack) *)
Definition J (st0 st : store) (m : memo) (pend : list (loc * loc)) : Prop :=
  forall a b, mlookup a m = Some b -> (a < length st0)%nat /\ (In (a, b) pend \/ copied st0 st m a b).

Lemma vrel_mext : forall m m' v v', mext m m' -> vrel m v v' -> vrel m' v v'.
Proof. intros m m' [] v' H Hv; simpl in *; auto. destruct Hv as (b & A & B). exists b. auto. Qed.

Lemma irel_mext : forall m m' its its', mext m m' -> irel m its its' -> irel m' its its'.
Proof.
  intros m m' its its' H Hi. unfold irel in *. induction Hi; constructor; auto.
  destruct H0. split; eapply vrel_mext; eauto.
Qed.

Lemma copied_mono : forall st0 st st' m m' a b,
  mext m m' -> (forall o, get st b = Some o -> get st' b = Some o) -> copied st0 st m a b -> copied st0 st' m' a b.
Proof.
  intros st0 st st' m m' a b Hm Hg (o & o' & A & B & C & D).
  exists o, o'. repeat split; auto. eapply irel_mext; eauto.
Qed.

Definition dcs_spec (st0 : store) (rec : store -> memo -> val -> dcres val) : Prop :=
  forall st m v st' m' v' pend,
    wf st0 -> inv st0 st -> memo_inr (length st0) (length st) m -> J st0 st m pend ->
    below (length st0) v ->
    rec st m v = Some (st', m', v') ->
    agree_below (length st) st st' /\ J st0 st' m' pend /\ vrel m' v v'.

Lemma J_frame : forall st0 st st' m m' pend,
  J st0 st m pend -> mext m m' -> agree_below (length st) st st' ->
  forall a b, mlookup a m = Some b -> (a < length st0)%nat /\ (In (a, b) pend \/ copied st0 st' m' a b).
Proof.
  intros st0 st st' m m' pend HJ Hm Ha a b H. destruct (HJ a b H) as [A [B|B]]; split; auto.
  right. eapply copied_mono; [exact Hm| |exact B].
  intros o Hg. rewrite Ha; auto. eapply get_some_lt; eauto.
Qed.

Lemma dcs_items : forall st0 rec, dcs_spec st0 rec -> dc_spec st0 rec ->
  forall its st m st' m' its' pend,
    wf st0 -> inv st0 st -> memo_inr (length st0) (length st) m -> J st0 st m pend ->
    items_below (length st0) its ->
    dc_items rec its st m = Some (st', m', its') ->
    agree_below (length st) st st' /\ J st0 st' m' pend /\ irel m' its its'.
Proof.
  intros st0 rec Hrec Hdc. induction its as [|[k x] t IH]; intros st m st' m' its' pend Hwf Hinv Hm HJ Hb H; simpl in H.
  - inversion H; subst. split; [intros l _; reflexivity|]. split; [exact HJ|constructor].
  - destruct (rec st m k) as [[[st1 m1] k']|] eqn:E1; [|discriminate].
    destruct (rec st1 m1 x) as [[[st2 m2] x']|] eqn:E2; [|discriminate].
    destruct (dc_items rec t st2 m2) as [[[st3 m3] t']|] eqn:E3; [|discriminate].
    inversion H; subst. clear H.
    inversion Hb as [|? ? [Hbk Hbx] Hbt]; subst. simpl in Hbk, Hbx.
    destruct (Hdc _ _ _ _ _ _ Hinv Hm E1) as ((I1 & M1 & L1 & _) & _).
    destruct (Hrec _ _ _ _ _ _ pend Hwf Hinv Hm HJ Hbk E1) as (A1 & J1 & V1).
    destruct (Hdc _ _ _ _ _ _ I1 M1 E2) as ((I2 & M2 & L2 & X2 & _) & _).
    destruct (Hrec _ _ _ _ _ _ pend Hwf I1 M1 J1 Hbx E2) as (A2 & J2 & V2).
    destruct (dc_items_spec st0 rec Hdc _ _ _ _ _ _ I2 M2 E3) as ((_ & _ & _ & X3 & _) & _).
    destruct (IH _ _ _ _ _ pend Hwf I2 M2 J2 Hbt E3) as (A3 & J3 & V3).
    split; [|split; [exact J3|]].
    + intros l Hl. rewrite A3 by lia. rewrite A2 by lia. apply A1. exact Hl.
    + constructor; [|exact V3]. simpl. split.
      * eapply vrel_mext; [|exact V1]. eapply mext_trans; eauto.
      * eapply vrel_mext; [|exact V2]. exact X3.
Qed.

Lemma dcs_dcv : forall st0 fuel, dcs_spec st0 (dcv fuel).
Proof.
  intros st0.
  assert (Hsame : forall st m v v' pend, J st0 st m pend -> vrel m v v' ->
            agree_below (length st) st st /\ J st0 st m pend /\ vrel m v v').
  { intros st m v v' pend HJ Hv. split; [intros l _; reflexivity|]. split; assumption. }
  induction fuel as [|f IH]; intros st m v st' m' v' pend Hwf Hinv Hm HJ Hb H.
  - destruct v as [| | |l]; simpl in H; try (inversion H; subst; apply Hsame; auto; reflexivity).
    destruct (mlookup l m) as [l'|] eqn:El; [|discriminate].
    inversion H; subst. apply Hsame; auto. exists l'. auto.
  - destruct (dcv_spec st0 _ _ _ _ _ _ _ Hinv Hm H) as ((_ & _ & _ & _ & _ & Honce) & _).
    destruct v as [| | |l]; simpl in H; try (inversion H; subst; apply Hsame; auto; reflexivity).
    destruct (mlookup l m) as [l'|] eqn:El.
    { inversion H; subst. apply Hsame; auto. exists l'. auto. }
    destruct (get st l) as [o|] eqn:Hg; [|discriminate].
    destruct (dc_items (dcv f) (o_items o) (st ++ [mkObj (o_kind o) []]) ((l, length st) :: m))
      as [[[st2 m2] its']|] eqn:E; [|discriminate].
    injection H as Hs' Hm' Hv'. subst st' m' v'.
    simpl in Hb.
    pose proof (inv_len _ _ Hinv) as Hlen.
    assert (Hg0 : get st0 l = Some o). { rewrite <- (inv_agree _ _ Hinv l Hb). exact Hg. }
    remember (length st) as l' eqn:El'.
    remember (st ++ [mkObj (o_kind o) []]) as st1 eqn:Est1.
    remember ((l, l') :: m) as m1 eqn:Em1.
    assert (Hempty : items_inr (length st0) (length st) (o_items (mkObj (o_kind o) []))) by constructor.
    destruct (inv_alloc st0 st (mkObj (o_kind o) []) Hinv Hempty) as [I1 V1]. rewrite <- Est1, <- El' in *.
    assert (Lst1 : length st1 = S l'). { subst st1 l'. rewrite app_length. simpl. lia. }
    assert (M1 : memo_inr (length st0) (length st1) m1).
    { subst m1. constructor; [simpl in *; exact V1|]. eapply memo_inr_mono; [exact Hm|]. lia. }
    assert (X01 : mext m m1).
    { intros a b Hab. subst m1. rewrite mlookup_cons_other; auto. intros ->. congruence. }
    assert (A01 : agree_below (length st) st st1).
    { intros x Hx. subst st1. apply get_app_l. exact Hx. }
    assert (J1 : J st0 st1 m1 ((l, l') :: pend)).
    { intros a b Hab. destruct (Nat.eq_dec a l) as [->|Hne].
      - subst m1. rewrite mlookup_cons_same in Hab. inversion Hab; subst b. split; [exact Hb|left; left; reflexivity].
      - subst m1. rewrite mlookup_cons_other in Hab by assumption.
        destruct (J_frame _ _ _ _ _ _ HJ X01 A01 a b Hab) as [P [Q|Q]]; split; auto. left. right. exact Q. }
    assert (Hbi : items_below (length st0) (o_items o)) by (apply (Hwf l o Hg0)).
    destruct (dc_items_spec st0 (dcv f) (dcv_spec st0 f) _ _ _ _ _ _ I1 M1 E) as ((_ & _ & L2 & X2 & _) & _).
    destruct (dcs_items st0 (dcv f) IH (dcv_spec st0 f) _ _ _ _ _ _ ((l, l') :: pend) Hwf I1 M1 J1 Hbi E)
      as (A2 & J2 & V2).
    assert (Hl'2 : (l' < length st2)%nat) by lia.
    assert (Hlm2 : mlookup l m2 = Some l'). { apply X2. subst m1. apply mlookup_cons_same. }
    split; [|split].
    + intros x Hx. rewrite get_upd_other by lia. rewrite A2 by lia. apply A01. lia.
    + intros a b Hab. destruct (J2 a b Hab) as [P Q]. split; [exact P|].
      destruct (Nat.eq_dec b l') as [->|Hnb].
      * right. rewrite (Honce a l l' Hab Hlm2 (Nat.le_refl _)) in *. exists o, (mkObj (o_kind o) its'). split; [exact Hg0|].
        split; [apply get_upd_same; exact Hl'2|]. split; [reflexivity|exact V2].
      * destruct Q as [[Q|Q]|Q].
        -- inversion Q; subst. congruence.
        -- left. exact Q.
        -- right. eapply copied_mono; [apply mext_refl| |exact Q].
           intros oo Hgo. rewrite get_upd_other by auto. exact Hgo.
    + simpl. exists l'. auto.
Qed.

(* a memo all of whose entries are finished copies is a simulation: snapshots agree *)
Lemma sim_snap : forall st0 st' m,
  wf st0 ->
  (forall a b, mlookup a m = Some b -> (a < length st0)%nat /\ copied st0 st' m a b) ->
  forall n v v', below (length st0) v -> vrel m v v' -> snap n st' v' = snap n st0 v.
Proof.
  intros st0 st' m Hwf Hsim. induction n as [|n IH]; intros v v' Hb Hv.
  - destruct v as [| | |a]; simpl in Hv; try (subst v'; reflexivity).
    destruct Hv as (b & _ & ->). reflexivity.
  - destruct v as [| | |a]; simpl in Hv; try (subst v'; reflexivity).
    destruct Hv as (b & Hab & ->).
    destruct (Hsim a b Hab) as [Ha (o & o' & G0 & G1 & K & R)].
    cbn [snap]. rewrite G0, G1, K. f_equal.
    pose proof (Hwf a o G0) as Hbi. unfold items_below in Hbi. unfold irel in R.
    clear G0 G1 K. revert Hbi. induction R as [|kv kv' t t' [R1 R2] Rt IHR]; intros Hbi; [reflexivity|].
    inversion Hbi as [|? ? [B1 B2] Bt]; subst. cbn [map]. f_equal.
    + f_equal; apply IH; assumption.
    + apply IHR. exact Bt.
Qed.

(* C09 / C10: deepcopy is structure preserving, whatever the sharing inside the copied graph *)
Theorem deepcopy_snapshot_eq : forall st fuel v st' v',
  wf st -> below (length st) v -> deepcopy fuel st v = Some (st', v') ->
  forall n, snap n st' v' = snap n st v.
Proof.
  intros st fuel v st' v' Hwf Hb H n. unfold deepcopy in H.
  destruct (dcv fuel st [] v) as [[[st1 m1] v1]|] eqn:E; [|discriminate].
  injection H as <- <-.
  assert (HJ0 : J st st [] []). { intros a b Hab. simpl in Hab. discriminate. }
  destruct (dcs_dcv st fuel st [] v st1 m1 v1 [] Hwf (inv_refl st) (Forall_nil _) HJ0 Hb E) as (A & HJ & V).
  apply (sim_snap st st1 m1 Hwf); auto.
  intros a b Hab. destruct (HJ a b Hab) as [P [Q|Q]]; [destruct Q|]. split; assumption.
Qed.

(* ---- deepcopy preserves SHARING: the memo is an injective function from original to copy locations -------------- *)
(* (function: an object reached twice is copied once; injective: two objects are never merged into one copy) *)
Definition minj (m : memo) : Prop :=
  forall a a' b, mlookup a m = Some b -> mlookup a' m = Some b -> a = a'.

(* C09: deepcopy yields a graph ISOMORPHIC to the part of the store reachable from its argument: there is an injective
   function (the memo) from original to fresh locations such that the copy of every object is the object with all its
   pointers mapped; so sharing inside the copied graph is preserved exactly (no object copied twice, none merged) *)
Theorem deepcopy_isomorphism : forall st fuel v st' v',
  wf st -> below (length st) v -> deepcopy fuel st v = Some (st', v') ->
  exists m, minj m /\ vrel m v v' /\
            forall a b, mlookup a m = Some b ->
                        (a < length st)%nat /\ (length st <= b < length st')%nat /\ copied st st' m a b.
Proof.
  intros st fuel v st' v' Hwf Hb H. unfold deepcopy in H.
  destruct (dcv fuel st [] v) as [[[st1 m1] v1]|] eqn:E; [|discriminate]. injection H as <- <-.
  assert (HJ0 : J st st [] []). { intros a b Hab. simpl in Hab. discriminate. }
  destruct (dcs_dcv st fuel st [] v st1 m1 v1 [] Hwf (inv_refl st) (Forall_nil _) HJ0 Hb E) as (A & HJ & V).
  destruct (dcv_spec st fuel st [] v st1 m1 v1 (inv_refl st) (Forall_nil _) E) as ((_ & Mr & _ & _ & _ & Honce) & _).
  exists m1. split; [|split; [exact V|]].
  { intros a a' b Ha Ha'. exact (Honce a a' b Ha Ha' (proj1 (mlookup_inr _ _ _ _ _ Mr Ha))). }
  intros a b Hab. destruct (HJ a b Hab) as [P [Q|Q]]; [destruct Q|].
  split; [exact P|]. split; [apply (mlookup_inr _ _ _ _ _ Mr Hab)|exact Q].
Qed.

(* ---- deepcopy with fuel = 1 + number of objects of the store ALWAYS succeeds on a well-formed store ----------------- *)
(* measure: the number of original locations not yet in the memo; every descent into a new object memoises one *)
Definition unm (m : memo) (l : nat) : bool := match mlookup l m with None => true | Some _ => false end.
Definition cnt (P : nat -> bool) (n : nat) : nat := length (filter P (seq 0 n)).

Lemma cnt_S : forall P n, cnt P (S n) = (cnt P n + (if P n then 1 else 0))%nat.
Proof.
  intros P n. unfold cnt. rewrite seq_S. simpl. rewrite filter_app, app_length. simpl. destruct (P n); reflexivity.
Qed.

Lemma cnt_le : forall P Q n, (forall l, (l < n)%nat -> Q l = true -> P l = true) -> (cnt Q n <= cnt P n)%nat.
Proof.
  intros P Q. induction n as [|n IH]; intros H; [reflexivity|]. rewrite !cnt_S.
  assert (cnt Q n <= cnt P n)%nat by (apply IH; intros; apply H; auto).
  destruct (Q n) eqn:EQ; [rewrite (H n (Nat.lt_succ_diag_r n) EQ); lia|destruct (P n); lia].
Qed.

Lemma cnt_lt : forall P Q n l0, (forall l, (l < n)%nat -> Q l = true -> P l = true) ->
  (l0 < n)%nat -> P l0 = true -> Q l0 = false -> (cnt Q n < cnt P n)%nat.
Proof.
  intros P Q. induction n as [|n IH]; intros l0 H Hl HP HQ; [lia|]. rewrite !cnt_S.
  destruct (Nat.eq_dec l0 n) as [->|Hne].
  - rewrite HP, HQ. assert (cnt Q n <= cnt P n)%nat by (apply cnt_le; intros; apply H; auto). lia.
  - assert (cnt Q n < cnt P n)%nat.
    { apply (IH l0); auto; try lia. }
    destruct (Q n) eqn:EQ; [rewrite (H n (Nat.lt_succ_diag_r n) EQ); lia|destruct (P n); lia].
Qed.

Lemma cnt_bound : forall P n, (cnt P n <= n)%nat.
Proof.
  intros P. induction n as [|n IH]; [reflexivity|]. rewrite cnt_S. destruct (P n); lia.
Qed.

Lemma unm_mext : forall m m' n, mext m m' -> (cnt (unm m') n <= cnt (unm m) n)%nat.
Proof.
  intros m m' n H. apply cnt_le. intros l _ Hl. unfold unm in *.
  destruct (mlookup l m) as [b|] eqn:E; [|reflexivity]. rewrite (H l b E) in Hl. discriminate.
Qed.

Definition dck_spec (st0 : store) (f : nat) : Prop :=
  forall st m v, inv st0 st -> memo_inr (length st0) (length st) m -> below (length st0) v ->
                 (cnt (unm m) (length st0) < f)%nat -> exists r, dcv f st m v = Some r.

Lemma dc_items_succeeds : forall st0 f, dck_spec st0 f ->
  forall its st m, inv st0 st -> memo_inr (length st0) (length st) m -> items_below (length st0) its ->
                   (cnt (unm m) (length st0) < f)%nat -> exists r, dc_items (dcv f) its st m = Some r.
Proof.
  intros st0 f Hk. induction its as [|[k x] t IH]; intros st m Hinv Hm Hb Hc; simpl; [eexists; reflexivity|].
  inversion Hb as [|? ? [Bk Bx] Bt]; subst. simpl in Bk, Bx.
  destruct (Hk st m k Hinv Hm Bk Hc) as [[[st1 m1] k'] E1]. rewrite E1.
  destruct (dcv_spec st0 f _ _ _ _ _ _ Hinv Hm E1) as ((I1 & M1 & _ & X1 & _) & _).
  pose proof (unm_mext _ _ (length st0) X1) as C1.
  destruct (Hk st1 m1 x I1 M1 Bx ltac:(lia)) as [[[st2 m2] x'] E2]. rewrite E2.
  destruct (dcv_spec st0 f _ _ _ _ _ _ I1 M1 E2) as ((I2 & M2 & _ & X2 & _) & _).
  pose proof (unm_mext _ _ (length st0) X2) as C2.
  destruct (IH st2 m2 I2 M2 Bt ltac:(lia)) as [[[st3 m3] t'] E3]. rewrite E3. eexists; reflexivity.
Qed.

Lemma dcv_succeeds_n : forall st0, wf st0 -> forall f, dck_spec st0 f.
Proof.
  intros st0 Hwf. induction f as [|f IH]; intros st m v Hinv Hm Hb Hc.
  - lia.
  - destruct v as [| | |l]; simpl; try (eexists; reflexivity).
    destruct (mlookup l m) as [l'|] eqn:El; [eexists; reflexivity|].
    simpl in Hb. rewrite (inv_agree _ _ Hinv l Hb).
    destruct (get st0 l) as [o|] eqn:Hg; [|exfalso; apply get_none_ge in Hg || (unfold get in Hg; apply nth_error_None in Hg); lia].
    assert (Hempty : items_inr (length st0) (length st) (o_items (mkObj (o_kind o) []))) by constructor.
    destruct (inv_alloc st0 st (mkObj (o_kind o) []) Hinv Hempty) as [I1 V1].
    assert (M1 : memo_inr (length st0) (length (st ++ [mkObj (o_kind o) []])) ((l, length st) :: m)).
    { constructor; [simpl in *; exact V1|]. eapply memo_inr_mono; [exact Hm|]. rewrite app_length. lia. }
    assert (C1 : (cnt (unm ((l, length st) :: m)) (length st0) < cnt (unm m) (length st0))%nat).
    { apply (cnt_lt _ _ _ l); auto.
      - intros a _ Ha. unfold unm in *. destruct (Nat.eq_dec a l) as [->|Hne].
        + rewrite mlookup_cons_same in Ha. discriminate.
        + rewrite mlookup_cons_other in Ha by assumption. exact Ha.
      - unfold unm. rewrite El. reflexivity.
      - unfold unm. rewrite mlookup_cons_same. reflexivity. }
    destruct (dc_items_succeeds st0 f IH (o_items o) _ _ I1 M1 (Hwf l o Hg) ltac:(lia)) as [[[st2 m2] its'] E].
    rewrite E. eexists; reflexivity.
Qed.

(* C09: the fuel the writer models pass to deepcopy (one more than the number of objects in the store) always suffices *)
Theorem deepcopy_succeeds : forall st v, wf st -> below (length st) v ->
  exists st' v', deepcopy (S (length st)) st v = Some (st', v').
Proof.
  intros st v Hwf Hb.
  destruct (dcv_succeeds_n st Hwf (S (length st)) st [] v (inv_refl st) (Forall_nil _) Hb) as [[[st' m'] v'] E].
  - pose proof (cnt_bound (unm []) (length st)). lia.
  - exists st', v'. unfold deepcopy. rewrite E. reflexivity.
Qed.
