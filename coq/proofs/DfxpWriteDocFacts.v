(* C02 / C08: the document the string-level DFXP writer model prints (model/DfxpWriteDoc.v) is a well-formed
   rendering; its timing attributes are the C02 writer model's tokens; read by the string-level reader model it yields
   every caption with both instants floored to the millisecond (C02 o C01 at string level, whole documents). *)
From Coq Require Import List ZArith QArith Lia Bool ZifyBool Arith.
From PV Require Import lib.Sx lib.Str lib.Result lib.Dec.
From PV Require Import model.Base model.TimeRead model.TimeWrite model.TimeTree model.XmlRead model.Chain model.DfxpWriteDoc.
From PV Require Import spec.SpecTime spec.SpecTimeTree spec.SpecXmlDocT spec.SpecChain.
From PV Require Import proofs.TimeReadFacts proofs.TimeTreeFacts proofs.ChainFacts proofs.XmlReadFacts.
Import ListNotations.
Open Scope Z_scope.
#[local] Ltac Zify.zify_post_hook ::= Z.to_euclidean_division_equations.

Definition day : Z := 86400000000.

Lemma ts_texpr_token : forall t, 0 <= t < day -> texpr_render (ts_texpr t) = dfxp_ts (inject_Z t).
Proof. intros t Ht. symmetry. exact (ts_texpr_render t Ht). Qed.

Definition wcap_ok (c : wcap) : bool :=
  (0 <=? fst (fst c)) && (fst (fst c) <? day) && (0 <=? snd (fst c)) && (snd (fst c) <? day)
  && existsb has_visible_char (snd c).

Lemma wcap_ok_parts : forall c, wcap_ok c = true ->
  0 <= fst (fst c) < 86400000000 /\ 0 <= snd (fst c) < 86400000000 /\ existsb has_visible_char (snd c) = true.
Proof.
  intros c H. unfold wcap_ok, day in H. apply andb_true_iff in H. destruct H as [H V]. repeat split; try exact V; lia.
Qed.

Lemma tstr_ok_lits : forall s, tstr_ok (lits s) = true.
Proof. intros s. unfold tstr_ok, lits. induction s as [|c s IH]; [reflexivity|]. cbn [map forallb]. rewrite IH. reflexivity. Qed.

Lemma tstr_val_lits : forall s, tstr_val (lits s) = s.
Proof. intros s. unfold tstr_val, lits. rewrite map_map. cbn [fst]. apply map_id. Qed.

Lemma wcontent_cons2 : forall l l2 t,
  wcontent (l :: l2 :: t) = ((lits (DfxpWriteDoc.nl 4%nat ++ l), PBr []) :: fst (wcontent (l2 :: t)), snd (wcontent (l2 :: t))).
Proof. reflexivity. Qed.

Lemma wcontent_ok : forall lines, content_ok (wcontent lines) = true.
Proof.
  induction lines as [|l t IH]; [reflexivity|]. destruct t as [|l2 t].
  - cbn [wcontent]. unfold content_ok. cbn [fst snd forallb]. apply tstr_ok_lits.
  - rewrite wcontent_cons2.
    unfold content_ok in *. cbn [fst snd forallb pel_ok is_ws]. rewrite tstr_ok_lits. cbn [andb]. exact IH.
Qed.

Lemma wps_ok : forall cs, forallb wcap_ok cs = true -> forest_ok (wps cs) = true.
Proof.
  induction cs as [|c cs IH]; intros H; [reflexivity|].
  cbn [forallb] in H. apply andb_true_iff in H. destruct H as [Hc Hcs].
  destruct (wcap_ok_parts c Hc) as (Hs & He & _).
  cbn [wps forest_ok]. rewrite (IH Hcs). unfold p_ok. rewrite wcontent_ok.
  unfold wp_attrs. cbn [pattrs_ok app]. unfold dfxp_p_dom. cbn [p_begin p_close].
  rewrite (ts_texpr_dom _ Hs), (ts_texpr_dom _ He), orb_true_r. reflexivity.
Qed.

Lemma wdoc_ok : forall lang cs, forallb wcap_ok cs = true -> xdoc_ok (wdoc lang cs) = true.
Proof.
  intros lang cs H. unfold xdoc_ok, wdoc, whead.
  cbn [xd_pi xd_pre xd_l1 xd_lang xd_l2 xd_e xd_body xd_cw xd_post forest_ok]. rewrite (wps_ok cs H). reflexivity.
Qed.

Lemma flat_wps : forall chain cs,
  flat chain (wps cs) = ([], map (fun c : wcap => (chain, to_ap (wp_attrs c) (wcontent (snd c)))) cs).
Proof. intros chain. induction cs as [|c cs IH]; [reflexivity|]. cbn [wps flat map]. rewrite IH. reflexivity. Qed.

Lemma lines_text_visible : forall a b lines, existsb has_visible_char lines = true ->
  has_visible_char (flat_map (fun l => a ++ l) lines ++ b) = true.
Proof.
  intros a b. unfold has_visible_char. induction lines as [|l t IH]; intros H; [discriminate|].
  cbn [existsb flat_map] in *. rewrite <- !app_assoc, 2 existsb_app. apply orb_true_iff in H.
  destruct H as [H|H]; [rewrite H|rewrite (IH H)]; rewrite !orb_true_r; reflexivity.
Qed.

(* the character data of a written paragraph: every line behind its line feed and indentation *)
Lemma wcontent_text : forall lines,
  content_text (wcontent lines) = flat_map (fun l => DfxpWriteDoc.nl 4%nat ++ l) lines ++ DfxpWriteDoc.nl 3%nat.
Proof.
  induction lines as [|l [|l2 t] IH]; [reflexivity| |].
  - unfold content_text. cbn [wcontent fst snd flat_map app]. rewrite tstr_val_lits, app_nil_r, <- app_assoc. reflexivity.
  - rewrite wcontent_cons2. unfold content_text in *. cbn [fst snd flat_map].
    rewrite tstr_val_lits, app_nil_r, <- app_assoc, IH. cbn [flat_map]. rewrite <- !app_assoc. reflexivity.
Qed.

Lemma wcontent_visible : forall lines, existsb has_visible_char lines = true ->
  has_visible_char (content_text (wcontent lines)) = true.
Proof. intros lines H. rewrite wcontent_text. apply lines_text_visible, H. Qed.

Definition floor_cue (c : wcap) : Z * Z := (fl 1000 (fst (fst c)), fl 1000 (snd (fst c))).

Lemma wdoc_expected : forall default lang cs, cs <> [] -> forallb wcap_ok cs = true ->
  xdoc_expected default (wdoc lang cs) = Ok [(lang, map floor_cue cs)].
Proof.
  intros default lang cs Hne H. unfold xdoc_expected, xdoc_divs, xdoc_ps, xdoc_tt_lang, wdoc, whead.
  cbn [xd_body xd_lang flat fst snd app option_map chain_of]. rewrite flat_wps. cbn [fst snd app].
  unfold doc_expected, doc_expected_with. cbn [map nearest_lang languages_in_order existsb app].
  assert (E : flat_map (fun cp : option (list (option str)) * ap =>
                          match fst cp, snd cp with
                          | Some ch, APText _ t => if str_eqb (nearest_lang default (Some (lit "en")) ch) lang then [dfxp_p_expected t] else []
                          | _, _ => []
                          end)
                       (map (fun c : wcap => (Some [Some lang], to_ap (wp_attrs c) (wcontent (snd c)))) cs)
              = map floor_cue cs).
  { clear Hne. induction cs as [|c cs IH]; [reflexivity|].
    cbn [forallb] in H. apply andb_true_iff in H. destruct H as [Hc Hcs].
    cbn [map flat_map fst snd]. rewrite (IH Hcs).
    destruct (wcap_ok_parts c Hc) as (Hs & He & V).
    unfold to_ap. rewrite (wcontent_visible _ V). unfold wp_attrs. cbn [nearest_lang]. rewrite str_eqb_refl.
    unfold dfxp_p_expected. cbn [p_begin p_close p_is_dur]. rewrite (ts_texpr_us _ Hs), (ts_texpr_us _ He). reflexivity. }
  rewrite !app_nil_r. rewrite E. unfold set_result. cbn [forallb snd]. destruct cs as [|c cs]; [contradiction|]. reflexivity.
Qed.

Theorem dfxp_document_string : forall default lang cs, cs <> [] -> forallb wcap_ok cs = true ->
  dfxp_read_string default (dfxp_write_doc lang cs) = Ok [(lang, map floor_cue cs)].
Proof.
  intros default lang cs Hne H. unfold dfxp_write_doc.
  rewrite (dfxp_string_exact default (wdoc lang cs) (wdoc_ok lang cs H)). exact (wdoc_expected default lang cs Hne H).
Qed.

(* the begin / end attributes of the document are the tokens of the C02 writer model (TimeWrite.dfxp_tokens) *)
Theorem dfxp_document_tokens : forall (c : wcap), 0 <= fst (fst c) < day -> 0 <= snd (fst c) < day ->
  pattrs_list (wp_attrs c)
  = [mkRa f1 (lit "begin") (dfxp_ts (inject_Z (fst (fst c)))); mkRa f1 (lit "end") (dfxp_ts (inject_Z (snd (fst c))));
     at1 (lit "region") (lit "bottom"); at1 (lit "style") (lit "default")].
Proof.
  intros c Hs He. unfold wp_attrs. cbn [pattrs_list app]. unfold begin_attr, close_attr. cbn [p_begin p_close p_is_dur].
  rewrite (ts_texpr_token _ Hs), (ts_texpr_token _ He). reflexivity.
Qed.
