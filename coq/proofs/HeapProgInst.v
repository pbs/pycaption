(* HeapProgInst.v - C09 half 2 on the heap programs: "assigned before read" analysis of the writer INSTANCE state (open_span,
   last_time, global_layout), sound for every program: the store effect, the emitted tokens, the footprint and the exit of an
   accepted program do not depend on the values the instance registers hold at entry. *)
From Coq Require Import List ZArith Bool Arith Lia.
From PV Require Import lib.Sx lib.Str lib.Result model.Store model.Iso model.HeapProg proofs.StoreFacts proofs.IsoFacts
                       proofs.HeapProgFacts.
Import ListNotations.
Open Scope Z_scope.

Definition same_heap (h1 h2 : hstate) : Prop :=
  h_st h1 = h_st h2 /\ h_lim h1 = h_lim h2 /\ h_log h1 = h_log h2 /\ h_copies h1 = h_copies h2 /\ h_out h1 = h_out h2.

Definition agree (u : list reg) (e1 e2 : reg -> val) : Prop := forall r, tainted u r = false -> e1 r = e2 r.

Lemma tainted_clean : forall u x r, tainted (clean u x) r = tainted u r && negb (Nat.eqb r x).
Proof.
  intros u x r. unfold tainted, clean. induction u as [|y t IH]; simpl; [reflexivity|].
  destruct (Nat.eqb y x) eqn:Eyx; simpl; rewrite IH.
  - destruct (Nat.eqb r y) eqn:Ery; simpl; [|reflexivity]. apply Nat.eqb_eq in Ery, Eyx. subst.
    rewrite Nat.eqb_refl. simpl. rewrite andb_false_r. reflexivity.
  - destruct (Nat.eqb r y) eqn:Ery; simpl; [|reflexivity]. apply Nat.eqb_eq in Ery. subst. rewrite Eyx. reflexivity.
Qed.

Lemma agree_setr : forall u e1 e2 x v, agree u e1 e2 -> agree (clean u x) (setr e1 x v) (setr e2 x v).
Proof.
  intros u e1 e2 x v H r Hr. rewrite tainted_clean in Hr. unfold setr. destruct (Nat.eqb r x); [reflexivity|].
  apply H. simpl in Hr. rewrite andb_true_r in Hr. exact Hr.
Qed.

Lemma ev_agree : forall o u e1 e2 e, agree u e1 e2 -> euse u e = true -> ev o e1 e = ev o e2 e.
Proof.
  intros o u e1 e2 e H He. destruct e; try reflexivity. cbn in *. apply H. apply negb_true_iff. exact He.
Qed.

Lemma reg_agree : forall u e1 e2 r, agree u e1 e2 -> negb (tainted u r) = true -> e1 r = e2 r.
Proof. intros. apply H. apply negb_true_iff. assumption. Qed.

Lemma evb_agree : forall o st u e1 e2 b, agree u e1 e2 -> buse u b = true -> evb o st e1 b = evb o st e2 b.
Proof.
  intros o st u e1 e2 b H. induction b; intros Hb; cbn [buse evb] in *.
  - rewrite (ev_agree o u e1 e2 e H Hb). reflexivity.
  - apply andb_true_iff in Hb. destruct Hb as [A B]. rewrite (ev_agree o u e1 e2 a H A), (ev_agree o u e1 e2 b H B). reflexivity.
  - rewrite (reg_agree u e1 e2 r H Hb). reflexivity.
  - rewrite (reg_agree u e1 e2 r H Hb). reflexivity.
  - apply andb_true_iff in Hb. destruct Hb as [A B]. rewrite (reg_agree u e1 e2 r H A), (ev_agree o u e1 e2 k H B). reflexivity.
  - rewrite IHb; auto.
  - apply andb_true_iff in Hb. destruct Hb as [A B]. rewrite IHb1, IHb2; auto.
  - rewrite (ev_agree o u e1 e2 e H Hb). reflexivity.
  - reflexivity.
Qed.

Lemma agree_weaken : forall u u' e1 e2, agree u e1 e2 -> (forall r, tainted u r = true -> tainted u' r = true) -> agree u' e1 e2.
Proof.
  intros u u' e1 e2 H Hs r Hr. apply H. destruct (tainted u r) eqn:E; [|reflexivity]. rewrite (Hs r E) in Hr. discriminate.
Qed.

Lemma tainted_app : forall a b r, tainted (a ++ b) r = tainted a r || tainted b r.
Proof. intros. unfold tainted. apply existsb_app. Qed.

Lemma map_ev_agree : forall o u e1 e2 its, agree u e1 e2 ->
  forallb (fun p => euse u (fst p) && euse u (snd p)) its = true ->
  map (fun p : expr * expr => (ev o e1 (fst p), ev o e1 (snd p))) its = map (fun p => (ev o e2 (fst p), ev o e2 (snd p))) its.
Proof.
  intros o u e1 e2 its H Hf. apply map_ext_in. intros p Hp. rewrite forallb_forall in Hf. specialize (Hf p Hp).
  apply andb_true_iff in Hf. destruct Hf as [A B]. rewrite (ev_agree o u e1 e2 _ H A), (ev_agree o u e1 e2 _ H B). reflexivity.
Qed.

Definition du_ok (u' : list reg) (h1' h2' : hstate) (x1 x2 : option err) : Prop :=
  x1 = x2 /\ same_heap h1' h2' /\ (x1 = None -> agree u' (h_env h1') (h_env h2')).

Lemma du_ok_setr : forall u x v st lim log cp out e1 e2, agree u e1 e2 ->
  du_ok (clean u x) (mkH st (setr e1 x v) lim log cp out) (mkH st (setr e2 x v) lim log cp out) None None.
Proof. intros. split; [reflexivity|]. split; [repeat split|]. intros _. apply agree_setr. assumption. Qed.

Lemma du_ok_env : forall u st lim log cp out e1 e2, agree u e1 e2 ->
  du_ok u (mkH st e1 lim log cp out) (mkH st e2 lim log cp out) None None.
Proof. intros. split; [reflexivity|]. split; [repeat split|]. intros _. assumption. Qed.

Lemma du_ok_raise : forall u h1 h2 e, same_heap h1 h2 -> du_ok u h1 h2 (Some e) (Some e).
Proof. intros. split; [reflexivity|]. split; [assumption|discriminate]. Qed.

Lemma same_heap_enter : forall h1 h2 k x kv, same_heap h1 h2 -> same_heap (enter h1 k x kv) (enter h2 k x kv).
Proof. intros h1 h2 k x kv H. exact H. Qed.

(* two runs of a loop in step: Rel holds between the rounds and at the normal exit, Exit after a round that raised *)
Lemma exec_loop_rel : forall o k x body (Rel Exit : hstate -> hstate -> Prop),
  (forall kv h1 h2 h1' h2' x1 x2, Rel h1 h2 ->
     exec o body (enter h1 k x kv) = (h1', x1) -> exec o body (enter h2 k x kv) = (h2', x2) ->
     x1 = x2 /\ match x1 with None => Rel h1' h2' | Some _ => Exit h1' h2' end) ->
  forall l h1 h2 h1' h2' x1 x2, Rel h1 h2 ->
    exec_loop o k x body l h1 = (h1', x1) -> exec_loop o k x body l h2 = (h2', x2) ->
    x1 = x2 /\ match x1 with None => Rel h1' h2' | Some _ => Exit h1' h2' end.
Proof.
  intros o k x body Rel Exit Hstep. induction l as [|kv r IH]; intros h1 h2 h1' h2' x1 x2 HR R1 R2; cbn in R1, R2.
  - inversion R1; inversion R2; subst. auto.
  - pose proof (Hstep kv h1 h2) as Hs.
    destruct (exec o body (enter h1 k x kv)) as [ha ea]. destruct (exec o body (enter h2 k x kv)) as [hb eb].
    destruct (Hs _ _ _ _ HR eq_refl eq_refl) as [<- Hr]. destruct ea as [ee|].
    + inversion R1; inversion R2; subst. auto.
    + eapply IH; eauto.
Qed.

Ltac same_sub Hsame :=
  let A := fresh in let B := fresh in let C := fresh in let D := fresh in let E := fresh in
  destruct Hsame as (A & B & C & D & E); cbn [h_st h_lim h_log h_copies h_out] in A, B, C, D, E; subst.

Lemma du_sound : forall o c u u' h1 h2 h1' h2' x1 x2,
  du c u = Some u' -> same_heap h1 h2 -> agree u (h_env h1) (h_env h2) ->
  exec o c h1 = (h1', x1) -> exec o c h2 = (h2', x2) -> du_ok u' h1' h2' x1 x2.
Proof.
  intros o c.
  induction c as [ |c1 IHc1 c2 IHc2|x e1|x y|x y|x y k1|x y|x k1 e1|x k1|x e1|x kind its|x f e1|b c1 IHc1 c2 IHc2
                 |eo k x y c IHc|e1|er];
    intros u u' h1 h2 h1' h2' x1 x2 Hd Hsame Ha H1 H2;
    [| | | | | | | | | | | | |rewrite exec_CLoop in H1, H2| |];
    destruct h1 as [st1 env1 lim1 log1 cp1 out1], h2 as [st2 env2 lim2 log2 cp2 out2];
    cbn [h_env] in Ha; cbn [du exec h_st h_env h_lim h_log h_copies h_out] in *.
  - injection Hd as <-. same_sub Hsame. inversion H1; inversion H2; subst. apply du_ok_env, Ha.
  - destruct (du c1 u) as [u1|] eqn:D1; [|discriminate].
    destruct (exec o c1 (mkH st1 env1 lim1 log1 cp1 out1)) as [ha [ea|]] eqn:X1;
    destruct (exec o c1 (mkH st2 env2 lim2 log2 cp2 out2)) as [hb [eb|]] eqn:X2;
    destruct (IHc1 _ _ _ _ _ _ _ _ D1 Hsame Ha X1 X2) as (A & B & C); try discriminate.
    + inversion H1; inversion H2; subst. split; [exact A|]. split; [exact B|]. discriminate.
    + eapply IHc2; eauto.
  - destruct (euse u e1) eqn:E; [|discriminate]. injection Hd as <-.
    same_sub Hsame. rewrite (ev_agree o u env1 env2 e1 Ha E) in H1. inversion H1; inversion H2; subst. apply du_ok_setr, Ha.
  - destruct (negb (tainted u y)) eqn:E; [|discriminate]. injection Hd as <-.
    same_sub Hsame. rewrite (reg_agree u env1 env2 y Ha E) in H1.
    destruct (deepcopy (dc_fuel st2) st2 (env2 y)) as [[sta v]|]; inversion H1; inversion H2; subst.
    + apply du_ok_setr, Ha.
    + apply du_ok_raise. repeat split.
  - destruct (negb (tainted u y)) eqn:E; [|discriminate]. injection Hd as <-.
    same_sub Hsame. rewrite (reg_agree u env1 env2 y Ha E) in H1.
    destruct (env2 y) as [z|s| |l]; [| | |destruct (new_obj st2 (kind_of st2 (VLoc l)) (items_of st2 (VLoc l))) as [sta v]];
      inversion H1; inversion H2; subst; apply du_ok_setr, Ha.
  - destruct (negb (tainted u y) && euse u k1) eqn:E; [|discriminate].
    injection Hd as <-. apply andb_true_iff in E. destruct E as [E1 E2]. same_sub Hsame.
    rewrite (reg_agree u env1 env2 y Ha E1), (ev_agree o u env1 env2 k1 Ha E2) in H1.
    inversion H1; inversion H2; subst. apply du_ok_setr, Ha.
  - destruct (negb (tainted u y)) eqn:E; [|discriminate]. injection Hd as <-.
    same_sub Hsame. rewrite (reg_agree u env1 env2 y Ha E) in H1.
    destruct (new_obj st2 KList (map (fun kv : val * val => (VNone, scal (fst kv))) (items_of st2 (env2 y)))) as [sta v].
    inversion H1; inversion H2; subst. apply du_ok_setr, Ha.
  - destruct (negb (tainted u x) && euse u k1 && euse u e1) eqn:E; [|discriminate]. injection Hd as <-.
    apply andb_true_iff in E. destruct E as [E E3]. apply andb_true_iff in E. destruct E as [E1 E2]. same_sub Hsame.
    rewrite (reg_agree u env1 env2 x Ha E1), (ev_agree o u env1 env2 k1 Ha E2), (ev_agree o u env1 env2 e1 Ha E3) in H1.
    inversion H1; inversion H2; subst. apply du_ok_env, Ha.
  - destruct (negb (tainted u x) && euse u k1) eqn:E; [|discriminate]. injection Hd as <-.
    apply andb_true_iff in E. destruct E as [E1 E2]. same_sub Hsame.
    rewrite (reg_agree u env1 env2 x Ha E1), (ev_agree o u env1 env2 k1 Ha E2) in H1.
    inversion H1; inversion H2; subst. apply du_ok_env, Ha.
  - destruct (negb (tainted u x) && euse u e1) eqn:E; [|discriminate]. injection Hd as <-.
    apply andb_true_iff in E. destruct E as [E1 E2]. same_sub Hsame.
    rewrite (reg_agree u env1 env2 x Ha E1), (ev_agree o u env1 env2 e1 Ha E2) in H1.
    inversion H1; inversion H2; subst. apply du_ok_env, Ha.
  - destruct (forallb (fun p => euse u (fst p) && euse u (snd p)) its) eqn:E; [|discriminate]. injection Hd as <-.
    same_sub Hsame. rewrite (map_ev_agree o u env1 env2 its Ha E) in H1.
    destruct (new_obj st2 kind (map (fun p : expr * expr => (ev o env2 (fst p), ev o env2 (snd p))) its)) as [sta v].
    inversion H1; inversion H2; subst. apply du_ok_setr, Ha.
  - destruct (euse u e1) eqn:E; [|discriminate]. injection Hd as <-.
    same_sub Hsame. rewrite (ev_agree o u env1 env2 e1 Ha E) in H1.
    destruct (prim o f (ev o env2 e1)) as [v|ee]; inversion H1; inversion H2; subst.
    + apply du_ok_setr, Ha.
    + apply du_ok_raise. repeat split.
  - (* CIf: both runs take the same branch; a register either branch may leave unknown stays suspect *)
    destruct (buse u b) eqn:E; [|discriminate].
    destruct (du c1 u) as [ua|] eqn:D1; [|discriminate]. destruct (du c2 u) as [ub|] eqn:D2; [|discriminate]. injection Hd as <-.
    pose proof Hsame as Hs2. destruct Hs2 as (S1 & _). cbn [h_st] in S1. subst st2.
    rewrite (evb_agree o st1 u env1 env2 b Ha E) in H1.
    destruct (evb o st1 env2 b).
    + destruct (IHc1 _ _ _ _ _ _ _ _ D1 Hsame Ha H1 H2) as (A & B & C). split; [exact A|]. split; [exact B|].
      intros En. eapply agree_weaken; [exact (C En)|]. intros r Hr. rewrite tainted_app, Hr. reflexivity.
    + destruct (IHc2 _ _ _ _ _ _ _ _ D2 Hsame Ha H1 H2) as (A & B & C). split; [exact A|]. split; [exact B|].
      intros En. eapply agree_weaken; [exact (C En)|]. intros r Hr. rewrite tainted_app, Hr. apply orb_true_r.
  - (* CLoop: both runs go through the same cells; between the rounds the register files agree outside u *)
    destruct (negb (tainted u y)) eqn:E; [|discriminate].
    destruct (du c (clean (clean u k) x)) as [u1|] eqn:D1; [|discriminate].
    destruct (forallb (tainted u) u1) eqn:Esub; [|discriminate]. injection Hd as <-.
    pose proof Hsame as Hs2. destruct Hs2 as (S1 & _). cbn [h_st] in S1. subst st2.
    rewrite (reg_agree u env1 env2 y Ha E) in H1.
    destruct (exec_loop_rel o k x c (fun ha hb => same_heap ha hb /\ agree u (h_env ha) (h_env hb)) same_heap) with (3 := H1) (4 := H2)
      as [<- G]; [|split; assumption|destruct x1; [apply du_ok_raise, G|destruct G; split; auto]].
    intros kv ha hb ha' hb' xa xb [Hsab Hab] Xa Xb.
    assert (Ha' : agree (clean (clean u k) x) (h_env (enter ha k x kv)) (h_env (enter hb k x kv)))
      by (apply agree_setr, agree_setr, Hab).
    destruct (IHc _ _ _ _ _ _ _ _ D1 (same_heap_enter _ _ k x kv Hsab) Ha' Xa Xb) as (A & B & C). split; [exact A|].
    destruct xa; [exact B|]. split; [exact B|]. eapply agree_weaken; [exact (C eq_refl)|]. intros r0 Hr0.
    rewrite forallb_forall in Esub. unfold tainted in Hr0 at 1. apply existsb_exists in Hr0.
    destruct Hr0 as (z & Hz & Ez). apply Nat.eqb_eq in Ez. subst z. apply Esub. exact Hz.
  - destruct (euse u e1) eqn:E; [|discriminate]. injection Hd as <-.
    same_sub Hsame. rewrite (ev_agree o u env1 env2 e1 Ha E) in H1. inversion H1; inversion H2; subst. apply du_ok_env, Ha.
  - injection Hd as <-. inversion H1; inversion H2; subst. apply du_ok_raise, Hsame.
Qed.

(* the obligation of the eight writers: every instance register is assigned before it is read *)
Theorem writers_reset_instance_state : forall k, exists u', du (prog_of k) inst_regs = Some u'.
Proof.
  intros k. destruct (kind_cases k) as [Hk|[Hb Hs]].
  - assert (H : forallb (fun k => if du (prog_of k) inst_regs then true else false) own_kinds = true)
      by (vm_compute; reflexivity).
    rewrite forallb_forall in H. specialize (H k Hk). destruct (du (prog_of k) inst_regs); [eauto|discriminate].
  - unfold prog_of, prog_with, reset_line. rewrite Hb, Hs. eexists. reflexivity.
Qed.

Lemma inst_env_agree : forall i1 i2 s, agree inst_regs (inst_env i1 s) (inst_env i2 s).
Proof.
  intros i1 i2 s r Hr. unfold inst_env. unfold tainted, inst_regs in Hr. simpl in Hr.
  destruct (Nat.eqb r 0); [reflexivity|].
  destruct (Nat.eqb r OPEN); [discriminate|]. destruct (Nat.eqb r LAST); [discriminate|].
  destruct (Nat.eqb r GLOBAL); [discriminate|]. reflexivity.
Qed.

(* ANY program that assigns the instance registers before reading them: what it does to the store, what it emits, its
   footprint, copy count and exit are the same for every instance state at entry *)
Theorem prog_instance_independent : forall p u' o st s i1 i2 lim,
  du p inst_regs = Some u' ->
  let r1 := exec o p (mkH st (inst_env i1 s) lim [] 0 []) in
  let r2 := exec o p (mkH st (inst_env i2 s) lim [] 0 []) in
  snd r1 = snd r2 /\ same_heap (fst r1) (fst r2).
Proof.
  intros p u' o st s i1 i2 lim Hd r1 r2. subst r1 r2.
  destruct (exec o p (mkH st (inst_env i1 s) lim [] 0 [])) as [h1' x1] eqn:X1.
  destruct (exec o p (mkH st (inst_env i2 s) lim [] 0 [])) as [h2' x2] eqn:X2.
  assert (Hs : same_heap (mkH st (inst_env i1 s) lim [] 0 []) (mkH st (inst_env i2 s) lim [] 0 [])) by (repeat split).
  destruct (du_sound o p inst_regs u' _ _ _ _ _ _ Hd Hs (inst_env_agree i1 i2 s) X1 X2) as (A & B & _).
  cbn [fst snd]. auto.
Qed.

(* the write of every writer kind (with the reset line of the repaired code): same object again = a fresh object = an
   object that wrote other sets or raised *)
Theorem writeP_instance_independent : forall c k o i1 i2 st s,
  fix15 c = true ->
  let r1 := writeP c k o i1 st s in
  let r2 := writeP c k o i2 st s in
  wr_store r1 = wr_store r2 /\ wr_result r1 = wr_result r2 /\ wr_fp r1 = wr_fp r2 /\ wr_copies r1 = wr_copies r2.
Proof.
  intros c k o i1 i2 st s Hc. cbv zeta. unfold writeP. rewrite Hc.
  destruct (writers_reset_instance_state k) as [u' Hd]. unfold prog_of in Hd.
  pose proof (prog_instance_independent _ u' o st s i1 i2 (length st) Hd) as P. cbv zeta in P.
  destruct (exec o (prog_with true k) (mkH st (inst_env i1 s) (length st) [] 0 [])) as [h1 e1].
  destruct (exec o (prog_with true k) (mkH st (inst_env i2 s) (length st) [] 0 [])) as [h2 e2].
  cbn [fst snd] in P. destruct P as (E & S1 & S2 & S3 & S4 & S5). subst e2. cbn [wr_store wr_result wr_fp wr_copies].
  rewrite S1, S3, S4, S5. auto.
Qed.

(* in ANY world (= after any history): which writer object performs the write - one that wrote other sets, one that raised,
   a new one - does not matter for the store, the exit, the emitted tokens, the footprint, the copy count *)
Theorem stepP_writer_object_irrelevant : forall c w wid1 wid2 k o si,
  fix15 c = true ->
  let r1 := stepP c w (OWrite wid1 k o si) in
  let r2 := stepP c w (OWrite wid2 k o si) in
  w_st (fst r1) = w_st (fst r2) /\ w_sets (fst r1) = w_sets (fst r2) /\
  mo_err (snd r1) = mo_err (snd r2) /\ mo_tokens (snd r1) = mo_tokens (snd r2) /\
  mo_fp (snd r1) = mo_fp (snd r2) /\ mo_copies (snd r1) = mo_copies (snd r2) /\
  mo_changed_below (snd r1) = mo_changed_below (snd r2).
Proof.
  intros c w wid1 wid2 k o si Hc. cbv zeta. unfold stepP.
  destruct (nth_error (w_sets w) si) as [s|]; [|repeat split].
  set (i1 := match lookup wid1 (w_writers w) with Some x => x | None => winst0 end).
  set (i2 := match lookup wid2 (w_writers w) with Some x => x | None => winst0 end).
  destruct (writeP_instance_independent c k o i1 i2 (w_st w) s Hc) as (A & B & C & D).
  cbn [fst snd w_st w_sets mo_err mo_tokens mo_fp mo_copies mo_changed_below].
  rewrite A, B, C, D. repeat split.
Qed.
