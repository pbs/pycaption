(* C01: the string-level reader of DFXP documents (model/XmlRead.v) on every rendering of every abstract
   document (spec/SpecXmlDocT.v): the text parses to the intended tree, the reader's queries on the tree give the
   <div>s and <p>s of the abstract document, hence (TimeTreeFacts.dfxp_doc_exact) the caption set it denotes. *)
From Coq Require Import List ZArith Lia Bool ZifyBool Arith.
From PV Require Import lib.Sx lib.Str lib.Result lib.Dec.
From PV Require Import model.Langs model.TimeRead model.TimeTree model.XmlRead.
From PV Require Import spec.SpecTime spec.SpecTimeTree spec.SpecXmlDocT.
From PV Require Import proofs.TimeStrFacts proofs.TimeTreeFacts.
Import ListNotations.
Open Scope Z_scope.

Definition stops (f : Z -> bool) (s : str) : Prop := match s with [] => True | c :: _ => f c = false end.

Lemma to_app : forall q a r, lacks q a = true -> take_to q (a ++ q :: r) = a /\ drop_to q (a ++ q :: r) = Some r.
Proof.
  intros q a r H. induction a as [|x a IH]; cbn [app take_to drop_to].
  - rewrite Z.eqb_refl. split; reflexivity.
  - cbn [lacks forallb] in H. apply andb_true_iff in H. destruct H as [Hx H].
    destruct (x =? q); [discriminate|]. destruct (IH H) as [-> ->]. split; reflexivity.
Qed.

Lemma xws_facts : forall c, xws c = true ->
  h_ws c = true /\ tag_name_c c = false /\ attr_name_c c = false /\ not_lt c = true /\ (c =? 38) = false
  /\ is_space c = true.
Proof.
  intros c H. assert (E : c = 32 \/ c = 9 \/ c = 10 \/ c = 13) by (unfold xws in H; lia).
  destruct E as [E|[E|[E|E]]]; subst c; repeat split; reflexivity.
Qed.

Lemma name_c_facts : forall c, name_c c = true ->
  h_ws c = false /\ tag_name_c c = true /\ attr_name_c c = true /\ lower_ch c = c
  /\ (c =? 62) = false /\ (c =? 47) = false /\ (c =? 61) = false.
Proof.
  intros c H. unfold name_c, lc_letter, is_digit, tag_name_c, attr_name_c, lower_ch, h_ws in *.
  repeat split; try lia. destruct ((65 <=? c) && (c <=? 90)) eqn:E; lia.
Qed.

Lemma lc_letter_name_c : forall c, lc_letter c = true -> name_c c = true.
Proof. intros c H. unfold name_c. rewrite H. reflexivity. Qed.

Lemma lc_letter_facts : forall c, lc_letter c = true ->
  is_letter c = true /\ (c =? 47) = false /\ (c =? 63) = false /\ (c =? 60) = false.
Proof. intros c H. unfold lc_letter, is_letter in *. lia. Qed.

Lemma is_ws_h_ws : forall w, is_ws w = true -> forallb h_ws w = true.
Proof. intros w. apply forallb_weaken. intros c H. apply xws_facts in H. tauto. Qed.

Lemma is_ws_not_lt : forall w, is_ws w = true -> forallb not_lt w = true.
Proof. intros w. apply forallb_weaken. intros c H. apply xws_facts in H. tauto. Qed.

Lemma is_ws_lacks_amp : forall w, is_ws w = true -> lacks 38 w = true.
Proof. intros w. apply forallb_weaken. intros c H. apply xws_facts in H. destruct H as (_ & _ & _ & _ & -> & _). reflexivity. Qed.

Lemma name_ok_inv : forall n, name_ok n = true ->
  exists c t, n = c :: t /\ lc_letter c = true /\ forallb name_c (c :: t) = true.
Proof.
  intros [|c t] H; [discriminate|]. cbn [name_ok] in H. apply andb_true_iff in H. destruct H as [Hc Ht].
  exists c, t. repeat split; [exact Hc|]. cbn [forallb]. rewrite (lc_letter_name_c c Hc), Ht. reflexivity.
Qed.

Lemma names_lower : forall n, forallb name_c n = true -> lower n = n.
Proof.
  induction n as [|c n IH]; [reflexivity|]. cbn [forallb]. intros H. apply andb_true_iff in H. destruct H as [Hc Hn].
  unfold lower in *. cbn [map]. rewrite (IH Hn). destruct (name_c_facts c Hc) as (_ & _ & _ & E & _). rewrite E. reflexivity.
Qed.

Lemma names_tag : forall n, forallb name_c n = true -> forallb tag_name_c n = true.
Proof. intros n. apply forallb_weaken. intros c H. apply name_c_facts in H. tauto. Qed.
Lemma names_attr : forall n, forallb name_c n = true -> forallb attr_name_c n = true.
Proof. intros n. apply forallb_weaken. intros c H. apply name_c_facts in H. tauto. Qed.

Lemma aname_c_facts : forall c, aname_c c = true ->
  h_ws c = false /\ attr_name_c c = true /\ (c =? 62) = false /\ (c =? 47) = false /\ (c =? 61) = false.
Proof.
  intros c H. unfold aname_c in H. apply orb_true_iff in H. destruct H as [H|H].
  - apply name_c_facts in H. tauto.
  - unfold uc_letter in H. unfold attr_name_c, h_ws. lia.
Qed.

Lemma aname_ok_inv : forall n, aname_ok n = true ->
  exists c t, n = c :: t /\ lc_letter c = true /\ forallb aname_c (c :: t) = true.
Proof.
  intros [|c t] H; [discriminate|]. cbn [aname_ok] in H. apply andb_true_iff in H. destruct H as [Hc Ht].
  exists c, t. repeat split; [exact Hc|]. cbn [forallb]. unfold aname_c at 1. rewrite (lc_letter_name_c c Hc), Ht. reflexivity.
Qed.

Lemma anames_attr : forall n, forallb aname_c n = true -> forallb attr_name_c n = true.
Proof. intros n. apply forallb_weaken. intros c H. apply aname_c_facts in H. tauto. Qed.

Lemma stops_ws_then : forall (f : Z -> bool) w c r,
  is_ws w = true -> (forall x, xws x = true -> f x = false) -> f c = false -> stops f (w ++ c :: r).
Proof.
  intros f w c r Hw Hf Hc. destruct w as [|x w]; [exact Hc|]. cbn [app stops].
  cbn [is_ws forallb] in Hw. apply andb_true_iff in Hw. apply Hf. tauto.
Qed.

(* ---- references --------------------------------------------------------------------------------------------- *)
Definition quote_or_text (q : Z) : Prop := q = 34 \/ q = 39 \/ q = -1.

(* XmlRead.unescape and SamiText.sunescape are one function of the table of reference names *)
Fixpoint unescape_by (rc : str -> option Z) (s : str) (ref : option str) : str :=
  match s with
  | [] => match ref with None => [] | Some r => 38 :: rev r end
  | c :: t =>
      match ref with
      | None => if c =? 38 then unescape_by rc t (Some []) else c :: unescape_by rc t None
      | Some r =>
          if c =? 59 then
            match rc (rev r) with
            | Some v => v :: unescape_by rc t None
            | None => 38 :: rev r ++ 59 :: unescape_by rc t None
            end
          else unescape_by rc t (Some (c :: r))
      end
  end.

Lemma unescape_is_by : forall s r, unescape s r = unescape_by ref_char s r.
Proof. induction s as [|c s IH]; intros [r|]; cbn [unescape unescape_by]; rewrite ?IH; reflexivity. Qed.

Section UnescapeBy.
Variable rc : str -> option Z.
Hypothesis rc_ext : forall name v, ref_char name = Some v -> rc name = Some v.

Lemma unescape_by_ref_acc : forall ds r rest, lacks 59 ds = true ->
  unescape_by rc (ds ++ 59 :: rest) (Some r)
  = match rc (rev r ++ ds) with
    | Some v => v :: unescape_by rc rest None
    | None => 38 :: (rev r ++ ds) ++ 59 :: unescape_by rc rest None
    end.
Proof.
  induction ds as [|d ds IH]; intros r rest H.
  - cbn [app unescape_by]. rewrite Z.eqb_refl, app_nil_r. reflexivity.
  - cbn [lacks forallb] in H. apply andb_true_iff in H. destruct H as [Hd Hds].
    cbn [app unescape_by]. destruct (d =? 59); [discriminate|].
    etransitivity; [apply (IH (d :: r) rest Hds)|]. cbn [rev]. rewrite <- app_assoc. reflexivity.
Qed.

Lemma unescape_by_ref : forall name v rest, lacks 59 name = true -> ref_char name = Some v ->
  unescape_by rc (38 :: name ++ 59 :: rest) None = v :: unescape_by rc rest None.
Proof.
  intros name v rest Hn Hv. cbn [unescape_by]. rewrite Z.eqb_refl, unescape_by_ref_acc by exact Hn.
  cbn [rev app]. rewrite (rc_ext _ _ Hv). reflexivity.
Qed.

Lemma unescape_by_esc_ch : forall q c rest, quote_or_text q ->
  unescape_by rc (esc_ch q c ++ rest) None = c :: unescape_by rc rest None.
Proof.
  intros q c rest Hq. unfold esc_ch.
  destruct (c =? 38) eqn:E38; [assert (c = 38) by lia; subst; exact (unescape_by_ref (lit "amp") 38 rest eq_refl eq_refl)|].
  destruct (c =? 60) eqn:E60; [assert (c = 60) by lia; subst; exact (unescape_by_ref (lit "lt") 60 rest eq_refl eq_refl)|].
  destruct (c =? 62) eqn:E62; [assert (c = 62) by lia; subst; exact (unescape_by_ref (lit "gt") 62 rest eq_refl eq_refl)|].
  destruct (c =? q) eqn:Eq.
  - assert (c = q) by lia. subst c. destruct Hq as [Hq|[Hq|Hq]]; subst q.
    + exact (unescape_by_ref (lit "quot") 34 rest eq_refl eq_refl).
    + exact (unescape_by_ref (lit "#39") 39 rest eq_refl eq_refl).
    + reflexivity.
  - cbn [app unescape_by]. rewrite E38. reflexivity.
Qed.

Lemma unescape_by_esc_val : forall q v, quote_or_text q -> unescape_by rc (esc_val q v) None = v.
Proof.
  intros q v Hq. unfold esc_val. induction v as [|c v IH]; [reflexivity|].
  cbn [flat_map]. rewrite (unescape_by_esc_ch q c _ Hq), IH. reflexivity.
Qed.

Lemma unescape_by_plain : forall w, lacks 38 w = true -> unescape_by rc w None = w.
Proof.
  induction w as [|c w IH]; intros H; [reflexivity|]. cbn [lacks forallb] in H. apply andb_true_iff in H.
  destruct H as [Hc Hw]. cbn [unescape_by]. destruct (c =? 38); [discriminate|]. rewrite (IH Hw). reflexivity.
Qed.
End UnescapeBy.

Lemma ref_char_dec : forall c, 0 <= c -> (128 <=? c) && (c <? 160) = false -> ref_char (35 :: dec_nonneg c) = Some c.
Proof.
  intros c H0 Hr. unfold ref_char.
  change (str_eqb (35 :: dec_nonneg c) (lit "amp")) with false.
  change (str_eqb (35 :: dec_nonneg c) (lit "lt")) with false.
  change (str_eqb (35 :: dec_nonneg c) (lit "gt")) with false.
  change (str_eqb (35 :: dec_nonneg c) (lit "quot")) with false.
  change (str_eqb (35 :: dec_nonneg c) (lit "apos")) with false.
  cbv iota. pose proof (dec_nonneg_digits c H0) as Hd. pose proof (int_of_dec c H0) as Hi.
  destruct (dec_nonneg c) as [|x ds] eqn:E; [exfalso; exact (dec_nonneg_nonempty c E)|].
  cbn [forallb] in Hd. apply andb_true_iff in Hd. destruct Hd as [Hx _].
  assert (Ex : (x =? 120) || (x =? 88) = false) by (unfold is_digit in Hx; lia). rewrite Ex, Hi, Hr. reflexivity.
Qed.

Lemma unescape_by_dec : forall rc c rest, (forall name v, ref_char name = Some v -> rc name = Some v) ->
  0 <= c -> (128 <=? c) && (c <? 160) = false ->
  unescape_by rc (lit "&#" ++ dec_nonneg c ++ [59] ++ rest) None = c :: unescape_by rc rest None.
Proof.
  intros rc c rest Hrc H0 Hr. apply (unescape_by_ref rc Hrc (35 :: dec_nonneg c)); [|exact (ref_char_dec c H0 Hr)].
  apply (digits_lack 59 _ eq_refl (dec_nonneg_digits c H0)).
Qed.

Lemma unescape_tchar : forall x rest, tchar_ok x = true ->
  unescape (render_tchar x ++ rest) None = fst x :: unescape rest None.
Proof.
  intros [c b] rest H. rewrite !unescape_is_by. unfold render_tchar, tchar_ok in *. cbn [fst snd] in *. destruct b.
  - apply andb_true_iff in H. destruct H as [H0 Hr]. rewrite <- !app_assoc.
    apply unescape_by_dec; [auto|lia|destruct ((128 <=? c) && (c <? 160)); [discriminate|reflexivity]].
  - apply unescape_by_esc_ch; [auto|]. right. right. reflexivity.
Qed.

Lemma unescape_tstr : forall t rest, tstr_ok t = true ->
  unescape (render_tstr t ++ rest) None = tstr_val t ++ unescape rest None.
Proof.
  unfold render_tstr, tstr_val, tstr_ok. induction t as [|x t IH]; intros rest H; [reflexivity|].
  cbn [forallb] in H. apply andb_true_iff in H. destruct H as [Hx Ht].
  cbn [flat_map map]. rewrite <- app_assoc, (unescape_tchar x _ Hx), (IH rest Ht). reflexivity.
Qed.

Lemma esc_ch_not_lt : forall q c, forallb not_lt (esc_ch q c) = true.
Proof.
  intros q c. unfold esc_ch.
  destruct (c =? 38); [reflexivity|]. destruct (c =? 60) eqn:E60; [reflexivity|]. destruct (c =? 62); [reflexivity|].
  destruct (c =? q); [destruct (q =? 34); [reflexivity|destruct (q =? 39); [reflexivity|]]|];
    cbn [forallb]; unfold not_lt; rewrite E60; reflexivity.
Qed.

Lemma esc_ch_lacks : forall q c, q = 34 \/ q = 39 -> lacks q (esc_ch q c) = true.
Proof.
  intros q c Hq. unfold esc_ch, lacks.
  destruct (c =? 38); [destruct Hq; subst q; reflexivity|].
  destruct (c =? 60); [destruct Hq; subst q; reflexivity|].
  destruct (c =? 62); [destruct Hq; subst q; reflexivity|].
  destruct (c =? q) eqn:E; [destruct Hq; subst q; reflexivity|]. cbn [forallb]. rewrite E. reflexivity.
Qed.

Lemma esc_val_lacks : forall q v, q = 34 \/ q = 39 -> lacks q (esc_val q v) = true.
Proof.
  intros q v Hq. unfold esc_val. induction v as [|c v IH]; [reflexivity|].
  cbn [flat_map]. rewrite lacks_app, IH, (esc_ch_lacks q c Hq). reflexivity.
Qed.

Lemma render_tchar_not_lt : forall x, 0 <= fst x \/ snd x = false -> forallb not_lt (render_tchar x) = true.
Proof.
  intros [c b] H. unfold render_tchar. cbn [fst snd] in *. destruct b; [|apply esc_ch_not_lt].
  destruct H as [H|H]; [|discriminate]. change (lit "&#") with [38; 35]. cbn [app forallb].
  rewrite forallb_app. cbn [forallb]. change (not_lt 38) with true. change (not_lt 35) with true. change (not_lt 59) with true.
  rewrite (forallb_weaken is_digit not_lt); [reflexivity| |apply dec_nonneg_digits; exact H].
  intros d Hd. unfold is_digit, not_lt in *. lia.
Qed.

Lemma render_tstr_not_lt : forall t, tstr_ok t = true -> forallb not_lt (render_tstr t) = true.
Proof.
  intros t. unfold tstr_ok, render_tstr. apply forallb_flat_map. intros x H. apply render_tchar_not_lt.
  unfold tchar_ok in H. destruct (snd x); [left; lia|right; reflexivity].
Qed.

(* ---- attributes and tags ------------------------------------------------------------------------------------ *)
Lemma quote_of_cases : forall f, quote_of f = 34 \/ quote_of f = 39.
Proof. intros f. unfold quote_of. destruct (af_dq f); [left|right]; reflexivity. Qed.

Lemma parse_attr_render : forall name e1 e2 q v T,
  aname_ok name = true -> is_ws e1 = true -> is_ws e2 = true -> (q = 34 \/ q = 39) ->
  parse_attr (name ++ e1 ++ [61] ++ e2 ++ [q] ++ esc_val q v ++ [q] ++ T) = Some (lower name, v, T).
Proof.
  intros name e1 e2 q v T Hn H1 H2 Hq. destruct (aname_ok_inv name Hn) as (c & t & En & Hc & Hnc).
  cbn [app]. unfold parse_attr.
  assert (S1 : stops attr_name_c (e1 ++ 61 :: e2 ++ q :: esc_val q v ++ q :: T)).
  { apply stops_ws_then; [exact H1| |reflexivity]. intros x Hx. apply xws_facts in Hx. tauto. }
  subst name. destruct (span_app attr_name_c _ _ (anames_attr _ Hnc) S1) as [-> ->]. cbv iota.
  rewrite (drop_while_stops h_ws e1 _ (is_ws_h_ws _ H1)) by reflexivity.
  change (61 =? 61) with true. cbv iota.
  assert (Hqw : h_ws q = false) by (destruct Hq; subst q; reflexivity).
  rewrite (drop_while_stops h_ws e2 _ (is_ws_h_ws _ H2)) by exact Hqw.
  assert (Hqq : (q =? 34) || (q =? 39) = true) by lia. rewrite Hqq.
  destruct (to_app q _ T (esc_val_lacks q v Hq)) as [-> ->].
  rewrite unescape_is_by, (unescape_by_esc_val ref_char (fun _ _ H => H)) by (unfold quote_or_text; tauto).
  reflexivity.
Qed.

Definition tag_closer (sc : bool) : str := if sc then [47; 62] else [62].

Lemma render_attr_shape : forall a T,
  render_attr a ++ T
  = af_pre (ra_fmt a) ++ ra_name a ++ af_e1 (ra_fmt a) ++ [61] ++ af_e2 (ra_fmt a) ++ [quote_of (ra_fmt a)]
    ++ esc_val (quote_of (ra_fmt a)) (ra_val a) ++ [quote_of (ra_fmt a)] ++ T.
Proof. intros a T. unfold render_attr. cbv zeta. rewrite <- !app_assoc. reflexivity. Qed.

Lemma rattr_ok_parts : forall a, rattr_ok a = true ->
  is_ws (af_pre (ra_fmt a)) = true /\ af_pre (ra_fmt a) <> [] /\ is_ws (af_e1 (ra_fmt a)) = true
  /\ is_ws (af_e2 (ra_fmt a)) = true /\ aname_ok (ra_name a) = true.
Proof.
  intros a H. unfold rattr_ok, afmt_ok in H. apply andb_prop in H as [[[[Hp Hne]%andb_prop H1]%andb_prop H2]%andb_prop Hn].
  repeat split; try assumption. intros E. rewrite E in Hne. discriminate.
Qed.

Lemma parse_attrs_render : forall l fuel acc e sc rest,
  forallb rattr_ok l = true -> is_ws e = true -> (length l < fuel)%nat ->
  parse_attrs fuel (flat_map render_attr l ++ e ++ tag_closer sc ++ rest) acc = Some (rev acc ++ plain l, sc, rest).
Proof.
  induction l as [|a l IH]; intros fuel acc e sc rest Hl He Hf; (destruct fuel as [|f]; [cbn [length] in Hf; lia|]).
  - cbn [flat_map app parse_attrs plain map]. rewrite app_nil_r.
    rewrite (drop_while_stops h_ws e _ (is_ws_h_ws _ He)) by (destruct sc; reflexivity).
    destruct sc; reflexivity.
  - cbn [forallb] in Hl. apply andb_true_iff in Hl. destruct Hl as [Ha Hl].
    destruct (rattr_ok_parts a Ha) as (Hp & _ & H1 & H2 & Hn).
    cbn [flat_map]. rewrite <- app_assoc, render_attr_shape. cbn [parse_attrs].
    destruct (aname_ok_inv _ Hn) as (c & t & En & Hc & Hnc).
    assert (Hcw : h_ws c = false) by (apply lc_letter_name_c, name_c_facts in Hc; tauto).
    rewrite (drop_while_stops h_ws (af_pre (ra_fmt a)) _ (is_ws_h_ws _ Hp)) by (rewrite En; exact Hcw).
    pose proof (parse_attr_render (ra_name a) (af_e1 (ra_fmt a)) (af_e2 (ra_fmt a)) (quote_of (ra_fmt a)) (ra_val a)
                  (flat_map render_attr l ++ e ++ tag_closer sc ++ rest) Hn H1 H2 (quote_of_cases _)) as P.
    rewrite En in P |- *. cbn [app] in P |- *.
    destruct (name_c_facts c (lc_letter_name_c c Hc)) as (_ & _ & _ & _ & E62 & E47 & _).
    rewrite E62, E47. cbn [app] in P. rewrite P.
    rewrite IH; [|exact Hl|exact He|cbn [length] in Hf; lia].
    cbn [rev plain map]. rewrite <- app_assoc, En. reflexivity.
Qed.

Lemma render_attrs_length : forall l T, (length l <= length (flat_map render_attr l ++ T))%nat.
Proof.
  induction l as [|a l IH]; intros T; [cbn; lia|]. cbn [flat_map length]. rewrite <- app_assoc.
  unfold render_attr at 1. cbv zeta. rewrite <- !app_assoc. rewrite !app_length. cbn [length].
  specialize (IH T). rewrite app_length in IH. lia.
Qed.

Lemma tag_tail_stops : forall l e sc rest, forallb rattr_ok l = true -> is_ws e = true ->
  stops tag_name_c (flat_map render_attr l ++ e ++ tag_closer sc ++ rest).
Proof.
  intros l e sc rest Hl He. destruct l as [|a l].
  - cbn [flat_map app]. destruct e as [|x e].
    + destruct sc; reflexivity.
    + cbn [app stops]. cbn [is_ws forallb] in He. apply andb_true_iff in He. destruct He as [Hx _].
      apply xws_facts in Hx. tauto.
  - cbn [forallb] in Hl. apply andb_true_iff in Hl. destruct Hl as [Ha _].
    destruct (rattr_ok_parts a Ha) as (Hp & Hne & _).
    cbn [flat_map]. rewrite <- app_assoc, render_attr_shape.
    destruct (af_pre (ra_fmt a)) as [|x p]; [congruence|]. cbn [app stops].
    cbn [is_ws forallb] in Hp. apply andb_true_iff in Hp. destruct Hp as [Hx _]. apply xws_facts in Hx. tauto.
Qed.

Lemma parse_open_render : forall name l e sc rest,
  name_ok name = true -> forallb rattr_ok l = true -> is_ws e = true ->
  parse_open (name ++ flat_map render_attr l ++ e ++ tag_closer sc ++ rest) = Some (name, plain l, sc, rest).
Proof.
  intros name l e sc rest Hn Hl He. destruct (name_ok_inv name Hn) as (c & t & En & Hc & Hnc).
  assert (Hnn : forallb name_c name = true) by (rewrite En; exact Hnc).
  unfold parse_open.
  destruct (span_app tag_name_c name _ (names_tag _ Hnn) (tag_tail_stops l e sc rest Hl He)) as [-> ->].
  rewrite parse_attrs_render; [|exact Hl|exact He|].
  - rewrite (names_lower name Hnn). reflexivity.
  - rewrite app_length. pose proof (render_attrs_length l (e ++ tag_closer sc ++ rest)). lia.
Qed.

Lemma parse_close_render : forall name w rest, name_ok name = true -> is_ws w = true ->
  parse_close name (name ++ w ++ [62] ++ rest) = Some rest.
Proof.
  intros name w rest Hn Hw. destruct (name_ok_inv name Hn) as (c & t & En & Hc & Hnc).
  assert (Hnn : forallb name_c name = true) by (rewrite En; exact Hnc).
  assert (S1 : stops tag_name_c (w ++ [62] ++ rest)).
  { apply stops_ws_then; [exact Hw| |reflexivity]. intros x Hx. apply xws_facts in Hx. tauto. }
  unfold parse_close.
  destruct (span_app tag_name_c name _ (names_tag _ Hnn) S1) as [-> ->].
  rewrite (names_lower name Hnn), str_eqb_refl.
  rewrite (drop_while_stops h_ws w _ (is_ws_h_ws _ Hw)) by reflexivity. reflexivity.
Qed.

(* ---- pieces of a text read one after the other ---------------------------------------------------------- *)
Definition starts_lt (r : str) : Prop := match r with [] => True | c :: _ => c = 60 end.

Lemma stops_lt_app : forall r X, starts_lt r -> stops not_lt X -> stops not_lt (r ++ X).
Proof. intros [|c r] X H SX; [exact SX|]. cbn in H |- *. subst c. reflexivity. Qed.

(* P reads the piece r as l, whatever follows it: ext puts l in front of what P makes of the rest.  A piece that ends
   in text needs the rest not to go on with text. *)
Section Reads.
Context {L R : Type} (P : nat -> str -> option R) (ext : list L -> R -> R).
Hypothesis ext_app : forall a b r, ext (a ++ b) r = ext a (ext b r).

Definition reads (r : str) (l : list L) : Prop :=
  forall X res, stops not_lt X -> (forall f, (length X < f)%nat -> P f X = Some res) ->
  forall f, (length (r ++ X) < f)%nat -> P f (r ++ X) = Some (ext l res).

Lemma reads_app_lt : forall r1 l1 r2 l2, reads r1 l1 -> starts_lt r2 -> reads r2 l2 -> reads (r1 ++ r2) (l1 ++ l2).
Proof.
  intros r1 l1 r2 l2 H1 S2 H2 X res SX HX f Hf. rewrite <- app_assoc in *. rewrite ext_app.
  apply (H1 (r2 ++ X)); [apply stops_lt_app; assumption| |exact Hf]. intros f' Hf'. apply H2; assumption.
Qed.
End Reads.

Definition pn : str -> list hnode -> Prop := reads parse_nodes (fun l res => (l ++ fst res, snd res)).

Lemma pn_app_lt : forall r1 l1 r2 l2, pn r1 l1 -> starts_lt r2 -> pn r2 l2 -> pn (r1 ++ r2) (l1 ++ l2).
Proof. apply reads_app_lt. intros a b r. cbn [fst snd]. rewrite app_assoc. reflexivity. Qed.

Definition raw_text_nodes (txt : str) : list hnode := match txt with [] => [] | _ => [HText (unescape txt None)] end.

Lemma pn_text : forall txt, forallb not_lt txt = true -> pn txt (raw_text_nodes txt).
Proof.
  intros txt Ht X res HX HR fuel Hf. destruct txt as [|c t].
  - cbn [app raw_text_nodes]. rewrite (HR fuel Hf). destruct res; reflexivity.
  - destruct fuel as [|f]; [lia|]. cbn [app length] in Hf.
    pose proof Ht as Ht'. cbn [forallb] in Ht'. apply andb_true_iff in Ht'. destruct Ht' as [Hc _].
    assert (E : (c =? 60) = false) by (unfold not_lt in Hc; lia).
    cbn [app parse_nodes]. rewrite E.
    change (c :: t ++ X) with ((c :: t) ++ X).
    destruct (span_app not_lt (c :: t) X Ht HX) as [-> ->].
    rewrite (HR f) by (rewrite app_length in Hf; lia). destruct res; reflexivity.
Qed.

Lemma render_open_shape : forall name l e sc X,
  render_open name l e sc ++ X = 60 :: name ++ flat_map render_attr l ++ e ++ tag_closer sc ++ X.
Proof. intros. unfold render_open, tag_closer. rewrite <- !app_assoc. reflexivity. Qed.

Lemma render_close_shape : forall name w X, render_close name w ++ X = 60 :: 47 :: name ++ w ++ [62] ++ X.
Proof. intros. unfold render_close. rewrite <- !app_assoc. reflexivity. Qed.

Lemma render_open_length : forall name l e sc, (1 <= length (render_open name l e sc))%nat.
Proof. intros. unfold render_open. cbn [app length]. lia. Qed.

Lemma parse_nodes_open : forall f name l e sc X, name_ok name = true -> forallb rattr_ok l = true -> is_ws e = true ->
  parse_nodes (S f) (render_open name l e sc ++ X)
  = if sc
    then match parse_nodes f X with Some (sibs, r') => Some (HElem name (plain l) [] :: sibs, r') | None => None end
    else match parse_nodes f X with
         | Some (kids, _ :: _ :: r1') =>
             match parse_close name r1' with
             | Some r2 =>
                 match parse_nodes f r2 with Some (sibs, r3) => Some (HElem name (plain l) kids :: sibs, r3) | None => None end
             | None => None
             end
         | _ => None
         end.
Proof.
  intros f name l e sc X Hn Hl He. rewrite render_open_shape.
  pose proof (parse_open_render name l e sc X Hn Hl He) as P.
  destruct (name_ok_inv name Hn) as (c & t & En & Hc & Hnc). rewrite En in P |- *. cbn [app] in P |- *.
  destruct (lc_letter_facts c Hc) as (L & E47 & E63 & _).
  cbn [parse_nodes]. change (60 =? 60) with true. cbv iota. rewrite E47, E63, L, P. destruct sc; reflexivity.
Qed.

Lemma pn_empty_then : forall name l e r sibs, name_ok name = true -> forallb rattr_ok l = true -> is_ws e = true ->
  pn r sibs -> pn (render_open name l e true ++ r) (HElem name (plain l) [] :: sibs).
Proof.
  intros name l e r sibs Hn Hl He Hr X res HX HR fuel Hf. destruct fuel as [|f]; [lia|]. rewrite <- app_assoc in *.
  rewrite (parse_nodes_open f name l e true _ Hn Hl He). cbv iota.
  rewrite (Hr X res HX HR f); [reflexivity|]. rewrite app_length in Hf. pose proof (render_open_length name l e true). lia.
Qed.

(* the content of an element is read up to its end tag, which reads as nothing *)
Lemma pn_elem_then : forall name l e inner cw r kids sibs,
  name_ok name = true -> forallb rattr_ok l = true -> is_ws e = true -> is_ws cw = true ->
  pn inner kids -> pn r sibs ->
  pn (render_open name l e false ++ inner ++ render_close name cw ++ r) (HElem name (plain l) kids :: sibs).
Proof.
  intros name l e inner cw r kids sibs Hn Hl He Hcw Hk Hr X res HX HR fuel Hf. destruct fuel as [|f]; [lia|].
  rewrite <- !app_assoc in *. rewrite (parse_nodes_open f name l e false _ Hn Hl He). cbv iota.
  rewrite !app_length in Hf. pose proof (render_open_length name l e false) as L1.
  rewrite (Hk (render_close name cw ++ r ++ X) ([], render_close name cw ++ r ++ X)).
  - cbn [fst snd]. rewrite render_close_shape, (parse_close_render name cw _ Hn Hcw), (Hr X res HX HR f).
    + rewrite app_nil_r. reflexivity.
    + rewrite app_length. lia.
  - rewrite render_close_shape. reflexivity.
  - intros [|f'] Hf'; [lia|]. rewrite render_close_shape. reflexivity.
  - rewrite !app_length. lia.
Qed.

(* ---- the intended tree ---------------------------------------------------------------------------------------- *)
Definition text_nodes (s : str) : list hnode := match s with [] => [] | _ => [HText s] end.

Definition tree_of_pel (e : pel) : hnode :=
  match e with
  | PBr _ => HElem (lit "br") [] []
  | PSpan t txt _ => HElem (lit "span") (plain (rt_attrs t)) (text_nodes (tstr_val txt))
  end.
Definition tree_of_items (items : list (tstr * pel)) : list hnode :=
  flat_map (fun it : tstr * pel => text_nodes (tstr_val (fst it)) ++ [tree_of_pel (snd it)]) items.
Definition tree_of_content (c : pcontent) : list hnode := tree_of_items (fst c) ++ text_nodes (tstr_val (snd c)).

Fixpoint tree_of (d : dforest) : list hnode :=
  match d with
  | FEnd w => text_nodes w
  | FP pre pa _ c _ next => text_nodes pre ++ HElem (lit "p") (plain (pattrs_list pa)) (tree_of_content c) :: tree_of next
  | FDiv pre l1 lang l2 _ kids _ next =>
      text_nodes pre ++ HElem (lit "div") (plain (lang_attrs l1 lang l2)) (tree_of kids) :: tree_of next
  | FElem pre name t kids _ next => text_nodes pre ++ HElem name (plain (rt_attrs t)) (tree_of kids) :: tree_of next
  | FEmpty pre name t next => text_nodes pre ++ HElem name (plain (rt_attrs t)) [] :: tree_of next
  end.

Lemma raw_text_ws : forall w, is_ws w = true -> raw_text_nodes w = text_nodes w.
Proof.
  intros w H. unfold raw_text_nodes, text_nodes.
  rewrite unescape_is_by, unescape_by_plain by (apply is_ws_lacks_amp; exact H). reflexivity.
Qed.

Lemma render_tchar_nonempty : forall x, render_tchar x <> [].
Proof.
  intros [c b] E. unfold render_tchar in E. cbn [fst snd] in E. destruct b; [discriminate|].
  (* an escaped character reads back as one character *)
  pose proof (unescape_by_esc_ch ref_char (fun _ _ H => H) (-1) c [] (or_intror (or_intror eq_refl))) as U.
  rewrite E in U. discriminate U.
Qed.

Lemma raw_text_tstr : forall t, tstr_ok t = true -> raw_text_nodes (render_tstr t) = text_nodes (tstr_val t).
Proof.
  intros t H. destruct t as [|x t]; [reflexivity|].
  unfold raw_text_nodes, text_nodes. pose proof (unescape_tstr (x :: t) [] H) as U. rewrite app_nil_r in U.
  cbn [unescape] in U. rewrite app_nil_r in U. rewrite U.
  destruct (render_tstr (x :: t)) eqn:E.
  - unfold render_tstr in E. cbn [flat_map] in E. apply app_eq_nil in E. destruct E as [E _].
    exfalso. exact (render_tchar_nonempty x E).
  - reflexivity.
Qed.

Lemma pn_ws : forall w, is_ws w = true -> pn w (text_nodes w).
Proof. intros w H. rewrite <- (raw_text_ws w H). apply pn_text, is_ws_not_lt, H. Qed.

Lemma pn_tstr : forall t, tstr_ok t = true -> pn (render_tstr t) (text_nodes (tstr_val t)).
Proof. intros t H. rewrite <- (raw_text_tstr t H). apply pn_text, render_tstr_not_lt, H. Qed.

Lemma pn_pel_then : forall e r sibs, pel_ok e = true -> pn r sibs -> pn (render_pel e ++ r) (tree_of_pel e :: sibs).
Proof.
  intros [w|t txt cw] r sibs He Hr; cbn [render_pel tree_of_pel pel_ok] in *.
  - apply pn_empty_then; [reflexivity|reflexivity|exact He|exact Hr].
  - apply andb_true_iff in He. destruct He as [He Hcw]. apply andb_true_iff in He. destruct He as [Ht Htxt].
    unfold rtag_ok in Ht. apply andb_true_iff in Ht. destruct Ht as [Hl Hend].
    rewrite <- !app_assoc. apply pn_elem_then; [reflexivity|exact Hl|exact Hend|exact Hcw|apply pn_tstr; exact Htxt|exact Hr].
Qed.

Lemma pn_content : forall c, content_ok c = true -> pn (render_content c) (tree_of_content c).
Proof.
  intros [items last]. unfold content_ok, render_content, tree_of_content, tree_of_items. cbn [fst snd].
  induction items as [|[t e] items IH]; intros Hc.
  - apply pn_tstr. exact Hc.
  - cbn [forallb fst snd] in Hc. apply andb_true_iff in Hc. destruct Hc as [Hc Hlast].
    apply andb_true_iff in Hc. destruct Hc as [Hte Hitems]. apply andb_true_iff in Hte. destruct Hte as [Ht He].
    cbn [flat_map fst snd]. rewrite <- !app_assoc.
    apply pn_app_lt; [apply pn_tstr; exact Ht|destruct e; reflexivity|].
    apply pn_pel_then; [exact He|]. apply IH. rewrite Hitems, Hlast. reflexivity.
Qed.

Lemma pattrs_timed_parts : forall l1 l2 l3 sw fb fc t, pattrs_ok (PaTimed l1 l2 l3 sw fb fc t) = true ->
  forallb rattr_ok (l1 ++ l2 ++ l3) = true /\ free_of_times (l1 ++ l2 ++ l3) = true
  /\ afmt_ok fb = true /\ afmt_ok fc = true /\ dfxp_p_dom t = true.
Proof. intros l1 l2 l3 sw fb fc t H. cbn [pattrs_ok] in H. repeat (apply andb_true_iff in H; destruct H as [H ?]). repeat split; assumption. Qed.

Lemma p_ok_parts : forall pa c, p_ok pa c = true -> pattrs_ok pa = true /\ content_ok c = true.
Proof. intros pa c H. unfold p_ok in H. repeat (apply andb_true_iff in H; destruct H as [H ?]). repeat split; assumption. Qed.

Lemma pattrs_list_ok : forall pa, pattrs_ok pa = true -> forallb rattr_ok (pattrs_list pa) = true.
Proof.
  intros [l1 l2 l3 sw fb fc t|l] H; [|exact H]. destruct (pattrs_timed_parts _ _ _ _ _ _ _ H) as (Hl & _ & Hb & Hc & _).
  cbn [pattrs_list]. rewrite !forallb_app in Hl. apply andb_prop in Hl as [H1 [H2 H3]%andb_prop].
  rewrite !forallb_app, H1, H2, H3. cbn [forallb].
  assert (B : rattr_ok (begin_attr fb t) = true) by (unfold rattr_ok, begin_attr; cbn [ra_fmt ra_name]; rewrite Hb; reflexivity).
  assert (C : rattr_ok (close_attr fc t) = true)
    by (unfold rattr_ok, close_attr; cbn [ra_fmt ra_name]; rewrite Hc; destruct (p_is_dur t); reflexivity).
  destruct sw; rewrite B, C; reflexivity.
Qed.

Lemma lang_attrs_list_ok : forall l1 lang l2, lang_attrs_ok l1 lang l2 = true -> forallb rattr_ok (lang_attrs l1 lang l2) = true.
Proof.
  intros l1 lang l2 H. unfold lang_attrs_ok in H. rewrite forallb_app in H.
  apply andb_prop in H as [[[Ha Hb]%andb_prop _]%andb_prop Hf].
  unfold lang_attrs. rewrite !forallb_app, Ha, Hb. destruct lang as [[f v]|]; [|reflexivity].
  cbn [forallb]. unfold rattr_ok. cbn [ra_fmt ra_name]. rewrite Hf. reflexivity.
Qed.

Lemma pn_forest : forall d, forest_ok d = true -> pn (render_forest d) (tree_of d).
Proof.
  induction d as [w|pre pa e c cw next IHn|pre l1 lang l2 e kids IHk cw next IHn|pre name t kids IHk cw next IHn|pre name t next IHn];
    intros Hd; cbn [render_forest tree_of forest_ok] in *.
  - apply pn_ws. exact Hd.
  - apply andb_prop in Hd as [[[[Hpre Hp]%andb_prop He]%andb_prop Hcw]%andb_prop Hn]. destruct (p_ok_parts pa c Hp) as [Hpa Hc].
    apply pn_app_lt; [apply pn_ws; exact Hpre|reflexivity|].
    apply pn_elem_then; [reflexivity|apply pattrs_list_ok; exact Hpa|exact He|exact Hcw|apply pn_content; exact Hc|exact (IHn Hn)].
  - apply andb_prop in Hd as [[[[[Hpre Hl]%andb_prop He]%andb_prop Hk]%andb_prop Hcw]%andb_prop Hn].
    apply pn_app_lt; [apply pn_ws; exact Hpre|reflexivity|].
    apply pn_elem_then; [reflexivity|apply lang_attrs_list_ok; exact Hl|exact He|exact Hcw|exact (IHk Hk)|exact (IHn Hn)].
  - unfold rtag_ok, generic_name in Hd. apply andb_prop in Hd as [[[[[Hpre [Hnm _]%andb_prop]%andb_prop [Hl He]%andb_prop]%andb_prop Hk]%andb_prop Hcw]%andb_prop Hn].
    apply pn_app_lt; [apply pn_ws; exact Hpre|reflexivity|].
    apply pn_elem_then; [exact Hnm|exact Hl|exact He|exact Hcw|exact (IHk Hk)|exact (IHn Hn)].
  - unfold rtag_ok, empty_name in Hd. apply andb_prop in Hd as [[[Hpre [Hnm _]%andb_prop]%andb_prop [Hl He]%andb_prop]%andb_prop Hn].
    apply pn_app_lt; [apply pn_ws; exact Hpre|reflexivity|].
    apply pn_empty_then; [exact Hnm|exact Hl|exact He|exact (IHn Hn)].
Qed.

Definition tree_doc (d : xdoc) : list hnode :=
  text_nodes (xd_pre d)
  ++ HElem (lit "tt") (plain (lang_attrs (xd_l1 d) (xd_lang d) (xd_l2 d))) (tree_of (xd_body d)) :: text_nodes (xd_post d).

Lemma xdoc_ok_parts : forall d, xdoc_ok d = true ->
  match xd_pi d with Some c => negb (existsb (Z.eqb 62) c) | None => true end = true
  /\ is_ws (xd_pre d) = true /\ lang_attrs_ok (xd_l1 d) (xd_lang d) (xd_l2 d) = true /\ is_ws (xd_e d) = true
  /\ forest_ok (xd_body d) = true /\ is_ws (xd_cw d) = true /\ is_ws (xd_post d) = true.
Proof. intros d H. unfold xdoc_ok in H. repeat (apply andb_true_iff in H; destruct H as [H ?]). repeat split; assumption. Qed.

Lemma parse_doc_body : forall d f, xdoc_ok d = true ->
  let s := xd_pre d ++ render_open (lit "tt") (lang_attrs (xd_l1 d) (xd_lang d) (xd_l2 d)) (xd_e d) false
           ++ render_forest (xd_body d) ++ render_close (lit "tt") (xd_cw d) ++ xd_post d in
  (length s < f)%nat -> parse_nodes f s = Some (tree_doc d, []).
Proof.
  intros d f Hd s Hf. destruct (xdoc_ok_parts d Hd) as (_ & Hpre & Hl & He & Hb & Hcw & Hpost).
  assert (T : pn s (tree_doc d)).
  { subst s. apply pn_app_lt; [apply pn_ws; exact Hpre|reflexivity|].
    apply pn_elem_then; [reflexivity|apply lang_attrs_list_ok; exact Hl|exact He|exact Hcw|apply pn_forest; exact Hb|apply pn_ws; exact Hpost]. }
  pose proof (T [] ([], []) I (fun f' Hf' => ltac:(destruct f'; [cbn in Hf'; lia|reflexivity])) f) as P.
  cbn [fst snd] in P. rewrite !app_nil_r in P. exact (P Hf).
Qed.

Theorem parse_doc_render : forall d, xdoc_ok d = true -> parse_doc (render_doc d) = Some (tree_doc d).
Proof.
  intros d Hd. unfold parse_doc, render_doc. destruct (xd_pi d) as [c|] eqn:Epi.
  - assert (Hc : lacks 62 c = true).
    { destruct (xdoc_ok_parts d Hd) as (Hpi & _). rewrite Epi in Hpi.
      unfold lacks. clear - Hpi. induction c as [|x c IH]; [reflexivity|]. cbn [existsb] in Hpi. cbn [forallb].
      rewrite negb_orb in Hpi. apply andb_true_iff in Hpi. destruct Hpi as [Hx Hc]. rewrite (IH Hc), Z.eqb_sym, Hx. reflexivity. }
    rewrite <- !app_assoc. cbn [app parse_nodes]. change (60 =? 60) with true. cbv iota.
    change (63 =? 47) with false. change (63 =? 63) with true. cbv iota.
    rewrite (proj2 (to_app 62 c _ Hc)).
    rewrite parse_doc_body; [reflexivity|exact Hd|]. cbn [length]. rewrite (app_length c). cbn [length]. lia.
  - cbn [app]. rewrite parse_doc_body; [reflexivity|exact Hd|lia].
Qed.

(* ---- the reader's queries on the tree ------------------------------------------------------------------------- *)
Lemma walk_list_cons : forall chain n l,
  walk_list chain (n :: l) = (fst (walk chain n) ++ fst (walk_list chain l), snd (walk chain n) ++ snd (walk_list chain l)).
Proof. reflexivity. Qed.

Lemma walk_div : forall chain a kids, walk chain (HElem (lit "div") a kids)
  = (let ch := attr_get (lit "xml:lang") a :: chain_of chain in
     (ch :: fst (walk_list (Some ch) kids), snd (walk_list (Some ch) kids))).
Proof. reflexivity. Qed.

Lemma walk_p : forall chain a kids, walk chain (HElem (lit "p") a kids)
  = (fst (walk_list chain kids), (chain, mkXp a (visible (flat_map h_text kids))) :: snd (walk_list chain kids)).
Proof. reflexivity. Qed.

Lemma walk_list_app : forall chain a b,
  walk_list chain (a ++ b) = (fst (walk_list chain a) ++ fst (walk_list chain b), snd (walk_list chain a) ++ snd (walk_list chain b)).
Proof. intros. unfold walk_list. cbn [fst snd]. rewrite !flat_map_app. reflexivity. Qed.

Lemma walk_list_text : forall chain s, walk_list chain (text_nodes s) = ([], []).
Proof. intros chain [|c s]; reflexivity. Qed.

Lemma walk_text_then : forall chain s l, walk_list chain (text_nodes s ++ l) = walk_list chain l.
Proof. intros. rewrite walk_list_app, walk_list_text. destruct (walk_list chain l); reflexivity. Qed.

(* generic_name and empty_name both exclude a list of names that begins with div and p *)
Lemma walk_generic : forall chain name a kids b l,
  b && negb (existsb (str_eqb name) (lit "div" :: lit "p" :: l)) = true ->
  walk chain (HElem name a kids) = walk_list chain kids.
Proof.
  intros chain name a kids b l H. apply andb_true_iff in H. destruct H as [_ H]. apply negb_true_iff in H.
  cbn [existsb] in H. apply orb_false_elim in H. destruct H as [H1 H]. apply orb_false_elim in H. destruct H as [H2 _].
  cbn [walk]. rewrite H1, H2. reflexivity.
Qed.

Lemma walk_content : forall chain c, walk_list chain (tree_of_content c) = ([], []).
Proof.
  intros chain [items last]. unfold tree_of_content. cbn [fst snd]. rewrite walk_list_app, walk_list_text.
  assert (E : walk_list chain (tree_of_items items) = ([], [])).
  { induction items as [|[t e] items IH]; [reflexivity|]. unfold tree_of_items in *. cbn [flat_map fst snd].
    rewrite walk_list_app, IH, walk_text_then. destruct e as [w|tg txt cw]; cbn [tree_of_pel].
    - reflexivity.
    - rewrite walk_list_cons, (walk_generic chain (lit "span") _ _ true []), walk_list_text by reflexivity. reflexivity. }
  rewrite E. reflexivity.
Qed.

Lemma h_text_text_nodes : forall s, flat_map h_text (text_nodes s) = s.
Proof. intros [|c s]; [reflexivity|]. cbn [text_nodes flat_map h_text]. apply app_nil_r. Qed.

Lemma h_text_content : forall c, flat_map h_text (tree_of_content c) = content_text c.
Proof.
  intros [items last]. unfold tree_of_content, content_text, tree_of_items. cbn [fst snd].
  rewrite flat_map_app, h_text_text_nodes. f_equal.
  induction items as [|[t e] items IH]; [reflexivity|]. cbn [flat_map fst snd].
  rewrite !flat_map_app, IH, h_text_text_nodes. rewrite <- !app_assoc. f_equal.
  destruct e as [w|tg txt cw]; cbn [tree_of_pel flat_map h_text app]; [reflexivity|].
  rewrite h_text_text_nodes, !app_nil_r. reflexivity.
Qed.

Lemma visible_has : forall s, visible s = has_visible_char s.
Proof.
  intros s. unfold visible, has_visible_char. induction s as [|c s IH]; [reflexivity|].
  cbn [forallb existsb]. rewrite negb_andb, IH. reflexivity.
Qed.

Lemma plain_app : forall a b, plain (a ++ b) = plain a ++ plain b.
Proof. intros. unfold plain. apply map_app. Qed.

Lemma attr_get_lang : forall l1 lang l2, lang_attrs_ok l1 lang l2 = true ->
  attr_get (lit "xml:lang") (plain (lang_attrs l1 lang l2)) = option_map snd lang.
Proof.
  intros l1 lang l2 H. unfold lang_attrs_ok, free_of_lang in H. rewrite !forallb_app in H.
  apply andb_prop in H as [[_ [H1 H2]%andb_prop]%andb_prop _].
  assert (F : forall l, forallb (fun a => negb (str_eqb (lower (ra_name a)) (lit "xml:lang"))) l = true ->
                        attr_get (lit "xml:lang") (plain l) = None).
  { intros l. unfold attr_get.
    change (fun acc nv => if str_eqb (fst nv) (lit "xml:lang") then Some (snd nv) else acc) with (aget_step (lit "xml:lang")).
    induction l as [|a l IH]; intros Hl; [reflexivity|]. cbn [forallb] in Hl. apply andb_true_iff in Hl. destruct Hl as [Ha Hl].
    cbn [plain map fold_left]. unfold aget_step at 2. cbn [fst snd].
    destruct (str_eqb (lower (ra_name a)) (lit "xml:lang")); [discriminate|]. exact (IH Hl). }
  unfold lang_attrs. rewrite !plain_app, !attr_get_app, (F l2 H2), (F l1 H1).
  destruct lang as [[f v]|]; [|reflexivity]. cbn [plain map]. unfold attr_get. cbn [fold_left fst snd ra_name ra_val].
  rewrite str_eqb_refl. reflexivity.
Qed.

Lemma time_free_app : forall a b, time_free (a ++ b) = time_free a && time_free b.
Proof. intros. unfold time_free. apply forallb_app. Qed.

Lemma xp_times_timed : forall l1 l2 l3 sw fb fc t tx, free_of_times (l1 ++ l2 ++ l3) = true ->
  xp_times (mkXp (plain (pattrs_list (PaTimed l1 l2 l3 sw fb fc t))) tx) = dfxp_p_attrs t.
Proof.
  intros l1 l2 l3 sw fb fc t tx H. unfold free_of_times in H. rewrite !plain_app, !time_free_app in H.
  apply andb_prop in H as [H1 [H2 H3]%andb_prop].
  unfold xp_times, dfxp_p_attrs. cbn [xp_attrs pattrs_list]. rewrite !plain_app, !attr_get_app.
  rewrite !(attr_get_free _ (plain l1)), !(attr_get_free _ (plain l2)), !(attr_get_free _ (plain l3)) by (assumption || reflexivity).
  unfold begin_attr, close_attr, plain, attr_get.
  destruct sw, (p_is_dur t); reflexivity.
Qed.

(* what dfxp_read_doc looks at in a paragraph *)
Definition pkey (cp : option lang_chain * xp) := (fst cp, xp_text (snd cp), xp_times (snd cp)).
Definition rendered (ps : list (option (list (option str)) * ap)) : list (option lang_chain * xp) :=
  map (fun cp => (fst cp, ap_render (snd cp))) ps.

Lemma p_key : forall chain pa c, p_ok pa c = true ->
  pkey (chain, mkXp (plain (pattrs_list pa)) (visible (flat_map h_text (tree_of_content c))))
  = pkey (chain, ap_render (to_ap pa c)).
Proof.
  intros chain pa c H. destruct (p_ok_parts pa c H) as [Hpa _]. unfold p_ok in H. apply andb_true_iff in H. destruct H as [_ Hv].
  rewrite h_text_content, visible_has. unfold to_ap, pkey. cbn [fst snd].
  destruct (has_visible_char (content_text c)); [|reflexivity].
  destruct pa as [l1 l2 l3 sw fb fc t|l]; [|discriminate].
  destruct (pattrs_timed_parts _ _ _ _ _ _ _ Hpa) as (_ & Hfree & _).
  rewrite (xp_times_timed l1 l2 l3 sw fb fc t true Hfree), (xp_times_render (plain (l1 ++ l2 ++ l3)) t Hfree). reflexivity.
Qed.

Lemma walk_forest : forall d chain, forest_ok d = true ->
  fst (walk_list chain (tree_of d)) = fst (flat chain d) /\
  map pkey (snd (walk_list chain (tree_of d))) = map pkey (rendered (snd (flat chain d))).
Proof.
  induction d as [w|pre pa e c cw next IHn|pre l1 lang l2 e kids IHk cw next IHn|pre name t kids IHk cw next IHn|pre name t next IHn];
    intros chain Hd; cbn [tree_of forest_ok flat] in *.
  - rewrite walk_list_text. split; reflexivity.
  - apply andb_prop in Hd as [[[[_ Hp]%andb_prop _]%andb_prop _]%andb_prop Hn].
    destruct (IHn chain Hn) as [I1 I2].
    rewrite walk_text_then, walk_list_cons, walk_p, walk_content. cbn [fst snd app]. split; [exact I1|].
    unfold rendered. cbn [map]. rewrite (p_key chain pa c Hp). f_equal. exact I2.
  - apply andb_prop in Hd as [[[[[_ Hl]%andb_prop _]%andb_prop Hk]%andb_prop _]%andb_prop Hn].
    destruct (IHn chain Hn) as [I1 I2]. destruct (IHk (Some (option_map snd lang :: chain_of chain)) Hk) as [K1 K2].
    rewrite walk_text_then, walk_list_cons, walk_div, (attr_get_lang l1 lang l2 Hl). cbn [fst snd app]. split.
    + rewrite K1, I1. reflexivity.
    + unfold rendered in *. rewrite !map_app, K2, I2. reflexivity.
  - apply andb_prop in Hd as [[[[[_ Hnm]%andb_prop _]%andb_prop Hk]%andb_prop _]%andb_prop Hn].
    destruct (IHn chain Hn) as [I1 I2]. destruct (IHk chain Hk) as [K1 K2].
    rewrite walk_text_then, walk_list_cons, (walk_generic chain name _ _ _ _ Hnm). cbn [fst snd]. split.
    + rewrite K1, I1. reflexivity.
    + unfold rendered in *. rewrite !map_app, K2, I2. reflexivity.
  - apply andb_prop in Hd as [[[_ Hnm]%andb_prop _]%andb_prop Hn].
    destruct (IHn chain Hn) as [I1 I2].
    rewrite walk_text_then, walk_list_cons, (walk_generic chain name _ _ _ _ Hnm). cbn [fst snd walk_list flat_map app].
    split; assumption.
Qed.

Lemma dfxp_read_doc_ext : forall default tt divs ps ps', map pkey ps = map pkey ps' ->
  dfxp_read_doc default tt divs ps = dfxp_read_doc default tt divs ps'.
Proof.
  intros default tt divs ps ps' H. unfold dfxp_read_doc. f_equal.
  revert ps' H. induction ps as [|x ps IH]; intros [|y ps'] H; try discriminate; [reflexivity|].
  pose proof (f_equal (hd (pkey x)) H) as Hk. unfold pkey in Hk. cbn [map hd] in Hk.
  cbn [res_map]. rewrite (IH ps' (f_equal (@tl _) H)).
  replace (fst x) with (fst y) by congruence. replace (xp_text (snd x)) with (xp_text (snd y)) by congruence.
  replace (xp_times (snd x)) with (xp_times (snd y)) by congruence. reflexivity.
Qed.

Lemma chain_eqb_refl : forall a, chain_eqb a a = true.
Proof.
  intros a. unfold chain_eqb. rewrite Nat.eqb_refl. cbn [andb].
  induction a as [|[x|] a IH]; [reflexivity| |]; cbn [combine forallb fst snd]; rewrite IH; [rewrite str_eqb_refl|]; reflexivity.
Qed.

Lemma to_ap_dom : forall pa c, p_ok pa c = true -> ap_dom (to_ap pa c) = true.
Proof.
  intros pa c H. destruct (p_ok_parts pa c H) as [Hpa _].
  unfold to_ap. destruct (has_visible_char (content_text c)); [|reflexivity].
  destruct pa as [l1 l2 l3 sw fb fc t|l]; [|reflexivity].
  destruct (pattrs_timed_parts _ _ _ _ _ _ _ Hpa) as (_ & Hfree & _ & _ & Ht).
  cbn [ap_dom]. unfold free_of_times in Hfree. rewrite Hfree, Ht. reflexivity.
Qed.

Lemma flat_doc_dom : forall divs d chain, forest_ok d = true ->
  match chain with Some ch => existsb (chain_eqb ch) divs = true | None => True end ->
  (forall ch, In ch (fst (flat chain d)) -> existsb (chain_eqb ch) divs = true) ->
  doc_dom divs (snd (flat chain d)) = true.
Proof.
  intros divs. unfold doc_dom.
  induction d as [w|pre pa e c cw next IHn|pre l1 lang l2 e kids IHk cw next IHn|pre name t kids IHk cw next IHn|pre name t next IHn];
    intros chain Hd Hc Hin; cbn [forest_ok flat fst snd] in *.
  - reflexivity.
  - apply andb_prop in Hd as [[[[_ Hp]%andb_prop _]%andb_prop _]%andb_prop Hn].
    cbn [forallb fst snd]. rewrite (to_ap_dom pa c Hp), (IHn chain Hn Hc Hin). destruct chain; [rewrite Hc|]; reflexivity.
  - apply andb_prop in Hd as [[[_ Hk]%andb_prop _]%andb_prop Hn]. rewrite forallb_app, IHk, IHn; try assumption; try reflexivity.
    + intros ch Hch. apply Hin. right. apply in_or_app. right. exact Hch.
    + apply Hin. left. reflexivity.
    + intros ch Hch. apply Hin. right. apply in_or_app. left. exact Hch.
  - apply andb_prop in Hd as [[[_ Hk]%andb_prop _]%andb_prop Hn].
    rewrite forallb_app, IHk, IHn; try assumption; try reflexivity; intros ch Hch; apply Hin, in_or_app; [right|left]; exact Hch.
  - apply andb_prop in Hd as [_ Hn]. apply IHn; assumption.
Qed.

Theorem xdoc_doc_dom : forall d, xdoc_ok d = true -> doc_dom (xdoc_divs d) (xdoc_ps d) = true.
Proof.
  intros d Hd. destruct (xdoc_ok_parts d Hd) as (_ & _ & _ & _ & Hb & _).
  apply flat_doc_dom; [exact Hb|exact I|]. intros ch Hch. apply existsb_exists. exists ch. split; [exact Hch|apply chain_eqb_refl].
Qed.

Lemma find_tt_doc : forall d, find_tt_list (tree_doc d) = Some (plain (lang_attrs (xd_l1 d) (xd_lang d) (xd_l2 d))).
Proof. intros d. unfold tree_doc. destruct (xd_pre d); reflexivity. Qed.

Lemma walk_doc : forall d, walk_list None (tree_doc d) = walk_list None (tree_of (xd_body d)).
Proof.
  intros d. unfold tree_doc. rewrite walk_text_then, walk_list_cons, (walk_generic None (lit "tt") _ _ true []) by reflexivity.
  rewrite walk_list_text. cbn [fst snd]. rewrite !app_nil_r. destruct (walk_list None (tree_of (xd_body d))); reflexivity.
Qed.

(* the same text read under the other admissible begin+dur reading differs at most in the ends of begin+dur paragraphs;
   the oracle accepts both (ok_times_alt): see C01_dfxp_div_meets_oracle *)
Theorem dfxp_string_exact : forall default d, xdoc_ok d = true ->
  dfxp_read_string default (render_doc d) = xdoc_expected default d.
Proof.
  intros default d Hd. unfold dfxp_read_string. rewrite (parse_doc_render d Hd), find_tt_doc, walk_doc.
  destruct (xdoc_ok_parts d Hd) as (_ & _ & Hl & _ & Hf & _).
  rewrite (attr_get_lang _ _ _ Hl).
  destruct (walk_forest (xd_body d) None Hf) as [W1 W2].
  rewrite W1, (dfxp_read_doc_ext default _ _ _ _ W2).
  unfold rendered, xdoc_expected, xdoc_tt_lang, xdoc_divs, xdoc_ps.
  apply dfxp_doc_exact. exact (xdoc_doc_dom d Hd).
Qed.
