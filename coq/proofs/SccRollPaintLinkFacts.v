(* C16 link: the flush events of the decoder model (model/SccDecoder.v, `read`) on a roll-up / paint-on program ARE the
   events of the event-level timing model (model/SccRollPaint.v, `rp_read`), so the chain-timing theorems of
   proofs/SccRollPaintFacts.v speak about `read`.

   Programs: a line (`rseg`) is a timecode, a head, a non-italics preamble address code and a non-empty run of character
   pairs (one row, at least one non-blank character, at most 32 characters: `seg_ok`, `seg_ok_intro`). The head is
     HRu n cr   RU2 / RU3 / RU4, optionally followed by a carriage return
     HCr        a bare carriage return
     HRdc       RDC (resume direct captioning)
   and every control code is sent once or twice (`ctl dd w`). The first line must be headed by a mode command; depths
   and modes may be mixed freely afterwards.

   The link itself (`rp_link_lines`, Section Lines) is proved for ANY kind of line given its timing skeleton (an `rseg`:
   timecode and head), its head words, its body words, the buffer they leave and the caption that buffer is stored as
   (`line_ok`); the lines of this file and the wider classes of proofs/SccRollPaintLink2Facts.v are instances.

   What is TRUE of the model (`rp_link`, `seg_event`): the flushing command of a line is always its FIRST word, so the
   instant of its event is `get_time tc 0 off`; the first mode command sets self.time the same way (t0). The event is
     HCr                        RRoll t   (_roll_up: store, re-read the time, correct_last_timing) - also in paint-on mode
     HRdc after a roll-up line  RRoll t   (_roll_up through _flush_implicit_buffers at the mode switch)
     HRdc after a paint-on line RPaint t  (flush_buffer: store only)
     HRu  after any line        RPaint t  (!) the RU command itself stores the non-empty buffer of the line before
                                          (flush_buffer, or _flush_implicit_buffers when the line before was paint-on)
                                          WITHOUT correct_last_timing; the carriage return after it finds an empty
                                          buffer and does nothing
   At the end of the file a roll-up buffer is rolled up at the instant after the last word (`RRoll tend`, tend =
   get_time tc_n (number of words of the last line)); a paint-on buffer is stored open (`pending = true`, 4 s default).
   So for RU-headed roll-up lines the events are [RPaint t_2; ...; RPaint t_n; RRoll t_end] (`rollup_link`), for
   RU + bare-CR lines they are [RRoll t_2; ...; RRoll t_n; RRoll t_end] (`rollup_cr_link`); both give the same chain
   t_1, t_2, ..., t_n, t_end (`rollup_read_chain`, `rollup_cr_read_chain`). *)
From Coq Require Import List ZArith QArith Lia Bool ZifyBool Lqa.
From PV Require Import lib.Sx lib.Str lib.StrFacts lib.Result model.GenScc model.SccLen model.SccTime model.SccStash model.SccPopon
  model.SccRollPaint model.SccDecoder spec.SpecSccLen spec.SpecSccTime
  proofs.SccLenFacts proofs.SccStashFacts proofs.SccPoponFacts proofs.SccTableFacts proofs.SccRollPaintFacts
  proofs.SccConserveFacts proofs.SccTimeFacts.
Import ListNotations.
Local Open Scope Z_scope.
Local Arguments stash_extend : simpl never.

(* ================================================================================================================== *)
(* 1. the caption list seen through its spans: every caption replaced by the dummy cue with the same (start, end)      *)
(* ================================================================================================================== *)
Definition acue (c : precap) : precap := cue (pc_start c) (pc_end c).
Definition sabs (s : stash) : stash := mkStash (map acue (st_caps s)) (st_batch s).

Lemma sabs_stash0 : sabs stash0 = stash0.
Proof. reflexivity. Qed.

Lemma sabs_correct_last_timing : forall s t, sabs (correct_last_timing s t) = correct_last_timing (sabs s) t.
Proof.
  intros s t. unfold sabs, correct_last_timing. cbn [st_caps st_batch]. f_equal.
  apply map_tail_map. reflexivity.
Qed.

Lemma sabs_extend1 : forall s c, has_nodes c = true ->
  sabs (stash_extend s [c]) = stash_extend (sabs s) [cue (pc_start c) (pc_end c)].
Proof.
  intros s c H. unfold stash_extend. cbn [filter]. rewrite H.
  change (has_nodes (cue (pc_start c) (pc_end c))) with true. cbv iota.
  unfold sabs. cbn [st_caps st_batch length]. f_equal. rewrite map_app. cbn [map]. f_equal.
  unfold update_last_batch. cbn [st_caps st_batch]. rewrite map_length, skipn_map, last_some_map.
  destruct (last (map Some (skipn (length (st_caps s) - st_batch s) (st_caps s))) None) as [b|]; cbn [option_map];
    [|reflexivity].
  change (pc_end (acue b)) with (pc_end b). change (pc_start (cue (pc_start c) (pc_end c))) with (pc_start c).
  destruct (_ || _); [|reflexivity].
  apply map_tail_map. reflexivity.
Qed.

(* the tail of read() only looks at the spans, once the line-length scan lets the captions through *)
Lemma fix_last_rev_acue : forall l, map acue (fix_last_rev l) = fix_last_rev (map acue l).
Proof.
  induction l as [|c l IH]; [reflexivity|]. cbn [fix_last_rev map].
  change (pc_end (acue c)) with (pc_end c). destruct (Qeq_bool (pc_end c) 0); [|reflexivity].
  cbn [map]. rewrite IH. reflexivity.
Qed.

Lemma fix_last_acue : forall l, map acue (fix_last l) = fix_last (map acue l).
Proof. intros l. unfold fix_last. rewrite map_rev, fix_last_rev_acue, map_rev. reflexivity. Qed.

Lemma spans_acue : forall l, map (fun c => (pc_start c, pc_end c)) (map acue l) = map (fun c => (pc_start c, pc_end c)) l.
Proof. intros l. rewrite map_map. reflexivity. Qed.

Lemma existsb_flash_acue : forall l, existsb is_flash (map acue l) = existsb is_flash l.
Proof. induction l as [|c l IH]; [reflexivity|]. cbn [map existsb]. rewrite IH. reflexivity. Qed.

Lemma length_check_acue : forall l, length_check (map to_lcap (map acue l)) = None.
Proof.
  intros l. apply length_check_none_iff. induction l as [|c l IH]; [reflexivity|].
  unfold offending in *. cbn [map concat]. rewrite IH. reflexivity.
Qed.

Definition short_lines (s : stash) : Prop := offending (map to_lcap (st_caps s)) = [].

Lemma finish_read_sabs : forall s, short_lines s -> spans_of (finish_read s) = spans_of (finish_read (sabs s)).
Proof.
  intros s H. unfold finish_read. cbn [sabs st_caps]. rewrite length_check_acue.
  apply length_check_none_iff in H. rewrite H. rewrite existsb_flash_acue.
  destruct (existsb is_flash (st_caps s)); [reflexivity|].
  destruct (st_caps s) as [|c l]; [reflexivity|]. cbn [map].
  change (acue c :: map acue l) with (map acue (c :: l)). cbn [spans_of].
  rewrite <- fix_last_acue, spans_acue. reflexivity.
Qed.

Lemma short_lines_correct : forall s t, short_lines s -> short_lines (correct_last_timing s t).
Proof.
  intros s t H. unfold short_lines, offending in *. rewrite map_map in *.
  rewrite (correct_last_timing_map _ (fun x => filter spec_long (spec_lines (snd (to_lcap x))))) by reflexivity.
  exact H.
Qed.

Lemma short_lines_extend1 : forall s c, has_nodes c = true -> short_lines s ->
  filter spec_long (spec_lines (cap_text c)) = [] -> short_lines (stash_extend s [c]).
Proof.
  intros s c Hc H Ht. unfold short_lines, offending in *. rewrite map_map in *.
  rewrite (stash_extend_map _ (fun x => filter spec_long (spec_lines (snd (to_lcap x))))) by reflexivity.
  rewrite concat_app, H. cbn [filter]. rewrite Hc. cbn [map concat to_lcap snd]. rewrite Ht. reflexivity.
Qed.

(* ================================================================================================================== *)
(* 2. the decoder on one row of characters                                                                             *)
(* ================================================================================================================== *)
Definition tb (txt : str) (p : pos) : creator := mkCr [mkI IText txt p] SNone.
Definition tcap (start e : Q) (txt : str) (p : pos) : precap := mkPre start e [CText (rstrip txt) p] (Some p).

Lemma format_tb : forall txt p, nonempty txt = true -> format_italics [mkI IText txt p] = [mkI IText (rstrip txt) p].
Proof.
  intros txt p H. unfold format_italics. cbn -[rstrip nonempty]. rewrite H. cbn -[rstrip nonempty]. reflexivity.
Qed.

Lemma nonempty_rstrip : forall txt, nonempty (rstrip txt) = true -> nonempty txt = true.
Proof. intros [|c t] H; [discriminate H|reflexivity]. Qed.

Lemma store_tb : forall st txt p start e, nonempty (rstrip txt) = true ->
  create_and_store st (tb txt p) start e = stash_extend st [tcap start e txt p].
Proof.
  intros st txt p start e H. pose proof (nonempty_rstrip txt H) as H0. unfold create_and_store.
  assert (E : cr_is_empty (tb txt p) = false).
  { unfold cr_is_empty, tb. cbn [cr_nodes existsb i_text]. rewrite H0. reflexivity. }
  rewrite E. unfold tb. cbn [cr_nodes]. rewrite format_tb by exact H0.
  cbn [build_captions i_kind i_text]. rewrite H. cbn [build_captions app pc_start pc_end pc_nodes i_pos]. reflexivity.
Qed.

Definition md (pm : bool) : mode := if pm then MPaint else MRoll.
Definition RS (pm : bool) (st : stash) (tk : tracker) (l : lastcmd) (d : bool) (b : creator) (time : Q) (tc : str)
  (fr : Z) (off : Q) : rstate :=
  mkR st tk l d creator0 (if pm then b else creator0) (if pm then creator0 else b) (md pm) None time tc fr off None.

Lemma last_contains_is : forall l w, last_contains l w = false -> last_is l w = false.
Proof. intros [|x|p t] w H; [reflexivity|exact H|reflexivity]. Qed.

Lemma hd_new : forall s w, last_is (r_last s) w = false -> (is_pac w && last_contains (r_last s) w) = false ->
  tab_of w = None -> exists d, handle_double s w = (false, set_dbl s (LWord w) d).
Proof.
  intros s w H P T. unfold handle_double. cbv zeta. rewrite H, P, T, andb_false_r. eexists. reflexivity.
Qed.

Lemma hd_fresh : forall s w, last_contains (r_last s) w = false -> tab_of w = None ->
  exists d, handle_double s w = (false, set_dbl s (LWord w) d).
Proof.
  intros s w H T. apply hd_new; [apply last_contains_is; exact H|rewrite H; apply andb_false_r|exact T].
Qed.

Lemma hd_char : forall s w, is_command w = false -> is_pac w = false -> special_of w = None -> extended_of w = None ->
  tab_of w = None -> exists d, handle_double s w = (false, set_dbl s (LWord w) d).
Proof.
  intros s w H1 H2 H3 H4 T. unfold handle_double. cbv zeta. rewrite H1, H2, H3, H4, T. cbn [orb andb].
  eexists. reflexivity.
Qed.

(* the codes whose second copy the decoder skips (extended characters, skipped too, are not needed here) *)
Definition twice_once (w : Z) : Prop := (is_command w || is_pac w) = true \/ special_of w <> None.

Lemma hd_second : forall s w, r_last s = LWord w -> twice_once w ->
  exists d, handle_double s w = (true, set_dbl s LNone d).
Proof.
  intros s w H C. unfold handle_double. cbv zeta. rewrite H. cbn [last_is]. rewrite Z.eqb_refl.
  destruct C as [C|C]; [rewrite C|destruct (special_of w); [rewrite orb_true_r|congruence]];
    cbn [orb andb]; eexists; reflexivity.
Qed.

Lemma tw_exec : forall s w next d, r_err s = None -> handle_double s w = (false, set_dbl s (LWord w) d) ->
  translate_word s w next =
  (let X := exec (set_dbl s (LWord w) d) w next in match r_err X with Some _ => X | None => bump X end).
Proof. intros s w next d E H. rewrite translate_word_unfold, E, H. reflexivity. Qed.

Lemma tw_second : forall s w next, r_err s = None -> r_last s = LWord w -> twice_once w ->
  exists d, translate_word s w next = bump (set_dbl s LNone d).
Proof.
  intros s w next E H C. destruct (hd_second s w H C) as [d Hd]. exists d.
  rewrite translate_word_unfold, E, Hd. reflexivity.
Qed.

Definition head_paint (pm : bool) (h : Z) : bool := if h =? w_rdc then true else if h =? w_cr then pm else false.
Definition head_stash (pm : bool) (h : Z) (st : stash) (t : Q) : stash :=
  if (h =? w_cr) || ((h =? w_rdc) && negb pm) then correct_last_timing st t else st.

Definition flush_heads : list Z := [w_ru2; w_ru3; w_ru4; w_rdc; w_cr].
Definition quiet_last (l : lastcmd) : Prop := forall h, In h flush_heads -> last_contains l h = false.
Definition text_first (b : creator) : Prop := exists k c0 txt p rest style, b = mkCr (mkI k (c0 :: txt) p :: rest) style.

Lemma with_time_ok : forall s k t, get_time (r_tc s) (r_frames s) (r_offset s) = Ok t -> with_time s k = k t.
Proof. intros s k t H. unfold with_time. rewrite H. reflexivity. Qed.

(* with_time stays folded while the command is evaluated: unfolded, every read of the clock doubles the state under a match
   on get_time, and rewriting with Ht in the doubled term is what is slow *)
Lemma tw_head : forall h pm st tk l d b time tc fr off t,
  In h flush_heads -> last_contains l h = false -> text_first b -> get_time tc fr off = Ok t ->
  exists d', forall next, translate_word (RS pm st tk l d b time tc fr off) h next =
    RS (head_paint pm h) (head_stash pm h (create_and_store st b time 0) t) tk (LWord h) d' creator0
       t tc (fr + 1) off.
Proof.
  intros h pm st tk l d b time tc fr off t Hh Hl (k & c0 & txt & p & rest & style & ->) Ht.
  set (s := RS pm st tk l d (mkCr (mkI k (c0 :: txt) p :: rest) style) time tc fr off).
  assert (T : tab_of h = None) by (cbn [In flush_heads] in Hh; destruct Hh as [<-|[<-|[<-|[<-|[<-|[]]]]]]; vm_compute; reflexivity).
  destruct (hd_fresh s h Hl T) as [d' Hd]. exists d'. intros next.
  rewrite (tw_exec s h next d' eq_refl Hd). subst s.
  cbn [In flush_heads] in Hh; destruct Hh as [<-|[<-|[<-|[<-|[<-|[]]]]]]; destruct pm;
    repeat (lazy -[get_time create_and_store correct_last_timing Z.add with_time]; erewrite with_time_ok by exact Ht);
    reflexivity.
Qed.

Lemma flush_RS : forall pm st tk l d b time tc fr off tend, text_first b ->
  (pm = false -> get_time tc fr off = Ok tend) ->
  let s := flush_implicit (RS pm st tk l d b time tc fr off) in
  r_err s = None /\
  r_stash s = if pm then create_and_store st b time 0
              else correct_last_timing (create_and_store st b time 0) tend.
Proof.
  intros pm st tk l d b time tc fr off tend (k & c0 & txt & p & rest & style & ->) Ht. destruct pm.
  - lazy -[get_time create_and_store correct_last_timing]. split; reflexivity.
  - specialize (Ht eq_refl). lazy -[get_time create_and_store correct_last_timing]. rewrite Ht. split; reflexivity.
Qed.

(* the first mode command of the file *)
Lemma tw_first : forall h off tc t, In h [w_ru2; w_ru3; w_ru4; w_rdc] -> get_time tc 0 off = Ok t ->
  exists d', forall next, translate_word (set_clock (rstate0 off) tc 0) h next =
    RS (h =? w_rdc) stash0 tracker0 (LWord h) d' creator0 t tc (0 + 1) off.
Proof.
  intros h off tc t Hh Ht. exists false. intros next.
  cbn [In] in Hh; destruct Hh as [<-|[<-|[<-|[<-|[]]]]];
    lazy -[get_time Z.add]; rewrite Ht; reflexivity.
Qed.

(* a carriage return on an empty buffer does nothing *)
Lemma tw_cr_empty : forall pm st tk l d time tc fr off, last_contains l w_cr = false ->
  exists d', forall next, translate_word (RS pm st tk l d creator0 time tc fr off) w_cr next =
    RS pm st tk (LWord w_cr) d' creator0 time tc (fr + 1) off.
Proof.
  intros pm st tk l d time tc fr off Hl.
  set (s := RS pm st tk l d creator0 time tc fr off).
  destruct (hd_fresh s w_cr Hl eq_refl) as [d' Hd]. exists d'. intros next.
  rewrite (tw_exec s w_cr next d' eq_refl Hd). subst s.
  destruct pm; lazy -[Z.add]; reflexivity.
Qed.

(* a preamble address code (not an italics one) on an empty buffer: the tracker is reset to that row *)
Definition plain_pac (w : Z) : bool := is_pac w && negb (memz w scc_italics_commands).
Definition tkp (p : pos) : tracker := mkTk [p] None false p.

Lemma plain_pac_spec : forall w, plain_pac w = true -> is_pac w = true /\ memz w scc_italics_commands = false.
Proof. intros w H. apply andb_true_iff in H. destruct H as [H1 H2]. apply negb_true_iff in H2. auto. Qed.

Lemma interpret_positioning : forall tk b w next, w <> w_bs ->
  memz w scc_background_color_codes = false -> memz w scc_mid_row_codes = false ->
  memz w scc_style_setting_commands = false \/ (memz w scc_italics_commands = false /\ cr_style b = SNone) ->
  interpret_command tk b w next = (update_positioning tk b w, b, None).
Proof.
  intros tk b w next Hbs Hb Hm Hs. apply Z.eqb_neq in Hbs. unfold interpret_command. rewrite Hbs, Hb, Hm.
  cbv beta iota zeta.
  destruct Hs as [Hs|[Hi Hst]]; [rewrite Hs|rewrite Hi, Hst; destruct (memz w scc_style_setting_commands)];
    cbv beta iota; destruct (prev_text (cr_nodes b)) as [[x y]|]; reflexivity.
Qed.

Lemma pac_positioning : forall tk b w next, plain_pac w = true -> cr_style b = SNone ->
  tab_of w = None /\ interpret_command tk b w next = (update_positioning tk b w, b, None).
Proof.
  intros tk b w next Hw Hst. destruct (plain_pac_spec w Hw) as [Hpac Hit].
  destruct classes_disjoint as (_ & _ & Dpac & _). destruct (Dpac w Hpac) as (Ht & Hm & Hb & Hn).
  split; [exact Ht|]. apply interpret_positioning; [intros ->; apply Hn; cbn [In]; tauto|exact Hb|exact Hm|auto].
Qed.

Lemma interpret_pac_empty : forall tk w p next, plain_pac w = true -> pac_pos w = Some p ->
  interpret_command tk creator0 w next = (tkp p, creator0, None).
Proof.
  intros tk w p next Hw Hp. destruct (pac_positioning tk creator0 w next Hw eq_refl) as [Ht ->].
  unfold update_positioning. rewrite Ht, Hp. reflexivity.
Qed.

(* a command that only reaches interpret_command, on a buffer b it leaves alone: only the tracker moves *)
Lemma tw_interp : forall w tk tk' b pm st l l' d d' time tc fr off next,
  handle_double (RS pm st tk l d b time tc fr off) w = (false, set_dbl (RS pm st tk l d b time tc fr off) l' d') ->
  (is_command w || is_pac w) = true -> ~ In w [w_rcl; w_ru2; w_ru3; w_ru4; w_rdc; w_edm; w_cr; w_enm; w_eoc] ->
  interpret_command tk b w next = (tk', b, None) ->
  translate_word (RS pm st tk l d b time tc fr off) w next = RS pm st tk' l' d' b time tc (fr + 1) off.
Proof.
  intros w tk tk' b pm st l l' d d' time tc fr off next Hd C Hn Hi.
  rewrite translate_word_unfold. change (r_err (RS pm st tk l d b time tc fr off)) with (@None err). cbv iota.
  rewrite Hd. cbv iota.
  destruct (exec_cmd (set_dbl (RS pm st tk l d b time tc fr off) l' d') w next C) as [E _]. rewrite E, tc_other by exact Hn.
  unfold do_interpret.
  assert (B : buf (set_dbl (RS pm st tk l d b time tc fr off) l' d') = b) by (destruct pm; reflexivity).
  rewrite B. cbn [r_tk set_dbl RS]. rewrite Hi. destruct pm; reflexivity.
Qed.

Lemma tw_pac_at : forall w tk tk' b pm st l d time tc fr off, is_pac w = true -> last_contains l w = false ->
  (forall next, interpret_command tk b w next = (tk', b, None)) ->
  exists d', forall next, translate_word (RS pm st tk l d b time tc fr off) w next =
    RS pm st tk' (LWord w) d' b time tc (fr + 1) off.
Proof.
  intros w tk tk' b pm st l d time tc fr off Hpac Hl Hi.
  destruct classes_disjoint as (_ & _ & Dpac & _). destruct (Dpac w Hpac) as (Ht & _ & _ & Hn).
  destruct (hd_fresh (RS pm st tk l d b time tc fr off) w Hl Ht) as [d' Hd]. exists d'. intros next.
  apply tw_interp; [exact Hd|rewrite Hpac; apply orb_true_r| |apply Hi].
  intros [<-|Hin]; apply Hn; [left; reflexivity|right; right; exact Hin].
Qed.

Lemma tw_pac : forall w p pm st tk l d time tc fr off, plain_pac w = true -> pac_pos w = Some p ->
  last_contains l w = false ->
  exists d', forall next, translate_word (RS pm st tk l d creator0 time tc fr off) w next =
    RS pm st (tkp p) (LWord w) d' creator0 time tc (fr + 1) off.
Proof.
  intros w p pm st tk l d time tc fr off Hw Hp Hl. apply tw_pac_at; [apply (plain_pac_spec w Hw)|exact Hl|].
  intros next. apply interpret_pac_empty; assumption.
Qed.

Definition is_none {A} (o : option A) : bool := match o with Some _ => false | None => true end.
Definition char_word (w : Z) : bool :=
  negb (is_command w) && negb (is_pac w) && is_none (special_of w) && is_none (extended_of w) && is_none (tab_of w)
  && negb (is_none (char_of (hi w))) && negb (is_none (char_of (lo w))).

Definition ob (o : option str) (p : pos) : creator := match o with None => creator0 | Some t => tb t p end.
Definition otext (o : option str) : str := match o with None => [] | Some t => t end.

Lemma add_chars_ob : forall o p s, add_chars (tkp p) (ob o p) s = (tkp p, tb (otext o ++ s) p).
Proof. intros [t|] p s; reflexivity. Qed.

Lemma char_word_spec : forall w, char_word w = true ->
  is_command w = false /\ is_pac w = false /\ special_of w = None /\ extended_of w = None /\ tab_of w = None /\
  exists a b, char_of (hi w) = Some a /\ char_of (lo w) = Some b /\ word_chars w = a ++ b.
Proof.
  intros w H. unfold char_word in H. rewrite !andb_true_iff in H. destruct H as [[[[[[H1 H2] H3] H4] H5] H6] H7].
  apply negb_true_iff in H1, H2. unfold word_chars. rewrite H1, H2. cbn [orb].
  destruct (special_of w); [discriminate|]. destruct (extended_of w); [discriminate|].
  destruct (tab_of w); [discriminate|]. destruct (char_of (hi w)) as [a|]; [|discriminate].
  destruct (char_of (lo w)) as [b|]; [|discriminate]. repeat split; try reflexivity. exists a, b. repeat split.
Qed.

(* a row being written: tracker `T o` and buffer `B o` after the text `o` (None: nothing written on this row yet) *)
Definition row_ok (T : option str -> tracker) (B : option str -> creator) : Prop :=
  forall o s, add_chars (T o) (B o) s = (T (Some (otext o ++ s)), B (Some (otext o ++ s))).

Section Row.
Variable T : option str -> tracker.
Variable B : option str -> creator.
Hypothesis add_ok : row_ok T B.

Lemma tw_add : forall w pm st l d d' o time tc fr off next,
  let s := RS pm st (T o) l d (B o) time tc fr off in
  handle_double s w = (false, set_dbl s (LWord w) d') ->
  exec (set_dbl s (LWord w) d') w next = add_to_buf (set_dbl s (LWord w) d') (word_chars w) ->
  translate_word s w next =
  RS pm st (T (Some (otext o ++ word_chars w))) (LWord w) d' (B (Some (otext o ++ word_chars w))) time tc (fr + 1) off.
Proof.
  intros w pm st l d d' o time tc fr off next s Hd He. rewrite (tw_exec s w next d' eq_refl Hd). cbv zeta.
  rewrite He. subst s. unfold add_to_buf.
  assert (B0 : buf (set_dbl (RS pm st (T o) l d (B o) time tc fr off) (LWord w) d') = B o) by (destruct pm; reflexivity).
  rewrite B0. cbn [r_tk set_dbl RS]. rewrite (add_ok o (word_chars w)). destruct pm; reflexivity.
Qed.

Lemma tw_charS : forall w pm st l d o time tc fr off, char_word w = true ->
  exists d', forall next, translate_word (RS pm st (T o) l d (B o) time tc fr off) w next =
    RS pm st (T (Some (otext o ++ word_chars w))) (LWord w) d' (B (Some (otext o ++ word_chars w))) time tc (fr + 1) off.
Proof.
  intros w pm st l d o time tc fr off Hw.
  destruct (char_word_spec w Hw) as (H1 & H2 & H3 & H4 & H5 & a & b & Ha & Hb & Hc).
  destruct (hd_char (RS pm st (T o) l d (B o) time tc fr off) w H1 H2 H3 H4 H5) as [d' Hd]. exists d'. intros next.
  apply tw_add; [exact Hd|]. unfold exec. rewrite H1, H2, H3, H4, Ha, Hb, Hc. reflexivity.
Qed.
End Row.

Definition ctl (dd : bool) (w : Z) : list Z := if dd then [w; w] else [w].
Definition cl_last (dd : bool) (w : Z) : lastcmd := if dd then LNone else LWord w.

Lemma RS_frames : forall pm st tk l d b time tc fr fr' off, fr = fr' ->
  RS pm st tk l d b time tc fr off = RS pm st tk l d b time tc fr' off.
Proof. intros. subst. reflexivity. Qed.

Lemma tws_ctl : forall dd w rest s pm st tk b time tc fr off, twice_once w ->
  (exists d1, forall next, translate_word s w next = RS pm st tk (LWord w) d1 b time tc fr off) ->
  exists d2, translate_words s (ctl dd w ++ rest) =
    translate_words (RS pm st tk (cl_last dd w) d2 b time tc (fr + Z.of_nat (length (ctl dd w)) - 1) off) rest.
Proof.
  intros dd w rest s pm st tk b time tc fr off C [d1 H]. destruct dd; cbn [ctl app translate_words cl_last length].
  - rewrite H.
    destruct (tw_second (RS pm st tk (LWord w) d1 b time tc fr off) w
                (match rest with n :: _ => Some n | [] => None end) eq_refl eq_refl C) as [d2 E].
    rewrite E. exists d2. f_equal. change (bump (set_dbl (RS pm st tk (LWord w) d1 b time tc fr off) LNone d2))
      with (RS pm st tk LNone d2 b time tc (fr + 1) off). apply RS_frames. lia.
  - rewrite H. exists d1. f_equal. apply RS_frames. lia.
Qed.

Definition words_text (ws : list Z) : str := concat (map word_chars ws).

Lemma tws_chars : forall ws w p pm st l d o time tc fr off, forallb char_word (w :: ws) = true ->
  exists lw d', is_command lw = false /\
    translate_words (RS pm st (tkp p) l d (ob o p) time tc fr off) (w :: ws) =
    RS pm st (tkp p) (LWord lw) d' (tb (otext o ++ words_text (w :: ws)) p) time tc (fr + Z.of_nat (length (w :: ws))) off.
Proof.
  induction ws as [|w2 ws IH]; intros w p pm st l d o time tc fr off H;
    cbn [forallb] in H; apply andb_true_iff in H; destruct H as [Hw H];
    destruct (tw_charS _ _ (fun o s => add_chars_ob o p s) w pm st l d o time tc fr off Hw) as [d1 E];
    change (translate_words ?s (w :: ?r))
      with (translate_words (translate_word s w (match r with n :: _ => Some n | [] => None end)) r);
    rewrite E.
  - exists w, d1. split; [apply (char_word_spec w Hw)|].
    unfold words_text. cbn [translate_words map concat ob length]. rewrite app_nil_r. apply RS_frames. lia.
  - destruct (IH w2 p pm st (LWord w) d1 (Some (otext o ++ word_chars w)) time tc (fr + 1) off H) as (lw & d' & Hlw & E2).
    exists lw, d'. split; [exact Hlw|]. rewrite E2. cbn [otext]. unfold words_text. cbn [map concat].
    rewrite <- app_assoc. replace (fr + 1 + Z.of_nat (length (w2 :: ws))) with (fr + Z.of_nat (length (w :: w2 :: ws)))
      by (cbn [length]; lia). reflexivity.
Qed.

Inductive depth : Type := D2 | D3 | D4.
Definition ru_word (n : depth) : Z := match n with D2 => w_ru2 | D3 => w_ru3 | D4 => w_ru4 end.

(* the head of a line: RU2/RU3/RU4 optionally followed by a carriage return; a bare carriage return; RDC *)
Inductive rhead : Type := HRu (n : depth) (cr : bool) | HCr | HRdc.
Record rseg : Type := mkSeg { sg_tc : str; sg_head : rhead; sg_pac : Z; sg_chars : list Z }.

Definition head_word (h : rhead) : Z := match h with HRu n _ => ru_word n | HCr => w_cr | HRdc => w_rdc end.
Definition head_words (dd : bool) (h : rhead) : list Z :=
  match h with
  | HRu n cr => ctl dd (ru_word n) ++ (if cr then ctl dd w_cr else [])
  | HCr => ctl dd w_cr
  | HRdc => ctl dd w_rdc
  end.
Definition rseg_words (dd : bool) (g : rseg) : list Z := head_words dd (sg_head g) ++ ctl dd (sg_pac g) ++ sg_chars g.
Definition rseg_line (dd : bool) (g : rseg) : sline := (sg_tc g, rseg_words dd g).

Definition seg_text (g : rseg) : str := words_text (sg_chars g).
Definition seg_pos (g : rseg) : pos := match pac_pos (sg_pac g) with Some p => p | None => (0, 0) end.
Definition nil_b' (l : list str) : bool := match l with [] => true | _ => false end.
(* well-formed line: a non-italics preamble address code; character pairs only; the row has a non-blank character and,
   once its trailing blanks are stripped, no line above 32 characters *)
Definition seg_ok (g : rseg) : bool :=
  plain_pac (sg_pac g) && forallb char_word (sg_chars g) && nonempty (rstrip (seg_text g))
  && nil_b' (filter spec_long (spec_lines (rstrip (seg_text g)))).

Definition ctl_last (l : lastcmd) : Prop :=
  l = LNone \/ exists x, l = LWord x /\ In x [w_rcl; w_bs; w_ru2; w_ru3; w_ru4; w_rdc; w_edm; w_cr; w_enm; w_eoc].

Lemma ctl_last_cl : forall dd x, In x [w_rcl; w_bs; w_ru2; w_ru3; w_ru4; w_rdc; w_edm; w_cr; w_enm; w_eoc] ->
  ctl_last (cl_last dd x).
Proof. intros [|] x H; [left; reflexivity|right; exists x; split; [reflexivity|exact H]]. Qed.

Lemma ctl_last_pac : forall l w, ctl_last l -> is_pac w = true -> last_contains l w = false.
Proof.
  intros l w [->|(x & -> & Hx)] Hw; [reflexivity|]. cbn [last_contains].
  destruct classes_disjoint as (_ & _ & Dpac & _). destruct (Dpac w Hw) as (_ & _ & _ & Hn).
  apply Z.eqb_neq. intros ->. exact (Hn Hx).
Qed.

Lemma seg_ok_spec : forall g, seg_ok g = true ->
  plain_pac (sg_pac g) = true /\ pac_pos (sg_pac g) = Some (seg_pos g) /\ is_pac (sg_pac g) = true /\
  (exists w ws, sg_chars g = w :: ws /\ forallb char_word (w :: ws) = true) /\
  nonempty (rstrip (seg_text g)) = true /\ filter spec_long (spec_lines (rstrip (seg_text g))) = [].
Proof.
  intros g H. unfold seg_ok in H. rewrite !andb_true_iff in H. destruct H as [[[H1 H2] H3] H4].
  pose proof (proj1 (plain_pac_spec _ H1)) as Hp.
  split; [exact H1|]. split.
  - unfold seg_pos. unfold is_pac in Hp. destruct (pac_pos (sg_pac g)); [reflexivity|discriminate].
  - split; [exact Hp|]. split; [|split; [exact H3|]].
    + unfold seg_text in H3. destruct (sg_chars g) as [|w ws]; [discriminate H3|]. exists w, ws. split; [reflexivity|exact H2].
    + destruct (filter _ _); [reflexivity|discriminate].
Qed.

Lemma tws_body : forall dd g pm st tk l d time tc fr off, seg_ok g = true -> ctl_last l ->
  exists lw d', is_command lw = false /\
    translate_words (RS pm st tk l d creator0 time tc fr off) (ctl dd (sg_pac g) ++ sg_chars g) =
    RS pm st (tkp (seg_pos g)) (LWord lw) d' (tb (seg_text g) (seg_pos g)) time tc
       (fr + Z.of_nat (length (ctl dd (sg_pac g) ++ sg_chars g))) off.
Proof.
  intros dd g pm st tk l d time tc fr off Hg Hl.
  destruct (seg_ok_spec g Hg) as (Hpp & Hpos & Hpac & (w & ws & Ews & Hws) & _ & _).
  destruct (tws_ctl dd (sg_pac g) (sg_chars g) _ pm st (tkp (seg_pos g)) creator0 time tc (fr + 1) off
              ltac:(left; rewrite Hpac; apply orb_true_r)
              (tw_pac (sg_pac g) (seg_pos g) pm st tk l d time tc fr off Hpp Hpos (ctl_last_pac l _ Hl Hpac)))
    as [d2 E].
  rewrite E. unfold seg_text. rewrite Ews.
  destruct (tws_chars ws w (seg_pos g) pm st (cl_last dd (sg_pac g)) d2 None time tc
              (fr + 1 + Z.of_nat (length (ctl dd (sg_pac g))) - 1) off Hws) as (lw & d' & Hlw & E2).
  exists lw, d'. split; [exact Hlw|]. change creator0 with (ob None (seg_pos g)). rewrite E2. cbn [otext app].
  apply RS_frames. rewrite app_length. lia.
Qed.

Lemma head_word_cmd : forall h, is_command (head_word h) = true.
Proof. intros [[| |] cr| |]; vm_compute; reflexivity. Qed.

Lemma head_word_in : forall h, In (head_word h) [w_ru2; w_ru3; w_ru4; w_rdc; w_cr].
Proof. intros [[| |] cr| |]; cbn [head_word ru_word In]; tauto. Qed.

Lemma head_word_ctrl : forall h, In (head_word h) [w_rcl; w_bs; w_ru2; w_ru3; w_ru4; w_rdc; w_edm; w_cr; w_enm; w_eoc].
Proof. intros [[| |] cr| |]; cbn [head_word ru_word In]; tauto. Qed.

(* what the rest of the argument asks of the words of a line.  Its head words `ws`: once the head command h has run, they
   only skip copies or meet a carriage return on the empty buffer.  Its body words: on the empty buffer they never read the
   clock nor touch the stash, and leave the buffer b.  The buffer: its first node has text (so the next head stores it) and it
   is stored as ONE caption carrying (time, 0) that passes the line-length scan *)
Definition head_runs1 (h : rhead) (ws : list Z) : Prop :=
  forall rest s pm st tk t tc fr off,
    (exists d1, forall next, translate_word s (head_word h) next =
                             RS pm st tk (LWord (head_word h)) d1 creator0 t tc (fr + 1) off) ->
    exists l2 d2, ctl_last l2 /\
      translate_words s (ws ++ rest) =
      translate_words (RS pm st tk l2 d2 creator0 t tc (fr + Z.of_nat (length ws)) off) rest.
Definition body_runs1 (ws : list Z) (b : creator) : Prop :=
  forall pm st tk l d time tc fr off, ctl_last l ->
    exists tk' l' d', quiet_last l' /\
      translate_words (RS pm st tk l d creator0 time tc fr off) ws =
      RS pm st tk' l' d' b time tc (fr + Z.of_nat (length ws)) off.
Definition buf_ok1 (b : creator) (cap : Q -> precap) : Prop :=
  text_first b /\
  forall st time, create_and_store st b time 0 = stash_extend st [cap time] /\
    has_nodes (cap time) = true /\ pc_start (cap time) = time /\ pc_end (cap time) = 0%Q /\
    filter spec_long (spec_lines (cap_text (cap time))) = [].

Definition head_words2 (a b : bool) (h : rhead) : list Z :=
  match h with
  | HRu n cr => ctl a (ru_word n) ++ (if cr then ctl b w_cr else [])
  | HCr => ctl a w_cr
  | HRdc => ctl a w_rdc
  end.

Lemma tws_head2 : forall a b h, head_runs1 h (head_words2 a b h).
Proof.
  intros a b h rest s pm st tk t tc fr off H.
  assert (C : (is_command (head_word h) || is_pac (head_word h)) = true) by (rewrite head_word_cmd; reflexivity).
  assert (L : ctl_last (cl_last a (head_word h))) by apply ctl_last_cl, head_word_ctrl.
  set (tl := match h with HRu _ true => ctl b w_cr | _ => [] end).
  assert (E0 : head_words2 a b h = ctl a (head_word h) ++ tl)
    by (destruct h as [n [|]| |]; cbn [head_words2 head_word]; rewrite ?app_nil_r; reflexivity).
  rewrite E0, <- app_assoc.
  destruct (tws_ctl a (head_word h) (tl ++ rest) s pm st tk creator0 t tc (fr + 1) off (or_introl C) H) as [d2 E]. rewrite E.
  destruct h as [n [|]| |]; subst tl; cbn [app head_word] in *.
  2-4: eexists; exists d2; split; [exact L|]; f_equal; apply RS_frames; rewrite app_nil_r; lia.
  (* RU then CR: the carriage return finds the empty buffer *)
  assert (Lc : last_contains (cl_last a (ru_word n)) w_cr = false) by (destruct a, n; reflexivity).
  destruct (tws_ctl b w_cr rest _ pm st tk creator0 t tc
              (fr + 1 + Z.of_nat (length (ctl a (ru_word n))) - 1 + 1) off (or_introl eq_refl)
              (tw_cr_empty pm st tk (cl_last a (ru_word n)) d2 t tc _ off Lc)) as [d3 E3].
  rewrite E3. exists (cl_last b w_cr), d3. split; [apply ctl_last_cl; cbn [In]; tauto|].
  f_equal. apply RS_frames. rewrite app_length. lia.
Qed.

Definition seg_paint (pm : bool) (g : rseg) : bool := head_paint pm (head_word (sg_head g)).
Definition seg_rolls (pm : bool) (g : rseg) : bool :=
  (head_word (sg_head g) =? w_cr) || ((head_word (sg_head g) =? w_rdc) && negb pm).
(* the event of a line that is not the first one: what its head command does to the non-empty buffer of the line before *)
Definition seg_event (pm : bool) (g : rseg) (t : Q) : rpev := if seg_rolls pm g then RRoll t else RPaint t.

Lemma cmd_neq : forall lw h, is_command lw = false -> is_command h = true -> (lw =? h) = false.
Proof. intros lw h H1 H2. apply Z.eqb_neq. intros ->. congruence. Qed.

Lemma quiet_word : forall lw, is_command lw = false -> quiet_last (LWord lw).
Proof.
  intros lw H h Hh. cbn [last_contains]. apply cmd_neq; [exact H|].
  cbn [In flush_heads] in Hh. destruct Hh as [<-|[<-|[<-|[<-|[<-|[]]]]]]; vm_compute; reflexivity.
Qed.

Lemma short_lines_head : forall pm h st t, short_lines st -> short_lines (head_stash pm h st t).
Proof. intros pm h st t H. unfold head_stash. destruct (_ || _); [apply short_lines_correct|]; exact H. Qed.

Fixpoint rp_events (off : Q) (pm : bool) (gs : list rseg) : result (list rpev) :=
  match gs with
  | [] => Ok []
  | g :: r =>
      match get_time (sg_tc g) 0 off with
      | Ok t => match rp_events off (seg_paint pm g) r with Ok l => Ok (seg_event pm g t :: l) | Err e => Err e end
      | Err e => Err e
      end
  end.
Fixpoint final_paint (pm : bool) (gs : list rseg) : bool :=
  match gs with [] => pm | g :: r => final_paint (seg_paint pm g) r end.

Definition link_events (g0 : rseg) (gs : list rseg) (evs : list rpev) (tend : Q) : list rpev :=
  evs ++ (if final_paint (seg_paint false g0) gs then [] else [RRoll tend]).

Lemma Forall_last : forall (A : Type) (P : A -> Prop) l d, P d -> Forall P l -> P (last l d).
Proof.
  intros A P l. induction l as [|x l IH]; intros d Hd H; [exact Hd|].
  inversion H; subst. rewrite last_cons. apply IH; assumption.
Qed.

(* ---- the link, for any kind of line L: its timing skeleton `sk` (timecode and head: all that rp_events, seg_paint,
   seg_event look at), its head words, its body words, the buffer they leave and the caption that buffer becomes ---------- *)
Section Lines.
Variable L : Type.
Variable sk : L -> rseg.
Variables hw body : L -> list Z.
Variable bufL : L -> creator.
Variable capL : L -> Q -> precap.

Definition lwords (g : L) : list Z := hw g ++ body g.
Definition lline (g : L) : sline := (sg_tc (sk g), lwords g).
Definition line_ok (g : L) : Prop :=
  head_runs1 (sg_head (sk g)) (hw g) /\ body_runs1 (body g) (bufL g) /\ buf_ok1 (bufL g) (capL g).

Lemma tws_line : forall g s pm st tk t off, line_ok g ->
  (exists d1, forall next, translate_word s (head_word (sg_head (sk g))) next =
                           RS pm st tk (LWord (head_word (sg_head (sk g)))) d1 creator0 t (sg_tc (sk g)) (0 + 1) off) ->
  exists tk' l' d', quiet_last l' /\
    translate_words s (lwords g) =
    RS pm st tk' l' d' (bufL g) t (sg_tc (sk g)) (Z.of_nat (length (lwords g))) off.
Proof.
  intros g s pm st tk t off (Hh & Hg & _) H. unfold lwords.
  destruct (Hh (body g) s pm st tk t (sg_tc (sk g)) 0 off H) as (l2 & d2 & Hl2 & E). rewrite E.
  destruct (Hg pm st tk l2 d2 t (sg_tc (sk g)) (0 + Z.of_nat (length (hw g))) off Hl2)
    as (tk' & l' & d' & Hq & E2). exists tk', l', d'. split; [exact Hq|]. rewrite E2. apply RS_frames.
  rewrite app_length. lia.
Qed.

Lemma line_later : forall g pm st tk l d b time tc0 fr0 off t,
  line_ok g -> quiet_last l -> text_first b -> get_time (sg_tc (sk g)) 0 off = Ok t ->
  exists tk' l' d', quiet_last l' /\
    translate_line (RS pm st tk l d b time tc0 fr0 off) (lline g) =
    RS (seg_paint pm (sk g)) (head_stash pm (head_word (sg_head (sk g))) (create_and_store st b time 0) t)
       tk' l' d' (bufL g) t (sg_tc (sk g)) (Z.of_nat (length (lwords g))) off.
Proof.
  intros g pm st tk l d b time tc0 fr0 off t Hg Hl Hn Ht.
  change (translate_line (RS pm st tk l d b time tc0 fr0 off) (lline g))
    with (translate_words (RS pm st tk l d b time (sg_tc (sk g)) 0 off) (lwords g)).
  eapply tws_line; [exact Hg|].
  apply tw_head; [apply head_word_in|apply Hl; apply head_word_in|exact Hn|exact Ht].
Qed.

Lemma line_first : forall g off t, line_ok g -> sg_head (sk g) <> HCr -> get_time (sg_tc (sk g)) 0 off = Ok t ->
  exists tk' l' d', quiet_last l' /\
    translate_line (rstate0 off) (lline g) =
    RS (seg_paint false (sk g)) stash0 tk' l' d' (bufL g) t (sg_tc (sk g)) (Z.of_nat (length (lwords g))) off.
Proof.
  intros g off t Hg Hh Ht.
  change (translate_line (rstate0 off) (lline g))
    with (translate_words (set_clock (rstate0 off) (sg_tc (sk g)) 0) (lwords g)).
  assert (P : seg_paint false (sk g) = (head_word (sg_head (sk g)) =? w_rdc)).
  { unfold seg_paint. destruct (sg_head (sk g)) as [[| |] cr| |]; reflexivity. }
  rewrite P. eapply tws_line; [exact Hg|]. apply tw_first; [|exact Ht].
  destruct (sg_head (sk g)) as [[| |] cr| |]; cbn [head_word ru_word In]; try tauto; congruence.
Qed.

(* the same step on the event-level model *)
Lemma rpstep_line : forall pm g t st cur time, buf_ok1 (bufL cur) (capL cur) ->
  rpstep (sabs st, time) (seg_event pm (sk g) t) =
  (sabs (head_stash pm (head_word (sg_head (sk g))) (create_and_store st (bufL cur) time 0) t), t).
Proof.
  intros pm g t st cur time [_ H]. destruct (H st time) as (E & Hn & Hs & He & _). rewrite E.
  unfold seg_event, head_stash, seg_rolls.
  destruct (_ || _); cbn [rpstep].
  - rewrite sabs_correct_last_timing, sabs_extend1 by exact Hn. rewrite Hs, He. reflexivity.
  - rewrite sabs_extend1 by exact Hn. rewrite Hs, He. reflexivity.
Qed.

Lemma short_lines_store : forall st cur time, short_lines st -> buf_ok1 (bufL cur) (capL cur) ->
  short_lines (create_and_store st (bufL cur) time 0).
Proof.
  intros st cur time Hst [_ H]. destruct (H st time) as (E & Hn & _ & _ & Hs). rewrite E.
  apply short_lines_extend1; assumption.
Qed.

Lemma run_later : forall off gs cur pm st tk l d time evs,
  Forall line_ok gs -> line_ok cur -> quiet_last l -> short_lines st ->
  rp_events off pm (map sk gs) = Ok evs ->
  exists st' tk' l' d' time',
    fold_left translate_line (map lline gs)
      (RS pm st tk l d (bufL cur) time (sg_tc (sk cur)) (Z.of_nat (length (lwords cur))) off)
    = RS (final_paint pm (map sk gs)) st' tk' l' d' (bufL (last gs cur)) time'
         (sg_tc (sk (last gs cur))) (Z.of_nat (length (lwords (last gs cur)))) off
    /\ fold_left rpstep evs (sabs st, time) = (sabs st', time') /\ short_lines st'.
Proof.
  intros off gs. induction gs as [|g gs IH]; intros cur pm st tk l d time evs Hgs Hcur Hl Hst Hev.
  - cbn [rp_events map] in Hev. inversion Hev; subst evs. exists st, tk, l, d, time. repeat split. exact Hst.
  - inversion Hgs as [|? ? Hg Hgs']; subst. cbn [map rp_events] in Hev.
    destruct (get_time (sg_tc (sk g)) 0 off) as [t|] eqn:Ht; [|discriminate].
    destruct (rp_events off (seg_paint pm (sk g)) (map sk gs)) as [evs'|] eqn:Hev'; [|discriminate].
    inversion Hev; subst evs. clear Hev. pose proof Hcur as (_ & _ & Hco).
    cbn [map fold_left].
    destruct (line_later g pm st tk l d (bufL cur) time (sg_tc (sk cur)) (Z.of_nat (length (lwords cur))) off t
                Hg Hl (proj1 Hco) Ht) as (tk1 & l1 & d1 & Hl1 & E).
    rewrite E.
    set (st1 := head_stash pm (head_word (sg_head (sk g))) (create_and_store st (bufL cur) time 0) t).
    assert (Hst1 : short_lines st1) by (apply short_lines_head, short_lines_store; assumption).
    destruct (IH g (seg_paint pm (sk g)) st1 tk1 l1 d1 t evs' Hgs' Hg Hl1 Hst1 Hev')
      as (st' & tk' & l' & d' & time' & E2 & F & Hs').
    exists st', tk', l', d', time'. split; [|split; [|exact Hs']].
    + rewrite E2. cbn [final_paint]. rewrite last_cons. reflexivity.
    + cbn [fold_left]. rewrite (rpstep_line pm g t st cur time Hco). exact F.
Qed.

Theorem rp_link_lines : forall off g0 gs t0 evs tend,
  sg_head (sk g0) <> HCr -> Forall line_ok (g0 :: gs) ->
  get_time (sg_tc (sk g0)) 0 off = Ok t0 ->
  rp_events off (seg_paint false (sk g0)) (map sk gs) = Ok evs ->
  (final_paint (seg_paint false (sk g0)) (map sk gs) = false ->
   get_time (sg_tc (sk (last gs g0))) (Z.of_nat (length (lwords (last gs g0)))) off = Ok tend) ->
  spans_of (read off (map lline (g0 :: gs))) =
  rp_read t0 (link_events (sk g0) (map sk gs) evs tend) (final_paint (seg_paint false (sk g0)) (map sk gs)).
Proof.
  intros off g0 gs t0 evs tend Hh Hok Ht0 Hev Hend. unfold link_events.
  inversion Hok as [|? ? Hg0 Hgs]; subst.
  unfold read, run_lines. cbv zeta. cbn [map fold_left].
  destruct (line_first g0 off t0 Hg0 Hh Ht0) as (tk0 & l0 & d0 & Hl0 & E0). rewrite E0.
  destruct (run_later off gs g0 (seg_paint false (sk g0)) stash0 tk0 l0 d0 t0 evs Hgs Hg0 Hl0 eq_refl Hev)
    as (st' & tk' & l' & d' & time' & E & F & Hs').
  rewrite E. set (pmN := final_paint (seg_paint false (sk g0)) (map sk gs)) in *. set (gl := last gs g0) in *.
  assert (Hgl : line_ok gl) by (apply Forall_last; assumption).
  destruct Hgl as (_ & _ & Hgo). pose proof Hgo as [Hne Hcap]. destruct (Hcap st' time') as (Est & Hn & Hs & He & _).
  change (r_err (RS pmN st' tk' l' d' (bufL gl) time' (sg_tc (sk gl)) (Z.of_nat (length (lwords gl))) off))
    with (@None err). cbv iota.
  destruct (flush_RS pmN st' tk' l' d' (bufL gl) time' (sg_tc (sk gl))
              (Z.of_nat (length (lwords gl))) off tend Hne Hend) as [Ee Es].
  rewrite Ee, Es.
  assert (Hst : short_lines (create_and_store st' (bufL gl) time' 0)) by (apply short_lines_store; assumption).
  unfold rp_read, rprun. rewrite fold_left_app, sabs_stash0 in *. rewrite F.
  rewrite Est in *. destruct pmN.
  - rewrite finish_read_sabs by exact Hst. cbn [fold_left].
    rewrite sabs_extend1 by exact Hn. rewrite Hs, He. reflexivity.
  - rewrite finish_read_sabs by (apply short_lines_correct; exact Hst). cbn [fold_left rpstep].
    rewrite sabs_correct_last_timing, sabs_extend1 by exact Hn. rewrite Hs, He. reflexivity.
Qed.

(* composed with the chain theorems of proofs/SccRollPaintFacts.v: when the instants increase the spans are the chain,
   start < end, ordered by start, each caption ends exactly when the next one begins *)
Theorem read_rp_ordered_lines : forall off g0 gs t0 evs tend l,
  sg_head (sk g0) <> HCr -> Forall line_ok (g0 :: gs) ->
  get_time (sg_tc (sk g0)) 0 off = Ok t0 ->
  rp_events off (seg_paint false (sk g0)) (map sk gs) = Ok evs ->
  (final_paint (seg_paint false (sk g0)) (map sk gs) = false ->
   get_time (sg_tc (sk (last gs g0))) (Z.of_nat (length (lwords (last gs g0)))) off = Ok tend) ->
  rp_nonneg t0 (link_events (sk g0) (map sk gs) evs tend) ->
  increasing t0 (map rp_time (link_events (sk g0) (map sk gs) evs tend)) ->
  spans_of (read off (map lline (g0 :: gs))) = Ok l ->
  l = rp_spans t0 (link_events (sk g0) (map sk gs) evs tend) (final_paint (seg_paint false (sk g0)) (map sk gs)) /\
  Forall (fun p => (fst p < snd p)%Q) l /\
  (forall i a b, nth_error l i = Some a -> nth_error l (S i) = Some b -> (fst a < fst b)%Q /\ snd a = fst b).
Proof.
  intros off g0 gs t0 evs tend l Hh Hok Ht0 Hev Hend Hnn Hinc Hr.
  rewrite (rp_link_lines off g0 gs t0 evs tend Hh Hok Ht0 Hev Hend) in Hr. split.
  - pose proof Hr as Hr'. rewrite rp_chain_all_nonneg in Hr' by exact Hnn. unfold rp_expected_all, verdict in Hr'.
    destruct (existsb _ _); [discriminate|]. destruct (rp_spans _ _ _); [discriminate|]. inversion Hr'. reflexivity.
  - exact (rp_chain_ordered _ _ _ _ Hnn Hinc Hr).
Qed.
End Lines.

Lemma forallb_Forall : forall (A : Type) (f : A -> bool) (P : A -> Prop) l,
  (forall x, f x = true -> P x) -> forallb f l = true -> Forall P l.
Proof.
  intros A f P l H. induction l as [|x l IH]; intros Hl; [constructor|]. cbn [forallb] in Hl.
  apply andb_true_iff in Hl. destruct Hl as [Hx Hl]. constructor; [apply H; exact Hx|apply IH; exact Hl].
Qed.

(* ---- the lines of this file: one row of character pairs ----------------------------------------------------------------- *)
Lemma tb_buf_ok : forall txt p, nonempty (rstrip txt) = true -> filter spec_long (spec_lines (rstrip txt)) = [] ->
  buf_ok1 (tb txt p) (fun t => tcap t 0 txt p).
Proof.
  intros txt p Hn Hs. split.
  - pose proof (nonempty_rstrip _ Hn) as H0. destruct txt as [|c0 txt]; [discriminate H0|].
    exists IText, c0, txt, p, [], SNone. reflexivity.
  - intros st time. split; [apply store_tb; exact Hn|].
    split; [reflexivity|]. split; [reflexivity|]. split; [reflexivity|].
    unfold cap_text, tcap. cbn [pc_nodes map node_text concat]. rewrite app_nil_r. exact Hs.
Qed.

Lemma seg_line_ok : forall dd g, seg_ok g = true ->
  line_ok rseg (fun g => g) (fun g => head_words dd (sg_head g)) (fun g => ctl dd (sg_pac g) ++ sg_chars g)
          (fun g => tb (seg_text g) (seg_pos g)) (fun g t => tcap t 0 (seg_text g) (seg_pos g)) g.
Proof.
  intros dd g Hg. split; [exact (tws_head2 dd dd (sg_head g))|]. split.
  - intros pm st tk l d time tc fr off Hl.
    destruct (tws_body dd g pm st tk l d time tc fr off Hg Hl) as (lw & d' & Hlw & E).
    exists (tkp (seg_pos g)), (LWord lw), d'. split; [apply quiet_word; exact Hlw|exact E].
  - destruct (seg_ok_spec g Hg) as (_ & _ & _ & _ & Hn & Hs). apply tb_buf_ok; assumption.
Qed.

Theorem rp_link : forall dd off g0 gs t0 evs tend,
  sg_head g0 <> HCr -> forallb seg_ok (g0 :: gs) = true ->
  get_time (sg_tc g0) 0 off = Ok t0 ->
  rp_events off (seg_paint false g0) gs = Ok evs ->
  (final_paint (seg_paint false g0) gs = false ->
   get_time (sg_tc (last gs g0)) (Z.of_nat (length (rseg_words dd (last gs g0)))) off = Ok tend) ->
  spans_of (read off (map (rseg_line dd) (g0 :: gs))) =
  rp_read t0 (evs ++ (if final_paint (seg_paint false g0) gs then [] else [RRoll tend]))
          (final_paint (seg_paint false g0) gs).
Proof.
  intros dd off g0 gs t0 evs tend Hh Hok.
  pose proof (rp_link_lines rseg (fun g => g) _ _ _ _ off g0 gs t0 evs tend Hh
                (forallb_Forall _ _ _ _ (seg_line_ok dd) Hok)) as L.
  rewrite map_id in L. exact L.
Qed.


(* ================================================================================================================== *)
(* 3. composed with the chain theorems of proofs/SccRollPaintFacts.v: statements about `read`                          *)
(* ================================================================================================================== *)
Lemma nonneg_of_times : forall t0 evs, (0 <= t0)%Q -> Forall (fun t => (0 < t)%Q) (map rp_time evs) -> rp_nonneg t0 evs.
Proof.
  intros t0 evs H0 H. split; [exact H0|]. intros e He. rewrite Forall_forall in H. apply H. apply in_map. exact He.
Qed.

(* the spans `read` returns are the chain through the instants of the flushing commands *)
Theorem read_rp_chain : forall dd off g0 gs t0 evs tend,
  sg_head g0 <> HCr -> forallb seg_ok (g0 :: gs) = true ->
  get_time (sg_tc g0) 0 off = Ok t0 ->
  rp_events off (seg_paint false g0) gs = Ok evs ->
  (final_paint (seg_paint false g0) gs = false ->
   get_time (sg_tc (last gs g0)) (Z.of_nat (length (rseg_words dd (last gs g0)))) off = Ok tend) ->
  rp_nonneg t0 (link_events g0 gs evs tend) ->
  spans_of (read off (map (rseg_line dd) (g0 :: gs))) =
  rp_expected_all t0 (link_events g0 gs evs tend) (final_paint (seg_paint false g0) gs).
Proof.
  intros dd off g0 gs t0 evs tend Hh Hok Ht0 Hev Hend Hnn.
  rewrite (rp_link dd off g0 gs t0 evs tend Hh Hok Ht0 Hev Hend). apply rp_chain_all_nonneg. exact Hnn.
Qed.

(* start < end, ordered by start, and each caption ends exactly when the next one begins *)
Theorem read_rp_ordered : forall dd off g0 gs t0 evs tend l,
  sg_head g0 <> HCr -> forallb seg_ok (g0 :: gs) = true ->
  get_time (sg_tc g0) 0 off = Ok t0 ->
  rp_events off (seg_paint false g0) gs = Ok evs ->
  (final_paint (seg_paint false g0) gs = false ->
   get_time (sg_tc (last gs g0)) (Z.of_nat (length (rseg_words dd (last gs g0)))) off = Ok tend) ->
  rp_nonneg t0 (link_events g0 gs evs tend) ->
  increasing t0 (map rp_time (link_events g0 gs evs tend)) ->
  spans_of (read off (map (rseg_line dd) (g0 :: gs))) = Ok l ->
  Forall (fun p => (fst p < snd p)%Q) l /\
  (forall i a b, nth_error l i = Some a -> nth_error l (S i) = Some b -> (fst a < fst b)%Q /\ snd a = fst b).
Proof.
  intros dd off g0 gs t0 evs tend l Hh Hok Ht0 Hev Hend Hnn Hinc Hr.
  rewrite (rp_link dd off g0 gs t0 evs tend Hh Hok Ht0 Hev Hend) in Hr.
  exact (rp_chain_ordered _ _ _ _ Hnn Hinc Hr).
Qed.

(* ---- the three pure layouts ----------------------------------------------------------------------------------------- *)
Fixpoint instants (off : Q) (gs : list rseg) : result (list Q) :=
  match gs with
  | [] => Ok []
  | g :: r => match get_time (sg_tc g) 0 off with
              | Ok t => match instants off r with Ok l => Ok (t :: l) | Err e => Err e end
              | Err e => Err e
              end
  end.
Definition is_ru (g : rseg) : bool := match sg_head g with HRu _ _ => true | _ => false end.
Definition is_cr (g : rseg) : bool := match sg_head g with HCr => true | _ => false end.
Definition is_rdc (g : rseg) : bool := match sg_head g with HRdc => true | _ => false end.

(* what a later line of each pure layout does: its event and the mode it leaves *)
Lemma head_steps : forall g t,
  (is_ru g = true -> forall pm, seg_paint pm g = false /\ seg_event pm g t = RPaint t) /\
  (is_cr g = true -> forall pm, seg_paint pm g = pm /\ seg_event pm g t = RRoll t) /\
  (is_rdc g = true -> seg_paint true g = true /\ seg_event true g t = RPaint t).
Proof.
  intros g t. unfold seg_paint, seg_event, seg_rolls, is_ru, is_cr, is_rdc.
  destruct (sg_head g) as [[| |] cr| |]; (split; [|split]); try discriminate; intros; split; reflexivity.
Qed.

Lemma first_head : forall g,
  (is_ru g = true -> sg_head g <> HCr /\ seg_paint false g = false) /\
  (is_rdc g = true -> sg_head g <> HCr /\ seg_paint false g = true).
Proof.
  intros g. unfold is_ru, is_rdc, seg_paint.
  destruct (sg_head g) as [[| |] cr| |]; split; intros H; try discriminate H; (split; [congruence|reflexivity]).
Qed.

(* lines of a class P that all send the event `ev` and keep the mode pm *)
Lemma events_uniform : forall off (P : rseg -> bool) (ev : Q -> rpev) pm,
  (forall g t, P g = true -> seg_paint pm g = pm /\ seg_event pm g t = ev t) ->
  forall gs ts, forallb P gs = true -> instants off gs = Ok ts ->
  rp_events off pm gs = Ok (map ev ts) /\ final_paint pm gs = pm.
Proof.
  intros off P ev pm Hstep. induction gs as [|g gs IH]; intros ts H Hi; [inversion Hi; split; reflexivity|].
  cbn [forallb] in H. apply andb_true_iff in H. destruct H as [Hg H]. cbn [instants rp_events final_paint] in *.
  destruct (get_time (sg_tc g) 0 off) as [t|]; [|discriminate].
  destruct (instants off gs) as [ts'|]; [|discriminate]. inversion Hi; subst ts.
  destruct (Hstep g t Hg) as [-> ->]. destruct (IH ts' H eq_refl) as [-> ->]. split; reflexivity.
Qed.

Lemma uniform_link : forall dd off (P : rseg -> bool) (ev : Q -> rpev) pm g0 gs t0 ts tend,
  sg_head g0 <> HCr /\ seg_paint false g0 = pm ->
  (forall g t, P g = true -> seg_paint pm g = pm /\ seg_event pm g t = ev t) ->
  forallb P gs = true -> forallb seg_ok (g0 :: gs) = true ->
  get_time (sg_tc g0) 0 off = Ok t0 -> instants off gs = Ok ts ->
  (pm = false -> get_time (sg_tc (last gs g0)) (Z.of_nat (length (rseg_words dd (last gs g0)))) off = Ok tend) ->
  spans_of (read off (map (rseg_line dd) (g0 :: gs))) = rp_read t0 (map ev ts ++ (if pm then [] else [RRoll tend])) pm.
Proof.
  intros dd off P ev pm g0 gs t0 ts tend [Hh P0] Hstep HP Hok Ht0 Hi Hend.
  destruct (events_uniform off P ev pm Hstep gs ts HP Hi) as [E F].
  pose proof (rp_link dd off g0 gs t0 (map ev ts) tend Hh Hok Ht0) as L. rewrite P0, F in L. exact (L E Hend).
Qed.

(* roll-up, every line headed by its RU2/RU3/RU4 command (any mix of depths, with or without the carriage return):
   the buffer of the line before is stored by the RU command itself (flush_buffer in _translate_command: a store WITHOUT
   correct_last_timing, i.e. an RPaint-shaped event); only the end of the file is a genuine _roll_up *)
Theorem rollup_link : forall dd off g0 gs t0 ts tend,
  forallb is_ru (g0 :: gs) = true -> forallb seg_ok (g0 :: gs) = true ->
  get_time (sg_tc g0) 0 off = Ok t0 -> instants off gs = Ok ts ->
  get_time (sg_tc (last gs g0)) (Z.of_nat (length (rseg_words dd (last gs g0)))) off = Ok tend ->
  spans_of (read off (map (rseg_line dd) (g0 :: gs))) = rp_read t0 (map RPaint ts ++ [RRoll tend]) false.
Proof.
  intros dd off g0 gs t0 ts tend Hru Hok Ht0 Hi Hend.
  cbn [forallb] in Hru. apply andb_true_iff in Hru. destruct Hru as [H0 Hru].
  exact (uniform_link dd off is_ru RPaint false g0 gs t0 ts tend (proj1 (first_head g0) H0)
           (fun g t H => proj1 (head_steps g t) H false) Hru Hok Ht0 Hi (fun _ => Hend)).
Qed.

(* roll-up, RU command on the first line only, every later line headed by a carriage return: every event is a _roll_up *)
Theorem rollup_cr_link : forall dd off g0 gs t0 ts tend,
  is_ru g0 = true -> forallb is_cr gs = true -> forallb seg_ok (g0 :: gs) = true ->
  get_time (sg_tc g0) 0 off = Ok t0 -> instants off gs = Ok ts ->
  get_time (sg_tc (last gs g0)) (Z.of_nat (length (rseg_words dd (last gs g0)))) off = Ok tend ->
  spans_of (read off (map (rseg_line dd) (g0 :: gs))) = rp_read t0 (map RRoll ts ++ [RRoll tend]) false.
Proof.
  intros dd off g0 gs t0 ts tend H0 Hcr Hok Ht0 Hi Hend.
  exact (uniform_link dd off is_cr RRoll false g0 gs t0 ts tend (proj1 (first_head g0) H0)
           (fun g t H => proj1 (proj2 (head_steps g t)) H false) Hcr Hok Ht0 Hi (fun _ => Hend)).
Qed.

(* paint-on, every line headed by RDC: the buffer of the line before is stored at each later RDC; the last buffer is still
   open at the end of the file *)
Theorem painton_link : forall dd off g0 gs t0 ts,
  forallb is_rdc (g0 :: gs) = true -> forallb seg_ok (g0 :: gs) = true ->
  get_time (sg_tc g0) 0 off = Ok t0 -> instants off gs = Ok ts ->
  spans_of (read off (map (rseg_line dd) (g0 :: gs))) = rp_read t0 (map RPaint ts) true.
Proof.
  intros dd off g0 gs t0 ts Hrd Hok Ht0 Hi.
  cbn [forallb] in Hrd. apply andb_true_iff in Hrd. destruct Hrd as [H0 Hrd].
  pose proof (uniform_link dd off is_rdc RPaint true g0 gs t0 ts 0%Q (proj2 (first_head g0) H0)
                (fun g t H => proj2 (proj2 (head_steps g t)) H) Hrd Hok Ht0 Hi) as L.
  rewrite app_nil_r in L. apply L. discriminate.
Qed.

Lemma ends_in_paint_snoc_roll : forall evs x, ends_in_paint (evs ++ [RRoll x]) = false.
Proof. intros evs x. unfold ends_in_paint. rewrite map_app. cbn [map]. rewrite last_last. reflexivity. Qed.

Lemma rolled_chain : forall t0 evs tend, (0 <= t0)%Q -> Forall (fun t => (0 < t)%Q) (map rp_time evs) -> (0 < tend)%Q ->
  rp_read t0 (evs ++ [RRoll tend]) false = verdict (chain t0 (map rp_time evs ++ [tend])).
Proof.
  intros t0 evs tend H0 H Hend. rewrite rp_chain_all_nonneg.
  - unfold rp_expected_all, rp_spans. rewrite ends_in_paint_snoc_roll, map_app. reflexivity.
  - apply nonneg_of_times; [exact H0|]. rewrite map_app. apply Forall_app. split; [exact H|].
    constructor; [exact Hend|constructor].
Qed.

Lemma map_time_paint : forall ts, map rp_time (map RPaint ts) = ts.
Proof. intros ts. rewrite map_map. apply map_id. Qed.
Lemma map_time_roll : forall ts, map rp_time (map RRoll ts) = ts.
Proof. intros ts. rewrite map_map. apply map_id. Qed.

Theorem rollup_read_chain : forall dd off g0 gs t0 ts tend,
  forallb is_ru (g0 :: gs) = true -> forallb seg_ok (g0 :: gs) = true ->
  get_time (sg_tc g0) 0 off = Ok t0 -> instants off gs = Ok ts ->
  get_time (sg_tc (last gs g0)) (Z.of_nat (length (rseg_words dd (last gs g0)))) off = Ok tend ->
  (0 <= t0)%Q -> Forall (fun t => (0 < t)%Q) ts -> (0 < tend)%Q ->
  spans_of (read off (map (rseg_line dd) (g0 :: gs))) = verdict (chain t0 (ts ++ [tend])).
Proof.
  intros dd off g0 gs t0 ts tend Hru Hok Ht0 Hi Hend H0 Hts Hte.
  rewrite (rollup_link dd off g0 gs t0 ts tend Hru Hok Ht0 Hi Hend).
  rewrite rolled_chain; rewrite ?map_time_paint; auto.
Qed.

Theorem rollup_cr_read_chain : forall dd off g0 gs t0 ts tend,
  is_ru g0 = true -> forallb is_cr gs = true -> forallb seg_ok (g0 :: gs) = true ->
  get_time (sg_tc g0) 0 off = Ok t0 -> instants off gs = Ok ts ->
  get_time (sg_tc (last gs g0)) (Z.of_nat (length (rseg_words dd (last gs g0)))) off = Ok tend ->
  (0 <= t0)%Q -> Forall (fun t => (0 < t)%Q) ts -> (0 < tend)%Q ->
  spans_of (read off (map (rseg_line dd) (g0 :: gs))) = verdict (chain t0 (ts ++ [tend])).
Proof.
  intros dd off g0 gs t0 ts tend H0' Hcr Hok Ht0 Hi Hend H0 Hts Hte.
  rewrite (rollup_cr_link dd off g0 gs t0 ts tend H0' Hcr Hok Ht0 Hi Hend).
  rewrite rolled_chain; rewrite ?map_time_roll; auto.
Qed.

Theorem painton_read_chain : forall dd off g0 gs t0 ts,
  forallb is_rdc (g0 :: gs) = true -> forallb seg_ok (g0 :: gs) = true ->
  get_time (sg_tc g0) 0 off = Ok t0 -> instants off gs = Ok ts ->
  (0 <= t0)%Q -> Forall (fun t => (0 < t)%Q) ts ->
  spans_of (read off (map (rseg_line dd) (g0 :: gs))) =
  verdict (chain t0 ts ++ [(last ts t0, (last ts t0 + four_s)%Q)]).
Proof.
  intros dd off g0 gs t0 ts Hrd Hok Ht0 Hi H0 Hts.
  rewrite (painton_link dd off g0 gs t0 ts Hrd Hok Ht0 Hi). rewrite rp_chain_all_nonneg.
  - unfold rp_expected_all, rp_spans. rewrite map_time_paint. reflexivity.
  - apply nonneg_of_times; [exact H0|]. rewrite map_time_paint. exact Hts.
Qed.

(* when the instants increase: start < end, ordered by start, each caption ends where the next begins *)
Theorem rollup_read_ordered : forall dd off g0 gs t0 ts tend l,
  forallb is_ru (g0 :: gs) = true -> forallb seg_ok (g0 :: gs) = true ->
  get_time (sg_tc g0) 0 off = Ok t0 -> instants off gs = Ok ts ->
  get_time (sg_tc (last gs g0)) (Z.of_nat (length (rseg_words dd (last gs g0)))) off = Ok tend ->
  (0 <= t0)%Q -> increasing t0 (ts ++ [tend]) ->
  spans_of (read off (map (rseg_line dd) (g0 :: gs))) = Ok l ->
  l = chain t0 (ts ++ [tend]) /\ Forall (fun p => (fst p < snd p)%Q) l /\
  (forall i a b, nth_error l i = Some a -> nth_error l (S i) = Some b -> (fst a < fst b)%Q /\ snd a = fst b).
Proof.
  intros dd off g0 gs t0 ts tend l Hru Hok Ht0 Hi Hend H0 Hinc Hr.
  assert (Hpos : Forall (fun t => (0 < t)%Q) (ts ++ [tend])).
  { clear -H0 Hinc. revert t0 H0 Hinc. induction (ts ++ [tend]) as [|x r IH]; intros t0 H0 Hinc; [constructor|].
    cbn [increasing] in Hinc. destruct Hinc as [H1 H2].
    assert (Hx : (0 < x)%Q) by (eapply Qle_lt_trans; eassumption).
    constructor; [exact Hx|]. apply (IH x); [apply Qlt_le_weak; exact Hx|exact H2]. }
  apply Forall_app in Hpos. destruct Hpos as [Hts Hte]. inversion Hte as [|? ? Hte' _]; subst.
  pose proof Hr as Hr'. rewrite (rollup_read_chain dd off g0 gs t0 ts tend Hru Hok Ht0 Hi Hend H0 Hts Hte') in Hr'.
  rewrite (rollup_link dd off g0 gs t0 ts tend Hru Hok Ht0 Hi Hend) in Hr.
  split.
  - unfold verdict in Hr'. destruct (existsb _ _); [discriminate|].
    destruct (chain t0 (ts ++ [tend])); [discriminate|]. inversion Hr'. reflexivity.
  - apply (rp_chain_ordered t0 (map RPaint ts ++ [RRoll tend]) false l); [| |exact Hr].
    + apply nonneg_of_times; [exact H0|]. rewrite map_app, map_time_paint. apply Forall_app. split; [exact Hts|exact Hte].
    + rewrite map_app, map_time_paint. exact Hinc.
Qed.

(* ---- sufficient conditions for the text of a line ------------------------------------------------------------------- *)
Lemma split_piece_length : forall sep s cur l, In l (split_ch_aux sep s cur) -> (length l <= length cur + length s)%nat.
Proof.
  intros sep s. induction s as [|a s IH]; intros cur l H; cbn [split_ch_aux] in H.
  - destruct H as [<-|[]]. rewrite rev_length. lia.
  - destruct (a =? sep).
    + destruct H as [<-|H]; [rewrite rev_length; cbn [length]; lia|]. apply IH in H. cbn [length] in *. lia.
    + apply IH in H. cbn [length] in *. lia.
Qed.

Lemma text_ok : forall txt, (exists c, In c txt /\ is_space c = false) -> (length txt <= 32)%nat ->
  nonempty (rstrip txt) = true /\ filter spec_long (spec_lines (rstrip txt)) = [].
Proof.
  intros txt (c & Hc & Hs) Hlen. destruct (rstrip_split txt) as (w & E & F). split.
  - destruct (rstrip txt) as [|x r]; [|reflexivity]. cbn [app] in E. subst w.
    rewrite forallb_forall in F. rewrite (F c Hc) in Hs. discriminate.
  - assert (L : (length (rstrip txt) <= 32)%nat).
    { apply (f_equal (@length Z)) in E. rewrite app_length in E. lia. }
    apply filter_none. intros l Hl. unfold spec_lines, split_ch in Hl. apply split_piece_length in Hl. cbn [length] in Hl.
    unfold spec_long. apply Z.ltb_ge. lia.
Qed.

Lemma seg_ok_intro : forall g, plain_pac (sg_pac g) = true -> forallb char_word (sg_chars g) = true ->
  (exists c, In c (seg_text g) /\ is_space c = false) -> (length (seg_text g) <= 32)%nat -> seg_ok g = true.
Proof.
  intros g H1 H2 H3 H4. destruct (text_ok (seg_text g) H3 H4) as [H5 H6].
  unfold seg_ok. rewrite H1, H2, H5, H6. reflexivity.
Qed.

(* ---- the instants exist whenever the timecodes are well formed (proofs/SccTimeFacts.v, get_time_exact) ---------------- *)
Definition wf_tc (g : rseg) : Prop := exists tc, tc_wf tc = true /\ sg_tc g = render_tc tc.

Lemma wf_tc_time : forall g k off, wf_tc g -> 0 <= k ->
  exists t, get_time (sg_tc g) k off = Ok t.
Proof.
  intros g k off (tc & Hwf & E) Hk. rewrite E. destruct (get_time_exact tc k off Hwf Hk) as (t & Ht & _).
  exists t. exact Ht.
Qed.

Lemma rp_events_total : forall off gs pm, Forall wf_tc gs -> exists evs, rp_events off pm gs = Ok evs.
Proof.
  intros off gs. induction gs as [|g gs IH]; intros pm H; [exists []; reflexivity|].
  inversion H as [|? ? Hg Hgs]; subst. cbn [rp_events].
  destruct (wf_tc_time g 0 off Hg (Z.le_refl 0)) as [t Ht]. rewrite Ht.
  destruct (IH (seg_paint pm g) Hgs) as [evs E]. rewrite E. eexists. reflexivity.
Qed.

(* no hypothesis on the instants: on a well-formed program with well-formed timecodes `read` IS `rp_read` on the events of
   the program *)
Theorem rp_link_total : forall dd off g0 gs,
  sg_head g0 <> HCr -> forallb seg_ok (g0 :: gs) = true -> Forall wf_tc (g0 :: gs) ->
  exists t0 evs tend,
    get_time (sg_tc g0) 0 off = Ok t0 /\ rp_events off (seg_paint false g0) gs = Ok evs /\
    get_time (sg_tc (last gs g0)) (Z.of_nat (length (rseg_words dd (last gs g0)))) off = Ok tend /\
    spans_of (read off (map (rseg_line dd) (g0 :: gs))) =
    rp_read t0 (link_events g0 gs evs tend) (final_paint (seg_paint false g0) gs).
Proof.
  intros dd off g0 gs Hh Hok Hwf. inversion Hwf as [|? ? Hg0 Hgs]; subst.
  destruct (wf_tc_time g0 0 off Hg0 (Z.le_refl 0)) as [t0 Ht0].
  destruct (rp_events_total off gs (seg_paint false g0) Hgs) as [evs Hev].
  assert (Hgl : wf_tc (last gs g0)) by (apply Forall_last; assumption).
  destruct (wf_tc_time (last gs g0) (Z.of_nat (length (rseg_words dd (last gs g0)))) off Hgl (Nat2Z.is_nonneg _))
    as [tend Hend].
  exists t0, evs, tend. split; [exact Ht0|]. split; [exact Hev|]. split; [exact Hend|].
  apply rp_link; try assumption. intros _. exact Hend.
Qed.

(* ================================================================================================================== *)
(* 4. non-vacuity                                                                                                      *)
(* ================================================================================================================== *)
(* roll-up 2, every control code doubled:   9425 9425 94ad 94ad 9470 9470 "abcd" / ... "ef" / ... "ghij" *)
Definition ex_g1 : rseg := mkSeg (lit "00:00:01:00") (HRu D2 true) 38000 [24930; 58212].
Definition ex_g2 : rseg := mkSeg (lit "00:00:03:00") (HRu D2 true) 38000 [58854].
Definition ex_g3 : rseg := mkSeg (lit "00:00:05:10") (HRu D2 true) 38000 [26472; 59882].

Example rollup_link_example :
  map (rseg_line true) [ex_g1; ex_g2; ex_g3] =
    [(lit "00:00:01:00", [37925; 37925; 38061; 38061; 38000; 38000; 24930; 58212]);
     (lit "00:00:03:00", [37925; 37925; 38061; 38061; 38000; 38000; 58854]);
     (lit "00:00:05:10", [37925; 37925; 38061; 38061; 38000; 38000; 26472; 59882])] /\
  seg_text ex_g1 = lit "abcd" /\ seg_text ex_g2 = lit "ef" /\ seg_text ex_g3 = lit "ghij" /\
  spans_of (read 0 (map (rseg_line true) [ex_g1; ex_g2; ex_g3])) =
    rp_read 1001000 [RPaint 3003000; RPaint (16016000 # 3); RRoll 5605600] false /\
  spans_of (read 0 (map (rseg_line true) [ex_g1; ex_g2; ex_g3])) =
    Ok [(1001000, 3003000); (3003000, 16016000 # 3); (16016000 # 3, 5605600)]%Q.
Proof.
  split; [vm_compute; reflexivity|]. split; [vm_compute; reflexivity|]. split; [vm_compute; reflexivity|].
  split; [vm_compute; reflexivity|].
  assert (L : spans_of (read 0 (map (rseg_line true) [ex_g1; ex_g2; ex_g3])) =
              rp_read 1001000 (map RPaint [3003000; 16016000 # 3]%Q ++ [RRoll 5605600]) false).
  { apply rollup_link; vm_compute; reflexivity. }
  split; [exact L|].
  assert (O : exists l, spans_of (read 0 (map (rseg_line true) [ex_g1; ex_g2; ex_g3])) = Ok l) by (rewrite L; vm_compute; eexists; reflexivity).
  destruct O as [l Hl].
  destruct (rollup_read_ordered true 0 ex_g1 [ex_g2; ex_g3] 1001000 [3003000; 16016000 # 3]%Q 5605600 l) as [E _];
    [vm_compute; reflexivity|vm_compute; reflexivity|vm_compute; reflexivity|vm_compute; reflexivity
    |vm_compute; reflexivity|discriminate|cbn [app increasing]; repeat split; reflexivity|exact Hl|].
  rewrite Hl, E. reflexivity.
Qed.

(* single codes, mixed: RU2 + CR "abcd" / bare CR "ef" (a genuine _roll_up) / RDC at row 2 "ghij" (mode switch: _roll_up by
   _flush_implicit_buffers); the paint-on row is still open at the end of the file and lasts 4 s *)
Definition ex_h2 : rseg := mkSeg (lit "00:00:03:00") HCr 38000 [58854].
Definition ex_h3 : rseg := mkSeg (lit "00:00:05:10") HRdc 37232 [26472; 59882].

Example rp_link_mixed_example :
  map (rseg_line false) [ex_g1; ex_h2; ex_h3] =
    [(lit "00:00:01:00", [37925; 38061; 38000; 24930; 58212]);
     (lit "00:00:03:00", [38061; 38000; 58854]);
     (lit "00:00:05:10", [37929; 37232; 26472; 59882])] /\
  spans_of (read 0 (map (rseg_line false) [ex_g1; ex_h2; ex_h3])) =
    rp_read 1001000 [RRoll 3003000; RRoll (16016000 # 3)] true /\
  rp_read 1001000 [RRoll 3003000; RRoll (16016000 # 3)] true =
    Ok [(1001000, 3003000); (3003000, 16016000 # 3); (16016000 # 3, (16016000 # 3) + four_s)]%Q.
Proof.
  split; [vm_compute; reflexivity|]. split.
  - pose proof (rp_link false 0 ex_g1 [ex_h2; ex_h3] 1001000 [RRoll 3003000; RRoll (16016000 # 3)] 0) as L.
    change (final_paint (seg_paint false ex_g1) [ex_h2; ex_h3]) with true in L. rewrite app_nil_r in L.
    apply L; try (vm_compute; reflexivity); discriminate.
  - rewrite rp_chain_all_nonneg.
    + vm_compute. reflexivity.
    + split; [discriminate|]. intros e [<-|[<-|[]]]; reflexivity.
Qed.

(* paint-on, three RDC lines *)
Definition ex_p1 : rseg := mkSeg (lit "00:00:01:00") HRdc 38000 [24930; 58212].
Definition ex_p2 : rseg := mkSeg (lit "00:00:03:00") HRdc 37232 [58854].
Definition ex_p3 : rseg := mkSeg (lit "00:00:05:10") HRdc 38000 [26472; 59882].

Example painton_link_example :
  spans_of (read 0 (map (rseg_line false) [ex_p1; ex_p2; ex_p3])) =
    rp_read 1001000 [RPaint 3003000; RPaint (16016000 # 3)] true /\
  spans_of (read 0 (map (rseg_line false) [ex_p1; ex_p2; ex_p3])) =
    Ok [(1001000, 3003000); (3003000, 16016000 # 3); (16016000 # 3, (16016000 # 3) + four_s)]%Q.
Proof.
  split.
  - apply (painton_link false 0 ex_p1 [ex_p2; ex_p3] 1001000 [3003000; 16016000 # 3]%Q); vm_compute; reflexivity.
  - rewrite (painton_read_chain false 0 ex_p1 [ex_p2; ex_p3] 1001000 [3003000; 16016000 # 3]%Q);
      try (vm_compute; reflexivity).
    + discriminate.
    + repeat constructor.
Qed.

(* the well-formedness of a line from the readable conditions *)
Example seg_ok_intro_example : seg_ok ex_g1 = true.
Proof.
  apply seg_ok_intro; try (vm_compute; reflexivity).
  - exists 97. split; [vm_compute; tauto|reflexivity].
  - vm_compute. lia.
Qed.
