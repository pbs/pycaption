(* C14: where the SAMI writer puts paragraphs (model/Langs.v place / write_lang / sami_write):
   the body stays sorted by start, every paragraph lands in a block of its own start, nothing already placed moves. *)
From Coq Require Import List ZArith Lia Bool.
From PV Require Import lib.Sx lib.Str lib.StrFacts model.Langs spec.SpecLangs proofs.LangsFacts.
Import ListNotations.
Open Scope Z_scope.

Definition le_all (t : Z) (b : body) : Prop := forall y, In y b -> t <= fst y.
Definition all_le (b : body) (t : Z) : Prop := forall y, In y b -> fst y <= t.
Fixpoint sorted (b : body) : Prop :=
  match b with [] => True | x :: r => le_all (fst x) r /\ sorted r end.

Inductive placed (t : Z) (p : par) (b : body) : body -> Prop :=
| placed_in : forall pre ps post, b = pre ++ (t, ps) :: post -> placed t p b (pre ++ (t, ps ++ [p]) :: post)
| placed_new : forall pre post, b = pre ++ post -> placed t p b (pre ++ (t, [p]) :: post).

Lemma add_to_first_placed : forall t p b b', add_to_first t p b = Some b' ->
  exists pre ps post, b = pre ++ (t, ps) :: post /\ b' = pre ++ (t, ps ++ [p]) :: post /\
                      (forall y, In y pre -> fst y <> t).
Proof.
  induction b as [|[s ps] r IH]; intros b' H; cbn [add_to_first] in H; [discriminate|].
  destruct (s =? t) eqn:E.
  - inversion H; subst. assert (s = t) by lia. subst. exists [], ps, r. repeat split; auto; intros y [].
  - destruct (add_to_first t p r) as [r'|] eqn:A; [|discriminate]. inversion H; subst.
    destruct (IH r' eq_refl) as (pre & ps' & post & E1 & E2 & E3). subst.
    exists ((s, ps) :: pre), ps', post. repeat split; auto.
    intros y [<-|Hy]; [cbn [fst]; lia|apply E3; exact Hy].
Qed.

Lemma insert_after_none : forall t p b, insert_after_last_earlier t p b = None -> le_all t b.
Proof.
  induction b as [|[s ps] r IH]; intros H y Hy; [destruct Hy|]. cbn [insert_after_last_earlier] in H.
  destruct (insert_after_last_earlier t p r) eqn:A; [discriminate|].
  destruct (s <? t) eqn:E; [discriminate|]. destruct Hy as [<-|Hy]; [cbn [fst]; lia|apply IH; auto].
Qed.

Lemma insert_after_some : forall t p b b', insert_after_last_earlier t p b = Some b' ->
  exists pre0 e post, b = pre0 ++ e :: post /\ b' = pre0 ++ e :: (t, [p]) :: post /\ fst e < t /\ le_all t post.
Proof.
  induction b as [|[s ps] r IH]; intros b' H; cbn [insert_after_last_earlier] in H; [discriminate|].
  destruct (insert_after_last_earlier t p r) as [r'|] eqn:A.
  - inversion H; subst. destruct (IH r' eq_refl) as (pre0 & e & post & E1 & E2 & E3 & E4). subst.
    exists ((s, ps) :: pre0), e, post. repeat split; auto.
  - destruct (s <? t) eqn:E; [|discriminate]. inversion H; subst.
    exists [], (s, ps), r. repeat split; auto; [cbn [fst]; lia|].
    apply (insert_after_none t p). exact A.
Qed.

Lemma insert_before_none : forall t p b, insert_before_first_later t p b = None -> all_le b t.
Proof.
  induction b as [|[s ps] r IH]; intros H y Hy; [destruct Hy|]. cbn [insert_before_first_later] in H.
  destruct (t <? s) eqn:E; [discriminate|].
  destruct (insert_before_first_later t p r) eqn:A; [discriminate|].
  destruct Hy as [<-|Hy]; [cbn [fst]; lia|apply IH; auto].
Qed.

Lemma insert_before_some : forall t p b b', insert_before_first_later t p b = Some b' ->
  exists pre post, b = pre ++ post /\ b' = pre ++ (t, [p]) :: post /\ all_le pre t.
Proof.
  induction b as [|[s ps] r IH]; intros b' H; cbn [insert_before_first_later] in H; [discriminate|].
  destruct (t <? s) eqn:E.
  - inversion H; subst. exists [], ((s, ps) :: r). repeat split. intros y [].
  - destruct (insert_before_first_later t p r) as [r'|] eqn:A; [|discriminate]. inversion H; subst.
    destruct (IH r' eq_refl) as (pre & post & E1 & E2 & E3). subst.
    exists ((s, ps) :: pre), post. repeat split.
    intros y [<-|Hy]; [cbn [fst]; lia|apply E3; exact Hy].
Qed.

(* every block stands in relation R to every later block; sorted and the invariant J below are of this form *)
Fixpoint ordered (R : sync -> sync -> Prop) (b : body) : Prop :=
  match b with [] => True | x :: r => (forall y, In y r -> R x y) /\ ordered R r end.
Lemma ordered_app : forall R a b, ordered R (a ++ b) <-> ordered R a /\ ordered R b /\ (forall x y, In x a -> In y b -> R x y).
Proof.
  induction a as [|x a IH]; intros b; cbn [app ordered].
  - split; [intros H; repeat split; auto; intros ? ? []|tauto].
  - rewrite IH. split.
    + intros (H1 & H2 & H3 & H4). repeat split; auto.
      * intros y Hy. apply H1. apply in_app_iff. left. exact Hy.
      * intros u v [<-|Hu] Hv; [apply H1; apply in_app_iff; right; exact Hv|apply H4; assumption].
    + intros ((H1 & H2) & H3 & H4). repeat split; auto.
      * intros y Hy. apply in_app_iff in Hy. destruct Hy as [Hy|Hy]; [apply H1; exact Hy|apply H4; [left; reflexivity|exact Hy]].
      * intros u v Hu Hv. apply H4; [right; exact Hu|exact Hv].
Qed.
Lemma sorted_ordered : forall b, sorted b <-> ordered (fun x y => fst x <= fst y) b.
Proof. induction b as [|x r IH]; [reflexivity|]. cbn [sorted ordered]. rewrite IH. reflexivity. Qed.
Lemma sorted_app : forall a b, sorted (a ++ b) <-> sorted a /\ sorted b /\ (forall x y, In x a -> In y b -> fst x <= fst y).
Proof. intros a b. rewrite !sorted_ordered. apply ordered_app. Qed.

Lemma add_to_first_none : forall t p b, add_to_first t p b = None -> forall y, In y b -> fst y <> t.
Proof.
  induction b as [|[s ps] r IH]; intros H y Hy; [destruct Hy|]. cbn [add_to_first] in H.
  destruct (s =? t) eqn:E; [discriminate|]. destruct (add_to_first t p r) eqn:A; [discriminate|].
  destruct Hy as [<-|Hy]; [cbn [fst]; lia|apply IH; auto].
Qed.

(* where a later language's paragraph goes: into the first block of its start or, when no block has that start, into a
   new block - in a sorted body, between the earlier and the later ones *)
Lemma place_secondary_spec : forall t p b,
  (exists pre ps post, b = pre ++ (t, ps) :: post /\ place false t p b = pre ++ (t, ps ++ [p]) :: post
                       /\ (forall y, In y pre -> fst y <> t))
  \/ (exists pre post, b = pre ++ post /\ place false t p b = pre ++ (t, [p]) :: post
                       /\ (sorted b -> (forall y, In y pre -> fst y < t) /\ (forall y, In y post -> t < fst y))).
Proof.
  intros t p b. unfold place. destruct (add_to_first t p b) as [b'|] eqn:A.
  - left. destruct (add_to_first_placed _ _ _ _ A) as (pre & ps & post & E). exists pre, ps, post. exact E.
  - right. pose proof (add_to_first_none _ _ _ A) as NT. unfold find_closest.
    destruct (insert_after_last_earlier t p b) as [b'|] eqn:B.
    + destruct (insert_after_some _ _ _ _ B) as (pre0 & e & post & E1 & E2 & E3 & E4). exists (pre0 ++ [e]), post.
      rewrite <- !app_assoc. split; [exact E1|]. split; [exact E2|]. intros S. subst b. split.
      * apply sorted_app in S. destruct S as (_ & _ & S3).
        intros y Hy. apply in_app_iff in Hy. destruct Hy as [Hy|[<-|[]]]; [|exact E3].
        specialize (S3 y e Hy (or_introl eq_refl)). lia.
      * intros y Hy. specialize (E4 y Hy). assert (fst y <> t) by (apply NT; apply in_app_iff; right; right; exact Hy). lia.
    + pose proof (insert_after_none _ _ _ B) as L.
      assert (Lt : forall y, In y b -> t < fst y) by (intros y Hy; specialize (L y Hy); specialize (NT y Hy); lia).
      destruct (insert_before_first_later t p b) as [b'|] eqn:C.
      * destruct (insert_before_some _ _ _ _ C) as (pre & post & E1 & E2 & E3). exists pre, post. subst b.
        split; [reflexivity|]. split; [exact E2|]. intros _. split; intros y Hy.
        -- specialize (E3 y Hy). assert (t < fst y) by (apply Lt; apply in_app_iff; left; exact Hy). lia.
        -- apply Lt. apply in_app_iff. right. exact Hy.
      * exists b, []. rewrite app_nil_r. split; [reflexivity|]. split; [reflexivity|]. intros _. split; [|intros y []].
        intros y Hy. specialize (insert_before_none _ _ _ C y Hy). specialize (Lt y Hy). lia.
Qed.

(* C14_sami_p_in_own_sync: the paragraph is appended to a block with its start, or put in a new block with its
   start; every other block and every paragraph already there stays where it was *)
Theorem place_placed : forall primary t p b, placed t p b (place primary t p b).
Proof.
  intros [|] t p b.
  - apply (placed_new t p b b []). rewrite app_nil_r. reflexivity.
  - destruct (place_secondary_spec t p b) as [(pre & ps & post & E1 & E2 & _)|(pre & post & E1 & E2 & _)]; rewrite E2.
    + apply placed_in. exact E1.
    + apply placed_new. exact E1.
Qed.

Lemma sorted_insert : forall pre post t ps, sorted (pre ++ post) -> all_le pre t -> le_all t post ->
  sorted (pre ++ (t, ps) :: post).
Proof.
  intros pre post t ps S A L. apply sorted_app in S. destruct S as (S1 & S2 & S3).
  apply sorted_app. split; [exact S1|]. split.
  - cbn [sorted fst]. split; [exact L|exact S2].
  - intros x y Hx [<-|Hy]; [cbn [fst]; apply A; exact Hx|apply S3; assumption].
Qed.

Lemma sorted_same_fst : forall pre post t ps ps', sorted (pre ++ (t, ps) :: post) -> sorted (pre ++ (t, ps') :: post).
Proof.
  intros pre post t ps ps' S. apply sorted_app in S. destruct S as (S1 & S2 & S3).
  apply sorted_app. split; [exact S1|]. split; [exact S2|].
  intros x y Hx [<-|Hy]; [apply (S3 x (t, ps)); [exact Hx|left; reflexivity]|apply S3; [exact Hx|right; exact Hy]].
Qed.

Theorem place_secondary_sorted : forall t p b, sorted b -> sorted (place false t p b).
Proof.
  intros t p b S.
  destruct (place_secondary_spec t p b) as [(pre & ps & post & E1 & E2 & _)|(pre & post & E1 & E2 & L)]; rewrite E2.
  - subst b. eapply sorted_same_fst. exact S.
  - destruct (L S) as [L1 L2]. subst b. apply sorted_insert; [exact S|intros y Hy; specialize (L1 y Hy); lia|intros y Hy; specialize (L2 y Hy); lia].
Qed.

Lemma place_primary_sorted : forall t p b, sorted b -> all_le b t ->
  sorted (place true t p b) /\ all_le (place true t p b) t.
Proof.
  intros t p b S U. unfold place. split.
  - replace (b ++ [(t, [p])]) with (b ++ (t, [p]) :: []) by reflexivity.
    apply sorted_insert; [rewrite app_nil_r; exact S|exact U|intros y []].
  - intros y Hy. apply in_app_iff in Hy. destruct Hy as [Hy|[<-|[]]]; [apply U; exact Hy|cbn [fst]; lia].
Qed.

(* the first language's cues: sorted and non-overlapping at millisecond resolution, from `lo` on *)
Fixpoint caps_sorted (lo : Z) (caps : list wcue) : Prop :=
  match caps with
  | [] => True
  | c :: t => lo <= wc_start c / 1000 /\ wc_start c / 1000 <= wc_end c / 1000 /\ caps_sorted (wc_end c / 1000) t
  end.

(* the paragraphs the writer produces for one language, in order: a blank at the previous end when the next
   cue does not start there, then the cue *)
Fixpoint lang_pars (caps : list wcue) (last : option Z) : list (Z * str) :=
  match caps with
  | [] => []
  | c :: t =>
      let time := wc_start c / 1000 in
      (if blank_due last time then [(last_or0 last, nbsp_text)] else [])
      ++ (time, wc_text c) :: lang_pars t (Some (wc_end c / 1000))
  end.

(* write_lang places exactly these paragraphs, one after the other: everything below is said about place_all *)
Definition place_all (primary : bool) (cls : str) (qs : list (Z * str)) (b : body) : body :=
  fold_left (fun b q => place primary (fst q) (cls, snd q) b) qs b.
Lemma write_lang_place_all : forall primary cls caps last b,
  write_lang primary cls caps last b = place_all primary cls (lang_pars caps last) b.
Proof.
  induction caps as [|c t IH]; intros last b; cbn [write_lang lang_pars]; [reflexivity|].
  rewrite IH. unfold place_all. rewrite fold_left_app. destruct (blank_due last (wc_start c / 1000)); reflexivity.
Qed.

Lemma place_all_cons : forall primary cls q r b,
  place_all primary cls (q :: r) b = place_all primary cls r (place primary (fst q) (cls, snd q) b).
Proof. reflexivity. Qed.

Fixpoint ascending (lo : Z) (qs : list (Z * str)) : Prop :=
  match qs with [] => True | q :: r => lo <= fst q /\ ascending (fst q) r end.
Lemma ascending_mono : forall lo lo' qs, ascending lo qs -> lo' <= lo -> ascending lo' qs.
Proof. intros lo lo' [|q r] H L; [exact I|]. destruct H as [H1 H2]. split; [lia|exact H2]. Qed.
Lemma lang_pars_ascending : forall caps last, caps_sorted (last_or0 last) caps -> ascending (last_or0 last) (lang_pars caps last).
Proof.
  induction caps as [|c t IH]; intros last C; [exact I|]. destruct C as (C1 & C2 & C3). cbn [lang_pars].
  assert (A : ascending (last_or0 last) ((wc_start c / 1000, wc_text c) :: lang_pars t (Some (wc_end c / 1000)))).
  { split; [exact C1|]. apply (ascending_mono (wc_end c / 1000)); [apply (IH (Some (wc_end c / 1000))); exact C3|exact C2]. }
  destruct (blank_due last (wc_start c / 1000)); [|exact A]. split; [apply Z.le_refl|exact A].
Qed.

Lemma place_all_primary_sorted : forall cls qs lo b,
  sorted b -> all_le b lo -> ascending lo qs -> sorted (place_all true cls qs b).
Proof.
  induction qs as [|q r IH]; intros lo b S U A; [exact S|]. destruct A as [A1 A2].
  destruct (place_primary_sorted (fst q) (cls, snd q) b S (fun y Hy => Z.le_trans _ _ _ (U y Hy) A1)) as [S1 U1].
  exact (IH (fst q) _ S1 U1 A2).
Qed.
Lemma place_all_secondary_sorted : forall cls qs b, sorted b -> sorted (place_all false cls qs b).
Proof.
  induction qs as [|q r IH]; intros b S; [exact S|]. apply (IH (place false (fst q) (cls, snd q) b)).
  apply place_secondary_sorted. exact S.
Qed.

Lemma write_langs_secondary_sorted : forall cs b, sorted b -> sorted (write_langs false cs b).
Proof.
  induction cs as [|[l caps] t IH]; intros b S; cbn [write_langs]; [exact S|].
  apply IH. rewrite write_lang_place_all. apply place_all_secondary_sorted. exact S.
Qed.

(* C14_sami_syncs_sorted: if the FIRST language's cues are sorted (ms resolution, non-negative), the body is sorted by
   start - whatever the other languages contain, and however their times interleave with the first language's *)
Theorem sami_syncs_sorted : forall cs,
  match cs with (_, caps) :: _ => caps_sorted 0 caps | [] => True end -> sorted (sami_write cs).
Proof.
  intros [|[l caps] t] H; [exact I|]. unfold sami_write. cbn [write_langs].
  apply write_langs_secondary_sorted. rewrite write_lang_place_all.
  apply (place_all_primary_sorted l _ 0); [exact I|intros y []|exact (lang_pars_ascending caps None H)].
Qed.

(* sortedness in the form the oracle checks *)
Lemma sorted_nondecr : forall b, sorted b -> SpecLangs.nondecr (map fst b) = true.
Proof.
  induction b as [|x r IH]; intros S; [reflexivity|]. destruct S as [L S].
  destruct r as [|y r']; [reflexivity|].
  assert (H : fst x <= fst y) by (apply L; left; reflexivity).
  change (((fst x <=? fst y) && SpecLangs.nondecr (map fst (y :: r'))) = true).
  apply andb_true_intro. split; [lia|exact (IH S)].
Qed.

(* the paragraphs of class cls in document order, each with the start of its block *)
Definition cpars (cls : str) (b : body) : list (Z * str) :=
  flat_map (fun s => map (fun p => (fst s, snd p)) (filter (fun p => str_eqb (fst p) cls) (snd s))) b.
Definition upper (cls : str) (b : body) (t : Z) : Prop := forall y, In y b -> cpars cls [y] <> [] -> fst y <= t.

Lemma cpars_app : forall cls a b, cpars cls (a ++ b) = cpars cls a ++ cpars cls b.
Proof. intros. unfold cpars. apply flat_map_app. Qed.
Lemma cpars_mid : forall cls pre y post, cpars cls (pre ++ y :: post) = cpars cls pre ++ cpars cls [y] ++ cpars cls post.
Proof. intros cls pre y post. rewrite cpars_app. exact (f_equal _ (cpars_app cls [y] post)). Qed.
Lemma upper_Forall : forall cls b t, upper cls b t <-> Forall (fun y => cpars cls [y] <> [] -> fst y <= t) b.
Proof. intros cls b t. symmetry. apply Forall_forall. Qed.
Lemma upper_app : forall cls a b t, upper cls (a ++ b) t <-> upper cls a t /\ upper cls b t.
Proof. intros cls a b t. rewrite !upper_Forall. apply Forall_app. Qed.
Lemma upper_mid : forall cls pre y post t,
  upper cls (pre ++ y :: post) t <-> upper cls pre t /\ (cpars cls [y] <> [] -> fst y <= t) /\ upper cls post t.
Proof. intros cls pre y post t. rewrite upper_app, !upper_Forall, Forall_cons_iff. reflexivity. Qed.
Lemma cpars_nil_iff : forall cls b, cpars cls b = [] <-> forall y, In y b -> cpars cls [y] = [].
Proof.
  induction b as [|z r IH]; [split; [intros _ y []|reflexivity]|].
  change (z :: r) with ([z] ++ r). rewrite cpars_app. split.
  - intros H. apply app_eq_nil in H. destruct H as [H1 H2]. intros y [<-|Hy]; [exact H1|apply IH; assumption].
  - intros H. rewrite (H z (or_introl eq_refl)). apply IH. intros y Hy. apply H. right. exact Hy.
Qed.
Lemma cpars_later_none : forall cls b post t, upper cls b t -> (forall y, In y post -> In y b /\ t < fst y) ->
  cpars cls post = [].
Proof.
  intros cls b post t U H. apply cpars_nil_iff. intros y Hy. destruct (H y Hy) as [Hb Ht].
  destruct (cpars cls [y]) eqn:E; [reflexivity|]. exfalso.
  assert (fst y <= t) by (apply U; [exact Hb|rewrite E; discriminate]). lia.
Qed.

Lemma cpars_block_snoc : forall cls t ps x,
  cpars cls [(t, ps ++ [(cls, x)])] = cpars cls [(t, ps)] ++ [(t, x)].
Proof.
  intros. unfold cpars. cbn [flat_map fst snd]. rewrite !app_nil_r, filter_app, map_app. cbn [filter fst].
  rewrite str_eqb_refl. reflexivity.
Qed.
Lemma cpars_block_other : forall cls t ps (p : par), str_eqb (fst p) cls = false ->
  cpars cls [(t, ps ++ [p])] = cpars cls [(t, ps)].
Proof.
  intros cls t ps p N. unfold cpars. cbn [flat_map fst snd]. rewrite filter_app. cbn [filter]. rewrite N, !app_nil_r. reflexivity.
Qed.
Lemma cpars_new_other : forall cls t (p : par), str_eqb (fst p) cls = false -> cpars cls [(t, [p])] = [].
Proof. intros cls t p. exact (cpars_block_other cls t [] p). Qed.
Lemma cpars_new_block : forall cls t x, cpars cls [(t, [(cls, x)])] = [(t, x)].
Proof. intros. unfold cpars. cbn [flat_map fst snd filter]. rewrite str_eqb_refl. reflexivity. Qed.

Lemma placed_other_class : forall cls' cls t x b b', placed t (cls, x) b b' -> str_eqb cls cls' = false ->
  cpars cls' b' = cpars cls' b /\ (forall u, upper cls' b u -> upper cls' b' u).
Proof.
  intros cls' cls t x b b' H N. destruct H as [pre ps post E|pre post E]; subst b.
  - split; [rewrite !(cpars_mid cls' pre), cpars_block_other by exact N; reflexivity|].
    intros u U. apply upper_mid in U. apply upper_mid. rewrite cpars_block_other by exact N. exact U.
  - split; [rewrite (cpars_mid cls' pre), cpars_app, cpars_new_other by exact N; reflexivity|].
    intros u U. apply upper_app in U. apply upper_mid. rewrite cpars_new_other by exact N. tauto.
Qed.

Lemma placed_upper : forall cls t p b b' u, placed t p b b' -> upper cls b u -> t <= u -> upper cls b' u.
Proof.
  intros cls t p b b' u H U L. destruct H as [pre ps post E|pre post E]; subst b;
    [apply upper_mid in U|apply upper_app in U]; apply upper_mid; cbn [fst]; tauto.
Qed.
Lemma place_all_other : forall primary cls cls' qs b, str_eqb cls cls' = false ->
  cpars cls' (place_all primary cls qs b) = cpars cls' b.
Proof.
  induction qs as [|q r IH]; intros b N; [reflexivity|]. rewrite place_all_cons, IH by exact N. apply (placed_other_class cls' cls (fst q) (snd q) b); [apply place_placed|exact N].
Qed.
Lemma write_lang_other : forall pr cls cls' caps last b, str_eqb cls cls' = false ->
  cpars cls' (write_lang pr cls caps last b) = cpars cls' b.
Proof. intros pr cls cls' caps last b. rewrite write_lang_place_all. apply place_all_other. Qed.
Lemma not_key_neq : forall (cs : list (str * list wcue)) l0 l caps, ~ In l0 (map fst cs) -> In (l, caps) cs ->
  str_eqb l0 l = false.
Proof. intros cs l0 l caps N H. apply str_eqb_neq. intros ->. apply N. exact (in_map fst _ _ H). Qed.
Lemma write_langs_other : forall cs first cls' b, ~ In cls' (map fst cs) ->
  cpars cls' (write_langs first cs b) = cpars cls' b.
Proof.
  induction cs as [|[l caps] t IH]; intros first cls' b N; cbn [write_langs]; [reflexivity|].
  rewrite IH by (intros C; apply N; right; exact C). apply write_lang_other.
  apply str_eqb_neq. intros E. apply N. left. exact E.
Qed.

(* first language: cues of positive duration at millisecond resolution, sorted *)
Fixpoint caps_strict (lo : Z) (caps : list wcue) : Prop :=
  match caps with
  | [] => True
  | c :: t => lo <= wc_start c / 1000 /\ wc_start c / 1000 < wc_end c / 1000 /\ caps_strict (wc_end c / 1000) t
  end.
Lemma caps_strict_sorted : forall caps lo, caps_strict lo caps -> caps_sorted lo caps.
Proof.
  induction caps as [|c t IH]; intros lo H; [exact I|]. destruct H as (H1 & H2 & H3).
  split; [exact H1|]. split; [lia|apply IH; exact H3].
Qed.

(* Blocks may share a start (zero-duration cues of the first language).
   Invariant J: of two blocks with the same start, the later one holds only paragraphs of the first language.
   (Later languages always go to the FIRST block of a start, and new blocks are only created for new starts.) *)
Definition all_class (cls0 : str) (y : sync) : Prop := forall p, In p (snd y) -> fst p = cls0.
Definition J (cls0 : str) : body -> Prop := ordered (fun x y => fst y = fst x -> all_class cls0 y).

Lemma all_class_no_cpars : forall cls0 cls y, all_class cls0 y -> str_eqb cls0 cls = false -> cpars cls [y] = [].
Proof.
  intros cls0 cls [s ps] A N. unfold cpars. cbn [flat_map fst snd]. rewrite app_nil_r.
  assert (F : filter (fun p => str_eqb (fst p) cls) ps = []).
  { unfold all_class in A. cbn [snd] in A. induction ps as [|p t IH]; [reflexivity|]. cbn [filter].
    rewrite (A p (or_introl eq_refl)), N. apply IH. intros q Hq. apply A. right. exact Hq. }
  rewrite F. reflexivity.
Qed.

(* placing a later language's paragraph (class cls <> cls0): appended to that class's sequence; sorted and J kept *)
Lemma place_secondary_general : forall cls0 cls t x b, str_eqb cls0 cls = false ->
  sorted b -> J cls0 b -> upper cls b t ->
  cpars cls (place false t (cls, x) b) = cpars cls b ++ [(t, x)] /\ J cls0 (place false t (cls, x) b).
Proof.
  intros cls0 cls t x b N S Jb U.
  destruct (place_secondary_spec t (cls, x) b) as [(pre & ps & post & E1 & E2 & E3)|(pre & post & E1 & E2 & L)];
    [|destruct (L S) as [L1 L2]]; rewrite E2; subst b; apply ordered_app in Jb; destruct Jb as (J1 & J2 & J3).
  - apply sorted_app in S. destruct S as (S1 & S2 & S3). cbn [sorted] in S2. destruct S2 as [S2 S4].
    cbn [ordered fst] in J2. destruct J2 as [J2 J4].
    (* later blocks of the same start hold the first language only, those of a later start nothing of cls *)
    assert (P : cpars cls post = []).
    { apply cpars_nil_iff. intros y Hy. specialize (S2 y Hy). cbn [fst] in S2.
      destruct (Z.eq_dec (fst y) t) as [Et|Nt].
      - apply (all_class_no_cpars cls0); [apply J2; assumption|exact N].
      - destruct (cpars cls [y]) eqn:Ec; [reflexivity|]. exfalso.
        assert (fst y <= t) by (apply U; [apply in_app_iff; right; right; exact Hy|rewrite Ec; discriminate]). lia. }
    split.
    + rewrite !(cpars_mid cls pre), cpars_block_snoc, P, !app_nil_r, <- app_assoc. reflexivity.
    + apply ordered_app. split; [exact J1|]. split; [cbn [ordered fst]; split; [exact J2|exact J4]|].
      intros u v Hu [<-|Hv] Ef.
      * exfalso. cbn [fst] in Ef. apply (E3 u Hu). symmetry. exact Ef.
      * apply (J3 u v Hu (or_intror Hv) Ef).
  - assert (P : cpars cls post = []).
    { apply (cpars_later_none cls _ post t U). intros y Hy. split; [apply in_app_iff; right; exact Hy|apply L2; exact Hy]. }
    split.
    + rewrite cpars_mid, cpars_app, cpars_new_block, P, !app_nil_r. reflexivity.
    + apply ordered_app. split; [exact J1|]. split.
      * cbn [ordered fst]. split; [|exact J2]. intros y Hy Ef. exfalso. specialize (L2 y Hy). lia.
      * intros u v Hu [<-|Hv] Ef; [|apply (J3 u v Hu Hv Ef)].
        exfalso. cbn [fst] in Ef. specialize (L1 u Hu). lia.
Qed.

Lemma place_all_secondary_general : forall cls0 cls qs lo b, str_eqb cls0 cls = false ->
  sorted b -> J cls0 b -> upper cls b lo -> ascending lo qs ->
  cpars cls (place_all false cls qs b) = cpars cls b ++ qs /\ sorted (place_all false cls qs b) /\ J cls0 (place_all false cls qs b).
Proof.
  induction qs as [|[t x] r IH]; intros lo b N S Jb U A; [rewrite app_nil_r; repeat split; assumption|].
  destruct A as [A1 A2]. cbn [fst] in A1, A2. pose proof (fun y Hy Hn => Z.le_trans _ _ _ (U y Hy Hn) A1) as Ut.
  destruct (place_secondary_general cls0 cls t x b N S Jb Ut) as [P1 J1].
  destruct (IH t (place false t (cls, x) b) N) as (P2 & S2 & J2);
    [apply place_secondary_sorted; exact S|exact J1| |exact A2|].
  - apply (placed_upper cls t (cls, x) b); [apply place_placed|exact Ut|apply Z.le_refl].
  - split; [|split; assumption]. rewrite place_all_cons. cbn [fst snd]. rewrite P2, P1, <- app_assoc. reflexivity.
Qed.

(* the first language: appended block by block; afterwards every paragraph is of that language *)
Lemma place_all_primary_general : forall cls qs b, (forall y, In y b -> all_class cls y) ->
  cpars cls (place_all true cls qs b) = cpars cls b ++ qs /\ (forall y, In y (place_all true cls qs b) -> all_class cls y).
Proof.
  induction qs as [|[t x] r IH]; intros b A; [rewrite app_nil_r; split; [reflexivity|exact A]|].
  destruct (IH (place true t (cls, x) b)) as [P A'].
  - unfold place. intros y Hy. apply in_app_iff in Hy. destruct Hy as [Hy|[<-|[]]]; [apply A; exact Hy|].
    intros p [<-|[]]. reflexivity.
  - split; [|exact A']. rewrite place_all_cons. cbn [fst snd]. rewrite P. unfold place.
    rewrite cpars_app, cpars_new_block, <- app_assoc. reflexivity.
Qed.
Lemma write_lang_primary_general : forall cls caps last b, (forall y, In y b -> all_class cls y) ->
  cpars cls (write_lang true cls caps last b) = cpars cls b ++ lang_pars caps last
  /\ (forall y, In y (write_lang true cls caps last b) -> all_class cls y).
Proof. intros cls caps last b. rewrite write_lang_place_all. apply place_all_primary_general. Qed.

Lemma all_class_J : forall cls0 b, (forall y, In y b -> all_class cls0 y) -> J cls0 b.
Proof.
  induction b as [|x r IH]; intros A; [exact I|]. split.
  - intros y Hy _. apply A. right. exact Hy.
  - apply IH. intros y Hy. apply A. right. exact Hy.
Qed.

Lemma write_langs_secondary_general : forall cls0 cs b,
  sorted b -> J cls0 b -> NoDup (map fst cs) -> ~ In cls0 (map fst cs) ->
  (forall l caps, In (l, caps) cs -> caps_sorted 0 caps /\ cpars l b = []) ->
  forall l caps, In (l, caps) cs -> cpars l (write_langs false cs b) = lang_pars caps None.
Proof.
  induction cs as [|[l caps] t IH]; intros b S Jb N N0 H l' caps' Hin; [destruct Hin|]. cbn [write_langs].
  inversion N as [|? ? N1 N2]; subst. rewrite write_lang_place_all.
  destruct (H l caps (or_introl eq_refl)) as [C E].
  assert (U : upper l b 0).
  { intros y Hy Hn. exfalso. apply Hn. apply (proj1 (cpars_nil_iff l b) E y Hy). }
  pose proof (not_key_neq _ _ _ _ N0 (or_introl eq_refl)) as Nl.
  destruct (place_all_secondary_general cls0 l _ 0 b Nl S Jb U (lang_pars_ascending caps None C)) as (P1 & S1 & J1).
  destruct Hin as [Hin|Hin].
  - inversion Hin; subst. rewrite (write_langs_other t false l' _ N1), P1, E. reflexivity.
  - apply (IH _ S1 J1 N2); [intros C0; apply N0; right; exact C0| |exact Hin].
    intros l2 caps2 Hin2. destruct (H l2 caps2 (or_intror Hin2)) as [C' E']. split; [exact C'|].
    rewrite place_all_other; [exact E'|exact (not_key_neq _ _ _ _ N1 Hin2)].
Qed.

(* C14_sami_language_order: whenever every language's cues are sorted (ms resolution; zero-duration and coinciding
   cues allowed) and language names are distinct, the paragraphs of every language in the written body are exactly
   the writer's sequence for its cue list, in order *)
Theorem sami_language_order : forall cs, NoDup (map fst cs) ->
  (forall l caps, In (l, caps) cs -> caps_sorted 0 caps) ->
  forall l caps, In (l, caps) cs -> cpars l (sami_write cs) = lang_pars caps None.
Proof.
  intros [|[l0 caps0] rest] N C l caps Hin; [destruct Hin|]. unfold sami_write. cbn [write_langs].
  inversion N as [|? ? N1 N2]; subst.
  destruct (write_lang_primary_general l0 caps0 None [] (fun y (H : In y []) => match H with end)) as (P0 & A0).
  destruct Hin as [Hin|Hin]; [inversion Hin; subst; rewrite (write_langs_other rest false l _ N1), P0; reflexivity|].
  apply (write_langs_secondary_general l0 rest _); [|exact (all_class_J _ _ A0)|exact N2|exact N1| |exact Hin].
  - rewrite write_lang_place_all.
    apply (place_all_primary_sorted l0 _ 0); [exact I|intros y []|apply (lang_pars_ascending caps0 None), (C l0 caps0); left; reflexivity].
  - intros l' caps' H'. split; [apply (C l' caps'); right; exact H'|].
    apply cpars_nil_iff. intros y Hy. apply (all_class_no_cpars l0); [apply A0; exact Hy|exact (not_key_neq _ _ _ _ N1 H')].
Qed.

(* the same for a first language whose cues have positive duration at ms resolution *)
Theorem sami_language_order_partial : forall l0 caps0 rest,
  NoDup (map fst ((l0, caps0) :: rest)) -> caps_strict 0 caps0 ->
  (forall l caps, In (l, caps) rest -> caps_sorted 0 caps) ->
  forall l caps, In (l, caps) ((l0, caps0) :: rest) ->
    cpars l (sami_write ((l0, caps0) :: rest)) = lang_pars caps None.
Proof.
  intros l0 caps0 rest N C0 Cr. apply (sami_language_order _ N).
  intros l caps [Hin|Hin]; [inversion Hin; subst; apply caps_strict_sorted; exact C0|exact (Cr l caps Hin)].
Qed.

Definition nonblank (q : Z * str) : bool := negb (str_eqb (snd q) (lit "&nbsp;")).

Lemma pars_block : forall (s : Z) cls (ps : list par),
  map (fun p : str * str => (s, snd p)) (filter (fun p => str_eqb (fst p) cls && negb (SpecLangs.blank_par p)) ps)
  = filter nonblank (map (fun p : str * str => (s, snd p)) (filter (fun p => str_eqb (fst p) cls) ps)).
Proof.
  induction ps as [|p t IH]; [reflexivity|]. cbn [filter].
  destruct (str_eqb (fst p) cls) eqn:E; cbn [andb]; [|exact IH].
  assert (NB : nonblank (s, snd p) = negb (SpecLangs.blank_par p)) by reflexivity.
  cbn [map filter]. rewrite NB.
  destruct (negb (SpecLangs.blank_par p)); cbn [map]; rewrite IH; reflexivity.
Qed.

Lemma pars_of_cpars : forall cls b, SpecLangs.pars_of cls b = filter nonblank (cpars cls b).
Proof.
  intros cls b. unfold SpecLangs.pars_of, cpars. induction b as [|[s ps] r IH]; [reflexivity|].
  cbn [flat_map fst snd]. rewrite filter_app, IH, pars_block. reflexivity.
Qed.

Lemma lang_pars_nonblank : forall caps last,
  (forall c, In c caps -> str_eqb (wc_text c) (lit "&nbsp;") = false) ->
  filter nonblank (lang_pars caps last) = map (fun c => (wc_start c / 1000, wc_text c)) caps.
Proof.
  induction caps as [|c t IH]; intros last H; [reflexivity|]. cbn [lang_pars map].
  rewrite filter_app. cbn [filter]. unfold nonblank at 2. cbn [snd]. rewrite (H c (or_introl eq_refl)). cbn [negb].
  rewrite IH by (intros d Hd; apply H; right; exact Hd).
  destruct (blank_due last (wc_start c / 1000)); reflexivity.
Qed.

(* the model's body satisfies the list clause of the oracle ok_sami_body for every language *)
Theorem sami_language_cues : forall cs, NoDup (map fst cs) ->
  (forall l caps, In (l, caps) cs -> caps_sorted 0 caps) ->
  (forall l caps c, In (l, caps) cs -> In c caps -> str_eqb (wc_text c) (lit "&nbsp;") = false) ->
  forall l caps, In (l, caps) cs ->
    SpecLangs.pars_of l (sami_write cs) = map (fun c => (wc_start c / 1000, wc_text c)) caps.
Proof.
  intros cs N C T l caps Hin. rewrite pars_of_cpars, (sami_language_order cs N C l caps Hin).
  apply lang_pars_nonblank. intros c Hc. apply (T l caps c Hin Hc).
Qed.

From Coq Require Import Permutation.

Lemma placed_perm : forall cls t x b b', placed t (cls, x) b b' ->
  Permutation (cpars cls b') (cpars cls b ++ [(t, x)]).
Proof.
  intros cls t x b b' H. destruct H as [pre ps post E|pre post E]; subst b.
  - rewrite !(cpars_mid cls pre), cpars_block_snoc, <- !app_assoc.
    apply Permutation_app_head. apply Permutation_app_head. apply Permutation_app_comm.
  - rewrite cpars_mid, cpars_app, cpars_new_block, <- app_assoc. apply Permutation_app_head. apply Permutation_app_comm.
Qed.

Lemma place_all_perm : forall primary cls qs b,
  Permutation (cpars cls (place_all primary cls qs b)) (cpars cls b ++ qs).
Proof.
  induction qs as [|[t x] r IH]; intros b; [rewrite app_nil_r; apply Permutation_refl|].
  eapply Permutation_trans; [exact (IH (place primary t (cls, x) b))|].
  change ((t, x) :: r) with ([(t, x)] ++ r). rewrite app_assoc. apply Permutation_app_tail.
  apply placed_perm, place_placed.
Qed.

Lemma write_langs_perm : forall cs first b l caps, NoDup (map fst cs) -> In (l, caps) cs ->
  Permutation (cpars l (write_langs first cs b)) (cpars l b ++ lang_pars caps None).
Proof.
  induction cs as [|[l0 caps0] t IH]; intros first b l caps N Hin; [destruct Hin|]. cbn [write_langs].
  inversion N as [|? ? N1 N2]; subst. rewrite write_lang_place_all. destruct Hin as [Hin|Hin].
  - inversion Hin; subst. rewrite (write_langs_other t false l _ N1). apply place_all_perm.
  - eapply Permutation_trans; [exact (IH false _ l caps N2 Hin)|]. rewrite place_all_other; [apply Permutation_refl|exact (not_key_neq _ _ _ _ N1 Hin)].
Qed.

(* C14_sami_languages_never_mix, no sortedness at all: whatever the cue times, every language's paragraphs in the body
   are - as a multiset, each with the start of the block it sits in - exactly the writer's sequence for that language's
   cue list; a class that is not a language of the set has no paragraph *)
Theorem sami_languages_never_mix : forall cs, NoDup (map fst cs) ->
  (forall l caps, In (l, caps) cs -> Permutation (cpars l (sami_write cs)) (lang_pars caps None))
  /\ (forall cls, ~ In cls (map fst cs) -> cpars cls (sami_write cs) = []).
Proof.
  intros cs N. unfold sami_write. split; [|intros cls Hc; apply (write_langs_other cs true cls [] Hc)].
  intros l caps Hin. apply (write_langs_perm cs true [] l caps N Hin).
Qed.

Definition as_sset (cs : list (str * list wcue)) : sset :=
  map (fun lc => (fst lc, map (fun c => (wc_start c, wc_text c)) (snd lc))) cs.

(* domain: distinct language names, every language's cues sorted at ms resolution, no cue text equal to the blank *)
Definition dom_sami_write (cs : list (str * list wcue)) : Prop :=
  NoDup (map fst cs) /\ (forall l caps, In (l, caps) cs -> caps_sorted 0 caps) /\
  (forall l caps c, In (l, caps) cs -> In c caps -> str_eqb (wc_text c) (lit "&nbsp;") = false).

Lemma in_cpars : forall (s : sync) p b, In s b -> In p (snd s) -> In (fst s, snd p) (cpars (fst p) b).
Proof.
  intros s p b Hs Hp. unfold cpars. apply in_flat_map. exists s. split; [exact Hs|].
  apply in_map_iff. exists p. split; [reflexivity|]. apply filter_In. split; [exact Hp|apply str_eqb_refl].
Qed.

Theorem sami_write_meets_oracle : forall cs, dom_sami_write cs -> ok_sami_body (as_sset cs) (sami_write cs) = true.
Proof.
  intros cs (N & C & T). unfold ok_sami_body. apply andb_true_intro. split; [apply andb_true_intro; split|].
  - apply sorted_nondecr. apply sami_syncs_sorted. destruct cs as [|[l caps] t]; [exact I|]. apply (C l caps). left. reflexivity.
  - unfold as_sset. rewrite forallb_forall. intros lc Hlc. apply in_map_iff in Hlc. destruct Hlc as [[l caps] [<- Hin]].
    cbn [fst snd]. rewrite (sami_language_cues cs N C T l caps Hin), map_map. cbn [fst snd].
    apply list_eqb_refl. apply cue_eqb_refl.
  - rewrite forallb_forall. intros s Hs. rewrite forallb_forall. intros p Hp.
    unfold as_sset. rewrite map_map. cbn [fst].
    destruct (smem (fst p) (map fst cs)) eqn:M; [reflexivity|]. exfalso.
    destruct (sami_languages_never_mix cs N) as [_ O].
    assert (NI : ~ In (fst p) (map fst cs)).
    { intros Hin. apply mem_In in Hin. unfold mem in Hin. unfold smem in M. congruence. }
    pose proof (in_cpars s p (sami_write cs) Hs Hp) as I. rewrite (O (fst p) NI) in I. destruct I.
Qed.
