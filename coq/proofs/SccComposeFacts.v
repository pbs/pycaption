(* C17: the clause theorems composed.  For caption sets over the basic character set, laid out on at most 15
   rows per caption and spaced so that every cue can be transmitted before its start, the DOCUMENT the writer model
   produces satisfies the whole property oracle spec.SpecSccw.ok_output (verdict 0): Scenarist header and hex words,
   odd parity, one pop-on load per cue whose body decodes to rows 1..15 of at most 32 columns carrying the words of
   the text (over-long words in pieces), displayed within three frames of the start, timecodes non-decreasing. *)
From Coq Require Import List ZArith QArith Qround Qabs Lia Lqa Bool ZifyBool Arith.
From PV Require Import lib.Sx lib.Str lib.Result model.GenSccw model.SccWrap model.SccWrite spec.SpecSccw.
From PV Require Import proofs.SccwStr proofs.SccWrapFacts proofs.SccWriteFacts proofs.SccTimingFacts proofs.SccWordsFacts
     proofs.SccDecodeFacts proofs.SccLayoutFacts proofs.SccDocFacts.
Import ListNotations.
Open Scope Z_scope.

Definition to_cue (c : wcap) : cue := mkCue (w_text c) (w_start c) (w_end c).
Definition cap_dom (c : wcap) : Prop :=
  basic_text (w_text c) = true /\ (length (layout_rows (w_text c)) <= 15)%nat.
(* transmission time of a cue in code words: its body and the eight framing words *)
Definition cap_words (c : wcap) : Q :=
  match text_to_words (w_text c) with Ok ws => inject_Z (Z.of_nat (length ws) + 8) | Err _ => 0%Q end.
(* the statement's hypothesis: cues ordered, not overlapping, each starting at least its own transmission time after
   the previous cue's start (the first: after 0) *)
Fixpoint caps_spaced (prev_start : Q) (caps : list wcap) : Prop :=
  match caps with
  | [] => True
  | c :: t => (prev_start <= w_start c - cap_words c * mpc)%Q /\ (w_start c <= w_end c)%Q /\
              match t with [] => True | c' :: _ => (w_end c <= w_start c')%Q end /\ caps_spaced (w_start c) t
  end.

Lemma strip_exact_load : forall ws, strip_exact ((pre4 ++ ws ++ post3) ++ [EOC]) = Some ws.
Proof.
  intros ws. change ((pre4 ++ ws ++ post3) ++ [EOC]) with (ENM :: ENM :: RCL :: RCL :: ((ws ++ post3) ++ [EOC])).
  unfold strip_exact. change (w_eqb ENM ENM && w_eqb ENM ENM && w_eqb RCL RCL && w_eqb RCL RCL) with true. cbv iota.
  rewrite rev_app_distr. cbn [rev app]. unfold post3. rewrite rev_app_distr. cbn [rev app].
  change (w_eqb EDM EDM && w_eqb EDM EDM && w_eqb EOC EOC && w_eqb EOC EOC) with true. cbv iota.
  rewrite rev_involutive. reflexivity.
Qed.
Lemma strip_load_load : forall ws, strip_load ((pre4 ++ ws ++ post3) ++ [EOC]) = Some ws.
Proof. intros. unfold strip_load. rewrite strip_exact_load. reflexivity. Qed.

Lemma w_eqb_eq : forall a b, w_eqb a b = true -> a = b.
Proof. intros [a1 a2] [b1 b2] H. unfold w_eqb in H. cbn [fst snd] in H. apply andb_prop in H. destruct H. f_equal; lia. Qed.

(* one step of the decoder: it goes on with the rest, remembering this word or (behind a doubled control code) nothing *)
Lemma decode_body_cons : forall w t prev rows r, decode_body (w :: t) prev rows = Some r ->
  exists prev' rows', decode_body t prev' rows' = Some r /\ (prev' = None \/ prev' = Some w).
Proof.
  intros w t prev rows r D. cbn [decode_body] in D. destruct (is_control w).
  - destruct (match prev with Some p => w_eqb p w | None => false end); [eauto|].
    destruct (pac_row (fst w) (snd w)), (pac_indent (snd w)); try discriminate. eauto.
  - destruct (cea_basic (fst w mod 128)), rows as [|[rr txt] rows']; try discriminate.
    destruct (snd w mod 128 =? 0); [eauto|]. destruct (cea_basic (snd w mod 128)); [eauto|discriminate].
Qed.

(* a body the decoder accepts contains no End-Of-Caption: EOC is a control code that is no PAC *)
Lemma decode_no_eoc : forall ws prev rows r, decode_body ws prev rows = Some r ->
  match prev with Some p => w_eqb p EOC = false | None => True end ->
  forall x, In x ws -> w_eqb x EOC = false.
Proof.
  induction ws as [|w t IH]; intros prev rows r D P x Hx; [destruct Hx|].
  assert (NE : w_eqb w EOC = false).
  { apply not_true_is_false. intros E. apply w_eqb_eq in E. subst w. cbn [decode_body] in D.
    change (is_control EOC) with true in D. destruct prev as [p|]; [rewrite P in D|]; discriminate D. }
  destruct Hx as [<-|Hx]; [exact NE|].
  destruct (decode_body_cons w t prev rows r D) as (prev' & rows' & D' & [-> | ->]).
  - exact (IH None rows' r D' I x Hx).
  - exact (IH (Some w) rows' r D' NE x Hx).
Qed.

Lemma index_of_skip : forall w l r i, (forall x, In x l -> w_eqb x w = false) ->
  index_of w (l ++ r) i = index_of w r (i + Z.of_nat (length l)).
Proof.
  induction l as [|a t IH]; intros r i H; cbn [app length index_of].
  - f_equal. lia.
  - rewrite (H a (or_introl eq_refl)). rewrite IH by (intros x Hx; apply H; right; exact Hx). f_equal. lia.
Qed.

Lemma index_of_load : forall ws, (forall x, In x ws -> w_eqb x EOC = false) ->
  index_of EOC ((pre4 ++ ws ++ post3) ++ [EOC]) 0 = Some (Z.of_nat (length ws) + 6).
Proof.
  intros ws H. rewrite <- !app_assoc. rewrite (index_of_skip EOC pre4).
  - rewrite (index_of_skip EOC ws _ _ H). cbn [post3 app index_of length].
    change (w_eqb EDM EOC) with false. change (w_eqb EOC EOC) with true. cbv iota. f_equal. cbn [pre4 length]. lia.
  - intros x Hx. cbn [pre4] in Hx. destruct Hx as [<-|[<-|[<-|[<-|[]]]]]; reflexivity.
Qed.

Lemma number_rows_ge : forall lines first x, In x (map fst (number_rows first lines)) -> first <= x.
Proof.
  induction lines as [|l t IH]; intros first x H; cbn [number_rows map] in H; [destruct H|].
  destruct H as [<-|H]; [cbn [fst]; lia|]. apply IH in H. lia.
Qed.
Lemma number_rows_distinct : forall lines first, rows_distinct (map fst (number_rows first lines)) = true.
Proof.
  induction lines as [|l t IH]; intros first; [reflexivity|]. cbn [number_rows map fst rows_distinct].
  rewrite IH, andb_true_r. apply negb_true_iff. apply not_true_is_false. intros C.
  apply existsb_exists in C. destruct C as [x [Hx E]]. apply number_rows_ge in Hx. lia.
Qed.

Lemma render_words_div5 : forall ws, Z.of_nat (length (render_words ws)) / 5 = Z.of_nat (length ws).
Proof.
  intros ws. rewrite render_words_length, Nat2Z.inj_mul. change (Z.of_nat 5) with 5. rewrite Z.mul_comm. apply Z.div_mul. lia.
Qed.
Lemma code_words_render : forall ws, code_words (render_words ws) = inject_Z (Z.of_nat (length ws) + 8).
Proof. intros ws. unfold code_words. rewrite render_words_div5. reflexivity. Qed.

(* the load of one in-domain cue passes every per-load clause of the oracle *)
Lemma check_load_ok : forall c ws, cap_dom c -> text_to_words (w_text c) = Ok ws ->
  (0 <= w_start c - cap_words c * mpc)%Q ->
  check_load (to_cue c) (tc_frames (pre_roll (render_words ws) (w_start c)), (pre4 ++ ws ++ post3) ++ [EOC]) = 0.
Proof.
  intros c ws [B L] W S. unfold check_load. cbn [fst snd]. rewrite strip_load_load.
  destruct (decode_rows_basic (w_text c) B L) as (ws' & W' & D). rewrite W in W'. inversion W'; subst ws'. clear W'.
  rewrite D.
  assert (V : forallb (fun r => (1 <=? fst r) && (fst r <=? 15)) (layout_rows (w_text c)) = true).
  { apply forallb_forall. intros r Hr. pose proof (layout_rows_valid (w_text c) L r Hr). lia. }
  rewrite V. cbn [negb].
  assert (Dst : rows_distinct (map fst (layout_rows (w_text c))) = true) by (unfold layout_rows; apply number_rows_distinct).
  rewrite Dst. cbn [negb].
  assert (Len : forallb (fun r => (length (snd r) <=? 32)%nat) (layout_rows (w_text c)) = true).
  { apply forallb_forall. intros r Hr. apply Nat.leb_le. apply (rows_le_32 (w_text c)). apply in_map. exact Hr. }
  rewrite Len. cbn [negb].
  assert (R : refines 32 (words (q_text (to_cue c))) (flat_map (fun r => words (snd r)) (layout_rows (w_text c))) = true).
  { rewrite flat_map_concat_map, <- (map_map snd words), <- flat_map_concat_map. apply layout_refines_words_basic. exact B. }
  rewrite R. cbn [negb].
  rewrite (index_of_load ws (decode_no_eoc ws None [] _ D I)).
  assert (CW : cap_words c = code_words (render_words ws)) by (unfold cap_words; rewrite W, code_words_render; reflexivity).
  rewrite CW in S.
  pose proof (visible_within_3_frames (render_words ws) (w_start c) S) as Vis. cbv zeta in Vis.
  rewrite render_words_div5 in Vis.
  assert (Q : q_within (inject_Z (tc_frames (pre_roll (render_words ws) (w_start c)) + (Z.of_nat (length ws) + 6)) * frame_us)
                       (q_start (to_cue c)) (3 * frame_us) = true).
  { unfold q_within. apply Qle_bool_iff. apply Qabs_Qle_condition. change frame_us with mpc. cbn [q_start to_cue].
    destruct Vis as [V1 V2]. pose proof mpc_pos as M. split; lra. }
  rewrite Q. reflexivity.
Qed.

Definition witem := (list (Z * Z) * Q * option Q)%type.        (* body words, advanced start, clear time *)
Definition unw (x : witem) : str * Q * option Q := (render_words (fst (fst x)), snd (fst x), snd x).
Definition item_ls (x : witem) : list (Q * list (Z * Z) * (Z * Z)) := cap_lines (fst (fst x)) (unw x).
Definition pline (l : Q * list (Z * Z) * (Z * Z)) : Z * list (Z * Z) := (tc_frames (fst (fst l)), snd (fst l) ++ [snd l]).


Definition wcode := (list (Z * Z) * Q * Q)%type.
Definition rc (x : wcode) : str * Q * Q := (render_words (fst (fst x)), snd (fst x), snd x).
Definition item_of (x : wcode) (y : witem) : Prop :=
  fst (fst y) = fst (fst x) /\ snd (fst y) = pre_roll (render_words (fst (fst x))) (snd (fst x))
  /\ (snd y = Some (snd x) \/ snd y = None).

Lemma pass2_items : forall wcodes : list wcode,
  exists out, pass2 [] (map rc wcodes) = map unw out /\ Forall2 item_of wcodes out.
Proof. exact pass2_words. Qed.


(* what one element of PASS 2's result has to do with its cue *)
Definition good (c : wcap) (y : witem) : Prop :=
  text_to_words (w_text c) = Ok (fst (fst y)) /\ forallb word_odd (fst (fst y)) = true
  /\ snd (fst y) = pre_roll (render_words (fst (fst y))) (w_start c)
  /\ (snd y = Some (w_end c) \/ snd y = None).

Lemma good_compose : forall caps wcodes out, Forall2 code_of caps wcodes -> Forall2 item_of wcodes out ->
  Forall2 good caps out.
Proof.
  induction caps as [|c t IH]; intros wcodes out F1 F2; inversion F1; subst; inversion F2; subst; constructor.
  - match goal with H1 : code_of c ?x, H2 : item_of ?x ?y |- _ =>
      destruct H1 as (A1 & A2 & A3 & A4); destruct H2 as (B1 & B2 & B3) end.
    unfold good. rewrite B1, B2, A3, <- A4. auto.
  - eapply IH; eassumption.
Qed.

Lemma cap_words_nonneg : forall c, (0 <= cap_words c * mpc)%Q.
Proof.
  intros c. apply Qmult_le_0_compat; [|pose proof mpc_pos; lra]. unfold cap_words.
  destruct (text_to_words (w_text c)); [|lra]. change 0%Q with (inject_Z 0). rewrite <- Zle_Qle. lia.
Qed.

Lemma caps_spaced_each : forall caps prev, (0 <= prev)%Q -> caps_spaced prev caps ->
  Forall (fun c => (0 <= w_start c - cap_words c * mpc)%Q /\ (0 <= w_start c)%Q /\ (0 <= w_end c)%Q) caps.
Proof.
  induction caps as [|c t IH]; intros prev P S; [constructor|]. destruct S as (S1 & S2 & S3 & S4).
  pose proof (cap_words_nonneg c) as CW.
  constructor; [split; [lra|split; lra]|]. apply (IH (w_start c)); [lra|exact S4].
Qed.

Lemma caps_spaced_codes : forall caps wcodes prev, Forall2 code_of caps wcodes -> caps_spaced prev caps ->
  spaced prev (map rc wcodes).
Proof.
  induction caps as [|c t IH]; intros wcodes prev F S; inversion F as [|? x ? wt Hc Ft]; subst; [exact I|].
  destruct S as (S1 & S2 & S3 & S4). destruct Hc as (A1 & A2 & A3 & A4). destruct x as [[ws s] e]. cbn [fst snd] in *. subst s e.
  cbn [map]. unfold rc at 1. cbn [fst snd spaced].
  assert (CW : cap_words c = code_words (render_words ws)) by (unfold cap_words; rewrite A1, code_words_render; reflexivity).
  rewrite <- CW. split; [exact S1|]. split; [exact S2|]. split; [|apply IH; assumption].
  destruct t as [|c' t']; inversion Ft as [|? x' ? ? Hc' ?]; subst; [exact I|].
  destruct x' as [[ws' s'] e']. destruct Hc' as (_ & _ & B3 & _). cbn [fst snd map] in *. unfold rc at 1. cbn [fst snd]. subst s'. exact S3.
Qed.

Lemma loads_ok : forall caps out, Forall cap_dom caps ->
  Forall (fun c => (0 <= w_start c - cap_words c * mpc)%Q /\ (0 <= w_start c)%Q /\ (0 <= w_end c)%Q) caps ->
  Forall2 good caps out ->
  check_loads (map to_cue caps)
              (filter (fun l => negb (is_clear_line (snd l))) (map pline (flat_map item_ls out))) = 0.
Proof.
  induction caps as [|c t IH]; intros out D S G; inversion G as [|? y ? yt Gy Gt]; subst; [reflexivity|].
  inversion D as [|? ? Dc Dt]; subst. inversion S as [|? ? Sc St]; subst.
  destruct y as [[ws s] eo]. destruct Gy as (G1 & G2 & G3 & G4). cbn [fst snd] in *.
  cbn [flat_map]. rewrite map_app, filter_app.
  assert (L : filter (fun l => negb (is_clear_line (snd l))) (map pline (item_ls (ws, s, eo)))
              = [(tc_frames s, (pre4 ++ ws ++ post3) ++ [EOC])]).
  { unfold item_ls, cap_lines, unw. cbn [fst snd map]. unfold pline at 1. cbn [fst snd filter].
    change ((pre4 ++ ws ++ post3) ++ [EOC]) with (ENM :: ENM :: RCL :: RCL :: ((ws ++ post3) ++ [EOC])).
    assert (NC : is_clear_line (ENM :: ENM :: RCL :: RCL :: (ws ++ post3) ++ [EOC]) = false).
    { unfold is_clear_line. destruct ((ws ++ post3) ++ [EOC]); reflexivity. }
    rewrite NC. cbn [negb]. destruct eo as [e|]; [|reflexivity]. cbn [map filter]. unfold pline. cbn [fst snd app].
    change (is_clear_line [EDM; EDM]) with true. reflexivity. }
  rewrite L. cbn [map app check_loads]. subst s.
  destruct Sc as (Sc1 & _). rewrite (check_load_ok c ws Dc G1 Sc1). cbn [Z.eqb]. apply IH; assumption.
Qed.

Lemma chainZ_nondecreasing : forall l lo, chainZ lo l -> nondecreasing l = true.
Proof.
  induction l as [|a t IH]; intros lo H; [reflexivity|]. destruct H as [_ H]. destruct t as [|b t']; [reflexivity|].
  change (nondecreasing (a :: b :: t')) with ((a <=? b) && nondecreasing (b :: t')).
  rewrite (IH a H), andb_true_r. destruct H as [H1 H2]. lia.
Qed.



Lemma doc_lines : forall caps doc, write caps = Ok doc -> Forall cap_dom caps ->
  Forall (fun c => (0 <= w_start c - cap_words c * mpc)%Q /\ (0 <= w_start c)%Q /\ (0 <= w_end c)%Q) caps ->
  exists wcodes out, Forall2 code_of caps wcodes /\ pass2 [] (map rc wcodes) = map unw out /\ Forall2 good caps out
                     /\ parse_document doc = Some (map pline (flat_map item_ls out)).
Proof.
  intros caps doc W D Each. rewrite Forall_forall in D, Each.
  destruct (doc_items caps doc W (fun c Hc => conj (proj1 (proj2 (Each c Hc))) (conj (proj2 (proj2 (Each c Hc))) (proj2 (D c Hc)))))
    as (wcodes & out & _ & F1 & Ep & F2 & _ & PD).
  exists wcodes, out. split; [exact F1|]. split; [exact Ep|]. split; [exact (good_compose caps wcodes out F1 F2)|exact PD].
Qed.

Theorem write_meets_oracle : forall caps doc,
  write caps = Ok doc -> Forall cap_dom caps -> caps_spaced 0 caps ->
  ok_output (map to_cue caps) doc = 0.
Proof.
  intros caps doc W D S.
  pose proof (caps_spaced_each caps 0 (Qle_refl 0) S) as Each.
  destruct (doc_items caps doc W) as (wcodes & out & _ & F1 & Ep & F2 & LOk & PD).
  { intros c Hc. rewrite Forall_forall in D, Each. destruct (Each c Hc) as (_ & Es & Ee). exact (conj Es (conj Ee (proj2 (D c Hc)))). }
  change (parse_document doc = Some (map pline (flat_map item_ls out))) in PD.
  unfold ok_output. rewrite PD.
  assert (Par : forallb (fun l => forallb (fun w => odd_parity (fst w) && odd_parity (snd w)) (snd l))
                        (map pline (flat_map item_ls out)) = true).
  { apply forallb_forall. intros l Hl. apply in_map_iff in Hl. destruct Hl as [x [<- Hx]]. exact (proj2 (proj2 (proj2 (LOk x Hx)))). }
  rewrite Par. cbn [negb].
  rewrite (loads_ok caps out D Each (good_compose caps wcodes out F1 F2)). cbn [Z.eqb negb].
  assert (Mono : nondecreasing (map fst (map pline (flat_map item_ls out))) = true).
  { rewrite map_map. unfold pline. cbn [fst].
    rewrite <- (map_map (fun l : Q * list (Z * Z) * (Z * Z) => fst (fst l)) tc_frames).
    change (flat_map item_ls out) with (flat_map lines3 out). rewrite items_times, <- Ep.
    apply (chainZ_nondecreasing _ 0). apply timecodes_monotone. apply (caps_spaced_codes caps); assumption. }
  rewrite Mono. reflexivity.
Qed.
