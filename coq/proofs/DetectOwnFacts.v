(* C20 own-output theorems: a document of the SCC / SRT / MicroDVD / WebVTT shape (spec/SpecOwn.v) assembled from
   marker-free pieces is detected as its own format by the model of detect_format. *)
From Coq Require Import List ZArith Bool Lia ZifyBool.
From PV Require Import lib.Sx lib.Str lib.Result lib.Dec model.Generated model.Detect spec.SpecDetect spec.SpecOwn
  proofs.DetectFacts.
Import ListNotations.
Open Scope Z_scope.

Lemma is_infix_cons : forall m y s, is_infix m (y :: s) = is_prefix m (y :: s) || is_infix m s.
Proof. reflexivity. Qed.

Lemma forallb_not_in : forall (P : Z -> bool) s x, forallb P s = true -> P x = false -> ~ In x s.
Proof.
  intros P s x H Hx Hin. rewrite forallb_forall in H. rewrite (H x Hin) in Hx. discriminate.
Qed.

Lemma is_prefix_app_sep : forall m a sep b, ~ In sep m -> is_prefix m (a ++ sep :: b) = true -> is_prefix m a = true.
Proof.
  induction m as [|x m IH]; intros a sep b Hs H; [reflexivity|].
  destruct a as [|y a].
  - cbn in H. apply andb_true_iff in H. destruct H as [H _]. apply Z.eqb_eq in H. subst. exfalso. apply Hs. left. reflexivity.
  - cbn in H |- *. apply andb_true_iff in H. destruct H as [H1 H2]. rewrite H1. cbn.
    apply (IH a sep b); [intros Hin; apply Hs; right; exact Hin|exact H2].
Qed.

Lemma is_infix_self_app : forall m b, is_infix m (m ++ b) = true.
Proof. intros m b. exact (is_infix_mid m [] b). Qed.

(* a separator that is not a character of the marker splits the search *)
Lemma is_infix_sep : forall m a sep b, m <> [] -> ~ In sep m ->
  is_infix m (a ++ sep :: b) = true -> is_infix m a = true \/ is_infix m b = true.
Proof.
  intros m a sep b Hm Hs. induction a as [|y a IH]; intros H.
  - cbn [app] in H. rewrite is_infix_cons in H. apply orb_true_iff in H. destruct H as [H|H]; [|right; exact H].
    destruct m as [|x m]; [congruence|]. cbn in H. apply andb_true_iff in H. destruct H as [H _].
    apply Z.eqb_eq in H. subst. exfalso. apply Hs. left. reflexivity.
  - cbn [app] in H. rewrite is_infix_cons in H. apply orb_true_iff in H. destruct H as [H|H].
    + left. rewrite is_infix_cons.
      change (y :: a ++ sep :: b) with ((y :: a) ++ sep :: b) in H.
      rewrite (is_prefix_app_sep _ _ _ _ Hs H). reflexivity.
    + destruct (IH H) as [H'|H']; [left|right; exact H']. rewrite is_infix_cons, H'. apply orb_true_r.
Qed.

(* an occurrence cannot start inside a stretch that lacks the marker's first character *)
Lemma is_infix_skip_prefix : forall x m p b, ~ In x p -> is_infix (x :: m) (p ++ b) = true -> is_infix (x :: m) b = true.
Proof.
  intros x m. induction p as [|y p IH]; intros b Hp H; [exact H|].
  cbn [app] in H. rewrite is_infix_cons in H. apply orb_true_iff in H. destruct H as [H|H].
  - cbn in H. apply andb_true_iff in H. destruct H as [H _]. apply Z.eqb_eq in H. subst. exfalso. apply Hp. left. reflexivity.
  - apply IH; [intros Hin; apply Hp; right; exact Hin|exact H].
Qed.

Lemma u_lower_app : forall a b, u_lower (a ++ b) = u_lower a ++ u_lower b.
Proof. intros. unfold u_lower. apply flat_map_app. Qed.

Lemma u_lower_cons : forall c s, u_lower (c :: s) = u_lower_ch c ++ u_lower s.
Proof. reflexivity. Qed.

Lemma assoc_none : forall c m, ~ In c (map fst m) -> assoc c m = None.
Proof.
  intros c. induction m as [|[k v] t IH]; intros H; [reflexivity|].
  cbn. destruct (k =? c) eqn:E.
  - apply Z.eqb_eq in E. subst. exfalso. apply H. left. reflexivity.
  - apply IH. intros Hin. apply H. right. exact Hin.
Qed.

(* a class of characters none of which is changed by lower() *)
Definition class_plain (P : Z -> bool) : bool := forallb (fun k => negb (P k)) (map fst lower_ascii_map).

Lemma class_lower_id : forall P s, class_plain P = true -> forallb P s = true -> u_lower s = s.
Proof.
  intros P s HP. induction s as [|c s IH]; intros H; [reflexivity|].
  cbn [forallb] in H. apply andb_true_iff in H. destruct H as [Hc Hs].
  rewrite u_lower_cons, (IH Hs). unfold u_lower_ch. rewrite assoc_none; [reflexivity|].
  apply (forallb_not_in _ _ c HP). rewrite Hc. reflexivity.
Qed.

Lemma has_nil : forall m lw, m <> [] -> has m lw [] = false.
Proof. intros m lw Hm. unfold has. destruct m as [|x m]; [congruence|]. destruct lw; reflexivity. Qed.

Lemma has_sep_nl : forall m lw a b, m <> [] -> ~ In 10 m ->
  has m lw a = false -> has m lw b = false -> has m lw (a ++ 10 :: b) = false.
Proof.
  intros m lw a b Hm Hn Ha Hb. apply not_true_is_false. intros H. unfold has in *.
  assert (E : (if lw then u_lower (a ++ 10 :: b) else a ++ 10 :: b)
              = (if lw then u_lower a else a) ++ 10 :: (if lw then u_lower b else b))
    by (destruct lw; [apply u_lower_app|reflexivity]).
  rewrite E in H. destruct (is_infix_sep m _ 10 _ Hm Hn H) as [H'|H']; eapply eq_true_false_abs; eassumption.
Qed.

Lemma has_mid : forall m lw a p b, has m lw (a ++ p ++ b) = false -> has m lw p = false.
Proof.
  intros m lw a p b H. apply not_true_is_false. intros Hp. unfold has in *.
  assert (E : is_infix m (if lw then u_lower a ++ u_lower p ++ u_lower b else a ++ p ++ b) = true)
    by (destruct lw; apply is_infix_app_r, is_infix_app_l, Hp).
  destruct lw; [rewrite !u_lower_app in H|]; congruence.
Qed.

(* a string over a class that lacks one character of the marker does not contain the marker *)
Lemma class_has_false : forall P m lw s x, class_plain P = true -> forallb P s = true -> In x m -> P x = false ->
  has m lw s = false.
Proof.
  intros P m lw s x HP Hs Hx HPx. unfold has.
  assert (E : (if lw then u_lower s else s) = s) by (destruct lw; [apply (class_lower_id P s HP Hs)|reflexivity]).
  rewrite E. apply not_true_is_false. intros H.
  apply (forallb_not_in P s x Hs HPx). apply (is_infix_incl m s H x Hx).
Qed.

(* the marker list of a writer: every marker is non-empty and has no newline *)
Definition markers_ok (ms : list (str * bool)) : bool :=
  forallb (fun mk => match fst mk with [] => false | _ => true end && forallb (fun c => negb (c =? 10)) (fst mk)) ms.

Lemma markers_ok_spec : forall ms m lw, markers_ok ms = true -> In (m, lw) ms -> m <> [] /\ ~ In 10 m.
Proof.
  intros ms m lw H Hin. unfold markers_ok in H. rewrite forallb_forall in H. specialize (H _ Hin).
  cbn [fst] in H. apply andb_true_iff in H. destruct H as [H1 H2]. split.
  - destruct m; discriminate.
  - apply (forallb_not_in _ _ 10 H2). reflexivity.
Qed.

Lemma markers_ok_srt : markers_ok before_srt = true.
Proof. reflexivity. Qed.

Lemma free_spec : forall ms s, free ms s = true <-> (forall m lw, In (m, lw) ms -> has m lw s = false).
Proof.
  intros ms s. unfold free. rewrite forallb_forall. split.
  - intros H m lw Hin. specialize (H (m, lw) Hin). cbn in H. apply negb_true_iff in H. exact H.
  - intros H [m lw] Hin. cbn. apply negb_true_iff. apply H. exact Hin.
Qed.

Lemma free_has : forall ms s m lw, free ms s = true -> In (m, lw) ms -> has m lw s = false.
Proof. intros ms s m lw H. apply (proj1 (free_spec ms s) H). Qed.

Lemma free_nil : forall ms, markers_ok ms = true -> free ms [] = true.
Proof.
  intros ms H. apply free_spec. intros m lw Hin. apply has_nil.
  apply (proj1 (markers_ok_spec ms m lw H Hin)).
Qed.

Lemma free_sep_nl : forall ms a b, markers_ok ms = true -> free ms a = true -> free ms b = true ->
  free ms (a ++ 10 :: b) = true.
Proof.
  intros ms a b Hok Ha Hb. apply free_spec. intros m lw Hin.
  destruct (markers_ok_spec ms m lw Hok Hin) as [Hm Hn].
  apply (has_sep_nl m lw a b Hm Hn); eapply free_has; eassumption.
Qed.

Lemma free_mid : forall ms a p b, free ms (a ++ p ++ b) = true -> free ms p = true.
Proof.
  intros ms a p b H. apply free_spec. intros m lw Hin. apply (has_mid m lw a p b). apply (free_has ms _ m lw H Hin).
Qed.

Lemma free_join : forall ms pieces, markers_ok ms = true -> forallb (free ms) pieces = true ->
  free ms (join [10] pieces) = true.
Proof.
  intros ms pieces Hok. induction pieces as [|p [|q t] IH]; intros H; [apply free_nil; exact Hok| |];
    cbn [forallb] in H; apply andb_true_iff in H; destruct H as [Hp Ht]; [exact Hp|].
  apply (free_sep_nl ms p _ Hok Hp (IH Ht)).
Qed.

Lemma class_free_srt : forall P s, class_plain P = true -> forallb P s = true -> P 60 = false -> P 87 = false ->
  free before_srt s = true.
Proof.
  intros P s HP Hs H60 H87. apply free_spec. intros m lw Hin. cbn in Hin.
  destruct Hin as [E|[E|[E|[]]]]; injection E as <- <-.
  - apply (class_has_false P _ _ s 60 HP Hs); [vm_compute; auto|exact H60].
  - apply (class_has_false P _ _ s 87 HP Hs); [vm_compute; auto|exact H87].
  - apply (class_has_false P _ _ s 60 HP Hs); [vm_compute; auto|exact H60].
Qed.

Lemma free_srt_sniffers : forall s, free before_srt s = true -> detect_mdvd s = Ok false ->
  Forall (fun q => detect_of q s = Ok false) [0; 1; 2; 3].
Proof.
  intros s H Hm.
  assert (F : forall m lw, In (m, lw) before_srt -> Ok (has m lw s) = Ok false)
    by (intros m lw Hin; f_equal; apply (free_has _ _ _ _ H Hin)).
  repeat constructor.
  - apply (F dfxp_marker true). cbn. auto.
  - exact Hm.
  - apply (F vtt_marker false). cbn. auto.
  - apply (F sami_marker true). cbn. auto.
Qed.

Lemma splitlines_aux_line : forall l rest cur started, no_linebreak l = true ->
  splitlines_aux (l ++ 10 :: rest) cur started = rev (rev l ++ cur) :: splitlines_aux rest [] false.
Proof.
  induction l as [|c l IH]; intros rest cur started H.
  - reflexivity.
  - cbn [no_linebreak forallb] in H. apply andb_true_iff in H. destruct H as [Hc Hl]. apply negb_true_iff in Hc.
    cbn [app splitlines_aux]. rewrite Hc. rewrite (IH rest (c :: cur) true Hl).
    cbn [rev]. rewrite <- app_assoc. reflexivity.
Qed.

Lemma splitlines_line : forall l rest, no_linebreak l = true -> splitlines (l ++ 10 :: rest) = l :: splitlines rest.
Proof.
  intros l rest H. unfold splitlines. rewrite (splitlines_aux_line l rest [] false H).
  rewrite app_nil_r, rev_involutive. reflexivity.
Qed.

Theorem own_scc_class : forall P body, class_plain P = true -> P 60 = false -> P 87 = false ->
  forallb P body = true -> detect_format (scc_document body) = Ok (Some R_SCC).
Proof.
  intros P body HP H60 H87 Hb.
  assert (F : free before_srt (scc_document body) = true).
  { apply (free_sep_nl _ scc_header _ markers_ok_srt eq_refl).
    apply (free_sep_nl _ [] _ markers_ok_srt eq_refl). apply (class_free_srt P body HP Hb H60 H87). }
  apply (detected [0; 1; 2; 3; 4] 5 [] _ eq_refl); [discriminate| |].
  - apply (Forall_app _ [0; 1; 2; 3] [4]). split; [apply (free_srt_sniffers _ F eq_refl)|].
    repeat constructor.
  - (* the first line is the concrete header: both line sniffers compute, whatever the body *)
    reflexivity.
Qed.

Theorem own_scc : forall body, forallb scc_body_char body = true ->
  detect_format (scc_document body) = Ok (Some R_SCC).
Proof. intros body. apply (own_scc_class scc_body_char); reflexivity. Qed.

Lemma dec_index_free : forall k, 1 <= k -> free before_srt (dec_z k) = true.
Proof.
  intros k Hk. unfold dec_z. replace (k <? 0) with false by lia.
  apply (class_free_srt is_digit); [reflexivity|apply dec_nonneg_digits; lia|reflexivity|reflexivity].
Qed.

(* every marker-free piece of a block is closed by a newline *)
Lemma srt_blocks_free : forall cues k, 1 <= k -> forallb srt_cue_ok cues = true -> free before_srt (srt_blocks k cues) = true.
Proof.
  induction cues as [|[tl txt] t IH]; intros k Hk H; [reflexivity|].
  cbn [forallb] in H. apply andb_true_iff in H. destruct H as [Hc Ht].
  unfold srt_cue_ok in Hc. cbn [fst snd] in Hc. apply andb_true_iff in Hc. destruct Hc as [Htl Htxt].
  cbn [srt_blocks]. apply (free_sep_nl _ _ _ markers_ok_srt (dec_index_free k Hk)), (free_sep_nl _ _ _ markers_ok_srt Htl),
    (free_sep_nl _ _ _ markers_ok_srt Htxt), (free_sep_nl _ [] _ markers_ok_srt eq_refl), IH; [lia|exact Ht].
Qed.

Lemma drop_last_app : forall a x, x <> [] -> drop_last (a ++ x) = a ++ drop_last x.
Proof.
  intros a x Hx. unfold drop_last. rewrite app_length.
  destruct x as [|c x]; [congruence|]. cbn [length].
  replace (length a + S (length x) - 1)%nat with (length a + length x)%nat by lia.
  replace (S (length x) - 1)%nat with (length x) by lia.
  rewrite firstn_app. rewrite firstn_all2 by lia.
  replace (length a + length x - length a)%nat with (length x) by lia. reflexivity.
Qed.

Lemma srt_document_free : forall cues, forallb srt_cue_ok cues = true -> free before_srt (srt_document cues) = true.
Proof.
  intros cues H. unfold srt_document, drop_last.
  apply (free_mid _ [] _ (skipn (length (srt_blocks 1 cues) - 1) (srt_blocks 1 cues))).
  cbn [app]. rewrite firstn_skipn. apply srt_blocks_free; [lia|exact H].
Qed.

Lemma srt_document_shape : forall tl txt rest,
  srt_document ((tl, txt) :: rest) = [49] ++ 10 :: tl ++ 10 :: drop_last (txt ++ [10; 10] ++ srt_blocks 2 rest).
Proof.
  intros tl txt rest. unfold srt_document. cbn [srt_blocks]. change (dec_z 1) with [49]. change (1 + 1) with 2.
  rewrite !app_assoc, <- (app_assoc _ [10; 10]), <- (app_assoc _ txt), drop_last_app by (destruct txt; discriminate).
  rewrite <- !app_assoc. reflexivity.
Qed.

Lemma detected_srt : forall tl rest, srt_first_ok tl = true ->
  free before_srt ([49] ++ 10 :: tl ++ 10 :: rest) = true ->
  detect_format ([49] ++ 10 :: tl ++ 10 :: rest) = Ok (Some R_SRT).
Proof.
  intros tl rest Hok F. unfold srt_first_ok in Hok. apply andb_true_iff in Hok. destruct Hok as [Hnl Harrow].
  apply (detected [0; 1; 2; 3] 4 [5] _ eq_refl); [discriminate|apply (free_srt_sniffers _ F eq_refl)|].
  cbn [detect_of]. unfold detect_srt.
  rewrite (splitlines_line [49] _ eq_refl), (splitlines_line tl _ Hnl).
  change (u_isdigit [49]) with true. cbn iota. rewrite Harrow. reflexivity.
Qed.

Theorem own_srt : forall tl txt rest, srt_first_ok tl = true -> forallb srt_cue_ok ((tl, txt) :: rest) = true ->
  detect_format (srt_document ((tl, txt) :: rest)) = Ok (Some R_SRT).
Proof.
  intros tl txt rest Hfirst Hcues. pose proof (srt_document_free _ Hcues) as F.
  rewrite srt_document_shape in *. apply (detected_srt tl _ Hfirst F).
Qed.

Lemma is_digit_re_digit : forall c, is_digit c = true -> re_digit c = true.
Proof.
  intros c H. unfold re_digit, in_ranges.
  change re_digit_ranges with ((48, 57) :: tl re_digit_ranges).
  cbn [existsb fst snd]. unfold is_digit in H. rewrite H. reflexivity.
Qed.

Lemma brace_digits_frames : forall d rest, ascii_digits d = true ->
  brace_digits ([123] ++ d ++ 125 :: rest) = Some rest.
Proof.
  intros d rest Hd. unfold ascii_digits in Hd. destruct d as [|c d]; [discriminate|].
  assert (Hre : forallb re_digit (c :: d) = true).
  { apply forallb_forall. intros x Hx. apply is_digit_re_digit. rewrite forallb_forall in Hd. apply Hd. exact Hx. }
  destruct (span_app re_digit (c :: d) (125 :: rest) Hre eq_refl) as [E1 E2].
  cbn [app brace_digits]. cbn [app] in E1, E2. rewrite E1, E2. reflexivity.
Qed.

(* a frame prefix has no '<': it cannot complete a marker that the text does not contain *)
Lemma mdvd_line_free : forall c, mdvd_cue_ok c = true -> free before_mdvd (fst c ++ snd c) = true.
Proof.
  intros [p txt] H. unfold mdvd_cue_ok in H. cbn [fst snd] in *. apply andb_true_iff in H. destruct H as [Hp Ht].
  apply free_spec. intros m lw [E|[]]. injection E as <- <-.
  pose proof (free_has before_mdvd txt dfxp_marker true Ht (or_introl eq_refl)) as Hfree.
  apply not_true_is_false. intros E. unfold has in E, Hfree.
  rewrite u_lower_app, (class_lower_id frame_char p eq_refl Hp) in E.
  change dfxp_marker with (60 :: tl dfxp_marker) in E, Hfree.
  rewrite (is_infix_skip_prefix 60 _ p _ (forallb_not_in frame_char p 60 Hp eq_refl) E) in Hfree. discriminate.
Qed.

Lemma mdvd_document_free : forall cues, forallb mdvd_cue_ok cues = true -> free before_mdvd (mdvd_document cues) = true.
Proof.
  unfold mdvd_document. induction cues as [|c t IH]; intros H; [reflexivity|].
  cbn [forallb] in H. apply andb_true_iff in H. destruct H as [Hc Ht].
  cbn [map concat]. rewrite <- !app_assoc, app_assoc. apply (free_sep_nl before_mdvd _ _ eq_refl (mdvd_line_free c Hc) (IH Ht)).
Qed.

Theorem own_mdvd : forall d1 d2 txt rest, ascii_digits d1 = true -> ascii_digits d2 = true ->
  forallb mdvd_cue_ok ((frames_prefix d1 d2, txt) :: rest) = true ->
  detect_format (mdvd_document ((frames_prefix d1 d2, txt) :: rest)) = Ok (Some R_MDVD).
Proof.
  intros d1 d2 txt rest H1 H2 Hcues.
  set (cues := (frames_prefix d1 d2, txt) :: rest) in *.
  pose proof (mdvd_document_free cues Hcues) as F.
  assert (Hshape : mdvd_document cues
                   = [123] ++ d1 ++ 125 :: ([123] ++ d2 ++ 125 :: (txt ++ [10] ++ mdvd_document rest))).
  { unfold mdvd_document, cues, frames_prefix. cbn [map concat fst snd]. rewrite <- !app_assoc. reflexivity. }
  apply (detected [0] 1 [2; 3; 4; 5] _ eq_refl); [rewrite Hshape; discriminate| |].
  - repeat constructor. exact (f_equal Ok (free_has _ _ _ _ F (or_introl eq_refl))).
  - cbn [detect_of]. unfold detect_mdvd. rewrite Hshape.
    rewrite (brace_digits_frames d1 _ H1), (brace_digits_frames d2 _ H2). reflexivity.
Qed.

Lemma detected_vtt : forall body, has dfxp_marker true (vtt_marker ++ body) = false ->
  detect_format (vtt_marker ++ body) = Ok (Some R_VTT).
Proof.
  intros body H. apply (detected [0; 1] 2 [3; 4; 5] _ eq_refl); [discriminate| |].
  - repeat constructor. exact (f_equal Ok H).
  - cbn [detect_of]. unfold detect_vtt. rewrite is_infix_self_app. reflexivity.
Qed.

Theorem own_vtt : forall pieces, forallb (free before_vtt) pieces = true ->
  detect_format (vtt_document pieces) = Ok (Some R_VTT).
Proof.
  intros pieces Hp. apply detected_vtt. apply (free_has before_vtt _ _ _) with (2 := or_introl eq_refl).
  apply (free_sep_nl before_vtt vtt_marker _ eq_refl eq_refl). apply (free_sep_nl before_vtt [] _ eq_refl eq_refl).
  apply (free_join before_vtt _ eq_refl Hp).
Qed.
