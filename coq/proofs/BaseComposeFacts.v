(* C19: composition laws of adjust_caption_timing on the exact-arithmetic model.
   adjust(skew1, off1) followed by adjust(skew2, off2) is ONE adjust with skew1*skew2 and off1*skew2 + off2 applied to
   the captions that survive the first step; in particular two offsets add up when the first drops nothing, and an
   adjust that drops nothing is undone by the inverse map.  Equalities are Leibniz equalities of caption lists (times are
   kept in lowest terms by the model). *)
From Coq Require Import List ZArith QArith Qabs Bool Lia.
From PV Require Import lib.Sx lib.StrFacts lib.Result model.Base spec.SpecBase proofs.BaseFacts.
Import ListNotations.

Lemma retime_compose : forall sk1 off1 sk2 off2 c,
  retime sk2 off2 (retime sk1 off1 c) = retime (sk1 * sk2) (off1 * sk2 + off2) c.
Proof.
  intros. unfold retime. cbn [c_start c_end c_nodes]. f_equal.
  - apply Qred_complete. rewrite Qred_correct. ring.
  - apply Qred_complete. rewrite Qred_correct. ring.
Qed.

Lemma survives_retime : forall sk off c, survives sk off c = Qle_bool 0 (c_start (retime sk off c)).
Proof. intros. unfold survives. symmetry. apply Qle_bool_comp. apply (proj1 (retime_affine sk off c)). Qed.

Theorem adjust_compose : forall sk1 off1 sk2 off2 caps,
  adjust_lang sk2 off2 (adjust_lang sk1 off1 caps)
  = adjust_lang (sk1 * sk2) (off1 * sk2 + off2) (filter (survives sk1 off1) caps).
Proof.
  intros. rewrite !adjust_lang_filter_map.
  rewrite (filter_map_swap _ _ (retime sk1 off1)).
  rewrite (filter_ext (fun x => Qle_bool 0 (c_start (retime sk1 off1 x))) (survives sk1 off1))
    by (intros c; symmetry; apply survives_retime).
  rewrite map_map. f_equal. apply map_ext. intros c. apply retime_compose.
Qed.

Theorem adjust_compose_kept : forall sk1 off1 sk2 off2 caps, forallb (survives sk1 off1) caps = true ->
  adjust_lang sk2 off2 (adjust_lang sk1 off1 caps) = adjust_lang (sk1 * sk2) (off1 * sk2 + off2) caps.
Proof. intros. rewrite adjust_compose, filter_all; [reflexivity|]. apply forallb_forall. assumption. Qed.

Lemma adjust_lang_ext : forall sk off sk' off' caps, sk == sk' -> off == off' ->
  adjust_lang sk off caps = adjust_lang sk' off' caps.
Proof.
  intros sk off sk' off' caps Hs Ho. rewrite !adjust_lang_filter_map. f_equal. apply map_ext. intros c.
  unfold retime. f_equal; apply Qred_complete; rewrite Hs, Ho; reflexivity.
Qed.

Theorem adjust_offsets_add : forall a b caps, forallb (survives 1 a) caps = true ->
  adjust_lang 1 b (adjust_lang 1 a caps) = adjust_lang 1 (a + b) caps.
Proof.
  intros a b caps H. rewrite (adjust_compose_kept _ _ _ _ _ H). apply adjust_lang_ext; ring.
Qed.

Theorem adjust_langs_compose_kept : forall sk1 off1 sk2 off2 langs,
  forallb (forallb (survives sk1 off1)) langs = true ->
  adjust sk2 off2 (adjust sk1 off1 langs) = adjust (sk1 * sk2) (off1 * sk2 + off2) langs.
Proof.
  intros sk1 off1 sk2 off2 langs H. unfold adjust. rewrite map_map. apply map_ext_in. intros l Hl.
  rewrite forallb_forall in H. apply adjust_compose_kept. apply H. exact Hl.
Qed.

(* an adjust that drops nothing is undone by the inverse affine map (skew <> 0), up to the lowest-terms form of the
   times: the round trip is the identity adjust *)
Theorem adjust_inverse : forall sk off caps, ~ sk == 0 -> forallb (survives sk off) caps = true ->
  adjust_lang (/ sk) (- off / sk) (adjust_lang sk off caps) = adjust_lang 1 0 caps.
Proof.
  intros sk off caps Hsk H. rewrite (adjust_compose_kept _ _ _ _ _ H). apply adjust_lang_ext. all: field; exact Hsk.
Qed.

(* the identity adjust keeps exactly the captions with a non-negative start, times unchanged as numbers, nodes and order
   untouched *)
Theorem adjust_identity : forall caps,
  Forall2 cap_equiv (adjust_lang 1 0 caps) (filter (fun c => Qle_bool 0 (c_start c)) caps).
Proof.
  intros caps. rewrite <- (map_id caps) at 2. apply adjust_lang_equiv. intros c.
  destruct (retime_affine 1 0 c) as [Hs [He Hn]].
  split; [rewrite Hs; ring|split; [rewrite He; ring|exact Hn]].
Qed.
