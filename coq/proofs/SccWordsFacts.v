(* C17: rows are broken only at spaces; only words longer than the width are split.
   For texts whose only whitespace character is the space (every text over the CEA-608 basic set), the words
   of the rows produced by the textwrap model refine the words of the text (spec.SpecSccw.refines). *)
From Coq Require Import List ZArith Lia Bool.
From PV Require Import lib.Sx lib.Str lib.StrFacts model.SccWrap spec.SpecSccw proofs.SccWrapFacts.
Import ListNotations.

Definition nsp (c : Z) : bool := negb (is_space c).
Definition wsk (c : str) : bool := forallb is_sp c.
Definition wdk (c : str) : bool := match c with [] => false | _ => forallb nsp c end.
Definition chunk_ok (c : str) : bool := match c with [] => false | _ => wsk c || wdk c end.
Definition F (l : list str) : list str := filter wdk l.

Fixpoint good (l : list str) : Prop :=
  match l with
  | [] => True
  | c :: t => chunk_ok c = true /\ (wdk c = true -> match t with d :: _ => wdk d = false | [] => True end) /\ good t
  end.

Definition plain (s : str) : bool := forallb (fun c => nsp c || is_sp c) s.

Lemma is_sp_space : forall c, is_sp c = true -> is_space c = true.
Proof. intros c H. unfold is_sp, is_space in *. lia. Qed.
Lemma nsp_not_sp : forall c, nsp c = true -> is_sp c = false.
Proof. intros c H. unfold nsp in H. destruct (is_sp c) eqn:E; [|reflexivity]. apply is_sp_space in E. rewrite E in H. discriminate. Qed.
Lemma nsp_not_blank : forall c, nsp c = true -> is_blank c = false.
Proof. intros c H. unfold nsp, is_space, is_blank in *. lia. Qed.
Lemma is_sp_blank : forall c, is_sp c = true -> is_blank c = true.
Proof. intros c H. unfold is_sp, is_blank in *. lia. Qed.

Lemma wdk_not_ws : forall c, wdk c = true -> is_ws_chunk c = false.
Proof.
  intros [|x t] H; [discriminate|]. simpl in H. apply andb_prop in H. destruct H as [H _].
  simpl. unfold nsp in H. destruct (is_space x); [discriminate|reflexivity].
Qed.
Lemma wsk_ws : forall c, wsk c = true -> is_ws_chunk c = true.
Proof.
  induction c as [|x t IH]; intros H; [reflexivity|]. simpl in H. apply andb_prop in H. destruct H as [H1 H2].
  simpl. rewrite (is_sp_space _ H1). simpl. auto.
Qed.
Lemma ok_kind : forall c, chunk_ok c = true -> is_ws_chunk c = negb (wdk c).
Proof.
  intros c H. destruct (wdk c) eqn:W.
  - simpl. apply wdk_not_ws. exact W.
  - simpl. apply wsk_ws. destruct c; [discriminate|]. unfold chunk_ok in H. rewrite W, orb_false_r in H. exact H.
Qed.
Lemma ok_wsk : forall c, chunk_ok c = true -> wdk c = false -> wsk c = true /\ c <> [].
Proof.
  intros c H W. destruct c; [discriminate|]. unfold chunk_ok in H. rewrite W, orb_false_r in H. split; [exact H|discriminate].
Qed.

Lemma words_skip_blanks : forall sp s, forallb is_blank sp = true -> words (sp ++ s) = words s.
Proof.
  induction sp as [|x t IH]; intros s H; [reflexivity|]. simpl in H. apply andb_prop in H. destruct H as [H1 H2].
  unfold words. cbn [app words_aux]. rewrite H1. apply IH. exact H2.
Qed.
Lemma words_aux_run : forall c s cur, forallb nsp c = true -> words_aux (c ++ s) cur = words_aux s (rev c ++ cur).
Proof.
  induction c as [|x t IH]; intros s cur H; [reflexivity|]. simpl in H. apply andb_prop in H. destruct H as [H1 H2].
  cbn [app words_aux]. rewrite (nsp_not_blank _ H1), IH by exact H2. cbn [rev]. rewrite <- app_assoc. reflexivity.
Qed.
Lemma words_word : forall c s, wdk c = true -> match s with [] => True | b :: _ => is_blank b = true end ->
  words (c ++ s) = c :: words s.
Proof.
  intros c s H Hs. unfold words. destruct c as [|x t]; [discriminate|].
  rewrite words_aux_run by exact H. rewrite app_nil_r.
  destruct (rev (x :: t)) as [|y r] eqn:E; [apply (f_equal (@length Z)) in E; rewrite rev_length in E; discriminate|].
  destruct s as [|b s']; cbn [words_aux]; rewrite ?Hs, <- E, rev_involutive; reflexivity.
Qed.

Lemma words_good : forall l, good l -> words (concat l) = F l.
Proof.
  induction l as [|c t IH]; intros G; [reflexivity|]. destruct G as (G1 & G2 & G3). cbn [concat F filter].
  destruct (wdk c) eqn:W.
  - rewrite words_word; [f_equal; apply IH; exact G3|exact W|].
    destruct t as [|d t']; [exact I|]. specialize (G2 eq_refl). destruct G3 as (D1 & _ & _).
    destruct (ok_wsk d D1 G2) as [D2 D3]. destruct d as [|y d']; [congruence|].
    cbn [concat app]. simpl in D2. apply andb_prop in D2. destruct D2 as [D2 _]. apply is_sp_blank. exact D2.
  - destruct (ok_wsk c G1 W) as [C1 _]. rewrite words_skip_blanks by exact (forallb_weaken _ _ c is_sp_blank C1). apply IH. exact G3.
Qed.

Lemma good_app_r : forall a b, good (a ++ b) -> good b.
Proof. induction a as [|x t IH]; intros b G; [exact G|]. destruct G as (_ & _ & G). apply IH. exact G. Qed.
Lemma good_app_l : forall a b, good (a ++ b) -> good a.
Proof.
  induction a as [|x t IH]; intros b G; [exact I|]. destruct G as (G1 & G2 & G3).
  split; [exact G1|]. split; [|apply (IH b); exact G3].
  intros W. specialize (G2 W). destruct t; [exact I|exact G2].
Qed.
Lemma good_snoc_same : forall a c c', good (a ++ [c]) -> chunk_ok c' = true -> wdk c' = wdk c -> good (a ++ [c']).
Proof.
  induction a as [|x t IH]; intros c c' G O K.
  - simpl. repeat split; auto.
  - destruct G as (G1 & G2 & G3). cbn [app]. split; [exact G1|]. split; [|apply (IH c); auto].
    intros W. specialize (G2 W). destruct t; cbn [app] in *; [rewrite K; exact G2|exact G2].
Qed.
Lemma F_app : forall a b, F (a ++ b) = F a ++ F b.
Proof. intros. apply filter_app. Qed.

Lemma piece_kind : forall c p, chunk_ok c = true -> p <> [] ->
  (forall q, forallb q c = true -> forallb q p = true) -> chunk_ok p = true /\ wdk p = wdk c.
Proof.
  intros c p O N Sub. destruct p as [|y p']; [congruence|]. destruct (wdk c) eqn:W.
  - assert (W' : wdk (y :: p') = true).
    { unfold wdk. apply Sub. destruct c; [discriminate|exact W]. }
    split; [|exact W']. unfold chunk_ok. rewrite W'. apply orb_true_r.
  - destruct (ok_wsk c O W) as [C1 _]. assert (S' : wsk (y :: p') = true) by (apply Sub; exact C1).
    split; [unfold chunk_ok; rewrite S'; reflexivity|].
    pose proof (wsk_ws _ S') as Q. destruct (wdk (y :: p')) eqn:W'; [|reflexivity].
    apply wdk_not_ws in W'. congruence.
Qed.

(* RefH width h ws P: the row words P refine the text words ws; h = true when the head of ws is the rest of a word
   already split on an earlier row, which may then be split again whatever its length *)
Inductive RefH (width : nat) : bool -> list str -> list str -> Prop :=
| RH_nil : forall h, RefH width h [] []
| RH_whole : forall h w ws P, RefH width false ws P -> RefH width h (w :: ws) (w :: P)
| RH_split : forall h w1 w2 ws P, (h = true \/ (width < length (w1 ++ w2))%nat) -> w1 <> [] -> w2 <> [] ->
    RefH width true (w2 :: ws) P -> RefH width h ((w1 ++ w2) :: ws) (w1 :: P).

Lemma RefH_mono : forall width ws P h, RefH width false ws P -> RefH width h ws P.
Proof.
  intros width ws P h H. inversion H; subst.
  - constructor.
  - constructor. assumption.
  - apply RH_split; auto. destruct H0 as [H0|H0]; [discriminate|right; exact H0].
Qed.
Lemma RefH_prefix : forall width l h ws P, RefH width false ws P -> RefH width h (l ++ ws) (l ++ P).
Proof.
  induction l as [|w t IH]; intros h ws P H; cbn [app].
  - apply RefH_mono. exact H.
  - apply RH_whole. apply IH. exact H.
Qed.

Lemma line_words : forall lines l l', drop_last_ws (rev l) = rev l' -> good l' ->
  flat_map words (rev (match drop_last_ws (rev l) with [] => lines | x :: y => concat (rev (x :: y)) :: lines end))
  = flat_map words (rev lines) ++ F l'.
Proof.
  intros lines l l' E G. rewrite E. destruct (rev l') eqn:R.
  - assert (l' = []) by (apply (f_equal (@rev str)) in R; rewrite rev_involutive in R; exact R). subst.
    simpl. rewrite app_nil_r. reflexivity.
  - rewrite <- R, rev_involutive. cbn [rev]. rewrite flat_map_app. cbn [flat_map]. rewrite app_nil_r, words_good by exact G. reflexivity.
Qed.

Lemma drop_last_ws_rev : forall l, good l ->
  exists l', drop_last_ws (rev l) = rev l' /\ good l' /\ F l' = F l.
Proof.
  intros l G. destruct (rev l) as [|x t] eqn:E.
  - exists []. assert (l = []) by (apply (f_equal (@rev str)) in E; rewrite rev_involutive in E; exact E). subst.
    repeat split.
  - assert (L : l = rev t ++ [x]) by (apply (f_equal (@rev str)) in E; rewrite rev_involutive in E; exact E).
    cbn [drop_last_ws]. destruct (is_ws_chunk x) eqn:Q.
    + exists (rev t). rewrite rev_involutive. split; [reflexivity|]. subst l. split; [apply good_app_l in G; exact G|].
      rewrite F_app. cbn [F filter]. destruct (wdk x) eqn:W; [apply wdk_not_ws in W; congruence|]. rewrite app_nil_r. reflexivity.
    + exists l. rewrite <- E. repeat split; auto.
Qed.

Lemma wrap_step_words : forall width chunks lines chunks' lines' h,
  (1 <= width)%nat -> good chunks -> wrap_step width chunks lines = (chunks', lines') ->
  exists Q h', flat_map words (rev lines') = flat_map words (rev lines) ++ Q /\ good chunks' /\
    (forall P, RefH width h' (F chunks') P -> RefH width h (F chunks) (Q ++ P)).
Proof.
  intros width chunks lines chunks' lines' h W G H.
  destruct (wrap_step_cases _ _ _ _ _ H) as (taken & rest & line & E & _ & C & ->).
  (* dropping a leading whitespace chunk *)
  assert (D : good (taken ++ rest) /\ F (taken ++ rest) = F chunks).
  { rewrite <- E. unfold drop_first_ws. destruct chunks as [|c0 r0]; [split; [exact I|reflexivity]|].
    destruct (is_ws_chunk c0 && _) eqn:Q; [|split; [exact G|reflexivity]].
    apply andb_prop in Q. destruct Q as [Q _]. destruct G as (G1 & _ & G3). split; [exact G3|].
    cbn [F filter]. destruct (wdk c0) eqn:W0; [apply wdk_not_ws in W0; congruence|reflexivity]. }
  destruct D as [G1 F1]. rewrite <- F1, F_app. clear F1 E G H.
  assert (Gt : good taken) by (apply good_app_l in G1; exact G1).
  assert (Gr : good rest) by (apply good_app_r in G1; exact G1).
  destruct C as [(-> & -> & _)|(c & r & -> & LW & -> & ->)].
  - (* the line is made of the taken chunks, without a trailing whitespace chunk *)
    destruct (drop_last_ws_rev taken Gt) as (l' & E & Gl & Fl). exists (F taken), false.
    split; [rewrite <- Fl; exact (line_words lines taken l' E Gl)|]. split; [exact Gr|].
    intros P HP. apply RefH_prefix. exact HP.
  - (* a chunk longer than the width: split it *)
    set (k := (width - sumlen taken)%nat) in *. destruct Gr as (C1 & C2 & C3).
    assert (N2 : skipn k c <> []).
    { intros E. apply (f_equal (@length Z)) in E. rewrite skipn_length in E. simpl in E. lia. }
    destruct (piece_kind c (skipn k c) C1 N2 (fun q => forallb_skipn q k c)) as [O2 K2].
    assert (G2 : good (skipn k c :: r)).
    { split; [exact O2|]. split; [rewrite K2; exact C2|exact C3]. }
    destruct (is_ws_chunk (firstn k c)) eqn:WS.
    + (* the piece put on the line is whitespace (or empty) and is dropped again: the line keeps all taken chunks,
         including a trailing whitespace chunk *)
      exists (F taken), false.
      assert (E : drop_last_ws (rev (taken ++ [firstn k c])) = rev taken) by (rewrite rev_unit; cbn [drop_last_ws]; rewrite WS; reflexivity).
      split; [exact (line_words lines _ taken E Gt)|]. split; [exact G2|]. intros P HP. apply RefH_prefix.
      cbn [F filter] in HP |- *. rewrite K2 in HP.
      destruct (wdk c) eqn:Wc; [|exact HP].
      (* a word chunk whose first piece is empty: the chunk is unchanged *)
      assert (K0 : firstn k c = []).
      { destruct (firstn k c) as [|y p'] eqn:Fk; [reflexivity|].
        assert (Wp : wdk (y :: p') = true).
        { rewrite <- Fk. destruct (piece_kind c (firstn k c) C1) as [_ Kp]; [rewrite Fk; discriminate| |rewrite Kp; exact Wc].
          intros q. apply forallb_firstn. }
        apply wdk_not_ws in Wp. congruence. }
      assert (Sk : skipn k c = c) by (rewrite <- (firstn_skipn k c) at 2; rewrite K0; reflexivity).
      rewrite Sk in HP. exact HP.
    + (* a real piece of a word stays on the line *)
      assert (N1 : firstn k c <> []) by (intros E; rewrite E in WS; discriminate).
      destruct (piece_kind c (firstn k c) C1 N1 (fun q => forallb_firstn q k c)) as [O1 K1].
      assert (Wc : wdk c = true).
      { destruct (wdk c) eqn:Wc; [reflexivity|]. rewrite (ok_kind _ O1), K1 in WS. discriminate. }
      exists (F taken ++ [firstn k c]), true.
      assert (Gl : good (taken ++ [firstn k c])).
      { apply (good_snoc_same taken c); auto. apply (good_app_l _ r). rewrite <- app_assoc. exact G1. }
      assert (E : drop_last_ws (rev (taken ++ [firstn k c])) = rev (taken ++ [firstn k c]))
        by (rewrite rev_unit; cbn [drop_last_ws]; rewrite WS; reflexivity).
      split.
      { etransitivity; [exact (line_words lines _ _ E Gl)|]. rewrite F_app. cbn [F filter]. rewrite K1, Wc. reflexivity. }
      split; [exact G2|].
      intros P HP. rewrite <- app_assoc. apply RefH_prefix. cbn [app F filter] in HP |- *.
      rewrite K2, Wc in HP. rewrite Wc. rewrite <- (firstn_skipn k c) at 1.
      apply RH_split; auto. right. rewrite firstn_skipn. exact LW.
Qed.

Lemma munge_plain : forall s, plain s = true -> munge s = s.
Proof.
  induction s as [|c t IH]; intros H; [reflexivity|]. simpl in H. apply andb_prop in H. destruct H as [H1 H2].
  cbn [munge map]. fold (munge t). rewrite IH by exact H2. f_equal.
  destruct (tw_is_ws c) eqn:E; [|reflexivity].
  unfold nsp, is_sp, tw_is_ws, is_space in *. lia.
Qed.

Lemma wdk_head : forall d ds, chunk_ok (d :: ds) = true -> wdk (d :: ds) = negb (is_sp d).
Proof.
  intros d ds H. destruct (wdk (d :: ds)) eqn:W.
  - simpl in W. apply andb_prop in W. rewrite (nsp_not_sp d (proj1 W)). reflexivity.
  - destruct (ok_wsk _ H W) as [S _]. simpl in S. apply andb_prop in S. rewrite (proj1 S). reflexivity.
Qed.

Lemma split_chunks_good : forall s, plain s = true ->
  good (split_chunks s) /\
  match split_chunks s, s with
  | (d :: _) :: _, c :: _ => is_sp d = is_sp c
  | [], [] => True
  | _, _ => False
  end.
Proof.
  induction s as [|c t IH]; intros H; [split; exact I|].
  simpl in H. apply andb_prop in H. destruct H as [H1 H2]. specialize (IH H2). destruct IH as [G Hd].
  assert (S1 : chunk_ok [c] = true).
  { unfold chunk_ok, wsk, wdk. cbn [forallb]. rewrite !andb_true_r, orb_comm. exact H1. }
  cbn [split_chunks]. destruct (split_chunks t) as [|[|d ds] rest] eqn:E.
  - split; [|reflexivity]. repeat split; auto.
  - destruct G as (G1 & _). discriminate.
  - destruct t as [|c' t']; [contradiction|]. destruct G as (G1 & G2 & G3). pose proof (wdk_head _ _ G1) as Kd.
    destruct (Bool.eqb (is_sp c) (is_sp d)) eqn:Q.
    + apply eqb_prop in Q. split; [|reflexivity]. rewrite <- Q in Kd.
      (* c joins the chunk of its own kind *)
      assert (K1 : chunk_ok (c :: d :: ds) = true).
      { destruct (is_sp c) eqn:Sc.
        - destruct (ok_wsk _ G1 Kd) as [Sd _]. unfold chunk_ok, wsk in *. cbn [forallb] in *. rewrite Sc, Sd. reflexivity.
        - rewrite orb_false_r in H1. unfold chunk_ok, wdk in *. cbn [forallb] in *. rewrite H1, Kd. apply orb_true_r. }
      split; [exact K1|]. split; [rewrite (wdk_head _ _ K1), <- Kd; exact G2|exact G3].
    + apply eqb_false_iff in Q. split; [|reflexivity]. split; [exact S1|]. split; [|repeat split; auto].
      rewrite (wdk_head _ _ S1), Kd. destruct (is_sp c), (is_sp d); simpl; congruence.
Qed.

Theorem wrap_refines_H : forall width text, (1 <= width)%nat -> plain text = true ->
  RefH width false (words text) (flat_map words (wrap width text)).
Proof.
  intros width text W Pl. destruct (split_chunks_good text Pl) as [G _].
  (* the words of the lines so far, continued by any refinement of the words still in the chunks, refine the text *)
  destruct (wrap_inv width text (fun chunks lines => good chunks /\ exists h,
              forall P, RefH width h (F chunks) P -> RefH width false (words text) (flat_map words (rev lines) ++ P)))
    as (ch & (_ & h & R) & Hm).
  - intros chunks lines chunks' lines' _ S (Gc & h & R).
    destruct (wrap_step_words _ _ _ _ _ h W Gc S) as (Q & h' & E & G' & R').
    split; [exact G'|]. exists h'. intros P HP. rewrite E, <- app_assoc. apply R, R', HP.
  - rewrite (munge_plain _ Pl). split; [exact G|]. exists false. intros P HP.
    rewrite <- (concat_split_chunks text) at 1. rewrite words_good by exact G. exact HP.
  - rewrite (Hm W) in R. specialize (R [] (RH_nil width h)). rewrite rev_involutive, app_nil_r in R. exact R.
Qed.

Lemma RefH_refines : forall width h ws P, RefH width h ws P ->
  (h = false -> refines width ws P = true) /\
  (forall w ws', ws = w :: ws' -> w <> [] -> forall fuel, (length w < fuel)%nat ->
     exists rest, eat_pieces fuel w P = Some rest /\ refines width ws' rest = true).
Proof.
  intros width h ws P H. induction H as [h|h w ws P H IH|h w1 w2 ws P C N1 N2 H IH].
  - split; [reflexivity|]. intros; discriminate.
  - destruct IH as [IH1 _]. specialize (IH1 eq_refl). split.
    + intros _. cbn [refines]. rewrite str_eqb_refl. exact IH1.
    + intros w' ws' E Nw fuel L. inversion E; subst w' ws'. exists P.
      destruct fuel as [|f]; [lia|]. destruct w as [|x t]; [congruence|].
      cbn [eat_pieces]. rewrite <- (app_nil_r (x :: t)) at 2. rewrite is_prefix_app.
      rewrite <- (app_nil_r (x :: t)) at 2. rewrite skipn_app, skipn_all, Nat.sub_diag. cbn [app skipn].
      destruct f as [|f']; [simpl in L; lia|]. cbn [eat_pieces]. split; [reflexivity|exact IH1].
  - destruct IH as [_ IH2].
    assert (Eat : forall fuel, (length (w1 ++ w2) < fuel)%nat ->
              exists rest, eat_pieces fuel (w1 ++ w2) (w1 :: P) = Some rest /\ refines width ws rest = true).
    { intros fuel L. destruct fuel as [|f]; [lia|]. rewrite app_length in L.
      destruct w1 as [|x t]; [congruence|].
      destruct (IH2 w2 ws eq_refl N2 f) as (rest & E1 & E2); [simpl in L; lia|].
      exists rest. split; [|exact E2].
      cbn [eat_pieces app]. change (x :: t ++ w2) with ((x :: t) ++ w2).
      rewrite is_prefix_app, skipn_app, skipn_all, Nat.sub_diag. cbn [app skipn]. exact E1. }
    split.
    + intros Hh. destruct C as [C|C]; [congruence|]. cbn [refines].
      destruct (str_eqb w1 (w1 ++ w2)) eqn:Q.
      * apply str_eqb_eq, (f_equal (@length Z)) in Q. rewrite app_length in Q. destruct w2; [congruence|]. simpl in Q. lia.
      * assert (LW : (width <? length (w1 ++ w2))%nat = true) by (apply Nat.ltb_lt; exact C). rewrite LW.
        destruct (Eat (S (length (w1 ++ w2))) ltac:(lia)) as (rest & E1 & E2). rewrite E1. exact E2.
    + intros w' ws' E Nw fuel L. inversion E; subst w' ws'. apply Eat. exact L.
Qed.

Theorem wrap_refines_words : forall width text, (1 <= width)%nat -> plain text = true ->
  refines width (words text) (flat_map words (wrap width text)) = true.
Proof.
  intros width text W Pl. destruct (RefH_refines _ _ _ _ (wrap_refines_H width text W Pl)) as [R _]. auto.
Qed.

Lemma words_aux_nl : forall a b cur, words_aux (a ++ 10%Z :: b) cur = words_aux a cur ++ words b.
Proof.
  induction a as [|x t IH]; intros b cur; cbn [app words_aux].
  - change (is_blank 10) with true. cbv iota. destruct cur; reflexivity.
  - destruct (is_blank x).
    + destruct cur; rewrite IH; reflexivity.
    + apply IH.
Qed.
Lemma words_nl : forall a b, words (a ++ 10%Z :: b) = words a ++ words b.
Proof. intros. apply words_aux_nl. Qed.

Lemma words_split_nl : forall s cur, flat_map words (split_ch_aux 10 s cur) = words (rev cur ++ s).
Proof.
  induction s as [|c t IH]; intros cur; cbn [split_ch_aux].
  - simpl. rewrite !app_nil_r. reflexivity.
  - destruct (c =? 10)%Z eqn:E.
    + assert (c = 10%Z) by lia. subst c. cbn [flat_map]. rewrite IH, words_nl. reflexivity.
    + rewrite IH. cbn [rev]. rewrite <- app_assoc. reflexivity.
Qed.
Lemma words_join_nl : forall ls, words (join [10%Z] ls) = flat_map words ls.
Proof.
  induction ls as [|a t IH]; [reflexivity|]. destruct t as [|b t'].
  - simpl. rewrite app_nil_r. reflexivity.
  - change (join [10%Z] (a :: b :: t')) with (a ++ [10%Z] ++ join [10%Z] (b :: t')).
    cbn [app]. rewrite words_nl, IH. reflexivity.
Qed.

Lemma RefH_app : forall width h a P b Q, RefH width h a P -> RefH width false b Q -> RefH width h (a ++ b) (P ++ Q).
Proof.
  intros width h a P b Q H1 H2. induction H1; cbn [app].
  - apply RefH_mono. exact H2.
  - apply RH_whole. exact IHRefH.
  - apply RH_split; auto.
Qed.

Definition plain_nl (s : str) : bool := forallb (fun c => nsp c || is_sp c || (c =? 10)%Z) s.

Lemma split_pieces_plain : forall s cur, plain_nl s = true -> plain cur = true ->
  forall x, In x (split_ch_aux 10 s cur) -> plain x = true.
Proof.
  induction s as [|c t IH]; intros cur Hs Hc x Hx; cbn [split_ch_aux] in Hx.
  - destruct Hx as [<-|[]]. unfold plain in *. rewrite forallb_forall in *. intros y Hy. apply Hc. apply in_rev. exact Hy.
  - simpl in Hs. apply andb_prop in Hs. destruct Hs as [H1 H2]. destruct (c =? 10)%Z eqn:E.
    + destruct Hx as [<-|Hx].
      * unfold plain in *. rewrite forallb_forall in *. intros y Hy. apply Hc. apply in_rev. exact Hy.
      * apply (IH [] H2 eq_refl x Hx).
    + apply (IH (c :: cur)); auto. simpl. rewrite Hc, andb_true_r. rewrite orb_false_r in H1. exact H1.
Qed.
