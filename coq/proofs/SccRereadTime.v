(* C17: the reader model's clock (model/SccTime.v get_time) on the timecodes the writer prints
   (model/SccWrite.v format_frames): word k of a line stamped with frame f is decoded at (f + k) frames of 1001/30 ms,
   for every frame number below 100 hours. *)
From Coq Require Import List ZArith QArith Lia Lqa Bool ZifyBool.
From PV Require Import lib.Sx lib.Str lib.Result model.SccTime model.SccWrite spec.SpecSccTime.
From PV Require proofs.SccTimeFacts.
Import ListNotations.
Open Scope Z_scope.
Ltac Zify.zify_post_hook ::= Z.to_euclidean_division_equations.

Definition tc_of_frames (f : Z) : timecode := mkTc (f / 108000) ((f / 1800) mod 60) ((f / 30) mod 60) false (f mod 30).

Lemma two_same : forall z, 0 <= z -> SccWrite.two z = SpecSccTime.two z.
Proof. intros z H. unfold SccWrite.two, SpecSccTime.two, dec_z. replace (z <? 0) with false by lia. reflexivity. Qed.

Lemma format_frames_render : forall f, 0 <= f -> format_frames f = render_tc (tc_of_frames f).
Proof.
  intros f H. unfold format_frames, render_tc, tc_of_frames. cbn [tc_h tc_m tc_s tc_f tc_drop].
  rewrite !two_same by lia. reflexivity.
Qed.

Lemma get_time_frames : forall f k, 0 <= f < 10800000 -> 0 <= k ->
  exists t, get_time (format_frames f) k 0 = Ok t /\ (t == inject_Z (f + k) * mpc)%Q.
Proof.
  intros f k Hf Hk. rewrite (format_frames_render f ltac:(lia)).
  assert (W : tc_wf (tc_of_frames f) = true) by (unfold tc_wf, tc_of_frames; cbn [tc_h tc_m tc_s tc_f]; lia).
  destruct (SccTimeFacts.get_time_exact (tc_of_frames f) k 0 W Hk) as (t & E & V). exists t. split; [exact E|].
  rewrite V. unfold spec_instant, tc_of_frames. cbn [tc_h tc_m tc_s tc_f tc_drop]. cbv zeta.
  assert (A : (3600 * (f / 108000) + 60 * ((f / 1800) mod 60) + (f / 30) mod 60 = f / 30)%Z) by lia.
  rewrite A.
  assert (B : (inject_Z (f / 30) + inject_Z (f mod 30 + k) / inject_Z 30 == inject_Z (f + k) / inject_Z 30)%Q).
  { assert (C : (f + k = 30 * (f / 30) + (f mod 30 + k))%Z) by lia. rewrite C.
    rewrite !inject_Z_plus, inject_Z_mult. field. }
  unfold qmax0.
  assert (P : (0 <= (inject_Z (f / 30) + inject_Z (f mod 30 + k) / inject_Z 30) * (1001 # 1000) * million - 0)%Q).
  { rewrite B. unfold million, Qdiv. assert (0 <= inject_Z (f + k))%Q by (change 0%Q with (inject_Z 0); rewrite <- Zle_Qle; lia).
    change (/ inject_Z 30)%Q with (1 # 30)%Q. change (inject_Z 1000000) with (1000000 # 1)%Q. nra. }
  apply Qle_bool_iff in P. rewrite P. rewrite B. unfold million, mpc, Qdiv.
  change (/ inject_Z 30)%Q with (1 # 30)%Q. change (inject_Z 1000000) with (1000000 # 1)%Q. ring.
Qed.
