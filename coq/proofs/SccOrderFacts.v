(* C15, the order clause at the level of the STREAM, on the decoder model, inside the domain of the pop-on refinement:
   two transmissions of one load that differ only in the order of its rows (the rows of a load share a start time) are
   both read without the line-length error, by the same EOC instant, and each satisfies the screen oracle of its own
   row order. The domain (load_wf) bounds every row by 32 cells, so this says "no order makes the reader raise a spurious
   length error"; for loads with an over-long row the staged simulation does not apply and the order clause stays a
   correspondence obligation (every order is executed by the harness). *)
From Coq Require Import List ZArith QArith Lia Bool Permutation.
From PV Require Import lib.Sx lib.Str lib.Result model.GenScc model.SccLen model.SccTime model.SccStash model.SccDecoder
                       model.SccPopon spec.Spec608 spec.SpecScc05 proofs.SccPoponStage3 proofs.SccPoponStage8.
Import ListNotations. Open Scope Z_scope.

Lemma forallb_perm {A} (f : A -> bool) (l l' : list A) : Permutation l l' -> forallb f l = forallb f l'.
Proof.
  induction 1; cbn [forallb]; try congruence.
  - destruct (f x), (f y); reflexivity.
Qed.

Lemma existsb_perm {A} (f : A -> bool) (l l' : list A) : Permutation l l' -> existsb f l = existsb f l'.
Proof.
  induction 1; cbn [existsb]; try congruence.
  - destruct (f x), (f y); reflexivity.
Qed.

Lemma distinct_perm (l l' : list Z) : Permutation l l' -> distinct l = distinct l'.
Proof.
  induction 1; cbn [distinct]; try congruence.
  - unfold mem. rewrite IHPermutation, (existsb_perm _ l l' H). reflexivity.
  - cbn [mem existsb]. rewrite (Z.eqb_sym y x). unfold mem.
    destruct (x =? y), (existsb (Z.eqb x) l), (existsb (Z.eqb y) l), (distinct l); reflexivity.
Qed.

Lemma load_wf_perm (l l' : load) : Permutation l l' -> load_wf l = load_wf l'.
Proof.
  intro P. unfold load_wf.
  rewrite (forallb_perm row_ok l l' P), (distinct_perm _ _ (Permutation_map rw_row P)).
  destruct l, l'; try reflexivity.
  - apply Permutation_nil in P. discriminate.
  - apply Permutation_sym, Permutation_nil in P. discriminate.
Qed.

Lemma length_flat_map_perm {A B} (f : A -> list B) (l l' : list A) :
  Permutation l l' -> length (flat_map f l) = length (flat_map f l').
Proof.
  induction 1; cbn [flat_map]; rewrite ?app_length; try lia.
Qed.

Lemma length_emit_load_perm d (l l' : load) : Permutation l l' -> length (emit_load d l) = length (emit_load d l').
Proof.
  intro P. unfold emit_load. rewrite !app_length, (length_flat_map_perm (emit_row d) l l' P). reflexivity.
Qed.

(* one hypothesis set serves both orders: the End-Of-Caption code sits at the same word index in either order *)
Theorem popon_row_order_free : forall d l l' off tc tc2 t1 t2, Permutation l l' -> load_wf l = true ->
  get_time tc (Z.of_nat (length (emit_load d l)) - (if d then 2 else 1)) off = Ok t1 ->
  get_time tc2 0 off = Ok t2 -> (0 < t1)%Q -> (t1 < t2)%Q -> is_flash (mkPre t1 t2 [] None) = false ->
  exists caps caps',
    read off [(tc, emit_load d l); (tc2, emit_clear d)] = ROk caps /\
    read off [(tc, emit_load d l'); (tc2, emit_clear d)] = ROk caps' /\
    ok_c05 (mkProg d [l]) (Ok (map observe caps)) = true /\
    ok_c05 (mkProg d [l']) (Ok (map observe caps')) = true.
Proof.
  intros d l l' off tc tc2 t1 t2 P W T1 T2 H0 H1 F.
  destruct (popon_stage8 d l off tc tc2 t1 t2 W T1 T2 H0 H1 F) as (caps & R & K).
  assert (W' : load_wf l' = true) by (rewrite <- (load_wf_perm l l' P); exact W).
  assert (T1' : get_time tc (Z.of_nat (length (emit_load d l')) - (if d then 2 else 1)) off = Ok t1)
    by (rewrite <- (length_emit_load_perm d l l' P); exact T1).
  destruct (popon_stage8 d l' off tc tc2 t1 t2 W' T1' T2 H0 H1 F) as (caps' & R' & K').
  exists caps, caps'. repeat split; assumption.
Qed.
Print Assumptions popon_row_order_free.

(* non-vacuity: rows 15 and 3 (non-adjacent: two captions sharing a start) in either order *)
Definition ord_a : load := [mkRow 15 0 0 0 [Ch 97; Ch 98]; mkRow 3 4 1 0 [Ch 99]].
Definition ord_b : load := [mkRow 3 4 1 0 [Ch 99]; mkRow 15 0 0 0 [Ch 97; Ch 98]].
Example popon_row_order_free_instance :
  exists caps caps',
    read 0 [(lit "00:00:01;00", emit_load true ord_a); (lit "00:00:05;00", emit_clear true)] = ROk caps /\
    read 0 [(lit "00:00:01;00", emit_load true ord_b); (lit "00:00:05;00", emit_clear true)] = ROk caps' /\
    ok_c05 (mkProg true [ord_a]) (Ok (map observe caps)) = true /\
    ok_c05 (mkProg true [ord_b]) (Ok (map observe caps')) = true.
Proof.
  assert (T : exists t1, get_time (lit "00:00:01;00") (Z.of_nat (length (emit_load true ord_a)) - 2) 0 = Ok t1 /\
                         (0 < t1)%Q /\ (t1 < 5000000)%Q /\ is_flash (mkPre t1 5000000 [] None) = false).
  { eexists. split; [vm_compute; reflexivity|]. repeat split; vm_compute; reflexivity. }
  destruct T as (t1 & T1 & H0 & H1 & F).
  apply (popon_row_order_free true ord_a ord_b 0 (lit "00:00:01;00") (lit "00:00:05;00") t1 5000000);
    [apply perm_swap|vm_compute; reflexivity|exact T1|vm_compute; reflexivity|exact H0|exact H1|exact F].
Qed.
