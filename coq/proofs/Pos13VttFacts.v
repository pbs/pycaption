(* C13, WebVTT at writer level: the cues of a whole language, composed over captions and layout groups.
   What is true: a cue whose effective layout carries raw cue settings gets exactly those (verbatim - C12's clause, no
   claim about their units); every other cue has no settings or computed settings in percentages only; with
   relativization on, the writer refuses exactly when the effective layout of some group (not raw) has a length that
   needs an absent video dimension. *)
From Coq Require Import List ZArith Bool.
From PV Require Import lib.Sx lib.StrFacts lib.Result model.Geometry model.Positioning spec.SpecPos.
From PV Require Import proofs.PosFacts proofs.Pos12Facts.
Import ListNotations.
Open Scope Z_scope.

(* the effective layout of each cue of a caption: `layout or caption.layout_info or global_layout` per layout group *)
Definition vtt_cue_layouts (g : option layout) (cp : ncap) : list (option layout) :=
  map (fun grp => first_truthy grp (nc_layout cp) g) (vtt_groups (nc_nodes cp)).

(* raw cue settings that WebVTTReader attached to the layout (a non-empty string on a truthy layout) *)
Definition raw_of (lo : option layout) : option str :=
  match lo with
  | Some l => if layout_truthy l then match l_webvtt l with Some (ch :: r) => Some (ch :: r) | _ => None end else None
  | None => None
  end.

Definition cue_ok (lo : option layout) (o : vtt_out) : Prop :=
  match raw_of lo with
  | Some s => o = VRaw s
  | None => match o with VRaw _ => False | VSet st => vs_all_pct st = true | VNone => True end
  end.

(* without raw cue settings, a layout that is positioned with goes through this chain (PosFacts.vtt_convert_settings) *)
Definition vtt_computed (c : wcfg) (l : layout) : result vtt_out :=
  if negb (w_rel c) && negb (layout_is_relative l) then Ok VNone else
  do l1 <- (if w_rel c then layout_as_pct l (w_w c) (w_h c) else Ok l);
  do l2 <- (if w_fit c then layout_fit l1 else Ok l1); vtt_arith l2.

Lemma vtt_convert_cases : forall c lo,
  vtt_convert_positioning c lo
  = match lo with
    | Some l => if layout_truthy l then match raw_of lo with Some s => Ok (VRaw s) | None => vtt_computed c l end else Ok VNone
    | None => Ok VNone
    end.
Proof.
  intros c [l|]; [|reflexivity]. cbn [vtt_convert_positioning raw_of].
  destruct (layout_truthy l); [|reflexivity]. destruct (l_webvtt l) as [[|ch r]|]; reflexivity.
Qed.

Lemma vtt_arith_set : forall l o, vtt_arith l = Ok o -> exists st, o = VSet st.
Proof.
  intros l o H. unfold vtt_arith in H. destruct (l_padding l) as [p|]; [|inversion H; eexists; reflexivity].
  match type of H with (do lw <- ?X; _) = _ => destruct X; [|discriminate] end. cbn [bind] in H.
  match type of H with (do w2 <- ?X; _) = _ => destruct X; [|discriminate] end. cbn [bind] in H.
  match type of H with (do t2 <- ?X; _) = _ => destruct X; [|discriminate] end. cbn [bind] in H.
  inversion H. eexists. reflexivity.
Qed.

Lemma vtt_cue_ok : forall c lo o, vtt_convert_positioning c lo = Ok o -> cue_ok lo o.
Proof.
  intros c lo o H. pose proof (vtt_only_percent c lo o H) as P. rewrite vtt_convert_cases in H. unfold cue_ok.
  destruct lo as [l|]; [|inversion H; exact I]. destruct (layout_truthy l) eqn:T; [|inversion H; unfold raw_of; rewrite T; exact I].
  destruct (raw_of (Some l)); [inversion H; reflexivity|]. unfold vtt_computed in H.
  destruct (negb (w_rel c) && negb (layout_is_relative l)); [inversion H; exact I|].
  destruct (if w_rel c then layout_as_pct l (w_w c) (w_h c) else Ok l) as [l1|]; [|discriminate]. cbn [bind] in H.
  destruct (if w_fit c then layout_fit l1 else Ok l1) as [l2|]; [|discriminate]. cbn [bind] in H.
  destruct (vtt_arith_set _ _ H) as [st ->]. exact P.
Qed.

Lemma F2_map_l : forall {A B C} (f : A -> B) (R : B -> C -> Prop) l l',
  Forall2 (fun a c => R (f a) c) l l' -> Forall2 R (map f l) l'.
Proof. intros A B C f R l l' H. induction H; cbn [map]; constructor; assumption. Qed.

Theorem vtt_caption_cues : forall c g cp outs, vtt_caption c g cp = Ok outs -> Forall2 cue_ok (vtt_cue_layouts g cp) outs.
Proof.
  intros c g cp outs H. unfold vtt_caption in H. apply res_map_F2 in H. unfold vtt_cue_layouts.
  apply F2_map_l. eapply Forall2_weaken; [|exact H]. intros grp o K. cbn beta in K. eapply vtt_cue_ok; exact K.
Qed.

(* every cue of the document: verbatim raw settings, or nothing, or computed percentages *)
Theorem vtt_language_cues : forall c lg outs, vtt_language c lg = Ok outs ->
  Forall2 (fun cp cues => Forall2 cue_ok (vtt_cue_layouts (nl_layout lg) cp) cues) (nl_caps lg) outs.
Proof.
  intros c lg outs H. unfold vtt_language in H. apply res_map_F2 in H.
  eapply Forall2_weaken; [|exact H]. intros cp cues K. eapply vtt_caption_cues; exact K.
Qed.

Definition vtt_needs (c : wcfg) (lo : option layout) : bool :=
  match lo with
  | Some l => layout_truthy l && match raw_of lo with Some _ => false | None => needs_missing (w_w c) (w_h c) l end
  | None => false
  end.

(* with an origin Pos12Facts.vtt_arith_exact says what the settings are; without one only the end padding is subtracted *)
Lemma vtt_arith_total : forall l, all_pct l = true -> exists o, vtt_arith l = Ok o.
Proof.
  intros l P. destruct (l_origin l) as [org|] eqn:Eo.
  - destruct (vtt_arith_exact l org P Eo) as (pos & line & wd & H & _). eexists. exact H.
  - apply all_pct_units in P. destruct P as (_ & Pe & Pp). unfold vtt_arith. rewrite Eo. cbn [option_map].
    destruct (l_padding l) as [p|]; [|eexists; reflexivity]. cbn [bind snd].
    destruct (l_extent l) as [e|]; cbn [option_map opt_bind]; [|eexists; reflexivity].
    rewrite (size_sub_pct _ _ (proj1 Pe) (proj2 (proj2 (proj2 Pp)))). eexists. reflexivity.
Qed.

Lemma vtt_computed_refused_iff : forall c l, w_rel c = true ->
  ((exists e, vtt_computed c l = Err e) <-> needs_missing (w_w c) (w_h c) l = true).
Proof.
  intros c l Hr. rewrite <- (proj1 (layout_refused_iff l (w_w c) (w_h c))). unfold vtt_computed. rewrite Hr. cbn [negb andb].
  destruct (layout_as_pct l (w_w c) (w_h c)) as [l1|e1] eqn:E1; cbn [bind]; [|split; eauto].
  split; intros [e K]; [exfalso|discriminate]. pose proof (layout_as_pct_all_pct _ _ _ _ E1) as P1.
  assert (T : exists l2, (if w_fit c then layout_fit l1 else Ok l1) = Ok l2 /\ all_pct l2 = true).
  { destruct (w_fit c); [|eauto]. destruct (layout_fit_pct_ok _ P1) as [l2 E2]. eauto using layout_fit_all_pct. }
  destruct T as (l2 & E2 & P2). rewrite E2 in K. destruct (vtt_arith_total l2 P2) as [o T]. cbn [bind] in K. congruence.
Qed.

Lemma vtt_cue_refused_iff : forall c lo, w_rel c = true ->
  ((exists e, vtt_convert_positioning c lo = Err e) <-> vtt_needs c lo = true).
Proof.
  intros c lo Hr. rewrite vtt_convert_cases. unfold vtt_needs.
  destruct lo as [l|]; [|split; [intros [e K]; discriminate|discriminate]].
  destruct (layout_truthy l); cbn [andb]; [|split; [intros [e K]; discriminate|discriminate]].
  destruct (raw_of (Some l)); [split; [intros [e K]; discriminate|discriminate]|].
  apply vtt_computed_refused_iff. exact Hr.
Qed.

(* WebVTTWriter.write with relativization on raises exactly when some cue's effective layout (not raw) needs an absent
   video dimension *)
Theorem vtt_language_refused_iff : forall c lg, w_rel c = true ->
  ((exists e, vtt_language c lg = Err e)
   <-> existsb (vtt_needs c) (flat_map (vtt_cue_layouts (nl_layout lg)) (nl_caps lg)) = true).
Proof.
  intros c lg Hr. unfold vtt_language. apply res_map_flat_refused. intros cp. unfold vtt_caption, vtt_cue_layouts.
  apply (res_map_map_refused _ (fun grp => first_truthy grp (nc_layout cp) (nl_layout lg)) (vtt_needs c)).
  intros grp. apply vtt_cue_refused_iff. exact Hr.
Qed.
