(* C03 / C11, payload level: the <p> payload assembled by DFXPWriter / SinglePositioningDFXPWriter /
   LegacyDFXPWriter (_recreate_text, _recreate_span, _encode, with their rstrip's and literal white space) is read by
   the strict XML content parser as exactly the token list of an abstract, string-free writer.
   Method: a simulation.  Rel L a relates the line string L built so far to an abstract state a (pending text and
   tokens) through the tokenizer: running the tokenizer over L ends in character-data mode with exactly a's
   pending text and tokens.  Every writer action (escaped text, literal white space, rstrip, markup) preserves it. *)
From Coq Require Import List ZArith Bool Lia.
From PV Require Import lib.Sx lib.Str lib.StrFacts model.TextNodes model.TextWrite spec.SpecTextXml.
From PV Require Import proofs.TextStrFacts proofs.TextXmlFacts.
Import ListNotations.
Open Scope Z_scope.

Definition no13 (s : str) : bool := forallb (fun c => negb (c =? 13)) s.

(* the tokenizer never sets its CR flag on CR-free input *)
Definition cr_clear (st : tstate) : Prop :=
  match ts_mode st with MText _ cr => cr = false | _ => True end.

Lemma tstep_cr_clear : forall st c st', tstep st c = Some st' -> c <> 13 -> cr_clear st'.
Proof.
  intros [m cur out] c st' H Hc. unfold tstep, tstep_gen in H. cbn [ts_mode ts_cur ts_out] in H.
  destruct m as [nbr cr|acc|acc q].
  - destruct (c =? 60); [injection H as <-; exact I|]. destruct (c =? 38); [injection H as <-; exact I|].
    destruct (negb (xml_char c)); [discriminate|]. destruct ((c =? 62) && (2 <=? nbr)%nat && negb false); [discriminate|].
    destruct (Z.eqb_spec c 13); [congruence|]. destruct ((c =? 10) && cr); injection H as <-; reflexivity.
  - destruct (c =? 59).
    + destruct (ref_value (rev acc)); [injection H as <-; reflexivity|discriminate].
    + destruct (name_char c || (c =? 35)); [injection H as <-; exact I|discriminate].
  - destruct (q =? 0).
    + destruct (c =? 62); [destruct (parse_tag (rev acc)); [injection H as <-; reflexivity|discriminate]|].
      destruct (c =? 60); [discriminate|]. destruct ((c =? 34) || (c =? 39)); injection H as <-; exact I.
    + destruct (c =? q); [injection H as <-; exact I|]. destruct (c =? 60); [discriminate|]. injection H as <-; exact I.
Qed.

Lemma trun_cr_clear : forall s st st', trun st s = Some st' -> no13 s = true -> cr_clear st -> cr_clear st'.
Proof.
  induction s as [|c s IH]; intros st st' H Hn Hc.
  - injection H as <-. exact Hc.
  - cbn [no13 forallb] in Hn. apply andb_true_iff in Hn. destruct Hn as [Hc13 Hs].
    cbn [trun] in H. destruct (tstep st c) as [st1|] eqn:E; [|discriminate].
    apply (IH st1 st' H Hs). apply (tstep_cr_clear st c st1 E). intros ->. discriminate.
Qed.

(* white space cannot leave tag or reference mode, and is plain character data otherwise *)
Lemma space_facts : forall w, is_space w = true ->
  (w =? 60) = false /\ (w =? 38) = false /\ (w =? 62) = false /\ (w =? 59) = false /\ (w =? 35) = false /\
  name_char w = false /\ (w =? 34) = false /\ (w =? 39) = false.
Proof.
  intros w H. unfold is_space in H. unfold name_char, name_start, SpecTextXml.ascii_letter, is_digit.
  repeat split; lia.
Qed.

Lemma tstep_back : forall st1 w n cur out,
  tstep st1 w = Some (mkT (MText n false) cur out) -> is_space w = true -> w <> 13 -> cr_clear st1 ->
  exists n1 cur1, st1 = mkT (MText n1 false) cur1 out /\ cur = w :: cur1.
Proof.
  intros [m c1 o1] w n cur out H Hw H13 Hcr.
  destruct (space_facts w Hw) as (H60 & H38 & H62 & H59 & H35 & Hnc & H34 & H39).
  unfold tstep, tstep_gen in H. cbn [ts_mode ts_cur ts_out] in H. destruct m as [nbr cr|acc|acc q].
  - unfold cr_clear in Hcr. cbn [ts_mode] in Hcr. subst cr.
    rewrite H60, H38 in H. destruct (negb (xml_char w)); [discriminate|].
    rewrite H62 in H. cbn [andb] in H. destruct (Z.eqb_spec w 13); [congruence|]. rewrite andb_false_r in H.
    injection H as _ <- <-. exists nbr, c1. split; reflexivity.
  - rewrite H59, Hnc, H35 in H. discriminate.
  - destruct (q =? 0).
    + rewrite H62, H60, H34, H39 in H. discriminate.
    + destruct (w =? q); [discriminate|]. rewrite H60 in H. discriminate.
Qed.

Lemma trun_snoc : forall st a c, trun st (a ++ [c]) = match trun st a with Some st' => tstep st' c | None => None end.
Proof.
  intros st a c. rewrite trun_app. destruct (trun st a) as [st'|]; [|reflexivity]. cbn [trun]. destruct (tstep st' c); reflexivity.
Qed.

(* trailing white space of the input is exactly the head of the pending text *)
Lemma trun_back : forall ws A st0 n cur out, forallb is_space ws = true -> no13 (A ++ ws) = true -> cr_clear st0 ->
  trun st0 (A ++ ws) = Some (mkT (MText n false) cur out) ->
  exists n1 cur1, trun st0 A = Some (mkT (MText n1 false) cur1 out) /\ cur = rev ws ++ cur1.
Proof.
  induction ws as [|w ws IH] using rev_ind; intros A st0 n cur out Hs Hn Hc H.
  - rewrite app_nil_r in H. exists n, cur. split; [exact H|reflexivity].
  - rewrite forallb_app in Hs. apply andb_true_iff in Hs. destruct Hs as [Hws Hw]. cbn [forallb] in Hw. rewrite andb_true_r in Hw.
    rewrite app_assoc in H, Hn. rewrite trun_snoc in H.
    unfold no13 in Hn. rewrite forallb_app in Hn. apply andb_true_iff in Hn. destruct Hn as [Hn1 Hn2].
    cbn [forallb] in Hn2. rewrite andb_true_r in Hn2.
    destruct (trun st0 (A ++ ws)) as [st1|] eqn:E; [|discriminate].
    assert (Hc1 : cr_clear st1) by (apply (trun_cr_clear _ _ _ E Hn1 Hc)).
    destruct (tstep_back st1 w n cur out H Hw) as (n1 & cur1 & -> & ->); [intros ->; discriminate|exact Hc1|].
    destruct (IH A st0 n1 cur1 out Hws Hn1 Hc E) as (n2 & cur2 & HA & ->).
    exists n2, cur2. split; [exact HA|]. rewrite rev_unit. reflexivity.
Qed.

(* ---- the simulation relation ---------------------------------------------------------------------------------- *)
Record ast := mkA { a_cur : str; a_out : list xtok }.      (* pending text and tokens, both reversed *)

Definition Rel (L : str) (a : ast) : Prop :=
  (exists nbr, trun t_init L = Some (mkT (MText nbr false) (a_cur a) (a_out a))) /\ no13 L = true /\
  take_while is_space (a_cur a) = take_while is_space (rev L).

Lemma Rel_init : Rel [] (mkA [] []).
Proof. split; [exists 0%nat; reflexivity|split; reflexivity]. Qed.

Lemma take_while_app_all : forall f (a b : str), forallb f a = true -> take_while f (a ++ b) = a ++ take_while f b.
Proof. exact StrFacts.take_while_app_all. Qed.

Lemma xesc1_last_nonspace : forall c, is_space c = false -> exists p x, rev (xesc1 c) = x :: p /\ is_space x = false.
Proof.
  intros c H. unfold xesc1. destruct (c =? 38); [eexists; eexists; split; reflexivity|].
  destruct (c =? 62); [eexists; eexists; split; reflexivity|]. destruct (c =? 60); [eexists; eexists; split; reflexivity|].
  exists [], c. split; [reflexivity|exact H].
Qed.

Lemma tw_rev_xesc : forall s X Y, take_while is_space X = take_while is_space Y ->
  take_while is_space (rev s ++ X) = take_while is_space (rev (xesc s) ++ Y).
Proof.
  induction s as [|c s IH] using rev_ind; intros X Y H; [exact H|].
  unfold xesc. rewrite flat_map_app. cbn [flat_map]. rewrite app_nil_r. fold (xesc s).
  rewrite !rev_app_distr. cbn [rev app]. destruct (is_space c) eqn:E.
  - assert (Hx : xesc1 c = [c]).
    { destruct (space_facts c E) as (H60 & H38 & H62 & _). unfold xesc1. rewrite H38, H62, H60. reflexivity. }
    rewrite Hx. cbn [rev app take_while]. rewrite E. f_equal. apply IH. exact H.
  - cbn [take_while]. rewrite E. destruct (xesc1_last_nonspace c E) as (p & x & -> & Hx).
    cbn [app take_while]. rewrite Hx. reflexivity.
Qed.

Lemma no13_xesc : forall s, forallb xml_text_char s = true -> no13 (xesc s) = true.
Proof.
  induction s as [|c s IH]; intros H; [reflexivity|]. cbn [forallb] in H. apply andb_true_iff in H. destruct H as [Hc Hs].
  pose proof (IH Hs) as Q. unfold no13 in Q |- *. unfold xesc in Q |- *. cbn [flat_map]. rewrite forallb_app, Q, andb_true_r.
  unfold xesc1. destruct (c =? 38); [reflexivity|]. destruct (c =? 62); [reflexivity|]. destruct (c =? 60); [reflexivity|].
  unfold xml_text_char in Hc. apply andb_true_iff in Hc. destruct Hc as [_ Hc]. cbn [forallb]. rewrite Hc. reflexivity.
Qed.

Lemma Rel_text : forall L a s, Rel L a -> forallb xml_text_char s = true ->
  Rel (L ++ xml_escape s) (mkA (rev s ++ a_cur a) (a_out a)).
Proof.
  intros L [cur out] s ([nbr Ht] & Hn & Hi) Hs. cbn [a_cur a_out] in *. rewrite xml_escape_flat. split; [|split].
  - rewrite trun_app, Ht. destruct (trun_xesc s nbr cur out Hs) as [n' ->]. exists n'. reflexivity.
  - unfold no13 in *. rewrite forallb_app, Hn. apply no13_xesc. exact Hs.
  - cbn [a_cur]. rewrite rev_app_distr. apply tw_rev_xesc. exact Hi.
Qed.

(* literal white space written by the writer (spaces and line feeds) *)
Definition lit_space (c : Z) : bool := (c =? 32) || (c =? 10).

(* such characters are text characters that xml_escape leaves alone: a special case of escaped text *)
Lemma lit_space_plain : forall ws, forallb lit_space ws = true -> forallb xml_text_char ws = true /\ xml_escape ws = ws.
Proof.
  intros ws H. rewrite xml_escape_flat. induction ws as [|w ws IH]; [split; reflexivity|].
  cbn [forallb] in H. apply andb_true_iff in H. destruct H as [Hw Hws]. destruct (IH Hws) as [I1 I2].
  unfold xesc. cbn [forallb flat_map]. fold (xesc ws). rewrite I1, I2, andb_true_r. unfold lit_space in Hw.
  split; [unfold xml_text_char, xml_char; lia|]. unfold xesc1.
  destruct (Z.eqb_spec w 38); [lia|]. destruct (Z.eqb_spec w 62); [lia|]. destruct (Z.eqb_spec w 60); [lia|reflexivity].
Qed.

Lemma Rel_lit : forall L a ws, Rel L a -> forallb lit_space ws = true ->
  Rel (L ++ ws) (mkA (rev ws ++ a_cur a) (a_out a)).
Proof.
  intros L a ws HR Hw. destruct (lit_space_plain ws Hw) as [Hx He].
  pose proof (Rel_text L a ws HR Hx) as R. rewrite He in R. exact R.
Qed.

Lemma rstrip_split : forall L, L = rstrip L ++ rev (take_while is_space (rev L)).
Proof.
  intros L. unfold rstrip, rstrip_by. rewrite lstrip_by_drop_while, <- rev_app_distr.
  rewrite take_drop_while. rewrite rev_involutive. reflexivity.
Qed.

Lemma take_while_drop_while_nil : forall f (s : str), take_while f (drop_while f s) = [].
Proof.
  intros f s. induction s as [|c s IH]; [reflexivity|]. cbn [drop_while]. destruct (f c) eqn:E; [exact IH|].
  cbn [take_while]. rewrite E. reflexivity.
Qed.

Lemma Rel_rstrip : forall L a, Rel L a -> Rel (rstrip L) (mkA (drop_while is_space (a_cur a)) (a_out a)).
Proof.
  intros L [cur out] ([nbr Ht] & Hn & Hi). cbn [a_cur a_out] in *.
  pose proof (rstrip_split L) as HL. set (ws := rev (take_while is_space (rev L))) in *.
  assert (Hws : forallb is_space ws = true).
  { unfold ws. rewrite forallb_rev. clear. generalize (rev L). intros x. induction x as [|c x IHx]; [reflexivity|]. cbn [take_while]. destruct (is_space c) eqn:E; [cbn [forallb]; rewrite E, IHx; reflexivity|reflexivity]. }
  rewrite HL in Ht, Hn.
  destruct (trun_back ws (rstrip L) t_init nbr cur out Hws Hn eq_refl Ht) as (n1 & cur1 & HA & Hc).
  assert (Hcur1 : cur1 = drop_while is_space cur).
  { unfold ws in Hc. rewrite rev_involutive, <- Hi in Hc.
    rewrite <- (take_drop_while is_space cur) in Hc at 1. apply app_inv_head in Hc. symmetry. exact Hc. }
  subst cur1. split; [|split]; cbn [a_cur a_out].
  - exists n1. exact HA.
  - unfold no13 in *. rewrite forallb_app in Hn. apply andb_true_iff in Hn. apply Hn.
  - rewrite take_while_drop_while_nil. unfold rstrip, rstrip_by. rewrite rev_involutive, lstrip_by_drop_while.
    rewrite take_while_drop_while_nil. reflexivity.
Qed.

(* markup: from character-data mode, the string m is one tag and leaves the tokenizer in character-data mode *)
Definition markup (m : str) (tk : xtok) : Prop :=
  (forall nbr cur out, exists nbr',
      trun (mkT (MText nbr false) cur out) m = Some (mkT (MText nbr' false) [] (tk :: flush cur out))) /\
  no13 m = true /\ exists m', m = m' ++ [62].

Lemma Rel_mark : forall L a m tk, Rel L a -> markup m tk ->
  Rel (L ++ m) (mkA [] (tk :: flush (a_cur a) (a_out a))).
Proof.
  intros L [cur out] m tk ([nbr Ht] & Hn & Hi) (Hm & Hm13 & [m' Hm']). cbn [a_cur a_out] in *. split; [|split]; cbn [a_cur a_out].
  - rewrite trun_app, Ht. destruct (Hm nbr cur out) as [n' ->]. exists n'. reflexivity.
  - unfold no13 in *. rewrite forallb_app, Hn, Hm13. reflexivity.
  - rewrite Hm', app_assoc, rev_unit. reflexivity.
Qed.

(* a literal tag: the parts of markup by evaluation *)
Lemma markup_lit : forall m tk,
  (forall nbr cur out, trun (mkT (MText nbr false) cur out) m = Some (mkT (MText 0 false) [] (tk :: flush cur out))) ->
  no13 m = true -> last m 0 = 62 -> markup m tk.
Proof.
  intros m tk Ht Hn Hl. split; [intros; exists 0%nat; apply Ht|split; [exact Hn|]].
  exists (removelast m). rewrite <- Hl. apply app_removelast_last. intros ->. discriminate.
Qed.

Lemma markup_br : markup (lit "<br/>") (TkEmpty (lit "br") []).
Proof. apply markup_lit; [intros; vm_compute; reflexivity|reflexivity|reflexivity]. Qed.
Lemma markup_close : markup (lit "</span>") (TkClose (lit "span")).
Proof. apply markup_lit; [intros; vm_compute; reflexivity|reflexivity|reflexivity]. Qed.

(* ---- the abstract (string-free) writer ---------------------------------------------------------------------------- *)
Definition a_text (s : str) (a : ast) : ast := mkA (rev s ++ a_cur a) (a_out a).
Definition a_lit (ws : str) (a : ast) : ast := mkA (rev ws ++ a_cur a) (a_out a).
Definition a_rstrip (a : ast) : ast := mkA (drop_while is_space (a_cur a)) (a_out a).
Definition a_mark (tk : xtok) (a : ast) : ast := mkA [] (tk :: flush (a_cur a) (a_out a)).
Definition a_close (a : ast) : ast := a_mark (TkClose (lit "span")) a.
Definition a_close_sp (a : ast) : ast := a_lit (lit " ") (a_mark (TkClose (lit "span")) (a_rstrip a)).
Definition a_br (a : ast) : ast := a_lit ([10] ++ lit "    ") (a_mark (TkEmpty (lit "br") []) (a_rstrip a)).

(* sfx = what follows every text node ("" for the DFXP writers, " " for SAMI); atok st = the attributes of the span a
   start node opens, None when it opens none *)
Definition abs_step (sfx : str) (acl : ast -> ast) (atok : style -> option (list (str * str))) (acc : ast * bool) (n : node) : ast * bool :=
  let (a, open) := acc in
  match n with
  | NText s => (a_lit sfx (a_text s a), open)
  | NBreak => (a_br a, open)
  | NStyle true st =>
      match atok st with
      | None => (a, open)
      | Some attrs => (a_mark (TkOpen (lit "span") attrs) (if open then acl a else a), true)
      end
  | NStyle false _ => if open then (acl a, false) else (a, open)
  end.
Definition abs_run (sfx : str) acl atok (ns : list node) : ast * bool := fold_left (abs_step sfx acl atok) ns (mkA [] [], false).
Definition abs_tokens (sfx : str) acl atok (ns : list node) : list xtok :=
  let a := a_rstrip (fst (abs_run sfx acl atok ns)) in rev (flush (a_cur a) (a_out a)).

Definition attrs_agree (dom : style -> bool) (astr : style -> str) (atok : style -> option (list (str * str))) : Prop :=
  forall st, dom st = true ->
    match atok st with
    | None => astr st = []
    | Some attrs => astr st <> [] /\ markup (lit "<span" ++ astr st ++ lit ">") (TkOpen (lit "span") attrs)
    end.

Fixpoint nodes_ok (dom : style -> bool) (ns : list node) : bool :=
  match ns with
  | [] => true
  | NText s :: t => forallb xml_text_char s && nodes_ok dom t
  | NBreak :: t => nodes_ok dom t
  | NStyle _ st :: t => dom st && nodes_ok dom t
  end.

Lemma Rel_close : forall L a, Rel L a -> Rel (close_span L) (a_close a).
Proof. intros L a H. unfold close_span, a_close. apply (Rel_mark _ a); [exact H|exact markup_close]. Qed.

Lemma Rel_close_sp : forall L a, Rel L a -> Rel (close_span_sp L) (a_close_sp a).
Proof.
  intros L a H. unfold close_span_sp, a_close_sp. change (lit "</span> ") with (lit "</span>" ++ lit " ").
  rewrite app_assoc. apply (Rel_lit _ (a_mark (TkClose (lit "span")) (a_rstrip a))); [|reflexivity].
  apply (Rel_mark _ (a_rstrip a)); [|exact markup_close]. apply Rel_rstrip. exact H.
Qed.

Lemma Rel_br : forall L a, Rel L a -> Rel (rstrip L ++ br_markup) (a_br a).
Proof.
  intros L a H. unfold br_markup, a_br. rewrite app_assoc.
  apply (Rel_lit _ (a_mark (TkEmpty (lit "br") []) (a_rstrip a))); [|reflexivity].
  apply (Rel_mark _ (a_rstrip a)); [|exact markup_br]. apply Rel_rstrip. exact H.
Qed.

Lemma Rel_tokens : forall L a, Rel L a ->
  xtokens (rstrip L) = Some (let a' := a_rstrip a in rev (flush (a_cur a') (a_out a'))).
Proof.
  intros L a H. apply Rel_rstrip in H. destruct H as ([nbr Ht] & _ & _).
  unfold xtokens. unfold str in *. rewrite Ht. reflexivity.
Qed.

(* DFXPWriter and its subclasses, for any domain of style dictionaries whose attribute text agrees with atok *)
Lemma sim_run : forall extra dom atok, attrs_agree dom (fun st => dfxp_style_attrs st ++ extra) atok ->
  forall ns L a open, Rel L a -> nodes_ok dom ns = true ->
  Rel (fst (fold_left (dfxp_step extra) ns (L, open))) (fst (fold_left (abs_step [] a_close atok) ns (a, open))).
Proof.
  intros extra dom atok Hag. induction ns as [|n ns IH]; intros L a open HR Hn; [exact HR|].
  cbn [fold_left]. destruct n as [s| |start st]; cbn [nodes_ok dfxp_step abs_step] in *.
  - apply andb_true_iff in Hn. destruct Hn as [Hs Hns]. apply IH; [|exact Hns].
    rewrite <- (app_nil_r (L ++ xml_escape s)). apply (Rel_lit _ (a_text s a)); [|reflexivity]. apply Rel_text; assumption.
  - apply IH; [|exact Hn]. apply Rel_br. exact HR.
  - apply andb_true_iff in Hn. destruct Hn as [Hst Hns]. unfold span_step. destruct start.
    + specialize (Hag st Hst). cbv beta in Hag. destruct (atok st) as [attrs|].
      * destruct Hag as [Hne Hm]. destruct (dfxp_style_attrs st ++ extra) as [|z l] eqn:E; [congruence|].
        apply IH; [|exact Hns]. rewrite <- E in Hm |- *. destruct open.
        -- apply (Rel_mark _ (a_close a)); [apply Rel_close; exact HR|exact Hm].
        -- apply (Rel_mark _ a); [exact HR|exact Hm].
      * rewrite Hag. apply IH; assumption.
    + destruct open; apply IH; try assumption. apply Rel_close. exact HR.
Qed.

Theorem payload_tokens : forall extra dom atok ns, attrs_agree dom (fun st => dfxp_style_attrs st ++ extra) atok ->
  nodes_ok dom ns = true -> xtokens (dfxp_payload extra ns) = Some (abs_tokens [] a_close atok ns).
Proof. intros extra dom atok ns Hag Hn. apply Rel_tokens, (sim_run extra dom atok Hag ns); [exact Rel_init|exact Hn]. Qed.

(* LegacyDFXPWriter (repaired): DFXPWriter without positioning *)
Lemma legacy_payload_dfxp : forall ns, legacy_payload ns = dfxp_payload [] ns.
Proof.
  intros ns. unfold legacy_payload, dfxp_payload, legacy_run, dfxp_run. do 2 f_equal. generalize (@nil Z, false).
  induction ns as [|n ns IH]; intros acc; [reflexivity|]. cbn [fold_left]. rewrite IH. f_equal.
  destruct acc as [line open], n as [s| |start st]; try reflexivity.
  cbn [legacy_step dfxp_step]. unfold span_step. rewrite app_nil_r. reflexivity.
Qed.

(* ---- instances: the three DFXP writers ---------------------------------------------------------------------------- *)
Definition plain_style (st : style) : bool := match st_color st with None => true | Some _ => false end.
Definition region_attr : str := lit " region=""bottom""".
Definition extra_of (region : bool) : str := if region then region_attr else [].

Definition dfxp_atok (region : bool) (st : style) : option (list (str * str)) :=
  match (if st_i st then [(lit "tts:fontStyle", lit "italic")] else []) ++
        (if region then [(lit "region", lit "bottom")] else []) with
  | [] => None
  | a => Some a
  end.

Lemma dfxp_attrs_agree : forall region,
  attrs_agree plain_style (fun st => dfxp_style_attrs st ++ extra_of region) (dfxp_atok region).
Proof.
  intros region [i b u c] H. unfold plain_style in H. cbn [st_color] in H. destruct c; [discriminate|].
  destruct i, region; cbv [dfxp_atok dfxp_style_attrs st_i st_color extra_of]; cbn [app]; try reflexivity;
    (split; [discriminate|apply markup_lit; [intros; vm_compute; reflexivity|reflexivity|reflexivity]]).
Qed.

(* DFXPWriter (region = false) and SinglePositioningDFXPWriter (region = true) *)
Corollary dfxp_payload_parse : forall region ns, nodes_ok plain_style ns = true ->
  content_parse (dfxp_payload (extra_of region) ns) = xbuild (abs_tokens [] a_close (dfxp_atok region) ns) [] [].
Proof.
  intros region ns H. unfold content_parse. rewrite (payload_tokens _ _ _ ns (dfxp_attrs_agree region) H). reflexivity.
Qed.

Corollary legacy_payload_parse : forall ns, nodes_ok plain_style ns = true ->
  content_parse (legacy_payload ns) = xbuild (abs_tokens [] a_close (dfxp_atok false) ns) [] [].
Proof. intros ns H. rewrite legacy_payload_dfxp. exact (dfxp_payload_parse false ns H). Qed.

(* ---- SAMIWriter ------------------------------------------------------------------------------------------------ *)
Definition sami_atok (st : style) : option (list (str * str)) :=
  match sami_css st with [] => None | css => Some [(lit "style", css)] end.

Definition sami_abs_step (acc : ast * bool) (n : node) : ast * bool :=
  let (a, open) := acc in
  match n with
  | NText s => (a_lit (lit " ") (a_text s a), open)
  | NBreak => (a_br a, open)
  | NStyle true st =>
      let a1 := if open then a_close_sp a else a in
      match sami_atok st with
      | None => (a1, open)
      | Some attrs => (a_mark (TkOpen (lit "span") attrs) a1, true)
      end
  | NStyle false _ => if open then (a_close_sp a, false) else (a, open)
  end.
Definition sami_abs_tokens (ns : list node) : list xtok :=
  let a := a_rstrip (fst (fold_left sami_abs_step ns (mkA [] [], false))) in rev (flush (a_cur a) (a_out a)).

Lemma sami_markup : forall st, plain_style st = true ->
  match sami_css st with
  | [] => True
  | css => markup (lit "<span style=""" ++ css ++ lit """>") (TkOpen (lit "span") [(lit "style", css)])
  end.
Proof.
  intros [i b u c] H. unfold plain_style in H. cbn [st_color] in H. destruct c; [discriminate|].
  destruct i, b, u; cbv [sami_css st_i st_b st_u st_color]; cbn [app]; try exact I;
    (apply markup_lit; [intros; vm_compute; reflexivity|reflexivity|reflexivity]).
Qed.

Lemma sami_sim_run : forall ns L a open, Rel L a -> nodes_ok plain_style ns = true ->
  Rel (fst (fold_left sami_step ns (L, open))) (fst (fold_left sami_abs_step ns (a, open))).
Proof.
  induction ns as [|n ns IH]; intros L a open HR Hn; [exact HR|].
  cbn [fold_left]. destruct n as [s| |[] st]; cbn [nodes_ok sami_step sami_abs_step] in *.
  - apply andb_true_iff in Hn. destruct Hn as [Hs Hns]. apply IH; [|exact Hns].
    rewrite app_assoc. apply (Rel_lit _ (a_text s a)); [|reflexivity]. apply Rel_text; assumption.
  - apply IH; [|exact Hn]. apply Rel_br. exact HR.
  - apply andb_true_iff in Hn. destruct Hn as [Hst Hns].
    assert (HR1 : Rel (if open then close_span_sp L else L) (if open then a_close_sp a else a)).
    { destruct open; [apply Rel_close_sp; exact HR|exact HR]. }
    pose proof (sami_markup st Hst) as Hm. unfold sami_atok. destruct (sami_css st) as [|z l] eqn:E.
    + apply IH; [exact HR1|exact Hns].
    + apply IH; [|exact Hns]. apply (Rel_mark _ (if open then a_close_sp a else a)); [exact HR1|exact Hm].
  - apply andb_true_iff in Hn. destruct Hn as [_ Hns]. destruct open.
    + apply IH; [apply Rel_close_sp; exact HR|exact Hns].
    + apply IH; [exact HR|exact Hns].
Qed.

Theorem sami_payload_tokens : forall ns, nodes_ok plain_style ns = true ->
  xtokens (sami_payload ns) = Some (sami_abs_tokens ns).
Proof. intros ns Hn. apply Rel_tokens, sami_sim_run; [exact Rel_init|exact Hn]. Qed.
