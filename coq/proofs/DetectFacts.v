From Coq Require Import List ZArith Bool Lia ZifyBool.
From PV Require Import lib.Sx lib.Str lib.Result model.Generated model.Detect spec.SpecDetect.
Import ListNotations.
Open Scope Z_scope.

Lemma splitlines_aux_nonempty : forall s cur started,
  (s <> [] \/ started = true) -> splitlines_aux s cur started <> [].
Proof.
  induction s as [|c t IH]; intros cur started H.
  - destruct H as [H|H]; [congruence|]. subst. simpl. discriminate.
  - cbn [splitlines_aux]. destruct (is_linebreak c).
    + discriminate.
    + apply IH. right. reflexivity.
Qed.

Lemma splitlines_nonempty : forall s, s <> [] -> splitlines s <> [].
Proof. intros s H. apply splitlines_aux_nonempty. left. exact H. Qed.

Lemma detect_of_ok : forall s r, s <> [] -> In r documented_order -> exists b, detect_of r s = Ok b.
Proof.
  intros s r Hs Hr.
  pose proof (splitlines_nonempty s Hs) as Hl.
  simpl in Hr.
  destruct Hr as [<-|[<-|[<-|[<-|[<-|[<-|[]]]]]]]; cbn [detect_of]; try (eexists; reflexivity).
  - unfold detect_srt. destruct (splitlines s) as [|l0 rest]; [congruence|].
    destruct (u_isdigit l0); [|eexists; reflexivity]. destruct rest; eexists; reflexivity.
  - unfold detect_scc. destruct (splitlines s) as [|l0 rest]; [congruence|]. eexists; reflexivity.
Qed.

Lemma detect_of_no_crash : forall s r, s <> [] -> In r documented_order -> is_crash (detect_of r s) = false.
Proof. intros s r Hs Hr. destruct (detect_of_ok s r Hs Hr) as [b ->]. reflexivity. Qed.

(* the generated SUPPORTED_READERS tuple is the documented order *)
Lemma generated_order_documented : supported_readers = documented_order.
Proof. reflexivity. Qed.

Lemma first_match_spec : forall ids s,
  (forall r, In r ids -> exists b, detect_of r s = Ok b) ->
  first_match ids s = Ok (first_accepting ids (map (fun r => detect_of r s) ids)).
Proof.
  induction ids as [|r t IH]; intros s H; [reflexivity|].
  cbn [first_match map first_accepting].
  destruct (H r (or_introl eq_refl)) as [b Hb]. rewrite Hb. cbn [bind].
  destruct b; [reflexivity|]. apply IH. intros r' Hr'. apply H. right. exact Hr'.
Qed.

Lemma detect_format_first_match : forall s, s <> [] ->
  detect_format s = Ok (first_accepting documented_order (map (fun r => detect_of r s) documented_order)).
Proof.
  intros s Hs. unfold detect_format. destruct s as [|c t]; [congruence|].
  rewrite generated_order_documented. apply first_match_spec.
  intros r Hr. apply detect_of_ok; assumption.
Qed.

Lemma first_match_own : forall pre r post s,
  Forall (fun q => detect_of q s = Ok false) pre -> detect_of r s = Ok true ->
  first_match (pre ++ r :: post) s = Ok (Some r).
Proof.
  intros pre r post s Hpre Hr. induction Hpre as [|q pre Hq _ IH]; cbn [app first_match].
  - rewrite Hr. reflexivity.
  - rewrite Hq. exact IH.
Qed.

Lemma detected : forall pre r post s, pre ++ r :: post = documented_order -> s <> [] ->
  Forall (fun q => detect_of q s = Ok false) pre -> detect_of r s = Ok true ->
  detect_format s = Ok (Some r).
Proof.
  intros pre r post s E Hs Hpre Hr. unfold detect_format. destruct s; [congruence|].
  rewrite generated_order_documented, <- E. apply first_match_own; assumption.
Qed.

Lemma opt_z_eqb_refl : forall o, opt_z_eqb o o = true.
Proof. destruct o; simpl; [apply Z.eqb_refl|reflexivity]. Qed.

Lemma model_ok_detect : forall s,
  ok_detect (match s with [] => false | _ => true end)
            (map (fun r => detect_of r s) documented_order) (detect_format s) = true.
Proof.
  intros s. destruct s as [|c t] eqn:E; [reflexivity|].
  assert (Hs : s <> []) by (subst; discriminate). rewrite <- E.
  unfold ok_detect. rewrite detect_format_first_match by exact Hs.
  rewrite opt_z_eqb_refl. reflexivity.
Qed.

(* every sniffer of the model is total on non-empty strings (the stronger reading) *)
Lemma model_sniffers_total : forall s, s <> [] ->
  all_sniffers_total (map (fun r => detect_of r s) documented_order) = true.
Proof.
  intros s Hs. unfold all_sniffers_total.
  apply forallb_forall. intros x Hx. apply in_map_iff in Hx. destruct Hx as [r [<- Hr]].
  destruct (detect_of_ok s r Hs Hr) as [b ->]. reflexivity.
Qed.

Lemma empty_raises_no_captions : detect_format [] = Err ENoCaptions.
Proof. reflexivity. Qed.

(* the sniffer as it stood before the repair (detect_srt_prefix) crashes: detect("1") *)
Lemma srt_detect_index_refuted : exists s, s <> [] /\ is_crash (detect_srt_prefix s) = true.
Proof. exists [49]. split; [discriminate|reflexivity]. Qed.

(* the sniffing constants read from the working tree are the documented ones *)
Lemma generated_constants_documented :
  dfxp_marker = lit "</tt>" /\ vtt_marker = lit "WEBVTT" /\ sami_marker = lit "<sami" /\ srt_arrow = lit "-->" /\
  mdvd_pattern = lit "{\d+}{\d+}" /\ scc_header = lit "Scenarist_SCC V1.0".
Proof. repeat split; reflexivity. Qed.
