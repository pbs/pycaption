(* C05, stage 5 of the pop-on refinement: ONE load with SEVERAL rows, each row with basic / special / extended characters
   and backspaces (no mid-row codes), control codes single or doubled.
   5b (rich_load_any: preambles of any colour / underline, ITALIC or not): the decoder queues `load_nodes5b l`
      (stage5b_state): an italic preamble after plain text appends italics-on (after the pending BREAK), a plain preamble after
      italic text appends italics-off (before the BREAK); _format_italics turns them into `fin_nodes l` (format_load5b: italics
      closed before / reopened after a reposition, closed at the end); `read` returns `caps5b t1 t2 l`, the caption creator's
      output on `fin_nodes l`, whose observation is `map (ocap5b t1 t2) (expected_load l)`: the lines of the screen rows,
      italic exactly on the italic rows (popon_stage5b_read), and that observation satisfies ok_c05 (popon_stage5b_ok).
   5a (rich_load: no italic preamble): there `caps5b t1 t2 l` is `map (cap_of t1 t2) (expected_load l)` (caps5b_plain), the
      captions of stage 3: `read` returns exactly these (popon_stage5_read); observed they satisfy ok_c05 (popon_stage5_ok).
   Stage 3's induction over the rows with stage 2's row run (row_run: preamble unit, token run) in place of the character
   run: after a break or a reposition the row starts in a pending state, and the first add_chars call materialises the
   BREAK / REPOSITION nodes.
   The exact node list (sepS / tailS, one index per pass of _format_italics) is what stage 7 needs to state what `read`
   returns; stage 8 proves only the oracle for its larger domain and does without it.
   Not covered here: rows containing mid-row codes (stage 8); several loads of rich rows (stage 7). *)
From Coq Require Import List ZArith QArith Qabs Lia Bool ZifyBool.
From PV Require Import lib.Sx lib.Str lib.Result model.GenScc model.SccLen model.SccTime model.SccStash model.SccDecoder model.SccLayout
                       spec.Spec608 spec.SpecScc05 spec.SpecSccLen proofs.SccTableFacts proofs.SccTableFixFacts proofs.SccDoubleFacts
                       proofs.SccLenFacts proofs.SccStashFacts proofs.SccPoponStage1 proofs.SccPoponStage2 proofs.SccPoponStage3.
Import ListNotations. Open Scope Z_scope.

(* performance only (see stage 1): the kernel must not evaluate the filter inside basic_code on a variable *)
Local Strategy 1000 [basic_code is_basic].

Definition rich_load (l : load) : bool :=
  load_wf l && forallb (fun r => row_ok r && negb (rw_ital r) && forallb rich_item (rw_items r)) l.

Definition rich_load_any (l : load) : bool := load_wf l && forallb rich_row_any l.

(* SA: as queued.  SB: empty text nodes dropped.  SC: italics closed before / reopened after a reposition.
   SE: the italics-on directly followed by italics-off removed.  cl: with the final closing node. *)
Inductive stg : Type := SA | SB | SC | SE.
Notation nOn p := (mkI IItalOn [] p).
Notation nOff p := (mkI IItalOff [] p).
Notation nBrk p := (mkI IBreak [] p).
Notation nRep p := (mkI IRepos [] p).
Notation nTxt s p := (mkI IText s p).

(* adj: next screen row; on: italics on before the row; it: the row's preamble is italic; cur: address of the current
   caption; o4: position of the last italics-on node queued; p0 / p1: address of the row before / after the tab offset *)
Definition sepS (s : stg) (adj on it : bool) (cur o4 p0 p1 : pos) : list inode :=
  if adj then (if on && negb it then [nOff cur] else []) ++ [nBrk cur] ++ (if negb on && it then [nOn cur] else [])
  else match s with
       | SA => (if on && negb it then [nOff p0] else if negb on && it then [nOn p0] else []) ++ [nTxt [] p1; nRep p1]
       | SB => (if on && negb it then [nOff p0] else if negb on && it then [nOn p0] else []) ++ [nRep p1]
       | SC => if on then (if it then [nOff o4; nRep p1; nOn p1] else [nOff p0; nRep p1])
               else (if it then [nOn p0; nOff p0; nRep p1; nOn p1] else [nRep p1])
       | SE => if on then (if it then [nOff o4; nRep p1; nOn p1] else [nOff p0; nRep p1])
               else (if it then [nRep p1; nOn p1] else [nRep p1])
       end.

Definition rp0 (r : row) : pos := (rw_row r, rw_indent r).

Fixpoint tailS (s : stg) (cl : bool) (t : load) (cur : pos) (lastrow : Z) (on : bool) (o4 o5 : pos) : list inode :=
  match t with
  | [] => if cl && on then [nOff o5] else []
  | r :: t' =>
      let adj := rw_row r =? lastrow + 1 in
      let it := rw_ital r in
      let cur' := if adj then cur else row_pos r in
      sepS s adj on it cur o4 (rp0 r) (row_pos r) ++
      nTxt (rich_text r) cur' ::
      tailS s cl t' cur' (rw_row r) it
            (if negb on && it then (if adj then cur else rp0 r) else o4)
            (if adj then (if negb on && it then cur else o5) else row_pos r)
  end.

Definition son (s : istyle) : bool := match s with SOn => true | _ => false end.

(* a tab offset right after a materialised BREAK is ignored (has_break_before) *)
Definition tab_eff (k : Z) (nodes : list inode) (tk : tracker) : tracker :=
  if has_break_before nodes then tk else tab_upd k tk.

Section Rows5b.
Variables (st : stash) (d : bool) (pa ro : creator) (q : option (creator * Q)) (tm : Q) (tc : str) (off : Q).
Notation RS5b sty := (RS st d sty pa ro q tm tc off).

Lemma pac_unit_run5b : forall r sty tk l nodes fr nx tk' nodes' sty', rich_row_any r = true ->
  pac_style (rw_ital r) sty (tracker_update tk (rw_row r, rw_indent r)) nodes = (tk', mkCr nodes' sty') ->
  last_contains l (pac_word (rw_row r) (pac_attr r)) = false -> pac_ready tk nodes ->
  exists l', tws (RS5b sty tk l nodes fr) (pac_unit d r) nx
             = RS5b sty' (tab_eff (rw_tab r) nodes' tk') l' nodes' (fr + Z.of_nat (length (pac_unit d r)))
             /\ linv l' None.
Proof. intros r sty tk l nodes fr nx tk' nodes' sty'. exact (pac_unit_run st d pa ro q tm tc off d r sty tk l nodes fr nx tk' nodes' sty'). Qed.

(* the node creator when the last node is not a text node (a style node or a break just appended) *)
Lemma add_chars_fresh : forall p ps dflt sty pre n s, is_text n = false ->
  add_chars (mkTk (p :: ps) None false dflt) (mkCr (pre ++ [n]) sty) s
  = (mkTk (p :: ps) None false dflt, mkCr ((pre ++ [n]) ++ [nTxt s p]) sty).
Proof.
  intros p ps dflt sty pre n s Hn. unfold add_chars.
  cbn [current_position tk_pos tk_repos tk_break break_required cr_nodes cr_style]. rewrite last_some_app, Hn.
  cbn [andb]. rewrite map_last_snoc. reflexivity.
Qed.

Lemma add_chars_fresh_repos : forall p dflt sty pre n s, is_text n = false ->
  add_chars (mkTk [p] None true dflt) (mkCr (pre ++ [n]) sty) s
  = (mkTk [p] None false dflt, mkCr ((pre ++ [n; nTxt [] p; nRep p]) ++ [nTxt s p]) sty).
Proof.
  intros p dflt sty pre n s Hn. unfold add_chars.
  cbn [current_position tk_pos tk_repos tk_break break_required cr_nodes cr_style]. rewrite last_some_app, Hn.
  cbn [andb negb ack_break ack_repos tk_pos tk_repos tk_break tk_default].
  replace (((pre ++ [n]) ++ [nTxt [] p]) ++ [nRep p; nTxt [] p])
    with ((pre ++ [n; nTxt [] p; nRep p]) ++ [nTxt [] p]) by (rewrite <- !app_assoc; reflexivity).
  rewrite map_last_snoc. reflexivity.
Qed.

Lemma tracker_adj_pac : forall (ps : list pos) lastrow c0 dflt ind, last (map Some ps) None = Some (lastrow, c0) ->
  tracker_update (mkTk ps None false dflt) (lastrow + 1, ind) = mkTk (ps ++ [(lastrow + 1, c0)]) (Some ind) false (lastrow + 1, ind).
Proof.
  intros ps lastrow c0 dflt ind Hl. unfold tracker_update. cbv zeta. cbn [tk_pos tk_break tk_repos tk_default].
  rewrite Hl, Z.eqb_refl. reflexivity.
Qed.

Lemma tracker_far_pac : forall (ps : list pos) lastrow c0 dflt row ind, last (map Some ps) None = Some (lastrow, c0) ->
  row <> lastrow -> row <> lastrow + 1 ->
  tracker_update (mkTk ps None false dflt) (row, ind) = mkTk [(row, ind)] None true (row, ind).
Proof.
  intros ps lastrow c0 dflt row ind Hl H1 H2. unfold tracker_update, pos_eqb. cbv zeta.
  cbn [tk_pos tk_break tk_repos tk_default fst snd]. rewrite Hl.
  replace (row =? lastrow + 1) with false by lia. replace (row =? lastrow) with false by lia. reflexivity.
Qed.

(* the tab offset after a preamble code that started a new caption *)
Lemma tab_far : forall row ind k, 0 <= k <= 3 ->
  tab_upd k (mkTk [(row, ind)] None true (row, ind)) = mkTk [(row, ind + k)] None true (row, ind + k).
Proof.
  intros row ind k Hk. unfold tab_upd. destruct (0 <? k) eqn:E.
  - cbn [tk_default fst snd]. unfold tracker_update, pos_eqb. cbv zeta. cbn [tk_pos tk_break tk_repos tk_default map last fst snd].
    replace (row =? row + 1) with false by lia. rewrite Z.eqb_refl.
    replace (ind + 1 <=? ind + k) with true by lia. replace (ind + k <=? ind + 3) with true by lia.
    replace (ind + k =? ind) with false by lia. reflexivity.
  - replace k with 0 by lia. rewrite Z.add_0_r. reflexivity.
Qed.

(* ... after a preamble code for the next screen row (break pending): recognised as a tab, the tracker keeps its rows *)
Lemma tab_adj : forall (ps : list pos) lastrow c0 ind k, 0 <= k <= 3 ->
  tab_upd k (mkTk (ps ++ [(lastrow + 1, c0)]) (Some ind) false (lastrow + 1, ind))
  = mkTk (ps ++ [(lastrow + 1, c0)]) (Some ind) false (lastrow + 1, ind + k).
Proof.
  intros ps lastrow c0 ind k Hk. unfold tab_upd. destruct (0 <? k) eqn:E.
  - cbn [tk_default fst snd]. unfold tracker_update. cbv zeta. cbn [tk_pos tk_break tk_repos tk_default]. rewrite last_some_app.
    replace (lastrow + 1 =? lastrow + 1 + 1) with false by lia. rewrite Z.eqb_refl.
    replace (ind + 1 <=? ind + k) with true by lia. replace (ind + k <=? ind + 3) with true by lia. reflexivity.
  - replace k with 0 by lia. rewrite Z.add_0_r. reflexivity.
Qed.

Lemma hbb_text : forall pre txt q0, has_break_before (pre ++ [nTxt txt q0]) = false.
Proof. intros. apply no_break_before_text. Qed.
Lemma hbb_text_style : forall pre txt q0 n, is_text n = false -> is_break n = false -> has_break_before ((pre ++ [nTxt txt q0]) ++ [n]) = false.
Proof.
  intros pre txt q0 n H1 H2. unfold has_break_before. rewrite !rev_unit. cbn [has_break_before_rev]. rewrite H1, H2. reflexivity.
Qed.
Lemma hbb_break : forall pre p, has_break_before (pre ++ [nBrk p]) = true.
Proof. intros pre p. unfold has_break_before. rewrite rev_unit. reflexivity. Qed.
Lemma hbb_break_on : forall pre p q0, has_break_before ((pre ++ [nBrk p]) ++ [nOn q0]) = true.
Proof. intros pre p q0. unfold has_break_before. rewrite !rev_unit. reflexivity. Qed.

(* the start of a further row: the style part of its preamble address code, its tab offset and the first characters, for
   every style of the buffer.  cur' is the address the row's text node gets *)
Lemma start5b : forall it sty (cur : pos) ps lastrow c0 dflt row ind k pre txt o4, 0 <= k <= 3 ->
  last (map Some (cur :: ps)) None = Some (lastrow, c0) -> row <> lastrow ->
  let adj := row =? lastrow + 1 in
  let cur' := if adj then cur else (row, ind + k) in
  exists tk1 nodes1 sty1 ps' c1 dflt1,
    pac_style it sty (tracker_update (mkTk (cur :: ps) None false dflt) (row, ind)) (pre ++ [nTxt txt cur]) = (tk1, mkCr nodes1 sty1) /\
    son sty1 = it /\
    (forall s, add_chars (tab_eff k nodes1 tk1) (mkCr nodes1 sty1) s
               = (mkTk (cur' :: ps') None false dflt1,
                  mkCr ((pre ++ nTxt txt cur :: sepS SA adj (son sty) it cur o4 (row, ind) (row, ind + k)) ++ [nTxt s cur']) sty1)) /\
    last (map Some (cur' :: ps')) None = Some (row, c1).
Proof.
  intros it sty cur ps lastrow c0 dflt row ind k pre txt o4 Hk Hlast Hne. cbv zeta.
  destruct (Z.eqb_spec row (lastrow + 1)) as [->|Nadj]; cbv iota.
  - (* the next screen row: a BREAK is owed; either the preamble leaves the style alone (Plain), or its style node follows the BREAK *)
    rewrite (tracker_adj_pac (cur :: ps) lastrow c0 dflt ind Hlast).
    assert (Plain : forall sty' s,
              add_chars (tab_eff k (pre ++ [nTxt txt cur]) (mkTk ((cur :: ps) ++ [(lastrow + 1, c0)]) (Some ind) false (lastrow + 1, ind)))
                        (mkCr (pre ++ [nTxt txt cur]) sty') s
              = (mkTk ((cur :: ps) ++ [(lastrow + 1, c0)]) None false (lastrow + 1, ind + k),
                 mkCr ((pre ++ [nTxt txt cur; nBrk cur]) ++ [nTxt s cur]) sty')).
    { intros sty' s. unfold tab_eff. rewrite hbb_text, (tab_adj (cur :: ps) lastrow c0 ind k Hk).
      exact (add_chars_break sty' cur (ps ++ [(lastrow + 1, c0)]) ind (lastrow + 1, ind + k) pre txt cur s). }
    destruct it, sty; eexists _, _, _, (ps ++ [(lastrow + 1, c0)]), c0, _;
      (split; [unfold pac_style; cbv zeta; cbn [break_required tk_break ack_break tk_pos tk_repos tk_default current_position app]; reflexivity
             |split; [reflexivity|split; [intros s|exact (last_some_app _ (cur :: ps) _)]]]); cbn [son sepS andb negb app].
    all: first [rewrite Plain
               |unfold tab_eff; first [rewrite hbb_break_on|rewrite hbb_break]; unfold ack_break; cbn [tk_pos tk_repos tk_default];
                rewrite add_chars_fresh by reflexivity].
    all: rewrite <- !app_assoc; reflexivity.
  - (* elsewhere: a REPOSITION is owed; the last node is the text node, or the style node the preamble appended *)
    rewrite (tracker_far_pac (cur :: ps) lastrow c0 dflt row ind Hlast Hne Nadj).
    destruct it, sty; eexists _, _, _, [], (ind + k), _;
      (split; [unfold pac_style; cbv zeta; cbn [break_required tk_break ack_break tk_pos tk_repos tk_default current_position]; reflexivity
             |split; [reflexivity|split; [intros s|reflexivity]]]); cbn [son sepS andb negb app]; unfold tab_eff.
    all: first [rewrite hbb_text, (tab_far row ind k Hk), add_chars_repos_sty
               |rewrite hbb_text_style, (tab_far row ind k Hk), add_chars_fresh_repos by reflexivity].
    all: rewrite <- !app_assoc; reflexivity.
Qed.

Lemma rows_run5b : forall t, Forall (fun r => rich_row_any r = true) t ->
  forall nx pre txt (cur : pos) (ps : list pos) lastrow c0 dflt l fr sty o4 o5, chain_ok lastrow t -> rowlast l -> last_is l w_eoc = false ->
  last (map Some (cur :: ps)) None = Some (lastrow, c0) ->
  exists tk' l' sty', tws (RS5b sty (mkTk (cur :: ps) None false dflt) l (pre ++ [nTxt txt cur]) fr) (flat_map (emit_row d) t) nx
     = RS5b sty' tk' l' (pre ++ nTxt txt cur :: tailS SA false t cur lastrow (son sty) o4 o5)
           (fr + Z.of_nat (length (flat_map (emit_row d) t)))
     /\ last_is l' w_eoc = false.
Proof.
  intros t F. induction F as [|r t Hrow F IH]; intros nx pre txt cur ps lastrow c0 dflt l fr sty o4 o5 Hch Hl Hle Hlast.
  - exists (mkTk (cur :: ps) None false dflt), l, sty. cbn [flat_map tws length tailS andb]. rewrite Z.add_0_r. split; [reflexivity|exact Hle].
  - destruct Hch as [Hne Hch]. cbn [flat_map]. rewrite tws_app, app_length, Nat2Z.inj_add.
    destruct (rich_facts r Hrow) as (_ & _ & Hk & _).
    destruct (pac_row_facts2 r Hrow) as (_ & Hpac & _).
    destruct (start5b (rw_ital r) sty cur ps lastrow c0 dflt (rw_row r) (rw_indent r) (rw_tab r) pre txt o4 Hk Hlast Hne)
      as (tk1 & nodes1 & sty1 & ps' & c1 & dflt1 & Eps & Hson & H0 & Hlast').
    cbn [tailS]. fold (row_pos r) (rp0 r) in Eps, H0, Hlast'.
    set (adj := rw_row r =? lastrow + 1) in *. set (cur' := if adj then cur else row_pos r) in *.
    set (pre' := pre ++ nTxt txt cur :: sepS SA adj (son sty) (rw_ital r) cur o4 (rp0 r) (row_pos r)) in *.
    destruct (row_run st d pa ro q tm tc off r sty (mkTk (cur :: ps) None false dflt) l (pre ++ [nTxt txt cur]) fr (nxt (flat_map (emit_row d) t) nx)
                tk1 nodes1 sty1 _ (mkTk (cur' :: ps') None false dflt1) pre' cur' Hrow Eps (Hl _ Hpac) (pac_ready_nonempty _ _ _)
                eq_refl H0 (fun txt0 s => add_chars_append _ _ _ _ _ _ _ _)) as (l1 & E1 & Hl1 & Hle1).
    rewrite E1.
    destruct (IH nx pre' (rich_text r) cur' ps' (rw_row r) c1 dflt1 l1 (fr + Z.of_nat (length (emit_row d r))) sty1
                (if negb (son sty) && rw_ital r then (if adj then cur else rp0 r) else o4)
                (if adj then (if negb (son sty) && rw_ital r then cur else o5) else row_pos r) Hch Hl1 Hle1 Hlast')
      as (tk' & l' & sty'' & E & Hl').
    exists tk', l', sty''. split; [|exact Hl']. refine (eq_trans E _).
    unfold pre'. rewrite Hson, <- app_assoc. cbn [app]. f_equal. clear. lia.
Qed.
End Rows5b.

Definition load_nodes5b (l : load) : list inode :=
  match l with
  | [] => []
  | r :: t => pre_of r ++ nTxt (rich_text r) (row_pos r) :: tailS SA false t (row_pos r) (rw_row r) (rw_ital r) (rp0 r) (rp0 r)
  end.

Lemma load_parts : forall (f : row -> bool) l, load_wf l = true -> forallb f l = true ->
  exists r t, l = r :: t /\ f r = true /\ Forall (fun r => f r = true) t /\ chain_ok (rw_row r) t.
Proof.
  intros f l Hw Hb. destruct l as [|r t]; [discriminate Hw|]. exists r, t. unfold load_wf in Hw.
  apply andb_true_iff in Hw. destruct Hw as [_ Hd].
  rewrite forallb_cons in Hb. apply andb_true_iff in Hb. destruct Hb as [Hr Ht].
  split; [reflexivity|split; [exact Hr|split]].
  - apply Forall_forall. exact (proj1 (forallb_forall _ _) Ht).
  - cbn [map distinct] in Hd. apply andb_true_iff in Hd. destruct Hd as [Hm Hd]. apply negb_true_iff in Hm.
    apply distinct_chain; assumption.
Qed.

Lemma rich_load_any_parts : forall l, rich_load_any l = true ->
  exists r t, l = r :: t /\ rich_row_any r = true /\ Forall (fun r => rich_row_any r = true) t /\ chain_ok (rw_row r) t.
Proof. intros l H. apply andb_true_iff in H. exact (load_parts rich_row_any l (proj1 H) (proj2 H)). Qed.

Lemma good7_not_empty : forall r t sty, rich_row_any r = true -> cr_is_empty (mkCr (load_nodes5b (r :: t)) sty) = false.
Proof.
  intros r t sty Hrow. destruct (rich_facts r Hrow) as (_ & _ & _ & _ & _ & _ & _ & _ & _ & Hne & _).
  unfold cr_is_empty. cbn [cr_nodes load_nodes5b]. rewrite existsb_app. cbn [existsb i_text].
  destruct (rich_text r); [congruence|]. cbn [nonempty orb]. rewrite orb_true_r. reflexivity.
Qed.

Lemma load_rows7 : forall st (d : bool) q tm tc off tk nx r rest, rich_row_any r = true -> Forall (fun r => rich_row_any r = true) rest ->
  chain_ok (rw_row r) rest ->
  exists tk2 l2 sty2,
    tws (mkR st (tracker_reset tk) (if d then LNone else LWord w_rcl) d creator0 creator0 creator0 MPop q tm tc (if d then 4 else 2) off None)
        (flat_map (emit_row d) (r :: rest)) nx
    = mkR st tk2 l2 d (mkCr (load_nodes5b (r :: rest)) sty2) creator0 creator0 MPop q tm tc
          ((if d then 4 else 2) + Z.of_nat (length (flat_map (emit_row d) (r :: rest)))) off None
    /\ last_is l2 w_eoc = false.
Proof.
  intros st d q tm tc off tk nx r rest Hrow Frest Hch.
  destruct (pac_row_facts2 r Hrow) as (_ & Hpac & _). pose proof (no_pac_after_prologue d _ Hpac) as Hc0.
  set (l0 := if d then LNone else LWord w_rcl) in *.
  destruct (first_rich_row st d creator0 creator0 q tm tc off (tk_default tk) r l0 (if d then 4 else 2)
              (nxt (flat_map (emit_row d) rest) nx) Hrow Hc0) as (l1 & E1 & Hl1 & Hle1).
  destruct (rows_run5b st d creator0 creator0 q tm tc off rest Frest nx
              (pre_of r) (rich_text r) (row_pos r) [] (rw_row r) (rw_indent r + rw_tab r) (row_pos r) l1
              ((if d then 4 else 2) + Z.of_nat (length (emit_row d r))) (sty_of r) (rp0 r) (rp0 r) Hch Hl1 Hle1 eq_refl)
    as (tk2 & l2 & sty2 & E2 & Hl2).
  replace (son (sty_of r)) with (rw_ital r) in E2 by (unfold sty_of; destruct (rw_ital r); reflexivity).
  exists tk2, l2, sty2. split; [|exact Hl2]. cbn [flat_map]. rewrite tws_app, app_length, Nat2Z.inj_add, Z.add_assoc.
  refine (eq_trans (f_equal (fun s => tws s _ _) E1) _). exact E2.
Qed.

Lemma stage5b_state : forall d l off tc nx t, rich_load_any l = true ->
  get_time tc (Z.of_nat (length (emit_load d l)) - (if d then 2 else 1)) off = Ok t ->
  exists tk lc ds sty,
   tws (start_state off tc) (emit_load d l) nx =
     mkR stash0 tk lc ds creator0 creator0 creator0 MPop
         (Some (mkCr (load_nodes5b l) sty, t)) t tc (Z.of_nat (length (emit_load d l))) off None
   /\ last_is lc w_edm = false.
Proof.
  intros d l off tc nx t H Hg. destruct (rich_load_any_parts l H) as (r & rest & -> & Hrow & Frest & Hch).
  destruct (load_rows7 stash0 d None 0%Q tc off tracker0 (nxt (ctl d (ctrl_word 47)) nx) r rest Hrow Frest Hch) as (tk2 & l2 & sty2 & E2 & Hl2).
  destruct (load_run d (r :: rest) stash0 tracker0 LNone false creator0 creator0 creator0 None 0%Q tc 0 off nx t
              tk2 l2 _ eq_refl (good7_not_empty r rest sty2 Hrow) Hl2 Hg E2) as (lc & ds & E & Hlc).
  exists tk2, lc, ds, sty2. split; [exact E|destruct Hlc as [->| ->]; reflexivity].
Qed.

Ltac tail_cases r lr on :=
  cbn [tailS]; destruct (rw_row r =? lr + 1); destruct (rw_ital r); destruct on.

Lemma sio_true : forall l, skip_initial_off l true = l.
Proof.
  induction l as [|n l IH]; [reflexivity|]. cbn [skip_initial_off]. rewrite IH. destruct (is_on n); [reflexivity|].
  destruct (is_off n); reflexivity.
Qed.

Lemma sio_tail : forall t cur lr o4 o5,
  skip_initial_off (tailS SA false t cur lr false o4 o5) false = tailS SA false t cur lr false o4 o5.
Proof.
  induction t as [|r t IH]; intros cur lr o4 o5; [reflexivity|].
  cbn [tailS]; destruct (rw_row r =? lr + 1); destruct (rw_ital r);
    cbn [sepS app andb negb skip_initial_off is_on is_off i_kind]; rewrite ?sio_true, ?IH; reflexivity.
Qed.

Lemma set_tail : forall t, Forall (fun r => rich_row_any r = true) t -> forall cur lr on o4 o5,
  skip_empty_text (tailS SA false t cur lr on o4 o5) = tailS SB false t cur lr on o4 o5.
Proof.
  intros t F. induction F as [|r t Hrow F IH]; intros cur lr on o4 o5; [destruct on; reflexivity|].
  destruct (rich_facts r Hrow) as (_ & _ & _ & _ & _ & _ & _ & _ & _ & Hne & _).
  pose proof (nonempty_true _ Hne) as Hn. unfold skip_empty_text in *.
  tail_cases r lr on; cbn [sepS app andb negb filter is_text i_kind i_text nonempty]; rewrite Hn; cbn [andb negb]; rewrite IH; reflexivity.
Qed.

Definition st_ok (on : bool) (s : option bool) : Prop := if on then s = Some true else s <> Some true.

Lemma sr_tail : forall t cur lr on o4 o5 s, st_ok on s ->
  skip_redundant (tailS SB false t cur lr on o4 o5) s = tailS SB false t cur lr on o4 o5.
Proof.
  induction t as [|r t IH]; intros cur lr on o4 o5 s Hs; [destruct on; reflexivity|].
  assert (Ht : st_ok true (Some true)) by reflexivity.
  assert (Hf1 : st_ok false (Some false)) by (cbn; discriminate).
  assert (Hf2 : st_ok false None) by (cbn; discriminate).
  tail_cases r lr on; cbn [st_ok] in Hs; try subst s; try (destruct s as [[]|]; [congruence| |]);
    cbn [sepS app andb negb orb skip_redundant is_on is_off i_kind Bool.eqb]; rewrite IH by assumption; reflexivity.
Qed.

Lemma cbr_tail : forall t cur lr on o4 o5,
  close_before_repos (tailS SB false t cur lr on o4 o5) (if on then Some o4 else None) = tailS SC false t cur lr on o4 o5.
Proof.
  induction t as [|r t IH]; intros cur lr on o4 o5; [destruct on; reflexivity|].
  tail_cases r lr on; cbn [sepS app andb negb close_before_repos is_on is_off is_repos i_kind i_pos];
    first [rewrite (IH _ _ true)|rewrite (IH _ _ false)]; reflexivity.
Qed.

Lemma final_on_pos_app : forall a b s, final_on_pos (a ++ b) s = final_on_pos b (final_on_pos a s).
Proof.
  induction a as [|n a IH]; intros b s; [reflexivity|]. cbn [app final_on_pos].
  destruct (is_on n); [apply IH|]. destruct (is_off n); apply IH.
Qed.

Lemma efc_tail : forall t cur lr (on : bool) o4 o5 pre, final_on_pos pre None = (if on then Some o5 else None) ->
  ensure_final_closes (pre ++ tailS SC false t cur lr on o4 o5) = pre ++ tailS SC true t cur lr on o4 o5.
Proof.
  induction t as [|r t IH]; intros cur lr on o4 o5 pre Hp.
  - cbn [tailS andb]. rewrite app_nil_r. unfold ensure_final_closes. rewrite Hp. destruct on; [reflexivity|]. rewrite app_nil_r. reflexivity.
  - cbn [tailS].
    match goal with |- ensure_final_closes (pre ++ ?sep ++ ?T :: ?X) = pre ++ ?sep ++ ?T :: ?Y =>
      replace (pre ++ sep ++ T :: X) with ((pre ++ sep ++ [T]) ++ X) by (rewrite <- !app_assoc; reflexivity);
      replace (pre ++ sep ++ T :: Y) with ((pre ++ sep ++ [T]) ++ Y) by (rewrite <- !app_assoc; reflexivity)
    end.
    apply IH. rewrite final_on_pos_app, Hp.
    destruct (rw_row r =? lr + 1); destruct (rw_ital r); destruct on; reflexivity.
Qed.

Lemma roo_tail : forall t cur lr on o4 o5,
  remove_on_off (tailS SC true t cur lr on o4 o5) None = tailS SE true t cur lr on o4 o5.
Proof.
  induction t as [|r t IH]; intros cur lr on o4 o5; [destruct on; reflexivity|].
  tail_cases r lr on; cbn [sepS app andb negb remove_on_off is_on is_off i_kind]; rewrite IH; reflexivity.
Qed.

Lemma rof_tail : forall t cur lr on o4 o5,
  remove_off_on (tailS SE true t cur lr on o4 o5) None = tailS SE true t cur lr on o4 o5.
Proof.
  induction t as [|r t IH]; intros cur lr on o4 o5; [destruct on; reflexivity|].
  tail_cases r lr on; cbn [sepS app andb negb remove_off_on is_on is_off i_kind]; rewrite IH; reflexivity.
Qed.

Lemma rstrip_tail : forall t, Forall (fun r => rich_row_any r = true) t -> forall cur lr on o4 o5,
  Forall (fun n => rstrip_node n = n) (tailS SE true t cur lr on o4 o5).
Proof.
  intros t F. induction F as [|r t Hrow F IH]; intros cur lr on o4 o5.
  - destruct on; repeat constructor.
  - destruct (rich_text_facts r Hrow) as [Hrs _].
    assert (Ht : forall p, rstrip_node (nTxt (rich_text r) p) = nTxt (rich_text r) p).
    { intros p. unfold rstrip_node. cbn [i_kind i_text i_pos]. rewrite Hrs. reflexivity. }
    tail_cases r lr on; cbn [sepS app andb negb]; repeat (constructor; [first [reflexivity|apply Ht]|]); apply IH.
Qed.

(* the nodes after _format_italics *)
Definition fin_nodes (l : load) : list inode :=
  match l with
  | [] => []
  | r :: t => pre_of r ++ nTxt (rich_text r) (row_pos r) :: tailS SE true t (row_pos r) (rw_row r) (rw_ital r) (rp0 r) (rp0 r)
  end.

Lemma format_load5b : forall r t, rich_row_any r = true -> Forall (fun r => rich_row_any r = true) t ->
  format_italics (load_nodes5b (r :: t)) = fin_nodes (r :: t).
Proof.
  intros r t Hrow F. destruct (rich_facts r Hrow) as (_ & _ & _ & _ & _ & _ & _ & _ & _ & Hne & _).
  pose proof (nonempty_true _ Hne) as Hn. destruct (rich_text_facts r Hrow) as [Hrs _].
  unfold format_italics, load_nodes5b, fin_nodes, pre_of.
  assert (E5 : ensure_final_closes ((if rw_ital r then [nOn (rw_row r, rw_indent r)] else []) ++
                  nTxt (rich_text r) (row_pos r) :: tailS SC false t (row_pos r) (rw_row r) (rw_ital r) (rp0 r) (rp0 r))
               = (if rw_ital r then [nOn (rw_row r, rw_indent r)] else []) ++
                  nTxt (rich_text r) (row_pos r) :: tailS SC true t (row_pos r) (rw_row r) (rw_ital r) (rp0 r) (rp0 r)).
  { match goal with |- ensure_final_closes (?pre ++ ?T :: ?X) = ?pre ++ ?T :: ?Y =>
      replace (pre ++ T :: X) with ((pre ++ [T]) ++ X) by (rewrite <- !app_assoc; reflexivity);
      replace (pre ++ T :: Y) with ((pre ++ [T]) ++ Y) by (rewrite <- !app_assoc; reflexivity)
    end.
    apply efc_tail. destruct (rw_ital r); reflexivity. }
  assert (Ht : rstrip_node (nTxt (rich_text r) (row_pos r)) = nTxt (rich_text r) (row_pos r))
    by (unfold rstrip_node; cbn [i_kind i_text i_pos]; rewrite Hrs; reflexivity).
  pose proof (set_tail t F) as ST. unfold skip_empty_text in ST |- *.
  (* the passes in turn, for an italic and for a plain first row: the head is computed, the tail lemma of the pass does the rest *)
  unfold rp0 in *. destruct (rw_ital r); cbn [app] in E5; cbn [app skip_initial_off is_on is_off i_kind].
  all: rewrite ?sio_true, ?sio_tail; cbn [filter is_text i_kind i_text andb negb nonempty]; rewrite Hn; cbn [andb negb]; rewrite ST.
  all: cbn [skip_redundant is_on is_off i_kind orb]; rewrite (sr_tail t) by (cbn; congruence).
  all: cbn [close_before_repos is_on is_off is_repos i_kind i_pos]; rewrite cbr_tail, E5.
  all: cbn [app remove_on_off is_on is_off i_kind]; rewrite roo_tail; cbn [remove_off_on is_on is_off i_kind]; rewrite rof_tail.
  all: apply strip_line_ends_id; repeat (constructor; [first [reflexivity|exact Ht]|]); apply (rstrip_tail t F).
Qed.

Definition line_it (l : list cell) : bool := match l with Cell _ it :: _ => it | _ => false end.
(* between two lines: italics off before the break, italics on after it *)
Definition otrans (first on it : bool) : list onode :=
  (if first then [] else (if on && negb it then [OStyle false] else []) ++ [OBreak]) ++ (if negb on && it then [OStyle true] else []).
Fixpoint oopen (first on : bool) (ls : list (list cell)) : list onode :=
  match ls with
  | [] => []
  | l :: t => otrans first on (line_it l) ++ OText (line_text l) :: oopen false (line_it l) t
  end.
Definition last_it (on : bool) (ls : list (list cell)) : bool := fold_left (fun _ l => line_it l) ls on.
Definition oclose (on : bool) : list onode := if on then [OStyle false] else [].
Definition onodes5b (ls : list (list cell)) : list onode := oopen true false ls ++ oclose (last_it false ls).
Definition ocap5b (t1 t2 : Q) (e : ecap) : ocap :=
  mkO t1 t2 (onodes5b (e_lines e)) (Some (layout_of_pos (e_row e, e_col e))).

Lemma last_it_snoc : forall ls on l, last_it on (ls ++ [l]) = line_it l.
Proof. intros ls on l. unfold last_it. rewrite fold_left_app. reflexivity. Qed.

Lemma oopen_snoc : forall ls first on l, ls <> [] ->
  oopen first on (ls ++ [l]) = oopen first on ls ++ otrans false (last_it on ls) (line_it l) ++ [OText (line_text l)].
Proof.
  induction ls as [|a ls IH]; intros first on l H; [congruence|].
  destruct ls as [|b ls].
  - cbn [app oopen last_it fold_left]. rewrite <- !app_assoc. reflexivity.
  - change ((a :: b :: ls) ++ [l]) with (a :: (b :: ls) ++ [l]). cbn [oopen]. rewrite (IH false (line_it a) l) by discriminate.
    cbn [oopen last_it fold_left]. rewrite <- !app_assoc. cbn [app]. rewrite <- !app_assoc. reflexivity.
Qed.

Definition caps5b (t1 t2 : Q) (l : load) : list precap := build_captions (fin_nodes l) t1 t2 [] (mkPre t1 t2 [] None).

Lemma rich_any_line : forall r, rich_row_any r = true ->
  line_it (cells_of r) = rw_ital r /\ line_text (cells_of r) = rich_text r /\ nonempty (rich_text r) = true.
Proof.
  intros r H. destruct (rich_facts r H) as (_ & _ & _ & _ & _ & _ & _ & Hc & _ & Hne & _).
  split; [|split; [reflexivity|exact (nonempty_true _ Hne)]].
  rewrite Hc. destruct (rich_text r); [congruence|reflexivity].
Qed.

(* the accumulated caption observes as the lines so far, italics not yet closed *)
Definition acc_rel (t1 t2 : Q) (e : ecap) (acc : precap) : Prop :=
  pc_start acc = t1 /\ pc_end acc = t2 /\ pc_layout acc = Some (e_row e, e_col e) /\
  map onode_of (pc_nodes acc) = oopen true false (e_lines e) /\ e_lines e <> [].

Lemma acc_close : forall t1 t2 e acc p, acc_rel t1 t2 e acc ->
  observe (if last_it false (e_lines e) then add_node acc (CStyle false p) else acc) = ocap5b t1 t2 e.
Proof.
  intros t1 t2 e acc p (H1 & H2 & H3 & H4 & _). unfold ocap5b, onodes5b, oclose, observe.
  destruct (last_it false (e_lines e)); unfold add_node; cbn [pc_start pc_end pc_nodes pc_layout].
  - rewrite map_app, H1, H2, H3, H4. reflexivity.
  - rewrite app_nil_r, H1, H2, H3, H4. reflexivity.
Qed.

Lemma build_tail5b : forall t1 t2 t, Forall (fun r => rich_row_any r = true) t -> forall e lastrow done acc o4 o5,
  acc_rel t1 t2 e acc ->
  map observe (build_captions (tailS SE true t (e_row e, e_col e) lastrow (last_it false (e_lines e)) o4 o5) t1 t2 done acc)
  = map observe done ++ map (ocap5b t1 t2) (group_rows t (Some (e, lastrow))).
Proof.
  intros t1 t2 t F. induction F as [|r t Hrow F IH]; intros e lastrow done acc o4 o5 Ha.
  - cbn [tailS group_rows andb map]. rewrite <- (acc_close t1 t2 e acc o5 Ha).
    destruct (last_it false (e_lines e)); cbn [build_captions i_kind i_pos]; rewrite map_app; reflexivity.
  - destruct (rich_any_line r Hrow) as (Hli & Hlt & Hn). destruct Ha as (H1 & H2 & H3 & H4 & H5).
    cbn [tailS group_rows]. destruct (rw_row r =? lastrow + 1).
    + (* a further line *)
      set (e' := mkE (e_row e) (e_col e) (e_lines e ++ [cells_of r])).
      assert (Hon : last_it false (e_lines e') = rw_ital r) by (unfold e'; cbn [e_lines]; rewrite last_it_snoc; exact Hli).
      assert (K : forall acc', pc_start acc' = t1 -> pc_end acc' = t2 -> pc_layout acc' = Some (e_row e, e_col e) ->
                  map onode_of (pc_nodes acc') = map onode_of (pc_nodes acc) ++ otrans false (last_it false (e_lines e)) (rw_ital r)
                                                 ++ [OText (rich_text r)] ->
                  forall o4' o5',
                  map observe (build_captions (tailS SE true t (e_row e, e_col e) (rw_row r) (rw_ital r) o4' o5') t1 t2 done acc')
                  = map observe done ++ map (ocap5b t1 t2) (group_rows t (Some (e', rw_row r)))).
      { intros acc' A1 A2 A3 A4 o4' o5'. rewrite <- Hon. apply (IH e' (rw_row r) done acc' o4' o5').
        unfold acc_rel, e'. cbn [e_row e_col e_lines]. repeat split; try assumption.
        - rewrite A4, H4, (oopen_snoc _ _ _ _ H5), Hli, Hlt. reflexivity.
        - apply snoc_not_nil. }
      destruct (rw_ital r); destruct (last_it false (e_lines e));
        cbn [sepS app andb negb build_captions i_kind i_text i_pos add_node pc_start pc_end pc_nodes pc_layout]; rewrite Hn;
        apply K; cbn [pc_start pc_end pc_nodes pc_layout otrans andb negb app]; try assumption; try reflexivity;
        rewrite ?map_app; cbn [map onode_of]; rewrite <- ?app_assoc; reflexivity.
    + (* a new caption *)
      set (e' := mkE (rw_row r) (rw_indent r + rw_tab r) [cells_of r]).
      assert (Hon : last_it false (e_lines e') = rw_ital r) by exact Hli.
      assert (K : forall acc' done', pc_start acc' = t1 -> pc_end acc' = t2 -> pc_layout acc' = Some (row_pos r) ->
                  map onode_of (pc_nodes acc') = otrans true false (rw_ital r) ++ [OText (rich_text r)] ->
                  map observe done' = map observe done ++ [ocap5b t1 t2 e] ->
                  forall o4' o5',
                  map observe (build_captions (tailS SE true t (row_pos r) (rw_row r) (rw_ital r) o4' o5') t1 t2 done' acc')
                  = map observe done ++ ocap5b t1 t2 e :: map (ocap5b t1 t2) (group_rows t (Some (e', rw_row r)))).
      { intros acc' done' A1 A2 A3 A4 A5 o4' o5'. rewrite <- Hon.
        pose proof (IH e' (rw_row r) done' acc' o4' o5') as X. change (e_row e', e_col e') with (row_pos r) in X. rewrite X.
        - rewrite A5, <- app_assoc. reflexivity.
        - unfold acc_rel, e'. cbn [e_row e_col e_lines oopen]. repeat split; try assumption; try discriminate.
          rewrite A4, Hli, Hlt. reflexivity. }
      pose proof (fun p => acc_close t1 t2 e acc p (conj H1 (conj H2 (conj H3 (conj H4 H5))))) as Hc.
      cbn [map]. destruct (rw_ital r); destruct (last_it false (e_lines e));
        cbn [sepS app andb negb build_captions i_kind i_text i_pos add_node pc_start pc_end pc_nodes pc_layout]; rewrite Hn;
        apply K; cbn [pc_start pc_end pc_nodes pc_layout otrans andb negb app map onode_of]; try reflexivity;
        rewrite map_app; cbn [map]; first [rewrite <- (Hc o4); reflexivity|rewrite <- (Hc (rp0 r)); reflexivity].
Qed.

Lemma caps5b_observe : forall t1 t2 r t, rich_row_any r = true -> Forall (fun r => rich_row_any r = true) t ->
  map observe (caps5b t1 t2 (r :: t)) = map (ocap5b t1 t2) (expected_load (r :: t)).
Proof.
  intros t1 t2 r t Hrow F. destruct (rich_any_line r Hrow) as (Hli & Hlt & Hn).
  unfold caps5b, fin_nodes, expected_load, pre_of. cbn [group_rows].
  set (e := mkE (rw_row r) (rw_indent r + rw_tab r) [cells_of r]).
  assert (Hon : last_it false (e_lines e) = rw_ital r) by exact Hli.
  assert (K : forall acc, acc_rel t1 t2 e acc ->
            map observe (build_captions (tailS SE true t (row_pos r) (rw_row r) (rw_ital r) (rp0 r) (rp0 r)) t1 t2 [] acc)
            = map (ocap5b t1 t2) (group_rows t (Some (e, rw_row r)))).
  { intros acc Ha. rewrite <- Hon. exact (build_tail5b t1 t2 t F e (rw_row r) [] acc (rp0 r) (rp0 r) Ha). }
  destruct (rw_ital r) eqn:Hit; cbn [app build_captions i_kind i_text i_pos add_node pc_start pc_end pc_nodes pc_layout]; rewrite Hn;
    apply K; unfold acc_rel, e; cbn [pc_start pc_end pc_nodes pc_layout e_row e_col e_lines oopen map onode_of app];
    rewrite ?Hli, ?Hlt; repeat split; try reflexivity; discriminate.
Qed.

Definition good_line5b (cs : list cell) : Prop :=
  exists it s, cs = map (fun c => Cell c it) s /\ s <> [] /\ (length s <= 32)%nat /\ ~ In 10 s.
Definition good_ecap5b (e : ecap) : Prop :=
  1 <= e_row e <= 15 /\ 0 <= e_col e <= 31 /\ e_lines e <> [] /\ Forall good_line5b (e_lines e).

Lemma rich_line_facts : forall r, rich_row_any r = true ->
  cells_of r = map (fun c => Cell c (rw_ital r)) (rich_text r) /\ rich_text r <> [] /\ (length (rich_text r) <= 32)%nat /\
  ~ In 10 (rich_text r) /\ 1 <= rw_row r <= 15 /\ 0 <= rw_indent r + rw_tab r <= 31.
Proof.
  intros r Hrow. destruct (rich_facts r Hrow) as (Hr & Hin & Hk & _ & _ & _ & _ & Hc & Hg & Hne & _ & Hn).
  assert (H0 : 0 <= rw_indent r) by (unfold indents_608 in Hin; cbn [In] in Hin; lia).
  assert (Hlen : (0 < length (rich_text r))%nat) by (destruct (rich_text r); [congruence|cbn; lia]).
  split; [exact Hc|split; [exact Hne|split; [lia|split; [|split; [exact Hr|lia]]]]].
  intros Hi. rewrite Forall_forall in Hg. destruct (gcharb_parts 10 (Hg 10 Hi)) as [G _]. lia.
Qed.

Lemma rich_any_good : forall r, rich_row_any r = true ->
  good_line5b (cells_of r) /\ 1 <= rw_row r <= 15 /\ 0 <= rw_indent r + rw_tab r <= 31.
Proof.
  intros r Hrow. destruct (rich_line_facts r Hrow) as (Hc & Hne & Hlen & Hnl & Hr & Hcol).
  split; [exists (rw_ital r), (rich_text r)|]; auto.
Qed.

(* the expected captions of a load are well formed when every row is: P is what is known of a row's line *)
Section GoodCaps.
Variables (f : row -> bool) (P : list cell -> Prop).
Hypothesis row_good : forall r, f r = true -> P (cells_of r) /\ 1 <= rw_row r <= 15 /\ 0 <= rw_indent r + rw_tab r <= 31.
Let good (e : ecap) : Prop := 1 <= e_row e <= 15 /\ 0 <= e_col e <= 31 /\ e_lines e <> [] /\ Forall P (e_lines e).

Lemma first_line_good : forall r, f r = true -> good (mkE (rw_row r) (rw_indent r + rw_tab r) [cells_of r]).
Proof.
  intros r Hrow. destruct (row_good r Hrow) as (Hg & Hr & Hc).
  split; [exact Hr|split; [exact Hc|split; [discriminate|constructor; [exact Hg|constructor]]]].
Qed.

Lemma group_rows_good_gen : forall t, Forall (fun r => f r = true) t -> forall e lr, good e ->
  Forall good (group_rows t (Some (e, lr))).
Proof.
  intros t F. induction F as [|r t Hrow F IH]; intros e lr He.
  - cbn [group_rows]. constructor; [exact He|constructor].
  - cbn [group_rows]. destruct (rw_row r =? lr + 1).
    + apply IH. destruct He as (H1 & H2 & H3 & H4). destruct (row_good r Hrow) as (Hg & _).
      split; [exact H1|split; [exact H2|split]]; cbn [e_lines].
      * apply snoc_not_nil.
      * apply Forall_app. split; [exact H4|constructor; [exact Hg|constructor]].
    + constructor; [exact He|]. apply IH. exact (first_line_good r Hrow).
Qed.

Lemma expected_load_good_gen : forall r t, f r = true -> Forall (fun r => f r = true) t -> Forall good (expected_load (r :: t)).
Proof. intros r t Hrow F. exact (group_rows_good_gen t F _ _ (first_line_good r Hrow)). Qed.
End GoodCaps.

Lemma expected_load_good5b : forall r t, rich_row_any r = true -> Forall (fun r => rich_row_any r = true) t ->
  Forall good_ecap5b (expected_load (r :: t)).
Proof. exact (expected_load_good_gen rich_row_any good_line5b rich_any_good). Qed.

Lemma good_line5b_text : forall cs, good_line5b cs ->
  line_text cs <> [] /\ (length (line_text cs) <= 32)%nat /\ ~ In 10 (line_text cs) /\
  cs = map (fun c => Cell c (line_it cs)) (line_text cs).
Proof.
  intros cs (it & s & -> & H1 & H2 & H3).
  assert (E : line_text (map (fun c => Cell c it) s) = s) by (unfold line_text; rewrite map_map; apply map_id).
  rewrite E. repeat split; try assumption. destruct s as [|c s]; [congruence|reflexivity].
Qed.

Definition ml (l : list cell) : list (Z * bool) := map (fun c => (c, line_it l)) (line_text l).

Lemma obs_open : forall ls first on cur, (first = true -> on = false) ->
  obs_lines (oopen first on ls ++ oclose (last_it on ls)) cur on
  = match ls with [] => [cur] | l :: t => if first then (cur ++ ml l) :: map ml t else cur :: ml l :: map ml t end.
Proof.
  induction ls as [|l t IH]; intros first on cur Hf.
  - cbn [oopen app last_it fold_left]. destruct on; reflexivity.
  - cbn [oopen]. change (last_it on (l :: t)) with (last_it (line_it l) t). rewrite <- app_assoc. cbn [app].
    assert (Em : ml l = map (fun c => (c, line_it l)) (line_text l)) by reflexivity. rewrite Em. clear Em.
    assert (IH' : forall b c0, obs_lines (oopen false b t ++ oclose (last_it b t)) c0 b = c0 :: map ml t).
    { intros b c0. rewrite IH by discriminate. destruct t; reflexivity. }
    generalize (line_it l) as b. intros b. unfold otrans.
    destruct first; [rewrite (Hf eq_refl)|destruct on]; destruct b; cbn [andb negb app obs_lines]; rewrite IH'; reflexivity.
Qed.

Lemma bal_open : forall ls first on, (first = true -> on = false) -> balanced (oopen first on ls ++ oclose (last_it on ls)) on = true.
Proof.
  induction ls as [|l t IH]; intros first on Hf.
  - destruct on; reflexivity.
  - cbn [oopen]. change (last_it on (l :: t)) with (last_it (line_it l) t). rewrite <- app_assoc. cbn [app].
    assert (IH' : forall b, balanced (oopen false b t ++ oclose (last_it b t)) b = true) by (intros b; apply IH; discriminate).
    generalize (line_it l) as b. intros b. unfold otrans.
    destruct first; [rewrite (Hf eq_refl)|destruct on]; destruct b; cbn [andb negb app balanced]; apply IH'.
Qed.

Lemma match_lines5b : forall ls, Forall good_line5b ls -> match_lines ls (map ml ls) = true.
Proof.
  intros ls F. induction F as [|a ls Ha F IH]; [reflexivity|]. cbn [map match_lines]. rewrite IH, andb_true_r.
  destruct (good_line5b_text a Ha) as (_ & _ & _ & E). rewrite E at 1. apply match_line_basic.
Qed.

Lemma cap_ok_good5b : forall t1 t2 e, good_ecap5b e -> (t1 < t2)%Q -> cap_ok e (ocap5b t1 t2 e) = true.
Proof.
  intros t1 t2 e (Hr & Hc & Hne & Hl) Hlt. apply cap_ok_intro; try assumption; unfold onodes5b.
  - rewrite obs_open by reflexivity. pose proof (match_lines5b _ Hl) as M. destruct (e_lines e); [congruence|exact M].
  - apply bal_open. reflexivity.
Qed.

Lemma load_ok_caps5b : forall t1 t2 es, Forall good_ecap5b es -> (t1 < t2)%Q -> forall span,
  span = None \/ span = Some (t1, t2) ->
  load_ok es (map (ocap5b t1 t2) es) span = Some ([], match es with [] => span | _ => Some (t1, t2) end).
Proof.
  intros t1 t2 es F Hlt span Hs. rewrite <- (app_nil_r (map _ es)). apply load_ok_rest; [|exact Hs].
  induction F as [|e es He F IH]; constructor; [|exact IH]. split; [exact (cap_ok_good5b t1 t2 e He Hlt)|split; reflexivity].
Qed.

Theorem popon_stage5b_ok : forall d l t1 t2, rich_load_any l = true -> (t1 < t2)%Q ->
  ok_c05 (mkProg d [l]) (Ok (map (ocap5b t1 t2) (expected_load l))) = true.
Proof.
  intros d l t1 t2 H Hlt. destruct (rich_load_any_parts l H) as (r & rest & -> & Hrow & Frest & _).
  unfold ok_c05. cbn [pg_loads loads_ok].
  rewrite (load_ok_caps5b t1 t2 _ (expected_load_good5b r rest Hrow Frest) Hlt None (or_introl eq_refl)).
  pose proof (expected_load_nonempty r rest) as Hne. destruct (expected_load (r :: rest)); [congruence|reflexivity].
Qed.

Definition otxt (n : onode) : str := match n with OText s => s | OBreak => [10] | OStyle _ => [] end.

Lemma cap_text_observe : forall c, cap_text c = concat (map otxt (o_nodes (observe c))).
Proof.
  intros c. unfold cap_text, observe. cbn [o_nodes]. rewrite map_map. f_equal. apply map_ext. intros [s p|p|b p]; reflexivity.
Qed.

Lemma otext_open : forall ls on b,
  concat (map otxt (oopen false on ls ++ oclose b)) = concat (map (fun l => 10 :: line_text l) ls).
Proof.
  induction ls as [|l t IH]; intros on b.
  - destruct b; reflexivity.
  - cbn [oopen]. rewrite <- app_assoc. cbn [app]. rewrite map_app, concat_app. cbn [map concat]. rewrite IH.
    unfold otrans. destruct on; destruct (line_it l); reflexivity.
Qed.

Lemma otext_first : forall l t, concat (map otxt (onodes5b (l :: t))) = line_text l ++ concat (map (fun l => 10 :: line_text l) t).
Proof.
  intros l t. unfold onodes5b. cbn [oopen]. rewrite <- app_assoc. cbn [app]. rewrite map_app, concat_app. cbn [map concat].
  rewrite otext_open. unfold otrans. destruct (line_it l); reflexivity.
Qed.

Lemma split_lines : forall t l cur, (forall c, In c (line_text l) -> c <> 10) -> Forall (fun l => ~ In 10 (line_text l)) t ->
  split_ch_aux 10 (line_text l ++ concat (map (fun l => 10 :: line_text l) t)) cur = (rev cur ++ line_text l) :: map line_text t.
Proof.
  induction t as [|l2 t IH]; intros l cur Hl F.
  - cbn [map concat]. rewrite app_nil_r. apply split_no_sep. exact Hl.
  - inversion F as [|? ? H2 F']; subst. cbn [map concat]. rewrite <- app_comm_cons.
    rewrite (split_sep 10 (line_text l) _ cur Hl). f_equal. rewrite IH; [reflexivity| |exact F'].
    intros c Hc E. subst. exact (H2 Hc).
Qed.

Lemma obs_not_long : forall t1 t2 c e, observe c = ocap5b t1 t2 e -> good_ecap5b e ->
  filter spec_long (spec_lines (cap_text c)) = [].
Proof.
  intros t1 t2 c e Ho (_ & _ & Hne & Hl). rewrite cap_text_observe, Ho. unfold ocap5b. cbn [o_nodes].
  destruct (e_lines e) as [|l t]; [congruence|]. rewrite otext_first. unfold spec_lines, split_ch.
  inversion Hl as [|? ? Ha Ht]; subst.
  assert (Ft : Forall (fun l => ~ In 10 (line_text l)) t).
  { rewrite Forall_forall in *. intros x Hx. destruct (good_line5b_text x (Ht x Hx)) as (_ & _ & H & _). exact H. }
  destruct (good_line5b_text l Ha) as (_ & _ & Hn & _).
  rewrite split_lines; [|intros c0 Hc E; subst; exact (Hn Hc)|exact Ft]. cbn [rev app].
  change (line_text l :: map line_text t) with (map line_text (l :: t)).
  clear -Hl. induction Hl as [|a ls Ha Hl IH]; [reflexivity|].
  cbn [map filter]. destruct (good_line5b_text a Ha) as (_ & Hlen & _). unfold spec_long at 1.
  replace (32 <? Z.of_nat (length (line_text a))) with false by lia. exact IH.
Qed.

Lemma cons_eq_inv : forall A (a b : A) l m, a :: l = b :: m -> a = b /\ l = m.
Proof. intros A a b l m H. inversion H. split; reflexivity. Qed.

Lemma obs_pairs : forall t1 t2 caps es, map observe caps = map (ocap5b t1 t2) es -> Forall good_ecap5b es ->
  Forall2 (fun c e => observe c = ocap5b t1 t2 e /\ good_ecap5b e) caps es.
Proof.
  intros t1 t2. induction caps as [|c caps IH]; intros [|e es] Ho F; try discriminate Ho; [constructor|].
  cbn [map] in Ho. apply cons_eq_inv in Ho. destruct Ho as [H1 H2]. inversion F; subst. constructor; [split; assumption|]. apply IH; assumption.
Qed.

(* captions that observe as the expected ones pass the scans at the end of read *)
Lemma no_flash_times : forall t1 t2 caps, (forall c, In c caps -> pc_start c = t1 /\ pc_end c = t2) ->
  is_flash (mkPre t1 t2 [] None) = false -> existsb is_flash caps = false.
Proof.
  intros t1 t2 caps Ht Hfl. induction caps as [|c caps IH]; [reflexivity|]. cbn [existsb]. rewrite IH by (intros x Hx; apply Ht; right; exact Hx).
  destruct (Ht c (or_introl eq_refl)) as [H1 H2]. unfold is_flash in *. cbn [pc_start pc_end] in Hfl. rewrite H1, H2, Hfl. reflexivity.
Qed.

Lemma finish_obs : forall t1 t2 caps es n, map observe caps = map (ocap5b t1 t2) es -> es <> [] -> Forall good_ecap5b es ->
  Qeq_bool t2 0 = false -> is_flash (mkPre t1 t2 [] None) = false ->
  finish_read (mkStash caps n) = ROk caps.
Proof.
  intros t1 t2 caps es n Ho Hne F Hz Hfl.
  pose proof (obs_pairs t1 t2 caps es Ho F) as F2.
  assert (Ht : forall c, In c caps -> pc_start c = t1 /\ pc_end c = t2).
  { clear -F2. induction F2 as [|c e caps es [H _] F2 IH]; intros x Hx; [destruct Hx|]. destruct Hx as [<-|Hx]; [|apply IH; exact Hx].
    unfold observe, ocap5b in H. injection H as H1 H2 _ _. split; assumption. }
  apply finish_read_ok.
  - destruct caps; [destruct es; [congruence|discriminate Ho]|discriminate].
  - unfold offending. clear -F2. induction F2 as [|c e caps es [H G] F2 IH]; [reflexivity|].
    cbn [map concat]. rewrite IH, app_nil_r. unfold to_lcap. cbn [snd]. exact (obs_not_long t1 t2 c e H G).
  - exact (no_flash_times t1 t2 caps Ht Hfl).
  - intros x Hx. destruct (Ht x Hx) as [_ ->]. exact Hz.
Qed.

Lemma onodes5b_nonempty : forall ls, ls <> [] -> onodes5b ls <> [].
Proof.
  intros [|l t] H; [congruence|]. unfold onodes5b. cbn [oopen]. intros E. apply app_eq_nil in E. destruct E as [E _].
  apply app_eq_nil in E. destruct E as [_ E]. discriminate.
Qed.

Lemma has_nodes_obs : forall t1 t2 caps es, map observe caps = map (ocap5b t1 t2) es -> Forall good_ecap5b es ->
  filter has_nodes caps = caps.
Proof.
  intros t1 t2 caps es Ho F. pose proof (obs_pairs t1 t2 caps es Ho F) as F2. clear Ho F.
  induction F2 as [|c e caps es [H1 (_ & _ & Hne & _)] F2 IH]; [reflexivity|]. cbn [filter]. rewrite IH.
  unfold has_nodes. destruct (pc_nodes c) eqn:E; [|reflexivity].
  exfalso. unfold observe, ocap5b in H1. rewrite E in H1. injection H1 as _ _ H1. cbn [map] in H1.
  symmetry in H1. exact (onodes5b_nonempty _ Hne H1).
Qed.

Lemma store_load7 : forall st t1 t2 r t sty, rich_row_any r = true -> Forall (fun r => rich_row_any r = true) t ->
  create_and_store st (mkCr (load_nodes5b (r :: t)) sty) t1 t2 = stash_extend st (caps5b t1 t2 (r :: t)).
Proof.
  intros st t1 t2 r t sty Hrow F. unfold create_and_store.
  rewrite (good7_not_empty r t sty Hrow). cbn [cr_nodes]. rewrite (format_load5b r t Hrow F). reflexivity.
Qed.

Lemma store_load5b : forall t1 t2 r t sty, rich_row_any r = true -> Forall (fun r => rich_row_any r = true) t ->
  create_and_store stash0 (mkCr (load_nodes5b (r :: t)) sty) t1 t2
  = mkStash (caps5b t1 t2 (r :: t)) (length (caps5b t1 t2 (r :: t))).
Proof.
  intros t1 t2 r t sty Hrow F. rewrite (store_load7 stash0 t1 t2 r t sty Hrow F), stash_extend0.
  rewrite (has_nodes_obs t1 t2 _ _ (caps5b_observe t1 t2 r t Hrow F) (expected_load_good5b r t Hrow F)). reflexivity.
Qed.

Theorem popon_stage5b_read : forall d l off tc tc2 t1 t2, rich_load_any l = true ->
  get_time tc (Z.of_nat (length (emit_load d l)) - (if d then 2 else 1)) off = Ok t1 ->
  get_time tc2 0 off = Ok t2 -> Qeq_bool t2 0 = false -> is_flash (mkPre t1 t2 [] None) = false ->
  read off [(tc, emit_load d l); (tc2, emit_clear d)] = ROk (caps5b t1 t2 l) /\
  map observe (caps5b t1 t2 l) = map (ocap5b t1 t2) (expected_load l).
Proof.
  intros d l off tc tc2 t1 t2 H Hg1 Hg2 Hz Hfl.
  destruct (stage5b_state d l off tc None t1 H Hg1) as (tk & lc & ds & sty & E & Hl).
  destruct (rich_load_any_parts l H) as (r & rest & -> & Hrow & Frest & _).
  split; [|exact (caps5b_observe t1 t2 r rest Hrow Frest)].
  rewrite (read_load_clear d off tc _ tc2 tk lc ds _ t1 t2 _ E Hl Hg2), (store_load5b t1 t2 r rest sty Hrow Frest).
  exact (finish_obs t1 t2 _ (expected_load (r :: rest)) _ (caps5b_observe t1 t2 r rest Hrow Frest) (expected_load_nonempty r rest)
           (expected_load_good5b r rest Hrow Frest) Hz Hfl).
Qed.

(* what `read` returns, observed, meets the oracle *)
Corollary popon_stage5b : forall d l off tc tc2 t1 t2, rich_load_any l = true ->
  get_time tc (Z.of_nat (length (emit_load d l)) - (if d then 2 else 1)) off = Ok t1 ->
  get_time tc2 0 off = Ok t2 -> Qeq_bool t2 0 = false -> is_flash (mkPre t1 t2 [] None) = false -> (t1 < t2)%Q ->
  exists caps, read off [(tc, emit_load d l); (tc2, emit_clear d)] = ROk caps /\
               ok_c05 (mkProg d [l]) (Ok (map observe caps)) = true.
Proof.
  intros d l off tc tc2 t1 t2 H Hg1 Hg2 Hz Hfl Hlt.
  destruct (popon_stage5b_read d l off tc tc2 t1 t2 H Hg1 Hg2 Hz Hfl) as [Hr Ho].
  exists (caps5b t1 t2 l). split; [exact Hr|]. rewrite Ho. exact (popon_stage5b_ok d l t1 t2 H Hlt).
Qed.

(* ==== STAGE 5a: no row has the italic preamble ===================================================================== *)
Lemma rich_load_parts : forall l, rich_load l = true ->
  exists r t, l = r :: t /\ rich_row r = true /\ Forall (fun r => rich_row r = true) t /\ chain_ok (rw_row r) t.
Proof. intros l H. apply andb_true_iff in H. exact (load_parts rich_row l (proj1 H) (proj2 H)). Qed.

Lemma rich_row_good : forall r, rich_row r = true ->
  good_line (cells_of r) /\ line_text (cells_of r) = rich_text r /\ 1 <= rw_row r <= 15 /\ 0 <= rw_indent r + rw_tab r <= 31 /\
  rich_text r <> [] /\ rstrip (rich_text r) = rich_text r.
Proof.
  intros r H. destruct (rich_row_gen r H) as [Hrow Hital].
  destruct (rich_line_facts r Hrow) as (Hc & Hne & Hlen & Hnl & Hr & Hcol). rewrite Hital in Hc.
  split; [exists (rich_text r); auto|]. split; [reflexivity|]. split; [exact Hr|split; [exact Hcol|split; [exact Hne|]]].
  exact (proj1 (rich_text_facts r Hrow)).
Qed.

Lemma expected_load_good5 : forall r t, rich_row r = true -> Forall (fun r => rich_row r = true) t ->
  Forall good_ecap (expected_load (r :: t)).
Proof.
  apply (expected_load_good_gen rich_row good_line). intros r H. destruct (rich_row_good r H) as (Hg & _ & Hr & Hc & _). auto.
Qed.

Lemma build_tail5 : forall t1 t2 t, Forall (fun r => rich_row r = true) t -> forall e lastrow done o4 o5, e_lines e <> [] ->
  build_captions (tailS SE true t (e_row e, e_col e) lastrow false o4 o5) t1 t2 done (cap_of t1 t2 e)
  = done ++ map (cap_of t1 t2) (group_rows t (Some (e, lastrow))).
Proof.
  intros t1 t2 t F. induction F as [|r t Hrow F IH]; intros e lastrow done o4 o5 He; [reflexivity|].
  destruct (rich_row_good r Hrow) as (_ & Hlt & _ & _ & Hne & _). destruct (rich_row_gen r Hrow) as [_ Hit].
  cbn [tailS group_rows]. rewrite Hit. destruct (rw_row r =? lastrow + 1); cbn [sepS andb negb app].
  - cbn [build_captions i_kind i_text i_pos]. rewrite (nonempty_true _ Hne).
    specialize (IH (mkE (e_row e) (e_col e) (e_lines e ++ [cells_of r])) (rw_row r) done o4 o5).
    cbn [e_row e_col e_lines] in IH. rewrite <- IH.
    + f_equal. unfold cap_of, add_node. cbn [pc_start pc_end pc_nodes pc_layout e_row e_col e_lines].
      rewrite (lines_nodes_snoc _ _ _ He), Hlt, <- app_assoc. reflexivity.
    + apply snoc_not_nil.
  - cbn [build_captions i_kind i_text i_pos]. rewrite (nonempty_true _ Hne).
    specialize (IH (mkE (rw_row r) (rw_indent r + rw_tab r) [cells_of r]) (rw_row r) (done ++ [cap_of t1 t2 e]) o4 (row_pos r)).
    cbn [e_row e_col e_lines] in IH. cbn [map].
    replace (done ++ cap_of t1 t2 e :: map (cap_of t1 t2) (group_rows t (Some (mkE (rw_row r) (rw_indent r + rw_tab r) [cells_of r], rw_row r))))
      with ((done ++ [cap_of t1 t2 e]) ++ map (cap_of t1 t2) (group_rows t (Some (mkE (rw_row r) (rw_indent r + rw_tab r) [cells_of r], rw_row r))))
      by (rewrite <- app_assoc; reflexivity).
    rewrite <- IH by discriminate. reflexivity.
Qed.

Lemma caps5b_plain : forall t1 t2 r t, rich_row r = true -> Forall (fun r => rich_row r = true) t ->
  caps5b t1 t2 (r :: t) = map (cap_of t1 t2) (expected_load (r :: t)).
Proof.
  intros t1 t2 r t Hrow F. destruct (rich_row_good r Hrow) as (_ & Hlt & _ & _ & Hne & _). destruct (rich_row_gen r Hrow) as [_ Hit].
  unfold caps5b, fin_nodes, pre_of, expected_load. rewrite Hit. cbn [app group_rows build_captions i_kind i_text i_pos].
  rewrite (nonempty_true _ Hne).
  pose proof (build_tail5 t1 t2 t F (mkE (rw_row r) (rw_indent r + rw_tab r) [cells_of r]) (rw_row r) [] (rp0 r) (rp0 r)) as B.
  cbn [e_row e_col e_lines app] in B. rewrite <- B by discriminate. reflexivity.
Qed.

Lemma rich_load_any_of : forall l, rich_load l = true -> rich_load_any l = true.
Proof.
  intros l H. unfold rich_load in H. unfold rich_load_any. apply andb_true_iff in H. destruct H as [Hw Hb]. rewrite Hw.
  apply forallb_forall. intros r Hr. exact (proj1 (rich_row_gen r (proj1 (forallb_forall _ _) Hb r Hr))).
Qed.

Theorem popon_stage5_read : forall d l off tc tc2 t1 t2, rich_load l = true ->
  get_time tc (Z.of_nat (length (emit_load d l)) - (if d then 2 else 1)) off = Ok t1 ->
  get_time tc2 0 off = Ok t2 -> Qeq_bool t2 0 = false -> is_flash (mkPre t1 t2 [] None) = false ->
  read off [(tc, emit_load d l); (tc2, emit_clear d)] = ROk (map (cap_of t1 t2) (expected_load l)).
Proof.
  intros d l off tc tc2 t1 t2 H Hg1 Hg2 Hz Hfl.
  destruct (popon_stage5b_read d l off tc tc2 t1 t2 (rich_load_any_of l H) Hg1 Hg2 Hz Hfl) as [Hr _].
  destruct (rich_load_parts l H) as (r & rest & -> & Hrow & Frest & _).
  rewrite Hr, (caps5b_plain t1 t2 r rest Hrow Frest). reflexivity.
Qed.


Theorem popon_stage5_ok : forall d l t1 t2, rich_load l = true -> (t1 < t2)%Q ->
  ok_c05 (mkProg d [l]) (Ok (map (ocap_of t1 t2) (expected_load l))) = true.
Proof.
  intros d l t1 t2 H Hlt. destruct (rich_load_parts l H) as (r & rest & -> & Hrow & Frest & _).
  unfold ok_c05. cbn [pg_loads loads_ok].
  rewrite (load_ok_caps t1 t2 _ (expected_load_good5 r rest Hrow Frest) Hlt None (or_introl eq_refl)).
  pose proof (expected_load_nonempty r rest) as Hne. destruct (expected_load (r :: rest)); [congruence|reflexivity].
Qed.

(* what `read` returns, observed, meets the oracle *)
Corollary popon_stage5 : forall d l off tc tc2 t1 t2, rich_load l = true ->
  get_time tc (Z.of_nat (length (emit_load d l)) - (if d then 2 else 1)) off = Ok t1 ->
  get_time tc2 0 off = Ok t2 -> Qeq_bool t2 0 = false -> is_flash (mkPre t1 t2 [] None) = false -> (t1 < t2)%Q ->
  exists caps, read off [(tc, emit_load d l); (tc2, emit_clear d)] = ROk caps /\
               ok_c05 (mkProg d [l]) (Ok (map observe caps)) = true.
Proof.
  intros d l off tc tc2 t1 t2 H Hg1 Hg2 Hz Hfl Hlt. exists (map (cap_of t1 t2) (expected_load l)). split.
  - exact (popon_stage5_read d l off tc tc2 t1 t2 H Hg1 Hg2 Hz Hfl).
  - rewrite map_map. rewrite (map_ext _ _ (observe_cap_of t1 t2)). exact (popon_stage5_ok d l t1 t2 H Hlt).
Qed.

(* the lines of the expected captions are the texts of the rows, all cells plain *)
Lemma rich_load_rows : forall l r, rich_load l = true -> In r l ->
  line_text (cells_of r) = rich_text r /\ cells_of r = map (fun c => Cell c false) (rich_text r).
Proof.
  intros l r H Hi. unfold rich_load in H. apply andb_true_iff in H. destruct H as [_ H].
  pose proof (proj1 (forallb_forall _ _) H r Hi) as Hr. change (rich_row r = true) in Hr.
  destruct (rich_row_good r Hr) as (_ & Hlt & _). split; [exact Hlt|].
  destruct (rich_row_gen r Hr) as [Hrow Hital]. destruct (rich_facts r Hrow) as (_ & _ & _ & _ & _ & _ & _ & Hc & _).
  rewrite Hital in Hc. exact Hc.
Qed.

(* the domain is inhabited by loads mixing all item kinds, several captions of several lines, coloured preambles *)
Definition wit_load5 : load :=
  [mkRow 3 0 1 13 [Ch 97; Ext 101 1 5; Sp 3; Bs; Ch 98; Sp 1]; mkRow 4 4 2 1 [Sp 0; Ch 32; Ext 97 0 0; Bs; Ext 101 0 8];
   mkRow 8 0 0 3 [Sp 2; Ch 99]; mkRow 9 8 0 0 [Ch 97; Bs; Ch 98]; mkRow 1 0 0 0 [Ext 97 0 3]].
Example wit_load5_rich : rich_load wit_load5 = true /\ map e_row (expected_load wit_load5) = [3; 8; 1]
  /\ map (fun e => length (e_lines e)) (expected_load wit_load5) = [2; 2; 1]%nat.
Proof. vm_compute. repeat split. Qed.


(* the domain of 5b is inhabited: italic and plain rows, adjacent and apart; the nodes after _format_italics and the
   observation expected for them, computed *)
Definition wit_load5b : load :=
  [mkRow 3 0 1 14 [Ch 97; Ext 101 1 5]; mkRow 4 4 2 1 [Sp 0; Ch 98]; mkRow 5 0 0 15 [Ch 99];
   mkRow 9 0 2 14 [Ch 100; Bs; Ch 101]; mkRow 1 8 0 0 [Ch 102]].
Example wit_load5b_ok : rich_load_any wit_load5b = true /\ rich_load wit_load5b = false /\
  map i_kind (fin_nodes wit_load5b)
  = [IItalOn; IText; IItalOff; IBreak; IText; IBreak; IItalOn; IText; IItalOff; IRepos; IItalOn; IText; IItalOff; IRepos; IText] /\
  map (fun e => onodes5b (e_lines e)) (expected_load wit_load5b)
  = [[OStyle true; OText [97; 210]; OStyle false; OBreak; OText [174; 98]; OBreak; OStyle true; OText [99]; OStyle false];
     [OStyle true; OText [101]; OStyle false]; [OText [102]]].
Proof. vm_compute. repeat split. Qed.
