(* C20: "and that reader reads the document" for MicroDVD.  The document written by the node-level
   writer model (model/OwnWrite.v) is an instance of C01's abstract MicroDVD document (spec/SpecTime.v mdvd_render), so
   the reader model of C01 (model/TimeRead.v mdvd_read) returns exactly one caption per written cue with the instants of
   the written frames (TimeDocFacts.mdvd_doc_exact, used read-only). *)
From Coq Require Import List ZArith QArith Qround Bool Lia ZifyBool.
From PV Require Import lib.Sx lib.Str lib.Result lib.Dec lib.StrSplit model.Generated model.Detect spec.SpecDetect
  spec.SpecOwn model.OwnWrite spec.SpecOwnNodes proofs.DetectFacts proofs.DetectOwnFacts proofs.DetectNodeFacts
  model.TimeRead spec.SpecTime proofs.TimeDocFacts.
Import ListNotations.
Open Scope Z_scope.
#[local] Ltac Zify.zify_post_hook ::= Z.to_euclidean_division_equations.

Definition to_mc (c : ocap) : mdvd_cue :=
  mkMc 0 (mdvd_frame (oc_start c)) 0 (mdvd_frame (oc_end c)) (split_ch 124 (mdvd_clean (mdvd_raw c))).

Lemma mdvd_line_render_cue : forall c, 0 <= oc_start c -> 0 <= oc_end c ->
  OwnWrite.mdvd_line c = mdvd_render_cue false (to_mc c).
Proof.
  intros c Hs He. unfold OwnWrite.mdvd_line, OwnWrite.mdvd_cue, mdvd_render_cue, to_mc, brace, padded, mdvd_prefix.
  cbn [fst snd mc_pad0 mc_n0 mc_pad1 mc_n1 mc_lines repeat app nl].
  rewrite split_ch_join. unfold dec_z, mdvd_frame.
  replace (oc_start c / 40000 <? 0) with false by lia. replace (oc_end c / 40000 <? 0) with false by lia.
  cbn [app]. rewrite <- !app_assoc. cbn [app]. rewrite <- !app_assoc. reflexivity.
Qed.

Lemma mdvd_write_render : forall L, forallb (fun c => (0 <=? oc_start c) && (0 <=? oc_end c)) L = true ->
  mdvd_document (map OwnWrite.mdvd_cue L) = mdvd_render false None (map to_mc L).
Proof.
  unfold mdvd_render. cbn [app]. induction L as [|c t IH]; intros H; [reflexivity|].
  cbn [forallb] in H. apply andb_true_iff in H. destruct H as [Hc Ht].
  cbn [map flat_map]. rewrite <- (IH Ht). rewrite <- (mdvd_line_render_cue c) by lia.
  unfold mdvd_document. cbn [map concat]. unfold OwnWrite.mdvd_line. rewrite <- !app_assoc. reflexivity.
Qed.

Definition nolb (c : Z) : bool := negb ((c =? 10) || (c =? 13)).

Lemma mdvd_sub_nolb : forall s, forallb nolb (mdvd_sub s) = true.
Proof.
  intros s. apply (mdvd_sub_ind (fun _ r => forallb nolb r = true)); try (intros t IH; exact IH); [reflexivity|].
  intros c t E13 E10 IH. cbn [forallb]. unfold nolb at 1. rewrite E10, E13. exact IH.
Qed.

Lemma mdvd_raw_nolb : forall c, forallb nolb (mdvd_raw c) = true.
Proof.
  intros c. unfold mdvd_raw. induction (oc_nodes c) as [|n t IH]; [reflexivity|].
  cbn [flat_map]. rewrite forallb_app, IH, andb_true_r.
  destruct n; cbn [mdvd_node]; [apply mdvd_sub_nolb|reflexivity|reflexivity].
Qed.

Lemma part_forallb : forall (P : Z -> bool) p s, part p s -> forallb P s = true -> forallb P p = true.
Proof.
  intros P p s [a [b ->]] H. rewrite !forallb_app in H. apply andb_true_iff in H. destruct H as [_ H].
  apply andb_true_iff in H. apply H.
Qed.

Lemma to_mc_dom : forall c, 0 <= oc_start c -> 40000 <= oc_end c -> mdvd_cue_dom (to_mc c) = true.
Proof.
  intros c Hs He. unfold mdvd_cue_dom, to_mc. cbn [mc_pad0 mc_n0 mc_pad1 mc_n1 mc_lines]. unfold mdvd_frame.
  replace (0 <=? oc_start c / 40000) with true by lia. replace (0 <=? oc_end c / 40000) with true by lia.
  replace (oc_end c / 40000 =? 0) with false by lia. rewrite andb_false_r. cbn [andb negb]. rewrite andb_true_r.
  apply forallb_forall. intros p Hp. unfold mdvd_line_ok. apply andb_true_iff. split.
  - apply (part_forallb nolb p (mdvd_raw c)); [|apply mdvd_raw_nolb].
    apply (part_trans _ (mdvd_clean (mdvd_raw c))); [apply (split_ch_part 124 _ p Hp)|apply mdvd_clean_part].
  - apply negb_true_iff. destruct (existsb (Z.eqb 124) p) eqn:E; [|reflexivity]. exfalso.
    apply existsb_exists in E. destruct E as [x [Hx Hx2]]. apply Z.eqb_eq in Hx2. subst x.
    apply (split_ch_no_sep 124 _ p Hp Hx).
Qed.

Lemma lstrip_by_in : forall f s x, In x s -> f x = false -> In x (lstrip_by f s).
Proof.
  intros f. induction s as [|c t IH]; intros x Hx Hf; [destruct Hx|].
  cbn [lstrip_by]. destruct (f c) eqn:E; [|exact Hx].
  destruct Hx as [<-|Hx]; [congruence|apply IH; assumption].
Qed.

Lemma rstrip_by_in : forall f s x, In x s -> f x = false -> In x (rstrip_by f s).
Proof. intros f s x Hx Hf. unfold rstrip_by. apply in_rev. rewrite rev_involutive. apply lstrip_by_in; [apply in_rev in Hx; exact Hx|exact Hf]. Qed.

Lemma mdvd_sub_in : forall s x, In x s -> nolb x = true -> In x (mdvd_sub s).
Proof.
  intros s x Hx Hn. revert Hx. unfold nolb in Hn.
  apply (mdvd_sub_ind (fun s r => In x s -> In x r)); clear s.
  - intros [].
  - intros t IH [<-|[<-|Hx]]; [lia|lia|right; exact (IH Hx)].
  - intros t IH [<-|Hx]; [lia|right; exact (IH Hx)].
  - intros t IH [<-|Hx]; [lia|right; exact (IH Hx)].
  - intros c t _ _ IH [<-|Hx]; [left; reflexivity|right; exact (IH Hx)].
Qed.

Lemma mdvd_raw_in : forall c x, In x (cap_text c) -> nolb x = true -> In x (mdvd_raw c).
Proof.
  intros c x. unfold cap_text, mdvd_raw. induction (oc_nodes c) as [|n t IH]; intros Hx Hn; [destruct Hx|].
  cbn [flat_map] in *. apply in_app_or in Hx. apply in_or_app. destruct Hx as [Hx|Hx]; [left|right; apply IH; assumption].
  destruct n; cbn [node_text mdvd_node] in *.
  - apply (mdvd_sub_in s x Hx Hn).
  - destruct Hx as [<-|[]]. discriminate.
  - destruct Hx.
Qed.

Lemma split_ch_aux_in : forall sep s cur x, In x (rev cur ++ s) -> x <> sep ->
  exists p, In p (split_ch_aux sep s cur) /\ In x p.
Proof.
  intros sep. induction s as [|c t IH]; intros cur x Hx Hs.
  - rewrite app_nil_r in Hx. exists (rev cur). split; [left; reflexivity|exact Hx].
  - cbn [split_ch_aux]. destruct (c =? sep) eqn:E.
    + apply in_app_or in Hx. destruct Hx as [Hx|[<-|Hx]].
      * exists (rev cur). split; [left; reflexivity|exact Hx].
      * lia.
      * destruct (IH [] x Hx Hs) as [p [Hp Hxp]]. exists p. split; [right; exact Hp|exact Hxp].
    + apply (IH (c :: cur) x); [|exact Hs]. cbn [rev]. rewrite <- app_assoc. exact Hx.
Qed.

Lemma to_mc_nonempty : forall c, mdvd_visible c = true -> mdvd_nonempty (to_mc c) = true.
Proof.
  intros c H. unfold mdvd_visible in H. apply existsb_exists in H. destruct H as [x [Hx Hv]].
  apply andb_true_iff in Hv. destruct Hv as [Hsp Hbar]. apply negb_true_iff in Hsp, Hbar.
  assert (Hn : nolb x = true) by (unfold nolb; unfold is_space in Hsp; lia).
  pose proof (mdvd_raw_in c x Hx Hn) as H1.
  assert (H2 : In x (mdvd_clean (mdvd_raw c))).
  { unfold mdvd_clean. apply rstrip_by_in; [|exact Hbar]. apply rstrip_by_in; [|exact Hsp].
    apply lstrip_by_in; [exact H1|exact Hsp]. }
  destruct (split_ch_aux_in 124 _ [] x H2 ltac:(lia)) as [p [Hp Hxp]].
  unfold mdvd_nonempty, to_mc. cbn [mc_lines]. apply existsb_exists. exists p. split; [exact Hp|].
  destruct p; [destruct Hxp|reflexivity].
Qed.

Lemma frame_us : forall n, us (frame_instant None n) = n * 40000.
Proof.
  intros n. unfold us, frame_instant, fps_q.
  assert (E : (inject_Z n / (25 # 1) * 1000000 == inject_Z (n * 40000))%Q).
  { unfold Qeq, Qdiv, Qmult, Qinv, inject_Z. cbn. lia. }
  rewrite E. apply Qfloor_Z.
Qed.

Lemma expected_caps_map : forall L, forallb mdvd_visible L = true ->
  mdvd_expected_caps None (map to_mc L) = map mdvd_expected_cap L.
Proof.
  induction L as [|c t IH]; intros H; [reflexivity|]. cbn [forallb] in H. apply andb_true_iff in H. destruct H as [Hc Ht].
  unfold mdvd_expected_caps in *. cbn [map flat_map]. rewrite (to_mc_nonempty c Hc), (IH Ht).
  cbn [app]. f_equal. unfold mdvd_expected_cap, to_mc. cbn [mc_n0 mc_n1 mc_lines]. rewrite !frame_us. reflexivity.
Qed.

Theorem own_read_mdvd : forall langs, mdvd_read_dom langs = true ->
  mdvd_read (mdvd_write langs) = Ok (map mdvd_expected_cap (concat langs)).
Proof.
  intros langs H. unfold mdvd_read_dom in H. apply andb_true_iff in H. destruct H as [H Hv].
  apply andb_true_iff in H. destruct H as [Hne Ht].
  unfold times_nonneg in Ht. rewrite <- forallb_concat in Ht, Hv.
  rewrite mdvd_write_document, (mdvd_write_render _ Ht).
  rewrite mdvd_doc_exact; [|reflexivity|].
  - rewrite expected_caps_map.
    + destruct (concat langs); [discriminate|reflexivity].
    + apply forallb_forall. intros c Hc. rewrite forallb_forall in Hv. specialize (Hv c Hc).
      apply andb_true_iff in Hv. apply Hv.
  - apply forallb_forall. intros mc Hmc. apply in_map_iff in Hmc. destruct Hmc as [c [<- Hc]].
    rewrite forallb_forall in Ht, Hv. specialize (Ht c Hc). specialize (Hv c Hc).
    apply andb_true_iff in Hv. destruct Hv as [He _]. apply to_mc_dom; lia.
Qed.

Theorem own_detect_and_read_mdvd : forall langs, mdvd_dom langs = true -> mdvd_read_dom langs = true ->
  detect_format (mdvd_write langs) = Ok (Some R_MDVD) /\
  exists caps, mdvd_read (mdvd_write langs) = Ok caps /\ length caps = length (concat langs) /\
               map (fun r => (fst (fst r), snd (fst r))) caps
               = map (fun c => (mdvd_frame (oc_start c) * 40000, mdvd_frame (oc_end c) * 40000)) (concat langs).
Proof.
  intros langs Hd Hr. split; [apply own_nodes_mdvd; exact Hd|].
  exists (map mdvd_expected_cap (concat langs)). split; [apply own_read_mdvd; exact Hr|].
  split; [apply map_length|]. rewrite map_map. reflexivity.
Qed.
