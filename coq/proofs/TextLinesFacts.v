(* Lemmas about lines: split_ch, join, words / norm_line, and the invariance of the normalised lines under removal of
   outer white space (Python strip), for any per-line normaliser - used by the SRT and MicroDVD theorems. *)
From Coq Require Import List ZArith Bool.
From PV Require Import lib.Sx lib.Str lib.StrFacts spec.SpecTextLines.
From PV Require lib.StrSplit.
Import ListNotations.
Open Scope Z_scope.

Lemma split_ch_cons_sep : forall sep t, split_ch sep (sep :: t) = [] :: split_ch sep t.
Proof. intros sep t. unfold split_ch. cbn [split_ch_aux]. rewrite Z.eqb_refl. reflexivity. Qed.

Lemma split_ch_cons_other : forall sep c t, c <> sep ->
  split_ch sep (c :: t) = match split_ch sep t with l0 :: rest => (c :: l0) :: rest | [] => [] end.
Proof.
  intros sep c t H. unfold split_ch. cbn [split_ch_aux]. destruct (Z.eqb_spec c sep); [congruence|].
  rewrite StrSplit.split_ch_aux_cur. destruct (split_ch_aux sep t []); reflexivity.
Qed.

Fixpoint map_last (f : str -> str) (l : list str) : list str :=
  match l with
  | [] => []
  | [x] => [f x]
  | x :: t => x :: map_last f t
  end.

Lemma split_ch_snoc_other : forall sep w s, w <> sep ->
  split_ch sep (s ++ [w]) = map_last (fun l => l ++ [w]) (split_ch sep s).
Proof.
  intros sep w s Hw. induction s as [|c t IH].
  - cbn [app]. rewrite split_ch_cons_other by exact Hw. reflexivity.
  - cbn [app]. destruct (Z.eqb_spec c sep) as [->|Hc].
    + rewrite !split_ch_cons_sep, IH. pose proof (split_ch_nonempty sep t).
      destruct (split_ch sep t); [congruence|]. reflexivity.
    + rewrite !split_ch_cons_other by exact Hc. rewrite IH.
      pose proof (split_ch_nonempty sep t). destruct (split_ch sep t) as [|l0 rest]; [congruence|].
      destruct rest; reflexivity.
Qed.

Lemma split_ch_snoc_sep : forall sep s, split_ch sep (s ++ [sep]) = split_ch sep s ++ [[]].
Proof.
  intros sep s. induction s as [|c t IH].
  - cbn [app]. rewrite split_ch_cons_sep. reflexivity.
  - cbn [app]. destruct (Z.eqb_spec c sep) as [->|Hc].
    + rewrite !split_ch_cons_sep, IH. reflexivity.
    + rewrite !split_ch_cons_other by exact Hc. rewrite IH.
      pose proof (split_ch_nonempty sep t). destruct (split_ch sep t); [congruence|]. reflexivity.
Qed.

Lemma split_ch_no_sep : forall sep s l, In l (split_ch sep s) -> forallb (fun c => negb (c =? sep)) l = true.
Proof.
  intros sep s l Hl. apply forallb_forall. intros c Hc. destruct (Z.eqb_spec c sep) as [->|_]; [|reflexivity].
  destruct (StrSplit.split_ch_no_sep sep s l Hl Hc).
Qed.

Lemma split_ch_forallb : forall (P : Z -> bool) sep s l, forallb P s = true -> In l (split_ch sep s) -> forallb P l = true.
Proof.
  intros P sep s l Hs Hl. destruct (StrSplit.split_ch_part sep s l Hl) as (a & b & ->).
  rewrite !forallb_app in Hs. apply andb_true_iff in Hs. destruct Hs as [_ Hs]. apply andb_true_iff in Hs. apply Hs.
Qed.

Lemma split_ch_app_nosep : forall sep a t, forallb (fun c => negb (c =? sep)) a = true ->
  split_ch sep (a ++ t) = match split_ch sep t with l0 :: rest => (a ++ l0) :: rest | [] => [] end.
Proof.
  intros sep a t. induction a as [|c a IH]; intros Ha.
  - cbn [app]. destruct (split_ch sep t); reflexivity.
  - cbn [forallb] in Ha. apply andb_true_iff in Ha. destruct Ha as [Hc Ha].
    cbn [app]. rewrite split_ch_cons_other by (intros ->; rewrite Z.eqb_refl in Hc; discriminate).
    rewrite (IH Ha). destruct (split_ch sep t); reflexivity.
Qed.

Lemma split_ch_join : forall sep ls, ls <> [] ->
  (forall l, In l ls -> forallb (fun c => negb (c =? sep)) l = true) ->
  split_ch sep (join [sep] ls) = ls.
Proof.
  intros sep ls. induction ls as [|a ls IH]; intros Hne Hall; [congruence|].
  destruct ls as [|b ls'].
  - cbn [join]. rewrite <- (app_nil_r a) at 1. rewrite split_ch_app_nosep by (apply Hall; left; reflexivity).
    cbn. rewrite app_nil_r. reflexivity.
  - change (join [sep] (a :: b :: ls')) with (a ++ [sep] ++ join [sep] (b :: ls')).
    rewrite split_ch_app_nosep by (apply Hall; left; reflexivity).
    cbn [app]. rewrite split_ch_cons_sep. rewrite app_nil_r.
    rewrite IH; [reflexivity|discriminate|]. intros l Hl. apply Hall. right. exact Hl.
Qed.

Lemma words_cons_space : forall w s, is_space w = true -> words (w :: s) = words s.
Proof. intros w s H. unfold words. cbn [words_aux]. rewrite H. reflexivity. Qed.

Lemma words_aux_snoc_space : forall w s cur, is_space w = true -> words_aux (s ++ [w]) cur = words_aux s cur.
Proof.
  intros w s. induction s as [|c t IH]; intros cur H.
  - cbn [app words_aux]. rewrite H. destruct cur; reflexivity.
  - cbn [app words_aux]. destruct (is_space c).
    + destruct cur; rewrite IH by exact H; reflexivity.
    + apply IH. exact H.
Qed.

Lemma norm_line_cons_space : forall w s, is_space w = true -> norm_line (w :: s) = norm_line s.
Proof. intros. unfold norm_line. rewrite words_cons_space by assumption. reflexivity. Qed.
Lemma norm_line_snoc_space : forall w s, is_space w = true -> norm_line (s ++ [w]) = norm_line s.
Proof. intros. unfold norm_line, words. rewrite words_aux_snoc_space by assumption. reflexivity. Qed.

Lemma norm_line_nil : norm_line [] = [].
Proof. reflexivity. Qed.

Lemma rstrip_by_snoc : forall f s w,
  rstrip_by f (s ++ [w]) = if f w then rstrip_by f s else s ++ [w].
Proof.
  intros f s w. unfold rstrip_by. rewrite rev_unit. cbn [lstrip_by]. destruct (f w); [reflexivity|].
  cbn [rev]. rewrite rev_involutive. reflexivity.
Qed.

Lemma words_nil_iff_all_space : forall s, words s = [] <-> forallb is_space s = true.
Proof.
  intros s. unfold words. split.
  - assert (G : forall s cur, words_aux s cur = [] -> cur = [] /\ forallb is_space s = true).
    { clear. induction s as [|c t IH]; intros cur H.
      - cbn in H. destruct cur; [split; reflexivity|discriminate].
      - cbn [words_aux] in H. destruct (is_space c) eqn:E.
        + destruct cur; [|discriminate]. destruct (IH [] H) as [_ Ht]. split; [reflexivity|]. cbn [forallb]. rewrite E, Ht. reflexivity.
        + destruct (IH (c :: cur) H) as [Hc _]. discriminate. }
    intros H. apply (G s [] H).
  - induction s as [|c t IH]; intros H; [reflexivity|].
    cbn [forallb] in H. apply andb_true_iff in H. destruct H as [Hc Ht]. cbn [words_aux]. rewrite Hc. apply IH. exact Ht.
Qed.

(* Lines are compared through a per-line normaliser that ignores outer white space (norm_line, strip):
   removing outer white space of the whole text does not change the normalised non-empty lines. *)
Section line_normaliser.
  Variable N : str -> str.
  Hypothesis N_cons : forall w s, is_space w = true -> N (w :: s) = N s.
  Hypothesis N_snoc : forall w s, is_space w = true -> N (s ++ [w]) = N s.
  Hypothesis N_nil : N [] = [].

  Definition nlines (ls : list str) : list str := filter nonempty (map N ls).

  Lemma nlines_cons : forall l ls, nlines (l :: ls) = (if nonempty (N l) then [N l] else []) ++ nlines ls.
  Proof. intros. unfold nlines. cbn [map filter]. destruct (nonempty (N l)); reflexivity. Qed.
  Lemma nlines_app : forall a b, nlines (a ++ b) = nlines a ++ nlines b.
  Proof. intros. unfold nlines. rewrite map_app, filter_app. reflexivity. Qed.

  Lemma N_blank : forall l, forallb is_space l = true -> N l = [].
  Proof.
    induction l as [|c l IH]; intros H; [exact N_nil|]. cbn [forallb] in H. apply andb_true_iff in H.
    rewrite (N_cons c l (proj1 H)). exact (IH (proj2 H)).
  Qed.

  Lemma nlines_map_last : forall w ls, is_space w = true -> nlines (map_last (fun l => l ++ [w]) ls) = nlines ls.
  Proof.
    intros w ls H. induction ls as [|a ls IH]; [reflexivity|]. destruct ls as [|b ls'].
    - cbn [map_last]. rewrite !nlines_cons, N_snoc by exact H. reflexivity.
    - change (map_last (fun l => l ++ [w]) (a :: b :: ls')) with (a :: map_last (fun l => l ++ [w]) (b :: ls')).
      rewrite (nlines_cons a (map_last (fun l => l ++ [w]) (b :: ls'))), (nlines_cons a (b :: ls')), IH. reflexivity.
  Qed.

  Lemma nlines_split_cons_space : forall sep w s, is_space w = true -> nlines (split_ch sep (w :: s)) = nlines (split_ch sep s).
  Proof.
    intros sep w s H. destruct (Z.eqb_spec w sep) as [->|Hw].
    - rewrite split_ch_cons_sep, nlines_cons, N_nil. reflexivity.
    - rewrite split_ch_cons_other by exact Hw. pose proof (split_ch_nonempty sep s).
      destruct (split_ch sep s) as [|l0 rest]; [congruence|]. rewrite !nlines_cons, N_cons by exact H. reflexivity.
  Qed.
  Lemma nlines_split_snoc_space : forall sep w s, is_space w = true -> nlines (split_ch sep (s ++ [w])) = nlines (split_ch sep s).
  Proof.
    intros sep w s H. destruct (Z.eqb_spec w sep) as [->|Hw].
    - rewrite split_ch_snoc_sep, nlines_app, (nlines_cons []), N_nil. apply app_nil_r.
    - rewrite split_ch_snoc_other by exact Hw. apply nlines_map_last. exact H.
  Qed.
  Lemma nlines_split_strip : forall sep s, nlines (split_ch sep (strip s)) = nlines (split_ch sep s).
  Proof.
    intros sep s. unfold strip, strip_by. fold (lstrip s). fold (rstrip (lstrip s)).
    assert (L : forall x, nlines (split_ch sep (lstrip x)) = nlines (split_ch sep x)).
    { unfold lstrip. induction x as [|c t IH]; [reflexivity|]. cbn [lstrip_by]. destruct (is_space c) eqn:E; [|reflexivity].
      rewrite IH. symmetry. apply nlines_split_cons_space. exact E. }
    assert (R : forall x, nlines (split_ch sep (rstrip x)) = nlines (split_ch sep x)).
    { unfold rstrip. induction x as [|w x IH] using rev_ind; [reflexivity|]. rewrite rstrip_by_snoc.
      destruct (is_space w) eqn:E; [|reflexivity]. rewrite IH. symmetry. apply nlines_split_snoc_space. exact E. }
    rewrite R, L. reflexivity.
  Qed.
  (* trailing separators only add empty lines *)
  Lemma nlines_split_rstrip_sep : forall sep s,
    nlines (split_ch sep (rstrip_by (fun c => c =? sep) s)) = nlines (split_ch sep s).
  Proof.
    intros sep. induction s as [|w s IH] using rev_ind; [reflexivity|].
    rewrite rstrip_by_snoc. destruct (Z.eqb_spec w sep) as [->|Hw]; [|reflexivity].
    rewrite IH, split_ch_snoc_sep, nlines_app, (nlines_cons []), N_nil. symmetry. apply app_nil_r.
  Qed.
End line_normaliser.

(* strip is such a normaliser *)
Lemma strip_cons_space : forall w s, is_space w = true -> strip (w :: s) = strip s.
Proof. intros w s H. unfold strip, strip_by. cbn [lstrip_by]. rewrite H. reflexivity. Qed.

Lemma lstrip_by_snoc_space : forall f s w, f w = true ->
  lstrip_by f (s ++ [w]) = match lstrip_by f s with [] => [] | l => l ++ [w] end.
Proof.
  intros f s w H. induction s as [|c s IH].
  - cbn [app lstrip_by]. rewrite H. reflexivity.
  - cbn [app lstrip_by]. destruct (f c); [exact IH|reflexivity].
Qed.

Lemma strip_snoc_space : forall w s, is_space w = true -> strip (s ++ [w]) = strip s.
Proof.
  intros w s H. unfold strip, strip_by. rewrite lstrip_by_snoc_space by exact H.
  destruct (lstrip_by is_space s) as [|c l] eqn:E; [reflexivity|].
  rewrite rstrip_by_snoc, H. reflexivity.
Qed.

