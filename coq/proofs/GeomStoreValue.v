(* C18, heap level: the VALUE computed by the heap operations is the one of the value-level model (Geometry.v):
   decoding the result of Point / Stretch / Padding / Layout.as_percentage_of on a well-formed store gives
   point_as_pct / ... / layout_as_pct of the decoded receiver; the same exception otherwise. *)
From Coq Require Import List ZArith QArith Bool Lia.
From PV Require Import lib.Sx lib.Str lib.Result.
From PV Require Import model.Geometry model.Store model.GeomStore proofs.StoreFacts proofs.GeomEq proofs.GeomStoreFacts.
Import ListNotations.
Open Scope Z_scope.

Lemma field_nonloc : forall st v k, (forall l, v <> VLoc l) -> field st v k = VNone.
Proof. intros st v k H. destruct v; try reflexivity. exfalso. eapply H. reflexivity. Qed.

Lemma field_ext : forall st ext v k, below (length st) v -> field (st ++ ext) v k = field st v k.
Proof. intros st ext v k H. destruct v; try reflexivity. unfold field, items_of. rewrite get_app_l by exact H. reflexivity. Qed.

Definition grown (st st' : store) : Prop := exists ext, st' = st ++ ext.
Lemma grown_refl : forall st, grown st st.
Proof. intros st. exists []. symmetry. apply app_nil_r. Qed.
Lemma grown_app : forall st st' e, grown st st' -> grown st (st' ++ e).
Proof. intros st st' e [ext ->]. exists (ext ++ e). symmetry. apply app_assoc. Qed.
#[local] Hint Resolve grown_refl grown_app : grown.

Definition stable {A} (dec : store -> val -> option A) : Prop :=
  forall st ext v a, dec st v = Some a -> dec (st ++ ext) v = Some a.

Lemma stable_grown : forall {A} {dec : store -> val -> option A}, stable dec ->
  forall {st st' v a}, grown st st' -> dec st v = Some a -> dec st' v = Some a.
Proof. intros A dec S st st' v a [ext ->]. apply S. Qed.

Lemma field_grown : forall {st st' v k}, grown st st' -> below (length st) v -> field st' v k = field st v k.
Proof. intros st st' v k [ext ->]. apply field_ext. Qed.

Lemma field_dangling : forall st l k, get st l = None -> field st (VLoc l) k = VNone.
Proof. intros st l k H. unfold field, items_of. rewrite H. reflexivity. Qed.

Lemma field_loc : forall st v k, field st v k <> VNone -> exists l, v = VLoc l /\ (l < length st)%nat.
Proof.
  intros st v k H. destruct v as [z|s| |l]; try (exfalso; apply H; reflexivity).
  exists l. split; [reflexivity|]. destruct (get st l) as [o|] eqn:G; [eapply get_some_lt; exact G|].
  exfalso. apply H. apply field_dangling. exact G.
Qed.

Lemma dec_size_stable : stable dec_size.
Proof.
  intros st ext v a H. destruct (field_loc st v (VInt 1)) as (l & -> & Hl); [intros N; unfold dec_size in H; rewrite N in H; discriminate H|].
  unfold dec_size in *. rewrite !field_ext by exact Hl. exact H.
Qed.

Lemma field_new : forall st k its key,
  field (st ++ [mkObj k its]) (VLoc (length st)) key = match assoc key its with Some x => x | None => VNone end.
Proof. intros. unfold field, items_of. rewrite get_app_new. reflexivity. Qed.

Lemma wf_field_below : forall st l k, wf st -> below (length st) (field st (VLoc l) k).
Proof.
  intros st l k W. unfold field, items_of. destruct (get st l) as [o|] eqn:G; [|exact I].
  specialize (W l o G). induction (o_items o) as [|[k' x] t IH]; cbn [assoc]; [exact I|].
  inversion W as [|? ? [_ Hx] Wt]; subst. destruct (val_eqb k k'); [exact Hx|apply IH; exact Wt].
Qed.

Definition sim {A B} (R : store -> A -> B -> Prop) (m : SM A) (r : result B) (st : store) : Prop :=
  match m st, r with
  | Ok (st', a), Ok b => (exists ext, st' = st ++ ext) /\ R st' a b
  | Err e, Err e' => e = e'
  | _, _ => False
  end.

Lemma sim_bnd : forall {A B A' B'} (R : store -> A -> B -> Prop) (R' : store -> A' -> B' -> Prop) m r f g st,
  sim R m r st -> (forall ext a b, R (st ++ ext) a b -> sim R' (f a) (g b) (st ++ ext)) -> sim R' (bnd m f) (bind r g) st.
Proof.
  intros A B A' B' R R' m r f g st H Hf. unfold sim, bnd in *.
  destruct (m st) as [[st1 a]|e], r as [b|e']; try contradiction; [|exact H].
  destruct H as [[ext ->] HR]. specialize (Hf ext a b HR). cbn [bind].
  destruct (f a (st ++ ext)) as [[st2 c]|e2], (g b) as [d|e2']; try contradiction; [|exact Hf].
  destruct Hf as [[ext2 ->] HR']. split; [exists (ext ++ ext2); symmetry; apply app_assoc|exact HR'].
Qed.

(* reading a field is no step of the value-level computation *)
Lemma sim_rd : forall {A B} (R : store -> A -> B -> Prop) v k f r st,
  sim R (f (field st v (VInt k))) r st -> sim R (bnd (rd v k) f) r st.
Proof. intros A B R v k f r st H. exact H. Qed.

Lemma sim_new : forall {B} (R : store -> val -> B -> Prop) k its b st,
  R (st ++ [mkObj k its]) (VLoc (length st)) b -> sim R (new k its) (Ok b) st.
Proof. intros B R k its b st H. split; [eexists; reflexivity|exact H]. Qed.

Lemma sim_elim : forall {A B} (R : store -> A -> B -> Prop) m r st, sim R m r st ->
  match m st, r with
  | Ok (st', a), Ok b => R st' a b
  | Err e, Err e' => e = e'
  | _, _ => False
  end.
Proof. intros A B R m r st H. unfold sim in H. destruct (m st) as [[st' a]|e], r as [b|e']; try exact H. exact (proj2 H). Qed.

Definition decodes {A} (dec : store -> val -> option A) (st : store) (r : val) (a : A) : Prop :=
  dec st r = Some a /\ below (length st) r.

Lemma sim_stage : forall {A} (dec : store -> val -> option A) m (r : result A) st,
  sim (decodes dec) m r st <->
  match m st, r with
  | Ok (st', x), Ok a' => dec st' x = Some a' /\ (exists ext, st' = st ++ ext) /\ below (length st') x
  | Err e, Err e' => e = e'
  | _, _ => False
  end.
Proof. intros A dec m r st. unfold sim, decodes. destruct (m st) as [[st' x]|e], r as [a'|e']; tauto. Qed.

Lemma sim_size_pct : forall x w h st a, dec_size st x = Some a ->
  sim (fun st' r a' => dec_size st' r = Some a') (size_pct_s x w h) (size_as_pct a w h) st.
Proof.
  intros x w h st a D. pose proof (size_pct_value x w h st a D) as V. unfold sim.
  destruct (size_pct_s x w h st) as [[st' r]|e] eqn:E; destruct (size_as_pct a w h) as [a'|e']; try exact V.
  split; [exact (ext_size_pct x w h _ _ _ E)|exact V].
Qed.

(* field k of the receiver (object lv of st0) is read and converted in a store grown from st0 *)
Lemma sim_field_pct : forall {B} (R : store -> val -> B -> Prop) st0 st lv k a w h f g,
  grown st0 st -> (lv < length st0)%nat -> dec_size st0 (field st0 (VLoc lv) (VInt k)) = Some a ->
  (forall ext x b, dec_size (st ++ ext) x = Some b -> sim R (f x) (g b) (st ++ ext)) ->
  sim R (bnd (rd (VLoc lv) k) (fun x => bnd (size_pct_s x w h) f)) (bind (size_as_pct a w h) g) st.
Proof.
  intros B R st0 st lv k a w h f g G Hlv D Hf. apply sim_rd. rewrite (field_grown (v:=VLoc lv) G Hlv).
  eapply sim_bnd; [exact (sim_size_pct _ w h st a (stable_grown dec_size_stable G D))|exact Hf].
Qed.

Lemma below_new : forall st (o : obj), below (length (st ++ [o])) (VLoc (length st)).
Proof. intros st o. unfold below. rewrite app_length. cbn [length]. lia. Qed.

Lemma dec2_fields : forall {A} (mk : size -> size -> A) st v p, dec2 mk st v = Some p ->
  exists a b, dec_size st (field st v (VInt 1)) = Some a /\ dec_size st (field st v (VInt 2)) = Some b /\ p = mk a b
              /\ exists l, v = VLoc l /\ (l < length st)%nat.
Proof.
  intros A mk st v p H. unfold dec2 in H.
  destruct (dec_size st (field st v (VInt 1))) as [a|] eqn:D1; [|discriminate H].
  destruct (dec_size st (field st v (VInt 2))) as [b|] eqn:D2; [|discriminate H].
  exists a, b. repeat split; try reflexivity; [inversion H; reflexivity|].
  apply (field_loc st v (VInt 1)). intros N. rewrite N in D1. discriminate D1.
Qed.

Lemma dec2_new : forall {A} (mk : size -> size -> A) st k x y a b, dec_size st x = Some a -> dec_size st y = Some b ->
  dec2 mk (st ++ [mkObj k [(VInt 1, x); (VInt 2, y)]]) (VLoc (length st)) = Some (mk a b).
Proof.
  intros A mk st k x y a b Dx Dy. unfold dec2. rewrite !field_new. cbn [assoc val_eqb Z.eqb Pos.eqb].
  rewrite (dec_size_stable _ [_] _ _ Dx), (dec_size_stable _ [_] _ _ Dy). reflexivity.
Qed.

(* Point and Stretch: two Size fields, one new object of kind k *)
Definition two_s (k : Z) (v : val) (w h : option Q) : SM val :=
  run x <~ rd v 1; run x' <~ size_pct_s x w None; run y <~ rd v 2; run y' <~ size_pct_s y None h;
  new k [(VInt 1, x'); (VInt 2, y')].

Lemma two_value : forall {A} (mk : size -> size -> A) k v w h st p, dec2 mk st v = Some p ->
  exists a b, p = mk a b /\
  sim (decodes (dec2 mk)) (two_s k v w h) (do x <- size_as_pct a w None; do y <- size_as_pct b None h; Ok (mk x y)) st.
Proof.
  intros A mk k v w h st p D. destruct (dec2_fields _ _ _ _ D) as (a & b & Da & Db & -> & lv & -> & Hlv).
  exists a, b. split; [reflexivity|]. unfold two_s.
  eapply (sim_field_pct _ st); [apply grown_refl|exact Hlv|exact Da|]. intros ext1 x' a' Dx.
  eapply (sim_field_pct _ st); [auto with grown|exact Hlv|exact Db|]. intros ext2 y' b' Dy.
  apply sim_new. split; [|apply below_new]. exact (dec2_new mk _ k _ _ _ _ (dec_size_stable _ ext2 _ _ Dx) Dy).
Qed.

Theorem point_pct_value : forall v w h st p, dec2 mkPoint st v = Some p ->
  match point_pct_s v w h st, point_as_pct p w h with
  | Ok (st', r), Ok p' => dec2 mkPoint st' r = Some p' /\ (exists ext, st' = st ++ ext) /\ below (length st') r
  | Err e, Err e' => e = e'
  | _, _ => False
  end.
Proof.
  intros v w h st p D. destruct (two_value mkPoint KPoint v w h st p D) as (a & b & -> & S). exact (proj1 (sim_stage _ _ _ _) S).
Qed.

Theorem stretch_pct_value : forall v w h st p, dec2 mkStretch st v = Some p ->
  match stretch_pct_s v w h st, stretch_as_pct p w h with
  | Ok (st', r), Ok p' => dec2 mkStretch st' r = Some p' /\ (exists ext, st' = st ++ ext) /\ below (length st') r
  | Err e, Err e' => e = e'
  | _, _ => False
  end.
Proof.
  intros v w h st p D. destruct (two_value mkStretch KStretch v w h st p D) as (a & b & -> & S). exact (proj1 (sim_stage _ _ _ _) S).
Qed.

Lemma dec_padding_fields : forall st v p, dec_padding st v = Some p ->
  exists a b c d, dec_size st (field st v (VInt 1)) = Some a /\ dec_size st (field st v (VInt 2)) = Some b
    /\ dec_size st (field st v (VInt 3)) = Some c /\ dec_size st (field st v (VInt 4)) = Some d /\ p = mkPadding a b c d
    /\ exists l, v = VLoc l /\ (l < length st)%nat.
Proof.
  intros st v p H. unfold dec_padding in H.
  destruct (dec_size st (field st v (VInt 1))) as [a|] eqn:D1; [|discriminate H].
  destruct (dec_size st (field st v (VInt 2))) as [b|] eqn:D2; [|discriminate H].
  destruct (dec_size st (field st v (VInt 3))) as [c|] eqn:D3; [|discriminate H].
  destruct (dec_size st (field st v (VInt 4))) as [d|] eqn:D4; [|discriminate H].
  exists a, b, c, d. repeat split; try reflexivity; [inversion H; reflexivity|].
  apply (field_loc st v (VInt 1)). intros N. rewrite N in D1. discriminate D1.
Qed.

Lemma dec_padding_new : forall st x1 x2 x3 x4 a b c d,
  dec_size st x1 = Some a -> dec_size st x2 = Some b -> dec_size st x3 = Some c -> dec_size st x4 = Some d ->
  dec_padding (st ++ [mkObj KPadding [(VInt 1, x1); (VInt 2, x2); (VInt 3, x3); (VInt 4, x4)]]) (VLoc (length st))
  = Some (mkPadding a b c d).
Proof.
  intros st x1 x2 x3 x4 a b c d D1 D2 D3 D4. unfold dec_padding. rewrite !field_new. cbn [assoc val_eqb Z.eqb Pos.eqb].
  rewrite (dec_size_stable _ [_] _ _ D1), (dec_size_stable _ [_] _ _ D2), (dec_size_stable _ [_] _ _ D3),
          (dec_size_stable _ [_] _ _ D4). reflexivity.
Qed.

Theorem padding_pct_value : forall v w h st p, dec_padding st v = Some p ->
  match padding_pct_s v w h st, padding_as_pct p w h with
  | Ok (st', r), Ok p' => dec_padding st' r = Some p' /\ (exists ext, st' = st ++ ext) /\ below (length st') r
  | Err e, Err e' => e = e'
  | _, _ => False
  end.
Proof.
  intros v w h st p D. destruct (dec_padding_fields _ _ _ D) as (a1 & a2 & a3 & a4 & D1 & D2 & D3 & D4 & -> & lv & -> & Hlv).
  apply sim_stage. unfold padding_pct_s, padding_as_pct. cbn [pd_before pd_after pd_start pd_end].
  eapply (sim_field_pct _ st); [apply grown_refl|exact Hlv|exact D1|]. intros ext1 x1 b1 E1.
  eapply (sim_field_pct _ st); [auto with grown|exact Hlv|exact D2|]. intros ext2 x2 b2 E2.
  eapply (sim_field_pct _ st); [auto with grown|exact Hlv|exact D3|]. intros ext3 x3 b3 E3.
  eapply (sim_field_pct _ st); [auto with grown|exact Hlv|exact D4|]. intros ext4 x4 b4 E4.
  apply sim_new. split; [|apply below_new].
  apply dec_padding_new; (eapply (stable_grown dec_size_stable); [|eassumption]); auto with grown.
Qed.

Definition stage_ok {A} (dec : store -> val -> option A) (fs : val -> SM val) (f : A -> result A) : Prop :=
  forall st x a, dec st x = Some a ->
  match fs x st, f a with
  | Ok (st', r), Ok a' => dec st' r = Some a' /\ (exists ext, st' = st ++ ext) /\ below (length st') r
  | Err e, Err e' => e = e'
  | _, _ => False
  end.
Definition not_none {A} (dec : store -> val -> option A) : Prop := forall st, dec st VNone = None.

Lemma dec_opt_stable : forall {A} {dec : store -> val -> option A}, stable dec -> stable (dec_opt dec).
Proof.
  intros A dec S st ext v o H. unfold dec_opt in *. destruct (is_none v); [exact H|].
  destruct (dec st v) as [a|] eqn:D; [|discriminate H]. rewrite (S _ ext _ _ D). exact H.
Qed.

Lemma opt_stage : forall {A} (dec : store -> val -> option A) fs f st x lo,
  stage_ok dec fs f -> not_none dec -> dec_opt dec st x = Some lo ->
  match opt_s fs x st, opt_res f lo with
  | Ok (st', r), Ok lo' => dec_opt dec st' r = Some lo' /\ (exists ext, st' = st ++ ext) /\ below (length st') r
  | Err e, Err e' => e = e'
  | _, _ => False
  end.
Proof.
  intros A dec fs f st x lo S N H. unfold opt_s, dec_opt in *. destruct (is_none x) eqn:I.
  - inversion H; subst lo. cbn [opt_res ret is_none]. split; [reflexivity|]. split; [exists []; symmetry; apply app_nil_r|exact Logic.I].
  - destruct (dec st x) as [a|] eqn:D; [|discriminate H]. inversion H; subst lo. cbn [opt_res].
    pose proof (S st x a D) as K. destruct (fs x st) as [[st' r]|e]; destruct (f a) as [a'|e']; cbn [bind]; try exact K.
    destruct K as (K1 & K2 & K3). split; [|split; assumption].
    destruct r; try (rewrite K1; reflexivity). rewrite N in K1. discriminate K1.
Qed.

Lemma dec_size_field_ext : forall st ext v k a, dec_size st (field st v k) = Some a ->
  dec_size (st ++ ext) (field (st ++ ext) v k) = Some a.
Proof.
  intros st ext v k a D. destruct (field_loc st v k) as (l & -> & Hl); [intros N; rewrite N in D; discriminate D|].
  rewrite field_ext by exact Hl. apply dec_size_stable. exact D.
Qed.

Lemma dec2_stable : forall {A} (mk : size -> size -> A), stable (dec2 mk).
Proof.
  intros A mk st ext v p H. destruct (dec2_fields _ _ _ _ H) as (a & b & D1 & D2 & -> & _). unfold dec2.
  rewrite (dec_size_field_ext _ ext _ _ _ D1), (dec_size_field_ext _ ext _ _ _ D2). reflexivity.
Qed.
Lemma dec_padding_stable : stable dec_padding.
Proof.
  intros st ext v p H. destruct (dec_padding_fields _ _ _ H) as (a & b & c & d & D1 & D2 & D3 & D4 & -> & _). unfold dec_padding.
  rewrite (dec_size_field_ext _ ext _ _ _ D1), (dec_size_field_ext _ ext _ _ _ D2), (dec_size_field_ext _ ext _ _ _ D3),
          (dec_size_field_ext _ ext _ _ _ D4). reflexivity.
Qed.
Lemma dec2_not_none : forall {A} (mk : size -> size -> A), not_none (dec2 mk).
Proof. intros A mk st. reflexivity. Qed.
Lemma dec_padding_not_none : not_none dec_padding.
Proof. intros st. reflexivity. Qed.

Lemma dec_align_grown : forall st st' v o, grown st st' -> below (length st) v ->
  dec_opt dec_align st v = Some o -> dec_opt dec_align st' v = Some o.
Proof.
  intros st st' v o G B H. unfold dec_opt, dec_align in *. destruct (is_none v); [exact H|].
  rewrite !(field_grown G B). exact H.
Qed.

Lemma dec_opt_some : forall {A} (dec : store -> val -> option A) st v a, not_none dec -> dec st v = Some a ->
  dec_opt dec st v = Some (Some a).
Proof.
  intros A dec st v a N D. unfold dec_opt. destruct v; cbn [is_none]; rewrite ?D; try reflexivity. rewrite N in D. discriminate D.
Qed.

Lemma dec_layout_new : forall st o e p al lo le lp la,
  dec_opt (dec2 mkPoint) st o = Some lo -> dec_opt (dec2 mkStretch) st e = Some le -> dec_opt dec_padding st p = Some lp ->
  dec_opt dec_align st al = Some la -> below (length st) al ->
  dec_layout (st ++ [mkObj KGLayout [(VInt 1, o); (VInt 2, e); (VInt 3, p); (VInt 4, al); (VInt 5, VNone)]]) (VLoc (length st))
  = Some (mkLayout lo le lp la None).
Proof.
  intros st o e p al lo le lp la Ho He Hp Ha B. unfold dec_layout. rewrite !field_new. cbn [assoc val_eqb Z.eqb Pos.eqb].
  rewrite (dec_opt_stable (dec2_stable mkPoint) _ [_] _ _ Ho), (dec_opt_stable (dec2_stable mkStretch) _ [_] _ _ He),
          (dec_opt_stable dec_padding_stable _ [_] _ _ Hp), (dec_align_grown st (st ++ [_]) _ _ ltac:(auto with grown) B Ha). reflexivity.
Qed.

Lemma dec_layout_parts : forall st v l, dec_layout st v = Some l ->
  exists lo le lp la, dec_opt (dec2 mkPoint) st (field st v (VInt 1)) = Some lo
    /\ dec_opt (dec2 mkStretch) st (field st v (VInt 2)) = Some le /\ dec_opt dec_padding st (field st v (VInt 3)) = Some lp
    /\ dec_opt dec_align st (field st v (VInt 4)) = Some la
    /\ l = mkLayout lo le lp la (match field st v (VInt 5) with VStr s => Some s | _ => None end).
Proof.
  intros st v l D. unfold dec_layout in D.
  destruct (dec_opt (dec2 mkPoint) st (field st v (VInt 1))) as [lo|]; [|discriminate D].
  destruct (dec_opt (dec2 mkStretch) st (field st v (VInt 2))) as [le|]; [|discriminate D].
  destruct (dec_opt dec_padding st (field st v (VInt 3))) as [lp|]; [|discriminate D].
  destruct (dec_opt dec_align st (field st v (VInt 4))) as [la|]; [|discriminate D].
  exists lo, le, lp, la. inversion D. auto.
Qed.

Theorem layout_pct_value : forall lv w h st l, wf st -> dec_layout st (VLoc lv) = Some l ->
  match layout_pct_s (VLoc lv) w h st, layout_as_pct l w h with
  | Ok (st', r), Ok l' => dec_layout st' r = Some l'
  | Err e, Err e' => e = e'
  | _, _ => False
  end.
Proof.
  intros lv w h st l W D. destruct (dec_layout_parts _ _ _ D) as (lo & le & lp & la & Do & De & Dp & Da & ->). clear D.
  assert (Hlv : (lv < length st)%nat \/ (length st <= lv)%nat) by lia.
  destruct Hlv as [Hlv|Hlv].
  2: { (* a dangling receiver has no fields: everything reads None *)
       assert (G : get st lv = None) by (apply get_none_ge; exact Hlv). rewrite !(field_dangling _ _ _ G) in *.
       cbn in Do, De, Dp, Da. inversion Do; inversion De; inversion Dp; inversion Da; subst.
       unfold layout_pct_s, layout_as_pct. cbn [l_origin l_extent l_padding l_alignment opt_res bind].
       unfold bnd, rd. rewrite !(field_dangling _ _ _ G). cbn [opt_s is_none ret]. rewrite !(field_dangling _ _ _ G).
       cbn [opt_s is_none ret]. rewrite !(field_dangling _ _ _ G). cbn [opt_s is_none ret new new_obj alloc].
       unfold dec_layout. rewrite !field_new. reflexivity. }
  pose proof (wf_field_below st lv (VInt 4) W) as Bal.
  apply (sim_elim (fun st' r l' => dec_layout st' r = Some l')).
  unfold layout_pct_s, layout_as_pct. cbn [l_origin l_extent l_padding l_alignment].
  apply sim_rd, sim_rd. eapply sim_bnd.
  { apply sim_stage. exact (opt_stage (dec2 mkPoint) _ _ st _ lo (fun st x a => point_pct_value x w h st a) (dec2_not_none mkPoint) Do). }
  intros ext1 o' lo' [E1 _]. apply sim_rd. rewrite field_ext by exact Hlv. eapply sim_bnd.
  { apply sim_stage. exact (opt_stage (dec2 mkStretch) _ _ _ _ le (fun st x a => stretch_pct_value x w h st a) (dec2_not_none mkStretch)
                              (dec_opt_stable (dec2_stable mkStretch) _ ext1 _ _ De)). }
  intros ext2 e' le' [E2 _]. apply sim_rd. rewrite !field_ext by (cbn [below]; rewrite ?app_length; lia). eapply sim_bnd.
  { apply sim_stage. exact (opt_stage dec_padding _ _ _ _ lp (fun st x a => padding_pct_value x w h st a) dec_padding_not_none
                              (stable_grown (dec_opt_stable dec_padding_stable) (st:=st) (st':=(st ++ ext1) ++ ext2) ltac:(auto with grown) Dp)). }
  intros ext3 p' lp' [E3 _]. apply sim_new. apply dec_layout_new.
  - apply (stable_grown (dec_opt_stable (dec2_stable mkPoint)) (st:=st ++ ext1)); [auto with grown|exact E1].
  - apply (stable_grown (dec_opt_stable (dec2_stable mkStretch)) (st:=(st ++ ext1) ++ ext2)); [auto with grown|exact E2].
  - exact E3.
  - apply (dec_align_grown st); [auto with grown|exact Bal|exact Da].
  - eapply below_mono; [exact Bal|]. rewrite !app_length. lia.
Qed.

(* one step of a heap run *)
Lemma run_rd : forall {B} v k (f : val -> SM B) st, bnd (rd v k) f st = f (field st v (VInt k)) st.
Proof. reflexivity. Qed.
Lemma run_rd_size : forall {B v a} {f : size -> SM B} {st}, dec_size st v = Some a -> bnd (rd_size v) f st = f a st.
Proof. intros B v a f st D. unfold bnd, rd_size. rewrite D. reflexivity. Qed.
Lemma run_new : forall {B} k its (f : val -> SM B) st, bnd (new k its) f st = f (VLoc (length st)) (st ++ [mkObj k its]).
Proof. reflexivity. Qed.
Lemma run_lift : forall {A B} (r : result A) (f : A -> SM B) st,
  bnd (lift r) f st = match r with Ok a => f a st | Err e => Err e end.
Proof. intros A B [a|e] f st; reflexivity. Qed.
Lemma new_run : forall k its st, new k its st = Ok (st ++ [mkObj k its], VLoc (length st)).
Proof. reflexivity. Qed.

(* fit_to_screen allocates both default sizes first and picks, per dimension, the given or the default object by a test on the
   value just computed; the heap run is followed step by step, the candidates for the new extent being decoded in the final
   store whichever way the tests go *)
Theorem layout_fit_value : forall lv st l, wf st -> dec_layout st (VLoc lv) = Some l ->
  match layout_fit_s (VLoc lv) st, layout_fit l with
  | Ok (st', r), Ok l' => dec_layout st' r = Some l'
  | Err e, Err e' => e = e'
  | _, _ => False
  end.
Proof.
  intros lv st l W D. destruct (dec_layout_parts _ _ _ D) as (lo & le & lp & la & Do & De & Dp & Da & El).
  rename D into D0. subst l.
  unfold layout_fit_s, layout_fit. cbn [l_origin l_extent l_padding l_alignment].
  rewrite run_rd. pose proof Do as Do'. unfold dec_opt in Do.
  destruct (is_none (field st (VLoc lv) (VInt 1))) eqn:IO.
  { inversion Do; subst lo. exact D0. }
  destruct (dec2 mkPoint st (field st (VLoc lv) (VInt 1))) as [p|] eqn:DP; [|discriminate Do]. inversion Do; subst lo. clear Do.
  destruct (dec2_fields _ _ _ _ DP) as (sx & sy & Dx & Dy & -> & (lo_ & EO & Hlo)).
  assert (Hlv : below (length st) (VLoc lv)).
  { destruct (field_loc st (VLoc lv) (VInt 1)) as (l' & E' & Hl'); [rewrite EO; discriminate|]. inversion E'; subst. exact Hl'. }
  pose proof (wf_field_below st lv (VInt 4) W) as Bal.
  (* the new Layout, in any store grown from st: origin, padding and alignment are the receiver's *)
  assert (Tail : forall st' ne e', grown st st' -> dec2 mkStretch st' ne = Some e' ->
            dec_layout (st' ++ [mkObj KGLayout [(VInt 1, field st (VLoc lv) (VInt 1)); (VInt 2, ne); (VInt 3, field st' (VLoc lv) (VInt 3));
                                                (VInt 4, field st' (VLoc lv) (VInt 4)); (VInt 5, VNone)]]) (VLoc (length st'))
            = Some (mkLayout (Some (mkPoint sx sy)) (Some e') lp la None)).
  { intros st' ne e' G E. rewrite !(field_grown G Hlv). apply dec_layout_new.
    - exact (stable_grown (dec_opt_stable (dec2_stable mkPoint)) G Do').
    - exact (dec_opt_some _ _ _ _ (dec2_not_none mkStretch) E).
    - exact (stable_grown (dec_opt_stable dec_padding_stable) G Dp).
    - exact (dec_align_grown _ _ _ _ G Bal Da).
    - destruct G as [ext ->]. eapply below_mono; [exact Bal|]. rewrite app_length. lia. }
  rewrite run_rd, (run_rd_size Dx), run_rd, (run_rd_size Dy). cbn [p_x p_y]. unfold new_size.
  rewrite !run_new, run_rd.
  set (DH := mkSize (Qred (clamp0 (90 - s_val sx))%Q) PCT). set (DV := mkSize (Qred (clamp0 (95 - s_val sy))%Q) PCT).
  set (st2 := (st ++ [mkObj KSize (size_cells DH)]) ++ [mkObj KSize (size_cells DV)]).
  assert (G2 : grown st st2) by (unfold st2; auto with grown).
  assert (HDH : dec_size st2 (VLoc (length st)) = Some DH) by exact (dec_size_stable _ [_] _ _ (dec_new_size st DH)).
  assert (HDV : dec_size st2 (VLoc (length (st ++ [mkObj KSize (size_cells DH)]))) = Some DV) by exact (dec_new_size _ DV).
  rewrite (field_grown G2 Hlv). set (E := field st (VLoc lv) (VInt 2)) in *.
  unfold dec_opt in De. destruct (is_none E) eqn:IE.
  - inversion De; subst le. clear De. rewrite run_new, !run_rd, new_run.
    apply Tail; [auto with grown|]. apply dec2_new; assumption.
  - destruct (dec2 mkStretch st E) as [e|] eqn:DE; [|discriminate De]. inversion De; subst le. clear De.
    destruct (dec2_fields _ _ _ _ DE) as (seh & sev & Dh & Dv & -> & (le_ & EE & Hle)).
    assert (BE : below (length st) E) by (rewrite EE; exact Hle). cbn [st_h st_v].
    unfold bnd at 1. rewrite run_rd, (field_grown G2 BE), (run_rd_size (stable_grown dec_size_stable G2 Dh)).
    rewrite run_rd, (field_grown G2 BE), (run_rd_size (stable_grown dec_size_stable G2 Dv)).
    rewrite run_lift. destruct (size_add sx seh) as [brx|e1]; cbn [bind]; [|reflexivity]. rewrite run_new.
    rewrite run_lift. destruct (size_add sy sev) as [bry|e2]; cbn [bind]; [|reflexivity]. rewrite run_new.
    rewrite run_new. destruct (negb (unit_eqb (s_unit brx) PCT)); [reflexivity|].
    rewrite new_run, !run_rd, new_run.
    apply Tail; [auto 8 with grown|]. apply dec2_new.
    + destruct (Qle_bool (s_val brx) 90); [apply (stable_grown dec_size_stable (st:=st))|apply (stable_grown dec_size_stable (st:=st2))]; auto 8 with grown.
    + destruct (Qle_bool (s_val bry) 95); [apply (stable_grown dec_size_stable (st:=st))|apply (stable_grown dec_size_stable (st:=st2))]; auto 8 with grown.
Qed.
