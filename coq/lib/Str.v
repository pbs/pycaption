(* Python str semantics on lists of code points (Z). Definitions only; lemmas live in
   lib/StrFacts.v, lib/StrSplit.v and lib/Dec.v so that the model still runs when a proof breaks. *)
From Coq Require Import List ZArith Lia Bool ZifyBool.
From Coq Require Strings.String Strings.Ascii.
Export String.StringSyntax.
From PV Require Import lib.Sx.
Import ListNotations.
Open Scope Z_scope.

(* ASCII literals: lit "WEBVTT" *)
Fixpoint lit (s : String.string) : str :=
  match s with
  | String.EmptyString => []
  | String.String a t => Z.of_N (Ascii.N_of_ascii a) :: lit t
  end.
Arguments lit s%string_scope.

Definition ch_eqb := Z.eqb.

Fixpoint str_eqb (a b : str) : bool :=
  match a, b with
  | [], [] => true
  | x :: a', y :: b' => (x =? y) && str_eqb a' b'
  | _, _ => false
  end.

Fixpoint is_prefix (p s : str) : bool :=
  match p, s with
  | [], _ => true
  | x :: p', y :: s' => (x =? y) && is_prefix p' s'
  | _ :: _, [] => false
  end.

(* Python: p in s *)
Fixpoint is_infix (p s : str) : bool :=
  is_prefix p s || match s with [] => false | _ :: s' => is_infix p s' end.

(* index of first occurrence, Python s.find(p) *)
Fixpoint find_from (p s : str) (i : Z) : option Z :=
  if is_prefix p s then Some i else
  match s with [] => None | _ :: s' => find_from p s' (i + 1) end.
Definition find (p s : str) := find_from p s 0.

Definition c_nl := 10.  Definition c_cr := 13.  Definition c_sp := 32.
Definition c_tab := 9.

Definition is_digit (c : Z) : bool := (48 <=? c) && (c <=? 57).
Definition digit_val (c : Z) : Z := c - 48.

(* str.isdigit() restricted to ASCII digits (non-ASCII digits are excluded from
   generated inputs; see DESIGN section 6) *)
Definition isdigit (s : str) : bool :=
  match s with [] => false | _ => forallb is_digit s end.

Definition lower_ch (c : Z) : Z := if (65 <=? c) && (c <=? 90) then c + 32 else c.
Definition lower (s : str) : str := map lower_ch s.
Definition upper_ch (c : Z) : Z := if (97 <=? c) && (c <=? 122) then c - 32 else c.
Definition upper (s : str) : str := map upper_ch s.

(* Python str.isspace() characters (complete CPython list) *)
Definition is_space (c : Z) : bool :=
  ((9 <=? c) && (c <=? 13)) || ((28 <=? c) && (c <=? 32)) || (c =? 133) || (c =? 160)
  || (c =? 5760) || ((8192 <=? c) && (c <=? 8202)) || (c =? 8232) || (c =? 8233)
  || (c =? 8239) || (c =? 8287) || (c =? 12288).

(* line boundaries of str.splitlines() other than \r\n *)
Definition is_linebreak (c : Z) : bool :=
  ((10 <=? c) && (c <=? 13)) || ((28 <=? c) && (c <=? 30)) || (c =? 133)
  || (c =? 8232) || (c =? 8233).

(* str.splitlines(): cur is the reversed current line *)
Definition after_break (c : Z) (t : str) : str :=
  if c =? 13 then match t with 10 :: t' => t' | _ => t end else t.
Fixpoint splitlines_aux (s : str) (cur : str) (started : bool) : list str :=
  match s with
  | [] => if started then [rev cur] else []
  | c :: t =>
      if is_linebreak c then
        rev cur :: (if c =? 13
                    then match t with
                         | 10 :: t' => splitlines_aux t' [] false
                         | _ => splitlines_aux t [] false
                         end
                    else splitlines_aux t [] false)
      else splitlines_aux t (c :: cur) true
  end.
Definition splitlines (s : str) : list str := splitlines_aux s [] false.

(* strip: Python str.strip() with no argument (whitespace), and with a char set *)
Fixpoint lstrip_by (f : Z -> bool) (s : str) : str :=
  match s with
  | c :: t => if f c then lstrip_by f t else s
  | [] => []
  end.
Definition rstrip_by (f : Z -> bool) (s : str) : str := rev (lstrip_by f (rev s)).
Definition strip_by (f : Z -> bool) (s : str) : str := rstrip_by f (lstrip_by f s).
Definition strip := strip_by is_space.
Definition lstrip := lstrip_by is_space.
Definition rstrip := rstrip_by is_space.

(* split on a non-empty separator (Python s.split(sep)); fuel = length s + 1 *)
Fixpoint split_aux (fuel : nat) (sep s cur : str) : list str :=
  match fuel with
  | O => [rev cur ++ s]
  | S f =>
    match s with
    | [] => [rev cur]
    | c :: t =>
        if is_prefix sep s then rev cur :: split_aux f sep (skipn (length sep) s) []
        else split_aux f sep t (c :: cur)
    end
  end.
Definition split (sep s : str) : list str := split_aux (S (length s)) sep s [].

(* split on a single character: structural, no fuel *)
Fixpoint split_ch_aux (sep : Z) (s cur : str) : list str :=
  match s with
  | [] => [rev cur]
  | c :: t => if c =? sep then rev cur :: split_ch_aux sep t [] else split_ch_aux sep t (c :: cur)
  end.
Definition split_ch (sep : Z) (s : str) : list str := split_ch_aux sep s [].

Fixpoint join (sep : str) (l : list str) : str :=
  match l with
  | [] => []
  | [a] => a
  | a :: t => a ++ sep ++ join sep t
  end.

(* replace all (leftmost, non-overlapping) occurrences of non-empty p by r *)
Fixpoint replace_aux (fuel : nat) (p r s : str) : str :=
  match fuel with
  | O => s
  | S f =>
    match s with
    | [] => []
    | c :: t => if is_prefix p s then r ++ replace_aux f p r (skipn (length p) s)
                else c :: replace_aux f p r t
    end
  end.
Definition replace (p r s : str) : str :=
  match p with [] => s | _ => replace_aux (S (length s)) p r s end.

Fixpoint digits_val_acc (s : str) (acc : Z) : option Z :=
  match s with
  | [] => Some acc
  | c :: t => if is_digit c then digits_val_acc t (acc * 10 + digit_val c) else None
  end.
(* int(s) for s a non-empty ASCII digit string (no sign, no whitespace, no underscores) *)
Definition int_of_digits (s : str) : option Z :=
  match s with [] => None | _ => digits_val_acc s 0 end.

Fixpoint dec_aux (fuel : nat) (z : Z) (acc : str) : str :=
  match fuel with
  | O => acc
  | S f => let acc' := (48 + z mod 10) :: acc in
           if z <? 10 then acc' else dec_aux f (z / 10) acc'
  end.
Definition dec_nonneg (z : Z) : str := dec_aux (S (Z.to_nat (Z.log2 z))) z [].
Definition dec_z (z : Z) : str := if z <? 0 then 45 :: dec_nonneg (- z) else dec_nonneg z.

(* zero-pad on the left to width w (Python "%0wd" for non-negative) *)
Definition zpad (w : nat) (s : str) : str := repeat 48 (w - length s) ++ s.

Definition ljust (w : nat) (fill : Z) (s : str) : str := s ++ repeat fill (w - length s).

Fixpoint take_while (f : Z -> bool) (s : str) : str :=
  match s with c :: t => if f c then c :: take_while f t else [] | [] => [] end.
Fixpoint drop_while (f : Z -> bool) (s : str) : str :=
  match s with c :: t => if f c then drop_while f t else s | [] => [] end.

Definition str_of_ascii := List.map Z.of_nat.
