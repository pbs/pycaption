(* Facts about the string operations of lib/Str.v (str_eqb, is_prefix / is_infix, take_while / drop_while,
   lstrip_by / rstrip_by, split_ch) and the list facts (forallb, filter, flat_map, last) that the lemma files of
   several properties share.  Stated once here, over variables; nothing in this file is specific to a format. *)
From Coq Require Import List ZArith Lia Bool.
From PV Require Import lib.Str.
Import ListNotations.
Open Scope Z_scope.

(* ---- str_eqb decides equality ------------------------------------------------ *)
Lemma str_eqb_iff : forall a b, str_eqb a b = true <-> a = b.
Proof.
  induction a as [|x a IH]; intros [|y b]; cbn [str_eqb]; split; intros H; try reflexivity; try discriminate.
  - apply andb_true_iff in H. destruct H as [H1 H2]. apply Z.eqb_eq in H1. apply IH in H2. congruence.
  - inversion H; subst. rewrite Z.eqb_refl. cbn [andb]. apply IH. reflexivity.
Qed.

Lemma str_eqb_eq : forall a b, str_eqb a b = true -> a = b.
Proof. intros a b. apply str_eqb_iff. Qed.

Lemma str_eqb_refl : forall a, str_eqb a a = true.
Proof. intros a. apply str_eqb_iff. reflexivity. Qed.

Lemma str_eqb_false_iff : forall a b, str_eqb a b = false <-> a <> b.
Proof. intros a b. rewrite <- str_eqb_iff. destruct (str_eqb a b); split; congruence. Qed.

Lemma str_eqb_neq : forall a b, a <> b -> str_eqb a b = false.
Proof. intros a b. apply str_eqb_false_iff. Qed.

Lemma str_eqb_sym : forall a b, str_eqb a b = str_eqb b a.
Proof.
  intros a b. destruct (str_eqb b a) eqn:E.
  - apply str_eqb_eq in E. subst. apply str_eqb_refl.
  - apply str_eqb_neq. intros ->. rewrite str_eqb_refl in E. discriminate E.
Qed.

(* ---- is_prefix / is_infix ----------------------------------------------------- *)
Lemma is_prefix_app : forall p s, is_prefix p (p ++ s) = true.
Proof. induction p as [|x p IH]; intros s; cbn [app is_prefix]; [reflexivity|]. rewrite Z.eqb_refl. apply IH. Qed.

Lemma is_prefix_refl : forall p, is_prefix p p = true.
Proof. intros p. rewrite <- (app_nil_r p) at 2. apply is_prefix_app. Qed.

Lemma is_prefix_inv : forall p s, is_prefix p s = true -> exists t, s = p ++ t.
Proof.
  induction p as [|x p IH]; intros s H; [exists s; reflexivity|].
  destruct s as [|y s]; [discriminate H|]. cbn [is_prefix] in H. apply andb_true_iff in H. destruct H as [E H].
  apply Z.eqb_eq in E. subst y. destruct (IH s H) as [t ->]. exists t. reflexivity.
Qed.

Lemma is_prefix_app_r : forall p s b, is_prefix p s = true -> is_prefix p (s ++ b) = true.
Proof. intros p s b H. destruct (is_prefix_inv p s H) as [t ->]. rewrite <- app_assoc. apply is_prefix_app. Qed.

Lemma is_prefix_incl : forall p s, is_prefix p s = true -> incl p s.
Proof. intros p s H. destruct (is_prefix_inv p s H) as [t ->]. apply incl_appl, incl_refl. Qed.

Lemma is_infix_unfold : forall p s,
  is_infix p s = is_prefix p s || match s with [] => false | _ :: s' => is_infix p s' end.
Proof. intros p s. destruct s; reflexivity. Qed.

Lemma is_infix_app_r : forall p a s, is_infix p s = true -> is_infix p (a ++ s) = true.
Proof.
  induction a as [|x a IH]; intros s H; cbn [app]; [exact H|].
  rewrite is_infix_unfold, (IH _ H). apply orb_true_r.
Qed.

Lemma is_infix_app_l : forall p s b, is_infix p s = true -> is_infix p (s ++ b) = true.
Proof.
  intros p s. induction s as [|x s IH]; intros b H; rewrite is_infix_unfold in H; apply orb_true_iff in H.
  - destruct H as [H|H]; [|discriminate H]. rewrite is_infix_unfold, (is_prefix_app_r _ _ b H). reflexivity.
  - rewrite is_infix_unfold. destruct H as [H|H].
    + rewrite (is_prefix_app_r _ _ b H). reflexivity.
    + cbn [app]. rewrite (IH _ H). apply orb_true_r.
Qed.

Lemma is_infix_mid : forall p a b, is_infix p (a ++ p ++ b) = true.
Proof. intros p a b. apply is_infix_app_r. rewrite is_infix_unfold, is_prefix_app. reflexivity. Qed.

Lemma is_infix_incl : forall p s, is_infix p s = true -> incl p s.
Proof.
  intros p. induction s as [|y s IH]; intros H; rewrite is_infix_unfold in H; apply orb_true_iff in H;
    destruct H as [H|H]; try discriminate H; try (apply is_prefix_incl, H).
  apply incl_tl, IH, H.
Qed.

(* ---- take_while / drop_while -------------------------------------------------- *)
Lemma take_drop_while : forall f s, take_while f s ++ drop_while f s = s.
Proof.
  induction s as [|c t IH]; cbn [take_while drop_while]; [reflexivity|].
  destruct (f c); cbn [app]; [rewrite IH|]; reflexivity.
Qed.

Lemma take_while_all : forall f s, forallb f (take_while f s) = true.
Proof.
  induction s as [|c t IH]; cbn [take_while]; [reflexivity|].
  destruct (f c) eqn:E; cbn [forallb]; [rewrite E, IH|]; reflexivity.
Qed.

Lemma drop_while_head : forall f s c t, drop_while f s = c :: t -> f c = false.
Proof.
  induction s as [|x s IH]; cbn [drop_while]; intros c t H; [discriminate|].
  destruct (f x) eqn:E; [eauto|]. inversion H; subst. exact E.
Qed.

Lemma take_while_app_all : forall f a b, forallb f a = true -> take_while f (a ++ b) = a ++ take_while f b.
Proof.
  induction a as [|x a IH]; intros b H; [reflexivity|]. cbn [forallb] in H. apply andb_true_iff in H.
  destruct H as [H1 H2]. cbn [app take_while]. rewrite H1, (IH b H2). reflexivity.
Qed.

Lemma drop_while_app_all : forall f a b, forallb f a = true -> drop_while f (a ++ b) = drop_while f b.
Proof.
  induction a as [|x a IH]; intros b H; [reflexivity|]. cbn [forallb] in H. apply andb_true_iff in H.
  destruct H as [H1 H2]. cbn [app drop_while]. rewrite H1. apply IH, H2.
Qed.

(* a block of f-characters followed by something that does not start with one *)
Lemma span_app : forall f a b, forallb f a = true -> match b with [] => True | c :: _ => f c = false end ->
  take_while f (a ++ b) = a /\ drop_while f (a ++ b) = b.
Proof.
  intros f a b Ha Hb. rewrite take_while_app_all, drop_while_app_all by exact Ha.
  destruct b as [|c r]; cbn [take_while drop_while]; [|rewrite Hb]; rewrite app_nil_r; split; reflexivity.
Qed.

Lemma take_while_stops : forall f a b, forallb f a = true -> match b with [] => True | c :: _ => f c = false end ->
  take_while f (a ++ b) = a.
Proof. intros f a b Ha Hb. apply (span_app f a b Ha Hb). Qed.

Lemma drop_while_stops : forall f a b, forallb f a = true -> match b with [] => True | c :: _ => f c = false end ->
  drop_while f (a ++ b) = b.
Proof. intros f a b Ha Hb. apply (span_app f a b Ha Hb). Qed.

Lemma take_while_id : forall f a, forallb f a = true -> take_while f a = a.
Proof. intros f a H. rewrite <- (app_nil_r a) at 1. apply (take_while_stops f a [] H I). Qed.

Lemma drop_while_nil : forall f a, forallb f a = true -> drop_while f a = [].
Proof. intros f a H. rewrite <- (app_nil_r a). apply (drop_while_stops f a [] H I). Qed.

Lemma take_while_before : forall f s c r, f c = false -> take_while f (s ++ c :: r) = take_while f s.
Proof.
  induction s as [|x s IH]; intros c r H; cbn [app take_while]; [rewrite H; reflexivity|].
  destruct (f x); [rewrite (IH c r H)|]; reflexivity.
Qed.

Lemma drop_while_before : forall f s c r, f c = false -> drop_while f (s ++ c :: r) = drop_while f s ++ c :: r.
Proof.
  induction s as [|x s IH]; intros c r H; cbn [app drop_while]; [rewrite H; reflexivity|].
  destruct (f x); [apply IH, H|reflexivity].
Qed.

Lemma forallb_drop_while : forall (P f : Z -> bool) s, forallb P s = true -> forallb P (drop_while f s) = true.
Proof.
  induction s as [|c s IH]; intros H; [reflexivity|]. cbn [drop_while]. destruct (f c); [|exact H].
  cbn [forallb] in H. apply andb_true_iff in H. apply IH, H.
Qed.

(* ---- lstrip_by / rstrip_by ------------------------------------------------------ *)
Lemma lstrip_by_drop_while : forall f s, lstrip_by f s = drop_while f s.
Proof. induction s as [|c s IH]; [reflexivity|]. cbn [lstrip_by drop_while]. rewrite IH. reflexivity. Qed.

Lemma lstrip_split : forall f l, exists w, l = w ++ lstrip_by f l /\ forallb f w = true.
Proof.
  intros f l. exists (take_while f l). rewrite lstrip_by_drop_while, take_drop_while, take_while_all. split; reflexivity.
Qed.

(* ---- forallb on pieces of a list ---------------------------------------------- *)
Lemma forallb_firstn : forall {A} (p : A -> bool) n s, forallb p s = true -> forallb p (firstn n s) = true.
Proof.
  induction n as [|n IH]; intros [|x t] H; cbn [firstn forallb] in *; auto.
  apply andb_prop in H. destruct H as [H1 H2]. rewrite H1. apply IH. exact H2.
Qed.

Lemma forallb_skipn : forall {A} (p : A -> bool) n s, forallb p s = true -> forallb p (skipn n s) = true.
Proof.
  induction n as [|n IH]; intros [|x t] H; cbn [skipn forallb] in *; auto.
  apply andb_prop in H. destruct H as [_ H2]. apply IH. exact H2.
Qed.

Lemma forallb_weaken : forall {A} (p q : A -> bool) s, (forall c, p c = true -> q c = true) ->
  forallb p s = true -> forallb q s = true.
Proof. intros A p q s H Hs. rewrite forallb_forall in *. intros c Hc. apply H, Hs, Hc. Qed.

Lemma forallb_rev : forall {A} (p : A -> bool) l, forallb p (rev l) = forallb p l.
Proof.
  induction l as [|x l IH]; [reflexivity|]. cbn [rev forallb]. rewrite forallb_app, IH. cbn [forallb].
  rewrite andb_true_r. apply andb_comm.
Qed.

Lemma forallb_map_mono : forall {A B} (p : A -> bool) (q : B -> bool) (f : A -> B) l,
  (forall x, p x = true -> q (f x) = true) -> forallb p l = true -> forallb q (map f l) = true.
Proof.
  intros A B p q f l H Hl. rewrite forallb_forall in *. intros y Hy. apply in_map_iff in Hy.
  destruct Hy as (x & <- & Hx). apply H, Hl, Hx.
Qed.

Lemma forallb_flat_map_in : forall {A B} (q : B -> bool) (f : A -> list B) l,
  (forall x, In x l -> forallb q (f x) = true) -> forallb q (flat_map f l) = true.
Proof.
  intros A B q f l H. apply forallb_forall. intros y Hy. apply in_flat_map in Hy. destruct Hy as (x & Hx & Hy).
  specialize (H x Hx). rewrite forallb_forall in H. apply H, Hy.
Qed.

Lemma forallb_flat_map : forall {A B} (p : A -> bool) (q : B -> bool) (f : A -> list B) l,
  (forall x, p x = true -> forallb q (f x) = true) -> forallb p l = true -> forallb q (flat_map f l) = true.
Proof. intros A B p q f l H Hl. apply forallb_flat_map_in. intros x Hx. rewrite forallb_forall in Hl. apply H, Hl, Hx. Qed.

Lemma forallb_concat : forall {A} (p : A -> bool) ls, forallb p (concat ls) = forallb (forallb p) ls.
Proof. induction ls as [|l ls IH]; [reflexivity|]. cbn [concat forallb]. rewrite forallb_app, IH. reflexivity. Qed.

Lemma rstrip_split : forall s, exists w, s = rstrip s ++ w /\ forallb is_space w = true.
Proof.
  intros s. unfold rstrip, rstrip_by. destruct (lstrip_split is_space (rev s)) as (w & E & F).
  exists (rev w). rewrite forallb_rev, <- rev_app_distr, <- E, rev_involutive. split; [reflexivity|exact F].
Qed.

(* ---- split_ch ----------------------------------------------------------------- *)
Lemma split_ch_aux_nonempty : forall sep s cur, split_ch_aux sep s cur <> [].
Proof.
  induction s as [|c t IH]; intros cur; cbn [split_ch_aux]; [discriminate|].
  destruct (c =? sep); [discriminate|apply IH].
Qed.

Lemma split_ch_nonempty : forall sep s, split_ch sep s <> [].
Proof. intros sep s. apply split_ch_aux_nonempty. Qed.

(* ---- lists -------------------------------------------------------------------- *)
Lemma flat_map_flat_map : forall (A B C : Type) (f : B -> list C) (g : A -> list B) l,
  flat_map f (flat_map g l) = flat_map (fun a => flat_map f (g a)) l.
Proof. induction l as [|a t IH]; [reflexivity|]. cbn [flat_map]. rewrite flat_map_app, IH. reflexivity. Qed.

Lemma filter_map_swap : forall (A B : Type) (f : A -> B) (p : B -> bool) l,
  filter p (map f l) = map f (filter (fun x => p (f x)) l).
Proof.
  induction l as [|x l IH]; [reflexivity|]. cbn [map filter]. rewrite IH. destruct (p (f x)); reflexivity.
Qed.

Lemma Forall2_weaken : forall {A B} (R S : A -> B -> Prop) l l', (forall a b, R a b -> S a b) ->
  Forall2 R l l' -> Forall2 S l l'.
Proof. intros A B R S l l' I H. induction H; constructor; auto. Qed.

Lemma filter_all : forall {A} (p : A -> bool) l, (forall x, In x l -> p x = true) -> filter p l = l.
Proof.
  induction l as [|x l IH]; intros H; [reflexivity|]. cbn [filter]. rewrite (H x (or_introl eq_refl)), IH; [reflexivity|].
  intros y Hy. apply H. right. exact Hy.
Qed.

Lemma filter_none : forall {A} (p : A -> bool) l, (forall x, In x l -> p x = false) -> filter p l = [].
Proof.
  induction l as [|x l IH]; intros H; [reflexivity|]. cbn [filter]. rewrite (H x (or_introl eq_refl)). apply IH.
  intros y Hy. apply H. right. exact Hy.
Qed.

Lemma filter_filter : forall {A} (p q : A -> bool) l, filter p (filter q l) = filter (fun x => q x && p x) l.
Proof.
  induction l as [|x l IH]; [reflexivity|]. cbn [filter]. destruct (q x); cbn [filter andb]; rewrite IH; reflexivity.
Qed.
