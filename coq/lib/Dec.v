(* Decimal printing / int() round trip on Str's [dec_nonneg], [int_of_digits], [zpad];
   fixed-width digit fields; digit-value lists (second fractions of any length).
   Re-exports lib/StrFacts. *)
From Coq Require Import List ZArith Lia Bool ZifyBool.
From PV Require Import lib.Sx lib.Str.
From PV Require Export lib.StrFacts.
Import ListNotations.
Open Scope Z_scope.
#[local] Ltac Zify.zify_post_hook ::= Z.to_euclidean_division_equations.

(* exactly two / three decimal digits of a number below 100 / 1000 *)
Definition two (n : Z) : str := [48 + n / 10; 48 + n mod 10].
Definition three (n : Z) : str := [48 + n / 100; 48 + (n / 10) mod 10; 48 + n mod 10].

Definition padded (k : nat) (n : Z) : str := repeat 48 k ++ dec_nonneg n.

(* a digit-value list d1 .. dk (each 0..9), most significant first *)
Definition digits_ok (ds : list Z) : bool := forallb (fun d => (0 <=? d) && (d <=? 9)) ds.
Definition digits_num (ds : list Z) : Z := fold_left (fun a d => a * 10 + d) ds 0.
Definition digits_str (ds : list Z) : str := map (fun d => 48 + d) ds.

Lemma digits_val_acc_app : forall a b acc,
  digits_val_acc (a ++ b) acc =
  match digits_val_acc a acc with Some v => digits_val_acc b v | None => None end.
Proof.
  induction a as [|c a IH]; intros b acc; cbn [app digits_val_acc]; [reflexivity|].
  destruct (is_digit c); [apply IH|reflexivity].
Qed.

Lemma digits_val_acc_zeros : forall k s, digits_val_acc (repeat 48 k ++ s) 0 = digits_val_acc s 0.
Proof.
  induction k as [|k IH]; intros s; [reflexivity|].
  cbn [repeat app digits_val_acc]. change (is_digit 48) with true. cbv iota.
  change (0 * 10 + digit_val 48) with 0. apply IH.
Qed.

Lemma dec_aux_S : forall f z acc,
  dec_aux (S f) z acc = if z <? 10 then (48 + z mod 10) :: acc else dec_aux f (z / 10) ((48 + z mod 10) :: acc).
Proof. reflexivity. Qed.

Lemma dec_aux_acc : forall fuel z acc, dec_aux fuel z acc = dec_aux fuel z [] ++ acc.
Proof.
  induction fuel as [|f IH]; intros z acc; [reflexivity|]. rewrite !dec_aux_S.
  destruct (z <? 10); [reflexivity|].
  rewrite IH. rewrite (IH _ [_]). rewrite <- app_assoc. reflexivity.
Qed.

Lemma pow2_ge1 : forall f : nat, 1 <= 2 ^ Z.of_nat f.
Proof. intros f. pose proof (Z.pow_pos_nonneg 2 (Z.of_nat f)). lia. Qed.

Lemma dec_aux_val : forall fuel z, 0 <= z < 2 ^ Z.of_nat (S fuel) ->
  digits_val_acc (dec_aux (S fuel) z []) 0 = Some z.
Proof.
  induction fuel as [|f IH]; intros z Hz.
  - change (2 ^ Z.of_nat 1) with 2 in Hz. cbn [dec_aux].
    assert (Hlt : (z <? 10) = true) by lia. rewrite Hlt.
    cbn [digits_val_acc]. unfold is_digit, digit_val.
    assert (Hm : z mod 10 = z) by (apply Z.mod_small; lia). rewrite Hm.
    assert (Hd : ((48 <=? 48 + z) && (48 + z <=? 57)) = true) by lia. rewrite Hd.
    f_equal. lia.
  - rewrite dec_aux_S. destruct (z <? 10) eqn:Hlt.
    + cbn [digits_val_acc]. unfold is_digit, digit_val.
      assert (Hm : z mod 10 = z) by (apply Z.mod_small; lia). rewrite Hm.
      assert (Hd : ((48 <=? 48 + z) && (48 + z <=? 57)) = true) by lia. rewrite Hd.
      f_equal. lia.
    + rewrite dec_aux_acc, digits_val_acc_app.
      assert (Hq : 0 <= z / 10 < 2 ^ Z.of_nat (S f)).
      { rewrite Nat2Z.inj_succ in Hz. rewrite Z.pow_succ_r in Hz by lia.
        split; [apply Z.div_pos; lia|]. apply Z.div_lt_upper_bound; lia. }
      rewrite (IH _ Hq).
      cbn [digits_val_acc]. unfold is_digit, digit_val.
      pose proof (Z.mod_pos_bound z 10 ltac:(lia)) as Hmb.
      assert (Hd : ((48 <=? 48 + z mod 10) && (48 + z mod 10 <=? 57)) = true) by lia. rewrite Hd.
      f_equal. pose proof (Z.div_mod z 10 ltac:(lia)). lia.
Qed.

Lemma dec_nonneg_val : forall z, 0 <= z -> digits_val_acc (dec_nonneg z) 0 = Some z.
Proof.
  intros z Hz. unfold dec_nonneg. apply dec_aux_val. split; [exact Hz|].
  destruct (Z.eq_dec z 0) as [->|Hnz]; [reflexivity|].
  rewrite Nat2Z.inj_succ, Z2Nat.id by apply Z.log2_nonneg.
  apply Z.log2_spec. lia.
Qed.

Lemma dec_aux_nonempty : forall fuel z acc, dec_aux (S fuel) z acc <> [].
Proof.
  intros fuel z acc. rewrite dec_aux_S. destruct (z <? 10); [discriminate|].
  rewrite dec_aux_acc. intros H. apply app_eq_nil in H. destruct H; discriminate.
Qed.

Lemma dec_nonneg_nonempty : forall z, dec_nonneg z <> [].
Proof. intros z. unfold dec_nonneg. apply dec_aux_nonempty. Qed.

Theorem int_of_padded : forall k n, 0 <= n -> int_of_digits (padded k n) = Some n.
Proof.
  intros k n Hn. unfold int_of_digits, padded.
  destruct (repeat 48 k ++ dec_nonneg n) eqn:E.
  - apply app_eq_nil in E. destruct E as [_ E]. exfalso. exact (dec_nonneg_nonempty n E).
  - rewrite <- E. rewrite digits_val_acc_zeros. apply dec_nonneg_val. exact Hn.
Qed.

Theorem int_of_dec : forall n, 0 <= n -> int_of_digits (dec_nonneg n) = Some n.
Proof. intros n Hn. exact (int_of_padded 0 n Hn). Qed.

Lemma dec_aux_digits : forall fuel z acc, 0 <= z ->
  forallb is_digit acc = true -> forallb is_digit (dec_aux fuel z acc) = true.
Proof.
  induction fuel as [|f IH]; intros z acc Hz Hacc; [exact Hacc|]. rewrite dec_aux_S.
  pose proof (Z.mod_pos_bound z 10 ltac:(lia)) as Hmb.
  assert (Hd : is_digit (48 + z mod 10) = true) by (unfold is_digit; lia).
  destruct (z <? 10).
  - cbn [forallb]. rewrite Hd, Hacc. reflexivity.
  - apply IH; [apply Z.div_pos; lia|]. cbn [forallb]. rewrite Hd, Hacc. reflexivity.
Qed.

Lemma dec_nonneg_digits : forall z, 0 <= z -> forallb is_digit (dec_nonneg z) = true.
Proof. intros z Hz. unfold dec_nonneg. apply dec_aux_digits; [exact Hz|reflexivity]. Qed.

Lemma padded_digits : forall k n, 0 <= n -> forallb is_digit (padded k n) = true.
Proof.
  intros k n Hn. unfold padded. rewrite forallb_app, dec_nonneg_digits by exact Hn.
  rewrite andb_true_r. induction k; [reflexivity|]. cbn [repeat forallb]. rewrite IHk. reflexivity.
Qed.

Lemma padded_nonempty : forall k n, padded k n <> [].
Proof.
  intros k n H. unfold padded in H. apply app_eq_nil in H. destruct H as [_ H].
  exact (dec_nonneg_nonempty n H).
Qed.

Lemma isdigit_padded : forall k n, 0 <= n -> isdigit (padded k n) = true.
Proof.
  intros k n Hn. unfold isdigit. pose proof (padded_nonempty k n) as Hne.
  destruct (padded k n) eqn:E; [congruence|]. rewrite <- E. apply padded_digits. exact Hn.
Qed.

Lemma int_of_two : forall n, 0 <= n < 100 -> int_of_digits (two n) = Some n.
Proof.
  intros n Hn. unfold int_of_digits, two. cbn [digits_val_acc]. unfold is_digit, digit_val.
  assert (H1 : ((48 <=? 48 + n / 10) && (48 + n / 10 <=? 57)) = true) by lia.
  assert (H2 : ((48 <=? 48 + n mod 10) && (48 + n mod 10 <=? 57)) = true) by lia.
  rewrite H1, H2. f_equal. lia.
Qed.

Lemma int_of_three : forall n, 0 <= n < 1000 -> int_of_digits (three n) = Some n.
Proof.
  intros n Hn. unfold int_of_digits, three. cbn [digits_val_acc]. unfold is_digit, digit_val.
  assert (H1 : ((48 <=? 48 + n / 100) && (48 + n / 100 <=? 57)) = true) by lia.
  assert (H2 : ((48 <=? 48 + (n / 10) mod 10) && (48 + (n / 10) mod 10 <=? 57)) = true) by lia.
  assert (H3 : ((48 <=? 48 + n mod 10) && (48 + n mod 10 <=? 57)) = true) by lia.
  rewrite H1, H2, H3. f_equal. lia.
Qed.

Lemma two_digits : forall n, 0 <= n < 100 -> forallb is_digit (two n) = true.
Proof. intros n Hn. unfold two, is_digit. cbn [forallb]. lia. Qed.
Lemma three_digits : forall n, 0 <= n < 1000 -> forallb is_digit (three n) = true.
Proof. intros n Hn. unfold three, is_digit. cbn [forallb]. lia. Qed.

Lemma range_forall : forall (P : Z -> bool) (n : nat),
  forallb P (map Z.of_nat (seq 0 n)) = true -> forall z, 0 <= z < Z.of_nat n -> P z = true.
Proof.
  intros P n H z Hz. rewrite forallb_forall in H. apply H.
  apply in_map_iff. exists (Z.to_nat z). split; [lia|]. apply in_seq. lia.
Qed.

(* "%02d" / "%03d" of Str (zpad over dec_nonneg) print exactly these fields: below 10 / 100 / 1000 dec_aux stops after
   one / two / three steps (the fuel, 1 + log2 n, is enough for that many) *)
Lemma dec_aux_lt10 : forall f z acc, 0 <= z < 10 -> dec_aux (S f) z acc = (48 + z) :: acc.
Proof. intros f z acc H. rewrite dec_aux_S. replace (z <? 10) with true by lia. rewrite Z.mod_small by lia. reflexivity. Qed.

Lemma dec_aux_ge10 : forall f z acc, 10 <= z -> dec_aux (S f) z acc = dec_aux f (z / 10) ((48 + z mod 10) :: acc).
Proof. intros f z acc H. rewrite dec_aux_S. replace (z <? 10) with false by lia. reflexivity. Qed.

Lemma zpad2_two : forall n, 0 <= n < 100 -> zpad 2 (dec_nonneg n) = two n.
Proof.
  intros n Hn. unfold zpad, two, dec_nonneg. destruct (Z_lt_le_dec n 10) as [L|G].
  - rewrite dec_aux_lt10, Z.div_small, Z.mod_small by lia. reflexivity.
  - pose proof (Z.log2_le_mono 10 n G) as F. change (Z.log2 10) with 3 in F.
    destruct (Z.to_nat (Z.log2 n)) as [|f] eqn:E; [lia|].
    rewrite dec_aux_ge10, dec_aux_lt10 by lia. reflexivity.
Qed.

Lemma zpad3_three : forall n, 0 <= n < 1000 -> zpad 3 (dec_nonneg n) = three n.
Proof.
  intros n Hn. unfold zpad, three, dec_nonneg. destruct (Z_lt_le_dec n 10) as [L|G].
  - rewrite dec_aux_lt10, (Z.div_small n 100), (Z.div_small n 10), (Z.mod_small n 10) by lia. reflexivity.
  - pose proof (Z.log2_le_mono 10 n G) as F. change (Z.log2 10) with 3 in F.
    destruct (Z.to_nat (Z.log2 n)) as [|[|f]] eqn:E; [lia|lia|].
    rewrite dec_aux_ge10 by lia. destruct (Z_lt_le_dec n 100) as [L|G2].
    + rewrite dec_aux_lt10, (Z.div_small n 100), (Z.mod_small (n / 10)) by lia. reflexivity.
    + rewrite dec_aux_ge10, dec_aux_lt10, Z.div_div by lia. reflexivity.
Qed.

Lemma digits_str_val : forall ds acc, digits_ok ds = true ->
  digits_val_acc (digits_str ds) acc = Some (fold_left (fun a d => a * 10 + d) ds acc).
Proof.
  induction ds as [|d ds IH]; intros acc H; [reflexivity|].
  cbn [digits_ok forallb] in H. apply andb_true_iff in H. destruct H as [Hd Hr].
  cbn [digits_str map digits_val_acc fold_left]. unfold is_digit, digit_val.
  assert (H1 : ((48 <=? 48 + d) && (48 + d <=? 57)) = true) by lia. rewrite H1.
  replace (acc * 10 + (48 + d - 48)) with (acc * 10 + d) by lia. apply IH. exact Hr.
Qed.

Lemma int_of_digits_str : forall ds, ds <> [] -> digits_ok ds = true ->
  int_of_digits (digits_str ds) = Some (digits_num ds).
Proof.
  intros ds Hne Hok. unfold int_of_digits. destruct ds as [|d ds]; [congruence|].
  change (match digits_str (d :: ds) with [] => None | _ :: _ => digits_val_acc (digits_str (d :: ds)) 0 end)
    with (digits_val_acc (digits_str (d :: ds)) 0).
  apply digits_str_val. exact Hok.
Qed.

Lemma digits_str_length : forall ds, length (digits_str ds) = length ds.
Proof. intros. apply map_length. Qed.

Lemma digits_str_digits : forall ds, digits_ok ds = true -> forallb is_digit (digits_str ds) = true.
Proof.
  induction ds as [|d ds IH]; intros H; [reflexivity|].
  cbn [digits_ok forallb] in H. apply andb_true_iff in H. destruct H as [Hd Hr].
  unfold digits_str in *. cbn [map forallb]. rewrite (IH Hr). unfold is_digit. lia.
Qed.

Lemma fold_digits_bounds : forall ds acc, digits_ok ds = true -> 0 <= acc ->
  acc * 10 ^ Z.of_nat (length ds) <= fold_left (fun a d => a * 10 + d) ds acc
  < (acc + 1) * 10 ^ Z.of_nat (length ds).
Proof.
  induction ds as [|d ds IH]; intros acc H Hacc.
  - cbn [length fold_left]. change (10 ^ Z.of_nat 0) with 1. lia.
  - cbn [digits_ok forallb] in H. apply andb_true_iff in H. destruct H as [Hd Hr].
    cbn [fold_left length]. rewrite Nat2Z.inj_succ, Z.pow_succ_r by lia.
    specialize (IH (acc * 10 + d) Hr ltac:(lia)).
    pose proof (Z.pow_pos_nonneg 10 (Z.of_nat (length ds)) ltac:(lia) ltac:(lia)) as Hp.
    nia.
Qed.

Lemma digits_num_bounds : forall ds, digits_ok ds = true ->
  0 <= digits_num ds < 10 ^ Z.of_nat (length ds).
Proof.
  intros ds H. pose proof (fold_digits_bounds ds 0 H ltac:(lia)) as B. unfold digits_num. lia.
Qed.
