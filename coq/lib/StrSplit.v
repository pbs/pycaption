(* What split_ch / strip / rstrip / join of lib/Str.v return in terms of the string they were given: every piece is a
   contiguous part ([part]) of the input, join undoes split_ch, a stripped string is a contiguous part. *)
From Coq Require Import List ZArith Lia Bool ZifyBool.
From PV Require Import lib.Sx lib.Str lib.StrFacts.
Import ListNotations.
Open Scope Z_scope.

Definition part (p s : str) : Prop := exists a b, s = a ++ p ++ b.

Lemma part_refl : forall s, part s s.
Proof. intros s. exists [], []. rewrite app_nil_r. reflexivity. Qed.

Lemma part_trans : forall a b c, part a b -> part b c -> part a c.
Proof.
  intros a b c [x [y H1]] [u [v H2]]. subst. exists (u ++ x), (y ++ v). rewrite <- !app_assoc. reflexivity.
Qed.

Lemma part_app_l : forall p a b, part p a -> part p (a ++ b).
Proof. intros p a b [x [y H]]. subst. exists x, (y ++ b). rewrite <- !app_assoc. reflexivity. Qed.

Lemma part_app_r : forall p a b, part p b -> part p (a ++ b).
Proof. intros p a b [x [y H]]. subst. exists (a ++ x), y. rewrite <- !app_assoc. reflexivity. Qed.

Lemma lstrip_by_suffix : forall f s, exists a, s = a ++ lstrip_by f s.
Proof. intros f s. destruct (lstrip_split f s) as (w & E & _). exists w. exact E. Qed.

Lemma rstrip_by_prefix : forall f s, exists b, s = rstrip_by f s ++ b.
Proof.
  intros f s. unfold rstrip_by. destruct (lstrip_by_suffix f (rev s)) as [a Ha].
  exists (rev a). rewrite <- rev_app_distr, <- Ha, rev_involutive. reflexivity.
Qed.

Lemma lstrip_by_part : forall f s, part (lstrip_by f s) s.
Proof. intros f s. destruct (lstrip_by_suffix f s) as [a Ha]. exists a, []. rewrite app_nil_r. exact Ha. Qed.

Lemma rstrip_by_part : forall f s, part (rstrip_by f s) s.
Proof. intros f s. destruct (rstrip_by_prefix f s) as [b Hb]. exists [], b. exact Hb. Qed.

Lemma strip_by_part : forall f s, part (strip_by f s) s.
Proof.
  intros f s. unfold strip_by. apply (part_trans _ (lstrip_by f s)); [apply rstrip_by_part|apply lstrip_by_part].
Qed.

Lemma strip_part : forall s, part (strip s) s.
Proof. intros s. apply strip_by_part. Qed.

Lemma lstrip_by_head : forall f s c t, lstrip_by f s = c :: t -> f c = false.
Proof. intros f s c t. rewrite lstrip_by_drop_while. apply drop_while_head. Qed.

Lemma split_ch_aux_part : forall sep s cur p, In p (split_ch_aux sep s cur) -> part p (rev cur ++ s).
Proof.
  intros sep. induction s as [|c t IH]; intros cur p H.
  - cbn in H. destruct H as [<-|[]]. rewrite app_nil_r. apply part_refl.
  - cbn [split_ch_aux] in H. destruct (c =? sep).
    + destruct H as [<-|H].
      * apply part_app_l. apply part_refl.
      * apply part_app_r. change (c :: t) with ([c] ++ t). apply part_app_r. apply (IH [] p H).
    + specialize (IH (c :: cur) p H). cbn [rev] in IH. rewrite <- app_assoc in IH. exact IH.
Qed.

Lemma split_ch_part : forall sep s p, In p (split_ch sep s) -> part p s.
Proof. intros sep s p H. apply (split_ch_aux_part sep s [] p H). Qed.

Lemma split_ch_aux_cons : forall sep s cur, exists x l, split_ch_aux sep s cur = x :: l.
Proof.
  intros sep. induction s as [|c t IH]; intros cur; [cbn; eauto|].
  cbn [split_ch_aux]. destruct (c =? sep); [eauto|apply IH].
Qed.

Lemma split_ch_aux_cur : forall sep s cur,
  split_ch_aux sep s cur =
  match split_ch_aux sep s [] with
  | l0 :: rest => (rev cur ++ l0) :: rest
  | [] => []
  end.
Proof.
  induction s as [|c t IH]; intros cur.
  - cbn [split_ch_aux rev app]. rewrite app_nil_r. reflexivity.
  - cbn [split_ch_aux]. destruct (c =? sep).
    + cbn [rev app]. rewrite app_nil_r. reflexivity.
    + rewrite (IH (c :: cur)), (IH [c]). destruct (split_ch_aux sep t []); [reflexivity|].
      cbn [rev app]. rewrite <- app_assoc. reflexivity.
Qed.

Lemma split_ch_aux_join : forall sep s cur, join [sep] (split_ch_aux sep s cur) = rev cur ++ s.
Proof.
  intros sep. induction s as [|c t IH]; intros cur.
  - cbn. rewrite app_nil_r. reflexivity.
  - cbn [split_ch_aux]. destruct (c =? sep) eqn:E.
    + apply Z.eqb_eq in E. subst c.
      destruct (split_ch_aux_cons sep t []) as [x [l Hx]]. pose proof (IH []) as IH0. rewrite Hx in IH0 |- *.
      change (join [sep] (rev cur :: x :: l)) with (rev cur ++ [sep] ++ join [sep] (x :: l)).
      rewrite IH0. reflexivity.
    + rewrite (IH (c :: cur)). cbn [rev]. rewrite <- app_assoc. reflexivity.
Qed.

Lemma split_ch_join : forall sep s, join [sep] (split_ch sep s) = s.
Proof. intros sep s. apply (split_ch_aux_join sep s []). Qed.

Lemma split_ch_aux_no_sep : forall sep s cur p, ~ In sep cur -> In p (split_ch_aux sep s cur) -> ~ In sep p.
Proof.
  intros sep. induction s as [|c t IH]; intros cur p Hc H.
  - cbn in H. destruct H as [<-|[]]. intros Hin. apply Hc. apply in_rev. exact Hin.
  - cbn [split_ch_aux] in H. destruct (c =? sep) eqn:E.
    + destruct H as [<-|H]; [intros Hin; apply Hc; apply in_rev; exact Hin|]. apply (IH [] p); [intros []|exact H].
    + apply (IH (c :: cur) p); [|exact H]. intros [X|X]; [lia|apply Hc; exact X].
Qed.

Lemma split_ch_no_sep : forall sep s p, In p (split_ch sep s) -> ~ In sep p.
Proof. intros sep s p H. apply (split_ch_aux_no_sep sep s [] p); [intros []|exact H]. Qed.

Lemma join_cons2 : forall sep a b l, join sep (a :: b :: l) = a ++ sep ++ join sep (b :: l).
Proof. reflexivity. Qed.

Lemma join_part : forall sep l p, In p l -> part p (join sep l).
Proof.
  intros sep. induction l as [|a t IH]; intros p H; [destruct H|].
  destruct t as [|b t'].
  - destruct H as [<-|[]]. apply part_refl.
  - rewrite join_cons2. destruct H as [<-|H]; [apply part_app_l; apply part_refl|].
    apply part_app_r. apply part_app_r. apply IH. exact H.
Qed.

Lemma filter_part : forall (f : str -> bool) l p s, (forall q, In q l -> part q s) -> In p (filter f l) -> part p s.
Proof. intros f l p s H Hin. apply filter_In in Hin. apply H. apply Hin. Qed.
