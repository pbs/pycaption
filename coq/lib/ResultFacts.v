(* Facts about res_map of lib/Result.v: what a successful run says about each element, where a failure comes from,
   and when a run is the plain map of a total function. *)
From Coq Require Import List.
From PV Require Import lib.Result.
Import ListNotations.

Lemma res_map_cons : forall {A B} (f : A -> result B) a t l, res_map f (a :: t) = Ok l ->
  exists b bs, f a = Ok b /\ res_map f t = Ok bs /\ l = b :: bs.
Proof.
  intros A B f a t l H. cbn [res_map] in H. destruct (f a) as [b|]; [|discriminate H].
  cbn [bind] in H. destruct (res_map f t) as [bs|]; [|discriminate H]. injection H as <-. exists b, bs. auto.
Qed.

Lemma res_map_Forall2 : forall {A B} (f : A -> result B) l l', res_map f l = Ok l' ->
  Forall2 (fun a b => f a = Ok b) l l'.
Proof.
  induction l as [|a l IH]; intros l' H; [injection H as <-; constructor|].
  apply res_map_cons in H. destruct H as (b & bs & Hb & Ht & ->). constructor; auto.
Qed.

Lemma res_map_step : forall {A B} (f : A -> result B) (R : A -> B -> Prop) l l',
  (forall a b, f a = Ok b -> R a b) -> res_map f l = Ok l' -> Forall2 R l l'.
Proof. intros A B f R l l' H E. apply res_map_Forall2 in E. induction E; constructor; auto. Qed.

Lemma res_map_Forall : forall {A B} (f : A -> result B) (P : B -> Prop) l l', res_map f l = Ok l' ->
  (forall a b, f a = Ok b -> P b) -> Forall P l'.
Proof. intros A B f P l l' H Hf. apply res_map_Forall2 in H. induction H; constructor; eauto. Qed.

Lemma res_map_length : forall {A B} (f : A -> result B) l l', res_map f l = Ok l' -> length l' = length l.
Proof. intros A B f l l' H. apply res_map_Forall2 in H. induction H; cbn [length]; congruence. Qed.

Lemma res_map_err : forall {A B} (f : A -> result B) l e, res_map f l = Err e -> exists a, In a l /\ f a = Err e.
Proof.
  induction l as [|a l IH]; intros e H; cbn [res_map] in H; [discriminate|].
  destruct (f a) eqn:E; cbn [bind] in H.
  - destruct (res_map f l); [discriminate|]. injection H as <-.
    destruct (IH _ eq_refl) as (x & Hx & Hf). exists x. split; [right; exact Hx|exact Hf].
  - injection H as <-. exists a. split; [left; reflexivity|exact E].
Qed.

Lemma res_map_ok_in : forall {A B} (f : A -> result B) (g : A -> B) l,
  (forall x, In x l -> f x = Ok (g x)) -> res_map f l = Ok (map g l).
Proof.
  induction l as [|x t IH]; intros H; [reflexivity|].
  cbn [res_map map]. rewrite (H x (or_introl eq_refl)), IH; [reflexivity|].
  intros y Hy. apply H. right. exact Hy.
Qed.

Lemma res_map_map : forall {A B C} (h : A -> B) (f : B -> result C) l,
  res_map f (map h l) = res_map (fun x => f (h x)) l.
Proof. induction l as [|a l IH]; [reflexivity|]. cbn [map res_map]. rewrite IH. reflexivity. Qed.

Lemma res_map_map_ok : forall {A B C} (h : A -> B) (f : B -> result C) (g : A -> C) l,
  (forall x, In x l -> f (h x) = Ok (g x)) -> res_map f (map h l) = Ok (map g l).
Proof. intros A B C h f g l H. rewrite res_map_map. apply res_map_ok_in, H. Qed.

Lemma res_map_ext_in : forall {A B} (f g : A -> result B) l, (forall x, In x l -> f x = g x) -> res_map f l = res_map g l.
Proof.
  intros A B f g l H. induction l as [|x l IH]; [reflexivity|]. cbn [res_map].
  rewrite (H x (or_introl eq_refl)), IH; [reflexivity|]. intros y Hy. apply H. right. exact Hy.
Qed.

Lemma res_map_app : forall {A B} (f : A -> result B) l1 l2 w1 w2,
  res_map f l1 = Ok w1 -> res_map f l2 = Ok w2 -> res_map f (l1 ++ l2) = Ok (w1 ++ w2).
Proof.
  induction l1 as [|x t IH]; intros l2 w1 w2 E1 E2; [injection E1 as <-; exact E2|].
  apply res_map_cons in E1. destruct E1 as (b & bs & Hb & Ht & ->).
  cbn [app res_map]. rewrite Hb, (IH l2 bs w2 Ht E2). reflexivity.
Qed.

(* a function that checks p and then answers g *)
Lemma res_map_guard : forall {A B} (p : A -> bool) (g : A -> B) e (f : A -> result B) l,
  (forall x, f x = if p x then Ok (g x) else Err e) ->
  res_map f l = if forallb p l then Ok (map g l) else Err e.
Proof.
  intros A B p g e f l H. induction l as [|x t IH]; [reflexivity|].
  cbn [res_map forallb map]. rewrite H, IH. destruct (p x), (forallb p t); reflexivity.
Qed.
