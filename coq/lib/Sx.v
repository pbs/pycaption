(* Generic wire format between the Python harness and the extracted oracle.
   A value is an s-expression of integers, strings (lists of code points) and lists;
   on the wire it is a flat list of integers:
     SI z  ->  0 z
     SS s  ->  2 n c1 .. cn
     SL l  ->  1 n  e1 .. en
   All structured encoding/decoding is done here, in Coq, so that the OCaml driver is
   only "read integers, call oracle, print integers". *)
From Coq Require Import List ZArith Lia Bool ZifyBool.
Import ListNotations.
Open Scope Z_scope.

Definition str := list Z.

Inductive sx : Type :=
| SI (z : Z)
| SS (s : str)
| SL (l : list sx).

Fixpoint enc (x : sx) : list Z :=
  match x with
  | SI z => [0; z]
  | SS s => 2 :: Z.of_nat (length s) :: s
  | SL l => 1 :: Z.of_nat (length l) :: flat_map enc l
  end.

(* fuel-based decoder; fuel = length of input suffices *)
Fixpoint dec (fuel : nat) (inp : list Z) : option (sx * list Z) :=
  match fuel with
  | O => None
  | S f =>
    match inp with
    | 0 :: z :: rest => Some (SI z, rest)
    | 2 :: n :: rest =>
        if (n <? 0) || (Z.of_nat (length rest) <? n) then None
        else Some (SS (firstn (Z.to_nat n) rest), skipn (Z.to_nat n) rest)
    | 1 :: n :: rest =>
        if n <? 0 then None else
        (fix items (k : nat) (inp : list Z) (acc : list sx) : option (sx * list Z) :=
           match k with
           | O => Some (SL (rev acc), inp)
           | S k' => match dec f inp with
                     | Some (x, inp') => items k' inp' (x :: acc)
                     | None => None
                     end
           end) (Z.to_nat n) rest []
    | _ => None
    end
  end.

Definition decode (inp : list Z) : option sx :=
  match dec (S (length inp)) inp with
  | Some (x, []) => Some x
  | _ => None
  end.

Definition sx_int (x : sx) : option Z := match x with SI z => Some z | _ => None end.
Definition sx_str (x : sx) : option str := match x with SS s => Some s | _ => None end.
Definition sx_list (x : sx) : option (list sx) := match x with SL l => Some l | _ => None end.
Definition sx_bool (x : sx) : option bool :=
  match x with SI 0 => Some false | SI 1 => Some true | _ => None end.

Fixpoint opt_map {A B} (f : A -> option B) (l : list A) : option (list B) :=
  match l with
  | [] => Some []
  | a :: t => match f a, opt_map f t with
              | Some b, Some bs => Some (b :: bs)
              | _, _ => None
              end
  end.

Definition sx_opt {A} (f : sx -> option A) (x : sx) : option (option A) :=
  match x with
  | SL [] => Some None
  | SL [y] => match f y with Some a => Some (Some a) | None => None end
  | _ => None
  end.

Definition sx_listof {A} (f : sx -> option A) (x : sx) : option (list A) :=
  match x with SL l => opt_map f l | _ => None end.

Definition of_bool (b : bool) : sx := SI (if b then 1 else 0).
Definition of_opt {A} (f : A -> sx) (o : option A) : sx :=
  match o with None => SL [] | Some a => SL [f a] end.
Definition of_list {A} (f : A -> sx) (l : list A) : sx := SL (map f l).

Lemma firstn_app_exact {A} (a b : list A) : firstn (length a) (a ++ b) = a.
Proof. induction a; simpl; congruence. Qed.
Lemma skipn_app_exact {A} (a b : list A) : skipn (length a) (a ++ b) = b.
Proof. induction a; simpl; congruence. Qed.

Fixpoint depth (x : sx) : nat :=
  match x with
  | SL l => S (fold_right (fun y d => Nat.max (depth y) d) O l)
  | _ => 1%nat
  end.

Lemma dec_enc : forall fuel x rest, (depth x <= fuel)%nat -> dec fuel (enc x ++ rest) = Some (x, rest).
Proof.
  induction fuel as [|f IH]; intros x rest Hd.
  - destruct x; simpl in Hd; lia.
  - destruct x as [z|s|l].
    + reflexivity.
    + cbn [enc app dec].
      assert (Hn : (Z.of_nat (length s) <? 0) = false) by lia.
      rewrite Hn. cbn [orb].
      assert (Hl : (Z.of_nat (length (s ++ rest)) <? Z.of_nat (length s)) = false).
      { rewrite app_length. lia. }
      rewrite Hl. rewrite Nat2Z.id, firstn_app_exact, skipn_app_exact. reflexivity.
    + cbn [enc app dec].
      assert (Hn : (Z.of_nat (length l) <? 0) = false) by lia.
      rewrite Hn. rewrite Nat2Z.id.
      assert (Hgen : forall l acc rest,
                 (forall y, In y l -> (depth y <= f)%nat) ->
                 (fix items (k : nat) (inp : list Z) (acc : list sx) : option (sx * list Z) :=
                    match k with
                    | O => Some (SL (rev acc), inp)
                    | S k' => match dec f inp with
                              | Some (x, inp') => items k' inp' (x :: acc)
                              | None => None
                              end
                    end) (length l) (flat_map enc l ++ rest) acc
                 = Some (SL (rev acc ++ l), rest)).
      { clear - IH. induction l as [|y l IHl]; intros acc rest Hy.
        - simpl. rewrite app_nil_r. reflexivity.
        - cbn [length flat_map]. rewrite <- app_assoc.
          rewrite IH by (apply Hy; left; reflexivity).
          rewrite IHl by (intros; apply Hy; right; assumption).
          cbn [rev]. rewrite <- app_assoc. reflexivity. }
      rewrite Hgen; [reflexivity|].
      intros y Hy. simpl in Hd.
      assert (Hmax : forall l y, In y l -> (depth y <= fold_right (fun y d => Nat.max (depth y) d) O l)%nat).
      { clear. induction l as [|a l IHl]; intros y H; [destruct H|].
        destruct H as [->|H]; simpl; [lia|]. specialize (IHl _ H). lia. }
      specialize (Hmax _ _ Hy). lia.
Qed.

Lemma depth_le_enc : forall x, (depth x <= length (enc x))%nat.
Proof.
  fix IH 1. intros [z|s|l]; simpl; try lia.
  assert (H : (fold_right (fun y d => Nat.max (depth y) d) O l <= length (flat_map enc l))%nat).
  { induction l as [|y l IHl]; simpl; [lia|]. rewrite app_length. specialize (IH y). lia. }
  lia.
Qed.

Theorem decode_encode : forall x, decode (enc x) = Some x.
Proof.
  intros x. unfold decode.
  pose proof (dec_enc (S (length (enc x))) x [] ) as H.
  rewrite app_nil_r in H. rewrite H; [reflexivity|].
  pose proof (depth_le_enc x). lia.
Qed.
