(* Outcome of a modelled API call: the documented exception classes that some property
   talks about, plus Crash k for Python-level exceptions that are not documented behaviour. *)
From Coq Require Import List ZArith.
From PV Require Import lib.Sx.
Import ListNotations.
Open Scope Z_scope.

Inductive err : Type :=
| ENoCaptions | ESyntax | ETiming | ELineLength | ERelativization | EInvalidInput
| ENotImplemented | EOutOfFuel
| ECrash (k : Z).   (* 1 IndexError 2 KeyError 3 ValueError 4 AttributeError 5 TypeError 9 other *)

Definition IndexError := ECrash 1.
Definition KeyError := ECrash 2.
Definition ValueError := ECrash 3.
Definition AttributeError := ECrash 4.
Definition TypeError := ECrash 5.

Inductive result (A : Type) : Type :=
| Ok (a : A)
| Err (e : err).
Arguments Ok {A} a.
Arguments Err {A} e.

Definition bind {A B} (r : result A) (f : A -> result B) : result B :=
  match r with Ok a => f a | Err e => Err e end.
Notation "'do' x <- r ; k" := (bind r (fun x => k)) (at level 200, x pattern, r at level 100, k at level 200).

Definition is_crash {A} (r : result A) : bool :=
  match r with Err (ECrash _) => true | _ => false end.

Definition err_code (e : err) : Z :=
  match e with
  | ENoCaptions => 1 | ESyntax => 2 | ETiming => 3 | ELineLength => 4
  | ERelativization => 5 | EInvalidInput => 6 | ENotImplemented => 7 | EOutOfFuel => 8
  | ECrash k => 100 + k
  end.

Definition err_of_code (z : Z) : err :=
  match z with
  | 1 => ENoCaptions | 2 => ESyntax | 3 => ETiming | 4 => ELineLength
  | 5 => ERelativization | 6 => EInvalidInput | 7 => ENotImplemented | 8 => EOutOfFuel
  | _ => ECrash (z - 100)
  end.

Definition of_result {A} (f : A -> sx) (r : result A) : sx :=
  match r with Ok a => SL [SI 0; f a] | Err e => SL [SI 1; SI (err_code e)] end.

Definition sx_result {A} (f : sx -> option A) (x : sx) : option (result A) :=
  match x with
  | SL [SI 0; y] => match f y with Some a => Some (Ok a) | None => None end
  | SL [SI 1; SI c] => Some (Err (err_of_code c))
  | _ => None
  end.

Fixpoint res_map {A B} (f : A -> result B) (l : list A) : result (list B) :=
  match l with
  | [] => Ok []
  | a :: t => do b <- f a; do bs <- res_map f t; Ok (b :: bs)
  end.
